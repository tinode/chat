(* C09  Read and received marks only move forward and stay within bounds.
   Theorems about the topic model Sys/Topic.v, for EVERY history of
   requests (any notes with any sequence numbers, publishes, deletions,
   permission changes, unloads, restarts, failing/crashing store calls). *)
From Coq Require Import ZArith NArith List Bool.
From Tinode Require Import Base.Util Pure.Acs Sys.Topic Sys.TopicTac Sys.TopicFrame Sys.TopicNum Sys.TopicNumThm Sys.TopicMarks Sys.TopicMono Sys.TopicCohMarks Sys.TopicCoh2.
Import ListNotations.
Open Scope Z_scope.

Section C09.
Variable dr : Z -> list (Z * Z) -> option (list (Z * Z)).
Variable nr : list (Z * Z) -> list (Z * Z).
Variable sm : sessmap.

(* Bounds, in every place the marks are stored or cached, in every reachable state:
   every stored read/recv lies in 0..seqid and every cached read/recv in 0..lastID. *)
Theorem c09_bounds : forall s h,
  fresh s -> smarks_ok 0 s ->
  let x := fst (run dr nr sm (mkState s None 0) h) in
  smarks_ok (t_seqid (st x)) (st x) /\
  match ca x with Some c => cmarks_ok (c_lastid c) c | None => True end.
Proof.
  intros s h F M0 x.
  pose proof (fresh_inv_marks s F M0) as I0.
  destruct (run_inv_marks dr nr sm h _ I0) as [_ R]. exact R.
Qed.

(* The note handler: either silent - no output, no state change at all (stale, future,
   permission-less and otherwise invalid notes; a typing note is relayed without any
   state change and only from a writer) - or the named mark moves FORWARD to seq <= lastID,
   the other mark is not lowered, read <= recv is preserved in the cache, and the relayed
   frames are exactly fanout_info. *)
Theorem c09_note : forall f s c n sid u what seq,
  let h := note f s c n sid u what seq in
  let p := get_pud c u in
  (h_st h = s /\ h_ca h = c /\ (h_out h = [] \/ (what = K_kp /\ is_writer (pud_mode p) = true /\ h_out h = fanout_info c sid what u seq)))
  \/
  (seq <= c_lastid c /\ is_reader (pud_mode p) = true /\ (what = K_read \/ what = K_recv) /\
   exists rd rc, h_ca h = c_set_users (aset u (p_set_marks rd rc p)) c /\
     p_read p <= rd /\ p_recv p <= rc /\ (rd = seq \/ rd = p_read p) /\ (rc = seq \/ rc = p_recv p \/ rc = p_read p) /\
     (p_read p <= p_recv p -> rd <= rc) /\
     ((what = K_read /\ p_read p < seq /\ rd = seq /\ h_st h = ad_subs_update s u (mkUpd None None (Some rd) None None)) \/
      (what = K_recv /\ p_recv p < seq /\ h_st h = ad_subs_update s u (mkUpd None None None (Some rc) None))) /\
     h_out h = fanout_info (h_ca h) sid what u seq).
Proof. exact note_cases. Qed.

(* A publish moves only the publisher's marks (both to the new number). *)
Theorem c09_publish_marks : forall f s c n sid u content noecho,
  let h := publish f s c n sid u content noecho in
  h_ca h = c \/ h_ca h = c_set_lastid (c_lastid c + 1) c \/
  h_ca h = c_set_users (aset u (p_set_marks (c_lastid c + 1) (c_lastid c + 1) (get_pud c u))) (c_set_lastid (c_lastid c + 1) c).
Proof. exact publish_ca. Qed.

(* No other request moves any mark: the marks of every cached user are as they were,
   or the entry is a fresh subscription with both marks 0. *)
Theorem c09_only_publish_and_note_move : forall f x o c c',
  ca x = Some c -> ca (fst (step dr nr sm f x o)) = Some c' ->
  (forall sid a b, o <> OPub sid a b) -> (forall sid a b, o <> ONote sid a b) ->
  marks_kept c c'.
Proof. exact (step_marks_kept dr nr sm). Qed.

(* Audience of a relayed note: exactly the attached sessions of users with read
   permission, never the originating session, typing notes never any session of the
   typist; the frame names the true sender. *)
Theorem c09_info_audience : forall c skip what from seq sid fr,
  In (sid, fr) (fanout_info c skip what from seq) <->
  fr = Info what from seq /\
  exists u bkg, In (sid, (u, bkg)) (c_sess c) /\ N.eqb sid skip = false /\ is_reader (user_mode c u) = true /\
                (N.eqb what K_kp && N.eqb u from) = false.
Proof.
  intros c skip what from seq sid fr.
  unfold fanout_info. rewrite in_flat_map. split.
  - intros [[s0 [u0 b0]] [Hin H]].
    destruct (N.eqb s0 skip) eqn:E1; [destruct H|].
    destruct (negb (is_reader (user_mode c u0))) eqn:E2; [destruct H|]. apply negb_false_iff in E2.
    destruct (N.eqb what K_kp && N.eqb u0 from) eqn:E3; [destruct H|].
    destruct H as [H|[]]. inv H. split; [reflexivity|]. exists u0, b0. auto.
  - intros [-> [u [bkg [Hin [E1 [E2 E3]]]]]]. exists (sid, (u, bkg)). split; [exact Hin|].
    rewrite E1, E2, E3. cbn. now left.
Qed.

(* Neither mark ever decreases: at every step of every history (any notes with any sequence
   numbers, publishes, deletions, permission changes, failing store calls), for every user who
   has a cache entry before and after the step (one subscription, topic loaded), both cached
   marks after the step are at least what they were. *)
Theorem c09_monotone : forall s h fo c c',
  fresh s -> smarks_ok 0 s ->
  let x := fst (run dr nr sm (mkState s None 0) h) in
  ca x = Some c -> ca (fst (step_f dr nr sm x fo)) = Some c' ->
  mono c c'.
Proof.
  intros s h fo c c' F M0 x Hc Hc'.
  pose proof (fresh_inv_marks s F M0) as I0.
  pose proof (run_inv_marks dr nr sm h _ I0) as IM. fold x in IM.
  unfold step_f in Hc'. destruct (step dr nr sm (fst fo) x (snd fo)) as [x1 o1] eqn:ES.
  destruct (fst fo) eqn:EF; cbn [fst ca] in Hc'; try discriminate;
    eapply (step_mono dr nr sm _ x (snd fo)); eauto; rewrite ES; exact Hc'.
Qed.

(* ... and a request that is neither a publish nor a note leaves the marks of every such user
   exactly as they were (sharper than c09_only_publish_and_note_move: an existing entry is never
   replaced by a fresh one). *)
Theorem c09_others_keep_marks : forall f x o c c',
  ca x = Some c -> ca (fst (step dr nr sm f x o)) = Some c' ->
  (forall sid a b, o <> OPub sid a b) -> (forall sid a b, o <> ONote sid a b) ->
  same_marks c c'.
Proof. intros. apply T_same. eapply (step_T dr nr sm); eauto. Qed.

(* Every invalid note is dropped without any reply or side effect, session layer included:
   unknown kind, typing note with a seq, read/recv with seq <= 0, and - once it reaches the topic
   (attached session, or a recv routed through the hub) - seq beyond lastID, typing without W,
   read/recv without R or without a subscription, read/recv not above the sender's current
   mark (stale, duplicate): the request leaves store and cache as they were and produces no
   frame for anybody. *)
Theorem c09_invalid_silent : forall f s c n0 sid what seq,
  note_dropped c (attached c sid) (sess_uid sm sid) what seq = true ->
  step dr nr sm f (mkState s (Some c) n0) (ONote sid what seq) = (mkState s (Some c) 0, []).
Proof. exact (step_note_silent dr nr sm). Qed.

(* Topic not loaded: no note changes anything; the only possible output is the 409 that a
   read / typing note from a session that is not attached gets. *)
Theorem c09_note_unloaded : forall f s n0 sid what seq,
  fst (step dr nr sm f (mkState s None n0) (ONote sid what seq)) = mkState s None 0 /\
  (snd (step dr nr sm f (mkState s None n0) (ONote sid what seq)) = [] \/
   snd (step dr nr sm f (mkState s None n0) (ONote sid what seq)) = [(sid, Ctrl 409 [])]).
Proof. exact (step_note_unloaded dr nr sm). Qed.

(* The STORED marks never decrease either.  [sk s u] is the subscription row of u as
   SubscriptionGet returns it, reduced to (deleted, read, recv); [smono s s'] says: for every user
   whose row is live in s and in s', neither stored mark is lower in s'.  This holds at every step
   (request, with any failing or crashing store call) of every history from a store with one row
   per user, provided the sessions that publish or send notes are logged in (uid 0 is "nobody":
   in the store contract SubsUpdate with uid 0 means every subscription). *)
Theorem c09_store_monotone : forall s h fo,
  fresh s -> smarks_ok 0 s -> und s ->
  Forall (fun fo => op_user_ok sm (snd fo)) h -> op_user_ok sm (snd fo) ->
  let x := fst (run dr nr sm (mkState s None 0) h) in
  smono (st x) (st (fst (step_f dr nr sm x fo))).
Proof.
  intros s h fo F M0 U OKh OKfo x.
  pose proof (fresh_inv_marks s F M0) as I0.
  assert (inv_coh (mkState s None 0)) as C0 by (split; [exact U|exact I]).
  pose proof (run_inv_marks dr nr sm h _ I0) as IM. pose proof (run_coh dr nr sm h _ OKh I0 C0) as IC.
  exact (proj2 (step_f_coh dr nr sm x fo OKfo IM IC)).
Qed.

(* The invariant behind it: in every reachable state with the topic loaded the store is not ahead
   of the topic - every live subscription row has a cache entry whose marks are at least the stored
   ones (they differ only through the recorded finding and through ignored store errors). *)
Theorem c09_store_not_ahead : forall s h,
  fresh s -> smarks_ok 0 s -> und s ->
  Forall (fun fo => op_user_ok sm (snd fo)) h ->
  let x := fst (run dr nr sm (mkState s None 0) h) in
  und (st x) /\ match ca x with Some c => coh (st x) c | None => True end.
Proof.
  intros s h F M0 U OKh x.
  pose proof (fresh_inv_marks s F M0) as I0.
  assert (inv_coh (mkState s None 0)) as C0 by (split; [exact U|exact I]).
  exact (run_coh dr nr sm h _ OKh I0 C0).
Qed.
End C09.

(* the hypotheses of c09_store_monotone are satisfiable *)
Example c09_store_monotone_hyps :
  let s0 := ad_sub_create (ad_sub_create (mkStore true 0 0 0 47 0 [] [] [] [(1%N, 47%N); (2%N, 47%N)]) 1%N 255%N 255%N) 2%N 47%N 47%N in
  fresh s0 /\ smarks_ok 0 s0 /\ und s0 /\
  Forall (fun fo => op_user_ok [(1%N, 1%N); (2%N, 2%N)] (snd fo))
         [(NoFault, OSub 1 [] false); (NoFault, OPub 1 7 false); (NoFault, ONote 2 K_read 1)].
Proof.
  cbn zeta. split; [split; reflexivity|]. split; [repeat constructor; cbn; discriminate|].
  split; [unfold und; vm_compute; repeat constructor; cbn; intuition discriminate|].
  repeat constructor; cbn; discriminate.
Qed.

(* handler-level form of the same fact, for every row of the list (hypothesis = the sender's stored
   marks are not ahead of the cached ones, which c09_store_not_ahead establishes for reachable
   states): the note handler never lowers a stored mark; rows of other users are untouched. *)
Theorem c09_note_store_forward_partial : forall f s c n sid u what seq,
  u <> 0%N ->
  (forall r, In r (subs s) -> s_user r = u -> s_read r <= p_read (get_pud c u) /\ s_recv r <= p_recv (get_pud c u)) ->
  Forall2 row_le (subs s) (subs (h_st (note f s c n sid u what seq))).
Proof. exact note_store_forward. Qed.

(* the hypotheses of c09_invalid_silent are satisfiable: a stale recv strictly between the read
   and the received mark (the shape of a two-device client) is one of the dropped notes *)
Example c09_stale_between_is_dropped :
  let c := mkCache 8 0 1%N 47%N 0%N [(1%N, mkPud 255 255 8 8 0 1); (2%N, mkPud 47 47 3 6 0 1)] [(1%N, (1%N, false)); (2%N, (2%N, false))] in
  note_dropped c true 2%N K_recv 5 = true /\ note_dropped c true 2%N K_recv 7 = false /\ note_dropped c true 2%N K_read 5 = false.
Proof. repeat split; reflexivity. Qed.

(* The full statement "read <= recv wherever stored" is REFUTED by the faithful model
   (known finding stored-read-le-recv): a read note from a reader who has not
   acknowledged receipt stores read = n with recv unchanged. *)
Definition c09_stored_read_le_recv_statement : Prop :=
  forall sm s h, fresh s -> smarks_ok 0 s ->
    Forall (fun r => s_read r <= s_recv r)
           (subs (st (fst (run (fun _ _ => None) (fun x => x) sm (mkState s None 0) h)))).
Theorem c09_stored_read_le_recv_refuted : ~ c09_stored_read_le_recv_statement.
Proof.
  intros H.
  pose (s0 := ad_sub_create (ad_sub_create (mkStore true 0 0 0 47 0 [] [] [] [(1%N, 47%N); (2%N, 47%N)]) 1%N 255%N 255%N) 2%N 47%N 47%N).
  specialize (H [(1%N, 1%N); (2%N, 2%N)] s0
    [(NoFault, OSub 1 [] false); (NoFault, OSub 2 [] false); (NoFault, OPub 1 7 false); (NoFault, ONote 2 K_read 1)]).
  assert (fresh s0) as F by (split; reflexivity).
  assert (smarks_ok 0 s0) as M by (repeat constructor; cbn; discriminate).
  specialize (H F M). vm_compute in H.
  inversion H as [|? ? _ H2]; subst. inversion H2 as [|? ? H3 _]; subst. apply H3. reflexivity.
Qed.

(* The full statement "a cached mark never decreases while the subscription lasts" is REFUTED
   across a reload of the topic (same defect as stored-read-le-recv): a read note raises the
   cached received mark but stores the read mark alone, so after unload + reload the cached
   received mark is back at its stored value.  c09_monotone is the partial statement (topic
   stays loaded). *)
Definition no_unsub (fo : fault * op) : bool :=
  match snd fo with OLeave _ true => false | ODelSub _ _ => false | _ => true end.
Definition c09_cached_monotone_across_reload_statement : Prop :=
  forall sm s h1 h2 c c', fresh s -> smarks_ok 0 s -> forallb no_unsub h2 = true ->
    ca (fst (run (fun _ _ => None) (fun x => x) sm (mkState s None 0) h1)) = Some c ->
    ca (fst (run (fun _ _ => None) (fun x => x) sm
               (fst (run (fun _ _ => None) (fun x => x) sm (mkState s None 0) h1)) h2)) = Some c' ->
    mono c c'.
Theorem c09_cached_monotone_across_reload_refuted : ~ c09_cached_monotone_across_reload_statement.
Proof.
  intros H.
  pose (s0 := ad_sub_create (ad_sub_create (mkStore true 0 0 0 47 0 [] [] [] [(1%N, 47%N); (2%N, 47%N)]) 1%N 255%N 255%N) 2%N 47%N 47%N).
  pose (sm0 := [(1%N, 1%N); (2%N, 2%N)]).
  pose (h1 := [(NoFault, OSub 1 [] false); (NoFault, OSub 2 [] false); (NoFault, OPub 1 7 false); (NoFault, ONote 2 K_read 1)]).
  pose (h2 := [(NoFault, OLeave 1 false); (NoFault, OLeave 2 false); (NoFault, OUnload); (NoFault, OSub 2 [] false)]).
  assert (fresh s0) as F by (split; reflexivity).
  assert (smarks_ok 0 s0) as M by (repeat constructor; cbn; discriminate).
  eassert (ca (fst (run (fun _ _ => None) (fun x => x) sm0 (mkState s0 None 0) h1)) = Some _) as E1
    by (vm_compute; reflexivity).
  eassert (ca (fst (run (fun _ _ => None) (fun x => x) sm0
                      (fst (run (fun _ _ => None) (fun x => x) sm0 (mkState s0 None 0) h1)) h2)) = Some _) as E2
    by (vm_compute; reflexivity).
  pose proof (H sm0 s0 h1 h2 _ _ F M eq_refl E1 E2) as HM.
  specialize (HM 2%N _ _ eq_refl eq_refl). destruct HM as [_ HM]. vm_compute in HM. apply HM. reflexivity.
Qed.

Print Assumptions c09_bounds.
Print Assumptions c09_note.
Print Assumptions c09_publish_marks.
Print Assumptions c09_only_publish_and_note_move.
Print Assumptions c09_info_audience.
Print Assumptions c09_stored_read_le_recv_refuted.
Print Assumptions c09_monotone.
Print Assumptions c09_others_keep_marks.
Print Assumptions c09_invalid_silent.
Print Assumptions c09_note_unloaded.
Print Assumptions c09_note_store_forward_partial.
Print Assumptions c09_cached_monotone_across_reload_refuted.
Print Assumptions c09_store_monotone.
Print Assumptions c09_store_not_ahead.

(* ---- audience of relayed notifications on topics WITH channel subscriptions (fan-out slice Sys/Fanout.v,
   built for C02; the group-topic model above has no channel readers).  Re-stated here because the clause
   "relayed notifications reach only attached sessions of users with read permission - never the originating
   session, never channel readers, typing notes never any session of the typist" belongs to C09; the C09 check
   runs the fan-out driver and the info-* laws on the implementation's frames (tools/props/c09.py relay_audience). *)
From Tinode Require Import Sys.Fanout Sys.FanoutProofs.
From Coq Require Import Permutation.

Theorem c09_relay_exact_set : forall st ix,
  Permutation (map fst (info_fanout st ix)) (map fst (filter (info_eligible st ix) (st_sess st))) /\
  (wf_sess st -> NoDup (map fst (info_fanout st ix))) /\
  (forall s, In s (map fst (info_fanout st ix)) <->
             exists d, In (s, d) (st_sess st) /\ info_eligible st ix (s, d) = true).
Proof. exact info_exact_set. Qed.
Print Assumptions c09_relay_exact_set.

(* ---- notes on p2p / group topics with UNSUBSCRIBED (deleted) parties, and the {info} copies routed through the
   'me' topics (presence slice Sys/Pres.v, built for C10: several users, 'me' + p2p + group topics side by side,
   a network of in-flight inter-topic notifications delivered in any interleaving; Sys/PresNoteC09.v adds the
   Info.From label).  The group-topic model above has neither deleted p2p parties nor 'me' topics.  The clauses
   "a mark moves only when its user ... sends a note while subscribed with read permission", "every invalid note is
   dropped without any reply or side effect", "never the originating session", "name the true sender" are stated
   here for that slice; the C09 check runs the presence driver on note scenarios and evaluates the laws
   note-from-unsubscribed-user-silent, invalid-/stale-/unpermitted-note-silent, info-not-to-originating-session,
   info-names-true-sender, info-names-recipients-topic on the IMPLEMENTATION's frames, adapter calls and marks
   (tools/props/c09.py pres_notes). *)
From Tinode Require Import Sys.Pres Sys.PresProofs Sys.PresLeak Sys.PresNoteC09 Sys.PresNoteC09Proofs.

(* A {note} of any kind, with any seq, through any session, from a user who has no live subscription to the topic
   - never subscribed, or unsubscribed: a p2p party keeps its perUser entry marked deleted, WITH its old want/given -
   leaves the whole state as it was (every cached and stored mark of every user, the network: nothing is routed to
   any 'me' topic) and hands no frame to anybody.  Every state, reachable or not. *)
Theorem c09_pres_note_unsubscribed_silent : forall s sid u r w seq,
  live_sub s (resolve u r) u = false ->
  step s (Note sid u r w seq) = (s, []) \/ step s (Note sid u r w seq) = (s, [Skipped]).
Proof. intros s sid u r w seq L. apply step_note_silent, unsubscribed_not_acceptable, L. Qed.

(* ... and so does every other note that is not acceptable: sender without R (W for typing), seq not in
   (current mark, lastID] (0 for typing), unknown kind, topic not loaded, anything but "recv" from a session that
   is not attached.  ([Skipped] = the request the driver does not send: refused at the session with 409.) *)
Theorem c09_pres_invalid_note_silent : forall s sid u r w seq,
  note_acceptable s sid u (resolve u r) w seq = false ->
  step s (Note sid u r w seq) = (s, []) \/ step s (Note sid u r w seq) = (s, [Skipped]).
Proof. exact step_note_silent. Qed.

(* never the originating session, inside the topic ... *)
Theorem c09_pres_info_not_to_origin_in_topic : forall s sid u t w seq sid' user top src w',
  In (Frame sid' user top src w') (snd (note_op s sid u t w seq)) -> sid' <> sid.
Proof. exact note_frames_not_origin. Qed.

(* ... whatever a note puts in flight (the {pres read|recv} for the sender's other sessions, the {info} for every
   'me' topic - the SENDER's own included) carries SkipSid = the originating session; an {info} carries From = the
   sender and SkipTopic = the topic ... *)
Theorem c09_pres_note_in_flight_tagged : forall s sid u t w seq g,
  In g (s_net (fst (note_op s sid u t w seq))) -> In g (s_net s) \/ note_tag sid u t w g.
Proof. exact adds_note_tag. Qed.

(* ... and a delivery never hands a message to the session its SkipSid names (any destination, any state). *)
Theorem c09_pres_skipsid_respected : forall s g k user top src w,
  m_skipsid g = Some k -> ~ In (Frame k user top src w) (snd (deliver_msg s g)).
Proof. exact deliver_skipsid. Qed.

(* Only a {note} puts an {info} in flight: in every reachable state, every {info} in flight was made by a {note} of
   the history, and carries that note's session as SkipSid, its user as From, its topic as SkipTopic. *)
Theorem c09_pres_info_provenance : forall h, Forall (note_sent h) (s_net (fst (run init h))).
Proof. exact net_note_sent. Qed.

(* END TO END over all histories and all interleavings of deliveries: an {info} frame a session reads when an
   in-flight message is delivered - i.e. through a 'me' topic - names as From the user of a {note} of the same kind
   that is in the history; that note came through ANOTHER session; the reading session is not attached to the
   note's topic; the frame arrives on the reader's own 'me'; a typing note reaches no session of the typist. *)
Theorem c09_pres_info_end_to_end : forall h i g rest sid user top src w f,
  take_nth i [] (s_net (fst (run init h))) = Some (g, rest) ->
  In (Frame sid user top src w, f) (snd (step_from (fst (run init h)) (Deliver i))) ->
  is_info w = true ->
  exists sid0 u0 r0 seq0,
    In (Note sid0 u0 r0 w seq0) h /\ r0 <> RMe /\ f = Some u0 /\ sid <> sid0 /\
    sess_on (fst (run init h)) sid (resolve u0 r0) = false /\
    (w = WIKp -> user <> u0) /\ top = TMe user.
Proof. exact info_end_to_end. Qed.

(* inside the topic every frame of a note names the user the note was sent as *)
Theorem c09_pres_info_names_sender_in_topic : forall s sid u r w seq fr f,
  In (fr, f) (snd (step_from s (Note sid u r w seq))) -> f = Some u.
Proof.
  intros s sid u r w seq fr f. unfold step_from. destruct (step s (Note sid u r w seq)) as [s1 o1]. cbn [snd info_from].
  intros H. apply in_map_iff in H as [x [E _]]. injection E as _ <-. reflexivity.
Qed.

(* the labelled run is the run of Sys/Pres.v with a label added: same states, same frames *)
Theorem c09_pres_labelled_run_projects : forall h s,
  fst (run_from s h) = fst (run s h) /\ map fst (snd (run_from s h)) = snd (run s h).
Proof. exact run_from_proj. Qed.

(* the hypotheses are satisfiable, on the two seeded situations: (1) user 1 unsubscribed from the p2p topic, which
   stays loaded, keeps R in the deleted entry, recv mark 0 < 1 <= lastID - the note changes nothing; (2) a "recv"
   from a session attached to 'me' only reaches the partner's attached session with From = the sender and is not
   echoed to the originating session on 'me'. *)
Theorem c09_pres_unsubscribed_recv_example :
  let s := fst (run init h_unsub_recv) in
  s_net s = [] /\ live_sub s (TP2P 1 2) 1 = false /\
  (exists x, get_top s (TP2P 1 2) = Some x /\ t_loaded x = true /\ t_lastid x = 1%Z /\
             is_reader (p_mode (get_pud x 1)) = true /\ p_recv (get_pud x 1) = 0%Z) /\
  step s (Note 1 1 (RP2P 2) WIRecv 1) = (s, []).
Proof. vm_compute. repeat split; try reflexivity. eexists. repeat split; reflexivity. Qed.

Theorem c09_pres_detached_recv_example :
  (forall user top src w f, ~ In (Frame 3 user top src w, f) (snd (run_from init h_detached_recv)) \/ is_info w = false) /\
  In (Frame 2 2 (TP2P 1 2) (TMe 1) WIRecv, Some 1%N) (snd (run_from init h_detached_recv)) /\
  s_net (fst (run_from init h_detached_recv)) = [].
Proof.
  split; [|split].
  - intros user top src w f. destruct (is_info w) eqn:I; [left|right; reflexivity].
    intros Hin. pose proof detached_recv_check as C. unfold no_info_to in C.
    rewrite forallb_forall in C. specialize (C _ Hin). cbn [fst] in C. rewrite N.eqb_refl, I in C. discriminate C.
  - vm_compute. repeat (first [left; reflexivity | right]).
  - vm_compute. reflexivity.
Qed.

Print Assumptions c09_pres_note_unsubscribed_silent.
Print Assumptions c09_pres_invalid_note_silent.
Print Assumptions c09_pres_info_not_to_origin_in_topic.
Print Assumptions c09_pres_note_in_flight_tagged.
Print Assumptions c09_pres_skipsid_respected.
Print Assumptions c09_pres_info_provenance.
Print Assumptions c09_pres_info_end_to_end.
Print Assumptions c09_pres_info_names_sender_in_topic.
Print Assumptions c09_pres_labelled_run_projects.
Print Assumptions c09_pres_unsubscribed_recv_example.
Print Assumptions c09_pres_detached_recv_example.

(* ---- the marks ACROSS TOPIC LOADS (Sys/LoadMarksC09.v: the load paths of every topic kind - initTopicP2P in each of its
   branches, initTopicGrp / initTopicSys / initTopicMe / initTopicFnd through loadSubscribers - with the read / recv / del
   marks they copy into Topic.perUser, and the marks slice of a p2p topic and of 'sys' on top of them).  The group-topic
   model above reloads through Topic.load only; a p2p topic is loaded through four branches that build the two parties'
   entries from DIFFERENT records.  Clause: "neither mark ever decreases ... in every place they are reported and stored" -
   a reload must give every user back his OWN stored marks.  The C09 check runs the p2p / sys load-marks driver
   (zz_verif_c09l_test.go) and evaluates loaded-marks-equal-stored, reported-marks-not-below-stored,
   reported-marks-monotone-across-reload, stale-note-silent, marks-monotone on the IMPLEMENTATION's trace
   (tools/props/c09load.py).

   [smk s u] = (read, recv, del) of u's live subscription row as SubscriptionGet finds it; [kmk c u] = the same three
   of u's live perUser entry; [keq s c] = every live entry of the cache carries exactly the marks of its user's live row;
   [und s] = one row per user (the unique key of the subscriptions table); [p2p_parties s u1 u2] = the rows of a p2p topic
   belong to its two parties (the topic name is made of the two user ids). *)
From Tinode Require Import Sys.TopicLoad Sys.LoadMarksC09 Sys.LoadMarksC09Proofs.

(* AFTER ANY LOAD - every topic kind, every branch of initTopicP2P (both subscriptions / the requester's exists and the
   other party's is recreated / the other party's exists and the requester's is recreated / new topic), any failing store
   call - every cached mark (read, recv, del) equals the STORED mark of that same user's row in the store the load leaves
   behind (0 for a row the load has just created), and no entry is marked deleted. *)
Theorem c09_load_marks_equal_stored : forall k f s n u1 u2 s' c n' ns,
  und s -> (k = KP2P -> p2p_parties s u1 u2 /\ (t_exists s = false -> subs s = [])) ->
  kinit_topic k f s n u1 u2 = KOk s' c n' ns ->
  keq s' c /\ forall u p, alookup u (k_users c) = Some p -> kp_deleted p = false.
Proof. intros. split; [eapply kinit_topic_keq; eauto|]. intros. eapply kinit_topic_live; eauto. Qed.

(* ... and still so when the request that caused the load has been answered (subscriptionReply -> thisUserSub: a
   changed want is written without marks, a new 'sys' subscriber starts from zero in cache and store), and after the
   'sys' topic has been loaded by a restarted process. *)
Theorem c09_load_request_marks_equal_stored : forall (k : lkind) root f s n u1 u2 sid s1 c n1 ns ns',
  und s -> (k = LP2P -> p2p_parties s u1 u2 /\ (t_exists s = false -> subs s = [])) ->
  kload k f s n u1 u2 = KOk s1 c n1 ns ->
  keq (kh_st (ksub k root f s1 c n1 sid u1 ns')) (kh_ca (ksub k root f s1 c n1 sid u1 ns')).
Proof. exact load_request_keq. Qed.
Theorem c09_boot_marks_equal_stored : forall k s c, und s -> kboot k s = Some c -> keq s c.
Proof. exact kboot_keq. Qed.
(* subscriptionReply never breaks it, loaded or not *)
Theorem c09_sub_keeps_marks_equal_stored : forall k root f s c n sid u ns,
  keq s c -> keq (kh_st (ksub k root f s c n sid u ns)) (kh_ca (ksub k root f s c n sid u ns)).
Proof. exact ksub_keq. Qed.

(* Hence what is REPORTED after a reload is never below what is stored: {get desc} reports exactly the user's own stored
   read mark, max(stored recv, stored read) and max(stored del, topic delID) ... *)
Theorem c09_reload_reports_stored : forall s c n sid u p rd rc dl,
  keq s c -> alookup u (k_users c) = Some p -> kp_deleted p = false -> is_reader (kp_mode p) = true ->
  smk s u = Some (rd, rc, dl) ->
  kh_out (kget_desc s c n sid u) =
    [(sid, MetaDesc (kp_want p) (kp_given p) (k_lastid c) rd (Z.max rc rd) (Z.max dl (k_delid c)) true)].
Proof. exact kget_desc_reports. Qed.

(* ... and a read / recv note that is not above the sender's STORED mark is dropped without any effect: store, cache and
   the number of adapter calls are as they were, nothing is relayed. *)
Theorem c09_reload_stale_note_silent : forall f s c n sid u what seq p rd rc dl,
  keq s c -> alookup u (k_users c) = Some p -> kp_deleted p = false -> smk s u = Some (rd, rc, dl) ->
  (what = K_read /\ seq <= rd) \/ (what = K_recv /\ seq <= rc) ->
  knote f s c n sid u what seq = mkKH s c n [].
Proof.
  intros f s c n sid u what seq p rd rc dl K AL D S H. apply knote_stale.
  assert (kmk c u = Some (kp_read p, kp_recv p, kp_delid p)) as M by (unfold kmk; rewrite AL, D; reflexivity).
  apply K in M. rewrite S in M. injection M as -> -> _. unfold kget. rewrite AL. exact H.
Qed.
Theorem c09_p2p_stale_note_silent : forall f s c n sid u what seq,
  (what = K_read /\ seq <= kp_read (kget c u)) \/ (what = K_recv /\ seq <= kp_recv (kget c u)) ->
  knote f s c n sid u what seq = mkKH s c n [].
Proof. exact knote_stale. Qed.

(* the hypotheses are satisfiable, on the seeded situation: user 1 unsubscribed (row soft-deleted with its old marks
   7/8), user 2 has read 5 / recv 7 of 9 messages, the topic is not loaded and user 1 re-subscribes first: the load takes
   the branch "the other party's subscription exists, the requester's is recreated"; user 2's entry carries 5 / 7, user
   1's row and entry restart from 0; a {note read 3} of user 2 is then dropped. *)
Definition c09_load_example_store : store :=
  mkStore true 9 0 0 0 0 [mkSub 1 31 31 7 8 0 true; mkSub 2 31 31 5 7 1 false] [] [] [(1%N, 47%N); (2%N, 47%N)].
Example c09_load_example :
  und c09_load_example_store /\ p2p_parties c09_load_example_store 1 2 /\
  exists s' c n',
    kinit_topic KP2P NoFault c09_load_example_store 0 1 2 = KOk s' c n' true /\
    kmk c 2 = Some (5, 7, 1) /\ smk s' 2 = Some (5, 7, 1) /\ kmk c 1 = Some (0, 0, 0) /\ smk s' 1 = Some (0, 0, 0) /\
    knote NoFault s' c 0 3 2 K_read 3 = mkKH s' c 0 [].
Proof.
  split; [unfold und; cbn; repeat constructor; cbn; intuition discriminate|].
  split; [intros r [<-|[<-|[]]]; cbn; auto|].
  eexists _, _, _. split; [vm_compute; reflexivity|]. repeat split; vm_compute; reflexivity.
Qed.

(* The cache marks equal the stored ones after a load - NOT in every reachable state: the full statement is REFUTED by the
   faithful model through the recorded finding stored-read-le-recv (a read note raises the cached received mark and
   stores the read mark alone).  c09_load_marks_equal_stored / c09_load_request_marks_equal_stored are the partial
   statement (the state right after a load). *)
Definition c09_cache_marks_equal_stored_always_statement : Prop :=
  forall k sm roots ua ub s h c, und s -> p2p_parties s ua ub ->
    y_ca (fst (krun k sm roots ua ub (mkKS s None 0) h)) = Some c ->
    keq (y_st (fst (krun k sm roots ua ub (mkKS s None 0) h))) c.
Theorem c09_cache_marks_equal_stored_always_refuted : ~ c09_cache_marks_equal_stored_always_statement.
Proof.
  intros H.
  pose (s0 := mkStore true 9 0 0 0 0 [mkSub 1 31 31 0 0 0 false; mkSub 2 31 31 0 0 0 false] [] [] [(1%N, 47%N); (2%N, 47%N)]).
  pose (sm0 := [(1%N, 1%N); (2%N, 2%N)]).
  pose (h0 := [(NoFault, KSub 1 false); (NoFault, KNote 1 K_read 2)]).
  assert (und s0) as U by (unfold und; cbn; repeat constructor; cbn; intuition discriminate).
  assert (p2p_parties s0 1 2) as PP by (intros r [<-|[<-|[]]]; cbn; auto).
  eassert (y_ca (fst (krun LP2P sm0 [] 1 2 (mkKS s0 None 0) h0)) = Some _) as E by (vm_compute; reflexivity).
  pose proof (H LP2P sm0 [] 1%N 2%N s0 h0 _ U PP E 1%N (2, 2, 0)) as K.
  assert (smk (y_st (fst (krun LP2P sm0 [] 1 2 (mkKS s0 None 0) h0))) 1 = Some (2, 0, 0)) as S by (vm_compute; reflexivity).
  rewrite S in K. assert (Some (2, 0, 0) = Some (2, 2, 0)) as X by (apply K; vm_compute; reflexivity). discriminate X.
Qed.

(* The loaders of this slice are those of the C01 load-path model (Sys/TopicLoad.v, corresponded to the code by the C01 check
   on lastID / delID / want / given) with the marks added: forgetting read / recv / del gives exactly C01's result - same
   store calls, same branches, same errors, same store, same counters, same modes. *)
Theorem c09_load_refines_c01_p2p : forall f s n u1 u2, forget_r (kinit_p2p f s n u1 u2) = init_p2p f s n u1 u2.
Proof.
  intros f s n u1 u2. unfold kinit_p2p, init_p2p.
  repeat (break_match; cbn [forget_r]; try reflexivity; try discriminate);
    unfold forget_c; cbn [k_lastid k_delid k_users k_sess];
    try (rewrite map_forget_load; reflexivity);
    rewrite map_forget_aset; reflexivity.
Qed.
Theorem c09_load_refines_c01_sys : forall f s n, forget_r (kinit_sys f s n) = init_sys f s n.
Proof.
  intros f s n. unfold kinit_sys, kinit_grp, init_sys.
  repeat (break_match; cbn [forget_r]; try reflexivity; try discriminate).
  unfold forget_c; cbn [k_lastid k_delid k_users k_sess]. rewrite map_forget_load. reflexivity.
Qed.

(* ---- the same slice over EVERY HISTORY of a p2p topic (Sys/LoadMarksC09Hist.v): any notes with any sequence numbers,
   publishes, unsubscriptions, re-subscriptions by EITHER party, by usrXXX or by p2pXXX name, idle unloads, restarts, any
   failing or crashing store call, from any stored state [s] with one row per user, rows of the two parties only, no row
   without a topic row, stored marks at most seqid ([ksinv]), seqid >= 0 and uid 0 not an account ([kbase]); the acting
   sessions belong to the two parties ([kop_ok]). *)
From Tinode Require Import Sys.LoadMarksC09Hist.
From Coq Require Import Lia.

(* The STORED marks never decrease: at every step of every history, neither stored mark of a party whose subscription
   row is live before and after the step is lower afterwards - across every load branch of initTopicP2P included. *)
Theorem c09_p2p_store_monotone : forall sm roots ua ub s h fo,
  ua <> 0%N -> ub <> 0%N -> ksinv ua ub s -> kbase s ->
  Forall (fun fo => kop_ok sm ua ub (snd fo)) h -> kop_ok sm ua ub (snd fo) ->
  let x := fst (krun LP2P sm roots ua ub (mkKS s None 0) h) in
  ksmono (y_st x) (y_st (fst (kstep_f LP2P sm roots ua ub x fo))).
Proof.
  intros sm roots ua ub s h fo NA NB SI KB OKh OKfo x.
  pose proof (kinv_init ua ub s SI KB) as K0.
  pose proof (krun_inv sm roots ua ub NA NB h _ K0 OKh) as KI.
  exact (proj2 (kstep_f_inv sm roots ua ub NA NB x fo KI OKfo)).
Qed.

(* The invariant behind it, in every reachable state: the store keeps its shape and, while the topic is loaded, the topic
   row exists, 0 <= lastID <= seqid <= lastID + 1, an entry marked deleted (an unsubscribed party) has no live row, and
   every live entry has a live row whose marks are NOT AHEAD of the cached ones, the cached marks being at most lastID. *)
Theorem c09_p2p_store_not_ahead : forall sm roots ua ub s h,
  ua <> 0%N -> ub <> 0%N -> ksinv ua ub s -> kbase s ->
  Forall (fun fo => kop_ok sm ua ub (snd fo)) h ->
  let x := fst (krun LP2P sm roots ua ub (mkKS s None 0) h) in
  ksinv ua ub (y_st x) /\ kbase (y_st x) /\ match y_ca x with Some c => kcinv (y_st x) c | None => True end.
Proof.
  intros sm roots ua ub s h NA NB SI KB OKh x.
  pose proof (kinv_init ua ub s SI KB) as K0.
  exact (krun_inv sm roots ua ub NA NB h _ K0 OKh).
Qed.

(* ACROSS A RELOAD, in every reachable state in which the topic is not loaded: whichever party attaches first, through
   whichever branch of initTopicP2P, with whichever store call failing - if the topic gets loaded, then every party's
   live cache entry carries exactly that party's own stored marks (so {get desc} reports them: c09_reload_reports_stored,
   and a note not above them is dropped: c09_reload_stale_note_silent), the stored marks of rows that were live are
   untouched by the load, and the reachable-state invariant holds again. *)
Theorem c09_p2p_reload_restores_stored_marks : forall sm roots ua ub s h f u1 byname s' c n' ns,
  ua <> 0%N -> ub <> 0%N -> ksinv ua ub s -> kbase s ->
  Forall (fun fo => kop_ok sm ua ub (snd fo)) h ->
  let x := fst (krun LP2P sm roots ua ub (mkKS s None 0) h) in
  u1 = ua \/ u1 = ub ->
  kinit_p2p f (y_st x) 0 u1 (if byname : bool then 0%N else kpeer ua ub u1) = KOk s' c n' ns ->
  keq s' c /\ kcinv s' c /\ ksmono (y_st x) s' /\ ksinv ua ub s' /\
  forall u p, alookup u (k_users c) = Some p -> kp_deleted p = false.
Proof.
  intros sm roots ua ub s h f u1 byname s' c n' ns NA NB SI KB OKh x PU LD.
  destruct (c09_p2p_store_not_ahead sm roots ua ub s h NA NB SI KB OKh) as [SI1 [KB1 _]]. fold x in SI1, KB1.
  assert ((if byname then 0%N else kpeer ua ub u1) = kpeer ua ub u1 \/ (if byname then 0%N else kpeer ua ub u1) = 0%N) as P2
    by (destruct byname; auto).
  destruct (kload_inv ua ub NA NB _ _ _ _ _ _ _ _ _ SI1 KB1 PU P2 LD) as [A [_ [C [D E]]]].
  split; [exact E|]. split; [exact C|]. split; [exact D|]. split; [exact A|].
  intros u p AL. eapply (kinit_topic_live KP2P); [exact LD|exact AL].
Qed.

(* the hypotheses are satisfiable: the seeded stored state and a history that unloads and reloads *)
Example c09_p2p_hist_hyps :
  ksinv 1 2 c09_load_example_store /\ kbase c09_load_example_store /\
  Forall (fun fo => kop_ok [(1%N, 1%N); (2%N, 2%N)] 1 2 (snd fo))
         [(NoFault, KSub 1 false); (NoFault, KSub 2 false); (NoFault, KNote 2 K_read 6); (NoFault, KLeave 1 true);
          (NoFault, KLeave 2 false); (NoFault, KUnload); (NoFault, KSub 1 false); (NoFault, KGetDesc 2)].
Proof.
  split.
  - split; [unfold und; cbn; repeat constructor; cbn; intuition discriminate|].
    split; [intros r [<-|[<-|[]]]; cbn; auto|]. split; [discriminate|].
    intros u rd rc dl H. unfold smk in H. destruct (find_sub u (subs c09_load_example_store)) as [r|] eqn:FS; [|discriminate H].
    unfold find_sub in FS. apply find_some in FS. destruct FS as [[<-|[<-|[]]] _]; cbn in H; [discriminate H|].
    inversion H. subst. cbn. lia.
  - split; [split; [cbn; lia|reflexivity]|]. repeat (apply Forall_cons; [cbn; unfold party; auto|]). apply Forall_nil.
Qed.

Print Assumptions c09_load_marks_equal_stored.
Print Assumptions c09_load_request_marks_equal_stored.
Print Assumptions c09_boot_marks_equal_stored.
Print Assumptions c09_sub_keeps_marks_equal_stored.
Print Assumptions c09_reload_reports_stored.
Print Assumptions c09_reload_stale_note_silent.
Print Assumptions c09_p2p_stale_note_silent.
Print Assumptions c09_load_example.
Print Assumptions c09_cache_marks_equal_stored_always_refuted.
Print Assumptions c09_load_refines_c01_p2p.
Print Assumptions c09_load_refines_c01_sys.
Print Assumptions c09_p2p_store_monotone.
Print Assumptions c09_p2p_store_not_ahead.
Print Assumptions c09_p2p_reload_restores_stored_marks.
Print Assumptions c09_p2p_hist_hyps.
