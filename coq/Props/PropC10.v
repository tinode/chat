(* C10 Presence converges to the truth and never leaks.
   Model: Sys/Pres.v ('me', p2p and group topics of several users, the network of inter-topic
   notifications with per-(sender,destination) FIFO order and arbitrary interleaving; LOSSLESS-NETWORK
   hypothesis: no hub/topic queue overflows - a notification is dropped only when its destination topic is
   not loaded, as hub.go:247-263 does).  Lemmas: Sys/PresProofs.v, Sys/PresLeak.v, Sys/PresStuckC10Proofs.v.
   Theorems only. *)
From Coq Require Import List NArith ZArith Bool.
From Tinode Require Import Sys.Pres Sys.PresProofs Sys.PresLeak Sys.PresStuckC10 Sys.PresStuckC10Proofs.
Import ListNotations.
Open Scope N_scope.

(* ---------------------------------------------------------------- never leaks (SAFETY, every state, every step) *)

(* Only the delivery of a notification hands {pres} frames to sessions, and every {pres} frame handed out by a p2p
   or group topic goes to an attached session whose user's cached mode (want & given) has P unless what is acs or
   gone - the exemptions of passesPresenceFilters (topic.go:230-235) are exactly these two; every frame handed out
   by a 'me' topic goes to an attached session of its owner.  `entitled_at` evaluates this in the state in
   which the delivering topic ran its handler.  The one other operation that hands frames to sessions is a
   {note} (Note): the {info} read/recv/kp frames go to attached sessions of users whose mode has R
   (`entitled_note`, evaluated right after the note: the note changes marks, never modes).  For ALL states and
   operations, hence all histories and interleavings (`reach` is not even needed). *)
Theorem c10_no_leak : forall s o, Forall (entitled_at s o) (snd (step s o)).
Proof. exact no_leak_all. Qed.
Print Assumptions c10_no_leak.

(* lifted to histories: after any history h, whatever comes next *)
Theorem c10_no_leak_histories : forall h o, Forall (entitled_at (fst (run init h)) o) (snd (step (fst (run init h)) o)).
Proof. intros h o. exact (no_leak_all _ o). Qed.
Print Assumptions c10_no_leak_histories.

(* In every reachable state the sessions attached to a p2p/group topic belong to users who are current,
   non-deleted subscribers (evictUser detaches the sessions of removed and banned users) ... *)
Theorem c10_members : forall s, reach s -> members_ok s.
Proof. exact members_ok_reach. Qed.
Print Assumptions c10_members.

(* ... hence, for all histories and interleavings: a {pres} frame handed out by a p2p/group topic reaches only
   sessions of CURRENT NON-DELETED subscribers whose want & given has P (acs and gone excepted: P is not
   required for these two, membership still is); a frame handed out by a 'me' topic reaches its owner only.
   Strangers and removed users never get a frame. *)
Theorem c10_no_leak_reachable : forall s i g rest sid user top src w,
  reach s -> take_nth i [] (s_net s) = Some (g, rest) ->
  In (Frame sid user top src w) (snd (step s (Deliver i))) ->
  match top with
  | TMe u => user = u
  | t => exists x, get_top s t = Some x /\ In (sid, user) (t_sess x) /\ cached x user = true /\
                   (is_info w = false -> exempt w = false -> is_presencer (p_mode (get_pud x user)) = true)
  end.
Proof.
  intros s i g rest sid user top src w R T Hin. pose proof (no_leak_all s (Deliver i)) as A. rewrite Forall_forall in A.
  specialize (A _ Hin). unfold entitled_at in A. rewrite T in A. simpl in A.
  pose proof (members_ok_reach s R) as M.
  destruct top.
  - tauto.
  - destruct A as (x & G & I & P). exists x. repeat split; auto. exact (M _ _ _ _ G I).
  - destruct A as (x & G & I & P). exists x. repeat split; auto. exact (M _ _ _ _ G I).
Qed.
Print Assumptions c10_no_leak_reachable.

(* ... and the {info} frames a p2p/group topic makes from a {note} of an attached session reach only attached
   sessions of CURRENT NON-DELETED subscribers whose mode has R (in-topic receipts need R, not P: topic.go:1291). *)
Theorem c10_no_leak_note : forall s sid0 u0 r w0 seq sid user top src w,
  reach s -> In (Frame sid user top src w) (snd (step s (Note sid0 u0 r w0 seq))) ->
  is_info w = true /\
  exists x, get_top (fst (step s (Note sid0 u0 r w0 seq))) top = Some x /\ In (sid, user) (t_sess x) /\
            cached x user = true /\ is_reader (p_mode (get_pud x user)) = true.
Proof.
  intros s sid0 u0 r w0 seq sid user top src w R Hin. pose proof (no_leak_all s (Note sid0 u0 r w0 seq)) as A. rewrite Forall_forall in A.
  specialize (A _ Hin). unfold entitled_at, entitled_note in A. destruct A as [I A]. split; [exact I|].
  pose proof (members_ok_reach _ (reach_step s (Note sid0 u0 r w0 seq) R)) as M.
  destruct top; [destruct A| |]; destruct A as (x & G & Hs & Rd); exists x; repeat split; auto; exact (M _ _ _ _ G Hs).
Qed.
Print Assumptions c10_no_leak_note.

(* At the SOURCE: a notification which a p2p/group topic addresses to its subscribers' 'me' topics
   (presSubsOffline: on/off/msg/del/upd/...) goes only to non-deleted subscribers whose mode has P; the
   exemptions of presOfflineFilter (pres.go:708-719) are exactly: acs, gone, and upd for joiners. *)
Theorem c10_no_leak_source : forall z t x w c fsrc ftgt sk oo g,
  In g (pres_subs_offline z t x w c fsrc ftgt sk oo) ->
  exists uid p, m_dst g = TMe uid /\ In (uid, p) (t_users x) /\ p_deleted p = false /\ m_what g = w /\
    (exempt w = false -> is_presencer (p_mode p) = true \/ (w = WUpd /\ is_joiner (p_mode p) = true)).
Proof.
  intros z t x w c fsrc ftgt sk oo g H.
  apply pres_subs_offline_shape in H as (uid & p & D & Hin & Del & W & F & _). eauto 8.
Qed.
Print Assumptions c10_no_leak_source.

Theorem c10_no_leak_source_single : forall t uid mode w c sk oo g,
  In g (pres_single_offline t uid mode w c sk oo) ->
  exists m, mode = Some m /\ m_dst g = TMe uid /\ m_what g = w /\
    (exempt w = false -> is_presencer m = true \/ (w = WUpd /\ is_joiner m = true)).
Proof.
  intros t uid mode w c sk oo g H.
  apply pres_single_offline_shape in H as (m & M & D & W & F & _). eauto 6.
Qed.
Print Assumptions c10_no_leak_source_single.

(* infoSubsOffline (pres.go:479-501), {info} read / recv / kp to the subscribers' 'me' topics: only to NON-DELETED
   subscribers whose mode has P and R, with Src = the name under which that subscriber knows the topic. *)
Theorem c10_no_leak_source_info : forall t x from w sk g,
  In g (info_subs_offline t x from w sk) ->
  exists uid p, m_dst g = TMe uid /\ In (uid, p) (t_users x) /\ p_deleted p = false /\ m_what g = w /\
    is_presencer (p_mode p) = true /\ is_reader (p_mode p) = true /\
    m_src g = original t uid /\ m_sender g = t /\ m_zombie g = false.
Proof.
  intros t x from w sk g H.
  apply info_subs_offline_shape in H as (uid & p & D & Hin & Del & W & P & R & Src & Snd & Z & _).
  exists uid, p. auto 10.
Qed.
Print Assumptions c10_no_leak_source_info.

(* EVERY notification a step puts in flight, whatever the operation (publish, {note}, message deletion,
   subscribe, leave, unsubscribe, eviction, ban, mute, unload, delivery of another notification ...): a message
   in flight after the step was in flight before, or is `fresh_ok`: if it carries CONTENT (anything but on / off
   / ?unkn / ?none / gone / acs) and goes to a 'me' topic, then its sender is a p2p/group topic in whose state
   right after the step the addressee is a non-deleted subscriber with P (upd: or J), and R too for an {info},
   and Src is that subscriber's name for the topic; an {info} goes to 'me' topics only. *)
Theorem c10_no_leak_emitted : forall s o g,
  reach s -> In g (s_net (fst (step s o))) -> In g (s_net s) \/ fresh_ok (fst (step s o)) g.
Proof.
  intros s o g R. destruct (net_prov s R) as [Z _]. destruct (step_adds s o Z) as [A _]. exact (A g).
Qed.
Print Assumptions c10_no_leak_emitted.

(* hence, over all histories: every content notification in flight in a reachable state was addressed like that
   in some reachable state *)
Theorem c10_no_leak_in_flight : forall s, reach s -> Forall sent_ok (s_net s).
Proof. exact in_flight_reach. Qed.
Print Assumptions c10_no_leak_in_flight.

Theorem c10_info_only_to_me : forall s g,
  reach s -> In g (s_net s) -> is_info (m_what g) = true -> exists uid, m_dst g = TMe uid.
Proof. exact info_only_to_me. Qed.
Print Assumptions c10_info_only_to_me.

(* END TO END (all histories, all interleavings): a 'me' topic hands a content notification to its owner's
   sessions without any check of its own (procPresReq passes it through: PresLeak.proc_content), so the
   sender's check is the only one - and it holds: whenever a session receives on 'me' a {pres} msg / del / read
   / recv / upd or an {info} read / recv / kp with source `src`, then in some reachable state a p2p/group
   topic t with `src` = its name as this user sees it had this user as a NON-DELETED subscriber whose mode has P
   (upd: or J), and R for {info}.  A user who deleted the subscription (p2p: the perUser entry stays, with
   deleted = true and the old want/given), was evicted, or never subscribed, gets none of them. *)
Theorem c10_no_leak_content_end_to_end : forall s i g rest sid user u src w,
  reach s -> take_nth i [] (s_net s) = Some (g, rest) ->
  In (Frame sid user (TMe u) src w) (snd (step s (Deliver i))) -> is_content w = true ->
  user = u /\
  exists t s0 x p,
    (match t with TMe _ => False | _ => True end) /\ reach s0 /\ get_top s0 t = Some x /\
    In (u, p) (t_users x) /\ p_deleted p = false /\
    (is_presencer (p_mode p) = true \/ (w = WUpd /\ is_joiner (p_mode p) = true)) /\
    (is_info w = true -> is_reader (p_mode p) = true) /\ src = original t u.
Proof. exact no_leak_content_me. Qed.
Print Assumptions c10_no_leak_content_end_to_end.

(* the scenario "one p2p party deletes the subscription, the topic stays loaded, the other party types and reads":
   the removed user's session gets "gone" and nothing after it, although the deleted entry keeps P and R *)
Example c10_removed_user_example :
  (forall sid top src w, In (Frame sid 1 top src w) (snd (run init h_removed)) -> sid = 3 ->
     w = WOn \/ w = WOff \/ w = WGone \/ w = WMsg) /\
  In (Frame 3 1 (TMe 1) (TMe 2) WGone) (snd (run init h_removed)) /\
  s_net (fst (run init h_removed)) = [] /\
  exists x p, get_top (fst (run init h_removed)) (TP2P 1 2) = Some x /\ aget N.eqb 1 (t_users x) = Some p /\
              p_deleted p = true /\ is_presencer (p_mode p) = true /\ is_reader (p_mode p) = true /\
              t_loaded x = true.
Proof.
  (* the history is run once; the four claims are read off its result *)
  eassert (E : run init h_removed = _) by (vm_compute; reflexivity). rewrite E. cbn [fst snd].
  split; [|split; [|split]].
  - intros sid top src w Hin ->. cbn [In] in Hin.
    repeat (destruct Hin as [E' | Hin]; [try discriminate E'; injection E' as <- <- <-; auto|]). destruct Hin.
  - cbn [In]. repeat (first [left; reflexivity | right]).
  - reflexivity.
  - do 2 eexists. repeat split; reflexivity.
Qed.

(* the hypotheses of c10_no_leak_content_end_to_end are satisfiable: a detached subscriber with P and R gets the
   key press notification on 'me' *)
Example c10_receipt_example : In (Frame 3 1 (TMe 1) (TMe 2) WIKp) (snd (run init h_receipt)).
Proof. vm_compute. repeat (first [left; reflexivity | right]). Qed.

(* On 'me': an on/off of a contact reaches the owner's sessions only through an entry that is enabled
   (enabled = the owner's P in the related topic, loadContacts / +en / +dis) or is being enabled. *)
Theorem c10_no_leak_me_gate : forall self subs from w c wr w',
  r_what (proc_pres_req true self subs from w c wr) = Some w' -> (w = WOn \/ w = WOff) ->
  match aget tname_eqb from subs with
  | Some p => ps_en p = true \/ c = CEn \/ (c = CRem /\ w = WOn)
  | None => c = CEn
  end.
Proof. exact proc_me_gate. Qed.
Print Assumptions c10_no_leak_me_gate.

(* "never to banned users" is NOT what the filters give: removing J but not P from `given` evicts the user
   from the topic but the notifications on 'me' keep flowing (finding pres-to-banned-user). *)
Theorem c10_no_leak_banned_refuted :
  In (Frame 2 2 (TMe 2) (TGrp 1) WMsg) (snd (run init h_banned)) /\
  exists x p, get_top (fst (run init h_banned)) (TGrp 1) = Some x /\ aget N.eqb 2 (t_users x) = Some p /\
              p_deleted p = false /\ is_joiner (p_given p) = false /\ s_net (fst (run init h_banned)) = [].
Proof.
  split.
  - vm_compute. repeat (first [left; reflexivity | right]).
  - vm_compute. do 2 eexists. repeat split; reflexivity.
Qed.
Print Assumptions c10_no_leak_banned_refuted.

(* ---------------------------------------------------------------- online counters *)

(* full statement: PresProofs.c10_online_count_statement :=
     forall s, reach s -> online_ok s
   online_ok: in every 'me', p2p and group topic, online(u) = number of attached foreground sessions of u (>= 0). *)
Theorem c10_online_count_refuted : ~ c10_online_count_statement.
Proof.
  intros ST. destruct (ST (fst (run init h_bkg))) as [M _]; [exists h_bkg; reflexivity|].
  specialize (M 1 (mkMe true 0 [1] [])). vm_compute in M. discriminate M. reflexivity.
Qed.
Print Assumptions c10_online_count_refuted.

(* SLOW CONSUMERS (Sys/PresStuckC10.v).  A session whose outbound queue is full is detached by the topic in the
   middle of a fan-out (broadcastToSessions, topic.go:1326-1337 -> unregisterSession -> handleLeaveRequest:
   online--).  xinv_c10x s := online_ok s (every 'me', p2p and group topic: online(u) = number of attached
   foreground sessions of u) /\ no session attached twice.
   (1) the drop itself keeps the invariant, in EVERY state (not only reachable ones), for any session, user, topic: *)
Theorem c10_online_count_drop : forall s sid u t, xinv_c10x s -> xinv_c10x (drop_c10x s sid u t).
Proof. exact drop_xinv. Qed.
Print Assumptions c10_online_count_drop.

(* (2) every handler that fans out - {note} (handleNoteBroadcast), {pub} (saveAndBroadcastMessage), the delivery
   of a routed {pres}/{info} (handleServerMsg/handlePresence) - keeps it, with ANY set of stuck sessions, from
   EVERY state: the handler's own writes of perUser precede the fan-out, the drops come last; clogging and
   unclogging do not touch the counters. *)
Theorem c10_online_count_fanout : forall xs o,
  fanout_xop_c10x o -> xinv_c10x (fst xs) -> xinv_c10x (fst (fst (xstep_c10x xs o))).
Proof. exact xstep_fanout_xinv. Qed.
Print Assumptions c10_online_count_fanout.

(* (3) hence for all histories of such operations, of any length, in any order, from any state with the invariant *)
Theorem c10_online_count_fanout_histories : forall h xs,
  Forall fanout_xop_c10x h -> xinv_c10x (fst xs) -> xinv_c10x (fst (fst (xrun_c10x xs h))).
Proof.
  intros h.
  induction h as [|o r IH]; simpl; intros xs F I; [exact I|]. inversion F; subst.
  destruct (xstep_c10x xs o) as [x1 o1] eqn:E1. destruct (xrun_c10x x1 r) as [x2 o2] eqn:E2. cbn [fst].
  specialize (IH x1 H2). rewrite E2 in IH. apply IH.
  pose proof (xstep_fanout_xinv xs o H1 I) as X. rewrite E1 in X. exact X.
Qed.
Print Assumptions c10_online_count_fanout_histories.

(* (4) without stuck sessions the extended step IS the step of Sys/Pres.v (everything proved above about
   Pres.step speaks about the model that is run against the code) *)
Theorem c10_stuck_conservative : forall s o, xstep_c10x (s, []) (XOp o) = ((fst (step s o), []), snd (step s o)).
Proof.
  intros s o.
  unfold xstep_c10x. destruct o;
    try (destruct (step s _) as [s1 outs]; cbn [fst snd]; simpl; rewrite ?drops_nostuck, ?filter_nostuck; reflexivity).
Qed.
Print Assumptions c10_stuck_conservative.

(* (5) the order matters: the same {note} handler with the write-back `t.perUser[asUid] = pud` placed AFTER the
   fan-out (xstep_late_c10x) breaks the count on a reachable state - user 1 with two foreground sessions in a
   group, one stuck, the other sends {note read}: online stays 2 with 1 session attached. *)
Theorem c10_online_count_stale_writeback_refuted : ~ late_writeback_statement_c10x.
Proof. exact stale_writeback_breaks_online_count. Qed.
Print Assumptions c10_online_count_stale_writeback_refuted.

Example c10_stuck_drop_example :
  let xs := fst (xrun_c10x xinit_c10x h_stuck_c10x) in
  let xs1 := fst (xstep_c10x xs (XOp (Note 2 1 (RGrp 1) WIRead 1))) in
  (online_of_c10x (fst xs) (TGrp 1) 1 = 2 /\ attached_of_c10x (fst xs) (TGrp 1) 1 = 2)%Z /\
  (online_of_c10x (fst xs1) (TGrp 1) 1 = 1 /\ attached_of_c10x (fst xs1) (TGrp 1) 1 = 1)%Z.
Proof. vm_compute. repeat split; reflexivity. Qed.

(* ---------------------------------------------------------------- convergence *)

(* full statement: PresProofs.c10_converges_statement :=
     forall s, reach s -> quiescent s -> converged s
   quiescent: empty network, no pending fan-out, every idle topic unloaded;
   converged: for p2p partners u v with P on both sides and me(v) loaded,
              perSubs_v(u).online = true <-> me(u) has a foreground session attached; and for every member u
              (with P) of a group g with me(u) loaded, perSubs_u(g).online = true <-> g has an attached session. *)
(* REFUTED for all schedules, without any permission change: handleTopicTimeout sends hub.unreg before the
   "off" fan-out, which can then overtake the "on" of the re-created topic (finding converges-unload-race). *)
Theorem c10_converges_refuted : ~ c10_converges_statement.
Proof.
  apply (converges_refuted_by true h_race 2 1); [vm_compute; reflexivity | discriminate |].
  vm_compute. do 5 eexists. repeat split; try reflexivity.
  - eexists. split; [reflexivity|]. left. reflexivity.
  - reflexivity.
Qed.
Print Assumptions c10_converges_refuted.

(* The model follows the code WITH the repair findings/C10_p2p_unmute.diff (notifySubChange sends "?unkn+en"
   for an un-muted p2p subscription too).  About the code BEFORE it (step_unrepaired / run_unrepaired) the
   statement is refuted by mute + un-mute: the un-muting user's contact entry stays disabled. *)
Theorem c10_converges_p2p_unmute_unrepaired_refuted : ~ c10_converges_statement_unrepaired.
Proof.
  apply (converges_refuted_by false h_unmute 2 1); [vm_compute; reflexivity | discriminate |].
  vm_compute. do 5 eexists. repeat split; try reflexivity.
  - eexists. split; [reflexivity|]. left. reflexivity.
  - reflexivity.
Qed.
Print Assumptions c10_converges_p2p_unmute_unrepaired_refuted.

(* ... and with the repair the same history ends with the entry enabled and online. *)
Theorem c10_p2p_unmute_repaired :
  quiescent_b (fst (run init (h_unmute ++ [D; D; D]))) = true /\
  exists m, get_me (fst (run init (h_unmute ++ [D; D; D]))) 1 = Some m /\
            aget tname_eqb (TMe 2) (me_subs m) = Some (mkPsd true true).
Proof. split; [vm_compute; reflexivity|]. vm_compute. eexists. split; reflexivity. Qed.
Print Assumptions c10_p2p_unmute_repaired.

(* the hypotheses are satisfiable: quiescent reachable states exist (the plain p2p handshake) *)
Example c10_quiescent_example :
  quiescent (fst (run init [Att 1 1 RMe false; Att 2 2 RMe false; Att 1 1 (RP2P 2) false; D; D; D; D])).
Proof. apply quiescent_b_sound. vm_compute. reflexivity. Qed.
