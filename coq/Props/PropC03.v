(* C03  Only users with effective write permission can add a message to a topic.
   Theorems about the topic model Sys/Topic.v (one group topic) and the lifecycle
   model Sys/TopicLife.v around it (deletion window, suspension of accounts with the full test
   of hub.topicsStateForUser over every topic category, peer-to-peer topics, me/fnd, sys with
   its subscribers); see DESIGN.md section 5/C03. *)
From Coq Require Import ZArith NArith List Bool Lia.
From Tinode Require Import Base.Util Pure.Acs Sys.Topic Sys.TopicTac Sys.TopicFrame Sys.TopicNum Sys.TopicOut Sys.TopicNumThm Sys.TopicPub Sys.TopicMarks Sys.TopicMeta Sys.TopicCoh Sys.TopicLife Sys.TopicLifeProofs Sys.TopicOboC04 Sys.TopicOffSetC03 Sys.TopicOffSetC03Proofs.
Import ListNotations.
Open Scope Z_scope.

Section C03.
Variable dr : Z -> list (Z * Z) -> option (list (Z * Z)).
Variable nr : list (Z * Z) -> list (Z * Z).
Variable sm : sessmap.

(* [accepts sm x sid]: the topic is loaded, the session is attached, and the author's
   subscription has W in both the requested and the granted mode. *)

(* A publish is acknowledged if and only if [accepts] holds - in every state satisfying the
   numbering invariant, hence (c03_reachable) in every reachable state of every history. *)
Theorem c03_accepted_iff : forall x sid content noecho, inv_num x ->
  ((exists n, first_reply (snd (step dr nr sm NoFault x (OPub sid content noecho))) sid = Some (Ctrl 202 [(P_seq, n)]))
   <-> accepts sm x sid = true).
Proof. exact (accept_iff dr nr sm). Qed.

Theorem c03_reachable : forall s h, fresh s -> inv_num (fst (run dr nr sm (mkState s None 0) h)).
Proof. intros s h F. apply run_inv_num. apply fresh_inv. exact F. Qed.

(* A rejected publish gets exactly one error reply, to the sender only, and has no effect at
   all: store and cache are unchanged (nothing stored, no number consumed, nobody receives
   data, receipts or anything else), whatever the fault plan. *)
Theorem c03_rejected_no_effect : forall f x sid content noecho, accepts sm x sid = false ->
  exists code, 400 <= code /\
    step dr nr sm f x (OPub sid content noecho) = (mkState (st x) (ca x) 0, [(sid, Ctrl code [])]).
Proof. exact (reject_no_effect dr nr sm). Qed.

(* An accepted publish reaches the store with the next number and the true author. *)
Theorem c03_accepted_effect : forall s c n sid u content noecho,
  is_writer (pud_mode (get_pud c u)) = true -> ~ In (c_lastid c + 1) (seqs s) ->
  h_out (publish NoFault s c n sid u content noecho) =
    (sid, Ctrl 202 [(P_seq, c_lastid c + 1)]) ::
    fanout_data (h_ca (publish NoFault s c n sid u content noecho)) (if noecho then sid else 0%N) (Data (c_lastid c + 1) u content)
    ++ push_out (h_ca (publish NoFault s c n sid u content noecho)) (c_lastid c + 1) u.
Proof. exact publish_nofault. Qed.

(* ---- the decision is taken on the cache; the authoritative grant is the stored row ---- *)

(* [cohx x]: while the topic is loaded, every user's cached (want, given) is the one of his live
   stored subscription row, users without a live row have no cache entry, every attached session
   belongs to a cached user; the store never has two rows for one user.
   [safe_run]: the history contains neither of the two triggers that the faithful model reproduces
   (see the refutations below): an {set sub} from a session that is NOT attached while the topic is
   loaded, and an ownership-transfer acceptance (own want with O while given has O and want has not)
   with a store fault planned, or on a topic without a cached owner other than the requester. *)

(* Every fault plan: a Fail/Crash at any adapter call of any request keeps cache and store coherent. *)
Theorem c03_cache_is_store_partial : forall s h, wf_store s ->
  safe_run dr nr sm (mkState s None 0) h -> cohx (fst (run dr nr sm (mkState s None 0) h)).
Proof. intros s h W SR. apply run_cohx; [exact SR|exact W]. Qed.

(* acknowledged iff attached and W in both the STORED want and the STORED given of the author *)
Theorem c03_accepted_iff_stored : forall x sid content noecho, inv_num x -> cohx x ->
  ((exists n, first_reply (snd (step dr nr sm NoFault x (OPub sid content noecho))) sid = Some (Ctrl 202 [(P_seq, n)]))
   <-> accepts_stored sm x sid = true).
Proof.
  intros x sid content noecho I C. rewrite <- (accepts_stored_eq sm x sid C). exact (accept_iff dr nr sm x sid content noecho I).
Qed.

(* lifted to histories: after any history with any faults (triggers excluded) *)
Theorem c03_accepted_iff_stored_history : forall s h sid content noecho, fresh s -> wf_store s ->
  safe_run dr nr sm (mkState s None 0) h ->
  let x := fst (run dr nr sm (mkState s None 0) h) in
  ((exists n, first_reply (snd (step dr nr sm NoFault x (OPub sid content noecho))) sid = Some (Ctrl 202 [(P_seq, n)]))
   <-> accepts_stored sm x sid = true).
Proof.
  intros s h sid content noecho F W SR x. apply c03_accepted_iff_stored.
  - apply run_inv_num. apply fresh_inv. exact F.
  - apply run_cohx; [exact SR|exact W].
Qed.

(* a permission request that leaves the stored grants as they were (refused, or its store call
   failed) leaves every publish decision as it was *)
Theorem c03_failed_change_keeps_decision : forall x fo, cohx x -> safe_step sm x fo = true ->
  (forall u, smodes (st (fst (step_f dr nr sm x fo))) u = smodes (st x) u) ->
  match ca x, ca (fst (step_f dr nr sm x fo)) with
  | Some c, Some c' => forall u, is_writer (pud_mode (get_pud c' u)) = is_writer (pud_mode (get_pud c u))
  | _, _ => True
  end.
Proof. exact (grant_kept_decision_kept dr nr sm). Qed.

(* ---- topic states and topic kinds (model Sys/TopicLife.v around the group-topic model) ---- *)

(* [xaccepts sm x sid]: no delete of the topic is in flight (the hub is not inside store.Topics.Delete
   for it), the topic is not read-only (suspended), the session is attached and the author's
   subscription has W in want and given. *)
Theorem c03x_accepted_iff : forall x sid content noecho, inv_num (xb x) ->
  ((exists n, first_reply (snd (xstep dr nr sm x (EBase NoFault (OPub sid content noecho)))) sid = Some (Ctrl 202 [(P_seq, n)]))
   <-> xaccepts sm x sid = true).
Proof.
  intros x sid content noecho I. unfold xstep, xaccepts. destruct (x_del x) as [d|].
  - unfold first_reply. cbn [snd]. rewrite N.eqb_refl. split; [intros [n H]|intros H]; [|discriminate].
    destruct (x_attached x sid); discriminate.
  - rewrite <- (gate_accept_iff dr nr sm (xb x) (x_ro x) sid content noecho I).
    unfold xcore, base_step, x_attached. cbn [op_sid]. destruct (x_ro x && _); [reflexivity|].
    destruct (step_f dr nr sm (xb x) _). reflexivity.
Qed.

(* every history of requests, deletions in two halves, suspensions, faults and crashes reaches a state
   satisfying the invariants the theorems need *)
(* ([xinit_pop s subs ps]: the group topic's rows s, the subscribers subs of 'sys', any number of peer-to-peer
   topics with rows ps; nothing loaded but 'sys') *)
Theorem c03x_reachable : forall s subs ps h, fresh s -> Forall fresh ps ->
  xinv (fst (xrun dr nr sm (xinit_pop s subs ps) h)).
Proof. intros s subs ps h F FP. apply xinv_xrun. apply xinv_init_pop; assumption. Qed.

Theorem c03x_accepted_iff_history : forall s subs ps h sid content noecho, fresh s -> Forall fresh ps ->
  let x := fst (xrun dr nr sm (xinit_pop s subs ps) h) in
  ((exists n, first_reply (snd (xstep dr nr sm x (EBase NoFault (OPub sid content noecho)))) sid = Some (Ctrl 202 [(P_seq, n)]))
   <-> xaccepts sm x sid = true).
Proof. intros s subs ps h sid content noecho F FP x. apply c03x_accepted_iff. apply (c03x_reachable s subs ps h F FP). Qed.

(* rejected, for any fault plan: exactly one error reply to the sender, the stores (topic rows, accounts,
   sys, the rows of every peer-to-peer topic) are what they were; unless the plan is a crash, so is everything
   in memory *)
Theorem c03x_rejected_no_effect : forall x f sid content noecho, xwf x -> xaccepts sm x sid = false ->
  exists code, 400 <= code /\
    snd (xstep dr nr sm x (EBase f (OPub sid content noecho))) = [(sid, Ctrl code [])] /\
    stores_same x (fst (xstep dr nr sm x (EBase f (OPub sid content noecho)))) /\
    (is_crash f = false ->
     fst (xstep dr nr sm x (EBase f (OPub sid content noecho))) = set_b (mkState (st (xb x)) (ca (xb x)) 0) x).
Proof.
  intros x f sid content noecho [WF1 WF2] A. unfold TopicLife.xstep, xaccepts in *. destruct (x_del x) as [d|] eqn:D.
  - exists (if x_attached x sid then 503 else 409). split; [destruct (x_attached x sid); lia|].
    cbn [fst snd]. split; [reflexivity|]. split; [repeat split|reflexivity].
  - unfold TopicLife.xcore, TopicLife.base_step. cbn [op_sid].
    destruct (x_ro x && x_attached x sid) eqn:BL.
    + exists 403. split; [lia|]. cbn [fst snd]. split; [reflexivity|]. split.
      * apply stores_same_after_crash. repeat split.
      * intros NC. destruct f; [reflexivity|reflexivity|discriminate].
    + assert (AC : accepts sm (xb x) sid = false).
      { destruct (x_ro x) eqn:RO; cbn [andb negb] in *; [apply unattached_rejects; exact BL|exact A]. }
      destruct (reject_no_effect dr nr sm f (xb x) sid content noecho AC) as [code [Hc E]].
      exists code. split; [exact Hc|]. unfold step_f. cbn [fst snd]. rewrite E.
      split; [destruct f; reflexivity|]. split.
      * destruct f; cbn [fst snd st ca]; apply stores_same_after_crash; try (destruct (ca (xb x))); repeat split.
      * intros NC. destruct f; try discriminate; cbn [fst snd st ca after_crash].
        all: destruct (ca (xb x)) eqn:CA; [reflexivity|]; unfold set_ro, set_b; cbn; rewrite (WF1 eq_refl).
        all: destruct x; cbn in *; subst; reflexivity.
Qed.

(* while the hub is inside the store call of the owner's {del topic}: refused, whoever the author is *)
Theorem c03x_being_deleted_refuses : forall x f sid content noecho, x_del x <> None ->
  xstep dr nr sm x (EBase f (OPub sid content noecho)) =
    (set_b (mkState (st (xb x)) (ca (xb x)) 0) x, [(sid, Ctrl (if x_attached x sid then 503 else 409) [])]).
Proof. intros x f sid content noecho D. unfold xstep. destruct (x_del x); [reflexivity|congruence]. Qed.

(* me / fnd: refused whether the session is attached or not; nothing changes because of the publish
   (the only other thing that can complete on the way is a delete that was already in flight) *)
Theorem c03x_self_topic_refuses : forall x sid content, exists code, 400 <= code /\
  xstep dr nr sm x (EPubMe sid content) = (fst (del_finish x), snd (del_finish x) ++ [(sid, Ctrl code [])]).
Proof.
  intros x sid c.
  exists (if memN sid (x_me (fst (del_finish x))) then 403 else 409). split; [destruct (memN _ _); lia|].
  apply (xstep_finish dr nr sm x (EPubMe sid c) I).
Qed.
Theorem c03x_search_topic_refuses : forall x sid content, exists code, 400 <= code /\
  xstep dr nr sm x (EPubFnd sid content) = (fst (del_finish x), snd (del_finish x) ++ [(sid, Ctrl code [])]).
Proof.
  intros x sid c.
  exists (if memN sid (x_fnd (fst (del_finish x))) then 403 else 409). split; [destruct (memN _ _); lia|].
  apply (xstep_finish dr nr sm x (EPubFnd sid c) I).
Qed.

(* sys: any logged-in author, no attachment; the message gets the next number and is stored; the subscribers
   of sys get the push receipt.  ([x_sys_ro x = false] holds in every reachable state: c03s_sys_never_read_only) *)
Theorem c03x_sys_accepts_without_attachment : forall x sid content, sess_uid sm sid <> 0%N -> sys_inv x -> x_sys_ro x = false ->
  publish_sys sm x NoFault sid content =
    (set_sys (x_sys_lastid x + 1) (x_sys_lastid x + 1)
             (x_sys_msgs x ++ [mkMsg (x_sys_lastid x + 1) (sess_uid sm sid) content 0]) x,
     (sid, Ctrl 202 [(P_seq, x_sys_lastid x + 1)]) :: sys_push x (x_sys_lastid x + 1) (sess_uid sm sid)).
Proof.
  intros x sid c U [S1 S2] RO. unfold publish_sys. destruct (N.eqb_spec (sess_uid sm sid) 0); [contradiction|].
  rewrite RO. cbn [call fails negb after_crash].
  destruct (existsb (fun m => m_seq m =? x_sys_lastid x + 1) (x_sys_msgs x)) eqn:E; [|reflexivity].
  apply existsb_exists in E. destruct E as [m [Hm E]]. apply Z.eqb_eq in E. specialize (S1 m Hm). lia.
Qed.
Theorem c03x_sys_failed_stores_nothing : forall x f sid content,
  (exists n, snd (publish_sys sm x f sid content) = (sid, Ctrl 202 [(P_seq, n)]) :: sys_push x n (sess_uid sm sid)) \/
  ((snd (publish_sys sm x f sid content) = [(sid, Ctrl 500 [])] \/
    (x_sys_ro x = true /\ snd (publish_sys sm x f sid content) = [(sid, Ctrl 403 [])]) \/
    snd (publish_sys sm x f sid content) = []) /\
   x_sys_msgs (fst (publish_sys sm x f sid content)) = x_sys_msgs x /\
   st (xb (fst (publish_sys sm x f sid content))) = st (xb x) /\
   (is_crash f = false -> x_sys_lastid (fst (publish_sys sm x f sid content)) = x_sys_lastid x /\
                          xb (fst (publish_sys sm x f sid content)) = xb x)).
Proof.
  intros x f sid c.
  unfold publish_sys. destruct (sess_uid sm sid =? 0)%N.
  - right. cbn [fst snd]. repeat split; auto.
  - destruct (x_sys_ro x) eqn:RO.
    + right. cbn [fst snd]. split; [right; left; split; reflexivity|].
      destruct f; cbn [after_crash mem_reset x_sys_msgs xb x_sys_lastid is_crash st]; repeat split; auto; try discriminate.
    + repeat break_match; cbn [fst snd]; try (left; eexists; reflexivity); right;
      (split; [left; reflexivity|]);
      destruct f; cbn [after_crash mem_reset set_sys x_sys_msgs xb x_sys_lastid is_crash st]; repeat split; auto; try discriminate.
Qed.

(* suspension: the loaded topic of the suspended owner becomes read-only (and writable again on resume) *)
Theorem c03x_suspension_marks_loaded_topic_partial : forall x u b c a, u <> 0%N ->
  ca (xb x) = Some c -> c_owner c = u -> alookup u (users (st (xb x))) = Some a -> memN u (x_susp x) = negb b ->
  x_ro (suspend x NoFault u b) = b.
Proof.
  intros x u b c a U CA OW US MS. rewrite (suspend_success x u b a U US MS), mark_topics_ro. cbn [xb set_susp].
  rewrite CA, OW, N.eqb_refl. reflexivity.
Qed.

(* ---- which topics a suspension marks: the full test of hub.topicsStateForUser, every category ---- *)

(* the test, per topic category (m = "u is in topic.perUser", o = topic.owner): 'me' and 'fnd' never; a group
   topic and 'sys' only through ownership - and 'sys' and the peer-to-peer topics have no owner -; a
   peer-to-peer topic through membership *)
Theorem c03s_suspension_test_by_category : forall m o u,
  state_pred CatMe m o u = false /\ state_pred CatFnd m o u = false /\
  state_pred CatGrp m o u = N.eqb o u /\ state_pred CatSys m o u = N.eqb o u /\
  state_pred CatP2P m o u = m || N.eqb o u.
Proof. intros m o u. repeat split. Qed.

(* in ANY state (hence after any history): the accepted suspension / resumption (b) of an existing account u
   sets the read-only bit of the loaded group topic to b iff u is its OWNER (a plain member's suspension leaves
   it as it was), never touches 'sys' (whether u is one of its subscribers or not), sets the bit of exactly the
   loaded peer-to-peer topics u is a party of ([mark_p2p], c03s_p2p_marking), and changes nothing else but the
   account's state *)
Theorem c03s_suspension_marks_exactly : forall x u b a, u <> 0%N ->
  alookup u (users (st (xb x))) = Some a -> memN u (x_susp x) = negb b ->
  let x' := suspend x NoFault u b in
  x_ro x' = match ca (xb x) with Some c => if N.eqb (c_owner c) u then b else x_ro x | None => x_ro x end /\
  x_sys_ro x' = x_sys_ro x /\
  x_p2p x' = map (mark_p2p u b) (x_p2p x) /\
  xb x' = xb x /\ x_del x' = x_del x /\ x_susp x' = susp_upd (x_susp x) u b /\ x_me x' = x_me x /\ x_fnd x' = x_fnd x /\
  x_sys_seqid x' = x_sys_seqid x /\ x_sys_lastid x' = x_sys_lastid x /\ x_sys_msgs x' = x_sys_msgs x /\
  x_sys_subs x' = x_sys_subs x.
Proof.
  intros x u b a U US MS. cbv zeta. rewrite (suspend_success x u b a U US MS).
  destruct (mark_topics_sys (set_susp (susp_upd (x_susp x) u b) x) u b) as [E1 [E2 [E3 [E4 [E5 E6]]]]].
  rewrite mark_topics_ro, (mark_topics_sys_ro _ u b U), mark_topics_p2p, mark_topics_xb, mark_topics_del, mark_topics_susp,
    E1, E2, E3, E4, E5, E6.
  repeat split; reflexivity.
Qed.
Theorem c03s_p2p_marking : forall u b p,
  pt_b (mark_p2p u b p) = pt_b p /\
  pt_ro (mark_p2p u b p) = match ca (pt_b p) with
                           | Some c => if is_member c u || N.eqb (c_owner c) u then b else pt_ro p
                           | None => pt_ro p
                           end.
Proof. intros u b p. split; [apply mark_p2p_b|apply mark_p2p_ro]. Qed.

(* a request that does not change the account's state - unknown account, account already in that state, a failed
   store call (any fault plan) - marks nothing: the whole state is what it was *)
Theorem c03s_idle_suspension_changes_nothing : forall x f u b, suspend x f u b = x \/
  (u <> 0%N /\ memN u (x_susp x) = negb b /\ suspend x f u b = mark_topics (set_susp (susp_upd (x_susp x) u b) x) u b).
Proof. exact suspend_cases. Qed.

(* 'sys' is never read-only: after ANY history - suspensions and resumptions of its subscribers, of owners, of
   parties, faults, crashes - ... *)
Theorem c03s_sys_never_read_only : forall s subs ps h, fresh s -> Forall fresh ps ->
  x_sys_ro (fst (xrun dr nr sm (xinit_pop s subs ps) h)) = false.
Proof. intros s subs ps h F FP. destruct (c03x_reachable s subs ps h F FP) as [_ [_ [_ [R _]]]]. exact R. Qed.

(* ... hence a publish to sys by any logged-in author, attached to nothing, is acknowledged with the next number
   and stored, whatever accounts are suspended (the only other output is the reply of a delete that was in flight) *)
Theorem c03s_sys_accepts_after_any_history : forall s subs ps h sid content, fresh s -> Forall fresh ps ->
  sess_uid sm sid <> 0%N ->
  let x := fst (xrun dr nr sm (xinit_pop s subs ps) h) in
  let x1 := fst (del_finish x) in
  xstep dr nr sm x (EPubSys NoFault sid content) =
    (set_sys (x_sys_lastid x1 + 1) (x_sys_lastid x1 + 1)
             (x_sys_msgs x1 ++ [mkMsg (x_sys_lastid x1 + 1) (sess_uid sm sid) content 0]) x1,
     snd (del_finish x) ++ (sid, Ctrl 202 [(P_seq, x_sys_lastid x1 + 1)]) :: sys_push x1 (x_sys_lastid x1 + 1) (sess_uid sm sid)).
Proof.
  intros s subs ps h sid content F FP U x x1.
  destruct (xinv_del_finish x (c03x_reachable s subs ps h F FP)) as [(_ & _ & S & R & _) _].
  rewrite (xstep_finish dr nr sm x (EPubSys NoFault sid content) I). cbn [xcore]. fold x1.
  rewrite (c03x_sys_accepts_without_attachment x1 sid content U S R). reflexivity.
Qed.

(* peer-to-peer topics.  [p2p_accepts sm p sid]: the session's user is a party, the topic is not read-only
   (no party suspended since it was loaded), it is loaded, the session is attached and the author's want and
   given both have W *)
Theorem c03s_p2p_accepted_iff : forall x k p sid content noecho, nth_error (x_p2p x) k = Some p -> inv_num (pt_b p) ->
  ((exists n, first_reply (snd (p2p_step dr nr sm x k NoFault (PPub sid content noecho))) sid = Some (Ctrl 202 [(P_seq, n)]))
   <-> p2p_accepts sm p sid = true).
Proof.
  intros x k p sid content noecho E I. unfold p2p_step, p2p_accepts, p2p_addressable. rewrite E. cbn [p2p_op op_sid is_ppub].
  destruct (negb (sess_uid sm sid =? 0)%N && p2p_party p (sess_uid sm sid)); cbn [negb andb].
  2:{ cbn. split; [intros [n H]; discriminate|discriminate]. }
  rewrite andb_true_r, <- (gate_accept_iff dr nr sm (pt_b p) (pt_ro p) sid content noecho I).
  unfold pt_attached. destruct (pt_ro p && _); [reflexivity|]. destruct (step_f dr nr sm (pt_b p) _). reflexivity.
Qed.
Theorem c03s_p2p_accepted_iff_history : forall s subs ps h k p sid content noecho, fresh s -> Forall fresh ps ->
  let x := fst (xrun dr nr sm (xinit_pop s subs ps) h) in
  nth_error (x_p2p x) k = Some p ->
  ((exists n, first_reply (snd (p2p_step dr nr sm x k NoFault (PPub sid content noecho))) sid = Some (Ctrl 202 [(P_seq, n)]))
   <-> p2p_accepts sm p sid = true).
Proof.
  intros s subs ps h k p sid content noecho F FP x E. apply c03s_p2p_accepted_iff; [exact E|].
  destruct (c03x_reachable s subs ps h F FP) as [_ [_ [_ [_ P]]]].
  exact (proj1 (nth_error_Forall _ _ _ _ P E)).
Qed.
Theorem c03s_p2p_rejected_no_effect : forall x k p f sid content noecho, nth_error (x_p2p x) k = Some p -> pt_inv p ->
  p2p_addressable sm p sid = true -> p2p_accepts sm p sid = false ->
  exists code, 400 <= code /\
    snd (p2p_step dr nr sm x k f (PPub sid content noecho)) = [(sid, Ctrl code [])] /\
    p2p_stores (fst (p2p_step dr nr sm x k f (PPub sid content noecho))) = p2p_stores x /\
    st (xb (fst (p2p_step dr nr sm x k f (PPub sid content noecho)))) = st (xb x) /\
    x_sys_msgs (fst (p2p_step dr nr sm x k f (PPub sid content noecho))) = x_sys_msgs x /\
    (is_crash f = false ->
     fst (p2p_step dr nr sm x k f (PPub sid content noecho)) =
       set_p2p (upd_nth k (mkPT (mkState (st (pt_b p)) (ca (pt_b p)) 0) (pt_ro p)) (x_p2p x)) x).
Proof.
  intros x k p f sid content noecho E [I R] AD A. unfold p2p_accepts in A. rewrite AD in A. cbn [andb] in A.
  unfold TopicLife.p2p_step. rewrite E. cbn [p2p_op op_sid is_ppub]. unfold p2p_addressable in AD. rewrite AD. cbn [negb].
  rewrite andb_true_r.
  destruct (pt_ro p && pt_attached p sid) eqn:BL.
  - exists 403. split; [lia|]. cbn [fst snd]. split; [reflexivity|].
    split; [rewrite p2p_stores_after_crash; unfold p2p_stores; cbn [x_p2p set_p2p]; apply (upd_nth_same_store k p); [exact E|reflexivity]|].
    split; [destruct f; reflexivity|]. split; [destruct f; reflexivity|].
    intros NC. destruct f; [reflexivity|reflexivity|discriminate].
  - assert (AC : accepts sm (pt_b p) sid = false).
    { destruct (pt_ro p) eqn:RO; cbn [andb negb] in *; [apply unattached_rejects; exact BL|exact A]. }
    destruct (reject_no_effect dr nr sm f (pt_b p) sid content noecho AC) as [code [Hc EE]].
    exists code. split; [exact Hc|]. unfold step_f. cbn [fst snd]. rewrite EE.
    assert (RR : (match ca (pt_b p) with None => false | Some _ => pt_ro p end) = pt_ro p)
      by (destruct (ca (pt_b p)) eqn:CA; [reflexivity|symmetry; apply R; reflexivity]).
    destruct f; cbn [fst snd st ca ncalls]; (split; [reflexivity|]);
      (split; [rewrite p2p_stores_after_crash; unfold p2p_stores; cbn [x_p2p set_p2p]; apply (upd_nth_same_store k p); [exact E|reflexivity]|]);
      (split; [reflexivity|]); (split; [reflexivity|]); intros NC; try discriminate;
      cbn [after_crash]; rewrite RR; reflexivity.
Qed.

(* both halves together: after ANY history of the wrapper model - requests with Fail/Crash at any adapter call,
   deletions in two halves, suspensions, publishes to me/fnd/sys - that avoids the two named triggers, a publish
   is acknowledged iff no delete is in flight, the topic is not read-only, the session is attached and the
   author's STORED want and STORED given both have W *)
Theorem c03x_accepted_iff_stored_history : forall s subs ps h sid content noecho, fresh s -> Forall fresh ps -> wf_store s ->
  xsafe_run dr nr sm (xinit_pop s subs ps) h ->
  let x := fst (xrun dr nr sm (xinit_pop s subs ps) h) in
  ((exists n, first_reply (snd (xstep dr nr sm x (EBase NoFault (OPub sid content noecho)))) sid = Some (Ctrl 202 [(P_seq, n)]))
   <-> xaccepts_stored sm x sid = true).
Proof.
  intros s subs ps h sid content noecho F FP W SR x.
  rewrite <- (xaccepts_stored_eq sm x sid (cohx_xrun dr nr sm h (xinit_pop s subs ps) SR W)).
  apply c03x_accepted_iff_history; assumption.
Qed.
End C03.

Print Assumptions c03_accepted_iff.
Print Assumptions c03_reachable.
Print Assumptions c03_rejected_no_effect.
Print Assumptions c03_accepted_effect.
Print Assumptions c03_cache_is_store_partial.
Print Assumptions c03_accepted_iff_stored.
Print Assumptions c03_accepted_iff_stored_history.
Print Assumptions c03_failed_change_keeps_decision.
Print Assumptions c03x_accepted_iff.
Print Assumptions c03x_reachable.
Print Assumptions c03x_accepted_iff_history.
Print Assumptions c03x_rejected_no_effect.
Print Assumptions c03x_being_deleted_refuses.
Print Assumptions c03x_self_topic_refuses.
Print Assumptions c03x_search_topic_refuses.
Print Assumptions c03x_sys_accepts_without_attachment.
Print Assumptions c03x_sys_failed_stores_nothing.
Print Assumptions c03x_suspension_marks_loaded_topic_partial.
Print Assumptions c03x_accepted_iff_stored_history.
Print Assumptions c03s_suspension_test_by_category.
Print Assumptions c03s_suspension_marks_exactly.
Print Assumptions c03s_p2p_marking.
Print Assumptions c03s_idle_suspension_changes_nothing.
Print Assumptions c03s_sys_never_read_only.
Print Assumptions c03s_sys_accepts_after_any_history.
Print Assumptions c03s_p2p_accepted_iff.
Print Assumptions c03s_p2p_accepted_iff_history.
Print Assumptions c03s_p2p_rejected_no_effect.

(* The full statement - the decision follows the STORED grant after EVERY history - is refuted by the
   faithful model (and replayed on the real code, findings/C03.md): *)
Definition c03_stored_iff_statement : Prop :=
  forall (sm : sessmap) s h sid content noecho, fresh s -> wf_store s ->
  let x := fst (run (fun _ _ => None) (fun r => r) sm (mkState s None 0) h) in
  ((exists n, first_reply (snd (step (fun _ _ => None) (fun r => r) sm NoFault x (OPub sid content noecho))) sid
              = Some (Ctrl 202 [(P_seq, n)]))
   <-> accepts_stored sm x sid = true).

Definition c03_w_store : store :=
  ad_sub_create (ad_sub_create (mkStore true 0 0 0 47 0 [] [] [] [(1%N, 47%N); (2%N, 47%N)]) 1%N 255%N 255%N) 2%N 47%N 47%N.
Definition c03_w_sm : sessmap := [(1%N, 1%N); (2%N, 2%N); (3%N, 2%N)].
(* trigger 1: user 2 is attached with session 2 and drops W from his want with session 3, which is not
   attached (replyOfflineTopicSetSub writes the store, the loaded topic keeps the old want) *)
Definition c03_w_hist1 : list (fault * op) :=
  [(NoFault, OSub 2 [] false); (NoFault, OSetSub 3 0 [74%N; 82%N; 80%N])].
(* trigger 2: user 2 holds a pending ownership transfer (O in given) and accepts it with a want without W;
   the second store call of the transfer fails: want is already stored, the cache keeps the old one *)
Definition c03_w_store2 : store :=
  ad_sub_create (ad_sub_create (mkStore true 0 0 0 47 0 [] [] [] [(1%N, 47%N); (2%N, 47%N)]) 1%N 255%N 255%N) 2%N 47%N 255%N.
Definition c03_w_hist2 : list (fault * op) :=
  [(NoFault, OSub 2 [] false); (FailAt 2, OSetSub 2 0 [74%N; 82%N; 80%N; 83%N; 79%N])].

Example c03_w_fresh1 : fresh c03_w_store /\ wf_store c03_w_store.
Proof. split; [split; reflexivity|]. unfold wf_store. vm_compute. repeat constructor; cbn; intuition discriminate. Qed.
Example c03_w_fresh2 : fresh c03_w_store2 /\ wf_store c03_w_store2.
Proof. split; [split; reflexivity|]. unfold wf_store. vm_compute. repeat constructor; cbn; intuition discriminate. Qed.

Theorem c03_stored_iff_refuted : ~ c03_stored_iff_statement.
Proof.
  intros H. destruct c03_w_fresh1 as [F W].
  specialize (H c03_w_sm c03_w_store c03_w_hist1 2%N 7%N false F W). cbv zeta in H.
  destruct H as [H _].
  assert (A : accepts_stored c03_w_sm (fst (run (fun _ _ => None) (fun r => r) c03_w_sm (mkState c03_w_store None 0) c03_w_hist1)) 2 = false)
    by (vm_compute; reflexivity).
  rewrite A in H. assert (X : false = true); [apply H|discriminate X].
  exists 1. vm_compute. reflexivity.
Qed.
Theorem c03_stored_iff_refuted_by_transfer_fault : ~ c03_stored_iff_statement.
Proof.
  intros H. destruct c03_w_fresh2 as [F W].
  specialize (H c03_w_sm c03_w_store2 c03_w_hist2 2%N 7%N false F W). cbv zeta in H.
  destruct H as [H _].
  assert (A : accepts_stored c03_w_sm (fst (run (fun _ _ => None) (fun r => r) c03_w_sm (mkState c03_w_store2 None 0) c03_w_hist2)) 2 = false)
    by (vm_compute; reflexivity).
  rewrite A in H. assert (X : false = true); [apply H|discriminate X].
  exists 1. vm_compute. reflexivity.
Qed.
Print Assumptions c03_stored_iff_refuted.
Print Assumptions c03_stored_iff_refuted_by_transfer_fault.

Example c03_ex_hypotheses_satisfiable :
  let s0 := ad_sub_create (ad_sub_create (mkStore true 0 0 0 47 0 [] [] [] [(1%N, 47%N); (2%N, 47%N)]) 1%N 255%N 255%N) 2%N 3%N 47%N in
  let sm := [(1%N, 1%N); (2%N, 2%N)] in
  let x := fst (run (fun _ _ => None) (fun x => x) sm (mkState s0 None 0) [(NoFault, OSub 1 [] false); (NoFault, OSub 2 [] false)]) in
  accepts sm x 1 = true /\ accepts sm x 2 = false /\ accepts sm x 3 = false.
Proof. vm_compute. repeat split. Qed.

(* "The topic of a suspended owner is read-only" as a statement about every reachable state is refuted: the
   read-only bit is a flag of the loaded Topic only, set by hub.topicsStateForUser when the {acc} arrives;
   a topic loaded afterwards (first load, idle unload, restart) does not have it (findings/C03.md #3). *)
Definition c03_suspension_survives_reload_statement : Prop :=
  forall (sm : sessmap) s h, fresh s ->
  let x := fst (xrun (fun _ _ => None) (fun r => r) sm (xinit s) h) in
  match ca (xb x) with
  | Some c => memN (c_owner c) (x_susp x) = true -> x_ro x = true
  | None => True
  end.
Theorem c03_suspension_survives_reload_refuted : ~ c03_suspension_survives_reload_statement.
Proof.
  intros H. destruct c03_w_fresh1 as [F _].
  specialize (H c03_w_sm c03_w_store [ESuspend NoFault 1%N true; EBase NoFault (OSub 2 [] false)] F).
  vm_compute in H. specialize (H eq_refl). discriminate H.
Qed.
Print Assumptions c03_suspension_survives_reload_refuted.

(* "A loaded topic is read-only iff an account that satisfies the test of its category is currently suspended":
   the 'sys' part holds after every history (c03s_sys_never_read_only), and so does the marking itself
   (c03s_suspension_marks_exactly, in every state).  As an invariant of every reachable state the statement is
   refuted for the group topic (above) and for peer-to-peer topics, in two ways: the bit does not survive a
   reload, and the resumption of ONE party clears the bit although the OTHER party is still suspended
   (hub.topicsStateForUser(a, false) -> markReadOnly(false) on every p2p topic of a).  findings/C03.md #4, #5. *)
Definition c03s_read_only_iff_suspended_statement : Prop :=
  forall (sm : sessmap) s subs ps h, fresh s -> Forall fresh ps ->
  let x := fst (xrun (fun _ _ => None) (fun r => r) sm (xinit_pop s subs ps) h) in
  match ca (xb x) with Some c => x_ro x = memN (c_owner c) (x_susp x) | None => True end /\
  x_sys_ro x = false /\
  Forall (fun p => match ca (pt_b p) with
                   | Some c => pt_ro p = existsb (fun e => memN (fst e) (x_susp x)) (c_users c)
                   | None => True
                   end) (x_p2p x).

(* users 1 and 2 (JRWPA/JRWPA each) are the parties of the peer-to-peer topic *)
Definition c03s_w_p2p : store :=
  ad_sub_create (ad_sub_create (mkStore true 0 0 0 0 0 [] [] [] [(1%N, 47%N); (2%N, 47%N)]) 1%N 31%N 31%N) 2%N 31%N 31%N.
Example c03s_w_p2p_fresh : fresh c03s_w_p2p.
Proof. split; reflexivity. Qed.
(* user 1 attaches; 1 is suspended, 2 is suspended, 1 is resumed: the topic is writable, 2 is still suspended *)
Definition c03s_w_hist_peer : list xev :=
  [EP2P 0 NoFault (PSub 1%N); ESuspend NoFault 1%N true; ESuspend NoFault 2%N true; ESuspend NoFault 1%N false].
(* 1 is suspended while the topic is not loaded; 2 attaches *)
Definition c03s_w_hist_reload : list xev := [ESuspend NoFault 1%N true; EP2P 0 NoFault (PSub 2%N)].

Theorem c03s_read_only_iff_suspended_refuted_by_peer_resumed : ~ c03s_read_only_iff_suspended_statement.
Proof.
  intros H. destruct c03_w_fresh1 as [F _].
  specialize (H c03_w_sm c03_w_store [] [c03s_w_p2p] c03s_w_hist_peer F (Forall_cons _ c03s_w_p2p_fresh (Forall_nil _))).
  cbv zeta in H. destruct H as [_ [_ H]]. vm_compute in H. inversion H as [|p l HP HL]. discriminate HP.
Qed.
Theorem c03s_read_only_iff_suspended_refuted_by_reload : ~ c03s_read_only_iff_suspended_statement.
Proof.
  intros H. destruct c03_w_fresh1 as [F _].
  specialize (H c03_w_sm c03_w_store [] [c03s_w_p2p] c03s_w_hist_reload F (Forall_cons _ c03s_w_p2p_fresh (Forall_nil _))).
  cbv zeta in H. destruct H as [_ [_ H]]. vm_compute in H. inversion H as [|p l HP HL]. discriminate HP.
Qed.
Print Assumptions c03s_read_only_iff_suspended_refuted_by_peer_resumed.
Print Assumptions c03s_read_only_iff_suspended_refuted_by_reload.

(* the population of the correspondence runs: the suspended account is a plain member of the group topic, a
   party of a peer-to-peer topic and a subscriber of 'sys' at once; the group topic stays writable, the
   peer-to-peer topic becomes read-only (its publishes are refused), 'sys' accepts *)
Example c03s_ex_population :
  let sm := c03_w_sm in
  let h := [EBase NoFault (OSub 1%N [] false); EBase NoFault (OSub 2%N [] false);
            EP2P 0 NoFault (PSub 1%N); EP2P 0 NoFault (PSub 2%N); ESuspend NoFault 2%N true] in
  let x := fst (xrun (fun _ _ => None) (fun r => r) sm (xinit_pop c03_w_store [2%N] [c03s_w_p2p]) h) in
  x_ro x = false /\ x_sys_ro x = false /\ map pt_ro (x_p2p x) = [true] /\ x_susp x = [2%N] /\
  xaccepts sm x 1%N = true /\
  match nth_error (x_p2p x) 0 with Some p => p2p_accepts sm p 1%N | None => true end = false /\
  snd (xstep (fun _ _ => None) (fun r => r) sm x (EPubSys NoFault 1%N 7%N)) = [(1%N, Ctrl 202 [(P_seq, 1)]); (0%N, Push 1 1%N [2%N])].
Proof. vm_compute. repeat split. Qed.

(* ====================================================================================================== *)
(* Strengthening s03c: "the author is currently subscribed with write permission in both the requested and the
   granted mode ... for every history of subscription and permission changes" - (1) the permission change made
   by a session that is NOT attached (hub.go replyOfflineTopicSetSub, modelled completely in
   Sys/TopicOffSetC03.v: desc.private and sub.mode in one request); (2) the author kind "root on behalf of
   another user" and the eviction of the sessions attached on behalf of a banned / removed user. *)

(* (1) An acknowledged not-attached {set} carrying sub.mode (reply 200, or 304 = nothing to change) has stored
   exactly the sanitised mode [off_want_c03] (parsed, the O bit as stored, masked with JRWPA|A on a peer-to-peer
   topic) as the user's requested mode, and has left the granted mode alone - for EVERY desc.private carried by
   the same request (q is arbitrary), every stored Private, every fault plan, group and peer-to-peer topics. *)
Theorem c03o_offline_ack_stores_sanitised_mode : forall f p2p s pv sid u q c l, u <> 0%N -> or_mode q = c :: l ->
  off_acked_c03 (offline_set_c03 f p2p s pv sid u q) = true ->
  exists r0 mw, ad_sub_get s u false = Some r0 /\ off_want_c03 p2p (s_want r0) (c :: l) = inr mw /\
    smodes (of_st (offline_set_c03 f p2p s pv sid u q)) u = Some (mw, s_given r0).
Proof. exact off_ack_stores_want. Qed.

(* ... hence the publish decision of the topic loaded afterwards follows it: in the cache built by
   loadSubscribers the author is a writer iff W is in the acknowledged mode and in the granted mode *)
Theorem c03o_offline_ack_decides_later_publish : forall f p2p s pv sid u q c l, u <> 0%N -> wf_store s -> or_mode q = c :: l ->
  off_acked_c03 (offline_set_c03 f p2p s pv sid u q) = true ->
  exists r0 mw, ad_sub_get s u false = Some r0 /\ off_want_c03 p2p (s_want r0) (c :: l) = inr mw /\
    is_writer (pud_mode (get_pud (load (of_st (offline_set_c03 f p2p s pv sid u q))) u)) = is_writer mw && is_writer (s_given r0).
Proof.
  intros f p2p s pv sid u q c l Hu W EM A. destruct (off_ack_stores_want f p2p s pv sid u q c l Hu EM A) as [r0 [mw [G [Wt S]]]].
  exists r0, mw. repeat split; [assumption..|].
  destruct (load_coh _ (off_wf f p2p s pv sid u q W)) as [_ [C _]].
  rewrite (coh_writer _ _ u C). unfold stored_writer. rewrite S. rewrite andb_comm. apply is_writer_land.
Qed.

(* the modes stored by the request do not depend on its desc.private (no fault) *)
Theorem c03o_offline_private_irrelevant_to_modes : forall p2p s pv sid u t c l p1 p2, u <> 0%N ->
  forall v, smodes (of_st (offline_set_c03 NoFault p2p s pv sid u (mkOffReq t (c :: l) p1))) v =
            smodes (of_st (offline_set_c03 NoFault p2p s pv sid u (mkOffReq t (c :: l) p2))) v.
Proof.
  intros p2p s pv sid u t c l p1 p2 Hu v. unfold offline_set_c03. cbn [or_mode or_priv or_target andb].
  replace ((match p1 with PrNil => true | _ => false end) && false) with false by (destruct p1; reflexivity).
  replace ((match p2 with PrNil => true | _ => false end) && false) with false by (destruct p2; reflexivity).
  destruct (negb (t =? 0)%N && negb (N.eqb t u)); [reflexivity|]. cbn [call fails negb].
  destruct (ad_sub_get s u false) as [r0|] eqn:G; [|reflexivity].
  unfold off_decide_c03. cbn [or_mode or_priv].
  destruct (off_want_c03 p2p (s_want r0) (c :: l)) as [code|mw]; [reflexivity|].
  unfold offupd_empty_c03. cbn [ou_priv ou_want].
  destruct (mw =? s_want r0)%N eqn:E.
  - destruct (off_private_c03 pv p1), (off_private_c03 pv p2); reflexivity.
  - destruct (off_private_c03 pv p1), (off_private_c03 pv p2); reflexivity.
Qed.

(* exactly one reply; a refused request (error reply) writes nothing; nobody else's modes change, ever *)
Theorem c03o_offline_one_reply : forall f p2p s pv sid u q, exists fr, of_out (offline_set_c03 f p2p s pv sid u q) = [(sid, fr)].
Proof.
  intros f p2p s pv sid u q. unfold offline_set_c03. repeat break_match; cbn [of_out]; eexists; reflexivity.
Qed.
Theorem c03o_offline_refused_no_effect : forall f p2p s pv sid u q, off_acked_c03 (offline_set_c03 f p2p s pv sid u q) = false ->
  of_st (offline_set_c03 f p2p s pv sid u q) = s /\ of_priv (offline_set_c03 f p2p s pv sid u q) = pv.
Proof.
  intros f p2p s pv sid u q A. destruct (off_cases f p2p s pv sid u q) as [[Hs [Hp _]]|[A2 _]]; [now split|]. rewrite A in A2. discriminate.
Qed.
Theorem c03o_offline_others_untouched : forall f p2p s pv sid u q v, u <> 0%N -> v <> u ->
  smodes (of_st (offline_set_c03 f p2p s pv sid u q)) v = smodes s v.
Proof.
  intros f p2p s pv sid u q v Hu Hv.
  destruct (off_cases f p2p s pv sid u q) as [[Hs _]|[_ [r0 [up [_ [_ [_ [Hs _]]]]]]]]; rewrite Hs; [reflexivity|].
  destruct (ou_want up); [|reflexivity]. rewrite smodes_subs_update by assumption.
  destruct (N.eqb_spec v u); [contradiction|reflexivity].
Qed.

(* the sanitised mode: the O bit of the stored requested mode never changes here; on a peer-to-peer topic the result
   stays within JRWPA and keeps A; on a group topic it is the parsed mode *)
Theorem c03o_offline_sanitised_mode_shape : forall p2p w mode mw, off_want_c03 p2p w mode = inr mw ->
  is_owner mw = (if p2p then false else is_owner w) /\
  (p2p = true -> N.land mw (N.lxor 255 ModeCP2P_c03) = 0%N /\ has mw mA = true) /\
  (p2p = false -> mw = fst (unmarshal_text 0%N mode)).
Proof.
  intros p2p w mode mw.
  unfold off_want_c03. destruct (unmarshal_text 0%N mode) as [m ok]. destruct ok; cbn [negb]; [|discriminate].
  destruct (Bool.eqb (is_owner m) (is_owner w)) eqn:E; cbn [negb]; [|discriminate]. intros H. inv H.
  apply eqb_prop in E. destruct p2p.
  - repeat split; try discriminate.
    + unfold is_owner, has, mO. rewrite land_masked; reflexivity.
    + apply land_masked; reflexivity.
    + unfold has, mA. rewrite N.land_lor_distr_l. replace (N.land 16 16) with 16%N by reflexivity.
      destruct (N.eqb_spec (N.lor (N.land (N.land m ModeCP2P_c03) 16) 16) 0) as [Z|Z]; [|reflexivity].
      apply N.lor_eq_0_iff in Z. destruct Z; discriminate.
  - repeat split; try assumption; try discriminate; try reflexivity.
Qed.

(* in the wrapper model run by the correspondence check: a {set} from a session that is not attached IS that
   function of the stored row, in every state of the topic *)
Theorem c03o_set_from_detached_session : forall dr nr sm roots z f sid q, x_del (oz_x z) = None -> x_attached (oz_x z) sid = false ->
  let x := oz_x z in
  let u := sess_uid sm sid in
  let r := offline_set_c03 f false (st (xb x)) (get_priv_c03 (oz_gpriv z) u) sid u q in
  ozstep_c03 dr nr sm roots z (ZSet f sid q) =
    Some (mkOZ (after_crash f (set_b (mkState (of_st r) (ca (xb x)) (of_n r)) x)) (aset u (of_priv r) (oz_gpriv z)) (oz_ppriv z),
          of_out r).
Proof.
  intros dr nr sm roots z f sid q D A x u r. subst x u r. unfold ozstep_c03, del_finish. rewrite D. rewrite A. reflexivity.
Qed.

(* (2) evictUser(u): no session attached AS u remains, whoever owns the session (the test of Topic.remSession reads
   perSessionData.uid); every other attachment is kept; the loop over t.sessions as written computes exactly that *)
Theorem c03o_evict_detaches_everybody_attached_as : forall c u unsub skip,
  none_attached_as_c03 (fst (evict_user c u unsub skip)) u = true.
Proof. exact evict_none_attached. Qed.
Theorem c03o_none_attached_meaning : forall c u,
  none_attached_as_c03 c u = true <-> forall sid a b, In (sid, (a, b)) (c_sess c) -> a <> u.
Proof.
  intros c u.
  unfold none_attached_as_c03. rewrite forallb_forall. split.
  - intros H sid a b Hin. specialize (H _ Hin). cbn in H. destruct (N.eqb_spec a u); [discriminate|assumption].
  - intros H [sid [a b]] Hin. cbn. destruct (N.eqb_spec a u); [exfalso; eapply H; eauto|reflexivity].
Qed.
Theorem c03o_evict_keeps_others : forall c u unsub skip e, In e (c_sess c) -> fst (snd e) <> u ->
  In e (c_sess (fst (evict_user c u unsub skip))).
Proof.
  intros c u unsub skip e Hin Hne. rewrite evict_user_sess. apply filter_In. split; [assumption|].
  destruct (N.eqb_spec (fst (snd e)) u); [contradiction|reflexivity].
Qed.
Theorem c03o_evict_loop_as_written : forall l u skip unsub, u <> 0%N -> NoDup (map fst l) ->
  fst (evict_sessions_c03 l u skip unsub) = filter (fun e => negb (N.eqb (fst (snd e)) u)) l.
Proof.
  intros l u skip unsub Hu ND. unfold evict_sessions_c03.
  apply (evict_loop_spec u skip unsub Hu (map fst l) [] l); [assumption|reflexivity|constructor].
Qed.
(* a session that was attached on behalf of the evicted user - a ROOT session with extra.obo included - is not
   attached afterwards: its later {pub}, on behalf of anybody, is refused (c03_rejected_no_effect) *)
Theorem c03o_evicted_session_not_attached : forall c u unsub skip sid b, NoDup (map fst (c_sess c)) ->
  alookup sid (c_sess c) = Some (u, b) -> attached (fst (evict_user c u unsub skip)) sid = false.
Proof.
  intros c u unsub skip sid b ND L. unfold attached. rewrite evict_user_sess.
  rewrite (alookup_filter_nodup _ _ _ _ ND L). cbn. now rewrite N.eqb_refl.
Qed.

(* the requests that evict: an accepted change of the target's granted mode to one without J (a ban, whatever other
   bits - W - it keeps), an acknowledged {del sub}, an acknowledged {leave unsub} *)
Theorem c03o_ban_detaches : forall f s c n sid u target mode h w g,
  another_user_sub f s c n sid u target mode = (h, SubOk (Some (w, g))) -> is_joiner g = false ->
  none_attached_as_c03 (h_ca h) target = true.
Proof.
  intros f s c n sid u target mode h w g.
  unfold another_user_sub. intros H J. revert H.
  repeat (break_match; try discriminate); intros [= <- <- <-]; cbn [h_ca];
    first [eapply evict_none_attached_pair; eassumption
          | match goal with E : negb (is_joiner _) = false |- _ => rewrite J in E; discriminate E end].
Qed.
Theorem c03o_del_sub_detaches : forall f s c n sid u target code pt,
  In (sid, Ctrl code []) (h_out (del_sub f s c n sid u target)) -> code = 200 \/ code = 304 ->
  alookup target (c_users c) = Some pt ->
  none_attached_as_c03 (h_ca (del_sub f s c n sid u target)) target = true.
Proof.
  intros f s c n sid u target code pt Hin Hc L. unfold del_sub in *. rewrite L in *.
  assert (D : forall n0 code0, In (sid, Ctrl code [])  (h_out (mkH s c n0 [(sid, Ctrl code0 [])])) -> code0 <> 200 -> code0 <> 304 -> False).
  { intros n0 code0 [H|[]] H2 H3. inv H. destruct Hc; contradiction. }
  destruct (negb (is_admin (user_mode c u))); [exfalso; eapply D; [exact Hin|discriminate|discriminate]|].
  destruct ((target =? 0)%N || N.eqb target u); [exfalso; eapply D; [exact Hin|discriminate|discriminate]|].
  destruct (is_owner (pud_mode pt)); [exfalso; eapply D; [exact Hin|discriminate|discriminate]|].
  destruct (negb (is_joiner (p_want pt))); [exfalso; eapply D; [exact Hin|discriminate|discriminate]|].
  destruct (call f n) as [ok1 n1]. destruct (negb ok1); [exfalso; eapply D; [exact Hin|discriminate|discriminate]|].
  destruct (ad_subs_delete s target) as [s'|]; destruct (evict_user c target true 0%N) as [c1 o1] eqn:E; cbn [h_ca];
    exact (evict_none_attached_pair _ _ _ _ _ _ E).
Qed.
Theorem c03o_leave_unsub_detaches : forall f s c n sid u,
  In (sid, Ctrl 200 []) (h_out (leave_unsub f s c n sid u)) ->
  none_attached_as_c03 (h_ca (leave_unsub f s c n sid u)) u = true.
Proof.
  intros f s c n sid u Hin. unfold leave_unsub in *.
  destruct (N.eqb (c_owner c) u); [destruct Hin as [H|[]]; inv H|].
  destruct (call f n) as [ok1 n1]. destruct (negb ok1); [destruct Hin as [H|[]]; inv H|].
  destruct (ad_subs_delete s u) as [s1|]; [|destruct Hin as [H|[]]; inv H].
  destruct (evict_user c u true sid) as [c1 o1] eqn:E; cbn [h_ca]. exact (evict_none_attached_pair _ _ _ _ _ _ E).
Qed.

(* the author kind "root on behalf of another user": the {pub} of a root session with extra.obo = u is the topic's
   publish with u as the author under the session map in which the session stands for u - so every C03 theorem
   above (c03x_accepted_iff, c03x_rejected_no_effect, ... hold for every session map) applies with the ACTING
   user: acknowledged iff the session is attached and u's want and given both have W *)
Theorem c03o_obo_publish_is_publish_as : forall dr nr sm roots x f sid u content noecho, is_root_c04 roots sid = true -> u <> 0%N ->
  obo_step_c03 dr nr sm roots x (OboUser u) f (OPub sid content noecho) =
    Some (xstep dr nr (sm_as_c04 sm sid u) x (EBase f (OPub sid content noecho))).
Proof.
  intros dr nr sm roots x f sid u content noecho R Hu. unfold obo_step_c03. cbn [TopicLife.op_sid].
  unfold dispatch_as_c04. rewrite R. cbn [negb].
  destruct (N.eqb_spec u 0); [contradiction|].
  assert (L : forall y, root_leave_other_c03 y sid u (OPub sid content noecho) = false) by (intros y; unfold root_leave_other_c03; reflexivity).
  rewrite L. rewrite !andb_false_r. cbn [root_req_ok_c04 negb andb]. reflexivity.
Qed.
Theorem c03o_obo_accepted_iff : forall dr nr sm x sid u content noecho, inv_num (xb x) ->
  ((exists n, first_reply (snd (xstep dr nr (sm_as_c04 sm sid u) x (EBase NoFault (OPub sid content noecho)))) sid = Some (Ctrl 202 [(P_seq, n)]))
   <-> xaccepts (sm_as_c04 sm sid u) x sid = true).
Proof. intros dr nr sm x sid u. exact (c03x_accepted_iff dr nr (sm_as_c04 sm sid u) x sid). Qed.
Theorem c03o_obo_needs_root : forall dr nr sm roots x ob f sid content noecho, is_root_c04 roots sid = false -> has_obo_c04 ob = true ->
  x_del x = None ->
  obo_step_c03 dr nr sm roots x ob f (OPub sid content noecho) = Some (set_b (mkState (st (xb x)) (ca (xb x)) 0) x, [(sid, Ctrl 403 [])]).
Proof.
  intros dr nr sm roots x ob f sid content noecho R H D. unfold obo_step_c03. cbn [TopicLife.op_sid]. unfold dispatch_as_c04. rewrite R, D.
  unfold del_finish. rewrite D. destruct ob; [discriminate| |]; reflexivity.
Qed.

Print Assumptions c03o_offline_ack_stores_sanitised_mode.
Print Assumptions c03o_offline_ack_decides_later_publish.
Print Assumptions c03o_offline_private_irrelevant_to_modes.
Print Assumptions c03o_offline_one_reply.
Print Assumptions c03o_offline_refused_no_effect.
Print Assumptions c03o_offline_others_untouched.
Print Assumptions c03o_offline_sanitised_mode_shape.
Print Assumptions c03o_set_from_detached_session.
Print Assumptions c03o_evict_detaches_everybody_attached_as.
Print Assumptions c03o_none_attached_meaning.
Print Assumptions c03o_evict_keeps_others.
Print Assumptions c03o_evict_loop_as_written.
Print Assumptions c03o_evicted_session_not_attached.
Print Assumptions c03o_ban_detaches.
Print Assumptions c03o_del_sub_detaches.
Print Assumptions c03o_leave_unsub_detaches.
Print Assumptions c03o_obo_publish_is_publish_as.
Print Assumptions c03o_obo_accepted_iff.
Print Assumptions c03o_obo_needs_root.

(* two worked histories, in the model: (a) user 2, not attached, sends ONE {set} with
   desc.private {k1: 5} and sub.mode "JRP": acknowledged, the stored want is JRP, Private is stored too; after the
   topic loads he attaches and his publish is refused (403).  (b) the root session 3 of user 1 attaches on behalf of
   user 2 and publishes for him (202); the owner bans user 2 with the granted mode RWP (no J, W kept): session 3 is
   detached (evicted frame) and its next publish on behalf of user 2 is refused (409). *)
Definition c03o_w_roots : list N := [3%N].
Definition c03o_w_sm : sessmap := [(1%N, 1%N); (2%N, 2%N); (3%N, 1%N)].
Example c03o_ex_offline_set_with_private :
  let z0 := ozinit_c03 (xinit c03_w_store) in
  match ozrun_c03 (fun _ _ => None) (fun r => r) c03o_w_sm c03o_w_roots z0
          [ZSet NoFault 2%N (mkOffReq 0%N [74%N; 82%N; 80%N] (PrMap [(1%N, PeVal 5%N)]));
           ZX (EBase NoFault (OSub 2%N [] false)); ZX (EBase NoFault (OPub 2%N 7%N false))] with
  | Some (z, outs) =>
    smodes (st (xb (oz_x z))) 2%N = Some (11%N, 47%N) /\ oz_gpriv z = [(2%N, PvMap [(1%N, 5%N)])] /\
    outs = [[(2%N, CtrlAcs 200 0%N 11%N 47%N)]; [(2%N, Ctrl 200 [])]; [(2%N, Ctrl 403 [])]]
  | None => False
  end.
Proof. vm_compute. repeat split. Qed.
Example c03o_ex_root_on_behalf_of_banned :
  let z0 := ozinit_c03 (xinit c03_w_store) in
  match ozrun_c03 (fun _ _ => None) (fun r => r) c03o_w_sm c03o_w_roots z0
          [ZX (EBase NoFault (OSub 1%N [] false)); ZObo (OboUser 2%N) NoFault (OSub 3%N [] false);
           ZObo (OboUser 2%N) NoFault (OPub 3%N 7%N false);
           ZX (EBase NoFault (OSetSub 1%N 2%N [82%N; 87%N; 80%N]));
           ZObo (OboUser 2%N) NoFault (OPub 3%N 8%N false)] with
  | Some (z, outs) =>
    smodes (st (xb (oz_x z))) 2%N = Some (47%N, 14%N) /\
    match ca (xb (oz_x z)) with Some c => none_attached_as_c03 c 2%N && negb (attached c 3%N) | None => false end = true /\
    nth 2 outs [] = [(3%N, Ctrl 202 [(P_seq, 1)]); (1%N, Data 1 2%N 7%N); (3%N, Data 1 2%N 7%N); (0%N, Push 1 2%N [1%N; 2%N])] /\
    nth 3 outs [] = [(3%N, Evicted false); (1%N, CtrlAcs 200 2%N 47%N 14%N)] /\
    nth 4 outs [] = [(3%N, Ctrl 409 [])]
  | None => False
  end.
Proof. vm_compute. repeat split. Qed.

(* ------------------------------------------------------------------ *)
(* s03f: creation of a peer-to-peer topic - whose auth level selects the creator's granted mode
   (Sys/P2PCreateC03f.v: Session.dispatch's acting user/level, selectAccessMode, initTopicP2P,
   subscriptionReply/thisUserSub without a requested mode, the publish gate).  All statements for
   any two distinct accounts, any default access modes, any stored rows, any session table. *)
From Tinode Require Import Sys.P2PCreateC03f Sys.P2PCreateC03fProofs.

(* the subscription created for the requester of {sub usrB} is granted exactly the peer's default
   for the level the request is executed at (selectAccessMode on the ACTING level) *)
Theorem c03f_creator_grant_follows_acting_level : forall ua ub, ua <> ub -> forall l s u1 s' c nb,
  party_c03f ua ub u1 = true -> init_p2p_c03f ua ub l s u1 = IOk s' c nb ->
  (if t_ex s then srow_of ua s u1 else None) = None ->
  nb = true /\
  r_given (crow_of ua c u1) =
    select_mode_c03f l (d_anon (acct_of ua s (peer_c03f ua ub u1))) (d_auth (acct_of ua s (peer_c03f ua ub u1))) ModeCP2P_c03f /\
  srow_of ua s' u1 = Some (crow_of ua c u1).
Proof.
  intros ua ub H l s u1 s' c nb _ Hi N0. pose proof (init_p2p_spec ua ub H l s u1) as X. rewrite Hi, N0 in X.
  destruct X as [(A1 & A2 & A3 & A4 & _) [X1 X2]]. repeat split; [exact X1|exact X2|].
  apply coh_with_row. repeat split; assumption.
Qed.
Print Assumptions c03f_creator_grant_follows_acting_level.

(* an existing subscription of the requester is loaded as stored *)
Theorem c03f_existing_grant_kept : forall ua ub, ua <> ub -> forall l s u1 s' c nb r,
  party_c03f ua ub u1 = true -> init_p2p_c03f ua ub l s u1 = IOk s' c nb -> t_ex s = true -> srow_of ua s u1 = Some r ->
  nb = false /\ crow_of ua c u1 = r /\ srow_of ua s' u1 = Some r.
Proof.
  intros ua ub H l s u1 s' c nb r _ Hi Ex Hr. pose proof (init_p2p_spec ua ub H l s u1) as X. rewrite Hi, Ex, Hr in X.
  destruct X as [(A1 & A2 & A3 & A4 & _) [X1 X2]]. repeat split; [exact X1|exact X2|].
  rewrite <- X2. apply coh_with_row. repeat split; assumption.
Qed.
Print Assumptions c03f_existing_grant_kept.

(* the session's own level and user do not matter: a request of ANY root session on behalf of u
   with extra.authlevel x is, reply and resulting state, the request of a session of u at that
   level (absent / unparsable authlevel = auth) *)
Theorem c03f_obo_same_as_own_session : forall ua ub sm1 sm2 s q1 q2 r u x l,
  alookup (q_sid q1) sm1 = Some (r, LvRoot) -> q_obo q1 = ObUser u -> q_xl q1 = x ->
  l = (match parse_level_c03f x with LvNone => LvAuth | l0 => l0 end) ->
  alookup (q_sid q2) sm2 = Some (u, l) -> q_obo q2 = ObNone -> q_sid q2 = q_sid q1 -> q_kind q2 = q_kind q1 ->
  step_c03f ua ub sm1 s q1 = step_c03f ua ub sm2 s q2.
Proof.
  intros ua ub sm1 sm2 s q1 q2 r u x l A1 A2 A3 A4 B1 B2 B3 B4. unfold step_c03f, step_gen_c03f.
  rewrite A1, B1, A2, B2, A3, B3, B4. cbn. subst l. reflexivity.
Qed.
Print Assumptions c03f_obo_same_as_own_session.

(* cache and stored rows agree after every history *)
Theorem c03f_cache_follows_store_history : forall ua ub, ua <> ub -> forall sm h s s',
  coh_c03f s -> run_c03f ua ub sm s h = Some s' -> coh_c03f s'.
Proof. intros ua ub H sm h. exact (run_coh ua ub H sm h). Qed.
Print Assumptions c03f_cache_follows_store_history.

(* accepted iff: after any history, a {pub} executed as u (own session or root on behalf) gets
   202 iff the sending session is attached and u's STORED row has W in want and in given *)
Theorem c03f_publish_accepted_iff_history : forall ua ub, ua <> ub -> forall sm h s0 s q suid slvl u l s' code seq,
  coh_c03f s0 -> run_c03f ua ub sm s0 h = Some s ->
  alookup (q_sid q) sm = Some (suid, slvl) -> dispatch_c03f suid slvl (q_obo q) (q_xl q) = DRun u l -> q_kind q = KPub ->
  step_c03f ua ub sm s q = Some (s', (code, seq)) ->
  (code = 202 <-> attached_now_c03f s (q_sid q) = true /\ stored_writer_c03f ua s u = true).
Proof. intros ua ub H sm h s0 s q suid slvl u l s' code seq C R. eapply pub_iff; [exact H|]. eapply run_coh; eassumption. Qed.
Print Assumptions c03f_publish_accepted_iff_history.

(* refused = no effect at all; accepted = next number, one message by u, rows untouched *)
Theorem c03f_publish_effect : forall ua ub sm s q suid slvl u l s' code seq,
  alookup (q_sid q) sm = Some (suid, slvl) -> dispatch_c03f suid slvl (q_obo q) (q_xl q) = DRun u l -> q_kind q = KPub ->
  step_c03f ua ub sm s q = Some (s', (code, seq)) ->
  (code <> 202 -> s' = s /\ seq = None) /\
  (code = 202 -> exists c, ca s = Some c /\ seq = Some (k_lastid c + 1) /\ t_seq s' = k_lastid c + 1 /\
                 s_msgs s' = s_msgs s ++ [(k_lastid c + 1, u)] /\ s_a s' = s_a s /\ s_b s' = s_b s).
Proof.
  intros ua ub sm s q suid slvl u l s' code seq Hs Hd Hk. unfold step_c03f, step_gen_c03f. rewrite Hs, Hd, Hk.
  destruct (party_c03f ua ub u); cbn [negb]; [|discriminate].
  destruct (ca s) as [c|] eqn:Hc.
  - destruct (attached_c03f c (q_sid q)).
    + unfold pub_c03f. destruct (is_writer (row_mode_c03f (crow_of ua c u))); cbn [negb]; intros [= <- <- <-].
      * split; [congruence|]. intros _. exists c. cbn. repeat split; reflexivity.
      * split; [auto|discriminate].
    + intros [= <- <- <-]. split; [auto|discriminate].
  - intros [= <- <- <-]. split; [auto|discriminate].
Qed.
Print Assumptions c03f_publish_effect.

Example c03f_ex_root_on_behalf_creates_without_w :
  match step_c03f 1%N 2%N w_sessions_c03f w_state_c03f w_sub_c03f with
  | Some (s1, _) => option_map r_given (s_a s1) = Some 27%N /\
    match step_c03f 1%N 2%N w_sessions_c03f s1 w_pub_c03f with Some (_, (code, _)) => code = 403 | None => False end
  | None => False end.
Proof. vm_compute. split; reflexivity. Qed.

(* the variant with the SESSION's level in initTopicP2P: the full statement
   "a creator whose peer's default for his level lacks W cannot publish" is refuted for it and
   holds on the witness for the faithful model *)
Definition c03f_sessvar_grant_statement : Prop := forall sm s q s1 r,
  step_sessvar_c03f 1%N 2%N sm s q = Some (s1, r) -> step_c03f 1%N 2%N sm s q = Some (s1, r).
Theorem c03f_sessvar_grant_refuted : ~ c03f_sessvar_grant_statement.
Proof.
  intros H. pose proof sessvar_witness as W. pose proof c03f_ex_root_on_behalf_creates_without_w as F.
  destruct (step_sessvar_c03f 1%N 2%N w_sessions_c03f w_state_c03f w_sub_c03f) as [[s1 r]|] eqn:E; [|exact W].
  rewrite (H _ _ _ _ _ E) in F. destruct W as [W _]. destruct F as [F _]. rewrite W in F. discriminate.
Qed.
Print Assumptions c03f_sessvar_grant_refuted.
(* partial: the two coincide whenever the request is not on behalf of somebody (s.authLvl = msg.AuthLvl) *)
Theorem c03f_sessvar_grant_partial : forall ua ub sm s q, q_obo q = ObNone ->
  step_sessvar_c03f ua ub sm s q = step_c03f ua ub sm s q.
Proof.
  intros ua ub sm s q H. unfold step_sessvar_c03f, step_c03f, step_gen_c03f. rewrite H.
  destruct (alookup (q_sid q) sm) as [[a b]|]; reflexivity.
Qed.
Print Assumptions c03f_sessvar_grant_partial.
