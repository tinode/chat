(* C13: no client input can crash the server or leave a request unanswered.
   PROOF HALF ONLY: statements about the models coq/Sys/PanicSites.v (session / hub routing of every
   message kind, the modelled panic sites - among them the in-topic default-access site: getDefaultAccess /
   Topic.accessFor and the handlers that reach it -, configurations as explicit parameters)
   and coq/Pure/Drafty.v (message content rendered into notification previews: the Drafty span pipeline); further
   down, each introduced where its theorems stand, coq/Sys/Inflight.v, coq/Sys/HeldLoad.v, coq/Sys/EvictStoreC13.v
   and coq/Pure/PushPreviewC13.v.
   Panic-freedom of Go code outside these models is NOT proved here; it is tested by the fuzz half of
   the check.

   [handle rp c st f]: outcome of one wire frame [f] in state [st] under configuration [c];
   [rp = all_repairs] is the code as it is (/repo HEAD: the repairs of the panic sites - the six
   findings/C13_*.diff other than C13_evict_nonblocking and C13_deltopic_while_loading - and f52b053 are
   `fix:` commits), [rp = no_repairs] the code before those repairs.
   [run rp c st ms]: the outcomes of a history of requests of one session, the state being advanced by
   [after] (attachments and the cached subscription of the acting user, which is what the default-access
   site reads). *)
From Coq Require Import List NArith ZArith Bool.
Import ListNotations.
Require Import Tinode.Sys.PanicSites Tinode.Sys.PanicSitesProofs.
Open Scope N_scope.

(* ---- no panic ---- *)
(* full statement, for the code before the repairs *)
Definition c13_no_panic_statement : Prop :=
  forall c st f, state_wf st = true -> is_panic (handle no_repairs c st f) = false.

(* refuted by the faithful model: an anonymous client after {hi} sends {acc} with an unknown tmpscheme *)
Theorem c13_no_panic_refuted : ~ c13_no_panic_statement.
Proof. intros H. specialize (H cfg_all st_hi (Decoded w_acc) eq_refl). vm_compute in H. discriminate H. Qed.
Print Assumptions c13_no_panic_refuted.

(* one concrete witness per modelled site (all replayed on the real server by the check's corpus) *)
Theorem c13_witnesses :
  handle no_repairs cfg_all st_hi (Decoded w_acc) = Panic site_acc_nil_auth /\
  handle no_repairs cfg_all st_in (Decoded w_note_short) = Panic site_cat_slice /\
  handle no_repairs cfg_all st_in (Decoded w_note_prefix) = Panic site_cat_default /\
  handle no_repairs cfg_all st_in (Decoded w_del_topic) = Panic site_cat_slice /\
  handle no_repairs cfg_nomedia st_att (Decoded w_pub_att) = Panic site_media_save /\
  handle no_repairs cfg_nomedia st_hi (Decoded w_acc_att) = Panic site_media_link /\
  handle no_repairs cfg_all st_in (PbSet (msg0 KSet) true true) = Panic site_pb_setquery /\
  handle no_repairs cfg_all st_root_p2p (Decoded w_pub_obo) = Panic site_p2p_original /\
  handle no_repairs cfg_all st_root_p2p (Decoded w_get_obo) = Panic site_p2p_original /\
  handle no_repairs cfg_all st_root_sys_banned (Decoded w_sub_sys) = Panic site_defacs /\
  run no_repairs cfg_all st_root w_defacs = [rep 200 [55]; rep 200 [55]; Panic site_defacs].
Proof. vm_compute. repeat split. Qed.
Print Assumptions c13_witnesses.

(* the code before the repairs panics ONLY on the listed triggers: [trigger] is a predicate on the input
   (unknown tmpscheme; {note call} / {del topic} on a name GetTopicCat does not know; attachments
   without a media handler; obo of a non-member on an attached P2P topic; empty gRPC SetQuery; a request that
   makes the sys topic ask for its default access mode: {sub} / {set sub} of a self-banned subscriber without a
   mode, {set sub user=..} inviting a new user without a mode) *)
Theorem c13_no_panic_partial :
  forall c st f, state_wf st = true -> trigger c st f = false -> is_panic (handle no_repairs c st f) = false.
Proof.
  intros c st f Hwf Ht. destruct (is_panic (handle no_repairs c st f)) eqn:E; [|reflexivity].
  rewrite (handle_trigger c st f Hwf E) in Ht. discriminate Ht.
Qed.
Print Assumptions c13_no_panic_partial.

(* FULL statement for the repaired code: every configuration, every well-formed state (all oracle
   values), every frame *)
Theorem c13_no_panic :
  forall c st f, state_wf st = true -> is_panic (handle all_repairs c st f) = false.
Proof. exact handle_safe. Qed.
Print Assumptions c13_no_panic.

(* the same over histories of requests of one session (the state advanced by [after]) *)
Theorem c13_no_panic_history :
  forall c st ms, state_wf st = true -> Forall (fun o => is_panic o = false) (run all_repairs c st ms).
Proof.
  intros c st ms. revert st. induction ms as [|m r IH]; intros st Hwf; cbn [run]; constructor.
  - apply handle_safe. exact Hwf.
  - apply IH. apply after_wf. exact Hwf.
Qed.
Print Assumptions c13_no_panic_history.

(* ---- the in-topic default-access site (getDefaultAccess / Topic.accessFor) ---- *)
(* getDefaultAccess as it is returns for each of the five topic categories, whatever the other arguments *)
Theorem c13_default_access_total :
  forall cat auth_user is_chan, exists mode, get_default_access all_repairs cat auth_user is_chan = Some mode.
Proof. intros [] [] []; vm_compute; eexists; reflexivity. Qed.
Print Assumptions c13_default_access_total.

(* before /repo f52b053 the table lacked exactly the sys topic *)
Theorem c13_default_access_unrepaired :
  forall cat auth_user is_chan, get_default_access no_repairs cat auth_user is_chan = None <-> (cat = CatSys /\ auth_user = true).
Proof. intros [] [] []; vm_compute; split; try discriminate; try (intros [? ?]; discriminate); auto. Qed.
Print Assumptions c13_default_access_unrepaired.

(* every call site that a client request reaches: thisUserSub (new subscription, un-self-ban), anotherUserSub
   (invite with the default mode), replySetSub, the registration handler, initTopicFnd / initTopicNewGrp,
   replyCreateUser - for every topic (all five categories), every cached subscription, every request *)
Theorem c13_default_access_sites :
  forall st ti u target m,
    is_panic (this_user_sub all_repairs st ti u m) = false /\
    is_panic (another_user_sub all_repairs st ti u target m) = false /\
    is_panic (reply_set_sub all_repairs st ti u m) = false /\
    is_panic (topic_reg all_repairs st ti u m) = false /\
    (forall cat is_chan, init_defaults all_repairs cat is_chan = true) /\
    new_user_defaults all_repairs = true.
Proof.
  intros st ti u target m. repeat split.
  - exact (answers_not_panic _ _ (this_user_sub_answers st ti u m)).
  - exact (answers_not_panic _ _ (another_user_sub_answers st ti u target m)).
  - exact (answers_not_panic _ _ (reply_set_sub_answers st ti u m)).
  - exact (answers_not_panic _ _ (this_user_sub_answers st ti u m)).
  - intros cat is_chan. destruct cat, is_chan; reflexivity.
Qed.
Print Assumptions c13_default_access_sites.

(* full statement over histories for the code before f52b053, refuted by a three-request
   witness: a root session sends {sub sys}; {set sys sub mode=N}; {sub sys} *)
Definition c13_default_access_unrepaired_statement : Prop :=
  forall c st ms, state_wf st = true -> Forall (fun o => is_panic o = false) (run no_repairs c st ms).

Theorem c13_default_access_unrepaired_refuted : ~ c13_default_access_unrepaired_statement.
Proof.
  intros H. specialize (H cfg_all st_root w_defacs eq_refl). vm_compute in H.
  inversion H as [|? ? _ H1]; subst. inversion H1 as [|? ? _ H2]; subst. inversion H2 as [|? ? H3 _]; subst. discriminate H3.
Qed.
Print Assumptions c13_default_access_unrepaired_refuted.

(* ---- every request other than a note is answered ---- *)
(* hypotheses: the session is alive (a terminating session drops all output), and a {pub} carries an
   id ({pub} without id is by protocol design not acknowledged when accepted) *)
Theorem c13_answered :
  forall c st m, s_terminating st = false -> state_wf st = true -> m_kind m <> KNote ->
    (m_kind m = KPub -> is_empty (m_id m) = false) ->
    exists r rs, handle all_repairs c st (Decoded m) = Replies (r :: rs).
Proof.
  intros c st m H1 H2 H3 H4. pose proof (answered c st m H1 H2 H3 H4) as H.
  destruct (handle all_repairs c st (Decoded m)) as [[|r rs]| |]; try discriminate H. eauto.
Qed.
Print Assumptions c13_answered.

Theorem c13_answered_junk :
  forall c st obo u, s_terminating st = false ->
    (exists code, handle all_repairs c st Undecodable = Replies [{| r_code := code; r_id := [] |}] /\ 400 <= code) /\
    (exists code, handle all_repairs c st (NoKind obo u) = Replies [{| r_code := code; r_id := [] |}] /\ 400 <= code).
Proof.
  intros c st obo u Ht. simpl. rewrite Ht. split; [exists 400; split; [reflexivity|discriminate]|].
  destruct (obo_check st obo u) eqn:O.
  - exists n. split; [reflexivity|]. apply obo_check_code in O as [-> | ->]; discriminate.
  - exists 400. split; [reflexivity|discriminate].
Qed.
Print Assumptions c13_answered_junk.

(* ---- replies echo the id ---- *)
Definition c13_id_echo_statement : Prop :=
  forall c st m, state_wf st = true -> m_kind m <> KNote -> (m_kind m = KPub -> is_empty (m_id m) = false) ->
    all_ids (m_id m) (handle all_repairs c st (Decoded m)) = true.

(* refuted: extra.obo from a non-root session is refused before the id is read: ctrl 403 with id "" *)
Theorem c13_id_echo_refuted : ~ c13_id_echo_statement.
Proof.
  intros H. specialize (H cfg_all st_in w_get_obo_nonroot eq_refl).
  assert (K : m_kind w_get_obo_nonroot <> KNote) by discriminate.
  specialize (H K (fun E => ltac:(discriminate E))). vm_compute in H. discriminate H.
Qed.
Print Assumptions c13_id_echo_refuted.

Theorem c13_id_echo_partial :
  forall c st m, state_wf st = true -> m_kind m <> KNote -> (m_kind m = KPub -> is_empty (m_id m) = false) ->
    obo_check st (m_obo m) (m_obo_uid m) = None ->
    all_ids (m_id m) (handle all_repairs c st (Decoded m)) = true.
Proof.
  intros c st m Hwf Hn Hp O. simpl. destruct (s_terminating st); [reflexivity|].
  destruct (dispatch_answers c st m Hwf O Hn Hp). simpl. now rewrite eqs_refl.
Qed.
Print Assumptions c13_id_echo_partial.

(* ---- malformed / unauthorised / out-of-sequence requests get an error code, not silence ---- *)
Theorem c13_error_not_silence :
  forall c st m, s_terminating st = false -> bad_request st m = true ->
    exists code, first_code (handle all_repairs c st (Decoded m)) = Some code /\ 400 <= code.
Proof.
  intros c st m Ht Hb. destruct (error_not_silence c st m Ht Hb) as [code [id [-> H]]].
  exists code. split; [reflexivity|exact H].
Qed.
Print Assumptions c13_error_not_silence.

(* the hypotheses are satisfiable *)
Example c13_wf_example : state_wf st_att = true /\ state_wf st_root_p2p = true /\ state_wf st_root = true /\ state_wf st_root_sys_banned = true /\
  trigger cfg_all st_att (Decoded (msg0 KHi)) = false /\ trigger cfg_all st_root_sys_banned (Decoded w_sub_sys) = true.
Proof. vm_compute. repeat split. Qed.
Example c13_bad_example : bad_request st_hi (with_topic KGet s_me [] 0%Z false [] 0 true []) = true.
Proof. reflexivity. Qed.

(* ================= message content rendered into notification previews (coq/Pure/Drafty.v) ================= *)
(* [Drafty.to_tree true] = toTree as it is (server/drafty/drafty.go), from the decoded document on; Go int
   additions of client integers wrap at 64 bits; every slice / index expression has an explicit Panic
   outcome; forEach runs on fuel.  The statements hold for EVERY decoded document: all integers, any
   number of spans and entities, any nesting, any text (incl. no text: nil grapheme container). *)
Require Tinode.Pure.Drafty Tinode.Pure.DraftyProofs.
Open Scope Z_scope.

(* toTree never panics and its recursion forEach never runs out of fuel *)
Theorem c13_drafty_never_panics :
  forall doc, (forall site, Drafty.to_tree true doc <> Drafty.Panic site) /\ Drafty.to_tree true doc <> Drafty.OutOfFuel.
Proof. intros doc. exact (DraftyProofs.safe_not_panic _ (DraftyProofs.to_tree_safe doc)). Qed.
Print Assumptions c13_drafty_never_panics.

(* forEach itself: on ANY list of spans that passed the range check (in any order, sorted or not), from any
   start >= 0 to any end within the text, it terminates with fuel = S (number of spans) and does not panic *)
Theorem c13_drafty_for_each_total :
  forall g start end_ spans, DraftyProofs.gcs_wf g -> 0 <= start -> end_ <= Drafty.g_length g ->
    Forall (DraftyProofs.span_ok (Drafty.g_length g)) spans ->
    exists nodes, Drafty.for_each (S (length spans)) g start end_ spans = Drafty.Ok nodes.
Proof.
  intros g start end_ spans Hg Hs He Hok.
  destruct (DraftyProofs.for_each_ok (S (length spans)) g start end_ spans Hg (le_n _) Hs He Hok) as [nodes [E _]]. eauto.
Qed.
Print Assumptions c13_drafty_for_each_total.

(* the container built by prepareGraphemes satisfies the invariant the slices rely on *)
Theorem c13_drafty_container_wf : forall doc, DraftyProofs.gcs_wf (Drafty.d_gc doc).
Proof. exact DraftyProofs.d_gc_wf. Qed.
Print Assumptions c13_drafty_container_wf.

(* PlainText (up to TrimSpace) and Preview (up to copyLight / json.Marshal), for every preview length that is a Go int *)
Theorem c13_drafty_plain_text_never_panics :
  forall doc, (forall site, Drafty.plain_text true doc <> Drafty.Panic site) /\ Drafty.plain_text true doc <> Drafty.OutOfFuel.
Proof. intros doc. exact (DraftyProofs.safe_not_panic _ (DraftyProofs.plain_text_safe doc)). Qed.
Print Assumptions c13_drafty_plain_text_never_panics.

Theorem c13_drafty_preview_never_panics :
  forall doc max_len, max_len < Drafty.two63 ->
    (forall site, Drafty.preview true max_len doc <> Drafty.Panic site) /\ Drafty.preview true max_len doc <> Drafty.OutOfFuel.
Proof. intros doc max_len H. exact (DraftyProofs.safe_not_panic _ (DraftyProofs.preview_safe max_len doc H)). Qed.
Print Assumptions c13_drafty_preview_never_panics.

(* the range check before /repo commit 6cc931e ("s.at < -1 || s.end > textLen" only) *)
Definition c13_drafty_unrepaired_statement : Prop := forall doc site, Drafty.to_tree false doc <> Drafty.Panic site.

(* refuted: {"txt":"hello","fmt":[{"at":4611686018427387904,"len":4611686018427387904,"tp":"ST"}]}: at+len wraps to -2^63,
   passes the check, and forEach slices the text up to 2^62 *)
Theorem c13_drafty_unrepaired_refuted : ~ c13_drafty_unrepaired_statement.
Proof. intros H. exact (H Drafty.doc_overflow Drafty.site_sizes_index DraftyProofs.unrepaired_panics). Qed.
Print Assumptions c13_drafty_unrepaired_refuted.

(* ... and the overflow is the only trigger: when no at+len leaves the int range the old check behaves as the new one *)
Theorem c13_drafty_unrepaired_partial :
  forall doc, DraftyProofs.no_overflow doc ->
    (forall site, Drafty.to_tree false doc <> Drafty.Panic site) /\ Drafty.to_tree false doc <> Drafty.OutOfFuel.
Proof. intros doc H. rewrite (DraftyProofs.unrepaired_same doc H). exact (DraftyProofs.safe_not_panic _ (DraftyProofs.to_tree_safe doc)). Qed.
Print Assumptions c13_drafty_unrepaired_partial.

(* the model computes: nested spans, an attachment with entity data *)
Example c13_drafty_example :
  Drafty.plain_text true Drafty.doc_nested
    = Drafty.Ok [91;70;73;76;69;32;39;102;39;93;42;104;95;101;108;95;108;111;42]%N      (* [FILE 'f']*h_el_lo* *)
  /\ DraftyProofs.no_overflow Drafty.doc_nested.
Proof.
  split; [vm_compute; reflexivity|]. intros i Hi. cbn in Hi.
  repeat (destruct Hi as [<- | Hi]; [vm_compute; split; [discriminate|reflexivity]|]). destruct Hi.
Qed.

(* ================= the request slot of a session and slow consumers (coq/Sys/Inflight.v) ================= *)
(* boundedWaitGroup.Done() without a preceding Add() is a logs.Err.Panicln in a hub / topic goroutine: process death.
   [Inflight.run init_test init_cfg ls]: any interleaving [ls] of the handler bodies that call Add / Done
   (Session.subscribe / leave, Hub.run join, topicInit, registerSession, unregisterSession, the slow-consumer drop
   of broadcastToSessions, cleanUp / unsubAll, evictUser, the write loop's detach) from server start, for any
   number of sessions and topics, every value of the label parameters (queue-full outcomes, who a broadcast
   selects, whether a subscription is accepted, which connections have stopped reading).
   [init_test = true] is the code as it is. *)
Require Tinode.Sys.Inflight Tinode.Sys.InflightProofs.
Open Scope N_scope.

(* FULL: on no path is Done reached without a matching Add *)
Theorem c13_inflight_no_panic :
  forall ls, Inflight.is_panic (Inflight.run true Inflight.init_cfg ls) = false.
Proof. intros ls. apply InflightProofs.good_no_panic, InflightProofs.run_good; [exact InflightProofs.inv_init_cfg|discriminate]. Qed.
Print Assumptions c13_inflight_no_panic.

(* ... because at every reachable state the slot of a session holds exactly its {sub} / {leave} requests that sit
   in hub.join, in a topicInit, in a t.reg or in a t.unreg (nil after cleanUp, and then nothing of it is queued) *)
Theorem c13_inflight_balanced :
  forall ls c s, Inflight.run true Inflight.init_cfg ls = Inflight.Ok c ->
    match Inflight.s_inflight (Inflight.c_sess c s) with
    | Some n => n = Inflight.pending c s
    | None => Inflight.pending c s = 0%nat
    end.
Proof.
  intros ls c s H. assert (G : InflightProofs.good (Inflight.run true Inflight.init_cfg ls)).
  { apply InflightProofs.run_good; [exact InflightProofs.inv_init_cfg|discriminate]. }
  rewrite H in G. apply G.
Qed.
Print Assumptions c13_inflight_balanced.

(* ... hence at rest (all queues empty) every slot is free: what the driver reads after every operation *)
Theorem c13_inflight_free_at_rest :
  forall ls c s, Inflight.run true Inflight.init_cfg ls = Inflight.Ok c -> Inflight.quiescent c = true ->
    Inflight.s_inflight (Inflight.c_sess c s) = Some 0%nat \/ Inflight.s_inflight (Inflight.c_sess c s) = None.
Proof.
  intros ls c s H Q. pose proof (c13_inflight_balanced ls c s H) as B.
  rewrite (InflightProofs.quiescent_pending c s Q) in B.
  destruct (Inflight.s_inflight (Inflight.c_sess c s)); [left; now subst|now right].
Qed.
Print Assumptions c13_inflight_free_at_rest.

(* the variant of Topic.unregisterSession that drops the test of msg.init *)
Definition c13_evict_without_init_test_statement : Prop :=
  forall ls, Inflight.is_panic (Inflight.run false Inflight.init_cfg ls) = false.

(* refuted: a session attaches, stops reading, the topic broadcasts: the drop path releases a slot nobody took *)
Theorem c13_evict_without_init_test_refuted : ~ c13_evict_without_init_test_statement.
Proof. intros H. specialize (H Inflight.w_slow_consumer). rewrite InflightProofs.variant_panics in H. discriminate H. Qed.
Print Assumptions c13_evict_without_init_test_refuted.

(* ... and a full send queue is the only trigger: without a connection that stops reading the variant is safe too *)
Theorem c13_evict_without_init_test_partial :
  forall ls, InflightProofs.no_clog ls = true -> Inflight.is_panic (Inflight.run false Inflight.init_cfg ls) = false.
Proof.
  intros ls H. apply InflightProofs.good_no_panic, InflightProofs.run_good; [exact InflightProofs.inv_init_cfg|].
  intros _. split; [intros s; reflexivity|exact H].
Qed.
Print Assumptions c13_evict_without_init_test_partial.

Example c13_inflight_example :
  Inflight.run false Inflight.init_cfg Inflight.w_slow_consumer = Inflight.Panic Inflight.site_done_before_add /\
  Inflight.is_panic (Inflight.run true Inflight.init_cfg Inflight.w_slow_consumer) = false /\
  InflightProofs.no_clog Inflight.w_slow_consumer = false.
Proof.
  split; [exact InflightProofs.variant_panics|]. split; [exact InflightProofs.witness_safe_as_is|].
  vm_compute. reflexivity.
Qed.

(* ================= requests queued for a topic while it is being loaded (coq/Sys/HeldLoad.v) ================= *)
(* [HeldLoad.run_held as_is ti join ms rel]: the replies, in order, when session [m_sess join] sends the {sub} [join]
   for a topic that is not loaded, the requests [ms] of any sessions (none attached: {pub} {note} {get} {set} {del}
   {leave} {sub}, any ids) arrive while the database call of the load is in flight, and the load then succeeds
   ([RelOk]) or fails with any error ([RelFail code]).  [as_is = true] is the code as it is. *)
Require Tinode.Sys.HeldLoad Tinode.Sys.HeldLoadProofs.

(* FULL: every reply goes to the session of a request and carries THAT request's id (never the id of another
   pending request; the reply to a note carries the note's empty id) *)
Theorem c13_held_load_id_echo :
  forall ti join ms rel, HeldLoad.all_own (join :: ms) (HeldLoad.run_held true ti join ms rel) = true.
Proof. intros ti join ms rel. apply HeldLoadProofs.from_all_own, HeldLoadProofs.run_held_from. Qed.
Print Assumptions c13_held_load_id_echo.

(* the failure branch of topicInit exactly: one reply to the join, then ONE 503 per queued client message, in queue
   order, to that message's session with that message's id, then one per queued {del what=topic} *)
Theorem c13_held_load_failure_exact :
  forall e h, HeldLoad.release_fail true e h =
    HeldLoad.own (HeldLoad.h_join h) e
    :: map (fun m => HeldLoad.own m 503) (HeldLoad.h_client h) ++ map (fun m => HeldLoad.own m 503) (HeldLoad.h_meta h).
Proof. reflexivity. Qed.
Print Assumptions c13_held_load_failure_exact.

(* the variant whose drain of t.clientMsg answers with join.Id *)
Definition c13_held_load_join_id_statement : Prop :=
  forall ti join ms rel, HeldLoad.all_own (join :: ms) (HeldLoad.run_held false ti join ms rel) = true.

Theorem c13_held_load_join_id_refuted : ~ c13_held_load_join_id_statement.
Proof.
  intros H. specialize (H HeldLoad.ti_sys_topic HeldLoad.w_join [HeldLoad.w_pub] (HeldLoad.RelFail 500)).
  rewrite HeldLoadProofs.variant_foreign_id in H. discriminate H.
Qed.
Print Assumptions c13_held_load_join_id_refuted.

(* every request other than a note is answered (the queue of the paused topic, 192 slots, not overrun) *)
Definition c13_held_load_answered_statement : Prop :=
  forall ti join ms rel m, (length ms <= HeldLoad.client_cap)%nat -> In m (join :: ms) -> HeldLoad.is_note m = false ->
    HeldLoad.pub_has_id m = true -> HeldLoad.answered (HeldLoad.run_held true ti join ms rel) m = true.

(* REFUTED by the faithful model (and on the real server, see findings/C13.md): a P2P topic is deleted by a
   {del what=topic} while it is being loaded; the load succeeds; topicInit returns at `if t.isDeleted()` and the
   {sub} is never answered *)
Theorem c13_held_load_answered_refuted : ~ c13_held_load_answered_statement.
Proof.
  intros H. specialize (H HeldLoad.ti_p2p_topic HeldLoad.w_join [HeldLoad.w_del] HeldLoad.RelOk HeldLoad.w_join).
  rewrite HeldLoadProofs.join_lost in H. assert (K : false = true); [apply H|discriminate K].
  - apply Nat.leb_le. reflexivity.
  - now left.
  - reflexivity.
  - reflexivity.
Qed.
Print Assumptions c13_held_load_answered_refuted.

(* a second way: the OWNER's {del what=topic} for a group topic that is being loaded is queued in t.meta (t.owner is
   not known yet); after the load Topic.replyDelTopic finds the owner, logs "SHOULD NOT HAPPEN" and returns without a reply *)
Theorem c13_held_load_owner_del_unanswered :
  HeldLoad.answered (HeldLoad.run_held true HeldLoad.ti_grp_topic HeldLoad.w_join [HeldLoad.w_del_owner] HeldLoad.RelOk) HeldLoad.w_del_owner = false.
Proof. vm_compute. reflexivity. Qed.
Print Assumptions c13_held_load_owner_del_unanswered.

(* ... and these are the only ways to lose an answer: [lost_trigger] = the load SUCCEEDS after a {del what=topic}
   arrived for a P2P topic, or after the owner's {del what=topic} arrived *)
Theorem c13_held_load_answered_partial :
  forall ti join ms rel m, HeldLoadProofs.lost_trigger ti ms rel = false -> (length ms <= HeldLoad.client_cap)%nat ->
    In m (join :: ms) -> HeldLoad.is_note m = false -> HeldLoad.pub_has_id m = true ->
    HeldLoad.answered (HeldLoad.run_held true ti join ms rel) m = true.
Proof.
  intros ti join ms rel m. unfold HeldLoad.run_held.
  destruct (HeldLoad.route_all ti (HeldLoad.init_held join) ms) as [h rs] eqn:R. exact (HeldLoadProofs.held_answered _ _ _ _ _ _ _ R).
Qed.
Print Assumptions c13_held_load_answered_partial.

Example c13_held_load_example :
  HeldLoad.run_held true HeldLoad.ti_sys_topic HeldLoad.w_join [HeldLoad.w_pub] (HeldLoad.RelFail 500)
    = [HeldLoad.mkRep 1 500 [115;49]; HeldLoad.mkRep 2 503 [112;55]] /\
  HeldLoad.run_held false HeldLoad.ti_sys_topic HeldLoad.w_join [HeldLoad.w_pub] (HeldLoad.RelFail 500)
    = [HeldLoad.mkRep 1 500 [115;49]; HeldLoad.mkRep 2 503 [115;49]] /\
  HeldLoadProofs.lost_trigger HeldLoad.ti_p2p_topic [HeldLoad.w_del] HeldLoad.RelOk = true.
Proof. split; [exact HeldLoadProofs.as_is_on_witness|]. vm_compute. split; reflexivity. Qed.

(* ================= the session store and the stop notice (coq/Sys/EvictStoreC13.v) ================= *)
(* "never terminates the server process, and all other sessions keep being served ... every request is answered" for
   the requests that terminate a user's sessions.  [EvictStoreC13.run keep ls (init_store us)]: any history [ls] of
   NewSession (any transport, any set of stale long-polling sessions expiring), {login}, SessionStore.Get / Delete,
   SessionStore.EvictUser, the write loop / a poll taking the stop notice, cleanUp, {acc user=U status=S} and
   {del what=user [user=U]} requests of any session (root or not, any target, any store outcome), from a server with the
   users table [us].  [Blocks BEvict sid] = SessionStore.EvictUser executes `s.stop <- data` on a full channel WHILE
   HOLDING SessionStore.lock: the requester is never answered, and every Get / NewSession / Delete of every other
   session hangs.  [keep = false] is the code as it is; [prompt_label] excludes exactly the requests whose handler puts
   a notice on the REQUESTER's own, still cached, session (replyDelUser of the own account) while nobody reads that
   session's stop channel (a long-polling session between polls, a stalled connection). *)
Require Tinode.Sys.EvictStoreC13 Tinode.Sys.EvictStoreC13Proofs.

Definition c13_evict_never_blocks_statement : Prop :=
  forall us ls, EvictStoreC13.blocks_evict (EvictStoreC13.run false ls (EvictStoreC13.init_store us)) = false.

(* REFUTED by the faithful model (and on the real server, findings/C13.md "EvictUser after a self-deletion through an
   idle long-polling session"): user 7 deletes the own account through a long-polling session and does not poll again;
   a root session deletes user 7: EvictUser finds the session still cached with its notice not taken *)
Theorem c13_evict_never_blocks_refuted : ~ c13_evict_never_blocks_statement.
Proof.
  intros H. specialize (H EvictStoreC13Proofs.wit_users EvictStoreC13Proofs.wit_self).
  rewrite EvictStoreC13Proofs.wit_self_blocks in H. discriminate H.
Qed.
Print Assumptions c13_evict_never_blocks_refuted.

(* ... and that is the only way: on every other history - any number of evictions of the same user, with any number of
   sessions of any transport whose stop channel nobody reads - EvictUser never waits *)
Theorem c13_evict_never_blocks_partial :
  forall us ls, forallb EvictStoreC13.prompt_label ls = true ->
    EvictStoreC13.blocks_evict (EvictStoreC13.run false ls (EvictStoreC13.init_store us)) = false.
Proof.
  intros us ls P. pose proof (EvictStoreC13Proofs.run_inv ls _ P (EvictStoreC13Proofs.init_inv us)) as S.
  destruct (EvictStoreC13.run false ls (EvictStoreC13.init_store us)) as [st|[| |] x|x]; [reflexivity|destruct S|reflexivity..].
Qed.
Print Assumptions c13_evict_never_blocks_partial.

(* ... because a session that is in sessCache has an empty stop channel (the notice and the removal from the cache
   happen in the same critical section: a session gets at most one notice from EvictUser) *)
Theorem c13_evict_cached_means_no_notice :
  forall us ls st s, forallb EvictStoreC13.prompt_label ls = true ->
    EvictStoreC13.run false ls (EvictStoreC13.init_store us) = EvictStoreC13.Ok st ->
    In s (EvictStoreC13.sessions st) -> EvictStoreC13.s_cached s = true -> EvictStoreC13.s_stopfull s = false.
Proof.
  intros us ls st s P E. apply EvictStoreC13Proofs.store_inv_spec.
  pose proof (EvictStoreC13Proofs.run_inv ls _ P (EvictStoreC13Proofs.init_inv us)) as S. rewrite E in S. exact S.
Qed.
Print Assumptions c13_evict_cached_means_no_notice.

(* the variant of EvictUser that leaves the evicted sessions in sessCache ("the session deletes itself when its write
   loop takes the notice") *)
Definition c13_evict_keep_cached_statement : Prop :=
  forall us ls, forallb EvictStoreC13.prompt_label ls = true ->
    EvictStoreC13.blocks_evict (EvictStoreC13.run true ls (EvictStoreC13.init_store us)) = false.

(* refuted: a user with an idle long-polling session is suspended, un-suspended and suspended again by root *)
Theorem c13_evict_keep_cached_refuted : ~ c13_evict_keep_cached_statement.
Proof.
  intros H. specialize (H EvictStoreC13Proofs.wit_users EvictStoreC13Proofs.wit_keep (proj1 EvictStoreC13Proofs.wit_keep_prompt)).
  rewrite EvictStoreC13Proofs.wit_keep_blocks in H. discriminate H.
Qed.
Print Assumptions c13_evict_keep_cached_refuted.

Example c13_evict_example :
  EvictStoreC13.run true EvictStoreC13Proofs.wit_keep_del (EvictStoreC13.init_store EvictStoreC13Proofs.wit_users)
    = EvictStoreC13.Blocks EvictStoreC13.BEvict 1 /\
  EvictStoreC13.blocks_any (EvictStoreC13.run false EvictStoreC13Proofs.wit_keep (EvictStoreC13.init_store EvictStoreC13Proofs.wit_users)) = false /\
  EvictStoreC13.blocks_any (EvictStoreC13.run false EvictStoreC13Proofs.wit_keep_del (EvictStoreC13.init_store EvictStoreC13Proofs.wit_users)) = false /\
  forallb EvictStoreC13.prompt_label EvictStoreC13Proofs.wit_self = false.
Proof.
  split; [exact EvictStoreC13Proofs.wit_keep_del_blocks|].
  split; [exact (proj1 EvictStoreC13Proofs.wit_keep_fine_as_is)|].
  split; [exact (proj2 EvictStoreC13Proofs.wit_keep_fine_as_is)|]. vm_compute. reflexivity.
Qed.

(* ================= the plain-text preview of a push notification (coq/Pure/PushPreviewC13.v) ================= *)
(* payloadToData (server/push/fcm/payload.go; fcm and tnpg adapters): the plain text of the message content is
   trimmed to push.MaxPayloadLength = 128 runes; the byte length is tested first, then the rune length, then
   runes[:128] is taken. A text is ANY list of units (well-formed sequences of any code point / stray bytes). *)
Require Tinode.Pure.PushPreviewC13 Tinode.Pure.PushPreviewC13Proofs.

(* for EVERY text: the truncation never slices beyond the rune length, the content is the text itself (at most 128 runes) or
   a prefix of its runes of at most 128 runes followed by the ellipsis, the latter exactly when runes were dropped *)
Theorem c13_push_preview_no_panic : forall s,
  (forall b l, PushPreviewC13.trim_c13 true s <> PushPreviewC13.PPanicSlice b l) /\
  exists p, (length p <= PushPreviewC13.max_payload_c13)%nat /\ p = firstn (length p) (PushPreviewC13.runes_c13 s) /\
    (PushPreviewC13.trim_c13 true s = PushPreviewC13.POk s /\ p = PushPreviewC13.runes_c13 s \/
     PushPreviewC13.trim_c13 true s = PushPreviewC13.POk (map PushPreviewC13.UValid p ++ [PushPreviewC13.UValid PushPreviewC13.ellipsis_c13]) /\ (length p < length (PushPreviewC13.runes_c13 s))%nat).
Proof.
  intros s. split; [intros b l|]; destruct (PushPreviewC13Proofs.trim_spec s) as [[Hl ->]|[Hl ->]]; try discriminate.
  - exists (PushPreviewC13.runes_c13 s). split; [exact Hl|]. split; [symmetry; apply firstn_all|]. left. split; reflexivity.
  - exists (firstn PushPreviewC13.max_payload_c13 (PushPreviewC13.runes_c13 s)).
    rewrite (firstn_length_le _ (Nat.lt_le_incl _ _ Hl)). split; [apply le_n|]. split; [reflexivity|]. right. split; [reflexivity|exact Hl].
Qed.
Print Assumptions c13_push_preview_no_panic.

(* exact result *)
Theorem c13_push_preview_exact : forall s,
  ((length (PushPreviewC13.runes_c13 s) <= 128)%nat /\ PushPreviewC13.trim_c13 true s = PushPreviewC13.POk s) \/
  ((128 < length (PushPreviewC13.runes_c13 s))%nat /\
   PushPreviewC13.trim_c13 true s = PushPreviewC13.POk (map PushPreviewC13.UValid (firstn 128 (PushPreviewC13.runes_c13 s)) ++ [PushPreviewC13.UValid PushPreviewC13.ellipsis_c13])).
Proof. exact PushPreviewC13Proofs.trim_spec. Qed.
Print Assumptions c13_push_preview_exact.

(* the variant that tests only the BYTE length before runes[:128] ("the rune test is redundant") *)
Definition c13_push_preview_bytes_only_statement : Prop :=
  forall s b l, PushPreviewC13.trim_c13 false s <> PushPreviewC13.PPanicSlice b l.

(* refuted: 65 Cyrillic letters = 130 bytes, 65 runes: runes[:128] of a 65-rune slice *)
Theorem c13_push_preview_bytes_only_refuted : ~ c13_push_preview_bytes_only_statement.
Proof. intros H. exact (H PushPreviewC13.witness_cyrillic_c13 128%nat 65%nat PushPreviewC13Proofs.variant_panics). Qed.
Print Assumptions c13_push_preview_bytes_only_refuted.

(* ... and multi-byte text of more than 128 bytes and fewer than 128 runes is exactly the trigger *)
Theorem c13_push_preview_bytes_only_partial : forall s,
  (exists b l, PushPreviewC13.trim_c13 false s = PushPreviewC13.PPanicSlice b l) <->
  ((128 < PushPreviewC13.byte_len_c13 s)%nat /\ (length (PushPreviewC13.runes_c13 s) < 128)%nat).
Proof.
  intros s. unfold PushPreviewC13.trim_c13, PushPreviewC13.slice_to_c13. cbn [negb orb].
  destruct (Nat.ltb_spec PushPreviewC13.max_payload_c13 (PushPreviewC13.byte_len_c13 s)) as [Hb|Hb].
  - destruct (Nat.leb_spec PushPreviewC13.max_payload_c13 (length (PushPreviewC13.runes_c13 s))) as [Hs|Hs].
    + split; [intros (b & l & H); discriminate H|intros [_ H]; elim (Nat.lt_irrefl _ (Nat.lt_le_trans _ _ _ H Hs))].
    + split; [intros _; split; assumption|intros _; eauto].
  - split; [intros (b & l & H); discriminate H|intros [H _]; elim (Nat.lt_irrefl _ (Nat.lt_le_trans _ _ _ H Hb))].
Qed.
Print Assumptions c13_push_preview_bytes_only_partial.
