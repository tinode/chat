(* C14 Attach, detach, disconnect and delete race without leaks, hangs or lost replies.

   Model: Sys/Lifecycle.v - sessions, hub and topic instances as communicating processes; one step = one
   handler body of the Go code at the granularity of one channel receive; `reach` = every interleaving of
   subscribe, leave, unsubscribe, delete, session disconnect, slow-consumer eviction, idle unload, with any
   number of sessions, topics and topic instances.  Queues are UNBOUNDED FIFOs (the real buffers have 1..256
   slots): a deadlock that needs a full buffer is outside the model.  Group topics with or without channel
   functionality, addressed by the group name (grpXXX) or by the channel name (chnXXX): the name form of a
   request decides asChan (Topic.verifyChannelAccess), the form a session attached under is kept per session
   (perSessionData.isChanSub), and handleLeaveRequest compares the two AFTER it has detached the session.
   Account deletion, p2p, 'me', the per-user records (online counters, channel readers' rows), presence
   and the last clause of the property (shared data only under its lock / atomic) are NOT in this model:
   the burst driver exercises them on the real code (the last clause under the Go race detector, thorough
   tier: testing in support, no theorem).
   Lemmas: Sys/LifecycleProofs.v (one step by cases: estep; the in-flight balance), LifecycleAttach.v, LifecycleTerm.v,
   LifecycleProgress.v, LifecycleReply.v.  Where the faithful model REFUTES a clause, the clause is kept as a `_statement`, refuted
   by a witness schedule that was replayed on the real code (findings/C14.md), and proved `_partial` on the
   executions that avoid exactly the offending step. *)
From Coq Require Import List Arith Bool Lia NArith.
From Tinode Require Import Sys.Lifecycle Sys.LifecycleProofs Sys.LifecycleAttach Sys.LifecycleTerm
  Sys.LifecycleProgress Sys.LifecycleReply Sys.TopicStatusC14d Sys.LifecycleFailDelC14d
  Sys.RegistryC14f Sys.RegistryC14fProofs.
From Coq Require Import ZArith.
Import ListNotations.

(* ================================================================ 1. in-flight balance *)

(* Session.inflightReqs counts exactly the session's subscribe/leave requests that sit in hub.join, in a
   topicInit goroutine, in Topic.reg or in Topic.unreg: every Add is matched by exactly one Done. *)
Definition c14_inflight_balance_statement : Prop :=
  forall st ow us c, reach st ow us c -> balanced c.

(* REFUTED: idle topic; the owner's {del topic}, the idle timer and a {sub} cross: the stale unload message
   (addressed by NAME) marks the NEW instance deleted, its load fails, and the failure path sends on the nil
   `done` channel of the hub's termination request (init_topic.go:95-98): the deferred Done never runs.
   Replayed on the real code: corpus/C14/01, law topicinit-parked-on-nil-done. *)
Theorem c14_inflight_balance_refuted : ~ c14_inflight_balance_statement.
Proof.
  intros H. destruct stale_unload_unbalanced as (c & Hrun & Hi & Hp).
  specialize (H ex_stored ex_owner ex_user c (run_reach _ _ _ _ _ _ (reach_init _ _ _ _) Hrun) 1). lia.
Qed.
Print Assumptions c14_inflight_balance_refuted.

(* PARTIAL: on every execution in which that one step (load failure of an instance for which the hub has
   already queued a termination request) does not occur, the balance holds - any interleaving, any sizes. *)
Theorem c14_inflight_balance_partial : forall st ow us c, reach_safe st ow us c -> balanced c.
Proof. intros st ow us c H. exact (proj2 (inv_bal_safe st ow us c H)). Qed.
Print Assumptions c14_inflight_balance_partial.

(* FULL (every execution): the counter is never too LOW - no Done without its Add (a second Done would panic
   in boundedWaitGroup.Done) - so the only way the balance fails is a forgotten Done. *)
Theorem c14_inflight_never_low : forall st ow us c s, reach st ow us c -> pending s c <= s_inflight (c_sess c s).
Proof. intros st ow us c s H. exact (bal_le_reach st ow us c H s). Qed.
Print Assumptions c14_inflight_never_low.

(* ================================================================ 2. every request answered exactly once *)

(* `reachI c iss`: c is reachable and iss is the list of the {sub}/{leave}/{del} requests issued on the way.
   `acct q c` = replies carrying q's id in the outbox of q's session + copies of q still in a queue. *)

(* the clause: never answered twice, never answered and still queued *)
Definition c14_reply_at_most_once_statement : Prop :=
  forall st ow us c iss, reachI st ow us c iss -> forall q, In q iss -> acct q c <= 1.

(* REFUTED: a session attached to a group topic WITHOUT channel functionality sends {leave topic=chnXXX}:
   verifyChannelAccess fails, handleLeaveRequest queues {ctrl 404} and does not return (topic.go:697-702); the
   request is then processed as usual: a second answer (200, session detached).  Replayed on the real code:
   corpus/C14/12, law leave-chn-name-on-plain-group-answered-twice. *)
Theorem c14_reply_at_most_once_refuted : ~ c14_reply_at_most_once_statement.
Proof.
  intros H. destruct chn_leave_twice as (c & iss & q & Hrun & Hin & Ha & _).
  specialize (H _ _ _ c iss (runI_reachI _ _ _ _ _ _ _ _ (ri_init _ _ _ _) Hrun) q Hin). lia.
Qed.
Print Assumptions c14_reply_at_most_once_refuted.

(* PARTIAL: on every execution in which that one step (`noisy`: the topic takes a client's {leave} whose name is
   a channel name although the topic has no channel functionality) does not occur. *)
Theorem c14_reply_at_most_once_partial : forall st ow us c iss,
  reachI_nd st ow us c iss -> forall q, In q iss -> acct q c <= 1.
Proof.
  induction 1 as [ch|c iss l c' Hr IH Hnz Hs]; [contradiction|].
  pose proof (reachI_nd_reachI _ _ _ _ _ Hr) as HrI.
  pose proof (inv_rep_reach _ _ _ _ _ HrI) as I. pose proof I as [I1 I2 I3 I4 I5].
  assert (IT : init_true c) by (eapply init_true_reach; eapply reachI_reach; eauto).
  intros q Hq. apply in_app_or in Hq.
  destruct (nextrid_step _ _ _ Hs) as [(E & En)|(q0 & E & A & B & En & _)]; rewrite E in Hq; simpl in Hq.
  - destruct Hq as [[]|Hq].
    destruct (conserves_step _ _ _ q Hs IT I4 (uniq_of_inv _ _ _ I Hq) (or_intror E)) as [Hc _].
    rewrite (extra_quiet _ _ q Hnz) in Hc. specialize (IH _ Hq). lia.
  - destruct Hq as [[<-|[]]|Hq]; [rewrite (new_acct _ _ _ _ Hs I5 E); lia|].
    assert (Hd : r_rid q <> c_nextrid c) by (destruct (I2 _ Hq); lia).
    destruct (conserves_step _ _ _ q Hs IT I4 (uniq_of_inv _ _ _ I Hq) (or_introl Hd)) as [Hc _].
    rewrite (extra_quiet _ _ q Hnz) in Hc. specialize (IH _ Hq). lia.
Qed.
Print Assumptions c14_reply_at_most_once_partial.

(* FULL (every execution): one step raises the account of an issued request by at most one, and only that step,
   only for the request it consumes. *)
Theorem c14_reply_at_most_one_more : forall st ow us c iss l c' q,
  reachI st ow us c iss -> In q iss -> step c l c' ->
  acct q c' <= acct q c + extra c l q /\ extra c l q <= 1 /\ (noisy c l = false -> extra c l q = 0).
Proof.
  intros st ow us c iss l c' q H Hq Hs. destruct (at_most_one_more _ _ _ _ _ _ _ _ H Hq Hs) as [A B].
  repeat split; auto. intros Hn. apply extra_quiet. exact Hn.
Qed.
Print Assumptions c14_reply_at_most_one_more.

(* the clause: as long as its session is not closing, an issued request has exactly one answer or is still on its
   way; a {leave} may instead have been overtaken by the eviction notice of that topic *)
Definition c14_reply_exactly_one_statement : Prop :=
  forall st ow us c iss q, reachI st ow us c iss -> In q iss -> s_term (c_sess c (r_sid q)) = false -> good q c.

(* REFUTED: {leave unsub} then {leave} on one connection; the session's own unsubscribe sends it no eviction
   notice, Session.subs keeps the entry until the write loop applies the detach, handleLeaveRequest says nothing
   for a session it does not list.  Replayed on the real code: corpus/C14/03 (97% of runs). *)
Theorem c14_reply_exactly_one_refuted : ~ c14_reply_exactly_one_statement.
Proof.
  intros H. destruct leave_after_unsub_lost as (c & iss & q & Hrun & Hin & _ & Ht & Ha & Hn & _).
  destruct (H _ _ _ c iss q (runI_reachI _ _ _ _ _ _ _ _ (ri_init _ _ _ _) Hrun) Hin Ht) as [X|(_ & _ & X)]; [lia|congruence].
Qed.
Print Assumptions c14_reply_exactly_one_refuted.

(* PARTIAL: on every execution that avoids the three silent steps named in `lossy` (topicInit returning on
   isDeleted; the owner's {del} forwarded to a loading topic; a {leave}/{del} reaching a topic that no longer
   lists the session WITHOUT an eviction notice having been sent) and the step named in `noisy` (above) the
   clause holds. *)
Theorem c14_reply_exactly_one_partial : forall st ow us c iss q,
  reachI_ok st ow us c iss -> In q iss -> s_term (c_sess c (r_sid q)) = false -> good q c.
Proof. intros st ow us c iss q H. exact (good_reach_ok st ow us c iss H q). Qed.
Print Assumptions c14_reply_exactly_one_partial.

(* ... hence at quiescence (all queues empty) the reply has arrived, once *)
Theorem c14_reply_at_quiescence_partial : forall st ow us c iss q,
  reachI_ok st ow us c iss -> quiescent c -> In q iss -> s_term (c_sess c (r_sid q)) = false ->
  ans (r_rid q) (c_sess c (r_sid q)) = 1 \/
  (ans (r_rid q) (c_sess c (r_sid q)) = 0 /\ is_leave q = true /\ noticed q c = true).
Proof. intros st ow us c iss q H Hq. exact (answered_at_quiescence st ow us c iss H Hq q). Qed.
Print Assumptions c14_reply_at_quiescence_partial.

(* the single-step form used above: one step never changes the account of an issued request except at a step
   named in `lossy` or `noisy` or by dropping the reply to a closing session (Session.queueOut) *)
Theorem c14_reply_conserved_stepwise : forall st ow us c iss l c' q,
  reachI st ow us c iss -> In q iss -> step c l c' -> conserves c l c' q.
Proof.
  intros st ow us c iss l c' q H Hin Hs.
  pose proof (inv_rep_reach _ _ _ _ _ H) as I.
  apply conserves_step; auto.
  - eapply init_true_reach. eapply reachI_reach; eauto.
  - exact (ir_dels _ _ I).
  - eapply uniq_of_inv; eauto.
  - left. destruct (ir_iss _ _ I q Hin). lia.
Qed.
Print Assumptions c14_reply_conserved_stepwise.

(* ================================================================ 3. quiescent symmetry *)

(* FULL: at quiescence a live session lists a topic (through instance i) iff instance i of that topic is running
   and lists the session. *)
Theorem c14_quiescent_symmetry : forall st ow us c, reach st ow us c -> quiescent c ->
  forall s t i, s_term (c_sess c s) = false ->
    (lookup t (s_subs (c_sess c s)) = Some i <->
     i_phase (c_inst c i) = PRun /\ i_name (c_inst c i) = t /\ mem s (i_sessions (c_inst c i)) = true).
Proof. exact quiescent_symmetry. Qed.
Print Assumptions c14_quiescent_symmetry.

(* FULL, without quiescence: the only thing that can be in flight between the two views is a detach notice ... *)
Theorem c14_symmetry_modulo_detach : forall st ow us c, reach st ow us c ->
  forall s t i, s_term (c_sess c s) = false -> lookup t (s_subs (c_sess c s)) = Some i ->
    (i_phase (c_inst c i) = PRun /\ i_name (c_inst c i) = t /\ mem s (i_sessions (c_inst c i)) = true) \/
    In t (s_detachq (c_sess c s)).
Proof.
  intros st ow us c Hr s t i Ht H. destruct (inv_att_reach _ _ _ _ Hr) as [F M S D DS ND IE TD LF].
  destruct (S _ _ _ Ht H) as [(A & B & C)|R]; auto.
Qed.
Print Assumptions c14_symmetry_modulo_detach.

(* ... and a topic never lists a session that does not list it (registerSession / handleLeaveRequest /
   evictUser update both sides, or the topic side first). *)
Theorem c14_attached_listed : forall st ow us c, reach st ow us c ->
  forall s i, i_phase (c_inst c i) <> PDead -> mem s (i_sessions (c_inst c i)) = true ->
    lookup (i_name (c_inst c i)) (s_subs (c_sess c s)) = Some i.
Proof. intros st ow us c Hr. apply (ia_mem_sub _ (inv_att_reach _ _ _ _ Hr)). Qed.
Print Assumptions c14_attached_listed.

(* FULL, the handler itself: when handleLeaveRequest returns from a {leave} without unsub - or from a session
   dropped by the server: disconnect (unsubAll), slow consumer - the topic does not list the session AND the
   session does not list the topic.  This includes the path on which the name form of the request (grpXXX /
   chnXXX) differs from the form the session attached under (answered 404: `remSession` and `delSub` come BEFORE
   the check `pssd.isChanSub != asChan`, topic.go:721-731) and the path on which a topic without channel
   functionality was addressed as a channel. *)
Theorem c14_leave_detaches_both_sides : forall c i c' r rest,
  step c (TopicUnreg i) c' -> take_first i (c_tunreg c) = Some (r, rest) ->
  inactive (c_inst c i) = false -> (r_init r = false \/ r_kind r <> KLeave true) ->
  mem (r_sid r) (i_sessions (c_inst c' i)) = false /\
  (mem (r_sid r) (i_sessions (c_inst c i)) = true ->
   lookup (i_name (c_inst c i)) (s_subs (c_sess c' (r_sid r))) = None /\ mem (r_sid r) (i_chansub (c_inst c' i)) = false).
Proof.
  intros c i c' q qrest Hs Eq Hin Hq.
  destruct (exec_unreg_inv _ _ _ Hs) as (q' & qrest' & aC & eR & E & _ & Hu). rewrite Eq in E. injection E as <- <-.
  apply unreg_step_ustep in Hu.
  destruct (pre404_frame c q eR) as (Ei & _ & _ & _ & _ & _ & _ & Eu & _).
  ustep_cases Hu; rewrite Eu, Eq in E0; injection E0 as <- <-; rewrite Ei in *.
  - specialize (Hk Hin). destruct Hq; congruence.
  - destruct Hq; congruence.
  - destruct (r_init q); cfg_simpl; unfold upd; rewrite !Nat.eqb_refl; cbn [i_sessions i_chansub i_setsessions i_setchansub];
      autorewrite with lc; cbn [s_subs s_donereq s_setsubs]; autorewrite with lc;
      cbn [s_subs s_setsubs]; rewrite ?Ei, ?mem_remove_nat_same, ?lookup_remove_key_same; auto.
  - cfg_simpl. rewrite Ei. split; [exact Em|congruence].
  - cfg_simpl. rewrite Ei. split; [auto|]. rewrite (Em Hin). discriminate.
Qed.
Print Assumptions c14_leave_detaches_both_sides.

(* ... and the slow-consumer eviction (Topic.broadcastToSessions -> unregisterSession{init:false}) likewise *)
Theorem c14_evict_detaches_both_sides : forall c i s c',
  step c (Evict i s) c' -> inactive (c_inst c i) = false ->
  mem s (i_sessions (c_inst c' i)) = false /\ lookup (i_name (c_inst c i)) (s_subs (c_sess c' s)) = None.
Proof.
  intros c i s c' Hs Hin. unfold step in Hs. cbn [exec] in Hs. rewrite Hin in Hs.
  destruct (negb (is_run (i_phase (c_inst c i))) || negb (mem s (i_sessions (c_inst c i)))); [discriminate|].
  injection Hs as <-. cfg_simpl. unfold upd. rewrite !Nat.eqb_refl. cbn [i_sessions i_setchansub i_setsessions s_subs s_setsubs].
  split; [apply mem_remove_nat_same|apply lookup_remove_key_same].
Qed.
Print Assumptions c14_evict_detaches_both_sides.

(* ================================================================ 4. a terminated session is detached everywhere *)

(* FULL: once cleanUp has completed, at quiescence no running topic lists the session ... *)
Theorem c14_terminated_detached : forall st ow us c, reach st ow us c -> quiescent c ->
  forall s i, s_done (c_sess c s) = true -> i_phase (c_inst c i) = PRun -> mem s (i_sessions (c_inst c i)) = false.
Proof. exact terminated_detached. Qed.
Print Assumptions c14_terminated_detached.

(* ... so the number of attached sessions of each user (what perUser.online counts in the Go code) is what the
   sessions that are still open give. *)
Theorem c14_online_restored : forall st ow us c, reach st ow us c -> quiescent c ->
  forall i u, i_phase (c_inst c i) = PRun ->
    online c i u = length (filter (fun s => Nat.eqb (c_user c s) u && negb (s_done (c_sess c s))) (i_sessions (c_inst c i))).
Proof.
  intros st ow us c Hr Hq i u Hp. unfold online.
  assert (H : forall s, In s (i_sessions (c_inst c i)) -> s_done (c_sess c s) = false).
  { intros s Hin. destruct (s_done (c_sess c s)) eqn:Ed; auto.
    pose proof (terminated_detached _ _ _ _ Hr Hq s i Ed Hp) as X. apply mem_true_iff in Hin. congruence. }
  induction (i_sessions (c_inst c i)) as [|x l IH]; simpl; auto.
  rewrite (H x (or_introl eq_refl)). simpl. rewrite andb_true_r.
  destruct (Nat.eqb (c_user c x) u); simpl; rewrite IH; auto; intros; apply H; right; auto.
Qed.
Print Assumptions c14_online_restored.

(* ================================================================ 5. a deleted topic refuses *)

(* FULL: the row never comes back; *)
Theorem c14_deleted_stays_deleted : forall c l c' t, step c l c' -> c_store c t = false -> c_store c' t = false.
Proof.
  intros c l c' t0 Hs H. estep_cases Hs; try exact H.
  - destruct (pre404_frame c r eR) as (_ & _ & _ & _ & _ & _ & _ & _ & _ & Es & _). rewrite <- Es in H.
    ustep_cases Hu; try destruct (r_init r0); exact H.
  - cfg_simpl. unfold upd. destruct (Nat.eqb t0 (r_topic r)); auto.
  - cfg_simpl. unfold upd. destruct (Nat.eqb t0 (r_topic r)); auto.
Qed.
Print Assumptions c14_deleted_stays_deleted.

(* FULL: the hub answers every later {sub} for the name with "locked" or starts a load; *)
Theorem c14_deleted_refuses : forall st ow us c r rest c',
  reach st ow us c -> c_hjoin c = r :: rest -> c_store c (r_topic r) = false -> step c HubJoin c' ->
  (c' = on_sess (set_hjoin c rest) (r_sid r) (fun x => s_reply (s_donereq x) (rep r CLocked))) \/
  (c_table c (r_topic r) = None /\ c_inits c' = c_inits c ++ [(c_next c, r)] /\
   i_phase (c_inst c' (c_next c)) = PInit /\ i_name (c_inst c' (c_next c)) = r_topic r /\ c_treg c' = c_treg c).
Proof.
  intros st ow us c r rest c' Hr Hq Hst Hs. unfold step in Hs. cbn [exec] in Hs. rewrite Hq in Hs.
  cbn [c_table set_hjoin c_inst c_next c_treg c_inits] in Hs.
  destruct (inv_tbl_reach _ _ _ _ Hr) as [L R X].
  destruct (c_table c (r_topic r)) as [i|] eqn:Et.
  - destruct (L _ _ Et) as (A & B & C & D).
    assert (Hin : inactive (c_inst c i) = true).
    { unfold inactive. destruct (i_phase (c_inst c i)) eqn:Ep; auto; try congruence.
      rewrite (R _ _ Et Ep) in Hst. discriminate. }
    rewrite Hin in Hs. injection Hs as <-. left. reflexivity.
  - injection Hs as <-. right. cbn. unfold upd. rewrite Nat.eqb_refl. auto.
Qed.
Print Assumptions c14_deleted_refuses.

(* FULL: that load cannot succeed (it fails: "not found"); *)
Theorem c14_deleted_load_fails : forall c i c',
  c_store c (i_name (c_inst c i)) = false -> step c (InitDone i true) c' -> False.
Proof.
  intros c i c' Hst Hs. unfold step in Hs. cbn [exec] in Hs.
  destruct (negb (is_init (i_phase (c_inst c i)))); [discriminate|].
  destruct (take_first i (c_inits c)) as [[r inits']|]; [|discriminate].
  cbn [c_store set_inits c_inst] in Hs. rewrite Hst in Hs. discriminate.
Qed.
Print Assumptions c14_deleted_load_fails.

(* FULL: and no instance the hub still points to ever runs without its row, so nothing gets attached to it. *)
Theorem c14_deleted_not_running : forall st ow us c t i,
  reach st ow us c -> c_table c t = Some i -> i_phase (c_inst c i) = PRun -> c_store c t = true.
Proof. intros st ow us c t i H. exact (it_row c (inv_tbl_reach st ow us c H) t i). Qed.
Print Assumptions c14_deleted_not_running.

(* (all its sessions told: when the run loop of a deleted topic takes the termination request every attached
   session gets its detach notice, and by 3. no live session lists the dead instance at quiescence) *)
Theorem c14_deleted_sessions_detached : forall st ow us c, reach st ow us c -> quiescent c ->
  forall s t i, s_term (c_sess c s) = false -> lookup t (s_subs (c_sess c s)) = Some i -> i_phase (c_inst c i) = PRun.
Proof.
  intros st ow us c Hr Hq s t i Ht Hl.
  exact (proj1 (proj1 (quiescent_symmetry st ow us c Hr Hq s t i Ht) Hl)).
Qed.
Print Assumptions c14_deleted_sessions_detached.

(* ================================================================ 6. nothing blocks for ever *)

(* `stuck c`: no step of the server itself (hub, topicInit, topic run loop, write loop applying a detach,
   cleanUp after its Wait) is enabled.  `settled c`: all queues empty, no session holds its in-flight
   semaphore, every closing session has completed cleanUp. *)
Definition c14_no_stuck_statement : Prop :=
  forall st ow us c, reach st ow us c -> stuck c -> settled c.

(* REFUTED twice.  (a) the owner deletes the topic; its run loop returns; the session, which still lists the
   topic until its write loop applies the detach, sends {leave} into the unreg channel of the gone loop: the
   request stays queued, the semaphore stays taken (corpus/C14/02, law leave-lost-in-exited-topic). *)
Theorem c14_no_stuck_refuted_lost_leave : ~ c14_no_stuck_statement.
Proof.
  intros H. destruct lost_leave_refutes as (c & Hrun & Hst & Hq & _).
  destruct (H _ _ _ c (run_reach _ _ _ _ _ _ (reach_init _ _ _ _) Hrun) Hst) as ((_ & _ & _ & _ & Hu & _) & _).
  contradiction.
Qed.
Print Assumptions c14_no_stuck_refuted_lost_leave.

(* (b) the stale-unload schedule of 1.: everything is quiet, yet session 1 holds its semaphore for ever: its next
   subscribe/leave blocks in Add, its cleanUp in Wait (corpus/C14/01). *)
Theorem c14_no_stuck_refuted_nil_done : ~ c14_no_stuck_statement.
Proof.
  intros H. destruct stale_unload_refutes as (c & Hrun & Hst & _ & Hi & _).
  destruct (H _ _ _ c (run_reach _ _ _ _ _ _ (reach_init _ _ _ _) Hrun) Hst) as (_ & H0 & _).
  specialize (H0 1). lia.
Qed.
Print Assumptions c14_no_stuck_refuted_nil_done.

(* PARTIAL: without the nil-done step, and as long as no request sits in a queue of an instance whose goroutine
   is gone (`no_dead_items`: exactly what (a) violates), the system can always move until it is settled. *)
Theorem c14_no_stuck_partial : forall st ow us c,
  reach_safe st ow us c -> no_dead_items c -> stuck c -> settled c.
Proof.
  intros st ow us c Hs Hd Hst.
  pose proof (reach_safe_reach _ _ _ _ Hs) as Hr.
  pose proof (stuck_quiescent _ _ _ _ Hr Hd Hst) as Hq.
  destruct (inv_bal_safe _ _ _ _ Hs) as [_ Hb].
  assert (H0 : forall s, s_inflight (c_sess c s) = 0).
  { intros s. rewrite (Hb s). apply quiescent_pending0. exact Hq. }
  split; [exact Hq|split; [exact H0|]].
  intros s Ht. destruct (s_done (c_sess c s)) eqn:Ed; auto. exfalso.
  destruct (discend_enabled c s Ht Ed (H0 s)) as [c' Hc]. apply (Hst (DiscEnd s) c'); auto.
Qed.
Print Assumptions c14_no_stuck_partial.

(* ================================================================ 7. a {del what=topic} whose store call FAILS

   Hub.topicUnreg when store.Topics.Delete returns an error (hub.go:404-422 case 1.1.1, 526-532 case 1.2.1.1): the
   step [HubUnregFail] of Lifecycle.exec.  It is a step of `reach`, so EVERY theorem above (symmetry at quiescence,
   terminated sessions detached, replies, in-flight balance, deleted topics) holds on the executions in which any
   number of deletes fail.  Below: what the failed delete itself leaves behind. *)

(* the status word (Sys/TopicStatusC14d.v: markPaused(true); Delete fails; markPaused(false)): a failed delete gives
   back the word it found - for every value of the word of a topic that is not paused *)
Theorem c14_failed_delete_restores_status : forall st : N,
  is_paused st = false -> unreg_del_status true st = st.
Proof. exact failed_delete_restores_status. Qed.
Print Assumptions c14_failed_delete_restores_status.

(* for EVERY word: `paused` ends clear, `marked deleted` (irrecoverable) is not touched *)
Theorem c14_failed_delete_flags : forall st : N,
  status_flags (unreg_del_status true st) = (false, is_deleted st).
Proof.
  intros st. unfold status_flags. rewrite is_paused_bit, !is_deleted_bit, !failed_delete_status_bits. reflexivity.
Qed.
Print Assumptions c14_failed_delete_flags.

Theorem c14_failed_delete_keeps_active : forall st : N,
  is_inactive st = false -> is_inactive (unreg_del_status true st) = false.
Proof.
  intros st H. rewrite is_inactive_bits in *. rewrite !failed_delete_status_bits. simpl.
  apply orb_false_iff in H. tauto.
Qed.
Print Assumptions c14_failed_delete_keeps_active.

(* whereas the successful path leaves the topic inactive for good *)
Theorem c14_successful_delete_inactive : forall st : N, is_inactive (unreg_del_status false st) = true.
Proof.
  intros st. rewrite is_inactive_bits. unfold unreg_del_status, mark_deleted, mark_paused, status_change_bits,
    topicStatusPaused, topicStatusMarkedDeleted.
  rewrite !N.lor_spec. change (N.testbit 2 1) with true. rewrite orb_true_r. reflexivity.
Qed.
Print Assumptions c14_successful_delete_inactive.

(* the instance the request addresses: its status word after the step is what the code's status operations leave,
   i.e. the word before; Lifecycle's [inactive] is isInactive of that word *)
Theorem c14_failed_delete_status_of_instance : forall c c' r rest i,
  step c HubUnregFail c' -> c_hunreg c = HDel r :: rest -> c_table c (r_topic r) = Some i ->
  abs_status (c_inst c' i) = unreg_del_status true (abs_status (c_inst c i)) /\
  inactive (c_inst c' i) = inactive (c_inst c i) /\
  inactive (c_inst c' i) = is_inactive (abs_status (c_inst c' i)).
Proof.
  intros c c' r rest i Hs E Et. destruct (hubunregfail_status c c' Hs r rest i E Et) as [A B].
  repeat split; auto. apply inactive_abs_status.
Qed.
Print Assumptions c14_failed_delete_status_of_instance.

(* topic-usable-after-failed-delete: the hub's table, every instance (sessions, phase, flags), the store rows and every
   queue but Hub.unreg are as before; sessions differ in their outbox only *)
Theorem c14_failed_delete_topic_as_before : forall c c', step c HubUnregFail c' -> same_serving c c'.
Proof. exact hubunregfail_same_serving. Qed.
Print Assumptions c14_failed_delete_topic_as_before.

(* the request is answered (500) unless the owner's session is closing *)
Theorem c14_failed_delete_answered : forall c c', step c HubUnregFail c' ->
  exists r rest, c_hunreg c = HDel r :: rest /\
    (s_term (c_sess c (r_sid r)) = false -> s_out (c_sess c' (r_sid r)) = s_out (c_sess c (r_sid r)) ++ [rep r CInternal]).
Proof.
  intros c c' Hs. destruct (hubunregfail_inv _ _ Hs) as (r & rest & E & _ & -> & _).
  exists r, rest. split; [exact E|]. intros Ht. simpl. unfold upd. rewrite Nat.eqb_refl. unfold s_reply. simpl. rewrite Ht. reflexivity.
Qed.
Print Assumptions c14_failed_delete_answered.

(* whatever a member could ask for before the failed delete ({sub}, {leave}, closing the connection, applying a detach
   notice) he can ask for after it *)
Theorem c14_failed_delete_members_served : forall c c' l,
  step c HubUnregFail c' ->
  match l with ClientSub _ _ _ | ClientLeave _ _ _ _ | DiscBegin _ | DiscEnd _ | SessDetach _ => True | _ => False end ->
  exec l c <> None -> exec l c' <> None.
Proof. intros c c' l Hs. apply client_enabled_after_failed_delete. exact (hubunregfail_same_serving c c' Hs). Qed.
Print Assumptions c14_failed_delete_members_served.

(* ================================================================ the hypotheses are satisfiable *)

(* a schedule without any excluded step that ends quiescent with session 1 attached to topic 1 on both sides *)
Example c14_example_attached : exists c iss,
  runI [ClientSub 1 1 false; HubJoin; InitDone 0 true; TopicReg 0 true] (init_config ex_stored ex_owner ex_user ex_chan) [] = Some (c, iss) /\
  lookup 1 (s_subs (c_sess c 1)) = Some 0 /\ mem 1 (i_sessions (c_inst c 0)) = true /\
  ans 1 (c_sess c 1) = 1 /\ c_hjoin c = [] /\ c_treg c = [].
Proof. eexists. eexists. split; [vm_compute; reflexivity|]. repeat split. Qed.

Example c14_example_lossy_is_decidable :
  lossy (init_config ex_stored ex_owner ex_user ex_chan) HubJoin = false.
Proof. reflexivity. Qed.

(* a channel subscription (attached as chnXXX) left by the group name: answered 404 once, detached on both sides *)
Example c14_example_channel_left_by_group_name : exists c,
  run chan_leave_by_group_name_trace (init_config ex_stored ex_owner ex_user ex_chan1) = Some c /\
  s_out (c_sess c 1) = [mkRep (Some 1) COk 1; mkRep (Some 2) CNotFound 1] /\
  lookup 1 (s_subs (c_sess c 1)) = None /\ i_sessions (c_inst c 0) = [] /\ i_chansub (c_inst c 0) = [].
Proof. eexists. split; [vm_compute; reflexivity|]. repeat split. Qed.

(* the step excluded by reachI_nd is decidable and not taken by ordinary requests *)
Example c14_example_noisy_is_decidable :
  noisy (init_config ex_stored ex_owner ex_user ex_chan) (TopicUnreg 0) = false.
Proof. reflexivity. Qed.

(* a failed delete, then the member leaves, closes its connection, and the owner deletes for good: the member's
   {leave} is answered 200, both sides are detached, the owner got 500 then 200 *)
Example c14_example_failed_delete_then_leave : exists c,
  run [ClientSub 1 1 false; HubJoin; InitDone 0 true; TopicReg 0 true; ClientDel 2 1; HubUnregFail;
       ClientLeave 1 1 false false; TopicUnreg 0; ClientDel 2 1; HubUnreg true; TopicExit 0]
      (init_config ex_stored ex_owner ex_user ex_chan) = Some c /\
  s_out (c_sess c 1) = [mkRep (Some 1) COk 1; mkRep (Some 3) COk 1] /\
  s_out (c_sess c 2) = [mkRep (Some 2) CInternal 1; mkRep (Some 4) COk 1] /\
  lookup 1 (s_subs (c_sess c 1)) = None /\ i_sessions (c_inst c 0) = [] /\ c_store c 1 = false.
Proof. eexists. split; [vm_compute; reflexivity|]. repeat split. Qed.


(* ================================================================ round s14f: session registry, online counters *)

(* Model Sys/RegistryC14f.v part A = SessionStore (sessionstore.go): NewSession with the loop that expires stale
   long-polling sessions, Get (MoveToFront + lastTouched), Delete as called by the closing connection's
   cleanUp(false), EvictUser; the clock is the `now` argument of the calls and RAge (a session not heard of
   for d more seconds).  After EVERY history of these calls, with any arguments, for any life time:
   the registry holds exactly the sessions that were created and have not been terminated (expired by
   NewSession, evicted, or closed), each once; the LRU list exactly the long-polling ones among them, each once.
   (SessionStore.Shutdown does not touch the registry - "no need to clean up" - and is not a step.) *)
Theorem c14_registry_exact : forall life h, reg_exact_c14f (rrun_c14f (init_c14f life) h).
Proof. intros life h. apply (rinv_run h). apply rinv_init. Qed.
Print Assumptions c14_registry_exact.

(* every session NewSession expires is out of the registry, out of the LRU list and terminated; the session it
   returns is registered (unless the caller's own clock reading makes it stale at birth) *)
Theorem c14_registry_new_session : forall life h lp uid now st' sid expired,
  new_session_c14f (rrun_c14f (init_c14f life) h) lp uid now = (st', (sid, expired)) ->
  (forall x, In x expired -> ~ In x (r_cache st') /\ ~ In x (r_lru st') /\ In x (r_term st')) /\
  (~ In sid expired -> In sid (r_cache st')).
Proof.
  intros life h lp uid now st' sid expired.
  intro H.
  assert (R : rinv_c14f st').
  { replace st' with (fst (new_session_c14f (rrun_c14f (init_c14f life) h) lp uid now)) by (rewrite H; auto).
    apply rinv_new. apply (rinv_run h). apply rinv_init. }
  destruct R as [[C [L [I3 I4]]] I5].
  unfold new_session_c14f in H.
  destruct (expire_back_c14f _ _ _) as [e k] eqn:E in H. injection H as Hst Hsid Hex. subst st' sid expired.
  cbn [r_cache r_lru r_term r_next r_heap] in *.
  split.
  - intros x Hx. assert (Ht : In x (e ++ r_term (rrun_c14f (init_c14f life) h))) by (apply in_or_app; auto).
    repeat split; auto.
    + intro Hc. apply I3 in Hc. tauto.
    + intro Hc. apply I4 in Hc. destruct Hc as [Hc _]. apply I3 in Hc. tauto.
  - intro Hn. destruct (memN (r_next (rrun_c14f (init_c14f life) h)) e) eqn:M; [apply memN_In in M; tauto|cbn; left; auto].
Qed.
Print Assumptions c14_registry_new_session.

(* a stale long-polling session is expired by the next connect of ANY kind; the new websocket session stays *)
Example c14_example_registry_expiry :
  let st := rrun_c14f (init_c14f 70) [RNew true 1 0%Z; RNew false 2 10%Z; RAge 0 100%Z; RNew false 1 20%Z] in
  r_cache st = [2; 1]%N /\ r_lru st = [] /\ r_term st = [0]%N.
Proof. vm_compute. repeat split. Qed.

(* Model part B = the online counters of one loaded topic: attach (addSession + perUser[asUid].online++) and
   handleLeaveRequest for an ordinary session (explicit {leave}, unsubAll of a closing connection, slow-consumer
   eviction): the attachment record carries the user the session is attached AS (a root session acting on behalf
   of somebody: that user, not Session.uid).  After every history, for every user: online = number of sessions
   attached as that user; hence all zero once every session is gone; a perUser entry exists only for a user with
   a subscription row at load time or a user somebody attached as. *)
Theorem c14_online_count_exact : forall members h u,
  oget (o_per (orun_c14f (oinit_c14f members) h)) u = ocount (o_sess (orun_c14f (oinit_c14f members) h)) u.
Proof. exact online_counts_c14f. Qed.
Print Assumptions c14_online_count_exact.

Theorem c14_online_count_restored : forall members h,
  o_sess (orun_c14f (oinit_c14f members) h) = [] ->
  forall u, oget (o_per (orun_c14f (oinit_c14f members) h)) u = 0%Z.
Proof. intros members h E u. rewrite online_counts_c14f, E. reflexivity. Qed.
Print Assumptions c14_online_count_restored.

Theorem c14_online_no_phantom_entry : forall t o k,
  oinv_c14f t -> In k (map fst (o_per (ostep_c14f t o))) ->
  In k (map fst (o_per t)) \/ (exists s, o = OAttach s k) \/ In k (map snd (o_sess t)).
Proof. intros t o k _. exact (okeys_step t o k). Qed.
Print Assumptions c14_online_no_phantom_entry.

(* root session 9 (uid 7) attaches on behalf of user 1 and is dropped: user 1 is back to 0, no entry for 7 *)
Example c14_example_obo_leave :
  o_per (orun_c14f (oinit_c14f [1; 2]%N) [OAttach 9 1; OAttach 3 1; OLeave 9 7]) = [(1%N, 1%Z); (2%N, 0%Z)].
Proof. reflexivity. Qed.
