(* C07  Permissions change only through authorised requests; bans and limits stick.
   Part A is about the group-topic product model Sys/Topic.v (store rows +
   cache + handlers thisUserSub / anotherUserSub / replyDelSub / replyLeaveUnsub /
   replyOfflineTopicSetSub, every fault plan); the vocabulary (projections, "authorised
   request" = given_just / want_just, invariants) is in Sys/TopicAclC07.v.  Part B is about the
   other topic kinds (Sys/TopicKindsC07.v): p2p, me, fnd, sys. *)
From Coq Require Import ZArith NArith List Bool.
From Tinode Require Import Base.Util Pure.Acs Pure.Uid Pure.P2PName Pure.P2PProofs Sys.Topic Sys.TopicTac Sys.TopicMarks Sys.TopicAclC07 Sys.TopicAclC07Proofs
  Sys.TopicAclC07Inv Sys.TopicAclC07Join Sys.TopicAclC07Own Sys.TopicAclC07Thm Sys.TopicAclC07Witness Sys.TopicAclC07BanF Sys.TopicAclC07LoseJF Sys.TopicKindsC07 Sys.TopicKindsC07Proofs.
From Tinode Require Sys.TopicOwner.
Import ListNotations.
Open Scope Z_scope.

(* ================================================================== *)
(* Part A: group topics                                                *)
Section C07.
Variable dr : Z -> list (Z * Z) -> option (list (Z * Z)).
Variable nr : list (Z * Z) -> list (Z * Z).
Variable sm : sessmap.

(* One request, ANY state in which the owner field names a cached holder of O and attached
   sessions belong to cached subscribers, ANY fault: the stored and the cached want / given
   of every user change only as given_just / want_just allow:
   given: (1) by a cached subscriber with A or O effective acting on ANOTHER user (the O bit
   only by the owner), (2) a sharer's invitation of a user without subscription = default
   grant | J, (3) the user's own first / renewed subscription = topic default or the grant of
   the previous (soft-deleted) row, (4) an administrator raising the own grant by
   mode &~ D with mode lacking O, (5) the holder of O in the grant (owner / accepting
   transferee) raising the own grant, (6) the O-strip of Topic.owner at an accepted transfer;
   want: (1) the user's own request, (2) the default chosen at an invitation (account
   default & grant, or the want of the previous row), (3) the O-strip at a transfer. *)
Theorem c07_request_writers : forall f x o,
  logged_in sm o -> owner_sane (view x) -> sess_members (view x) ->
  step_laws sm x o (fst (step dr nr sm f x o)).
Proof. exact (step_writer_laws dr nr sm). Qed.

(* Histories: from every well-formed state, every history of logged-in requests and every
   fault plan that does not contain a FAILING (crashes are allowed) topics.owner write inside
   an accepted ownership transfer: the law holds at every step. *)
Theorem c07_given_writers : forall x h,
  inv_all x -> hist_ok dr nr sm x h -> all_steps dr nr sm (given_law sm) x h.
Proof.
  intros x h IA HK. eapply all_steps_impl; [|apply run_writer_laws; eassumption].
  intros x0 fo x' [L1 [_ [L3 _]]]. split; assumption.
Qed.

Theorem c07_want_writers : forall x h,
  inv_all x -> hist_ok dr nr sm x h -> all_steps dr nr sm (want_law sm) x h.
Proof.
  intros x h IA HK. eapply all_steps_impl; [|apply run_writer_laws; eassumption].
  intros x0 fo x' [_ [L2 [_ L4]]]. split; assumption.
Qed.

(* well-formedness is kept along these histories (so the hypotheses of c07_request_writers
   hold in every reachable state) *)
Theorem c07_wf_reachable : forall x h, inv_all x -> hist_ok dr nr sm x h -> inv_all (fst (run dr nr sm x h)).
Proof. intros x h. exact (run_inv_all dr nr sm h x). Qed.

(* clause (4) keeps the administrator's grant and adds nothing in O|D *)
Theorem c07_admin_raise_within : forall g mw, is_owner mw = false ->
  N.land g (N.lor g (N.ldiff mw mD)) = g /\ N.land (N.ldiff (N.lor g (N.ldiff mw mD)) g) (N.lor mO mD) = 0%N.
Proof.
  intros g mw H. rewrite TopicOwner.is_owner_bit in H. split; apply N.bits_inj; intros i.
  - rewrite N.land_spec, N.lor_spec. destruct (N.testbit g i); reflexivity.
  - rewrite N.land_spec, N.ldiff_spec, !N.lor_spec, N.ldiff_spec, N.bits_0.
    change mO with (2 ^ 7)%N. change mD with (2 ^ 6)%N. rewrite !N.pow2_bits_eqb.
    destruct (N.eqb 7 i) eqn:E7.
    + apply N.eqb_eq in E7. subst i. rewrite H. destruct (N.testbit g 7); reflexivity.
    + destruct (N.testbit g i), (N.testbit mw i), (N.eqb 6 i); reflexivity.
Qed.

(* Attached sessions: in every state reached under ANY fault plan without the request
   pattern of finding banned-user-attached, every attached session belongs to a cached
   subscriber whose grant has J. *)
Theorem c07_no_join_no_attach : forall x h,
  inv_sm x -> inv_aj x -> no_stale dr nr sm x h -> inv_aj (fst (run dr nr sm x h)).
Proof. intros x h. exact (run_inv_aj dr nr sm h x). Qed.

(* Re-subscribing (own {sub} or own {set sub}) after unsubscribing: the grant of the
   soft-deleted row is kept in the store and is the grant of the new cache entry - never the
   topic default; any fault. *)
Theorem c07_resubscribe_restores_grant : forall f x o r,
  inv_all x -> own_request (actor sm o) o -> actor sm o <> 0%N ->
  find_sub (actor sm o) (subs (st x)) = Some r -> s_deleted r = true -> (s_given r =? ModeUnset)%N = false ->
  let x' := fst (step_f dr nr sm x (f, o)) in
  sgiven (st x') (actor sm o) = Some (s_given r) /\
  (forall c', ca x' = Some c' -> forall g, cgiven c' (actor sm o) = Some g -> g = s_given r).
Proof. exact (resubscribe_restores dr nr sm). Qed.

(* The subscriber limit: live subscription rows never exceed maxSubscriberCount (max_subs, the
   value the driver configures), in every state reached by ANY requests under ANY fault plan. *)
Theorem c07_sub_limit : forall x h, inv_lim x ->
  Z.of_nat (live_count (st (fst (run dr nr sm x h)))) <= max_subs.
Proof. intros x h H. apply (run_inv_lim dr nr sm h x H). Qed.

(* ---- the attachment table under bans (sessions are attached as sid -> (user, background flag)) ---- *)

(* Bans stick: in every state reached under ANY fault plan by ANY history without the request
   pattern of finding banned-user-attached, a user whose cached grant lacks J (ban by an approver)
   - or who has no cache entry any more ({del sub}, {leave unsub}) - has NO attached session,
   whatever its kind (foreground or background) and however many there were. *)
Theorem c07_ban_detaches_every_session : forall x h,
  inv_sm x -> inv_aj x -> no_stale dr nr sm x h ->
  forall c, ca (fst (run dr nr sm x h)) = Some c ->
  forall u, (forall p, alookup u (c_users c) = Some p -> is_joiner (p_given p) = false) -> no_sess c u.
Proof.
  intros x h SM AJ NS c E u L sid b HI. pose proof (run_inv_aj dr nr sm h x SM AJ NS) as A.
  unfold inv_aj in A. rewrite E in A. destruct (A _ _ _ HI) as [p [EP J]]. rewrite (L p EP) in J. discriminate.
Qed.

(* ONE request {set sub} / {del sub} / {leave unsub}, ANY state (so: every step of every history),
   ANY fault: every session attached before the request is still attached afterwards, or it
   belongs to the request's target (ban_target_c07f: the named user, the requester for a request
   about oneself), NO session of the target is attached any more and the session was sent
   {ctrl 205 evicted} (except the requester's own session at {leave unsub}, which gets the reply;
   the model's "no skipped session" is session id 0). *)
Theorem c07_evicted_session_notified : forall f x c o who unsub skip,
  ca x = Some c -> ban_target_c07f sm c o = Some (who, unsub, skip) ->
  exists c', ca (fst (step dr nr sm f x o)) = Some c' /\
    forall sid v b, In (sid, (v, b)) (c_sess c) ->
      In (sid, (v, b)) (c_sess c') \/
      (v = who /\ no_sess c' who /\ (sid <> skip -> In (sid, Evicted unsub) (snd (step dr nr sm f x o)))).
Proof. exact (ban_step_told_c07f dr nr sm). Qed.

(* Losing J detaches: at EVERY step of EVERY history (any fault plan, from any state whose attached sessions
   belong to cached subscribers), for EVERY request: a user whose effective mode
   (want & given of the cache entry) had J before the request and lacks it afterwards - ban by an approver,
   self-ban through {set sub} or {sub set.sub.mode}, {del sub}, {leave unsub}: entry gone - has NO attached
   session afterwards, foreground or background. *)
Theorem c07_losing_join_detaches_every_session : forall x h f o c c',
  inv_sm x -> ca (fst (run dr nr sm x h)) = Some c ->
  ca (fst (step dr nr sm f (fst (run dr nr sm x h)) o)) = Some c' ->
  forall v, effj_c07f c v = true -> effj_c07f c' v = false -> no_sess c' v.
Proof.
  intros x h f o c c' SM EC E. apply (step_losej_c07f dr nr sm f (fst (run dr nr sm x h)) o c); auto.
  apply run_inv_sm. exact SM.
Qed.
End C07.

(* evictUser itself: every session of the user is detached, of either kind, and each one except the
   skipped one is told; the sessions of the others stay *)
Theorem c07_evict_detaches_every_session : forall c u unsub skip c' o, evict_user c u unsub skip = (c', o) ->
  no_sess c' u /\
  (forall sid b, In (sid, (u, b)) (c_sess c) -> sid <> skip -> In (sid, Evicted unsub) o) /\
  (forall sid v b, v <> u -> In (sid, (v, b)) (c_sess c) -> In (sid, (v, b)) (c_sess c')).
Proof. exact evict_all_c07f. Qed.

(* Self-ban: an ACCEPTED {set sub} about oneself (thisUserSub returns no error), any fault, any state,
   that leaves the own cached want without J leaves no session of the user attached. *)
Theorem c07_selfban_detaches_every_session : forall f s c n sid u t mode ch w,
  (t =? 0)%N || N.eqb t u = true ->
  snd (this_user_sub f s c n sid u mode false) = SubOk ch ->
  let h := set_sub f s c n sid u t mode in
  cwant (h_ca h) u = Some w -> is_joiner w = false -> no_sess (h_ca h) u.
Proof.
  intros f s c n sid u t mode ch w SELF. cbv zeta. unfold set_sub. rewrite tus_eq, SELF.
  destruct (tus_detach_told_c07f f s c n u mode false) as [_ B]. cbv zeta in B.
  destruct (tus f s c n u mode false) as [h r]. cbn [fst snd] in *. intros ->. cbn [h_ca]. apply (B ch w eq_refl).
Qed.

(* The same through {sub set.sub.mode=<no J>} (from an attached or a not yet attached session): accepted with a
   changed mode whose want & given lacks J - the requester is not attached and no other session of the user stays. *)
Theorem c07_selfban_by_sub_detaches_every_session : forall f s c n sid u want bkg w g w',
  snd (this_user_sub f s c n sid u want (match alookup u (c_users c) with Some _ => false | None => true end)) = SubOk (Some (w, g)) ->
  is_joiner (N.land g w) = false ->
  let h := sub_reply f s c n sid u want bkg in
  cwant (h_ca h) u = Some w' -> is_joiner w' = false -> no_sess (h_ca h) u.
Proof.
  intros f s c n sid u want bkg w g w'.
  cbv zeta. unfold sub_reply. rewrite tus_eq.
  set (nb := match alookup u (c_users c) with Some _ => false | None => true end).
  destruct (tus_detach_told_c07f f s c n u want nb) as [_ B]. cbv zeta in B.
  destruct (tus f s c n u want nb) as [h r]. cbn [fst snd] in *. intros -> EJ. rewrite EJ. cbn [h_ca].
  apply (B (Some (w, g)) w' eq_refl).
Qed.

(* non-vacuity: user 2 is attached ONLY through two background sessions (online counter 0); the owner
   sets his grant to RWP: both sessions are detached and both are sent {ctrl 205} *)
Example c07_ex_ban_background_only :
  let x3 := fst (run bf_dr_c07f bf_nr_c07f bf_sm_c07f bf_x_c07f bf_h_c07f) in
  let r := step bf_dr_c07f bf_nr_c07f bf_sm_c07f NoFault x3 bf_ban_c07f in
  (exists c, ca x3 = Some c /\ In (2%N, (2%N, true)) (c_sess c) /\ In (3%N, (2%N, true)) (c_sess c) /\
             (forall sid b, In (sid, (2%N, b)) (c_sess c) -> b = true) /\
             option_map p_online (alookup 2%N (c_users c)) = Some 0 /\
             ban_target_c07f bf_sm_c07f c bf_ban_c07f = Some (2%N, false, 0%N)) /\
  (exists c', ca (fst r) = Some c' /\ cgiven c' 2%N = Some 14%N /\ no_sess c' 2%N /\
              In (2%N, Evicted false) (snd r) /\ In (3%N, Evicted false) (snd r)).
Proof.
  cbv zeta. split.
  - vm_compute. eexists. split; [reflexivity|]. split; [right; left; reflexivity|]. split; [right; right; left; reflexivity|].
    split; [|split; reflexivity].
    intros sid b [H|[H|[H|[]]]]; inv H; reflexivity.
  - vm_compute. eexists. split; [reflexivity|]. split; [reflexivity|]. split.
    + intros sid b [H|[]]. inv H.
    + split; [left; reflexivity|right; left; reflexivity].
Qed.
Example c07_ex_losing_join :
  let x3 := fst (run bf_dr_c07f bf_nr_c07f bf_sm_c07f bf_x_c07f bf_h_c07f) in
  inv_sm bf_x_c07f /\
  exists c c', ca x3 = Some c /\ ca (fst (step bf_dr_c07f bf_nr_c07f bf_sm_c07f NoFault x3 bf_ban_c07f)) = Some c' /\
    effj_c07f c 2%N = true /\ effj_c07f c' 2%N = false.
Proof.
  cbv zeta. split; [exact I|]. vm_compute. eexists. eexists. repeat split; reflexivity.
Qed.

(* The full statements are REFUTED by the faithful model; both witnesses are replayed on the
   real code (findings/C07.md). *)
Definition c07_no_join_no_attach_statement : Prop :=
  forall sm x h, inv_all x -> inv_aj x -> inv_aj (fst (run dr0 nr0 sm x h)).
Theorem c07_no_join_no_attach_refuted : ~ c07_no_join_no_attach_statement.
Proof. intros H. exact (w1_attached (H w1_sm w1_x w1_h (proj1 w1_inv) (proj2 w1_inv))). Qed.

Definition c07_given_writers_statement : Prop :=
  forall sm x h, inv_all x -> hist_logged_in dr0 nr0 sm x h -> all_steps dr0 nr0 sm (given_law sm) x h.
Theorem c07_given_writers_refuted : ~ c07_given_writers_statement.
Proof. intros H. exact (w2_rewrites_all (H w2_sm w2_x _ w2_inv w2_logged)). Qed.

(* ================================================================== *)
(* Part B: p2p, me, fnd, sys (Sys/TopicKindsC07.v)                         *)
Section C07Kinds.
Variable isroot : N -> bool.   (* the level of a user's sessions: root or not *)
Variable suser : N -> N.       (* the user a session is logged in as *)

(* Routing (Session.expandTopicName): a request reaches the 'me' topic of u only as "me" from
   u himself; the 'fnd' topic of u only as "fnd" from u or by its raw name; a p2p topic only by
   its raw name or as usrX from one of its two users. *)
Theorem c07_route_me : forall uid o u, expand uid o = inl (KMe u) -> o = OMe /\ u = uid.
Proof. exact expand_me. Qed.
Theorem c07_route_fnd : forall uid o u, expand uid o = inl (KFnd u) -> (o = OFnd /\ u = uid) \/ o = ORawFnd u.
Proof.
  intros uid o u.
  destruct o; cbn; intros H; try discriminate; try (inv H; auto; fail).
  repeat break_match_hyp; discriminate.
Qed.
Theorem c07_route_p2p : forall uid o a b, expand uid o = inl (KP2P a b) ->
  o = ORawP2P a b \/ (exists v, o = OUsr v /\ v <> 0%N /\ v <> uid /\ ((a = uid /\ b = v) \/ (a = v /\ b = uid))).
Proof. exact expand_p2p. Qed.
(* the model keys a p2p topic by the pair of ids; the real name determines the pair *)
Theorem c07_p2p_name_pair : forall a b c d,
  valid_uid a -> valid_uid b -> valid_uid c -> valid_uid d -> a <> b -> c <> d ->
  p2p_name a b = p2p_name c d -> (a = c /\ b = d) \/ (a = d /\ b = c).
Proof. exact P2PProofs.p2p_injective. Qed.

(* Every history (any requests of sessions logged in as one user each): only sessions of u
   are ever attached to the 'me' topic of u. *)
Theorem c07_me_attach_private : forall acc h, Forall (op_user suser) h ->
  forall u c sid v, kt_cache (tget (KMe u) (w_topics (fst (krun (init_world acc) h)))) = Some c ->
    In (sid, v) (kc_sess c) -> v = u.
Proof.
  intros acc h HU u c sid v EC HI.
  destruct (krun_inv _ _ (kstep_sess_inv suser) h _ (init_sess_inv suser acc) HU _ _ _ _ EC HI) as [_ H]. apply (H u eq_refl).
Qed.

(* me / fnd: in every state reached by a history in which no {set sub} addressed to a me / fnd
   topic names a user other than its owner (op_clean; the pattern of finding
   me-fnd-foreign-subscription-by-invite), every stored subscription, cached entry and attached
   session of the me / fnd topic of u belongs to u. *)
Theorem c07_me_fnd_private : forall acc h,
  Forall (op_static isroot suser sc_mefnd) h -> Forall (op_clean isroot sc_none sc_mefnd) h ->
  forall k u, k = KMe u \/ k = KFnd u ->
  let t := tget k (w_topics (fst (krun (init_world acc) h))) in
  (forall v r, In (v, r) (kt_rows t) -> v = u) /\
  (forall c, kt_cache t = Some c ->
     (forall v r, In (v, r) (kc_users c) -> v = u) /\ (forall sid v, In (sid, v) (kc_sess c) -> v = u)).
Proof.
  intros acc h HS HC k u HK t.
  destruct (kinds_invariant isroot suser sc_none sc_mefnd acc h) as [[WT _] _]; auto.
  { intros [k0 E]. discriminate E. }
  pose proof (WT k) as [RO CO]. fold t in RO, CO.
  assert (forall v, okuser isroot sc_mefnd k v -> v = u) as OU.
  { intros v H. destruct HK as [-> | ->]; apply H; reflexivity. }
  split.
  - intros v r HI. apply OU. apply (forall_in _ _ _ RO HI).
  - intros c EC. rewrite EC in CO. destruct CO as [CU [CS _]]. split.
    + intros v r HI. apply OU. apply (forall_in _ _ _ CU HI).
    + intros sid v HI. apply OU. apply (forall_in _ _ _ CS HI).
Qed.

(* sys: in every state reached by ANY history of sessions whose level is a function of the
   user, every stored subscription, cached entry and attached session belongs to a root user. *)
Theorem c07_sys_root_only : forall acc h,
  Forall (op_static isroot suser sc_sys) h ->
  let t := tget KSys (w_topics (fst (krun (init_world acc) h))) in
  (forall v r, In (v, r) (kt_rows t) -> isroot v = true) /\
  (forall c, kt_cache t = Some c ->
     (forall v r, In (v, r) (kc_users c) -> isroot v = true) /\ (forall sid v, In (sid, v) (kc_sess c) -> isroot v = true)).
Proof.
  intros acc h HS t.
  destruct (kinds_invariant isroot suser sc_none sc_sys acc h) as [[WT _] _]; auto.
  { intros [k0 E]. discriminate E. }
  { apply Forall_forall. intros o _. apply clean_sys. }
  pose proof (WT KSys) as [RO CO]. fold t in RO, CO. split.
  - intros v r HI. apply (forall_in _ _ _ RO HI). reflexivity.
  - intros c EC. rewrite EC in CO. destruct CO as [CU [CS _]]. split.
    + intros v r HI. apply (forall_in _ _ _ CU HI). reflexivity.
    + intros sid v HI. apply (forall_in _ _ _ CS HI). reflexivity.
Qed.

(* p2p: accounts whose default access is within JRWPA and contains A, histories in which a
   {set sub user=X} addressed to a p2p topic names one of its two users and carries an explicit
   mode (op_clean; the patterns of findings p2p-third-participant-by-invite, p2p-initiator-grant-unmasked,
   p2p-reinvite-grant-lacks-approve): every p2p topic has at most two subscriptions, of the two
   users in its name, every want and grant (stored and cached) is within JRWPA and contains A,
   and only the two users are attached. *)
Theorem c07_p2p_shape : forall acc h,
  NoDup (map fst acc) -> Forall (fun e => okmode (snd e)) acc ->
  Forall (op_static isroot suser sc_p2p) h -> Forall (op_clean isroot sc_p2p sc_p2p) h ->
  forall a b, let t := tget (KP2P a b) (w_topics (fst (krun (init_world acc) h))) in
  (length (kt_rows t) <= 2)%nat /\
  (forall v r, In (v, r) (kt_rows t) -> (v = a \/ v = b) /\ okmode (kr_want r) /\ okmode (kr_given r)) /\
  (forall c, kt_cache t = Some c ->
     (forall v r, In (v, r) (kc_users c) -> (v = a \/ v = b) /\ okmode (kr_want r) /\ okmode (kr_given r)) /\
     (forall sid v, In (sid, v) (kc_sess c) -> v = a \/ v = b)).
Proof.
  intros acc h ND AO HS HC a b t.
  destruct (kinds_invariant isroot suser sc_p2p sc_p2p acc h) as [[WT _] _]; auto.
  { intros _. exact AO. }
  pose proof (WT (KP2P a b)) as [RO CO]. fold t in RO, CO.
  pose proof (krun_nd h _ (init_nd_inv acc ND) (KP2P a b)) as NDR. fold t in NDR.
  assert (forall v r, okent isroot sc_p2p sc_p2p (KP2P a b) (v, r) -> (v = a \/ v = b) /\ okmode (kr_want r) /\ okmode (kr_given r)) as OE.
  { intros v r [OU OR]. split; [apply OU; reflexivity|apply OR; reflexivity]. }
  split; [|split].
  - apply (two_keys _ a b NDR). intros [v r] HI. cbn. apply (OE v r). apply (forall_in _ _ _ RO HI).
  - intros v r HI. apply OE. apply (forall_in _ _ _ RO HI).
  - intros c EC. rewrite EC in CO. destruct CO as [CU [CS _]]. split.
    + intros v r HI. apply OE. apply (forall_in _ _ _ CU HI).
    + intros sid v HI. apply (forall_in _ _ _ CS HI). reflexivity.
Qed.
End C07Kinds.

(* The unconditional statements are REFUTED by the faithful model (each witness replayed on the
   real code, findings/C07.md): a third user gets a subscription in a p2p topic; with the
   default account access JRWPAS the initiator's grant is JRWPAS; a re-invited peer gets grant
   J; a foreign user gets a subscription on somebody's 'me' topic and attaches to somebody's
   'fnd' topic. *)
Definition c07_p2p_participants_statement : Prop :=
  forall acc h a b v r, In (v, r) (kt_rows (tget (KP2P a b) (w_topics (fst (krun (init_world acc) h))))) -> v = a \/ v = b.
Theorem c07_p2p_participants_refuted : ~ c07_p2p_participants_statement.
Proof.
  intros H. destruct wk_third_row as [r E]. apply alookup_in in E.
  destruct (H wk_acc wk_third _ _ _ _ E) as [X|X]; discriminate X.
Qed.
Definition c07_p2p_modes_statement : Prop :=
  forall acc h a b v r, In (v, r) (kt_rows (tget (KP2P a b) (w_topics (fst (krun (init_world acc) h))))) ->
    okmode (kr_want r) /\ okmode (kr_given r).
Theorem c07_p2p_modes_refuted_unmasked : ~ c07_p2p_modes_statement.
Proof.
  intros H. pose proof wk_unmasked_row as E.
  destruct (alookup 1%N (kt_rows (tget (KP2P 1 2) (w_topics (fst (krun (init_world wk_default_acc) wk_unmasked)))))) as [r|] eqn:EL; [|discriminate].
  apply alookup_in in EL. destruct (H _ _ _ _ _ _ EL) as [_ [G _]]. cbn in E. inv E. rewrite H1 in G. discriminate G.
Qed.
Theorem c07_p2p_modes_refuted_reinvite : ~ c07_p2p_modes_statement.
Proof.
  intros H. pose proof wk_reinvite_row as E.
  destruct (alookup 2%N (kt_rows (tget (KP2P 1 2) (w_topics (fst (krun (init_world wk_acc) wk_reinvite)))))) as [r|] eqn:EL; [|discriminate].
  apply alookup_in in EL. destruct (H _ _ _ _ _ _ EL) as [_ [_ G]]. cbn in E. inv E. rewrite H1 in G. discriminate G.
Qed.
Definition c07_me_fnd_private_statement : Prop :=
  forall acc h u,
    (forall v r, In (v, r) (kt_rows (tget (KMe u) (w_topics (fst (krun (init_world acc) h))))) -> v = u) /\
    (forall c sid v, kt_cache (tget (KFnd u) (w_topics (fst (krun (init_world acc) h)))) = Some c -> In (sid, v) (kc_sess c) -> v = u).
Theorem c07_me_private_refuted : ~ c07_me_fnd_private_statement.
Proof.
  intros H. destruct wk_me_row as [r E]. apply alookup_in in E.
  destruct (H wk_acc wk_me 1%N) as [A _]. specialize (A _ _ E). discriminate A.
Qed.
Theorem c07_fnd_private_refuted : ~ c07_me_fnd_private_statement.
Proof.
  intros H. destruct wk_fnd_sess as [c [E HI]].
  destruct (H wk_acc wk_fnd 1%N) as [_ B]. specialize (B _ _ _ E HI). discriminate B.
Qed.

Print Assumptions c07_request_writers.
Print Assumptions c07_given_writers.
Print Assumptions c07_want_writers.
Print Assumptions c07_wf_reachable.
Print Assumptions c07_admin_raise_within.
Print Assumptions c07_no_join_no_attach.
Print Assumptions c07_resubscribe_restores_grant.
Print Assumptions c07_ban_detaches_every_session.
Print Assumptions c07_evicted_session_notified.
Print Assumptions c07_evict_detaches_every_session.
Print Assumptions c07_selfban_detaches_every_session.
Print Assumptions c07_selfban_by_sub_detaches_every_session.
Print Assumptions c07_losing_join_detaches_every_session.
Print Assumptions c07_sub_limit.
Print Assumptions c07_no_join_no_attach_refuted.
Print Assumptions c07_given_writers_refuted.
Print Assumptions c07_route_me.
Print Assumptions c07_route_fnd.
Print Assumptions c07_route_p2p.
Print Assumptions c07_p2p_name_pair.
Print Assumptions c07_me_attach_private.
Print Assumptions c07_me_fnd_private.
Print Assumptions c07_sys_root_only.
Print Assumptions c07_p2p_shape.
Print Assumptions c07_p2p_participants_refuted.
Print Assumptions c07_p2p_modes_refuted_unmasked.
Print Assumptions c07_p2p_modes_refuted_reinvite.
Print Assumptions c07_me_private_refuted.
Print Assumptions c07_fnd_private_refuted.

Example c07_ex_wf_satisfiable : inv_all w2_x /\ inv_aj w2_x.
Proof. split; [exact w2_inv|exact I]. Qed.
(* the hypotheses of the kinds theorems are satisfiable: accounts within JRWPA with A, a clean history *)
Example c07_ex_kinds_hypotheses :
  Forall (fun e => okmode (snd e)) wk_acc /\
  Forall (op_clean (fun _ => false) sc_p2p sc_p2p) [KSub 1 1 false (OUsr 2) [] []; KSetSub 1 1 false (OUsr 2) 2 m_J].
Proof.
  split; [repeat constructor|]. constructor; [exact I|]. constructor; [|constructor].
  intros k EX _ _ _. cbn in EX. inv EX. split; [intros _; right; reflexivity|discriminate].
Qed.
