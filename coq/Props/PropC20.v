(* C20  Identifiers and topic names mean the same in every encoding
   (part A: Uid codecs, prefixed forms, group/channel names, p2p names; part B,
   below its own header: the protobuf and JSON renderings of a message).
   The lemmas the theorems rest on are in Base/Base64Proofs.v, Pure/UidProofs.v,
   Pure/P2PProofs.v and Sys/PbTableProofs.v.  Every statement about an id carries
   the bound u < 2^64 (two64) explicitly; none is proved by sampling. *)
From Coq Require Import NArith ZArith List Bool.
From Tinode Require Import Base.Util Base.Base64 Base.Base64Proofs Pure.Uid Pure.UidProofs
  Pure.P2PName Pure.P2PProofs.
Import ListNotations.
Open Scope N_scope.

(* Go's unpadded URL base64: Decode (Encode bs) = bs for every byte string *)
Theorem c20_base64_roundtrip : forall bs, Forall lt256 bs -> fst (b64_decode (b64_encode bs)) = bs.
Proof. exact b64_decode_encode. Qed.
Print Assumptions c20_base64_roundtrip.

(* numeric <-> base64 text (String / ParseUid); the zero id is the empty text *)
Theorem uid_text_roundtrip : forall u, u < two64 -> parse_uid (uid_string u) = u.
Proof. exact parse_uid_string. Qed.
Print Assumptions uid_text_roundtrip.

Theorem uid_unmarshal_marshal : forall cur u, u < two64 -> u <> 0 ->
  unmarshal_text cur (marshal_text u) = (u, true).
Proof. exact text_roundtrip. Qed.
Print Assumptions uid_unmarshal_marshal.

(* JSON form *)
Theorem uid_json_roundtrip : forall cur u, u < two64 -> u <> 0 ->
  unmarshal_json cur (marshal_json u) = (u, true).
Proof.
  intros cur u Hu H0. destruct (marshal_text_shape u H0) as (c0&c1&c2&c3&c4&c5&c6&c7&c8&c9&c10&E).
  unfold unmarshal_json, marshal_json. rewrite E.
  cbn [app length uidBase64Unpadded Nat.add Nat.eqb negb nth Nat.sub firstn skipn].
  rewrite !N.eqb_refl. cbn [negb orb]. rewrite <- E. now apply text_roundtrip.
Qed.
Print Assumptions uid_json_roundtrip.

(* the zero id ("no such id") is written as "" and refused on the way back:
   the receiver keeps its value and an error is reported *)
Theorem uid_json_zero : forall cur, unmarshal_json cur (marshal_json 0) = (cur, false).
Proof. intros cur. reflexivity. Qed.
Print Assumptions uid_json_zero.

(* binary (little endian) form *)
Theorem uid_binary_roundtrip : forall cur u, u < two64 ->
  unmarshal_binary cur (marshal_binary u) = (u, true).
Proof.
  intros cur u H. unfold unmarshal_binary, marshal_binary. rewrite le_bytes_length. cbn [Nat.ltb Nat.leb].
  now rewrite le_uint64_le_bytes.
Qed.
Print Assumptions uid_binary_roundtrip.

(* prefixed forms: usr (UserId / ParseUserId) and any three-letter prefix
   (fnd, grp, chn: the id is what follows the prefix) *)
Theorem uid_usr_roundtrip : forall u, u < two64 -> parse_user_id (user_id u) = u.
Proof.
  intros u Hu. unfold parse_user_id, user_id, prefix_id. destruct (u =? 0) eqn:E.
  - apply N.eqb_eq in E. now subst.
  - unfold s_usr. rewrite has_prefix_app, skipn_app3. apply (parse_uid_string u Hu).
Qed.
Print Assumptions uid_usr_roundtrip.

Theorem uid_prefix_roundtrip : forall a b c u, u < two64 -> u <> 0 ->
  has_prefix (prefix_id [a; b; c] u) [a; b; c] = true /\
  parse_uid (skipn 3 (prefix_id [a; b; c] u)) = u.
Proof. exact prefix_roundtrip. Qed.
Print Assumptions uid_prefix_roundtrip.

(* base32 form (String32 / ParseUid32), for the code AFTER the repair
   findings/C20_uid32.diff *)
Theorem uid32_roundtrip : forall u, u < two64 -> parse_uid32 (string32 u) = u.
Proof. exact UidProofs.uid32_roundtrip. Qed.
Print Assumptions uid32_roundtrip.

(* the code as found: the full statement, kept, and its refutation *)
Definition uid32_roundtrip_unrepaired_statement : Prop :=
  forall u, u < two64 -> parse_uid32_unrepaired (string32 u) = u.
Theorem uid32_roundtrip_unrepaired_refuted : ~ uid32_roundtrip_unrepaired_statement.
Proof. exact UidProofs.uid32_roundtrip_unrepaired_refuted. Qed.
Print Assumptions uid32_roundtrip_unrepaired_refuted.

(* database form; the XTEA cipher is external: ANY pair of functions that are
   mutually inverse on 8-byte blocks *)
Theorem uid_db_roundtrip : forall enc dec : list N -> list N,
  (forall b, block8 b -> block8 (enc b)) -> (forall b, block8 b -> block8 (dec b)) ->
  (forall b, block8 b -> dec (enc b) = b) -> (forall b, block8 b -> enc (dec b) = b) ->
  (forall u, u < two64 -> encode_int64 enc (decode_uid dec u) = u) /\
  (forall z, (-9223372036854775808 <= z < 9223372036854775808)%Z ->
             decode_uid dec (encode_int64 enc z) = z /\ encode_int64 enc z < two64).
Proof.
  intros enc dec He Hd Hde Hed. split; [exact (db_roundtrip enc dec Hd Hed)|].
  intros z Hz. split; [exact (db_roundtrip_int enc dec He Hde z Hz)|exact (db_encode_bound enc He z)].
Qed.
Print Assumptions uid_db_roundtrip.

(* no text decodes to SOMEBODY ELSE's id: a text that decodes to a non-zero id
   u is one of the four spellings of u - the canonical text u.String() or one
   of the three texts that differ from it only in the two unused trailing bits
   of the last character (Go's non-strict decoding does not check them) *)
Theorem uid_decode_sound : forall s u, parse_uid s = u -> u <> 0 ->
  u < two64 /\ In s (spellings u).
Proof. exact parse_uid_sound. Qed.
Print Assumptions uid_decode_sound.

(* the four spellings are exactly that: each decodes to u, and the first is
   the canonical text *)
Theorem uid_spellings_decode : forall u s, u < two64 -> In s (spellings u) -> parse_uid s = u.
Proof. exact spellings_decode. Qed.
Print Assumptions uid_spellings_decode.

Theorem uid_spelling_canonical : forall u, u <> 0 -> uid_string u = spelling u 0.
Proof. exact spelling_0. Qed.
Print Assumptions uid_spelling_canonical.

Theorem uid_usr_decode_sound : forall s u, parse_user_id s = u -> u <> 0 ->
  u < two64 /\ exists t, s = s_usr ++ t /\ In t (spellings u).
Proof.
  intros s u.
  unfold parse_user_id. destruct (has_prefix s s_usr) eqn:P; [|intros <- H; contradiction].
  intros H H0. destruct (parse_uid_sound _ _ H H0) as [B I]. split; [exact B|].
  exists (skipn 3 s). split; [now apply has_prefix3|exact I].
Qed.
Print Assumptions uid_usr_decode_sound.

Theorem uid_json_decode_sound : forall cur b v, unmarshal_json cur b = (v, true) ->
  v < two64 /\ exists k, k < 4 /\ b = cQuote :: spelling v k ++ [cQuote].
Proof.
  intros cur b v.
  unfold unmarshal_json. destruct (Nat.eqb (length b) (uidBase64Unpadded + 2)) eqn:L; cbn [negb]; [|discriminate].
  apply Nat.eqb_eq in L. cbn in L.
  do 14 (destruct b as [|? b]; try discriminate). clear L.
  cbn [length Nat.sub nth firstn skipn].
  match goal with |- context [negb (?x =? cQuote) || negb (?y =? cQuote)] =>
    destruct (x =? cQuote) eqn:Q1; destruct (y =? cQuote) eqn:Q2; cbn [negb orb]; try discriminate end.
  apply N.eqb_eq in Q1, Q2. subst. intros H.
  destruct (unmarshal_text_sound _ _ _ H) as (B & k & Hk & E). split; [exact B|].
  exists k. split; [exact Hk|]. rewrite <- E. reflexivity.
Qed.
Print Assumptions uid_json_decode_sound.

(* invalid text - wrong length, or any character outside the alphabet, CR and
   LF included - is refused and leaves the receiver unchanged (so ParseUid and
   ParseUserId give the zero id) *)
Theorem uid_invalid_text_rejected : forall s,
  length s <> 11%nat \/ forallb valid_char s = false ->
  forall cur, unmarshal_text cur s = (cur, false).
Proof. exact parse_uid_invalid. Qed.
Print Assumptions uid_invalid_text_rejected.

Theorem uid_invalid_text_zero : forall s,
  length s <> 11%nat \/ forallb valid_char s = false -> parse_uid s = 0.
Proof. intros s H. unfold parse_uid. now rewrite (parse_uid_invalid s H 0). Qed.
Print Assumptions uid_invalid_text_zero.

Theorem uid_usr_bad_prefix : forall s, has_prefix s s_usr = false -> parse_user_id s = 0.
Proof. intros s. unfold parse_user_id. now intros ->. Qed.
Print Assumptions uid_usr_bad_prefix.

(* peer-to-peer topic names *)
Theorem p2p_commutes : forall a b, p2p_name a b = p2p_name b a.
Proof. exact P2PProofs.p2p_commutes. Qed.
Print Assumptions p2p_commutes.

Theorem p2p_parse : forall a b, valid_uid a -> valid_uid b -> a <> b ->
  parse_p2p (p2p_name a b) = Some (N.min a b, N.max a b).
Proof. exact P2PProofs.p2p_parse. Qed.
Print Assumptions p2p_parse.

Theorem p2p_injective : forall a b c d,
  valid_uid a -> valid_uid b -> valid_uid c -> valid_uid d -> a <> b -> c <> d ->
  p2p_name a b = p2p_name c d -> (a = c /\ b = d) \/ (a = d /\ b = c).
Proof. exact P2PProofs.p2p_injective. Qed.
Print Assumptions p2p_injective.

Theorem p2p_for_user : forall a b, valid_uid a -> valid_uid b -> a <> b ->
  p2p_name_for_user a (p2p_name a b) = Some (user_id b) /\
  p2p_name_for_user b (p2p_name a b) = Some (user_id a).
Proof. exact P2PProofs.p2p_for_user. Qed.
Print Assumptions p2p_for_user.

(* what the code does for a zero id or for a = b: no name at all, and the
   empty name does not parse *)
Theorem p2p_no_self : forall a b, a = 0 \/ b = 0 \/ a = b ->
  p2p_name a b = [] /\ parse_p2p (p2p_name a b) = None.
Proof. exact P2PProofs.p2p_no_self. Qed.
Print Assumptions p2p_no_self.

Theorem p2p_name_form : forall a b, valid_uid a -> valid_uid b -> a <> b ->
  exists body, p2p_name a b = s_p2p ++ body /\ length body = 22%nat.
Proof. exact p2p_name_nonempty. Qed.
Print Assumptions p2p_name_form.

Theorem p2p_unparsable_hidden : forall u s, parse_p2p s = None -> p2p_name_for_user u s = None.
Proof. intros u s. unfold p2p_name_for_user. now intros ->. Qed.
Print Assumptions p2p_unparsable_hidden.

(* ParseP2P on arbitrary names: a name that parses spells exactly the pair it
   parses to - "p2p" + the canonical 22 characters of LE(x)||LE(y), up to the 4
   unused trailing bits of the last character (16 spellings); bad prefix,
   wrong length or any character outside the alphabet is rejected.  (ParseP2P
   does not require x < y or non-zero halves: it only decodes.) *)
Theorem p2p_decode_sound : forall s x y, parse_p2p s = Some (x, y) ->
  x < two64 /\ y < two64 /\ exists k, k < 16 /\ s = s_p2p ++ pair_spelling x y k.
Proof. exact parse_p2p_sound. Qed.
Print Assumptions p2p_decode_sound.

Theorem p2p_invalid_rejected : forall s,
  has_prefix s s_p2p = false \/ length (skipn 3 s) <> 22%nat \/
  forallb valid_char (skipn 3 s) = false -> parse_p2p s = None.
Proof. exact parse_p2p_rejects. Qed.
Print Assumptions p2p_invalid_rejected.

(* group and channel spellings of a name convert into each other without loss *)
Theorem grp_chn_inverse : forall s, has_prefix s s_grp = true ->
  chn_to_grp (grp_to_chn s) = s /\ is_channel (grp_to_chn s) = true /\
  skipn 3 (grp_to_chn s) = skipn 3 s /\ chn_to_grp s = s.
Proof. exact UidProofs.grp_chn_inverse. Qed.
Print Assumptions grp_chn_inverse.

Theorem chn_grp_inverse : forall s, has_prefix s s_chn = true ->
  grp_to_chn (chn_to_grp s) = s /\ is_channel s = true /\
  skipn 3 (chn_to_grp s) = skipn 3 s /\ grp_to_chn s = s.
Proof. exact UidProofs.chn_grp_inverse. Qed.
Print Assumptions chn_grp_inverse.

Theorem grp_chn_other_names : forall s, has_prefix s s_grp = false -> has_prefix s s_chn = false ->
  grp_to_chn s = [] /\ chn_to_grp s = [] /\ is_channel s = false.
Proof. intros s G C. unfold grp_to_chn, chn_to_grp, is_channel. now rewrite G, C. Qed.
Print Assumptions grp_chn_other_names.

(* non-vacuity: concrete instances ("AQAAAAAAAAA" is id 1; its other spellings end in B, C, D) *)
Example c20_ex_text : uid_string 1 = [65; 81; 65; 65; 65; 65; 65; 65; 65; 65; 65] /\
  parse_uid [65; 81; 65; 65; 65; 65; 65; 65; 65; 65; 66] = 1.
Proof. split; reflexivity. Qed.
Example c20_ex_valid : valid_uid 1 /\ valid_uid 18446744073709551615.
Proof. repeat split; discriminate. Qed.
Example c20_ex_p2p : parse_p2p (p2p_name 5 3) = Some (3, 5).
Proof. reflexivity. Qed.
Example c20_ex_uid32 : parse_uid32 (string32 1) = 1 /\ parse_uid32_unrepaired (string32 1) = 0.
Proof. split; reflexivity. Qed.
Example c20_ex_crlf : parse_uid [65; 81; 65; 65; 65; 65; 65; 65; 65; 65; 10] = 0.
Proof. reflexivity. Qed.
(* the identity cipher satisfies the hypotheses of uid_db_roundtrip *)
Example c20_ex_cipher : let id := fun b : list N => b in
  (forall b, block8 b -> block8 (id b)) /\ (forall b, block8 b -> id (id b) = b).
Proof. split; auto. Qed.

(* ======================================================================================
   Part B: a request received over gRPC is interpreted exactly as the same request received
   as JSON, and every reply field that the protobuf schema defines carries the same value as
   in the JSON rendering (server/pbconverter.go).  Messages are lists of typed leaves; the
   converters are abstracted by a table probed from the current build on every run
   (Gen/GenPb.v); the theorems hold for EVERY table that passes the decidable check
   [table_ok] / [table_ok_srv], for every message (any number of leaves, any list lengths, any
   map keys, any values).  The per-run obligations on the probed tables are in Gen/ObC20pb.v.
   "=norm" is equality of [norm_msg]: ints modulo 2^32 in the int32 range, times truncated to
   whole milliseconds and only after the epoch, enum spellings in upper case with the zero
   value's spelling = absent, zero values = absent. *)
From Coq Require Import String.
From Tinode Require Import Sys.PbTable Sys.PbTableProofs.
Local Open Scope Z_scope.

Theorem pb_request_equiv : forall t, table_ok t = true -> forall m, wf_msg t m = true ->
  norm_msg t (deser t (ser t m)) = norm_msg t m.
Proof. exact request_equiv. Qed.
Print Assumptions pb_request_equiv.

(* the converters treat every leaf on its own ... *)
Theorem pb_request_leafwise : forall t m, deser t (ser t m) = flat_map (rt_leaf t) m.
Proof. exact rt_homomorphic. Qed.
Print Assumptions pb_request_leafwise.

(* ... so one good row guarantees its leaf in every message, whatever the other rows are *)
Theorem pb_request_leaf : forall t p v, leaf_ok t (fst p) = true -> wf_leaf_t t (p, v) = true ->
  norm_msg t (rt_leaf t (p, v)) = norm_msg t [(p, v)].
Proof. exact request_leaf. Qed.
Print Assumptions pb_request_leaf.

Theorem pb_request_no_panic : forall t, table_ok t = true -> forall m, panics t m = false.
Proof. exact table_ok_no_panic. Qed.
Print Assumptions pb_request_no_panic.

(* the premise is needed: a single Dropped row breaks the equivalence for every value that is not absent *)
Theorem pb_table_ok_needed : forall sp k v v', norm k v = Some v' ->
  let t := [(sp, k, Dropped)] in
  norm_msg t (deser t (ser t [((sp, []), v)])) <> norm_msg t [((sp, []), v)].
Proof.
  intros sp k v v' H t. unfold t, ser, deser, norm_msg. cbn [flat_map ser1 norm1 find_row fst].
  rewrite String.eqb_refl. cbn [flat_map]. rewrite H. discriminate.
Qed.
Print Assumptions pb_table_ok_needed.

Theorem pb_reply_fields : forall t, table_ok_srv t = true ->
  forall m p v k q f, In (p, v) m -> find_srow t (fst p) = Some (k, q, f) -> in_schema_f f = true ->
  wf_leaf k v = true ->
  forall v', norm k v = Some v' ->
  exists w, In ((q, snd p), w) (ser_srv t m) /\ obind (bwd k w) (norm k) = Some v'.
Proof.
  intros t Hok m p v k q f Hin Hf Hs Hwf v' Hn.
  unfold table_ok_srv in Hok. apply andb_true_iff in Hok. destruct Hok as [Hrows _].
  rewrite forallb_forall in Hrows.
  pose proof (Hrows _ (find_srow_In _ _ _ _ _ Hf)) as Hr. cbn in Hr.
  assert (Hfk : fate_ok k f = true /\ kind_ok k = true).
  { destruct f; try discriminate; now apply andb_true_iff in Hr. }
  destruct Hfk as [Hfate Hkind].
  pose proof (leaf_roundtrip k v Hkind Hwf) as RT. rewrite Hn in RT.
  destruct (fwd k v) as [w|] eqn:Hw; [|discriminate].
  exists w. split.
  - unfold ser_srv. apply in_flat_map. exists (p, v). split; [exact Hin|].
    unfold ser_srv1. rewrite Hf.
    destruct (fate_ok_cases _ _ Hfate) as [->|[x ->]]; rewrite Hw; now left.
  - exact RT.
Qed.
Print Assumptions pb_reply_fields.

Theorem pb_reply_no_invention : forall t m q w, In (q, w) (ser_srv t m) ->
  exists p v k f, In (p, v) m /\ find_srow t (fst p) = Some (k, fst q, f) /\ snd q = snd p /\ fwd k v = Some w.
Proof.
  intros t m q w H. unfold ser_srv in H. apply in_flat_map in H. destruct H as [[p v] [Hin H]].
  unfold ser_srv1 in H. destruct (find_srow t (fst p)) as [[[k q'] f]|] eqn:Hf; [|contradiction].
  assert (H' : In (q, w) (opt_list (q', snd p) (fwd k v))) by (destruct f; try contradiction; exact H).
  destruct (fwd k v) as [w'|] eqn:Hw; [|contradiction].
  destruct H' as [E|[]]. inversion E; subst. exists p, v, k, f. cbn. auto.
Qed.
Print Assumptions pb_reply_no_invention.

(* whole replies: reading the protobuf rendering back gives the normalised JSON rendering of the
   fields the schema defines, leaf for leaf and in order *)
Theorem pb_reply_read_back : forall t, table_ok_srv t = true -> forall m, wf_smsg t m = true ->
  deser_srv t (ser_srv t m) = norm_srv t m.
Proof. exact reply_read_back. Qed.
Print Assumptions pb_reply_read_back.

(* leaf kinds *)
Theorem pb_leaf_roundtrip : forall k v, kind_ok k = true -> wf_leaf k v = true ->
  obind (obind (fwd k v) (bwd k)) (norm k) = norm k v.
Proof. exact leaf_roundtrip. Qed.
Print Assumptions pb_leaf_roundtrip.

Theorem pb_int32_roundtrip : forall z, -2147483648 <= z <= 2147483647 -> z <> 0 ->
  obind (fwd KInt (LInt z)) (bwd KInt) = Some (LInt z).
Proof.
  intros z H Hz. cbn [fwd]. rewrite wrap32_id by exact H.
  destruct (Z.eqb_spec z 0); [contradiction|]. reflexivity.
Qed.
Print Assumptions pb_int32_roundtrip.

Theorem pb_int32_wrap : forall z, -2147483648 <= wrap32 z <= 2147483647 /\ (wrap32 z - z) mod 4294967296 = 0.
Proof. intro z. split; [exact (wrap32_range z)|exact (wrap32_congr z)]. Qed.
Print Assumptions pb_int32_wrap.

Theorem pb_time_ms_roundtrip : forall ms, 0 < ms ->
  obind (fwd KTime (LTime (ns_of_ms ms))) (bwd KTime) = Some (LTime (ns_of_ms ms)).
Proof. exact time_ms_roundtrip. Qed.
Print Assumptions pb_time_ms_roundtrip.

Theorem pb_time_truncation : forall ns, 0 < ms_of_ns ns ->
  obind (fwd KTime (LTime ns)) (bwd KTime) = Some (LTime (ns_of_ms (ms_of_ns ns))).
Proof. exact time_truncation. Qed.
Print Assumptions pb_time_truncation.

Theorem pb_enum_bijective : forall e, enum_bij e = true -> forall n s, In (n, s) (e_deser e) -> n <> 0 ->
  enum_ser e s = n /\ enum_deser e (enum_ser e s) = Some s /\ -2147483648 <= n <= 2147483647.
Proof.
  intros e H n s Hin Hn. unfold enum_bij in H. rewrite forallb_forall in H.
  specialize (H _ Hin). cbn in H.
  destruct (Z.eqb_spec n 0); [contradiction|]. cbn in H.
  apply andb_true_iff in H. destruct H as [H H3]. apply andb_true_iff in H. destruct H as [H1 H2].
  apply Z.eqb_eq in H1. apply opt_string_eqb_eq in H2.
  unfold in_int32 in H3. apply andb_true_iff in H3. destruct H3 as [Ha Hb].
  apply Z.leb_le in Ha. apply Z.leb_le in Hb.
  rewrite H1. auto.
Qed.
Print Assumptions pb_enum_bijective.

Theorem pb_norm_idempotent : forall z ns,
  obind (norm KInt (LInt z)) (norm KInt) = norm KInt (LInt z) /\
  obind (norm KTime (LTime ns)) (norm KTime) = norm KTime (LTime ns).
Proof. intros z ns. split; [exact (norm_idem_int z)|exact (norm_idem_time ns)]. Qed.
Print Assumptions pb_norm_idempotent.

(* non-vacuity: a small table with an enum passes the checks; a wide int wraps; a sub-millisecond time truncates *)
Example c20_ex_pb_table :
  let e := {| e_ser := [("auth"%string, 20); ("AUTH"%string, 20)]; e_deser := [(20, "AUTH"%string)]; e_zero := "NONE"%string |} in
  let t := [("acc.authlevel"%string, KEnum e, Transformed XEnum); ("note.seq"%string, KInt, Transformed XInt32);
            ("get.sub.ims"%string, KTime, Transformed XMs)] in
  table_ok t = true /\
  wf_msg t [(("acc.authlevel"%string, []), LStr "auth"%string)] = true /\
  norm_msg t (deser t (ser t [(("acc.authlevel"%string, []), LStr "auth"%string); (("note.seq"%string, []), LInt 4294967301);
                              (("get.sub.ims"%string, []), LTime 1700000000123456789)])) =
    [(("acc.authlevel"%string, []), LStr "AUTH"%string); (("note.seq"%string, []), LInt 5);
     (("get.sub.ims"%string, []), LTime 1700000000123000000)].
Proof. vm_compute. repeat split. Qed.
