(* C02  Each accepted message reaches exactly the attached readers, once, unaltered.
   Theorems only, over the model Sys/Fanout.v (a statement-by-statement translation of
   Session.publish, handlePubBroadcast, saveAndBroadcastMessage, broadcastToSessions,
   prepareBroadcastableMessage, msg.copy, pushForData and of the requests that change what they
   read); the lemmas they rest on are in Sys/FanoutProofs.v.  The last part is over the extension
   Sys/FanoutBkgC02.v (background sessions, store faults), with lemmas in Sys/FanoutBkgC02*.v.

   The one-publish theorems hold from EVERY state: any number of users and sessions, any permission
   bits, consistent or not - hence at every point of every history.  The history theorems are by
   induction over an arbitrary list of requests.  A full send buffer is explicit: the copy is
   [Overflow], the session is detached by the same publish; "delivered" always means [Sent].

   Three clauses of the property are REFUTED by the faithful model; each is kept as a [_statement]
   with a [_refuted] witness and a [_partial] theorem whose extra hypothesis excludes exactly the trigger:
     - the author is withheld from channel readers   (a channel reader who attaches a second
       connection under the grpXXX name is shown the author; refuted from one state and over a history),
     - every copy names the topic as the recipient addresses it   (a publish to a plain group
       written as chnXXX is delivered under that name),
     - no session of a banned user stays attached   (a {sub} that leaves a want without J as it was
       attaches the session all the same).
   All three were replayed on the real server and are recorded in findings/C02.md (the third has the
   root cause of the C07 finding banned-user-attached). *)
From Coq Require Import ZArith NArith List Bool Permutation Sorted.
From Tinode Require Import Sys.Fanout Sys.FanoutProofs.
From Tinode Require Import Sys.FanoutBkgC02 Sys.FanoutBkgC02Proofs Sys.FanoutBkgC02Steps Sys.FanoutBkgC02Runs Sys.FanoutBkgC02Push.
Import ListNotations.
Open Scope N_scope.

(* ---- acceptance ------------------------------------------------------------------------- *)
(* A publish is accepted iff the connection is attached, the message is not a call invitation and
   the author has W in want & given; a refused publish changes nothing and sends no copy. *)
Theorem c02_accepted_iff : forall st px,
  ((exists q a c p, fst (publish st px) = PAccepted q a c p) <-> accepts st px = true) /\
  (accepts st px = false -> snd (publish st px) = st /\ emitted (Some (fst (publish st px))) = []).
Proof.
  intros st px. split; [split|].
  - intros [q [a [c [p H]]]]. destruct (accepts st px) eqn:E; [reflexivity|].
    destruct (publish_refused st px E) as [_ [H1|[H1|H1]]]; rewrite H1 in H; discriminate.
  - intros H. rewrite (publish_accepted st px H). cbn. eauto.
  - intros H. destruct (publish_refused st px H) as [H1 H2].
    split; [exact H1|]. destruct H2 as [ -> | [ -> | -> ] ]; reflexivity.
Qed.
Print Assumptions c02_accepted_iff.

(* The outcome of an accepted publish: the id is lastID + 1, the copies are [fanout_all], the push
   is [push_rcpt], the counter is advanced, and exactly the sessions whose queue was full are
   detached. *)
Theorem c02_accepted_outcome : forall st px q a c p st',
  publish st px = (PAccepted q a c p, st') ->
  q = (st_lastid st + 1)%Z /\ c = fanout_all st px /\ p = push_rcpt st /\ st_lastid st' = q /\
  forall k, In k (map fst (st_sess st')) <-> In k (map fst (st_sess st)) /\ ~ In k (overflowed (fanout_all st px)).
Proof. exact overflow_detached. Qed.
Print Assumptions c02_accepted_outcome.

(* ---- exactly the attached readers, once ------------------------------------------------- *)
(* [eligible] = (the acting user has R in want & given, or the session is a channel subscription)
   and it is not the publishing session when no echo was asked.  The sessions for which a copy is
   made are exactly the attached eligible ones; if the session table is a map, each exactly once. *)
Theorem c02_exact_set : forall st px,
  Permutation (map fst (fanout_all st px)) (map fst (filter (eligible st px) (st_sess st))) /\
  (wf_sess st -> NoDup (map fst (fanout_all st px))) /\
  (forall s, In s (map fst (fanout_all st px)) <->
             exists d, In (s, d) (st_sess st) /\ eligible st px (s, d) = true).
Proof. exact exact_set. Qed.
Print Assumptions c02_exact_set.

Theorem c02_one_copy_each : forall st px (s : sid),
  wf_sess st ->
  count_occ N.eq_dec (map fst (fanout_all st px)) s =
  match lookup s (st_sess st) with
  | Some d => if eligible st px (s, d) then 1%nat else 0%nat
  | None => 0%nat
  end.
Proof.
  intros st px s Hwf. destruct (exact_set st px) as [_ [Hnd Hin]]. specialize (Hnd Hwf).
  rewrite count_keys_NoDup by assumption.
  destruct (in_dec N.eq_dec s (map fst (fanout_all st px))) as [H|H].
  - apply Hin in H. destruct H as [d [H1 H2]]. rewrite (in_lookup _ _ _ Hwf H1). cbv beta iota. now rewrite H2.
  - destruct (lookup s (st_sess st)) as [d|] eqn:E; [|reflexivity].
    destruct (eligible st px (s, d)) eqn:E2; [|reflexivity].
    exfalso. apply H. apply Hin. exists d. split; [now apply lookup_in|assumption].
Qed.
Print Assumptions c02_one_copy_each.

(* delivered / dropped, with the full queue explicit *)
Theorem c02_delivered_set : forall st px s f,
  In (s, f) (fanout st px) <->
  exists d, In (s, d) (st_sess st) /\ eligible st px (s, d) = true /\ is_full st s = false /\
            f = prepare st d (data_msg st px).
Proof. exact delivered_set. Qed.
Print Assumptions c02_delivered_set.

Theorem c02_overflow_set : forall st px s,
  In s (overflowed (fanout_all st px)) <->
  exists d, In (s, d) (st_sess st) /\ eligible st px (s, d) = true /\ is_full st s = true.
Proof.
  intros st px s.
  rewrite fanout_all_spec, overflowed_map, in_map_iff. split.
  - intros [[s' d] [H1 H2]]. cbn in H1. subst. apply filter_In in H2. destruct H2 as [H2 H3].
    apply filter_In in H2. destruct H2 as [H2 H4]. now exists d.
  - intros [d [H1 [H2 H3]]]. exists (s, d). split; [reflexivity|]. apply filter_In. split; [now apply filter_In|exact H3].
Qed.
Print Assumptions c02_overflow_set.

(* no connection stuck: the delivered copies are exactly the eligible attached sessions *)
Theorem c02_exact_set_no_overflow : forall st px,
  (forall s, is_full st s = false) ->
  map fst (fanout st px) = map fst (filter (eligible st px) (st_sess st)) /\
  overflowed (fanout_all st px) = [] /\
  (wf_sess st -> NoDup (map fst (fanout st px))).
Proof.
  intros st px H. split; [|split; [|exact (delivered_NoDup st px)]].
  - rewrite delivered_keys. f_equal. apply filter_all_true. intros x _. now rewrite H.
  - destruct (overflowed (fanout_all st px)) as [|s r] eqn:E; [reflexivity|].
    assert (Hin : In s (overflowed (fanout_all st px))) by (rewrite E; now left).
    apply c02_overflow_set in Hin. destruct Hin as [d [_ [_ Hf]]]. rewrite H in Hf. discriminate.
Qed.
Print Assumptions c02_exact_set_no_overflow.

(* ---- unaltered ---------------------------------------------------------------------------- *)
(* Every delivered copy carries the acknowledged id, the published content, and the published head
   except [sender]: that one is present iff the session acts on behalf of another user, and is then
   the session's real user - whatever the client wrote there. *)
Theorem c02_content_unaltered : forall st px s f,
  In (s, f) (fanout st px) ->
  f_seq f = (st_lastid st + 1)%Z /\ f_content f = px_content px /\
  hdel K_SENDER (f_head f) = hdel K_SENDER (px_head px) /\
  hget K_SENDER (f_head f) = (if obo px then Some (px_real px) else None) /\
  (forall k, k <> K_SENDER -> hget k (f_head f) = hget k (px_head px)).
Proof. exact copy_payload. Qed.
Print Assumptions c02_content_unaltered.

(* every copy of one publish carries the same payload (the Head map is shared, nothing writes to it) *)
Theorem c02_copies_agree : forall st px s1 f1 s2 f2,
  In (s1, f1) (fanout st px) -> In (s2, f2) (fanout st px) ->
  f_seq f1 = f_seq f2 /\ f_content f1 = f_content f2 /\ f_head f1 = f_head f2.
Proof.
  intros st px s1 f1 s2 f2 H1 H2. apply delivered_set in H1. apply delivered_set in H2.
  destruct H1 as [d1 [_ [_ [_ H1]]]]. destruct H2 as [d2 [_ [_ [_ H2]]]]. subst.
  destruct (prepare_payload st d1 (data_msg st px)) as [A1 [A2 A3]].
  destruct (prepare_payload st d2 (data_msg st px)) as [B1 [B2 B3]]. rewrite A1, A2, A3, B1, B2, B3. auto.
Qed.
Print Assumptions c02_copies_agree.

(* ---- the author ---------------------------------------------------------------------------- *)
(* what the code does: the author is blanked iff the SESSION is a channel subscription *)
Theorem c02_author_by_subscription : forall st px s f,
  In (s, f) (fanout st px) ->
  exists d, In (s, d) (st_sess st) /\ f_from f = if ss_chan d then 0 else px_author px.
Proof.
  intros st px s f H. apply delivered_set in H. destruct H as [d [H1 [_ [_ H]]]]. subst f. exists d. split; [assumption|].
  rewrite prepare_from. reflexivity.
Qed.
Print Assumptions c02_author_by_subscription.

(* the property: withheld from channel READERS (the session is a channel subscription or the user it
   acts for is a channel reader), shown to everybody else *)
Definition c02_author_statement : Prop := author_statement.

Definition w1_users : list (uid * pud) := [(1, mkPud 255 255 false false 0 1%Z); (3, mkPud 11 11 false true 0 2%Z)].
Definition w1_st : state := mkState KChn 1 47 w1_users [(1, mkPsd 1 false); (3, mkPsd 3 true); (4, mkPsd 3 false)] 0%Z [] [(3, 11)] [].
Definition w1_px : pubctx := mkPx 1 1 1 TGrp false true 101 [].
Definition w1_f : frame := mkFrame TChn 1 1%Z 101 [].
Example w1_delivered : In (4, w1_f) (fanout w1_st w1_px).
Proof. vm_compute. right. right. now left. Qed.
Example w1_wf : wf_sess w1_st.
Proof. unfold wf_sess. cbn. repeat constructor; cbn; intuition discriminate. Qed.

Theorem c02_author_refuted : ~ c02_author_statement.
Proof.
  intros H. destruct (H w1_st w1_px 4 w1_f w1_wf w1_delivered) as [d [Hin Hf]].
  cbn in Hin. destruct Hin as [Hin|[Hin|[Hin|[]]]]; inversion Hin; subst; vm_compute in Hf; discriminate.
Qed.
Print Assumptions c02_author_refuted.

(* the witness state is reachable: a channel reader attaches one connection as chnXXX and a second
   one as grpXXX *)
Definition w1_init : state := init KChn 1 47 [(1, mkPud 255 255 false false 0 0%Z)] [].
Definition w1_ops : list op := [OAttach 1 1 false; OAttach 3 3 true; OAttach 4 3 false].
Definition c02_author_history_statement : Prop :=
  forall ops px s f, let st := fst (run w1_init ops) in
    In (s, f) (fanout st px) ->
    exists d, In (s, d) (st_sess st) /\ f_from f = if chan_reader st d then 0 else px_author px.
Theorem c02_author_history_refuted : ~ c02_author_history_statement.
Proof.
  intros H. specialize (H w1_ops w1_px 4 w1_f). cbv zeta in H.
  assert (Hin : In (4, w1_f) (fanout (fst (run w1_init w1_ops)) w1_px)) by (vm_compute; right; right; now left).
  destruct (H Hin) as [d [Hd Hf]]. vm_compute in Hd.
  destruct Hd as [Hd|[Hd|[Hd|[]]]]; inversion Hd; subst; vm_compute in Hf; discriminate.
Qed.
Print Assumptions c02_author_history_refuted.

(* excluded trigger: in states where "channel subscription" and "channel reader" agree *)
Theorem c02_author_partial : forall st px s f,
  chan_consistent st -> In (s, f) (fanout st px) ->
  exists d, In (s, d) (st_sess st) /\ f_from f = if chan_reader st d then 0 else px_author px.
Proof.
  intros st px s f Hc H. destruct (c02_author_by_subscription st px s f H) as [d [H1 H2]]. exists d. split; [assumption|].
  unfold chan_reader. rewrite <- (Hc s d H1). now rewrite orb_diag.
Qed.
Print Assumptions c02_author_partial.

Definition w2_st : state := mkState KChn 1 47 w1_users [(1, mkPsd 1 false); (3, mkPsd 3 true)] 0%Z [] [(3, 11)] [].
Example w2_consistent : chan_consistent w2_st.
Proof. intros s d Hin. cbn in Hin. destruct Hin as [Hin|[Hin|[]]]; inversion Hin; subst; reflexivity. Qed.

(* ---- the topic name as seen ----------------------------------------------------------------- *)
Theorem c02_name_p2p : forall st px s f,
  st_kind st = KP2P -> In (s, f) (fanout st px) ->
  exists d, In (s, d) (st_sess st) /\
    (forall p, ss_uid d <> 0 -> lookup (ss_uid d) (st_users st) = Some p -> f_topic f = TUsr (pu_peer p)).
Proof.
  intros st px s f Hk H. apply delivered_set in H. destruct H as [d [H1 [_ [_ H]]]]. subst f. exists d. split; [assumption|].
  intros p Hz Hp. rewrite prepare_topic, Hk. apply N.eqb_neq in Hz. rewrite Hz. unfold original. now rewrite Hk, Hp.
Qed.
Print Assumptions c02_name_p2p.

Theorem c02_name_chn : forall st px s f,
  st_kind st = KChn -> In (s, f) (fanout st px) ->
  exists d, In (s, d) (st_sess st) /\ f_topic f = if chan_reader st d then TChn else TGrp.
Proof.
  intros st px s f Hk H. apply delivered_set in H. destruct H as [d [H1 [_ [_ H]]]]. subst f. exists d. split; [assumption|].
  rewrite prepare_topic, Hk. unfold chan_reader, original. rewrite Hk.
  destruct (ss_chan d); cbn; [reflexivity|]. destruct (user_is_chan st (ss_uid d)); reflexivity.
Qed.
Print Assumptions c02_name_chn.

(* plain group: every recipient addresses the topic as grpXXX *)
Definition c02_name_grp_statement : Prop :=
  forall st px s f, st_kind st = KGrp -> routes st px -> In (s, f) (fanout st px) -> f_topic f = TGrp.

Definition w3_st : state := mkState KGrp 1 47 [(1, mkPud 255 255 false false 0 1%Z); (2, mkPud 47 47 false false 0 1%Z)]
                                    [(1, mkPsd 1 false); (2, mkPsd 2 false)] 0%Z [] [] [].
Definition w3_px : pubctx := mkPx 2 2 2 TChn false true 101 [].
Theorem c02_name_grp_refuted : ~ c02_name_grp_statement.
Proof.
  intros H. assert (Hin : In (1, mkFrame TChn 2 1%Z 101 []) (fanout w3_st w3_px)) by (vm_compute; now left).
  specialize (H w3_st w3_px 1 _ eq_refl (or_intror eq_refl) Hin). discriminate.
Qed.
Print Assumptions c02_name_grp_refuted.

Theorem c02_name_grp_as_published : forall st px s f,
  st_kind st = KGrp -> In (s, f) (fanout st px) -> f_topic f = px_orig px.
Proof.
  intros st px s f Hk H. apply delivered_set in H. destruct H as [d [_ [_ [_ H]]]]. subst f.
  rewrite prepare_topic, Hk. reflexivity.
Qed.
Print Assumptions c02_name_grp_as_published.

Theorem c02_name_grp_partial : forall st px s f,
  st_kind st = KGrp -> px_orig px = TGrp -> In (s, f) (fanout st px) -> f_topic f = TGrp.
Proof. intros st px s f Hk Ho Hin. rewrite <- Ho. exact (c02_name_grp_as_published st px s f Hk Hin). Qed.
Print Assumptions c02_name_grp_partial.

(* ---- order ------------------------------------------------------------------------------------ *)
(* Over any list of requests from any state whose session table is a map: the ids of the copies
   delivered to one session are strictly increasing, lie above the starting counter and never above
   the final one. *)
Theorem c02_order : forall ops st,
  wf_sess st ->
  let st' := fst (run st ops) in
  let tr := snd (run st ops) in
  wf_sess st' /\ (st_lastid st <= st_lastid st')%Z /\
  (forall s f, In (s, f) tr -> (st_lastid st < f_seq f <= st_lastid st')%Z) /\
  (forall s, StronglySorted Z.lt (map f_seq (frames_to s tr))).
Proof. exact run_order. Qed.
Print Assumptions c02_order.

(* ---- push --------------------------------------------------------------------------------------- *)
(* The receipt is addressed exactly to the users in perUser that are not deleted, not channel
   readers and have both R and P in want & given; the channel address is set iff the topic is
   channel-enabled; no receipt at all iff nobody qualifies and there is no channel. *)
Theorem c02_push_exact : forall st,
  (forall u, In u (push_to st) <->
     exists p, In (u, p) (st_users st) /\ has (eff p) bR = true /\ has (eff p) bP = true /\
               pu_deleted p = false /\ pu_ischan p = false) /\
  (wf_users st -> NoDup (push_to st)) /\
  (let ch := match st_kind st with KChn => true | _ => false end in
   match push_rcpt st with
   | Some (to, c) => to = push_to st /\ c = ch /\ (to <> [] \/ ch = true)
   | None => push_to st = [] /\ ch = false
   end).
Proof.
  intros st. split; [|split; [exact (push_to_NoDup st)|exact (push_rcpt_spec st)]].
  intros u. rewrite push_to_spec. split; intros [p [H1 H2]]; exists p; (split; [exact H1|]); now apply push_wanted_spec.
Qed.
Print Assumptions c02_push_exact.

(* ---- only current subscribers ------------------------------------------------------------------- *)
(* [inv]: the session table is a map, every attached session acts for a user who is in perUser and
   not deleted, and the per-user online counter is at least the number of that user's attached
   sessions.  It holds for an unattended topic and is kept by every request, so in every reachable
   state whoever receives a copy is an attached session of a current subscriber who may read (or a
   channel subscription) - never of a removed user. *)
Theorem c02_inv_init : forall k owner defacs users rows,
  (forall u p, In (u, p) users -> (0 <= pu_online p)%Z) -> inv (init k owner defacs users rows).
Proof.
  intros k owner defacs users rows H. split; [constructor|]. split; [intros ? ? []|]. intros u. unfold get_pud. cbn.
  destruct (lookup u users) as [p|] eqn:E; [|apply Z.le_refl]. apply lookup_in in E. now apply (H u p).
Qed.
Print Assumptions c02_inv_init.

Theorem c02_inv_kept : forall ops st, inv st -> inv (fst (run st ops)).
Proof.
  induction ops as [|o r IH]; intros st H; cbn [run]; [exact H|].
  destruct (step st o) as [ost res] eqn:E. pose proof (step_inv st o ost res E H) as H1.
  fold (next_state st ost). specialize (IH _ H1). destruct (run (next_state st ost) r). exact IH.
Qed.
Print Assumptions c02_inv_kept.

Theorem c02_recipients_are_subscribers : forall ops st0 px s f,
  inv st0 ->
  let st := fst (run st0 ops) in
  In (s, f) (fanout st px) ->
  exists d p, In (s, d) (st_sess st) /\ lookup (ss_uid d) (st_users st) = Some p /\ pu_deleted p = false /\
              (has (eff p) bR = true \/ ss_chan d = true).
Proof. intros ops st0 px s f H. exact (recipients_are_subscribers _ px s f (c02_inv_kept ops st0 H)). Qed.
Print Assumptions c02_recipients_are_subscribers.

(* ---- the {info} branch of the same loop (note relays) ------------------------------------------- *)
(* [info_eligible] = not the originating session (SkipSid), and - unless the frame was forwarded from
   another topic (Src != "") - not a channel subscription and the acting user has R; not a session
   already notified on SkipTopic; a "kp" never to a session of the typist.  Exact recipient set of
   every {info} broadcast, from EVERY state. *)
Theorem c02_info_exact_set : forall st ix,
  Permutation (map fst (info_fanout st ix)) (map fst (filter (info_eligible st ix) (st_sess st))) /\
  (wf_sess st -> NoDup (map fst (info_fanout st ix))) /\
  (forall s, In s (map fst (info_fanout st ix)) <->
             exists d, In (s, d) (st_sess st) /\ info_eligible st ix (s, d) = true).
Proof. exact info_exact_set. Qed.
Print Assumptions c02_info_exact_set.

(* A relayed {note}: every delivered {info} goes to an attached session other than the originating
   one, that is not a channel subscription, of a user with R, and for "kp" not of the typist; it names
   the true sender, the kind and the id of the note. *)
Theorem c02_info_note_relay_sound : forall st nx s f,
  In (s, f) (isent (note_relay st nx)) ->
  note_permitted st nx = true /\
  exists d, In (s, d) (st_sess st) /\
    s <> nx_sid nx /\ ss_chan d = false /\ user_is_reader st (ss_uid d) = true /\
    (nx_what nx = W_KP -> ss_uid d <> nx_from nx) /\ is_full st s = false /\
    i_from f = nx_from nx /\ i_what f = nx_what nx /\ i_seq f = nx_seq nx.
Proof.
  intros st nx s f.
  unfold note_relay. destruct (note_permitted st nx); [|intros []]. intros H. split; [reflexivity|].
  unfold info_fanout in H. rewrite info_loop_spec, isent_map in H. apply in_map_iff in H. destruct H as [[s' d] [E H1]].
  cbn [fst snd] in E. inv E. apply filter_In in H1. destruct H1 as [H1 H2]. cbn [fst] in H2. apply negb_true_iff in H2.
  apply filter_In in H1. destruct H1 as [H1 He]. exists d. split; [exact H1|].
  apply note_eligible in He. destruct He as [He [Hc [Hr Hk]]].
  split; [exact He|]. split; [exact Hc|]. split; [exact Hr|]. split; [exact Hk|].
  split; [exact H2|]. unfold prepare_info. cbn.
  destruct (st_kind st); try destruct (ss_uid d =? 0); cbn; auto.
Qed.
Print Assumptions c02_info_note_relay_sound.

(* ... and every such session gets one (delivered, or dropped with the session if its queue is full) *)
Theorem c02_info_note_relay_complete : forall st nx s d,
  note_permitted st nx = true -> In (s, d) (st_sess st) ->
  s <> nx_sid nx -> ss_chan d = false -> user_is_reader st (ss_uid d) = true ->
  (nx_what nx = W_KP -> ss_uid d <> nx_from nx) ->
  In s (map fst (note_relay st nx)).
Proof.
  intros st nx s d Hp Hin Hs Hc Hr Hk. unfold note_relay. rewrite Hp.
  apply (proj2 (proj2 (info_exact_set st (info_of_note nx))) s). exists d. split; [exact Hin|].
  now apply note_eligible.
Qed.
Print Assumptions c02_info_note_relay_complete.

(* ---- the hypotheses are satisfiable ---------------------------------------------------------------- *)
Example ex_accepts : accepts w1_st w1_px = true. Proof. reflexivity. Qed.
Example ex_inv : inv w1_init. Proof. apply c02_inv_init. intros u p [H|[]]. inversion H. cbn. discriminate. Qed.
Example ex_no_overflow : forall s, is_full w1_st s = false. Proof. reflexivity. Qed.
Example ex_routes : routes w3_st w3_px. Proof. right. reflexivity. Qed.
Example ex_grp_name : st_kind w3_st = KGrp /\ px_orig (mkPx 2 2 2 TGrp false true 101 []) = TGrp. Proof. split; reflexivity. Qed.
Example ex_wf_users : wf_users w1_st. Proof. unfold wf_users. cbn. repeat constructor; cbn; intuition discriminate. Qed.
Example ex_note_permitted : note_permitted w1_st (mkNx 1 1 false TGrp W_KP 0%Z) = true /\
  map fst (note_relay w1_st (mkNx 1 1 false TGrp W_KP 0%Z)) = [4].
Proof. vm_compute. split; reflexivity. Qed.
(* an overflow really happens in the model: session 2's queue is full, it gets no copy and is detached *)
Definition w4_st : state := mkState KGrp 1 47 [(1, mkPud 255 255 false false 0 1%Z); (2, mkPud 47 47 false false 0 1%Z)]
                                    [(1, mkPsd 1 false); (2, mkPsd 2 false)] 0%Z [2] [] [].
Example ex_overflow :
  overflowed (fanout_all w4_st (mkPx 1 1 1 TGrp false true 7 [])) = [2] /\
  map fst (fanout w4_st (mkPx 1 1 1 TGrp false true 7 [])) = [1] /\
  map fst (st_sess (snd (publish w4_st (mkPx 1 1 1 TGrp false true 7 [])))) = [1].
Proof. vm_compute. repeat split. Qed.

(* ==== part c: BACKGROUND sessions and STORE FAULTS (model Sys/FanoutBkgC02.v) ======================== *)
(* The extended model re-translates the environment of the fan-out with Session.background (a field of
   the connection, [x_bkg]: attached but not counted in perUser.online until the connection's timer
   fires) and with a store that may fail: every permission-changing request carries a fault plan (the
   k-th adapter call fails) and [x_rows] are the live STORED subscription rows - the authoritative
   grants.  The fan-out functions are those of Fanout.v: broadcastToSessions never looks at the
   background flag, so every theorem above applies to [x_st x] with background sessions included. *)

(* a publish in the extended model is the publish of Fanout.v on the cached state: same outcome, same
   copies - made for exactly the attached eligible sessions, background or not - same push *)
Theorem c02c_publish_copies : forall x px,
  fst (xpublish x px) = fst (publish (x_st x) px) /\
  (forall q a c p, fst (xpublish x px) = PAccepted q a c p ->
     c = fanout_all (x_st x) px /\ p = push_rcpt (x_st x) /\
     forall s, In s (map fst c) <-> exists d, In (s, d) (st_sess (x_st x)) /\ eligible (x_st x) px (s, d) = true).
Proof.
  intros x px. split; [exact (xpublish_fst x px)|]. intros q a c p H. rewrite xpublish_fst in H.
  destruct (publish (x_st x) px) as [r st'] eqn:E. cbn [fst] in H. subst r.
  destruct (overflow_detached _ _ _ _ _ _ _ E) as [_ [Hc [Hp _]]]. split; [exact Hc|]. split; [exact Hp|].
  intros s. rewrite Hc. exact (proj2 (proj2 (exact_set (x_st x) px)) s).
Qed.
Print Assumptions c02c_publish_copies.

(* evictUser (ban, self-ban, unsubscription, {del sub}): whatever the online counter says, no session
   of the user stays attached *)
Theorem c02c_evict_detaches_every_session : forall st u unsub s d,
  In (s, d) (st_sess (evict_user st u unsub)) -> ss_uid d <> u /\ In (s, d) (st_sess st).
Proof. intros st u b s d H. apply evict_sess_in in H. tauto. Qed.
Print Assumptions c02c_evict_detaches_every_session.

(* [xinv]: the session table is a map; every attached session - background or not - acts for a cached,
   not deleted user who is a channel reader iff the session is a channel subscription; a channel
   reader's online counter covers his sessions; background connections are never channel
   subscriptions; and the cached grants ARE the stored grants (a live row exists exactly for the cached
   ordinary subscribers, with the same want and given).  It holds for an unattended topic and is kept
   by every request under EVERY fault plan. *)
Theorem c02c_inv_init : forall k owner defacs users crows bkg,
  (forall u p, In (u, p) users -> pu_deleted p = false /\ pu_ischan p = false) ->
  xinv (xinit k owner defacs users crows bkg) /\ joined (x_st (xinit k owner defacs users crows bkg)).
Proof.
  intros k owner defacs users crows bkg H. split; [|intros s d p []]. split; [constructor|]. split; [intros s d []|]. split.
  - intros u p Hp Hc. cbn in *. apply lookup_in in Hp. destruct (H u p Hp). congruence.
  - split; [intros s d []|]. intros u. cbn [x_rows x_st xinit]. rewrite lookup_map_rows. unfold live_modes. cbn [st_users init].
    destruct (lookup u users) as [p|] eqn:E; [|reflexivity]. apply lookup_in in E. destruct (H u p E) as [-> ->]. reflexivity.
Qed.
Print Assumptions c02c_inv_init.

Theorem c02c_inv_kept : forall ops x, xinv x -> xinv (fst (xrun x ops)).
Proof.
  induction ops as [|o r IH]; intros x H; cbn [xrun]; [exact H|].
  specialize (IH _ (xnext_inv x o H)). destruct (xrun (xnext x (xstep x o)) r). exact IH.
Qed.
Print Assumptions c02c_inv_kept.

Theorem c02c_cache_is_store : forall ops x0, xinv x0 ->
  let x := fst (xrun x0 ops) in
  forall u, lookup u (x_rows x) = live_modes (x_st x) u.
Proof. intros ops x0 H x. exact (proj2 (proj2 (proj2 (proj2 (c02c_inv_kept ops x0 H))))). Qed.
Print Assumptions c02c_cache_is_store.

(* a request one of whose store calls failed changes NOTHING: perUser, the attached sessions, the
   stored rows, the flags - hence neither the recipient set nor the push of any later publish *)
Theorem c02c_failed_change_changes_nothing : forall x o,
  existsb snd (xr_calls (xstep x o)) = true -> xnext x (xstep x o) = x.
Proof.
  intros x o Hf. pose proof (xstep_ok x o) as Hok. unfold step_ok, xkeeps, xnext in *. cbn [fst snd] in Hok.
  destruct (xr_state (xstep x o)); [now apply Hok|reflexivity].
Qed.
Print Assumptions c02c_failed_change_changes_nothing.

(* ---- banned and self-banned users ---- *)
(* [joined]: every attached session of an ordinary subscriber acts for a user with J in want AND in
   given.  The property's "no other session receives it" for banned users: full statement, refuted by
   the faithful model (a {sub} that leaves a J-less want exactly as it was runs evictUser and then
   attaches the session all the same - the same defect as the recorded C07 finding banned-user-attached),
   proved for every history without that request. *)
Definition c02c_banned_never_attached_statement : Prop :=
  forall ops x0, xinv x0 -> joined (x_st x0) -> joined (x_st (fst (xrun x0 ops))).

Definition wc_x0 : xstate := xinit KP2P 0 0 [(1, mkPud 31 31 false false 2 0%Z); (2, mkPud 31 31 false false 1 0%Z)] [] [].
Definition wc_ops : list xop := [XAttach 0 1 1 false None; XAttach 0 2 2 false None; XSetWant 0 1 30; XAttach 0 1 1 false (Some 30)].
Example wc_inv : xinv wc_x0 /\ joined (x_st wc_x0).
Proof. apply c02c_inv_init. intros u p [H|[H|[]]]; inversion H; split; reflexivity. Qed.

Theorem c02c_banned_never_attached_refuted : ~ c02c_banned_never_attached_statement.
Proof.
  intros H. destruct wc_inv as [Hi Hj]. specialize (H wc_ops wc_x0 Hi Hj).
  assert (Hin : In (1, mkPsd 1 false) (st_sess (x_st (fst (xrun wc_x0 wc_ops))))) by (vm_compute; right; now left).
  assert (Hl : lookup (ss_uid (mkPsd 1 false)) (st_users (x_st (fst (xrun wc_x0 wc_ops)))) = Some (mkPud 30 31 false false 2 1%Z))
    by (vm_compute; reflexivity).
  destruct (H _ _ _ Hin Hl eq_refl) as [Hw _]. vm_compute in Hw. discriminate.
Qed.
Print Assumptions c02c_banned_never_attached_refuted.

(* ... and the self-banned user does receive the next message *)
Example wc_receives : map fst (fanout (x_st (fst (xrun wc_x0 wc_ops))) (mkPx 2 2 2 (TUsr 1) false true 7 [])) = [2; 1].
Proof. vm_compute. reflexivity. Qed.
Example wc_is_the_bypass : no_bypass wc_x0 wc_ops = false. Proof. vm_compute. reflexivity. Qed.

Theorem c02c_banned_never_attached_partial : forall ops x0,
  xinv x0 -> joined (x_st x0) -> no_bypass x0 ops = true -> joined (x_st (fst (xrun x0 ops))).
Proof.
  induction ops as [|o r IH]; intros x H Hj Hb; cbn [xrun]; [exact Hj|]. cbn [no_bypass] in Hb.
  apply andb_true_iff in Hb. destruct Hb as [Hb1 Hb2]. apply negb_true_iff in Hb1.
  specialize (IH _ (xnext_inv x o H) (xnext_joined x o H Hj Hb1) Hb2). destruct (xrun (xnext x (xstep x o)) r). exact IH.
Qed.
Print Assumptions c02c_banned_never_attached_partial.

(* c02_recipients_are_subscribers extended to background sessions, to bans and to every fault plan:
   after any history (without the bypass request) whoever receives a copy is an attached session of a
   cached, not deleted user - a channel subscription of a channel reader, or an ordinary subscriber
   who has R and has J both in want and in given *)
Theorem c02c_recipients_are_joined_subscribers : forall ops x0 px s f,
  xinv x0 -> joined (x_st x0) -> no_bypass x0 ops = true ->
  let x := fst (xrun x0 ops) in
  In (s, f) (fanout (x_st x) px) ->
  exists d p, In (s, d) (st_sess (x_st x)) /\ lookup (ss_uid d) (st_users (x_st x)) = Some p /\ pu_deleted p = false /\
    pu_ischan p = ss_chan d /\
    (ss_chan d = true \/ (has (eff p) bR = true /\ has (pu_want p) bJ = true /\ has (pu_given p) bJ = true)).
Proof.
  intros ops x0 px s f Hi Hj Hb x.
  apply recipients_joined; [exact (c02c_inv_kept ops x0 Hi)|exact (c02c_banned_never_attached_partial ops x0 Hi Hj Hb)].
Qed.
Print Assumptions c02c_recipients_are_joined_subscribers.

(* ---- the STORED grants decide ---- *)
(* after any history with any fault plan: the copies of a publish are made for exactly the attached
   sessions whose user's STORED want & given has R (or that are channel subscriptions), minus the
   no-echo sender; each exactly once *)
Theorem c02c_exact_set_by_stored_grant : forall ops x0 px, xinv x0 ->
  let x := fst (xrun x0 ops) in
  (forall s, In s (map fst (fanout_all (x_st x) px)) <->
             exists d, In (s, d) (st_sess (x_st x)) /\ elig_stored x px (s, d) = true) /\
  NoDup (map fst (fanout_all (x_st x) px)).
Proof. intros ops x0 px Hi x. apply exact_set_stored. exact (c02c_inv_kept ops x0 Hi). Qed.
Print Assumptions c02c_exact_set_by_stored_grant.

(* ... and the push receipt is addressed exactly to the users whose STORED want & given has R and P *)
Theorem c02c_push_by_stored_grant : forall ops x0 u, xinv x0 -> wfu (x_st x0) ->
  let x := fst (xrun x0 ops) in
  In u (push_to (x_st x)) <-> has (seff x u) bR = true /\ has (seff x u) bP = true.
Proof. intros ops x0 u Hi Hw x. apply push_by_stored_grant; [exact (c02c_inv_kept ops x0 Hi)|exact (xrun_wfu ops x0 Hw)]. Qed.
Print Assumptions c02c_push_by_stored_grant.

(* ---- the hypotheses are satisfiable; the scenarios of the two seeded regressions in the model ---- *)
(* user 2 is attached only through background connection 5 (online counter 0) and receives copies *)
Definition wd_x0 : xstate := xinit KGrp 1 47 [(1, mkPud 255 255 false false 0 0%Z); (2, mkPud 47 47 false false 0 0%Z)] [] [5].
Definition wd_ops : list xop := [XAttach 0 1 1 false None; XAttach 0 5 2 false None].
Example wd_inv : xinv wd_x0 /\ joined (x_st wd_x0) /\ wfu (x_st wd_x0) /\ no_bypass wd_x0 (wd_ops ++ [XSetGiven 0 1 2 46]) = true.
Proof.
  destruct (c02c_inv_init KGrp 1 47 [(1, mkPud 255 255 false false 0 0%Z); (2, mkPud 47 47 false false 0 0%Z)] [] [5]) as [A B].
  { intros u p [H|[H|[]]]; inversion H; split; reflexivity. }
  split; [exact A|]. split; [exact B|]. split; [|vm_compute; reflexivity].
  unfold wfu. cbn. repeat constructor; cbn; intuition discriminate.
Qed.
Example wd_background_receives :
  map (fun up => pu_online (snd up)) (st_users (x_st (fst (xrun wd_x0 wd_ops)))) = [1%Z; 0%Z] /\
  map fst (fanout (x_st (fst (xrun wd_x0 wd_ops))) (mkPx 1 1 1 TGrp false true 7 [])) = [1; 5].
Proof. vm_compute. split; reflexivity. Qed.
(* the owner bans user 2 keeping R (given RWPS): the background session is detached and gets nothing *)
Example wd_ban_detaches :
  map fst (st_sess (x_st (fst (xrun wd_x0 (wd_ops ++ [XSetGiven 0 1 2 46]))))) = [1] /\
  map fst (fanout (x_st (fst (xrun wd_x0 (wd_ops ++ [XSetGiven 0 1 2 46])))) (mkPx 1 1 1 TGrp false true 7 [])) = [1].
Proof. vm_compute. split; reflexivity. Qed.
(* the owner takes R away from user 2 and the store update fails: nothing changes, user 2 still receives *)
Example wd_failed_change :
  xr_calls (xstep (fst (xrun wd_x0 wd_ops)) (XSetGiven 1 1 2 45)) = [(CUpd, true)] /\
  xnext (fst (xrun wd_x0 wd_ops)) (xstep (fst (xrun wd_x0 wd_ops)) (XSetGiven 1 1 2 45)) = fst (xrun wd_x0 wd_ops).
Proof. vm_compute. split; reflexivity. Qed.
