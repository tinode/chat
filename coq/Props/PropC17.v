(* C17  Cluster nodes agree on topic placement (consistent-hash ring) and on at
   most one leader per term (election).  Theorems only; the lemmas they rest on are
   in Pure/RingProofs.v (ring), Sys/GateProofs.v (signature gate), Sys/ElectionProofs.v,
   Sys/ElectionC17bProofs.v and Sys/VoteTallyC17eProofs.v (election).
   The hash function and the digest are universally quantified: the
   statements hold for crc32, for the package tests' fake hash and for any
   other function. *)
From Coq Require Import NArith ZArith List Bool Permutation Lia.
From Tinode Require Import Pure.Ring Pure.RingProofs Sys.Election Sys.ElectionProofs Sys.Gate Sys.GateProofs.
From Tinode Require Import Sys.ElectionC17b Sys.ElectionC17bProofs.
From Tinode Require Import Sys.VoteTallyC17e Sys.VoteTallyC17eProofs.
Import ListNotations.

(* ------------------------------------------------------------------ *)
(* A. the ring                                                         *)

(* sortable.Less is a strict total order on (hash, name) pairs: two elements it
   cannot order are IDENTICAL, so an unstable sort has nothing to choose *)
Theorem c17_less_strict_total : forall a b c : elt,
  eless a a = false /\
  (eless a b = true -> eless b c = true -> eless a c = true) /\
  (eless a b = false -> eless b a = false -> a = b).
Proof.
  intros a b c. exact (conj (eless_irrefl a) (conj (eless_trans a b c) (eless_trichotomy a b))).
Qed.
Print Assumptions c17_less_strict_total.

(* whatever sort.Sort returns - any permutation of the appended replicas that
   is sorted by Less - is the model's key list *)
Theorem c17_any_sort : forall hash digest reps r names ks,
  sorted ks -> Permutation ks (rkeys r ++ appended hash reps names) ->
  ks = rkeys (ring_add hash digest reps r names).
Proof. intros hash digest reps r names ks S P. rewrite ring_add_keys. now apply sorted_is_isort. Qed.
Print Assumptions c17_any_sort.

(* the same set of node names listed in any order: same ring (keys and signature) *)
Theorem c17_ring_perm : forall hash digest reps ns ns',
  Permutation ns ns' -> ring_of hash digest reps ns = ring_of hash digest reps ns'.
Proof. exact ring_perm. Qed.
Print Assumptions c17_ring_perm.

(* hence the same owner for every name, the same routing decision on every node
   and the same signature *)
Theorem c17_placement_agree : forall hash digest reps ns ns' this topic,
  Permutation ns ns' ->
  is_remote_topic hash (ring_of hash digest reps ns) this topic =
    is_remote_topic hash (ring_of hash digest reps ns') this topic
  /\ node_for_topic hash (ring_of hash digest reps ns) this topic =
    node_for_topic hash (ring_of hash digest reps ns') this topic
  /\ ring_signature (ring_of hash digest reps ns) = ring_signature (ring_of hash digest reps ns').
Proof. intros hash digest reps ns ns' this topic P. now rewrite (ring_perm hash digest reps _ _ P). Qed.
Print Assumptions c17_placement_agree.

(* Ring.Get's binary search returns the first replica clockwise, wrapping to the first *)
Theorem c17_get_first_clockwise : forall hash digest reps r names key,
  ring_get hash (ring_add hash digest reps r names) key =
  get_spec hash (rkeys (ring_add hash digest reps r names)) key.
Proof. intros hash digest reps r names key. apply (ring_get_spec hash digest), ring_add_sorted. Qed.
Print Assumptions c17_get_first_clockwise.

(* every name maps to exactly one live node *)
Theorem c17_ring_total : forall hash digest reps ns key,
  ns <> [] -> (0 < reps)%Z -> In (ring_get hash (ring_of hash digest reps ns) key) ns.
Proof. exact ring_total. Qed.
Print Assumptions c17_ring_total.

Theorem c17_exactly_one_owner : forall hash digest reps ns topic,
  ns <> [] -> (0 < reps)%Z ->
  exists owner, In owner ns /\
    forall this, is_remote_topic hash (ring_of hash digest reps ns) this topic = false <-> this = owner.
Proof.
  intros hash digest reps ns topic Hns Hr. exists (ring_get hash (ring_of hash digest reps ns) topic).
  split; [now apply ring_total|]. intros this. rewrite is_remote_false. split; congruence.
Qed.
Print Assumptions c17_exactly_one_owner.

(* adding a node (listed anywhere) moves names only to it *)
Theorem c17_ring_minimal_add : forall hash digest reps n ns ms key,
  Permutation ms (n :: ns) ->
  ring_get hash (ring_of hash digest reps ms) key = ring_get hash (ring_of hash digest reps ns) key \/
  ring_get hash (ring_of hash digest reps ms) key = n.
Proof. exact ring_minimal_add. Qed.
Print Assumptions c17_ring_minimal_add.

(* the same when the node is added by a second Add call on the live ring *)
Theorem c17_ring_minimal_add_incremental : forall hash digest reps n ns key,
  let r := ring_of hash digest reps ns in
  ring_get hash (ring_add hash digest reps r [n]) key = ring_get hash r key \/
  ring_get hash (ring_add hash digest reps r [n]) key = n.
Proof.
  intros hash digest reps n ns key r. unfold r, ring_of at 1 3. rewrite ring_add_add.
  apply (ring_minimal_add hash digest reps n ns). cbn. symmetry. apply Permutation_cons_append.
Qed.
Print Assumptions c17_ring_minimal_add_incremental.

(* two Add calls = one Add call with both lists *)
Theorem c17_ring_add_add : forall hash digest reps r a b,
  ring_add hash digest reps (ring_add hash digest reps r a) b = ring_add hash digest reps r (a ++ b).
Proof. exact ring_add_add. Qed.
Print Assumptions c17_ring_add_add.

(* removing a node moves only the names it owned *)
Theorem c17_ring_minimal_remove : forall hash digest reps n ns key,
  ring_get hash (ring_of hash digest reps ns) key <> n ->
  ring_get hash (ring_of hash digest reps (without n ns)) key =
  ring_get hash (ring_of hash digest reps ns) key.
Proof. exact ring_minimal_remove. Qed.
Print Assumptions c17_ring_minimal_remove.

(* the signature is the digest of the sorted keys: 4 little-endian hash bytes
   then the node name, per key, in ring order *)
Theorem c17_signature_determined : forall hash digest reps r names,
  ring_signature (ring_add hash digest reps r names) =
  digest (sig_preimage (rkeys (ring_add hash digest reps r names))).
Proof. exact ring_add_signature. Qed.
Print Assumptions c17_signature_determined.

(* the gate of Cluster.TopicMaster / Cluster.Route: a request stamped with a
   different signature is rejected, one with the same signature passes *)
Theorem c17_sig_gate : forall (r : ring) (s : str),
  (s <> ring_signature r -> sig_gate r s = false) /\ (sig_gate r s = true <-> s = ring_signature r).
Proof. intros r s. exact (conj (sig_gate_refuses r s) (sig_gate_accepts r s)). Qed.
Print Assumptions c17_sig_gate.

(* nodes whose rings differ refuse each other, as far as the digest tells the
   two pre-images apart (FNV-128a is not injective; the hypothesis is the
   absence of a collision on these two inputs) *)
Theorem c17_sig_gate_rings : forall hash digest reps r1 ns1 r2 ns2,
  let a := ring_add hash digest reps r1 ns1 in
  let b := ring_add hash digest reps r2 ns2 in
  (digest (sig_preimage (rkeys a)) = digest (sig_preimage (rkeys b)) ->
     sig_preimage (rkeys a) = sig_preimage (rkeys b)) ->
  sig_preimage (rkeys a) <> sig_preimage (rkeys b) ->
  sig_gate b (ring_signature a) = false /\ sig_gate a (ring_signature b) = false.
Proof.
  intros hash digest reps r1 ns1 r2 ns2 a b Hinj Hne.
  split; apply sig_gate_refuses; unfold a, b; rewrite !ring_add_signature; auto.
Qed.
Print Assumptions c17_sig_gate_rings.

(* the pre-image has no length framing: for SOME hash functions two different
   rings share it (and then every digest gives them the same signature although
   they place a key differently).  Shown for a constant hash 0x41414141; for
   crc32 this needs a 32-bit coincidence between configured node names. *)
Theorem c17_sig_preimage_unframed :
  exists (hash : str -> N) ns1 ns2 key, forall digest,
    ring_signature (ring_of hash digest 1 ns1) = ring_signature (ring_of hash digest 1 ns2) /\
    ring_get hash (ring_of hash digest 1 ns1) key <> ring_get hash (ring_of hash digest 1 ns2) key.
Proof.
  exists (fun _ => 1094795585%N), [[120]; [121]]%N, [[120; 65; 65; 65; 65; 121]]%N, [107%N].
  intros digest. split.
  - unfold ring_signature, ring_of, ring_add. cbn [rsig]. f_equal.
  - vm_compute. discriminate.
Qed.
Print Assumptions c17_sig_preimage_unframed.

(* hypotheses are satisfiable / the model computes *)
Example c17_ring_example :
  let hash := fun s : str => fold_left (fun a c => (a * 31 + c) mod 4294967296)%N s 7%N in
  let r := ring_of hash fnv_ascii85 3 [[97]; [98]; [49; 97]]%N in
  length (rkeys r) = 9 /\ In (ring_get hash r [116; 49]%N) [[97]; [98]; [49; 97]]%N /\
  length (ring_signature r) = 20.
Proof. vm_compute. repeat split; auto. Qed.

(* ------------------------------------------------------------------ *)
(* B. the election (model Sys/Election.v).  [run cfg evs] is the state after
   ANY finite sequence of events: heartbeat ticks, vote requests and replies
   delivered in any order, lost, or failed with an RPC error, election timeouts,
   health checks delivered in any order or dropped.  Any number of configured
   nodes (NoDup list); nothing is bounded. *)

(* a node's term never decreases *)
Theorem c17_el_term_monotone : forall cfg evs evs' n,
  term (loc (run cfg evs) n) <= term (loc (run cfg (evs ++ evs')) n).
Proof. intros cfg evs evs' n. rewrite run_app. apply fold_term_monotone. Qed.
Print Assumptions c17_el_term_monotone.

(* at most one vote per node per term: a vote once given (by a yes-reply or by
   standing as candidate) is never given to anybody else *)
Theorem c17_el_one_vote_per_term : forall cfg, NoDup (cfg_nodes cfg) ->
  forall evs evs' t m c c',
  votes (run cfg evs) t m = Some c -> votes (run cfg (evs ++ evs')) t m = Some c' -> c = c'.
Proof.
  intros cfg ND evs evs' t m c c' H1 H2. rewrite run_app in H2.
  rewrite (fold_votes_stable cfg ND evs' _ t m c (inv_run cfg ND evs) H1) in H2. congruence.
Qed.
Print Assumptions c17_el_one_vote_per_term.

(* the ghost [votes] is what the code does: a yes-reply comes only from a node
   whose term was below the request's and which had not voted in that term, it
   records the vote and raises the node's term to the request's *)
Theorem c17_el_grant : forall cfg, NoDup (cfg_nodes cfg) -> forall evs c t m rt,
  let s := run cfg evs in
  rpcs s c t m = ReqFlying ->
  rpcs (deliver_req cfg s c t m) c t m = RepFlying (Granted rt) ->
  votes s t m = None /\ votes (deliver_req cfg s c t m) t m = Some c /\ rt = t /\
  term (loc s m) < t /\ term (loc (deliver_req cfg s c t m) m) = t.
Proof. intros cfg ND evs c t m rt s. apply grant_spec. now apply inv_run. Qed.
Print Assumptions c17_el_grant.

(* the threshold as written, (len(c.nodes)+1)>>1 + 1 with c.nodes = the OTHER
   configured nodes, is the smallest strict majority of ALL configured nodes *)
Theorem c17_el_threshold : forall cfg, NoDup (cfg_nodes cfg) -> forall n, In n (cfg_nodes cfg) ->
  length (cfg_nodes cfg) < 2 * expect_votes cfg n /\ 2 * (expect_votes cfg n - 1) <= length (cfg_nodes cfg).
Proof. exact expect_votes_majority. Qed.
Print Assumptions c17_el_threshold.

(* a node that considers itself leader in term T holds the term-T votes of a
   strict majority of all configured nodes *)
Theorem c17_el_leader_has_majority : forall cfg, NoDup (cfg_nodes cfg) -> forall evs n,
  let s := run cfg evs in
  leader (loc s n) = Some n -> length (cfg_nodes cfg) < 2 * V cfg s n (term (loc s n)).
Proof. exact leader_has_majority. Qed.
Print Assumptions c17_el_leader_has_majority.

(* no two nodes consider themselves leader in the same term *)
Theorem c17_el_safety : forall cfg, NoDup (cfg_nodes cfg) -> forall evs n n',
  let s := run cfg evs in
  leader (loc s n) = Some n -> leader (loc s n') = Some n' ->
  term (loc s n) = term (loc s n') -> n = n'.
Proof. exact safety. Qed.
Print Assumptions c17_el_safety.

(* a health check of a lower term changes nothing at the receiver *)
Theorem c17_el_stale_ignored : forall s idx h n,
  nth_error (hnet s) idx = Some h -> h_term h < term (loc s (h_to h)) ->
  loc (deliver_health s idx) n = loc s n.
Proof.
  intros s idx h n Hn Hlt. unfold deliver_health. rewrite Hn.
  destruct (electing _); [reflexivity|]. cbn. unfold upd.
  destruct (Nat.eqb_spec n (h_to h)) as [->|]; [|reflexivity].
  unfold handle_health. apply Nat.ltb_lt in Hlt. now rewrite Hlt.
Qed.
Print Assumptions c17_el_stale_ignored.

(* an accepted health check: leader and term are adopted at once; the node list
   only on a check that finds rehashSkipped already set *)
Theorem c17_el_health_adopts : forall s idx h,
  nth_error (hnet s) idx = Some h ->
  let l := loc s (h_to h) in
  let l' := loc (deliver_health s idx) (h_to h) in
  electing l = None -> term l <= h_term h ->
  term l' = h_term h /\ leader l' = Some (h_leader h) /\ missed l' = 0 /\ active_nodes l' = active_nodes l /\
  (if list_eqb (h_sig h) (sig_of (ring_nodes l)) then
     ring_nodes l' = ring_nodes l /\ rehash_skipped l' = rehash_skipped l
   else if rehash_skipped l then ring_nodes l' = h_nodes h /\ rehash_skipped l' = false
   else ring_nodes l' = ring_nodes l /\ rehash_skipped l' = true).
Proof.
  intros s idx h Hn l l' El Ht. assert (E : l' = handle_health l h).
  { unfold l', deliver_health. rewrite Hn. fold l. rewrite El. cbn. unfold upd. now rewrite Nat.eqb_refl. }
  rewrite E. destruct (handle_health_adopts l h Ht) as (A & B & C & _ & D & _ & R). auto.
Qed.
Print Assumptions c17_el_health_adopts.

(* FINDING 1 (lag): "every node that accepts a health check adopts the ring
   signature" is false as stated: the first check with a new signature only sets
   rehashSkipped *)
Theorem c17_el_adopts_ring_refuted : ~ adopts_ring_statement cfg3.
Proof.
  intros H. specialize (H evs_lag 0 (mkH 1 0 1 [0; 1] [0; 1])).
  vm_compute in H. specialize (H eq_refl eq_refl (le_n 1)). discriminate H.
Qed.
Print Assumptions c17_el_adopts_ring_refuted.

(* FINDING 2: a newly elected leader advertises the signature of the ring it
   adopted from its predecessor together with its own, never updated,
   activeNodes; a follower with another ring then rehashes to a list that does
   not give the advertised signature, on every second check, for ever (all nodes
   up, all checks delivered and answered: shown for the first 41 rounds) *)
Theorem c17_el_leader_list_matches_ring_refuted : ~ leader_list_matches_ring_statement cfg3.
Proof.
  intros H. specialize (H evs_new_leader 1). vm_compute in H. specialize (H eq_refl). discriminate H.
Qed.
Print Assumptions c17_el_leader_list_matches_ring_refuted.

Theorem c17_el_ring_divergence_persists :
  forall k, k <= 40 -> diverged (run cfg3 (evs_new_leader ++ rounds (S k))) = true.
Proof.
  intros k Hk. unfold run. rewrite fold_left_app.
  apply (diverged_rounds_spec 41); [vm_compute; reflexivity|lia].
Qed.
Print Assumptions c17_el_ring_divergence_persists.

(* isPartitioned as written <-> the active list is no more than half of the configured nodes *)
Theorem c17_el_is_partitioned : forall cfg, NoDup (cfg_nodes cfg) -> forall s n, In n (cfg_nodes cfg) ->
  (is_partitioned cfg s n = true <-> 2 * length (active_nodes (loc s n)) <= length (cfg_nodes cfg)).
Proof. exact is_partitioned_iff. Qed.
Print Assumptions c17_el_is_partitioned.

(* a leader whose check of some peer fails for the configured number of times
   recomputes the active list = itself + the peers below the limit, and from
   then on answers client requests with 502 if that is no more than half *)
Theorem c17_el_partitioned_stops : forall cfg, NoDup (cfg_nodes cfg) -> forall s n d ok,
  In n (cfg_nodes cfg) ->
  electing (loc s n) = None -> leader (loc s n) = Some n ->
  (exists p, In p (peers cfg n) /\ mem p ok = false /\ S (fail_count (loc s n) p) = cfg_fail_limit cfg) ->
  let s' := tick cfg s n d ok in
  let reach := filter (fun p => fail_count (loc s' n) p <? cfg_fail_limit cfg) (peers cfg n) in
  active_nodes (loc s' n) = n :: reach /\
  (2 * (1 + length reach) <= length (cfg_nodes cfg) -> dispatch cfg s' n = Err502).
Proof. exact partitioned_stops. Qed.
Print Assumptions c17_el_partitioned_stops.

(* the healthCheck case never kills the run goroutine: with the nil check of
   gcProxySessionsForNode (fix applied to /repo, findings/C17_nilcheck.diff) the
   handler completes in every state, for every message, hence in every execution *)
Theorem c17_el_health_never_panics : forall cfg evs idx, health_panics cfg (run cfg evs) idx = false.
Proof. intros cfg evs idx. apply health_never_panics_any. Qed.
Print Assumptions c17_el_health_never_panics.

(* nor does the leader's own gcProxySessions call in sendHealthChecks (its list starts with itself) *)
Theorem c17_el_leader_gc_never_panics : forall repaired cfg n rest,
  leader_gc_panics repaired cfg n (n :: rest) = false.
Proof.
  intros repaired cfg n rest.
  unfold leader_gc_panics. destruct repaired; [now rewrite gc_proxy_sessions_repaired|].
  rewrite gc_proxy_sessions_unrepaired. cbn. now rewrite Nat.eqb_refl.
Qed.
Print Assumptions c17_el_leader_gc_never_panics.

(* FIXED FINDING: the code before the fix.  It panics exactly when the rehash
   branch is taken with a node list that does not contain the receiver ... *)
Theorem c17_el_health_panics_unrepaired_iff : forall cfg s idx,
  health_panics_unrepaired cfg s idx = true <->
  exists h, nth_error (hnet s) idx = Some h /\
    let l := loc s (h_to h) in
    electing l = None /\ term l <= h_term h /\
    list_eqb (h_sig h) (sig_of (ring_nodes l)) = false /\ rehash_skipped l = true /\
    mem (h_to h) (h_nodes h) = false.
Proof.
  intros cfg s idx.
  unfold health_panics_unrepaired, health_panics_gen.
  destruct (nth_error (hnet s) idx) as [h|]; [|split; [discriminate|intros (h & H & _); discriminate]].
  split.
  - destruct (electing (loc s (h_to h))) eqn:El; [discriminate|].
    rewrite gc_proxy_sessions_unrepaired, !andb_true_iff, !negb_true_iff, Nat.ltb_ge.
    intros [[[H1 H2] H3] H4]. exists h. cbv zeta. auto 10.
  - intros (h' & [= <-] & El & H1 & H2 & H3 & H4). cbv zeta in *. rewrite El.
    rewrite gc_proxy_sessions_unrepaired, !andb_true_iff, !negb_true_iff, Nat.ltb_ge. auto.
Qed.
Print Assumptions c17_el_health_panics_unrepaired_iff.

(* ... which is reachable: a follower dropped from the active list twice *)
Theorem c17_el_health_never_panics_unrepaired_refuted : ~ health_never_panics_unrepaired_statement cfg3.
Proof. intros H. specialize (H evs_flap 0). vm_compute in H. discriminate H. Qed.
Print Assumptions c17_el_health_never_panics_unrepaired_refuted.

(* an unrepaired execution that has not panicked is an execution of the repaired
   step function, so everything above holds for it too; e.g. safety *)
Theorem c17_el_safety_unrepaired : forall cfg, NoDup (cfg_nodes cfg) -> forall evs s n n',
  run_unrepaired cfg evs = Some s ->
  leader (loc s n) = Some n -> leader (loc s n') = Some n' ->
  term (loc s n) = term (loc s n') -> n = n'.
Proof. intros cfg ND evs s n n' H. apply run_unrepaired_some in H. subst. now apply safety. Qed.
Print Assumptions c17_el_safety_unrepaired.

(* ------------------------------------------------------------------ *)
(* C. the signature gate of the inter-node entry points (model Sys/Gate.v of
   Cluster.TopicMaster, Cluster.Route, Cluster.TopicProxy, makeClusterReq,
   routeToTopicMaster, topicProxyGone, routeToTopicIntraCluster, nodeForTopic,
   Cluster.rehash).  A node's state includes the multiplexing sessions that exist;
   [run] is the state after ANY finite sequence of rehashes (either side, any node
   list), honest sends, arbitrary messages put on the wire, hub changes, deliveries
   (in any order, after any delay) and drops.  [sigf]/[getf] are the ring's
   Signature()/Get() as functions of the node list: universally quantified in C.1,
   instantiated with the ring of part A in C.2. *)

(* C.1 a request for a topic (not the proxy's tear-down notice), from a configured node,
   whose signature is not the receiver's CURRENT one is rejected and leaves the state as it
   was - in every state, i.e. whether or not the multiplexing session of (topic, node) already
   exists *)
Theorem c17_gate_master_refuses : forall sigf s m full,
  q_gone m = false -> smem (q_node m) (n_peers s) = true -> q_sig m <> cur_sig sigf s ->
  topic_master sigf s m full = (s, ORejectedSig).
Proof. exact topic_master_refuses. Qed.
Print Assumptions c17_gate_master_refuses.

(* exact condition of the refusal; it reads neither the session store nor the hub *)
Theorem c17_gate_master_rejected_iff : forall sigf s m full,
  snd (topic_master sigf s m full) = ORejectedSig <->
  (smem (q_node m) (n_peers s) = true /\ q_gone m = false /\ q_sig m <> cur_sig sigf s).
Proof. exact topic_master_rejected_sig_iff. Qed.
Print Assumptions c17_gate_master_rejected_iff.

Theorem c17_gate_ignores_sessions : forall sigf s1 s2 m full,
  n_peers s1 = n_peers s2 -> n_ring s1 = n_ring s2 ->
  (snd (topic_master sigf s1 m full) = ORejectedSig <-> snd (topic_master sigf s2 m full) = ORejectedSig).
Proof.
  intros sigf s1 s2 m full Hp Hr. rewrite !topic_master_rejected_sig_iff. unfold cur_sig. rewrite Hp, Hr. tauto.
Qed.
Print Assumptions c17_gate_ignores_sessions.

(* whatever TopicMaster does behind the gate (create the session, hand the request to the hub
   or the topic, answer 500, panic) it does for a request stamped with the current signature *)
Theorem c17_gate_master_passed : forall sigf s m full s' o,
  topic_master sigf s m full = (s', o) -> passed_gate o = true -> q_sig m = cur_sig sigf s.
Proof. exact topic_master_passed_sig. Qed.
Print Assumptions c17_gate_master_passed.

(* a refusal creates no session and stops none *)
Theorem c17_gate_master_refusal_no_effect : forall sigf s m full s' o,
  topic_master sigf s m full = (s', o) -> (o = ORejectedSig \/ o = OUnknownNode) -> s' = s.
Proof.
  intros sigf s m full s' o H Ho.
  destruct (smem (q_node m) (n_peers s)) eqn:Hn; [|unfold topic_master in H; rewrite Hn in H; inversion H; auto].
  destruct (q_gone m) eqn:Hg;
    [unfold topic_master in H; rewrite Hn, Hg in H; inversion H; subst; destruct Ho; discriminate|].
  destruct (seqb (q_sig m) (cur_sig sigf s)) eqn:E;
    [|unfold topic_master in H; rewrite Hn, Hg, E in H; inversion H; auto].
  destruct (topic_master_behind_gate sigf s m full Hn Hg E) as (o' & Eo & H1 & H2).
  rewrite Eo in H. inversion H; subst. destruct Ho; contradiction.
Qed.
Print Assumptions c17_gate_master_refusal_no_effect.

(* Cluster.Route *)
Theorem c17_gate_route : forall sigf s r full,
  (route sigf s r full = ORejectedSig <-> r_sig r <> cur_sig sigf s) /\
  (passed_gate (route sigf s r full) = true -> r_sig r = cur_sig sigf s).
Proof. intros sigf s r full. exact (conj (route_rejected_sig_iff sigf s r full) (route_passed_sig sigf s r full)). Qed.
Print Assumptions c17_gate_route.

(* every history, every message with a Signature field, whoever made it: it gets past the
   gate of its receiver only with the signature the receiver has at the moment of delivery *)
Theorem c17_gate_delivery : forall sigf getf n0 evs k full f s o b sg,
  let n := fst (grun sigf getf n0 evs) in
  nth_error (flight n) k = Some f -> find_node (msg_to (f_msg f)) (nodes n) = Some s ->
  snd (gstep sigf getf n (EDeliver k full)) = ObDelivered o b -> passed_gate o = true ->
  msg_sig (f_msg f) = Some sg -> sg = cur_sig sigf s.
Proof. intros sigf getf n0 evs. exact (deliver_gate sigf getf (fst (grun sigf getf n0 evs))). Qed.
Print Assumptions c17_gate_delivery.

(* ... and with any other signature it is rejected and the receiver is left as it was *)
Theorem c17_gate_delivery_refused : forall sigf getf n0 evs k full f s,
  let n := fst (grun sigf getf n0 evs) in
  nth_error (flight n) k = Some f -> find_node (msg_to (f_msg f)) (nodes n) = Some s ->
  match f_msg f with
  | MReq _ q => q_gone q = false /\ smem (q_node q) (n_peers s) = true /\ q_sig q <> cur_sig sigf s
  | MRoute _ r => r_sig r <> cur_sig sigf s
  | MResp _ _ => False
  end ->
  exists b, snd (gstep sigf getf n (EDeliver k full)) = ObDelivered ORejectedSig b /\
            find_node (msg_to (f_msg f)) (nodes (fst (gstep sigf getf n (EDeliver k full)))) = Some s.
Proof. intros sigf getf n0 evs. exact (deliver_refused sigf getf (fst (grun sigf getf n0 evs))). Qed.
Print Assumptions c17_gate_delivery_refused.

(* end to end: a message made by makeClusterReq / routeToTopicIntraCluster when its sender's
   ring was built from the node list L, delivered after any delay and any rehashes on either
   side to a receiver whose ring is then built from R, passes only if Signature(L) = Signature(R) *)
Theorem c17_gate_history : forall sigf getf names evs k full f s o b L,
  let n := fst (grun sigf getf (init_net names) evs) in
  nth_error (flight n) k = Some f -> find_node (msg_to (f_msg f)) (nodes n) = Some s ->
  snd (gstep sigf getf n (EDeliver k full)) = ObDelivered o b -> passed_gate o = true ->
  f_origin f = Some L -> sigf L = sigf (n_ring s).
Proof.
  intros sigf getf names evs k full f s o b L.
  exact (history_gate sigf getf (init_net names) evs k full f s o b L (init_honest sigf names)).
Qed.
Print Assumptions c17_gate_history.

(* the ring a node compares with is the node list of its last rehash: a rehash installs its
   list, and no other event (deliveries, session creation, hub changes, other nodes' rehashes) changes it *)
Theorem c17_gate_ring_is_last_rehash : forall sigf getf n,
  (forall i l s s', find_node i (nodes n) = Some s ->
     find_node i (nodes (fst (gstep sigf getf n (ERehash i (Some l))))) = Some s' -> n_ring s' = l) /\
  (forall e j s s', find_node j (nodes n) = Some s -> find_node j (nodes (fst (gstep sigf getf n e))) = Some s' ->
     (forall ns, e <> ERehash j ns) -> n_ring s' = n_ring s).
Proof.
  intros sigf getf n. split.
  - intros i l s s'. exact (rehash_installs sigf getf n i l s s').
  - intros e j s s'. exact (ring_changes_only_by_rehash sigf getf n e j s s').
Qed.
Print Assumptions c17_gate_ring_is_last_rehash.

(* "every inter-node entry point that hands something to a topic checks the ring" is FALSE as
   stated: Cluster.TopicProxy (master -> proxy responses) has no signature to check *)
Theorem c17_gate_all_entry_points_refuted : ~ all_entry_points_gated_statement.
Proof.
  intros H.
  specialize (H (fun l => concat l) (fun _ _ => []) w_net 0 false
                (mkF (MResp w_b (mkResp w_t true)) None) w_node DProxy false eq_refl eq_refl eq_refl).
  cbn in H. discriminate.
Qed.
Print Assumptions c17_gate_all_entry_points_refuted.

(* what holds: every entry point whose message has a Signature field (TopicMaster, Route) *)
Theorem c17_gate_all_entry_points_partial :
  forall (sigf : list str -> str) (getf : list str -> str -> str) n k full f s d b,
    msg_sig (f_msg f) <> None ->
    nth_error (flight n) k = Some f -> find_node (msg_to (f_msg f)) (nodes n) = Some s ->
    snd (gstep sigf getf n (EDeliver k full)) = ObDelivered (ODelivered d) b ->
    msg_sig (f_msg f) = Some (cur_sig sigf s).
Proof.
  intros sigf getf n k full f s d b Hsome Hk Hs Hst.
  destruct (msg_sig (f_msg f)) as [sg|] eqn:E; [|congruence].
  f_equal. exact (deliver_gate sigf getf n k full f s (ODelivered d) b sg Hk Hs Hst eq_refl E).
Qed.
Print Assumptions c17_gate_all_entry_points_partial.

(* "every request that carries another signature is rejected" is FALSE as stated: the proxy's
   tear-down notice (Gone) is honoured - the multiplexing sessions of that proxy are stopped -
   before the signature is looked at.  The version that holds is c17_gate_master_refuses
   (hypothesis q_gone m = false), restated here *)
Theorem c17_gate_every_mismatch_rejected_refuted : ~ every_mismatch_rejected_statement.
Proof.
  intros H.
  specialize (H (fun l => concat l) w_node (mkReq [97]%N [] ProxyReqLeave w_t None false true) false eq_refl).
  cbn in H. assert (E : OGone = ORejectedSig) by (apply H; discriminate). discriminate.
Qed.
Print Assumptions c17_gate_every_mismatch_rejected_refuted.

Theorem c17_gate_every_mismatch_rejected_partial : forall (sigf : list str -> str) s m full,
  q_gone m = false ->
  smem (q_node m) (n_peers s) = true -> q_sig m <> cur_sig sigf s ->
  snd (topic_master sigf s m full) = ORejectedSig.
Proof. intros sigf s m full Hg Hn Hs. rewrite (topic_master_refuses sigf s m full Hg Hn Hs). reflexivity. Qed.
Print Assumptions c17_gate_every_mismatch_rejected_partial.

(* C.2 with the ring of part A (any hash, any digest, any replica count).  Nodes whose rings
   differ refuse each other's topic traffic: after any history, an honest message made under
   the node list L passes the gate of a receiver whose ring is built from [n_ring s] only if the
   two rings have the same signature pre-image - as far as the digest tells these two pre-images
   apart (same explicit hypothesis as c17_sig_gate_rings) *)
Theorem c17_gate_rings_history : forall hash digest reps names evs k full f s o b L,
  let sigf := ring_sigf hash digest reps in
  let getf := ring_getf hash digest reps in
  let n := fst (grun sigf getf (init_net names) evs) in
  nth_error (flight n) k = Some f -> find_node (msg_to (f_msg f)) (nodes n) = Some s ->
  snd (gstep sigf getf n (EDeliver k full)) = ObDelivered o b -> passed_gate o = true ->
  f_origin f = Some L ->
  (digest (ring_pre hash digest reps L) = digest (ring_pre hash digest reps (n_ring s)) ->
     ring_pre hash digest reps L = ring_pre hash digest reps (n_ring s)) ->
  ring_pre hash digest reps L = ring_pre hash digest reps (n_ring s).
Proof.
  intros hash digest reps names evs k full f s o b L.
  exact (history_gate_rings hash digest reps (init_net names) evs k full f s o b L
           (init_honest (ring_sigf hash digest reps) names)).
Qed.
Print Assumptions c17_gate_rings_history.

(* the refusal, in every state (any set of multiplexing sessions) *)
Theorem c17_gate_rings_differ_refused : forall hash digest reps s m r full L,
  ring_pre hash digest reps L <> ring_pre hash digest reps (n_ring s) ->
  (digest (ring_pre hash digest reps L) = digest (ring_pre hash digest reps (n_ring s)) ->
     ring_pre hash digest reps L = ring_pre hash digest reps (n_ring s)) ->
  (q_gone m = false -> smem (q_node m) (n_peers s) = true -> q_sig m = ring_sigf hash digest reps L ->
     topic_master (ring_sigf hash digest reps) s m full = (s, ORejectedSig)) /\
  (r_sig r = ring_sigf hash digest reps L -> route (ring_sigf hash digest reps) s r full = ORejectedSig).
Proof.
  intros hash digest reps s m r full L Hne Hinj. split.
  - intros Hg Hn Hq. exact (rings_differ_refused hash digest reps s m full L Hg Hn Hq Hne Hinj).
  - intros Hq. exact (rings_differ_route_refused hash digest reps s r full L Hq Hne Hinj).
Qed.
Print Assumptions c17_gate_rings_differ_refused.

(* and the same live nodes, listed in any order on the two sides, are never refused *)
Theorem c17_gate_same_nodes_accepted : forall hash digest reps s m full L,
  Permutation L (n_ring s) -> q_sig m = ring_sigf hash digest reps L ->
  snd (topic_master (ring_sigf hash digest reps) s m full) <> ORejectedSig.
Proof.
  intros hash digest reps s m full L HP Hq. apply topic_master_accepts. rewrite Hq. unfold cur_sig, ring_sigf.
  rewrite (ring_perm hash digest reps _ _ HP). reflexivity.
Qed.
Print Assumptions c17_gate_same_nodes_accepted.

(* the model computes: first contact under equal rings (session created), the master rehashes,
   the proxy's next request under the old ring is rejected although the session exists, the
   proxy rehashes to the same nodes in another order, its next request is delivered *)
Example c17_gate_example :
  snd (grun x_sigf x_getf (init_net [x_a; x_b; x_c]) x_evs) =
  [ObNone;
   ObSent x_a [3%N]; ObDelivered (ODelivered DMeta) true;
   ObRehashed [2%N];
   ObSent x_a [3%N]; ObDelivered ORejectedSig true;
   ObRehashed [2%N];
   ObSent x_a [2%N]; ObDelivered (ODelivered DMeta) true].
Proof. vm_compute. reflexivity. Qed.

(* ------------------------------------------------------------------ *)
(* D. the health-check branch guard by guard, what an accepted check means for
   later vote requests, and the partition guard of Session.dispatch (models
   Sys/Election.v + Sys/ElectionC17b.v).  The statements tell apart the changes C17-r2-2
   (term of an accepted check adopted only when the leader NAME changes) and
   C17-r2-3 ({note} served by a partitioned node). *)

(* the healthCheck case for EVERY local state and EVERY message.  Stale leaders are ignored: *)
Theorem c17_el_health_stale_local : forall l h, accepts_c17b l h = false -> handle_health l h = l.
Proof. exact handle_health_stale. Qed.
Print Assumptions c17_el_health_stale_local.

(* ... and every other check is adopted: term and leader at once, whatever leader the node
   followed before (none / the same name / another name) and whether the term is its own or a
   later one; the missed-heartbeat counter restarts; activeNodes and failCount are not touched;
   the node list as in c17_el_health_adopts *)
Theorem c17_el_health_adopts_local : forall l h, accepts_c17b l h = true ->
  let l' := handle_health l h in
  term l' = h_term h /\ leader l' = Some (h_leader h) /\ missed l' = 0 /\ electing l' = electing l /\
  active_nodes l' = active_nodes l /\ fail_count l' = fail_count l /\
  (if list_eqb (h_sig h) (sig_of (ring_nodes l)) then
     ring_nodes l' = ring_nodes l /\ rehash_skipped l' = rehash_skipped l
   else if rehash_skipped l then ring_nodes l' = h_nodes h /\ rehash_skipped l' = false
   else ring_nodes l' = ring_nodes l /\ rehash_skipped l' = true).
Proof. exact handle_health_accepts. Qed.
Print Assumptions c17_el_health_adopts_local.

(* the guards of the branch one by one: (term <) ignored; (term >) adopted also when the leader
   name is the one already followed; (term =, same leader) nothing to change; (term =, other or no
   leader) leader adopted *)
Theorem c17_el_health_guard_table : forall l h,
  (h_term h < term l -> handle_health l h = l) /\
  (term l < h_term h ->
     term (handle_health l h) = h_term h /\ leader (handle_health l h) = Some (h_leader h)) /\
  (term l = h_term h -> leader l = Some (h_leader h) ->
     term (handle_health l h) = term l /\ leader (handle_health l h) = leader l) /\
  (term l = h_term h -> leader l <> Some (h_leader h) ->
     term (handle_health l h) = term l /\ leader (handle_health l h) = Some (h_leader h)).
Proof.
  intros l h.
  split; [|split; [|split]].
  - intros H. apply handle_health_stale. unfold accepts_c17b. apply Nat.ltb_lt in H. now rewrite H.
  - intros H. assert (A : accepts_c17b l h = true) by (unfold accepts_c17b; apply negb_true_iff, Nat.ltb_ge; lia).
    destruct (handle_health_accepts l h A) as (T & L & _). auto.
  - intros H Hl. assert (A : accepts_c17b l h = true) by (unfold accepts_c17b; apply negb_true_iff, Nat.ltb_ge; lia).
    destruct (handle_health_accepts l h A) as (T & L & _). rewrite T, L, H, Hl. auto.
  - intros H Hl. assert (A : accepts_c17b l h = true) by (unfold accepts_c17b; apply negb_true_iff, Nat.ltb_ge; lia).
    destruct (handle_health_accepts l h A) as (T & L & _). rewrite T, L, H. auto.
Qed.
Print Assumptions c17_el_health_guard_table.

(* a vote request of a term that is not above the node's term is refused and changes nothing *)
Theorem c17_el_vote_refused : forall cfg s c t m,
  t <= term (loc s m) -> rpcs s c t m = ReqFlying ->
  let s' := deliver_req cfg s c t m in
  (forall rt, rpcs s' c t m <> RepFlying (Granted rt)) /\
  (forall n, loc s' n = loc s n) /\ (forall t' m', votes s' t' m' = votes s t' m').
Proof. exact deliver_req_refuses. Qed.
Print Assumptions c17_el_vote_refused.

(* consequence over ALL continuations: once a node has accepted a health check of term T, no
   vote request of a term <= T is ever granted by it again, whatever happens in between (in
   particular the delayed request of an election the node missed) *)
Theorem c17_el_no_stale_vote_after_health : forall cfg s idx h evs c t,
  nth_error (hnet s) idx = Some h -> electing (loc s (h_to h)) = None ->
  accepts_c17b (loc s (h_to h)) h = true ->
  t <= h_term h ->
  let s1 := fold_left (step cfg) evs (deliver_health s idx) in
  rpcs s1 c t (h_to h) = ReqFlying ->
  let s2 := deliver_req cfg s1 c t (h_to h) in
  (forall rt, rpcs s2 c t (h_to h) <> RepFlying (Granted rt)) /\
  (forall n, loc s2 n = loc s1 n) /\ (forall t' m', votes s2 t' m' = votes s1 t' m').
Proof.
  intros cfg s idx h evs c t Hn El A Ht s1 R. apply deliver_req_refuses; [|exact R].
  destruct (deliver_health_term s idx h Hn El A) as [T _].
  pose proof (fold_term_monotone cfg evs (deliver_health s idx) (h_to h)) as Hm. fold s1 in Hm. lia.
Qed.
Print Assumptions c17_el_no_stale_vote_after_health.

(* the hypotheses are satisfiable in an execution: 5 nodes, node 1 follows leader 0 of term 1 and
   hears nothing of the elections of terms 2 (candidate 4, failed) and 3 (0 again); 0's check of term
   3 is accepted (same leader name, later term), and the delayed request of term 2 is refused *)
Example c17_el_same_leader_later_term :
  let s := run cfg5_c17b evs_same_leader_c17b in
  (term (loc s 1), leader (loc s 1)) = (1, Some 0) /\
  (exists h, nth_error (hnet s) 0 = Some h /\ h_to h = 1 /\ h_leader h = 0 /\ h_term h = 3) /\
  rpcs s 4 2 1 = ReqFlying /\
  let s1 := deliver_health s 0 in
  (term (loc s1 1), leader (loc s1 1)) = (3, Some 0) /\
  vote_answer_c17b (deliver_req cfg5_c17b s1 4 2 1) 4 2 1 = Some (false, 3).
Proof. vm_compute. repeat split. eexists. repeat split. Qed.

(* sendHealthChecks keeps, in EVERY execution and on every node, as many entries in activeNodes
   as this node plus its peers whose failCount is below node_fail_after (node_fail_after >= 1) *)
Theorem c17_part_active_tracks_failcount : forall cfg, 1 <= cfg_fail_limit cfg -> forall evs n,
  length (active_nodes (loc (run cfg evs) n)) = S (length (below_limit_c17b cfg (loc (run cfg evs) n) n)).
Proof. exact active_tracks_failcount. Qed.
Print Assumptions c17_part_active_tracks_failcount.

(* one heartbeat of a leader: failCount = consecutive failed checks of that peer *)
Theorem c17_part_failcount : forall cfg, NoDup (cfg_nodes cfg) -> forall s n d ok p,
  In n (cfg_nodes cfg) -> electing (loc s n) = None -> leader (loc s n) = Some n ->
  fail_count (loc (tick cfg s n d ok) n) p =
  if mem p (peers cfg n) then (if mem p ok then 0 else S (fail_count (loc s n) p)) else fail_count (loc s n) p.
Proof. exact leader_tick_failcount. Qed.
Print Assumptions c17_part_failcount.

(* isPartitioned in every reachable state <-> the node and the peers it has not failed
   node_fail_after times in a row are no more than half of the configured nodes *)
Theorem c17_part_iff : forall cfg, 1 <= cfg_fail_limit cfg -> NoDup (cfg_nodes cfg) -> forall evs n,
  In n (cfg_nodes cfg) ->
  (is_partitioned cfg (run cfg evs) n = true <->
   2 * S (length (below_limit_c17b cfg (loc (run cfg evs) n) n)) <= length (cfg_nodes cfg)).
Proof. exact partitioned_iff_reach. Qed.
Print Assumptions c17_part_iff.

(* Session.dispatch on a partitioned node: NO request - none of the ten kinds, with or without
   extra.asUser, from a root session or not - reaches its handler ... *)
Theorem c17_part_never_handles : forall root r k, dispatch_c17b true root r <> HandlerD k.
Proof. exact dispatch_partitioned_never_handles_c17b. Qed.
Print Assumptions c17_part_never_handles.

(* ... every request that gets as far as the guard is answered by exactly one {ctrl 502} ({note}
   included: the code answers it too), and what is rejected before the guard (extra.asUser of a
   non-root session 403, unparsable 400, no kind 400) is rejected the same way as on a healthy node *)
Theorem c17_part_502 : forall root r,
  well_formed_c17b root r = true -> dispatch_c17b true root r = RepliedD 502.
Proof. exact dispatch_partitioned_502_c17b. Qed.
Print Assumptions c17_part_502.

Theorem c17_part_front_unchanged : forall p root r,
  well_formed_c17b root r = false -> dispatch_c17b p root r = dispatch_c17b false root r.
Proof.
  intros p root r W. destruct (dispatch_ill_formed_c17b root r W) as (c & E). rewrite !E. reflexivity.
Qed.
Print Assumptions c17_part_front_unchanged.

Theorem c17_part_all_ten_kinds : forall k, In k all_kinds_c17b.
Proof. intros k. destruct k; cbn; tauto. Qed.
Print Assumptions c17_part_all_ten_kinds.

(* the clause, over all executions: a node that (with the peers below the limit) reaches no more
   than half of the configured nodes serves nothing ... *)
Theorem c17_part_stops_serving : forall cfg, 1 <= cfg_fail_limit cfg -> NoDup (cfg_nodes cfg) ->
  forall evs n root r, In n (cfg_nodes cfg) ->
  2 * S (length (below_limit_c17b cfg (loc (run cfg evs) n) n)) <= length (cfg_nodes cfg) ->
  (forall k, client_request_c17b cfg (run cfg evs) n root r <> HandlerD k) /\
  (well_formed_c17b root r = true -> client_request_c17b cfg (run cfg evs) n root r = RepliedD 502).
Proof. exact partitioned_stops_serving. Qed.
Print Assumptions c17_part_stops_serving.

(* ... and a node that reaches more than half serves every well-formed request (no 502) *)
Theorem c17_part_healthy_serves : forall cfg, 1 <= cfg_fail_limit cfg -> NoDup (cfg_nodes cfg) ->
  forall evs n root r k, In n (cfg_nodes cfg) ->
  length (cfg_nodes cfg) < 2 * S (length (below_limit_c17b cfg (loc (run cfg evs) n) n)) ->
  well_formed_c17b root r = true -> rq_kind r = Some k ->
  client_request_c17b cfg (run cfg evs) n root r = HandlerD k.
Proof.
  intros cfg Hl ND evs n root r k Hin Hmaj Hwf Hk. unfold client_request_c17b.
  destruct (is_partitioned cfg (run cfg evs) n) eqn:P.
  - apply (partitioned_iff_reach cfg Hl ND evs n Hin) in P. lia.
  - now apply dispatch_healthy_handles_c17b.
Qed.
Print Assumptions c17_part_healthy_serves.

(* as the property words it: a leader (of any reachable state) none of whose peers answers for
   node_fail_after heartbeats in a row is partitioned and refuses every client request *)
Theorem c17_part_lonely_leader_stops : forall cfg,
  NoDup (cfg_nodes cfg) -> 1 <= cfg_fail_limit cfg -> 2 <= length (cfg_nodes cfg) ->
  forall evs n ds, In n (cfg_nodes cfg) ->
  electing (loc (run cfg evs) n) = None -> leader (loc (run cfg evs) n) = Some n ->
  cfg_fail_limit cfg <= length ds ->
  let evs' := evs ++ map (fun d => Tick n d []) ds in
  is_partitioned cfg (run cfg evs') n = true /\
  forall root r, (forall k, client_request_c17b cfg (run cfg evs') n root r <> HandlerD k) /\
                 (well_formed_c17b root r = true -> client_request_c17b cfg (run cfg evs') n root r = RepliedD 502).
Proof.
  intros cfg ND Hl H2 evs n ds Hin El Ld Hk evs'.
  assert (Hrun : run cfg evs' = silent_ticks cfg n ds (run cfg evs)).
  { unfold evs'. rewrite run_app. generalize (run cfg evs). clear.
    induction ds as [|d ds IH]; intros s; cbn; [reflexivity|]. apply IH. }
  destruct (silent_ticks_spec cfg Hl ND n ds (run cfg evs) Hin El Ld) as (_ & _ & Hfc).
  assert (Hbl : below_limit_c17b cfg (loc (run cfg evs') n) n = []).
  { unfold below_limit_c17b. rewrite Hrun.
    destruct (filter _ _) as [|p rest] eqn:E; [reflexivity|].
    assert (Hp : In p (filter (fun p0 => fail_count (loc (silent_ticks cfg n ds (run cfg evs)) n) p0 <? cfg_fail_limit cfg)
                              (peers cfg n))) by (rewrite E; left; reflexivity).
    apply filter_In in Hp as [Hp1 Hp2]. rewrite (Hfc p Hp1) in Hp2. apply Nat.ltb_lt in Hp2. lia. }
  assert (Hhalf : 2 * S (length (below_limit_c17b cfg (loc (run cfg evs') n) n)) <= length (cfg_nodes cfg))
    by (rewrite Hbl; cbn; lia).
  split.
  - now apply (partitioned_iff_reach cfg Hl ND evs' n Hin).
  - intros root r. now apply partitioned_stops_serving.
Qed.
Print Assumptions c17_part_lonely_leader_stops.

(* ------------------------------------------------------------------ *)
(* E. one run of electLeader over the replies that actually arrive (model
   Sys/VoteTallyC17e.v; it tells apart the change C17-r4-1 - one response struct
   shared by all Cluster.Vote calls).  [c] = the candidate: its name, its
   term and leader on entry, c.nodes with their connected flags (ANY number of nodes);
   [arr] = the replies of the connected nodes as electLeader finds them in call.Error /
   call.Reply, in their order of arrival on the done channel (YES with a term, NO with a
   term, error); a reply that is late is not in the list (the timer case ends the loop). *)

(* the candidate ends as leader of its new term or with no leader, and the term is the
   old one plus one, whatever arrives *)
Theorem c17_elect_outcome : forall c arr,
  oc_term (elect_c17e c arr) = S (cd_term c) /\
  (oc_leader (elect_c17e c arr) = Some (cd_self c) \/ oc_leader (elect_c17e c arr) = None).
Proof. intros c arr. exact (conj (term_eq_c17e c arr) (leader_cases_c17e c arr)). Qed.
Print Assumptions c17_elect_outcome.

(* the threshold as written is the smallest strict majority of ALL configured nodes
   (the len(c.nodes) others and the candidate), and it is the threshold of Sys/Election.v *)
Theorem c17_elect_threshold : forall nc,
  S nc < 2 * expect_c17e nc /\ 2 * (expect_c17e nc - 1) <= S nc.
Proof. exact expect_majority_c17e. Qed.
Print Assumptions c17_elect_threshold.

Theorem c17_elect_threshold_is_election : forall cfg n, expect_c17e (node_count cfg n) = expect_votes cfg n.
Proof. intros cfg n. reflexivity. Qed.
Print Assumptions c17_elect_threshold_is_election.

(* SAFETY, for every node count and EVERY reply list (any length, any order, any terms in
   the replies): a candidate that declares itself leader was given YES replies which,
   with its own vote, are a strict majority of all configured nodes.  NO replies and
   errors never count. *)
Theorem c17_leader_only_on_real_majority : forall c arr,
  oc_leader (elect_c17e c arr) = Some (cd_self c) ->
  expect_c17e (length (cd_peers c)) <= 1 + count_yes_c17e arr /\
  S (length (cd_peers c)) < 2 * (1 + count_yes_c17e arr).
Proof. exact leader_real_majority_c17e. Qed.
Print Assumptions c17_leader_only_on_real_majority.

(* ... whatever the ORDER of arrival: the count is that of the replies GIVEN *)
Theorem c17_leader_only_on_real_majority_any_order : forall c arr arr',
  Permutation arr arr' ->
  oc_leader (elect_c17e c arr') = Some (cd_self c) ->
  S (length (cd_peers c)) < 2 * (1 + count_yes_c17e arr).
Proof.
  intros c arr arr' P H. apply leader_real_majority_c17e in H. rewrite (count_yes_perm_c17e _ _ P). tauto.
Qed.
Print Assumptions c17_leader_only_on_real_majority_any_order.

(* EXACT: with at most one reply per request and no NO reply of a term above the
   candidate's, the candidate is leader IFF 1 + the YES replies given reach the threshold
   as written in the code; hence the outcome does not depend on the order of arrival *)
Theorem c17_leader_iff_real_majority : forall c arr,
  length (unconnected_c17e (cd_peers c) ++ arr) <= length (cd_peers c) ->
  (forall rt, In (RNo rt) arr -> rt <= S (cd_term c)) ->
  (oc_leader (elect_c17e c arr) = Some (cd_self c) <->
   expect_c17e (length (cd_peers c)) <= 1 + count_yes_c17e arr).
Proof. exact leader_iff_real_majority_c17e. Qed.
Print Assumptions c17_leader_iff_real_majority.

Theorem c17_leader_order_independent : forall c arr arr',
  Permutation arr arr' ->
  length (unconnected_c17e (cd_peers c) ++ arr) <= length (cd_peers c) ->
  (forall rt, In (RNo rt) arr -> rt <= S (cd_term c)) ->
  (oc_leader (elect_c17e c arr) = Some (cd_self c) <-> oc_leader (elect_c17e c arr') = Some (cd_self c)).
Proof.
  intros c arr arr' P Hlen Hno. rewrite (leader_iff_real_majority_c17e c arr Hlen Hno).
  rewrite (leader_iff_real_majority_c17e c arr').
  - rewrite (count_yes_perm_c17e _ _ P). reflexivity.
  - rewrite app_length in *. rewrite <- (Permutation_length P). exact Hlen.
  - intros rt H. apply Hno. apply (Permutation_in _ (Permutation_sym P) H).
Qed.
Print Assumptions c17_leader_order_independent.

(* the remaining branch: a NO reply of a later term, taken before the threshold is
   reached, ends the election without a leader whatever follows *)
Theorem c17_elect_abandons_on_later_term : forall c pre rt post,
  S (cd_term c) < rt ->
  (forall rt', In (RNo rt') pre -> rt' <= S (cd_term c)) ->
  length (unconnected_c17e (cd_peers c) ++ pre) < length (cd_peers c) ->
  1 + count_yes_c17e pre < expect_c17e (length (cd_peers c)) ->
  oc_leader (elect_c17e c (pre ++ RNo rt :: post)) = None.
Proof.
  intros c pre rt post Hrt Hno Hlen Hv.
  destruct (leader_cases_c17e c (pre ++ RNo rt :: post)) as [H|H]; [exfalso|exact H].
  apply leader_iff_votes_c17e in H. rewrite tally_eq_c17e, app_assoc in H.
  rewrite loop_abandon_c17e in H.
  - unfold expect_c17e in H. lia.
  - exact Hrt.
  - unfold expect_c17e. lia.
  - intros x Hx. apply in_app_or in Hx as [Hx|Hx]; [apply unconnected_in_c17e in Hx; discriminate|auto].
  - cbn [plus]. exact Hlen.
  - rewrite count_yes_app_c17e, unconnected_no_yes_c17e. exact Hv.
Qed.
Print Assumptions c17_elect_abandons_on_later_term.

(* the request side: every request carries the candidate's OWN name and its CURRENT
   (already incremented) term, and the connected nodes get exactly one request each *)
Theorem c17_vote_request_names_candidate_and_term : forall c arr,
  (forall p nm t, In (p, (nm, t)) (oc_requests (elect_c17e c arr)) ->
     nm = cd_self c /\ t = oc_term (elect_c17e c arr) /\ t = S (cd_term c) /\ In (p, true) (cd_peers c)) /\
  (forall p, In (p, true) (cd_peers c) -> In (p, (cd_self c, S (cd_term c))) (oc_requests (elect_c17e c arr))) /\
  map fst (oc_requests (elect_c17e c arr)) = map fst (filter snd (cd_peers c)).
Proof.
  intros c arr. exact (conj (requests_ok_c17e c arr) (conj (requests_all_c17e c arr) (requests_receivers_c17e c arr))).
Qed.
Print Assumptions c17_vote_request_names_candidate_and_term.

(* NO TWO LEADERS: two candidates (of one term) whose YES replies were really given by
   voters that give at most one vote ([ballot] is a function of the voter) and that
   voted for themselves: if both runs of electLeader end with a leader, it is the same
   node.  Any number of nodes, any replies, any orders of arrival. *)
Theorem c17_no_two_leaders_on_real_replies : forall nodes ballot c1 c2 ord1 ord2 rep1 rep2,
  view_ok_c17e nodes ballot c1 ord1 rep1 -> view_ok_c17e nodes ballot c2 ord2 rep2 ->
  oc_leader (elect_c17e c1 (map rep1 ord1)) = Some (cd_self c1) ->
  oc_leader (elect_c17e c2 (map rep2 ord2)) = Some (cd_self c2) ->
  cd_self c1 = cd_self c2.
Proof. exact no_two_leaders_c17e. Qed.
Print Assumptions c17_no_two_leaders_on_real_replies.

(* ... with the voters of part B: in ANY reachable state of the election model the ghost
   [votes s T] (at most one vote per node and term: c17_el_one_vote_per_term, c17_el_grant)
   is such a ballot *)
Theorem c17_no_two_leaders_election_votes : forall cfg evs T c1 c2 ord1 ord2 rep1 rep2,
  NoDup (cfg_nodes cfg) ->
  view_el_c17e cfg (run cfg evs) T c1 ord1 rep1 -> view_el_c17e cfg (run cfg evs) T c2 ord2 rep2 ->
  oc_leader (elect_c17e c1 (map rep1 ord1)) = Some (cd_self c1) ->
  oc_leader (elect_c17e c2 (map rep2 ord2)) = Some (cd_self c2) ->
  cd_self c1 = cd_self c2 /\ oc_term (elect_c17e c1 (map rep1 ord1)) = oc_term (elect_c17e c2 (map rep2 ord2)).
Proof.
  intros cfg evs T c1 c2 ord1 ord2 rep1 rep2 ND V1 V2 L1 L2. split.
  - eapply no_two_leaders_c17e; eauto using view_el_ok_c17e.
  - rewrite !term_eq_c17e, (ve_term _ _ _ _ _ _ V1), (ve_term _ _ _ _ _ _ V2). reflexivity.
Qed.
Print Assumptions c17_no_two_leaders_election_votes.

(* the hypotheses are satisfiable and the statements not vacuous: 5 nodes, candidate 0 of
   term 1; one YES and three NO replies in either order elect nobody, two YES replies do,
   and the loop stops at the reply that completes the majority *)
Example c17_elect_split_vote :
  oc_leader (elect_c17e demo_cand_c17e [RYes 1; RNo 1; RNo 1; RNo 1]) = None /\
  oc_leader (elect_c17e demo_cand_c17e [RNo 1; RNo 1; RNo 1; RYes 1]) = None /\
  oc_leader (elect_c17e demo_cand_c17e [RYes 1; RNo 1; RYes 1]) = Some 0 /\
  tl_taken (oc_tally (elect_c17e demo_cand_c17e [RYes 1; RNo 1; RYes 1; RNo 1])) = 3.
Proof. vm_compute. auto. Qed.
