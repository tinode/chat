(* C15  A peer-to-peer call follows one life cycle and ends exactly once.
   Theorems over the model Sys/Call.v (a statement-by-statement translation of
   server/calls.go and the call-related parts of topic.go / session.go / pres.go); the lemmas
   they use are in Sys/CallProofs.v and Sys/CallCatProofs.v.  Single-step theorems hold from EVERY
   state (any users, sessions, permissions), hence at every point of every history; history
   theorems are by induction over an arbitrary list of operations.

   The model follows the code WITH the repair findings/C15_deleted.diff (fix: handleCallEvent
   ignores a sender whose subscription is deleted); for it the full c15_roles_subscribed is
   proved, and the handler as it was is refuted (c15_roles_subscribed_unrepaired_refuted).
   Two parts of the property are REFUTED by the faithful model (and replayed on the real
   server, see findings/C15.md): they are kept as [_statement], with [_refuted] witnesses and
   [_partial] theorems whose extra hypothesis excludes exactly the trigger. *)
From Coq Require Import ZArith NArith List Bool.
From Tinode Require Import Sys.Call Sys.CallProofs Sys.CallCat Sys.CallCatProofs.
Import ListNotations.
Open Scope Z_scope.

(* ---- the invitation gate ------------------------------------------------------------- *)
(* gate_ok = configured /\ the author's session is attached /\ the author has W in want&given
   /\ no current call  (the topic is p2p: always, in this model).  Accepted: the call becomes
   current with the new message's id, 202.  Refused: nothing changes and the only output is one
   error code to the sender; busy -> exactly {ctrl 486}. *)
Theorem c15_gate : forall cfg st s content w st' os,
  live cfg st s ->
  step cfg st (OInvite s content w) = (st', os) ->
  (gate_ok cfg st s = true ->
     st' = invite_state cfg st s content w /\ In (s, FCtrl 202 (Some (lastid st + 1))) os) /\
  (gate_ok cfg st s = false ->
     st' = st /\ os = [(s, FCtrl (refusal_code cfg st s) None)]) /\
  (configured cfg = true -> mem s (attached st) = true -> current st <> None ->
     st' = st /\ os = [(s, FCtrl 486 None)]).
Proof. exact gate. Qed.
Print Assumptions c15_gate.

Theorem c15_call_starts_only_by_invitation : forall cfg st o st' os c',
  step cfg st o = (st', os) -> current st = None -> current st' = Some c' ->
  exists s content w, o = OInvite s content w /\ gate_ok cfg st s = true /\ st' = invite_state cfg st s content w.
Proof.
  intros cfg st o st' os c' Hs Hn Hc. destruct (slot_change_step _ _ _ _ _ Hs) as [[E _]|[[c [E _]]|[H|[s [p [c [_ [E _]]]]]]]].
  - rewrite Hn, Hc in E. discriminate.
  - rewrite Hn in E. discriminate.
  - exact H.
  - rewrite Hn in E. discriminate.
Qed.
Print Assumptions c15_call_starts_only_by_invitation.

(* ---- roles ---------------------------------------------------------------------------- *)
(* Either the event is ignored (no state change, at most an error code to the sender), or it
   names the current call, comes from a user who is a (not deleted) subscriber of the topic and
   respects the role table:
   ringing/accept before acceptance, not from the originator's session or user;
   offer/answer/ice-candidate after acceptance from one of the two party sessions;
   hang-up after acceptance from a party session, before it from the originating session or
   from the other user; unknown events never. *)
Theorem c15_roles : forall cfg st s e q p st' os,
  step cfg st (OEvent s e q p) = (st', os) ->
  (st' = st /\ quiet s os) \/
  exists c, current st = Some c /\ c_seq c = q /\ participant st (user_of cfg s) = true /\ role_ok cfg c s e.
Proof. exact roles. Qed.
Print Assumptions c15_roles.

(* an event that has any effect on the state comes from a user who is still a subscriber:
   from EVERY state, hence at every point of every history *)
Definition c15_roles_subscribed_statement : Prop :=
  forall cfg st s e q p st' os,
    step cfg st (OEvent s e q p) = (st', os) -> st' <> st -> participant st (user_of cfg s) = true.

Theorem c15_roles_subscribed : c15_roles_subscribed_statement.
Proof.
  intros cfg st s e q p st' os Hs Hne. destruct (roles _ _ _ _ _ _ _ _ Hs) as [[E _]|[c [_ [_ [Hu _]]]]]; [contradiction|exact Hu].
Qed.
Print Assumptions c15_roles_subscribed.

(* the same statement for the handler as it was before the repair (only `!userFound`), over
   histories: refuted - a participant who has unsubscribed still accepts the call *)
Definition c15_roles_subscribed_unrepaired_statement : Prop :=
  forall cfg a b ops s e q p st' os,
    let st := final_unrepaired cfg (init2 a b) ops in
    step_unrepaired cfg st (OEvent s e q p) = (st', os) -> st' <> st -> participant st (user_of cfg s) = true.

Definition cfg_w2 : config := mkCfg true [(1, 1); (3, 2); (4, 2)]%N.
Definition w2_ops : list op := [OAttach 1; OAttach 4; OInvite 1 101 0; OUnsub 4].
Definition w2_res := step_unrepaired cfg_w2 (final_unrepaired cfg_w2 (init2 1%N 2%N) w2_ops) (OEvent 3 EvAccept 1 2).
Example w2_step : step_unrepaired cfg_w2 (final_unrepaired cfg_w2 (init2 1%N 2%N) w2_ops) (OEvent 3 EvAccept 1 2) = (fst w2_res, snd w2_res).
Proof. vm_compute. reflexivity. Qed.
Theorem c15_roles_subscribed_unrepaired_refuted : ~ c15_roles_subscribed_unrepaired_statement.
Proof.
  intros H0.
  pose proof (H0 cfg_w2 1%N 2%N w2_ops 3%N EvAccept 1 2%N (fst w2_res) (snd w2_res)) as H. cbv zeta in H.
  specialize (H w2_step).
  assert (X : participant (final_unrepaired cfg_w2 (init2 1%N 2%N) w2_ops) (user_of cfg_w2 3%N) = false) by (vm_compute; reflexivity).
  assert (F : lastid (fst w2_res) <> lastid (final_unrepaired cfg_w2 (init2 1%N 2%N) w2_ops)) by (vm_compute; discriminate).
  rewrite H in X; [discriminate|]. intros E. apply F. rewrite E. reflexivity.
Qed.
Print Assumptions c15_roles_subscribed_unrepaired_refuted.

(* the repaired machine ignores the witness *)
Example c15_roles_subscribed_witness_repaired :
  step cfg_w2 (final cfg_w2 (init2 1%N 2%N) w2_ops) (OEvent 3 EvAccept 1 2) = (final cfg_w2 (init2 1%N 2%N) w2_ops, []).
Proof. vm_compute. reflexivity. Qed.

(* ---- relay target --------------------------------------------------------------------- *)
(* Every output of a call event other than hang-up is described by event_out_ok: the relayed
   {info} goes to relay_to (the originating session for ringing/accept, the OTHER party session
   for offer/answer/ice-candidate) with the true sender and the call's id, and there is at most
   one; besides it only: the accepted-replacement {data} to attached sessions, the "accepted
   elsewhere" notice on 'me' to OTHER sessions of the accepting user, an error code to the sender. *)
Theorem c15_relay_target : forall cfg st s e q p st' os,
  e <> EvHangup ->
  step cfg st (OEvent s e q p) = (st', os) ->
  os = [] \/ os = [(s, FCtrl 409 None)] \/
  exists c, current st = Some c /\ c_seq c = q /\ Forall (event_out_ok cfg st c s e) os /\
    (length (filter (fun so : out => is_relay (snd so)) os) <= 1)%nat.
Proof.
  intros cfg st s e q p st' os Hne Hs. destruct (event_step _ _ _ _ _ _ _ _ Hs) as [[_ [-> | ->]]|[_ ->]]; [auto..|].
  destruct (hce_outputs cfg st s e q p Hne) as [E'|[c [Hc [Hq [HF Hn]]]]]; [left; rewrite E'; reflexivity|].
  right. right. exists c. split; [assumption|]. split; [assumption|]. split.
  - apply Forall_filter. exact HF.
  - eapply Nat.le_trans; [apply filter_filter_le|exact Hn].
Qed.
Print Assumptions c15_relay_target.

(* ---- stale / unknown call ids ---------------------------------------------------------- *)
Theorem c15_stale_ignored : forall cfg st s e q p st' os,
  (current st = None \/ exists c, current st = Some c /\ c_seq c <> q) ->
  step cfg st (OEvent s e q p) = (st', os) ->
  st' = st /\ (os = [] \/ os = [(s, FCtrl 409 None)]).
Proof.
  intros cfg st s e q p st' os H Hs. destruct (event_step _ _ _ _ _ _ _ _ Hs) as [E|[-> ->]]; [exact E|].
  rewrite (hce_stale _ _ _ _ _ _ H). auto.
Qed.
Print Assumptions c15_stale_ignored.

(* ---- ends exactly once ---------------------------------------------------------------- *)
(* one step never replaces a call by another one: the slot is cleared or keeps the same call;
   a new call gets the next message id *)
Theorem c15_slot_step : forall cfg st o st' os, step cfg st o = (st', os) -> slot_step st st'.
Proof. exact slot_step_step. Qed.
Print Assumptions c15_slot_step.

Theorem c15_ending_clears_slot : forall cfg st o st' os q,
  step cfg st o = (st', os) -> ended st st' = Some q ->
  current st' = None /\ exists c, current st = Some c /\ c_seq c = q.
Proof.
  intros cfg st o st' os q Hs He. apply slot_step_step in Hs. destruct Hs as [_ Hs]. unfold ended in He.
  destruct (current st) as [c|]; [|discriminate].
  destruct Hs as [E|[c' [E [Hsq _]]]]; rewrite E in He.
  - injection He as <-. split; [assumption|]. exists c. auto.
  - rewrite Hsq, Z.eqb_refl in He. discriminate.
Qed.
Print Assumptions c15_ending_clears_slot.

(* ghost log: (invitation id, number of ending steps) per started call, over ALL histories *)
Theorem c15_ends_once : forall cfg a b ops,
  let st := fst (run_log cfg (init2 a b) ops []) in
  let log := snd (run_log cfg (init2 a b) ops []) in
  NoDup (map fst log) /\
  forall q n, In (q, n) log ->
    (n = 1%nat /\ forall c, current st = Some c -> c_seq c <> q) \/
    (n = 0%nat /\ exists c, current st = Some c /\ c_seq c = q).
Proof. intros cfg a b ops. exact (ends_once_from cfg (init2 a b) [] ops (log_inv_init a b)). Qed.
Print Assumptions c15_ends_once.

Theorem c15_run_log_is_run : forall cfg ops st log, fst (run_log cfg st ops log) = final cfg st ops.
Proof.
  intros cfg ops.
  unfold final. induction ops as [|o r IH]; intros st log; cbn; [reflexivity|].
  rewrite IH. destruct (step cfg st o) as [st1 os]. cbn. destruct (run cfg st1 r). reflexivity.
Qed.
Print Assumptions c15_run_log_is_run.

(* the establishment timer is armed exactly while a call waits for acceptance *)
Theorem c15_timer_armed_iff_establishing : forall cfg a b ops, timer_inv (final cfg (init2 a b) ops).
Proof. intros cfg a b ops. exact (timer_inv_final cfg ops (init2 a b) (timer_inv_init a b)). Qed.
Print Assumptions c15_timer_armed_iff_establishing.

(* a party session that leaves, disconnects or unsubscribes ends the call *)
Theorem c15_party_leave_partial : forall cfg st c x o st' os,
  live cfg st x -> step cfg st o = (st', os) ->
  current st = Some c -> is_party c x = true -> mem x (attached st) = true ->
  o = OLeave x \/ o = ODisc x \/ o = OUnsub x ->
  current st' = None.
Proof.
  intros cfg st c x o st' os Hl Hs Hc Hp Ha Ho. assert (Hsid : op_sid o = Some x) by (destruct Ho as [->|[->| ->]]; reflexivity).
  rewrite (step_live cfg st o x Hsid Hl) in Hs. injection Hs as <- _.
  eapply party_leave_raw; eassumption.
Qed.
Print Assumptions c15_party_leave_partial.

(* refuted: "whenever a party's session is detached from the topic the call ends" *)
Definition c15_party_leave_statement : Prop :=
  forall cfg a b ops o st' os c x,
    let st := final cfg (init2 a b) ops in
    step cfg st o = (st', os) -> current st = Some c -> is_party c x = true ->
    mem x (attached st) = true -> mem x (attached st') = false -> current st' = None.

Definition cfg_w3 : config := mkCfg true [(1, 1); (2, 1)]%N.
Definition w3_ops : list op := [OAttach 1; OAttach 2; OInvite 1 101 0].
Definition w3_res := step cfg_w3 (final cfg_w3 (init2 1%N 2%N) w3_ops) (OUnsub 2).
Example w3_step : step cfg_w3 (final cfg_w3 (init2 1%N 2%N) w3_ops) (OUnsub 2) = (fst w3_res, snd w3_res).
Proof. vm_compute. reflexivity. Qed.
Theorem c15_party_leave_refuted : ~ c15_party_leave_statement.
Proof.
  intros H0.
  pose proof (H0 cfg_w3 1%N 2%N w3_ops (OUnsub 2) (fst w3_res) (snd w3_res) (mkCall 1%N 1%N None 1 101%N) 1%N) as H. cbv zeta in H.
  specialize (H w3_step).
  assert (X : current (fst w3_res) <> None) by (vm_compute; discriminate).
  apply X. apply H; vm_compute; reflexivity.
Qed.
Print Assumptions c15_party_leave_refuted.

(* ---- replacements --------------------------------------------------------------------- *)
(* acceptance: only by an accept event naming the call, from a session that is neither the
   originating session nor of the originator's user; it stores (accept_state) the message
   (lastID+1, from = originator, head.replace = ":"seq, head.webrtc = accepted, the invitation's
   content), records the callee session and stops the timer *)
Theorem c15_acceptance_published : forall cfg st o st' os c c',
  step cfg st o = (st', os) -> current st = Some c -> accepted c = false -> current st' = Some c' -> accepted c' = true ->
  exists s p, o = OEvent s EvAccept (c_seq c) p /\ s <> c_osid c /\ user_of cfg s <> c_ouid c /\
    writer st (c_ouid c) = true /\ st' = accept_state cfg st c s.
Proof.
  intros cfg st o st' os c c' Hs Hc Ha Hc' Ha'.
  destruct (slot_change_step _ _ _ _ _ Hs) as [[E _]|[[c0 [_ [E _]]]|[[s [ct [w [_ [Hok _]]]]]|[s [p [c0 [Ho [E [_ [Hw [H1 [H2 Hst]]]]]]]]]]]].
  - rewrite Hc, Hc' in E. injection E as ->. rewrite Ha in Ha'. discriminate.
  - rewrite Hc' in E. discriminate.
  - unfold gate_ok in Hok. rewrite Hc in Hok. rewrite andb_false_r in Hok. discriminate.
  - rewrite Hc in E. injection E as <-. exists s, p. auto.
Qed.
Print Assumptions c15_acceptance_published.

Example c15_accept_state_store : forall cfg st c s,
  store (accept_state cfg st c s) =
    mkMsg (lastid st + 1) (c_ouid c) (Some (c_seq c)) (Some WAccepted)
      (if N.eqb (user_of cfg s) (c_ouid c) then 0%N else user_of cfg s) (c_content c) :: store st /\
  lastid (accept_state cfg st c s) = lastid st + 1.
Proof. intros. split; reflexivity. Qed.

(* full statement: every ending publishes the replacement *)
Definition c15_replacements_statement : Prop :=
  forall cfg a b ops o st' os c,
    let st := final cfg (init2 a b) ops in
    step cfg st o = (st', os) -> current st = Some c -> current st' = None ->
    exists w sender, In w ending_states /\
      store st' = mkMsg (lastid st + 1) (c_ouid c) (Some (c_seq c)) (Some w) sender (c_content c) :: store st /\
      lastid st' = lastid st + 1.

Definition cfg_w1 : config := mkCfg true [(1, 1); (3, 2)]%N.
Definition w1_ops : list op := [OAttach 1; OInvite 1 101 0; OSetW 1 0 false].
(* the witness step as an equation [step .. = (fst r, snd r)] with [r] left folded: the statement is instantiated
   with [fst r], [snd r] and only the facts needed are computed (the same device for w2, w3 below) *)
Definition w1_res := step cfg_w1 (final cfg_w1 (init2 1%N 2%N) w1_ops) (OEvent 3 EvHangup 1 1).
Example w1_step : step cfg_w1 (final cfg_w1 (init2 1%N 2%N) w1_ops) (OEvent 3 EvHangup 1 1) = (fst w1_res, snd w1_res).
Proof. vm_compute. reflexivity. Qed.
Theorem c15_replacements_refuted : ~ c15_replacements_statement.
Proof.
  intros H0.
  pose proof (H0 cfg_w1 1%N 2%N w1_ops (OEvent 3 EvHangup 1 1) (fst w1_res) (snd w1_res) (mkCall 1%N 1%N None 1 101%N)) as H.
  cbv zeta in H.
  destruct (H w1_step) as [w [sd [_ [_ E]]]]; try (vm_compute; reflexivity).
  assert (F : lastid (fst w1_res) <> lastid (final cfg_w1 (init2 1%N 2%N) w1_ops) + 1) by (vm_compute; discriminate).
  exact (F E).
Qed.
Print Assumptions c15_replacements_refuted.

Theorem c15_replacements_partial : forall cfg st o st' os c,
  step cfg st o = (st', os) -> current st = Some c -> current st' = None -> writer st (c_ouid c) = true ->
  exists w sender, In w ending_states /\
    store st' = mkMsg (lastid st + 1) (c_ouid c) (Some (c_seq c)) (Some w) sender (c_content c) :: store st /\
    lastid st' = lastid st + 1.
Proof.
  intros cfg st o st' os c Hs Hc Hn Hw. destruct (ending_effect _ _ _ _ _ _ Hs Hc Hn) as [_ [_ [[Hw' _]|[_ [Hl [from [ms [t E]]]]]]]].
  - rewrite Hw in Hw'. discriminate.
  - eexists. eexists. split; [apply (end_state_in c from t)|]. split; [exact E|exact Hl].
Qed.
Print Assumptions c15_replacements_partial.

(* what the trigger does: the slot is cleared, nothing is stored *)
Theorem c15_ending_lost_without_W : forall cfg st o st' os c,
  step cfg st o = (st', os) -> current st = Some c -> current st' = None -> writer st (c_ouid c) = false ->
  store st' = store st /\ lastid st' = lastid st.
Proof.
  intros cfg st o st' os c Hs Hc Hn Hw. destruct (ending_effect _ _ _ _ _ _ Hs Hc Hn) as [_ [_ [[_ H]|[Hw' _]]]]; [exact H|].
  rewrite Hw in Hw'. discriminate.
Qed.
Print Assumptions c15_ending_lost_without_W.

(* ---- a new call can be started afterwards ---------------------------------------------- *)
Theorem c15_new_call_after_end : forall cfg st o st' os c s content w,
  step cfg st o = (st', os) -> current st = Some c -> current st' = None ->
  configured cfg = true -> live cfg st' s -> mem s (attached st') = true -> writer st' (user_of cfg s) = true ->
  exists os', step cfg st' (OInvite s content w) = (invite_state cfg st' s content w, os') /\
    In (s, FCtrl 202 (Some (lastid st' + 1))) os'.
Proof.
  intros cfg st o st' os c s content w _ _ Hn Hcfg Hl Ha Hw. destruct (step cfg st' (OInvite s content w)) as [st2 os2] eqn:E.
  destruct (gate cfg st' s content w st2 os2 Hl E) as [H _].
  assert (Hok : gate_ok cfg st' s = true) by (unfold gate_ok; rewrite Hcfg, Ha, Hw, Hn; reflexivity).
  destruct (H Hok) as [-> Hin]. exists os2. auto.
Qed.
Print Assumptions c15_new_call_after_end.

(* ---- the hypotheses are satisfiable: a complete call ------------------------------------ *)
Definition cfg_ex : config := mkCfg true [(1, 1); (2, 1); (3, 2); (4, 2); (5, 3)]%N.
Definition full_call : list op :=
  [OAttach 1; OAttach 3; OInvite 1 101 0; OInvite 3 102 0; OEvent 4 EvRinging 1 7; OEvent 5 EvAccept 1 7;
   OEvent 2 EvAccept 1 7; OEvent 3 EvAccept 1 8; OEvent 1 EvOffer 1 9; OEvent 3 EvAnswer 1 9; OEvent 4 EvHangup 1 9;
   OEvent 3 EvHangup 1 9; OInvite 3 103 0].
Example c15_full_call_log : snd (run_log cfg_ex (init2 1%N 2%N) full_call []) = [(1, 1%nat); (4, 0%nat)].
Proof. vm_compute. reflexivity. Qed.
Example c15_full_call_store :
  map (fun m => (m_seq m, m_from m, m_replace m, m_webrtc m)) (store (final cfg_ex (init2 1%N 2%N) full_call)) =
  [(4, 2%N, None, Some (WClient 0)); (3, 1%N, Some 1, Some WFinished); (2, 1%N, Some 1, Some WAccepted); (1, 1%N, None, Some (WClient 0))].
Proof. vm_compute. reflexivity. Qed.

(* ---- only in a peer-to-peer topic ------------------------------------------------------ *)
(* Sys/CallCat.v: Topic.handlePubBroadcast with the topic category (and the status bits) as
   parameters.  In EVERY category other than p2p, from EVERY topic state, whatever the session,
   the text of head.webrtc, head.replace (an invitation or a client-made "replacement") and the
   content: the state is returned unchanged - nothing stored, lastID not advanced, no
   Topic.currentCall, the timer not armed - and the only output is one error code to the sender
   (503 paused/deleted, 403 read-only, 501 calling not configured, otherwise 403); never 202. *)
Theorem c15_call_only_in_p2p : forall cfg c inactive readonly st s w repl content,
  c <> CatP2P ->
  pub_broadcast cfg c inactive readonly st s (Some w) repl content =
    (st, [(s, FCtrl (non_p2p_code cfg inactive readonly) None)]) /\
  In (non_p2p_code cfg inactive readonly) [503; 403; 501].
Proof.
  intros cfg c ina ro st s w repl content Hc. split;
    [exact (pub_non_p2p_call_refused cfg c ina ro st s w repl content (cat_not_p2p c Hc))|exact (non_p2p_code_values cfg ina ro)].
Qed.
Print Assumptions c15_call_only_in_p2p.

(* conversely: whenever handlePubBroadcast creates a call, the topic is p2p, calling is configured,
   the topic is neither paused nor read-only and the request carries head.webrtc *)
Theorem c15_call_created_only_in_p2p : forall cfg c inactive readonly st s w repl content st' os,
  pub_broadcast cfg c inactive readonly st s w repl content = (st', os) ->
  current st = None -> current st' <> None ->
  is_p2p c = true /\ configured cfg = true /\ inactive = false /\ readonly = false /\ w <> None.
Proof.
  intros cfg c ina ro st s w repl content st' os H Hc Hn. destruct w as [wt|].
  - destruct (is_p2p c) eqn:Hp.
    + unfold pub_broadcast in H. rewrite Hp in H.
      destruct ina; [inv H; contradiction|]. destruct ro; [inv H; contradiction|].
      destruct (configured cfg); [|inv H; contradiction].
      repeat split; auto. discriminate.
    + rewrite (pub_non_p2p_call_refused cfg c ina ro st s wt repl content Hp) in H. inv H. contradiction.
  - destruct (pub_plain_effect _ _ _ _ _ _ _ _ _ _ H) as [E _]. rewrite E in Hn. contradiction.
Qed.
Print Assumptions c15_call_created_only_in_p2p.

(* for the p2p category the function with the category parameter IS the gate of Call.step, so
   c15_gate above is a theorem about the same code; likewise the {note what=call} path *)
Theorem c15_p2p_instance_is_the_gate : forall cfg st s content w,
  mem s (attached st) = true ->
  step_raw cfg st (OInvite s content w) = pub_broadcast cfg CatP2P false false st s (Some w) None content /\
  step_raw cfg st (OPub s content) = pub_broadcast cfg CatP2P false false st s None None content.
Proof. intros cfg st s content w Ha. split; [exact (pub_p2p_is_invite cfg st s content w Ha)|exact (pub_p2p_is_pub cfg st s content Ha)]. Qed.
Print Assumptions c15_p2p_instance_is_the_gate.

Theorem c15_p2p_instance_is_the_event_path : forall cfg st s e q p,
  step_raw cfg st (OEvent s e q p) =
    match session_note_call true q (mem s (attached st)) e with
    | NDrop => (st, [])
    | NAttachFirst => (st, [(s, FCtrl 409 None)])
    | NTopic => note_broadcast_call cfg false st s e q p
    | NHub => if loaded st then note_broadcast_call cfg false st s e q p else (st, [])
    end.
Proof. exact note_p2p_is_event. Qed.
Print Assumptions c15_p2p_instance_is_the_event_path.

(* an ordinary publication (no head.webrtc), in any category: the call state is not touched and
   what is stored / fanned out carries no head.webrtc *)
Theorem c15_plain_pub_keeps_call_state : forall cfg c inactive readonly st s repl content st' os,
  pub_broadcast cfg c inactive readonly st s None repl content = (st', os) ->
  current st' = current st /\ timer st' = timer st /\ attached st' = attached st /\ users st' = users st /\
  loaded st' = loaded st /\
  (store st' = store st \/ exists m, plain m /\ store st' = m :: store st) /\
  (forall x f, In (x, f) os -> (exists code q, f = FCtrl code q /\ x = s) \/ exists m t, f = FData m t /\ plain m).
Proof. exact pub_plain_effect. Qed.
Print Assumptions c15_plain_pub_keeps_call_state.

(* call {note}s: Session.note drops what=call unless the expanded name is a p2p name; and the
   topic handler itself (handleNoteBroadcast -> handleCallEvent, which has no category test)
   does nothing in a topic without a call - which is every topic that is not p2p (below) *)
Theorem c15_call_note_outside_p2p_dropped : forall q attached_here e, session_note_call false q attached_here e = NDrop.
Proof. intros q a e. reflexivity. Qed.
Print Assumptions c15_call_note_outside_p2p_dropped.

Theorem c15_call_note_without_call_ignored : forall cfg inactive st s e q p,
  current st = None -> note_broadcast_call cfg inactive st s e q p = (st, []).
Proof.
  intros cfg ina st s e q p Hc. unfold note_broadcast_call. destruct ina; [reflexivity|].
  destruct (lastid st <? q); [reflexivity|]. apply hce_stale. left. assumption.
Qed.
Print Assumptions c15_call_note_without_call_ignored.

(* the world of Sys/CallCat.v: the p2p topic of Sys/Call.v and any number of other topics (group
   topic / channel, 'me', 'fnd', 'sys' - 'sys' takes publications from unattached sessions).
   Over ALL histories of requests to all of them, from every world whose non-p2p topics start
   without a call (init_other): no topic other than a p2p topic ever has a current call, an armed
   establishment timer or a stored message with head.webrtc *)
Theorem c15_no_call_outside_p2p : forall cfg w xs, others_clean w -> others_clean (wfinal cfg w xs).
Proof. intros cfg w xs. exact (wrun_clean cfg xs w). Qed.
Print Assumptions c15_no_call_outside_p2p.

Theorem c15_init_world_clean : forall a b l,
  (forall k t, In (k, t) l -> exists c owner ws atts ld, t = init_other c owner ws atts ld) -> others_clean (init_world a b l).
Proof.
  intros a b l H k t Hin _. destruct (H k t Hin) as [c [owner [ws [atts [ld E]]]]]. subst t. apply init_other_clean.
Qed.
Print Assumptions c15_init_world_clean.

(* one request addressed to a topic that is not p2p, from any world: the p2p topic (and its call)
   is not touched; every output is a {ctrl} to the sender or a {data} without head.webrtc - no
   {info}; with head.webrtc the world does not change at all and the sender gets at most one error
   code (409 not attached, 503, 403, 501); a call {note} changes nothing and is not answered *)
Theorem c15_invitation_outside_p2p_no_trace : forall cfg w s k content wt repl w' os t,
  lookup k (w_others w) = Some t -> is_p2p (o_cat t) = false ->
  wstep cfg w (XPub s k content wt repl) = (w', os) ->
  w_p2p w' = w_p2p w /\
  Forall (other_out_ok s) os /\
  (wt <> None -> w' = w) /\
  (wt <> None -> os = [] \/ exists code, os = [(s, FCtrl code None)] /\ In code [409; 503; 403; 501]).
Proof. exact xpub_other. Qed.
Print Assumptions c15_invitation_outside_p2p_no_trace.

Theorem c15_call_note_outside_p2p_ignored : forall cfg w s k e q p t,
  lookup k (w_others w) = Some t -> is_p2p (o_cat t) = false ->
  wstep cfg w (XNote s k e q p) = (w, []).
Proof.
  intros cfg w s k e q p t Hl Hp. cbn [wstep]. destruct (negb (alive cfg w s)); [reflexivity|].
  rewrite Hl, Hp. reflexivity.
Qed.
Print Assumptions c15_call_note_outside_p2p_ignored.

(* requests to the p2p topic are exactly Call.step (so every theorem above about [step] holds in
   the world), requests to other topics leave the p2p topic alone *)
Theorem c15_world_p2p_is_step : forall cfg w o,
  w_p2p (fst (wstep cfg w (XOld o))) = fst (step cfg (w_p2p w) o) /\ snd (wstep cfg w (XOld o)) = snd (step cfg (w_p2p w) o).
Proof. intros cfg w o. cbn [wstep]. destruct (step cfg (w_p2p w) o). split; reflexivity. Qed.
Print Assumptions c15_world_p2p_is_step.

Theorem c15_other_topics_keep_p2p : forall cfg w x, (forall o, x <> XOld o) -> w_p2p (fst (wstep cfg w x)) = w_p2p w.
Proof.
  intros cfg w x Hx. destruct x as [o|s k c wt r|s k e q p]; [contradiction (Hx o); reflexivity| |]; cbn [wstep].
  - destruct (negb (alive cfg w s)); [reflexivity|]. destruct (lookup k (w_others w)) as [t|]; [|reflexivity].
    destruct (publish_route (att_other cfg w t s) (is_sys (o_cat t))); try reflexivity;
      destruct (pub_broadcast cfg (o_cat t) false false (o_st t) s wt r c); reflexivity.
  - destruct (negb (alive cfg w s)); [reflexivity|]. destruct (lookup k (w_others w)) as [t|]; [|reflexivity].
    destruct (session_note_call (is_p2p (o_cat t)) q (att_other cfg w t s) e); try reflexivity.
    + destruct (note_broadcast_call cfg false (o_st t) s e q p); reflexivity.
    + destruct (loaded (o_st t)); [|reflexivity]. destruct (note_broadcast_call cfg false (o_st t) s e q p); reflexivity.
Qed.
Print Assumptions c15_other_topics_keep_p2p.

(* the hypotheses are satisfiable: a group topic (1: users 1 and 2 write, session 1 and 3 attached,
   session 5 of user 3 reads it as a channel) and 'sys' (2: root session 8 attached) *)
Definition cfg_x : config := mkCfg true [(1, 1); (3, 2); (5, 3); (8, 3)]%N.
Definition world_x : world :=
  init_world 1%N 2%N [(1%N, init_other CatGrp 1%N [(1%N, true); (2%N, true)] [1; 3; 5]%N true); (2%N, init_other CatSys 0%N [] [8%N] true)].
Definition hist_x : list xop :=
  [XOld (OAttach 1); XOld (OAttach 3); XPub 1 1 7 None None; XPub 1 1 8 (Some 0%N) None; XPub 5 2 9 (Some 0%N) None;
   XPub 5 2 10 (Some 2%N) (Some 1); XNote 3 1 EvAccept 1 4; XOld (OInvite 1 101 0); XPub 3 1 11 (Some 0%N) None; XPub 5 2 12 None None].
Definition ctrl_codes (os : list out) : list (N * Z) :=
  flat_map (fun so => match snd so with FCtrl code _ => [(fst so, code)] | _ => [] end) os.
Definition call_frames (os : list out) : list out :=
  filter (fun so => match snd so with FData m _ => match m_webrtc m with Some _ => true | None => false end
                                    | FInfo _ _ _ _ _ | FInfoMe _ _ _ _ _ => true | _ => false end) os.
Example c15_world_example :
  map ctrl_codes (snd (wrun cfg_x world_x hist_x)) =
    [[(1%N, 200)]; [(3%N, 200)]; [(1%N, 202)]; [(1%N, 403)]; [(5%N, 403)]; [(5%N, 403)]; []; [(1%N, 202)]; [(3%N, 403)]; [(5%N, 202)]] /\
  map (fun os => length (call_frames os)) (snd (wrun cfg_x world_x hist_x)) = [0; 0; 0; 0; 0; 0; 0; 2; 0; 0]%nat /\
  map (fun kt => (fst kt, current (o_st (snd kt)), timer (o_st (snd kt)), lastid (o_st (snd kt))))
      (w_others (wfinal cfg_x world_x hist_x)) = [(1%N, None, false, 1); (2%N, None, false, 1)] /\
  option_map c_seq (current (w_p2p (wfinal cfg_x world_x hist_x))) = Some 1.
Proof. vm_compute. repeat split; reflexivity. Qed.
