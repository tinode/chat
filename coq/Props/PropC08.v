(* C08  The live topic state and the stored state never diverge.
   Theorems about the group-topic model Sys/Topic.v (store + cache + handlers +
   load path), for EVERY history of requests (any length, users, sessions, unloads,
   restarts, failing/crashing store calls).

   coherent x  :=  while the topic is loaded, the cache equals load (store) on lastID,
                   delID, owner, default access and per-user want/given/read/recv/delID.
   inv x       :=  coherent x in its pointwise form + well-formedness of the store (one row
                   per user, exactly one owner) + "attached sessions act for cached users".

   Main results: c08_step_coherent_partial / c08_run_coherent_partial (the invariant along histories),
   c08_reload_anywhere (a reload inserted anywhere in a history changes no later reply and not the store),
   c08_ack_implies_stored_partial, c08_reject_no_change_partial.

   The faithful model REFUTES the full statement (seven reproduced triggers, findings/C08.md):
   the full statements are kept as Definitions, refuted with concrete witnesses, and proved
   under hypotheses that exclude exactly the triggers (safe_step); each excluded hypothesis is
   shown necessary by a witness that satisfies all the others (c08_trigger_*_needed, c08_fault_*_needed). *)
From Coq Require Import ZArith NArith List Bool Lia.
From Tinode Require Import Base.Util Pure.Acs Sys.Topic Sys.TopicTac Sys.TopicFrame Sys.TopicNum Sys.TopicNumThm Sys.TopicInst
  Sys.TopicCohC08 Sys.TopicCohC08Proofs Sys.TopicCohC08Step Sys.TopicCohC08Run Sys.TopicCohC08Query Sys.TopicCohC08Wit
  Sys.TopicCohC08Reject Sys.TopicCohC08Ack Sys.TopicCohC08Wit2 Sys.TopicCohC08Keys Sys.TopicCohC08Bisim
  Sys.PermBranchC08c Sys.PermBranchC08cProofs Sys.PermAckFullC08c Sys.PermBranchC08cWit
  Sys.MarksLagC08d Sys.TopicKindsC07 Sys.KindsOfflineC08d Sys.ChanPrivC08d.
From Tinode Require Sys.TopicDesc.
Import ListNotations.
Open Scope Z_scope.

Section C08.
Variable dr : Z -> list (Z * Z) -> option (list (Z * Z)).   (* any range validator *)
Variable nr : list (Z * Z) -> list (Z * Z).                 (* any range normaliser *)
Variable sm : sessmap.                                      (* any assignment of sessions to users *)

(* the initial state (nothing loaded) is coherent; so is a topic straight after the load path ran *)
Theorem c08_coherent_init : forall s n, coherent (mkState s None n).
Proof. intros s n. exact I. Qed.
Theorem c08_coherent_load : forall s n, wf_store s -> inv (mkState s (Some (load s)) n).
Proof. intros s n W. apply good_inv. apply good_load. exact W. Qed.

(* the invariant implies coherence with the model of the load path *)
Theorem c08_inv_coherent : forall x, inv x -> coherent x.
Proof. exact inv_coherent. Qed.

(* ONE STEP, every request kind, every fault plan: the invariant is preserved by every step
   that is free of the known triggers *)
Theorem c08_step_coherent_partial : forall f x o,
  inv x -> inv_num x -> safe_step sm f x o -> inv (fst (step dr nr sm f x o)).
Proof. exact (step_inv dr nr sm). Qed.

(* ARBITRARY HISTORIES from an empty well-formed topic: coherent after every trigger-free history *)
Theorem c08_run_coherent_partial : forall s h,
  wf_store s -> fresh s -> safe_run dr nr sm (mkState s None 0) h ->
  coherent (fst (run dr nr sm (mkState s None 0) h)).
Proof.
  intros s h W F SR. apply inv_coherent. apply run_inv_coh; [split; [exact W|exact I]|apply fresh_inv; exact F|exact SR].
Qed.

(* RELOAD INVISIBLE: after any trigger-free history, every query (get desc / sub / data / del, from
   any session, under any fault plan of the query itself) is answered the same whether the topic
   stayed in memory or its cache was rebuilt by the load path with the same sessions attached *)
Theorem c08_reload_invisible : forall h x0 f q,
  inv x0 -> inv_num x0 -> safe_run dr nr sm x0 h -> is_query q = true ->
  answer dr nr sm f (fst (run dr nr sm x0 h)) q = answer dr nr sm f (reload (fst (run dr nr sm x0 h))) q.
Proof.
  intros h x0 f q IV IN SR Q. apply reload_invisible; [|exact Q]. apply run_inv_coh; assumption.
Qed.

(* RELOAD ANYWHERE: split any trigger-free history in two, h1 ++ h2.  Whether or not the cache is rebuilt
   by the load path (same sessions attached) between h1 and h2, the rest of the history produces exactly
   the same replies - every frame to every session, queries and acknowledgements alike, under the fault
   plans h2 carries - and ends with the same store.  (The proof is a bisimulation: every handler computes
   the same store, replies and session list from two caches that agree on the stored fields; the
   invariant re-establishes the agreement after each step.) *)
Theorem c08_reload_anywhere : forall h1 h2 x0,
  inv x0 -> inv_num x0 -> keys_st x0 -> safe_run dr nr sm x0 h1 ->
  safe_run dr nr sm (fst (run dr nr sm x0 h1)) h2 ->
  snd (run dr nr sm (fst (run dr nr sm x0 h1)) h2) = snd (run dr nr sm (reload (fst (run dr nr sm x0 h1))) h2) /\
  st (fst (run dr nr sm (fst (run dr nr sm x0 h1)) h2)) = st (fst (run dr nr sm (reload (fst (run dr nr sm x0 h1))) h2)).
Proof.
  intros h1 h2 x0 IV IN K S1 S2. apply (run_twin dr nr sm); [|exact S2]. apply reload_twin.
  - apply run_inv_coh; assumption.
  - apply run_inv_num. exact IN.
  - apply run_keys. exact K.
Qed.

(* two caches that agree on the stored fields (and have the same sessions) answer every query alike *)
Theorem c08_query_agree : forall f s c d n q,
  cache_agree c d -> c_sess c = c_sess d -> is_query q = true ->
  snd (step dr nr sm f (mkState s (Some c) n) q) = snd (step dr nr sm f (mkState s (Some d) n) q).
Proof. exact (query_agree dr nr sm). Qed.

(* the idle unload itself (it happens only when no session is attached) is invisible to every
   query in EVERY state, coherent or not: sessions that are not attached are answered from the store *)
Theorem c08_unload_invisible : forall f x q,
  is_query q = true -> answer dr nr sm f (fst (step dr nr sm NoFault x OUnload)) q = answer dr nr sm f x q.
Proof.
  intros f x q Q. unfold answer. destruct x as [s [c|] n]; unfold step at 2; cbn [ca st]; [|reflexivity].
  destruct (c_sess c) as [|e l] eqn:ES; cbn [fst]; [|reflexivity].
  assert (forall sid, attached c sid = false) as NA by (intros sid; unfold attached; rewrite ES; reflexivity).
  destruct q; try discriminate Q; unfold step; cbn [st ca]; rewrite NA; reflexivity.
Qed.
(* ACK => STORED, every fault plan: if a mutating request is acknowledged (2xx), the state after it
   satisfies the invariant - the cache (which holds the acknowledged change) is what a restart would
   load from the store.  For publish and delete the acknowledgement itself shows that no store call
   it depends on failed; what remains excluded is the store error messagesMapper.Save ignores
   (3rd call of a publish, finding #6) and a fault during an ownership acceptance (finding #9). *)
Theorem c08_ack_implies_stored_partial : forall f x o,
  inv x -> inv_num x -> known sm o ->
  ~ trig_note_read sm x o -> ~ trig_readless_pub sm x o -> ~ trig_offline_setsub x o ->
  ack_fault_ok sm f x o ->
  ok_reply (snd (step dr nr sm f x o)) (op_sid o) ->
  inv (fst (step dr nr sm f x o)).
Proof.
  intros f x o IV IN KN T1 T2 T3 AF OK. apply step_inv; try assumption.
  split; [exact KN|]. split; [exact T1|]. split; [exact T2|]. split; [exact T3|].
  destruct o; cbn [fault_ok ack_fault_ok op_sid] in *; try exact I; try exact AF.
  - (* OPub *)
    unfold step in OK. destruct (ca x) as [c|]; cbn -[publish] in OK.
    + destruct (attached c sid); cbn -[publish] in OK.
      * destruct (publish_ok_calls _ _ _ _ _ _ _ _ OK) as [N1 N2]. left. repeat split; assumption.
      * exfalso. eapply not_ok_single; [|exact OK]. lia.
    + exfalso. eapply not_ok_single; [|exact OK]. lia.
  - (* ODelMsg *)
    unfold step in OK. destruct (ca x) as [c|]; cbn -[del_msg] in OK.
    + destruct (attached c sid); cbn -[del_msg] in OK.
      * left. exact (del_msg_ok_calls _ _ _ _ _ _ _ _ _ OK).
      * exfalso. eapply not_ok_single; [|exact OK]. lia.
    + exfalso. eapply not_ok_single; [|exact OK]. lia.
Qed.

(* REJECT => NO CHANGE, without store faults: a request answered 4xx/5xx leaves the store as it was and
   the cache as it was (or freshly built by the load path, when the rejected request was the one that
   loaded the topic) - except the banned-subscriber case (finding #4) *)
Theorem c08_reject_no_change_partial : forall x o,
  (match ca x with Some c => forall m, In m (seqs (st x)) -> m <= c_lastid c | None => True end) ->
  ~ trig_banned sm x o ->
  err_reply (snd (step dr nr sm NoFault x o)) (op_sid o) ->
  unchanged x (fst (step dr nr sm NoFault x o)).
Proof.
  intros x o FR NB.
  apply (step_cases dr nr sm (fun r => err_reply (snd r) (op_sid o) -> unchanged x (fst r))); unfold fin; cbn [fst snd].
  - intros n o' _. split; [reflexivity|left; reflexivity].
  - intros n o' [E| ->] ER; [split; [reflexivity|left; symmetry; exact E]|destruct ER as [code [ps [[] _]]]].
  - intros c h CA A ER. rewrite CA in FR.
    destruct A as [sid a b ES|sid ct ne AT|sid what seq AT|sid req hard AT|sid t mode AT|sid t AT]; cbn [op_sid] in ER.
    + exact (rej_unchanged x c _ sid CA (leave_unsub_rej _ _ _ _ _) ER).
    + exact (rej_unchanged x c _ sid CA (publish_rej _ _ _ _ _ _ _ FR) ER).
    + exact (rej_unchanged x c _ sid CA (note_rej _ _ _ _ _ _ _) ER).
    + exact (rej_unchanged x c _ sid CA (del_msg_rej _ _ _ _ _ _ _ _) ER).
    + destruct (set_sub_rej _ _ _ _ _ _ _ ER) as [E|[p [L J]]]; [exact (rej_unchanged x c _ sid CA (or_introl E) ER)|].
      exfalso. apply NB. unfold trig_banned, cur_cache. rewrite CA, L. exact J.
    + exact (rej_unchanged x c _ sid CA (del_sub_rej _ _ _ _ _ _) ER).
  - intros sid want bkg n -> _ ER. cbn [op_sid] in ER. destruct (sub_reply_rej _ _ _ _ _ _ _ ER) as [[E1 E2]|[p [L J]]].
    + split; cbn [st ca]; [exact E1|]. rewrite E2. unfold cur_cache. destruct (ca x); [left; reflexivity|right; split; reflexivity].
    + exfalso. apply NB. unfold trig_banned. rewrite L. exact J.
  - intros sid c a -> CA AT ER. exfalso. unfold leave, attached in *.
    destruct (alookup sid (c_sess c)) as [[su bk]|]; [|discriminate]. eapply err_no_err; [exact ER|]. ne_tac.
  - intros sid t mode -> _ ER. cbn [op_sid] in ER.
    destruct (offline_set_sub_rej (st x) sid (sess_uid sm sid) t mode) as [E|NE]; [|exfalso; exact (err_no_err _ _ ER NE)].
    rewrite E. split; [reflexivity|left; reflexivity].
Qed.
(* ACKNOWLEDGED ACCESS MODE = STORED ACCESS MODE ("every acknowledged change to permissions is in the store
   by the time it is acknowledged"), every branch of thisUserSub / anotherUserSub / replyOfflineTopicSetSub,
   EVERY fault plan: whenever a {sub} or {set sub} request - own or about another user, attached or not, topic
   loaded or not - is answered {ctrl 200 params.acs = want/given}, the reply goes to the requester and the live
   stored subscription row of the user it is about (the named user, else the requester) holds exactly that want
   and that given.  (An acknowledged request met no store error - step_ack_nofault_c08c - so the fault plan
   does not matter; a fault inside an ownership acceptance, finding #9, produces no reply at all.) *)
Theorem c08_acs_ack_is_stored : forall f x o sid named w g,
  inv x -> known sm o -> is_perm_req_c08c o = true ->
  In (sid, CtrlAcs 200 named w g) (snd (step dr nr sm f x o)) ->
  sid = op_sid o /\ stored_acs_c08c (st (fst (step dr nr sm f x o))) (acs_subject_c08c sm o named) w g.
Proof.
  intros f x o sid named w g IV KN PR I. pose proof (step_ack_nofault_c08c dr nr sm f x o sid named w g PR I) as E. rewrite E in I |- *.
  apply (step_acs_ack_stored_c08c dr nr sm NoFault x o sid named w g IV KN); [|exact PR|exact I].
  destruct o; try discriminate PR; left; reflexivity.
Qed.

(* SELF-RAISE: an attached approver (A in grant and in the requested mode) or holder of an O grant who asks,
   for himself, beyond his grant - the branches PB_t_raise_admin / PB_t_raise_owner / PB_t_accept_raise of the
   extracted classifier perm_branch_c08c - is acknowledged with a grant DIFFERENT from the old one, and the
   raised grant is in the store. *)
Theorem c08_self_raise_setsub_stored : forall x sd target mode c p0,
  inv x -> sess_uid sm sd <> 0%N -> ca x = Some c -> attached c sd = true ->
  alookup (sess_uid sm sd) (c_users c) = Some p0 ->
  is_raise_c08c (perm_branch_c08c sm x (OSetSub sd target mode)) = true ->
  exists w g,
    In (sd, CtrlAcs 200 0%N w g) (snd (step dr nr sm NoFault x (OSetSub sd target mode))) /\
    g <> p_given p0 /\
    stored_acs_c08c (st (fst (step dr nr sm NoFault x (OSetSub sd target mode)))) (sess_uid sm sd) w g.
Proof.
  intros x sd target mode c p0 IV KN CA AT L R.
  assert (exists w g, In (sd, CtrlAcs 200 0%N w g) (snd (step dr nr sm NoFault x (OSetSub sd target mode))) /\ g <> p_given p0) as [w [g [I NE]]].
  { unfold perm_branch_c08c in R. rewrite CA, AT in R. unfold step. rewrite CA. cbn -[set_sub]. rewrite AT. cbn -[set_sub].
    unfold set_sub. destruct ((target =? 0)%N || (target =? sess_uid sm sd)%N).
    - destruct (tus_raise_ok_c08c (st x) c 0 (sess_uid sm sd) mode p0 sd false L R) as [w [g [E NG]]].
      destruct (this_user_sub NoFault (st x) c 0 sd (sess_uid sm sd) mode false) as [h r]. cbn [snd] in E. subst r.
      exists w, g. cbn [h_out]. split; [apply in_or_app; right; left; reflexivity|apply N.eqb_neq; exact NG].
    - exfalso. unfold aus_branch_c08c in R. repeat break_match_hyp; discriminate. }
  exists w, g. split; [exact I|]. split; [exact NE|].
  pose proof (step_acs_ack_stored_c08c dr nr sm NoFault x (OSetSub sd target mode) sd 0%N w g IV KN (or_introl eq_refl) eq_refl I) as [_ ST].
  exact ST.
Qed.

Theorem c08_self_raise_sub_stored : forall x sd want bkg c p0,
  inv x -> sess_uid sm sd <> 0%N -> ca x = Some c -> attached c sd = false ->
  alookup (sess_uid sm sd) (c_users c) = Some p0 ->
  is_raise_c08c (perm_branch_c08c sm x (OSub sd want bkg)) = true ->
  exists w g,
    In (sd, CtrlAcs 200 0%N w g) (snd (step dr nr sm NoFault x (OSub sd want bkg))) /\
    g <> p_given p0 /\
    stored_acs_c08c (st (fst (step dr nr sm NoFault x (OSub sd want bkg)))) (sess_uid sm sd) w g.
Proof.
  intros x sd want bkg c p0 IV KN CA AT L R.
  assert (exists w g, In (sd, CtrlAcs 200 0%N w g) (snd (step dr nr sm NoFault x (OSub sd want bkg))) /\ g <> p_given p0) as [w [g [I NE]]].
  { unfold perm_branch_c08c in R. rewrite CA, AT in R. unfold step. rewrite CA, AT. cbn [snd].
    unfold sub_reply. rewrite L.
    destruct (tus_raise_ok_c08c (st x) c 0 (sess_uid sm sd) want p0 sd false L R) as [w [g [E NG]]].
    destruct (this_user_sub NoFault (st x) c 0 sd (sess_uid sm sd) want false) as [h r]. cbn [snd] in E. subst r.
    exists w, g. cbn [h_out]. split; [apply in_or_app; right; left; reflexivity|apply N.eqb_neq; exact NG]. }
  exists w, g. split; [exact I|]. split; [exact NE|].
  pose proof (step_acs_ack_stored_c08c dr nr sm NoFault x (OSub sd want bkg) sd 0%N w g IV KN (or_introl eq_refl) eq_refl I) as [_ ST].
  exact ST.
Qed.
(* ---- marks.  WHAT THE KNOWN FINDING note-read-recv-cached-only EXCUSES AND WHAT IT DOES NOT.
   After a {note read n} above the received mark the cache is not load(store) any more (c08_trigger_note_read_needed):
   the cached recv is max(stored recv, read).  cache_lag_c08d is that weaker agreement (lastID, delID, and per user want, given, read, delID
   and max(recv, read); it says nothing of owner and default access).  {get desc} reports read and max(recv, read), so: *)
(* two caches within the lag answer {get desc} alike, for every session, attached or not *)
Theorem c08_getdesc_same_modulo_recv_lag : forall f s c d n sid,
  cache_lag_c08d c d -> c_sess c = c_sess d ->
  snd (step dr nr sm f (mkState s (Some c) n) (OGetDesc sid)) = snd (step dr nr sm f (mkState s (Some d) n) (OGetDesc sid)).
Proof. exact (step_getdesc_lag_c08d dr nr sm). Qed.
(* every {note} request (read / recv / kp, any mark, any fault plan, attached or routed by the hub) keeps the
   loaded topic within the lag of what the load path would build *)
Theorem c08_note_keeps_recv_lag : forall f x sid what seq,
  NoDup (map s_user (subs (st x))) -> sess_uid sm sid <> 0%N ->
  lag_state_c08d x -> lag_state_c08d (fst (step dr nr sm f x (ONote sid what seq))).
Proof. exact (step_note_lag_c08d dr nr sm). Qed.
(* REPORTED MARKS ARE RELOAD-INVARIANT: from a coherent state, after any history of {note} and {get desc}
   requests - the finding's trigger included - {get desc} is answered the same with and without a reload.
   The finding excuses the cached recv itself (and the stored recv a later {note recv} writes), never what
   replyGetDesc reports. *)
Theorem c08_reported_marks_reload_invisible : forall h x f sid,
  Forall (marks_op_c08d sm) h -> NoDup (map s_user (subs (st x))) -> coherent x ->
  snd (step dr nr sm f (fst (run dr nr sm x h)) (OGetDesc sid)) =
  snd (step dr nr sm f (reload (fst (run dr nr sm x h))) (OGetDesc sid)).
Proof.
  intros h x f sid F ND CO. apply reload_getdesc_lag_c08d.
  apply run_marks_lag_c08d; [exact F|exact ND|].
  unfold coherent, lag_state_c08d in *. destruct (ca x); [|exact I]. apply agree_lag_c08d. exact CO.
Qed.
End C08.

(* ------------------------------------------------------------------ *)
(* p2p topics (kinds model Sys/TopicKindsC07.v): {set sub mode} for one's own subscription through the live
   topic and through the hub (session not attached / topic not loaded), the topic named usrXXX or p2pXXXYYY *)
(* the hub path of the kinds model, on its own *)
Theorem c08_kinds_offline_path : forall w sid uid root orig target mode k,
  expand uid orig = inl k -> k_attached (tget k (w_topics w)) sid = false ->
  kstep w (KSetSub sid uid root orig target mode) =
  let t := tget k (w_topics w) in
  match off_set_c08d (key_cat k) (kt_rows t) sid uid target mode with
  | (None, o) => (w, o)
  | (Some rows', o) => (mkWorld (w_acc w) (tset k (mkKt (kt_exists t) rows' (kt_cache t)) (w_topics w)), o)
  end.
Proof. exact kstep_offline_c08d. Qed.
(* ACK => STORED on the hub path, every topic kind: a {ctrl 200 acs=want/given} goes to the requester, is about
   the requester, and his live stored row holds exactly that want and that given *)
Theorem c08_kinds_offline_ack_is_stored : forall cat rows sid uid target mode rows' o s' named wt g,
  off_set_c08d cat rows sid uid target mode = (rows', o) -> In (s', KAcs 200 named wt g) o ->
  s' = sid /\ named = 0%N /\
  exists rows1 r, rows' = Some rows1 /\ alookup uid rows1 = Some r /\ kr_want r = wt /\ kr_given r = g /\ kr_del r = false.
Proof. exact offline_ack_stored_c08d. Qed.
(* the FORM of the name (usrXXX / p2pXXXYYY) does not matter: requests naming the same topic do the same *)
Theorem c08_kinds_name_form_irrelevant : forall w sid uid root o1 o2 target mode,
  expand uid o1 = expand uid o2 -> (match o1, o2 with OUsr _, _ | ORawP2P _ _, _ => True | _, _ => o1 = o2 end) ->
  kstep w (KSetSub sid uid root o1 target mode) = kstep w (KSetSub sid uid root o2 target mode).
Proof. exact name_form_c08d. Qed.
(* LIVE = OFFLINE: on a p2p topic whose cached record of the requester is his stored row, thisUserSub (live topic)
   and replyOfflineTopicSetSub (hub) leave the SAME stored rows for every mode string that names a mode: the
   request is clipped to JRWPA and keeps A whether or not the topic is in memory *)
Theorem c08_p2p_offline_set_same_as_live : forall rows c sid uid root mode r,
  mode <> [] ->
  (forall m0, parse_acs mode = Some m0 -> (m0 =? ModeUnset)%N = false) ->
  alookup uid rows = Some r -> kr_del r = false -> alookup uid (kc_users c) = Some r ->
  is_owner (kr_want r) = false -> is_owner (kr_given r) = false ->
  let '(live_rows, _, _, _) := k_this_user_sub CP2P rows c uid root mode false in
  live_rows = match fst (off_set_c08d CP2P rows sid uid 0 mode) with Some r' => r' | None => rows end.
Proof. exact p2p_offline_same_rows_c08d. Qed.
Print Assumptions c08_kinds_offline_path.
Print Assumptions c08_kinds_offline_ack_is_stored.
Print Assumptions c08_kinds_name_form_irrelevant.
Print Assumptions c08_p2p_offline_set_same_as_live.
Example c08_ex_mode_names_a_mode :
  match parse_acs [74; 82; 87; 83; 68]%N with Some m0 => (m0 =? ModeUnset)%N = false | None => True end.
Proof. vm_compute. reflexivity. Qed.

(* ------------------------------------------------------------------ *)
(* channel-enabled group topics (Sys/ChanPrivC08d.v): desc.private of full subscribers (rows under grpXXX)
   and channel readers (rows under chnXXX), the topic named either way *)
(* ACK => STORED when the name used agrees with the kind of the requester: an acknowledged {set desc private} is in
   the requester's OWN row and in the cache *)
Theorem c08_chan_private_ack_is_stored_partial : forall s c u aschan tok ischan cur row,
  alookup u (cc_users c) = Some (ischan, cur) -> cs_own_c08d s ischan u = Some row -> aschan = ischan ->
  let '(s', c', fr) := cstep_c08d s c (CSetPriv u aschan tok) in
  fr = [CCtrl 200] ->
  cs_own_c08d s' ischan u = Some (fst (TopicDesc.merge_val cur tok)) /\
  alookup u (cc_users c') = Some (ischan, fst (TopicDesc.merge_val cur tok)).
Proof. exact chan_set_ack_stored_c08d. Qed.
(* the full statement (whatever name was used) is refuted by the faithful model: replySetDesc picks the row by the
   name (asChan), a missing row is a silent success (finding set-private-under-other-name-not-stored) *)
Definition c08_chan_private_ack_is_stored_statement : Prop := chan_ack_stored_statement_c08d.
Theorem c08_chan_private_ack_is_stored_refuted : ~ c08_chan_private_ack_is_stored_statement.
Proof. exact chan_ack_stored_refuted_c08d. Qed.
(* a channel reader's attach caches the request's private, not the row's (finding chan-reader-private-not-loaded) *)
Theorem c08_chan_reader_attach_reports_null : forall s c u row,
  alookup u (cc_users c) = None -> alookup u (cs_chn s) = Some row ->
  let '(s1, c1, _) := cstep_c08d s c (CAttachReader u 0) in
  snd (cstep_c08d s1 c1 (CGetDesc u)) = [CDesc 0].
Proof. exact chan_reader_attach_null_c08d. Qed.
(* full subscribers under their own name: cached private = stored private is kept by every {set desc private} *)
Theorem c08_chan_member_coherent_step : forall s c u v tok,
  member_coh_c08d s c v ->
  let '(s', c', _) := cstep_c08d s c (CSetPriv u false tok) in member_coh_c08d s' c' v.
Proof. exact member_set_coh_c08d. Qed.
Print Assumptions c08_chan_private_ack_is_stored_partial.
Print Assumptions c08_chan_private_ack_is_stored_refuted.
Print Assumptions c08_chan_reader_attach_reports_null.
Print Assumptions c08_chan_member_coherent_step.

(* ------------------------------------------------------------------ *)
(* the full statements and their refutations *)
Definition c08_step_coherent_statement : Prop :=
  forall dr nr sm f x o, inv x -> inv_num x -> known sm o -> coherent (fst (step dr nr sm f x o)).

Theorem c08_step_coherent_refuted : ~ c08_step_coherent_statement.
Proof.
  intros H. destruct ref_note_read as [A B C _ _ _ _ D]. apply D. apply (H _ _ _ _ _ _ A B C).
Qed.

(* each excluded hypothesis is necessary: a reachable state and a request that satisfy all the
   other hypotheses of c08_step_coherent_partial and end incoherent *)
Theorem c08_trigger_note_read_needed : exists x f o, refutes 1 x f o.
Proof. eexists _, _, _. exact ref_note_read. Qed.
Theorem c08_trigger_readless_publisher_needed : exists x f o, refutes 2 x f o.
Proof. eexists _, _, _. exact ref_readless_pub. Qed.
Theorem c08_trigger_offline_setsub_needed : exists x f o, refutes 3 x f o.
Proof. eexists _, _, _. exact ref_offline_setsub. Qed.
Theorem c08_fault_publish_seqid_needed : exists x o, refutes 4 x (FailAt 2) o.
Proof. eexists _, _. exact ref_pub_fail2. Qed.
Theorem c08_fault_publish_marks_needed : exists x o, refutes 4 x (FailAt 3) o.
Proof. eexists _, _. exact ref_pub_fail3. Qed.
Theorem c08_fault_delete_needed : exists x o, refutes 4 x (FailAt 3) o.
Proof. eexists _, _. exact ref_del_fail3. Qed.
Theorem c08_fault_owner_transfer_needed : exists x o, refutes 4 x (FailAt 2) o.
Proof. eexists _, _. exact ref_transfer_fail2. Qed.

(* reject law, full statement (any fault plan, banned subscribers included) *)
Definition c08_reject_no_change_statement : Prop :=
  forall dr nr sm f x o, inv x -> inv_num x -> known sm o ->
    err_reply (snd (step dr nr sm f x o)) (op_sid o) -> st (fst (step dr nr sm f x o)) = st x.
Theorem c08_reject_no_change_refuted : ~ c08_reject_no_change_statement.
Proof. intros H. destruct rbc_banned as [A B C D E]. apply E. apply (H _ _ _ _ _ _ A B C D). Qed.
Theorem c08_reject_banned_needed : exists x o, rejected_but_changed x NoFault o /\ trig_banned wit_sm x o.
Proof. eexists _, _. split; [exact rbc_banned|exact rbc_banned_is_trigger]. Qed.
Theorem c08_reject_fault_publish_needed : exists x o, rejected_but_changed x (FailAt 2) o.
Proof. eexists _, _. exact rbc_pub_fail2. Qed.
Theorem c08_reject_fault_delete_needed : exists x o, rejected_but_changed x (FailAt 2) o.
Proof. eexists _, _. exact rbc_del_fail2. Qed.

(* ack law, full statement; refuted by the acknowledged publish whose mark update failed (and by #2) *)
Definition c08_ack_implies_stored_statement : Prop :=
  forall dr nr sm f x o, inv x -> inv_num x -> known sm o ->
    ok_reply (snd (step dr nr sm f x o)) (op_sid o) -> coherent (fst (step dr nr sm f x o)).
Theorem c08_ack_implies_stored_refuted : ~ c08_ack_implies_stored_statement.
Proof.
  intros H. destruct ref_pub_fail3 as [A B C _ _ _ _ D]. apply D. apply (H _ _ _ _ _ _ A B C).
  left. exists 202, [(P_seq, 1)]. split; [vm_compute; auto|lia].
Qed.

Print Assumptions c08_coherent_init.
Print Assumptions c08_coherent_load.
Print Assumptions c08_inv_coherent.
Print Assumptions c08_step_coherent_partial.
Print Assumptions c08_run_coherent_partial.
Print Assumptions c08_reload_invisible.
Print Assumptions c08_reload_anywhere.
Print Assumptions c08_query_agree.
Print Assumptions c08_unload_invisible.
Print Assumptions c08_ack_implies_stored_partial.
Print Assumptions c08_reject_no_change_partial.
Print Assumptions c08_acs_ack_is_stored.
Print Assumptions c08_self_raise_setsub_stored.
Print Assumptions c08_self_raise_sub_stored.
Print Assumptions c08_getdesc_same_modulo_recv_lag.
Print Assumptions c08_note_keeps_recv_lag.
Print Assumptions c08_reported_marks_reload_invisible.
Print Assumptions c08_reject_no_change_refuted.
Print Assumptions c08_reject_banned_needed.
Print Assumptions c08_reject_fault_publish_needed.
Print Assumptions c08_reject_fault_delete_needed.
Print Assumptions c08_ack_implies_stored_refuted.
Print Assumptions c08_step_coherent_refuted.
Print Assumptions c08_trigger_note_read_needed.
Print Assumptions c08_trigger_readless_publisher_needed.
Print Assumptions c08_trigger_offline_setsub_needed.
Print Assumptions c08_fault_publish_seqid_needed.
Print Assumptions c08_fault_publish_marks_needed.
Print Assumptions c08_fault_delete_needed.
Print Assumptions c08_fault_owner_transfer_needed.

(* the hypotheses of c08_reload_anywhere hold for the empty topic of the witnesses *)
Example c08_ex_start : inv (mkState (wit_store 47 47) None 0) /\ inv_num (mkState (wit_store 47 47) None 0) /\ keys_st (mkState (wit_store 47 47) None 0).
Proof. destruct (wit_inv0 47 47 (wit_wf 47 47 eq_refl)) as [A B]. split; [exact A|]. split; [exact B|exact I]. Qed.

(* non-vacuity: a trigger-free history with accepted mutations (two attach, a publish by a reader,
   a received note, a soft delete, a permission change by the owner) satisfies safe_run and ends loaded
   with lastID = 1 (coherent there by c08_run_coherent_partial) *)
Example c08_ex_safe :
  let h := [(NoFault, OSub 1 [] false); (NoFault, OSub 2 [] false); (NoFault, OPub 1 7 false);
            (NoFault, ONote 2 K_recv 1); (NoFault, ODelMsg 2 [(1, 0)] false); (NoFault, OSetSub 1 2 [74; 82; 87]%N)] in
  safe_run del_ranges_i norm_ranges_i wit_sm (mkState (wit_store 47 47) None 0) h /\
  option_map c_lastid (ca (fst (wit_run 47 47 h))) = Some 1.
Proof. cbv zeta. split; [safe_tac|vm_compute; reflexivity]. Qed.

(* the requests the self-raise theorems speak of occur: user 2 (JRWPA/JRWPA) attached through session 2
   asks JRWPAS for himself; the classifier says PB_t_raise_admin, the reply is acs=JRWPAS/JRWPAS, the row holds it *)
Example c08_ex_self_raise :
  perm_branch_c08c wit_sm wit_admin_state_c08c (OSetSub 2 0 m_JRWPAS_c08c) = PB_t_raise_admin /\
  snd (step_i wit_sm NoFault wit_admin_state_c08c (OSetSub 2 0 m_JRWPAS_c08c)) = [(2%N, CtrlAcs 200 0 63 63)] /\
  perm_branch_c08c wit_sm wit_owner_state_c08c (OSetSub 2 0 m_FULL_c08c) = PB_t_accept_raise.
Proof. split; [exact wit_admin_branch_c08c|]. split; [exact (proj1 wit_admin_result_c08c)|exact wit_owner_branch_c08c]. Qed.
