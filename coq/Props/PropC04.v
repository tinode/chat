(* C04, layer 1: the pure range algebra of deletion.
   "A delete request listing ID ranges hides exactly the union of those ranges
    - each range [low, hi) clipped to existing IDs, a range with no upper bound
    or with hi equal to low meaning the single ID low - ... and never any ID
    outside that union, whatever the order, overlap or adjacency of the listed
    ranges" and "the deletion log later reported to a user covers exactly the
    IDs deleted for that user".
   The lemmas the theorems rest on are in Pure/RangesProofs.v.
   All statements are for lists of ANY length and IDs of any size.
   [normalize] is the array program of RangeSorter.Normalize;
   [normalize_unrepaired] is that program without the repair of
   findings/C04_normalize.diff and is refuted below. *)
From Coq Require Import ZArith List Bool Permutation Sorted.
From Tinode Require Import Pure.Ranges Pure.RangesProofs.
Import ListNotations.
Open Scope Z_scope.

(* ---- sort.Sort(RangeSorter) ---- *)

Theorem c04_sort_sorted_permutation : forall rs,
  Permutation (sort rs) rs /\ sorted_less (sort rs).
Proof. intros rs. split; [exact (sort_perm rs)|exact (sort_sorted rs)]. Qed.
Print Assumptions c04_sort_sorted_permutation.

(* Less is a total order on values: ANY permutation ordered by Less is the one
   the model computes, so instability of sort.Sort cannot matter *)
Theorem c04_sorted_permutation_unique : forall rs s,
  Permutation s rs -> sorted_less s -> s = sort rs.
Proof.
  intros rs s HP HS. apply sorted_perm_unique; [exact HS|apply sort_sorted|].
  rewrite HP. symmetry. apply sort_perm.
Qed.
Print Assumptions c04_sorted_permutation_unique.

(* ---- Normalize (repaired) ---- *)

(* the in-place array loop (index prev, result rs[:prev+1] of the mutated
   slice) computes the plain recursive merge *)
Theorem c04_normalize_program : forall rs, normalize rs = normalize_fun rs.
Proof. exact normalize_fun_eq. Qed.
Print Assumptions c04_normalize_program.

(* exactly the union: no ID lost, no ID added; for any sorted permutation *)
Theorem c04_normalize_exact_any : forall rs s x,
  Forall nonneg rs -> Permutation s rs -> sorted_less s ->
  in_ranges x (normalize s) = in_ranges x rs.
Proof. exact normalize_exact_any. Qed.
Print Assumptions c04_normalize_exact_any.

Theorem c04_normalize_exact : forall rs x,
  Forall nonneg rs -> in_ranges x (normalize (sort rs)) = in_ranges x rs.
Proof. exact normalize_exact. Qed.
Print Assumptions c04_normalize_exact.

(* the result is a list of non-empty ranges, each ending at least one ID
   before the next begins *)
Theorem c04_normalize_normal_any : forall rs s,
  Forall wf rs -> Permutation s rs -> sorted_less s -> normal (normalize s).
Proof. exact normalize_normal_any. Qed.
Print Assumptions c04_normalize_normal_any.

Theorem c04_normal_disjoint : forall l1 a l2 b l3 x,
  normal (l1 ++ a :: l2 ++ b :: l3) ->
  upper a < low b /\ (in_range x a = true -> in_range x b = true -> False)
  /\ in_range (upper a) a = false /\ in_range (upper a) b = false.
Proof. exact normal_disjoint. Qed.
Print Assumptions c04_normal_disjoint.

Theorem c04_normal_sorted : forall l, normal l -> sorted_less l.
Proof. exact normal_sorted_less. Qed.
Print Assumptions c04_normal_sorted.

Theorem c04_normal_nonempty : forall l r, normal l -> In r l -> in_range (low r) r = true.
Proof. exact normal_nonempty. Qed.
Print Assumptions c04_normal_nonempty.

Theorem c04_normalize_length : forall s, (length (normalize s) <= length s)%nat.
Proof. exact normalize_length. Qed.
Print Assumptions c04_normalize_length.

(* normalising again changes nothing *)
Theorem c04_normalize_fixpoint : forall l, normal l -> normalize l = l.
Proof. exact normalize_normal_id. Qed.
Print Assumptions c04_normalize_fixpoint.

Theorem c04_normalize_idempotent : forall rs,
  Forall wf rs -> normalize (sort (normalize (sort rs))) = normalize (sort rs).
Proof.
  intros rs Hf. pose proof (normalize_normal rs Hf) as Hn.
  rewrite (sort_sorted_id _ (normal_sorted_less _ Hn)). now apply normalize_normal_id.
Qed.
Print Assumptions c04_normalize_idempotent.

(* ---- Normalize as it is in /repo: refuted ---- *)

Theorem c04_normalize_unrepaired_refuted : ~ normalize_exact_statement normalize_unrepaired.
Proof. exact normalize_unrepaired_refuted. Qed.
Print Assumptions c04_normalize_unrepaired_refuted.

Theorem c04_normalize_repaired_statement : normalize_exact_statement normalize.
Proof.
  intros rs x Hw. apply normalize_exact. eapply Forall_impl; [|exact Hw]. exact wf_nonneg.
Qed.
Print Assumptions c04_normalize_repaired_statement.

Theorem c04_normalize_unrepaired_witnesses :
  normalize_unrepaired [mkRange 1 3; mkRange 2 4; mkRange 10 12] = [mkRange 1 4; mkRange 2 4]
  /\ normalize_unrepaired [mkRange 1 3; mkRange 4 5] = [mkRange 1 5]
  /\ normalize_unrepaired [mkRange 1 3; mkRange 3 0] = [mkRange 1 3]
  /\ normalize_unrepaired [mkRange 1 0; mkRange 1 0; mkRange 5 0] = [mkRange 1 0; mkRange 1 0].
Proof. repeat split; vm_compute; reflexivity. Qed.
Print Assumptions c04_normalize_unrepaired_witnesses.

(* ---- replyDelMsg: what reaches store.Messages.DeleteList ---- *)

Theorem c04_del_ranges_exact : forall lastID req out,
  del_ranges lastID req = Some out ->
  forall x, in_ranges x out = true <-> exists q, In q req /\ req_covers lastID q x.
Proof. exact del_ranges_exact. Qed.
Print Assumptions c04_del_ranges_exact.

Theorem c04_del_ranges_within : forall lastID req out x,
  del_ranges lastID req = Some out -> in_ranges x out = true ->
  0 <= x <= lastID /\ (x = 0 -> exists h, In (0, h) req).
Proof. exact del_ranges_within. Qed.
Print Assumptions c04_del_ranges_within.

Theorem c04_del_ranges_normal : forall lastID req out,
  del_ranges lastID req = Some out -> normal out.
Proof. exact del_ranges_normal. Qed.
Print Assumptions c04_del_ranges_normal.

Theorem c04_del_ranges_accepts : forall lastID req,
  req <> [] -> Forall (req_valid lastID) req ->
  (forall rs, clip_all lastID req = Some rs -> count_all rs <= max_delete_count) ->
  exists out, del_ranges lastID req = Some out.
Proof. exact del_ranges_accepts. Qed.
Print Assumptions c04_del_ranges_accepts.

Theorem c04_del_ranges_rejects_invalid : forall lastID req q,
  In q req -> ~ req_valid lastID q -> del_ranges lastID req = None.
Proof.
  intros lastID req q Hin Hbad. destruct (del_ranges lastID req) as [out|] eqn:E; [|reflexivity].
  destruct (del_ranges_inv _ _ _ E) as (rs & Hc & _ & _).
  destruct (clip_all_spec _ _ _ Hc) as (_ & Hv & _). rewrite Forall_forall in Hv. now apply Hv in Hin.
Qed.
Print Assumptions c04_del_ranges_rejects_invalid.

Theorem c04_del_ranges_unrepaired_refuted : ~ del_ranges_exact_statement del_ranges_unrepaired.
Proof. exact del_ranges_unrepaired_refuted. Qed.
Print Assumptions c04_del_ranges_unrepaired_refuted.

(* the one-entry requests of the existing tests cannot tell the two apart *)
Theorem c04_del_ranges_unrepaired_single : forall lastID q,
  del_ranges_unrepaired lastID [q] = del_ranges lastID [q].
Proof.
  intros lastID q.
  unfold del_ranges_unrepaired, del_ranges, del_ranges_with. cbn [clip_all].
  destruct (clip_one lastID q) as [r|]; reflexivity.
Qed.
Print Assumptions c04_del_ranges_unrepaired_single.

(* ---- the deletion log ---- *)

Theorem c04_dellog_roundtrip : forall r,
  wf r -> wf (dellog_load (dellog_store r))
          /\ forall x, in_range x (dellog_load (dellog_store r)) = in_range x r.
Proof. exact dellog_roundtrip. Qed.
Print Assumptions c04_dellog_roundtrip.

Theorem c04_report_deleted_exact : forall logs x,
  Forall (Forall nonneg) logs ->
  in_ranges x (report_deleted logs) = existsb (in_ranges x) logs.
Proof. exact report_deleted_exact. Qed.
Print Assumptions c04_report_deleted_exact.

Theorem c04_report_deleted_normal : forall logs,
  Forall (Forall wf) logs -> normal (report_deleted logs).
Proof.
  intros logs Hw. unfold report_deleted. apply normalize_normal.
  induction Hw; cbn [concat]; [constructor|]. apply Forall_app. now split.
Qed.
Print Assumptions c04_report_deleted_normal.

(* the log reported for the transactions [reqs] accepted for a user covers
   exactly the IDs those requests denote: no more and no fewer *)
Theorem c04_deletion_log_of_requests : forall (reqs : list (Z * list (Z * Z))) outs x,
  Forall2 (fun rq out => del_ranges (fst rq) (snd rq) = Some out) reqs outs ->
  in_ranges x (report_deleted (stored_log outs)) = true <->
  exists rq q, In rq reqs /\ In q (snd rq) /\ req_covers (fst rq) q x.
Proof. exact deletion_log_of_requests. Qed.
Print Assumptions c04_deletion_log_of_requests.

(* ---- the hypotheses are satisfiable / needed ---- *)

Example c04_ex_request :
  del_ranges 12 [(10, 99); (2, 4); (1, 3); (4, 4); (6, 0); (7, 8)]
  = Some [mkRange 1 5; mkRange 6 8; mkRange 10 13].
Proof. vm_compute. reflexivity. Qed.

Example c04_ex_rejected :
  del_ranges 12 [] = None /\ del_ranges 12 [(13, 0)] = None /\ del_ranges 12 [(0, 0)] = None
  /\ del_ranges 12 [(5, 3)] = None /\ del_ranges 12 [(1, 2); (-1, 0)] = None.
Proof. repeat split; vm_compute; reflexivity. Qed.

Example c04_ex_count_limit :
  del_ranges 3000 [(1, 1500)] = Some [mkRange 1 1500]
  /\ del_ranges 3000 [(1, 600); (700, 1300)] = None
  /\ del_ranges 3000 [(1, 600); (500, 1300)] = Some [mkRange 1 1300].
Proof. repeat split; vm_compute; reflexivity. Qed.

Example c04_ex_nonneg_needed :
  in_ranges (-2) (normalize (sort [mkRange (-3) (-1); mkRange (-1) 0])) = false
  /\ in_ranges (-2) [mkRange (-3) (-1); mkRange (-1) 0] = true.
Proof. split; vm_compute; reflexivity. Qed.

Example c04_ex_log :
  report_deleted (stored_log [[mkRange 1 5; mkRange 6 8]; [mkRange 5 0]; [mkRange 3 9]])
  = [mkRange 1 9].
Proof. vm_compute. reflexivity. Qed.

(* ====================================================================== *)
(* C04, layer 2: history retrieval, permissions, delete transactions, the
   deletion log - over the product model Sys/Topic.v instantiated with the
   range algebra above (Sys/TopicInst.v), for EVERY history.

   Specification (Sys/TopicHist.v): [hspec] = live messages id -> (author,
   content), per-user soft-hidden ids, hard-deleted ids, delete counter;
   user u sees id x iff it is live and not soft-hidden for u ([hs_visible]);
   the ids deleted for u are his soft-hidden ones and the hard-deleted ones
   ([hs_deleted_for]).  Transitions [hs_step]: accepted publish; accepted
   delete, soft = for the requester only / hard = for everyone with the row
   erased, of exactly the ids the request denotes clipped to ids <= lastID
   ([req_ids]); deletion of a subscription forgets that user's own soft
   deletions (the store removes his log rows).  [abs s] reads a specification
   state off the stored message rows and deletion-log rows; [event_of] reads
   the transition off a request, its reply and - for a deletion - the
   requester's effective mode and lastID before it.
   [reach sm s0 h] is the state after history h from the new topic s0.       *)
From Tinode Require Sys.TopicSoftPrivC04.
From Tinode Require Import Pure.Acs Sys.Topic Sys.TopicTac Sys.TopicInst Sys.TopicHist Sys.TopicHistProofs
  Sys.TopicHistInst Sys.TopicHistThm.

(* ---- refinement ---- *)

(* After ANY history (any users, sessions, permission changes, publishes, deletions of any
   range lists, unsubscribe/resubscribe, unload, restart, failing or crashing store calls
   outside the 2nd/3rd store call of a delete request) what the stored rows show IS what the
   specification computes from the accepted requests: nothing else hides or shows a message. *)
Theorem c04_history_refines : forall sm s0 h, hist_init s0 -> hist_ok sm h ->
  heq (abs (st (reach sm s0 h))) (hs_run del_ranges_i norm_ranges_i sm (mkState s0 None 0) h (abs s0)).
Proof. intros sm s0 h HI HO. exact (proj1 (reach_refines sm s0 h HI HO)). Qed.
Print Assumptions c04_history_refines.

(* one request = one specification transition, in every state satisfying the invariant *)
Theorem c04_request_refines : forall sm f x o, inv_hist x -> op_ok sm o -> fault_ok f o ->
  heq (abs (st (fst (step_i sm f x o)))) (hs_step (abs (st x)) (event_of sm x o (snd (step_i sm f x o))))
  /\ inv_del (fst (step_i sm f x o)).
Proof. intros sm f x o I. exact (step_sim del_ranges_i norm_ranges_i sm dr_exact_i f x o (proj2 I)). Qed.
Print Assumptions c04_request_refines.

(* the hypothesis on faults cannot be dropped: a store failure after the first store call of
   a hard delete answers 500 but leaves the message rows erased and the log rows written *)
Theorem c04_refines_any_fault_refuted : ~ refines_any_fault_statement.
Proof.
  intros H. specialize (H [(1%N, 1%N)] wit_s0 wit_hist).
  destruct H as [L _].
  - vm_compute. repeat split.
  - repeat constructor; cbn; discriminate.
  - specialize (L 1). vm_compute in L. discriminate.
Qed.
Print Assumptions c04_refines_any_fault_refuted.

(* what the specification transitions mean for a reader *)
Theorem c04_soft_hides_for_requester_only : forall a u v ids x,
  hs_visible (hs_step a (HDel u false ids)) u x = (if ids x then None else hs_visible a u x) /\
  (v <> u -> hs_visible (hs_step a (HDel u false ids)) v x = hs_visible a v x).
Proof. intros a u v ids x. split; [apply spec_soft_self|apply spec_soft_other]. Qed.
Print Assumptions c04_soft_hides_for_requester_only.

Theorem c04_hard_hides_for_everyone : forall a u v ids x,
  hs_visible (hs_step a (HDel u true ids)) v x = if ids x then None else hs_visible a v x.
Proof.
  intros a u v ids x. unfold hs_visible. cbn. destruct (hs_soft a v x), (ids x); reflexivity.
Qed.
Print Assumptions c04_hard_hides_for_everyone.

Theorem c04_deleted_for_after_delete : forall a u v hard ids x, v <> 0%N ->
  hs_deleted_for (hs_step a (HDel u hard ids)) v x = ((hard || N.eqb v u) && ids x) || hs_deleted_for a v x.
Proof.
  intros a u v hard ids x _. unfold hs_deleted_for. destruct hard; cbn.
  - destruct (ids x), (hs_soft a v x), (hs_hard a x); reflexivity.
  - destruct (N.eqb v u), (ids x), (hs_soft a v x), (hs_hard a x); reflexivity.
Qed.
Print Assumptions c04_deleted_for_after_delete.

(* ---- {get data} ---- *)

(* After ANY history (any faults and crashes), the answer to {get data since before limit}
   from an attached session of a user with R is: the data frames, then the closing {ctrl}
   (204 if none, else 208 with their count); the frames are strictly newest-first, at most
   min(limit, 100) (100 when limit is 0 or larger); every frame is a message inside
   [since, before) that the specification shows to THAT user, with its author and content;
   every such message is in the answer unless the answer is full and it is older than all of it. *)
Theorem c04_get_data_exact : forall sm s0 h c sid since before limit,
  hist_init s0 -> ca (reach sm s0 h) = Some c -> attached c sid = true ->
  is_reader (user_mode c (sess_uid sm sid)) = true ->
  let s := st (reach sm s0 h) in
  let u := sess_uid sm sid in
  let o := snd (step_i sm NoFault (reach sm s0 h) (OGetData sid since before limit)) in
  let fr := data_of o in
  let lim := Z.to_nat (eff_limit max_msg_results limit) in
  o = map (fun e => (sid, Data (fst (fst e)) (snd (fst e)) (snd e))) fr ++ [(sid, data_closing (length fr))] /\
  (length fr <= lim)%nat /\
  StronglySorted data_gt fr /\
  (forall x a ct, In (x, a, ct) fr -> in_window since before x = true /\ hs_visible (abs s) u x = Some (a, ct)) /\
  (forall x a ct, in_window since before x = true -> hs_visible (abs s) u x = Some (a, ct) ->
     In (x, a, ct) fr \/ (length fr = lim /\ forall e, In e fr -> x < fst (fst e))).
Proof.
  intros sm s0 h c sid since before limit HI CA AT R. cbn zeta.
  pose proof (reach_nodup sm s0 h HI) as ND.
  destruct (reach sm s0 h) as [s cx n0]. cbn [st ca] in *. subst cx.
  rewrite (step_get_data sm NoFault s c n0 sid since before limit AT).
  exact (get_data_exact NoFault s c 0 sid (sess_uid sm sid) since before limit ND R eq_refl).
Qed.
Print Assumptions c04_get_data_exact.

Theorem c04_get_data_limit : forall limit,
  0 < eff_limit max_msg_results limit <= max_msg_results /\ (0 < limit -> eff_limit max_msg_results limit <= limit).
Proof. intros limit. apply eff_limit_bound. reflexivity. Qed.
Print Assumptions c04_get_data_limit.

(* a user without R gets none; a session that is not attached is refused *)
Theorem c04_get_data_needs_read : forall sm f s c n0 sid since before limit, attached c sid = true ->
  is_reader (user_mode c (sess_uid sm sid)) = false ->
  snd (step_i sm f (mkState s (Some c) n0) (OGetData sid since before limit)) = [(sid, Ctrl 204 [(P_what, 1)])].
Proof.
  intros f s c n0 sid since before limit AT R. rewrite (step_get_data f s c n0 sid since before limit AT). apply get_data_no_read. exact R.
Qed.
Print Assumptions c04_get_data_needs_read.

Theorem c04_get_data_needs_attach : forall sm f s cx n0 sid since before limit,
  match cx with Some c => attached c sid = false | None => True end ->
  step_i sm f (mkState s cx n0) (OGetData sid since before limit) = (mkState s cx 0, [(sid, Ctrl 403 [])]).
Proof. intros sm f s cx n0 sid since before limit AT. unfold step_i, step. cbn [st ca]. destruct cx as [c|]; [rewrite AT|]; reflexivity. Qed.
Print Assumptions c04_get_data_needs_attach.

(* ---- {del msg} ---- *)

(* The four outcomes of a delete request (store calls 2 and 3 not failing).  The hard flag is
   decided first: hard-effective = asked hard AND D in the effective mode (want & given);
   otherwise the request is silently soft, and a soft deletion needs R.  Refused 403 iff
   (not hard-effective and no R); 400 iff the range list is refused (layer 1:
   c04_del_ranges_accepts / _rejects_invalid); 500 on a failing first store call; else accepted:
   reply 200 with del = delID+1, written for everyone (user 0) when hard-effective and for the
   requester when soft. *)
Theorem c04_delete_request : forall f s c sid u req hard0,
  fails f 1 = true \/ (fails f 2 = false /\ fails f 3 = false) ->
  let h := del_msg del_ranges_i f s c 0 sid u req hard0 in
  del_denied s c sid u hard0 h \/ del_malformed del_ranges_i s c sid u req hard0 h \/
  del_store_failed del_ranges_i s c sid u req hard0 h \/ del_accepted del_ranges_i s c sid u req hard0 h.
Proof. exact (del_msg_cases del_ranges_i). Qed.
Print Assumptions c04_delete_request.

(* the gate alone, under ANY faults: 403 (nothing changed, no store call) iff
   not (asked hard and D) and not R *)
Theorem c04_delete_gate : forall f s c n sid u req hard0,
  (del_gate hard0 (user_mode c u) = true -> del_msg del_ranges_i f s c n sid u req hard0 = mkH s c n [(sid, Ctrl 403 [])]) /\
  (h_out (del_msg del_ranges_i f s c n sid u req hard0) = [(sid, Ctrl 403 [])] -> del_gate hard0 (user_mode c u) = true).
Proof.
  intros f s c n sid u req hard.
  unfold del_msg, del_gate. destruct (negb (hard && is_deleter (user_mode c u)) && negb (is_reader (user_mode c u))).
  - split; reflexivity.
  - split; [discriminate|]. repeat break_match; cbn [h_out]; intros H; inv H.
Qed.
Print Assumptions c04_delete_gate.

(* the ranges handed to the store cover exactly the ids the request denotes *)
Theorem c04_delete_ids_exact : forall last req out, del_ranges_i last req = Some out ->
  forall x, covers out x = req_ids last req x.
Proof. exact dr_exact_i. Qed.
Print Assumptions c04_delete_ids_exact.

(* message rows: a soft delete (asked for, or degraded for lack of D) touches none; a hard one
   stamps exactly the live rows the request denotes with the transaction number and erases
   their content; the stored delete counter becomes delID+1 *)
Theorem c04_delete_rows : forall s c sid u req hard0 h, u <> 0%N ->
  del_accepted del_ranges_i s c sid u req hard0 h ->
  t_delid (h_st h) = c_delid c + 1 /\
  if hard0 && is_deleter (user_mode c u)
  then msgs (h_st h) = map (fun m => if (m_delid m =? 0) && req_ids (c_lastid c) req (m_seq m)
                                     then mkMsg (m_seq m) (m_from m) 0%N (c_delid c + 1) else m) (msgs s)
  else msgs (h_st h) = msgs s.
Proof.
  intros s c sid u req hard0 h.
  intros Hu [_ [rs [DR A]]]. cbn zeta in A. destruct A as [_ [ES _]]. rewrite ES. split.
  - destruct (hsame_subs_update (st_delid (c_delid c + 1) (ad_msg_delete_list s (c_delid c + 1)
              (if hard0 && is_deleter (user_mode c u) then 0%N else u) rs))
              (if hard0 && is_deleter (user_mode c u) then 0%N else u) (mkUpd None None None None (Some (c_delid c + 1)))) as [_ [_ ->]].
    reflexivity.
  - rewrite TopicNum.msgs_subs_update. unfold ad_msg_delete_list.
    destruct (hard0 && is_deleter (user_mode c u)); cbn [N.eqb msgs st_delid st_msgs st_dellog].
    + apply map_ext. intros m. fold (covers rs (m_seq m)). now rewrite (dr_exact_i _ _ _ DR).
    + replace (u =? 0)%N with false by (symmetry; apply N.eqb_neq; exact Hu). reflexivity.
Qed.
Print Assumptions c04_delete_rows.

(* "for the requester only when soft": a request that is not hard-effective (asked soft, or asked
   hard without D and silently made soft), whatever its outcome and under ANY faults, leaves the
   cached record - in particular the deletion mark - of every OTHER user untouched and answers the
   requesting session only; the hard-effective request, by contrast, marks every cached user *)
Theorem c04_soft_private : forall f s c n sid u req hard0 v,
  hard0 && is_deleter (user_mode c u) = false -> v <> u ->
  let h := del_msg del_ranges_i f s c n sid u req hard0 in
  alookup v (c_users (h_ca h)) = alookup v (c_users c) /\ forall fr, In fr (h_out h) -> fst fr = sid.
Proof. exact (Sys.TopicSoftPrivC04.del_msg_soft_private del_ranges_i). Qed.
Print Assumptions c04_soft_private.
Theorem c04_hard_marks_everyone : forall s c sid u req ranges v p,
  is_deleter (user_mode c u) = true -> del_ranges_i (c_lastid c) req = Some ranges ->
  alookup v (c_users c) = Some p ->
  exists p', alookup v (c_users (h_ca (del_msg del_ranges_i NoFault s c 0 sid u req true))) = Some p' /\
             p_delid p' = (c_delid c + 1)%Z.
Proof. exact (Sys.TopicSoftPrivC04.del_msg_hard_marks_everyone del_ranges_i). Qed.
Print Assumptions c04_hard_marks_everyone.

(* delID of the loaded topic is the stored counter: an accepted request gets the NEXT number *)
Theorem c04_delid_next : forall sm s0 h c, hist_init s0 -> hist_ok sm h -> ca (reach sm s0 h) = Some c ->
  c_delid c = t_delid (st (reach sm s0 h)) /\ 0 <= t_delid (st (reach sm s0 h)).
Proof.
  intros sm s0 h c HI HO CA. destruct (reach_refines sm s0 h HI HO) as [_ [_ [I0 IC]]].
  rewrite CA in IC. exact (conj (proj1 IC) I0).
Qed.
Print Assumptions c04_delid_next.

(* "soft deletion requires read permission" (the code after 2721db4): under ANY faults, every
   accepted deletion that is not hard-effective - asked soft, or asked hard by a requester
   without D and silently made soft - was made by a requester with R in want & given *)
Theorem c04_soft_needs_read : forall f s c sid u req hard d,
  hard && is_deleter (user_mode c u) = false ->
  h_out (del_msg del_ranges_i f s c 0 sid u req hard) = [(sid, Ctrl 200 [(P_del, d)])] ->
  is_reader (user_mode c u) = true.
Proof. exact soft_needs_read. Qed.
Print Assumptions c04_soft_needs_read.

(* the same for a request of an attached session through [step], in any state *)
Theorem c04_soft_needs_read_step : forall sm f s c n0 sid req hard d, attached c sid = true ->
  hard && is_deleter (user_mode c (sess_uid sm sid)) = false ->
  snd (step_i sm f (mkState s (Some c) n0) (ODelMsg sid req hard)) = [(sid, Ctrl 200 [(P_del, d)])] ->
  is_reader (user_mode c (sess_uid sm sid)) = true.
Proof.
  intros sm f s c n0 sid req hard d AT D. rewrite (step_del_msg sm f s c n0 sid req hard AT). cbn zeta.
  cbn [snd]. apply soft_needs_read. exact D.
Qed.
Print Assumptions c04_soft_needs_read_step.

(* the gate of the code BEFORE 2721db4 ([del_gate_unrepaired]: R asked for only when D is
   missing) is refuted - JWD without R, soft request; it held only for requesters without D;
   the two gates differ exactly for D without R and a soft request *)
Theorem c04_gate_soft_needs_read : gate_soft_needs_read_statement del_gate.
Proof.
 intros hard0 mode D. unfold del_gate. rewrite D. cbn [negb andb]. destruct (is_reader mode); [reflexivity|discriminate].
Qed.
Print Assumptions c04_gate_soft_needs_read.

Theorem c04_gate_unrepaired_refuted : ~ gate_soft_needs_read_statement del_gate_unrepaired.
Proof. intros H. specialize (H false 69%N eq_refl eq_refl). vm_compute in H. discriminate. Qed.
Print Assumptions c04_gate_unrepaired_refuted.

Theorem c04_gate_unrepaired_partial : forall hard0 mode,
  is_deleter mode = false -> del_gate_unrepaired hard0 mode = false -> is_reader mode = true.
Proof.
  intros hard0 mode D. unfold del_gate_unrepaired. rewrite D. cbn [negb andb]. destruct (is_reader mode); [reflexivity|discriminate].
Qed.
Print Assumptions c04_gate_unrepaired_partial.

Theorem c04_gate_differs : forall hard0 mode,
  del_gate hard0 mode <> del_gate_unrepaired hard0 mode <-> (is_deleter mode = true /\ is_reader mode = false /\ hard0 = false).
Proof.
  intros hard0 mode. unfold del_gate, del_gate_unrepaired. destruct hard0, (is_deleter mode), (is_reader mode); cbn; intuition congruence.
Qed.
Print Assumptions c04_gate_differs.

(* non-vacuity: a JWD user's soft delete is refused, his hard one accepted; the owner soft-deletes *)
Example c04_ex_soft_needs_read :
  h_out (del_msg del_ranges_i NoFault wit_store wit_cache 0 2%N 2%N [(1, 0)] false) = [(2%N, Ctrl 403 [])] /\
  h_out (del_msg del_ranges_i NoFault wit_store wit_cache 0 2%N 2%N [(1, 0)] true) = [(2%N, Ctrl 200 [(P_del, 1)])] /\
  h_out (del_msg del_ranges_i NoFault wit_store wit_cache 0 1%N 1%N [(1, 0)] false) = [(1%N, Ctrl 200 [(P_del, 1)])].
Proof. repeat split; vm_compute; reflexivity. Qed.

(* ---- {get del} ---- *)

(* After ANY history (any faults), for a reader, when the selected log rows fit the limit: no
   row selected -> 204; else one {meta del} whose ranges cover exactly the ids named by the
   log rows written for everyone or for THAT user with transaction number in [since, before),
   and whose delid is the largest selected transaction number. *)
Theorem c04_get_del_exact : forall sm s0 h c sid since before limit,
  hist_init s0 -> ca (reach sm s0 h) = Some c -> attached c sid = true ->
  is_reader (user_mode c (sess_uid sm sid)) = true ->
  let s := st (reach sm s0 h) in
  let u := sess_uid sm sid in
  let o := snd (step_i sm NoFault (reach sm s0 h) (OGetDel sid since before limit)) in
  (length (filter (del_sel u since before) (dellog s)) <= Z.to_nat (eff_limit max_results limit))%nat ->
  (o = [(sid, Ctrl 204 [(P_what, 3)])] /\ forall x, logged_sel s u since before x = false) \/
  (exists maxid rs, o = [(sid, MetaDel maxid rs)] /\
     (forall x, covers rs x = logged_sel s u since before x) /\
     (forall d, In d (dellog s) -> del_sel u since before d = true -> d_delid d <= maxid) /\
     (exists d, In d (dellog s) /\ del_sel u since before d = true /\ d_delid d = maxid)).
Proof.
  intros sm s0 h c sid since before limit HI CA AT R. cbn zeta. intros L.
  pose proof (reach_wf sm s0 h HI) as W.
  destruct (reach sm s0 h) as [s cx n0]. cbn [st ca] in *. subst cx.
  rewrite (step_get_del sm NoFault s c n0 sid since before limit AT).
  exact (get_del_answer norm_ranges_i nr_exact_i NoFault s c 0 sid (sess_uid sm sid) since before limit W R eq_refl L).
Qed.
Print Assumptions c04_get_del_exact.

(* an unrestricted query reports exactly the ids deleted for that user: no more, no fewer *)
Theorem c04_get_del_open : forall sm s0 h u since before x, hist_init s0 -> since <= 0 -> before <= 1 ->
  logged_sel (st (reach sm s0 h)) u since before x = hs_deleted_for (abs (st (reach sm s0 h))) u x.
Proof. intros sm s0 h u since before x HI H1 H2. apply logged_sel_open; [apply reach_wf; exact HI|exact H1|exact H2]. Qed.
Print Assumptions c04_get_del_open.

Theorem c04_get_del_needs_read : forall sm f s c n0 sid since before limit, attached c sid = true ->
  is_reader (user_mode c (sess_uid sm sid)) = false ->
  snd (step_i sm f (mkState s (Some c) n0) (OGetDel sid since before limit)) = [(sid, Ctrl 204 [(P_what, 3)])].
Proof.
  intros f s c n0 sid since before limit AT R. rewrite (step_get_del f s c n0 sid since before limit AT). apply get_del_no_read. exact R.
Qed.
Print Assumptions c04_get_del_needs_read.

(* in every reachable state, whatever the faults: message numbers are unique and every log row
   is a non-empty range of non-negative ids with a non-negative transaction number *)
Theorem c04_rows_wellformed : forall sm s0 h, hist_init s0 ->
  NoDup (seqs (st (reach sm s0 h))) /\ dellog_wf (st (reach sm s0 h)).
Proof. intros sm s0 h HI. split; [apply reach_nodup|apply reach_wf]; exact HI. Qed.
Print Assumptions c04_rows_wellformed.

(* non-vacuity: two users, three messages; a hard request of a member without D is a soft one
   (only he stops seeing 1, 2); the owner's hard delete of 3, 2 erases them for both; the
   deletion log reported to each covers exactly what was deleted for him *)
Example c04_ex_history :
  let r := run_i [(1%N, 1%N); (2%N, 2%N)] (mkState ex_s0 None 0) ex_hist in
  map (fun o => map (fun e => fst (fst e)) (data_of o)) (skipn 5 (snd r)) =
    [[]; [3]; [3; 2; 1]; []; [1]; []; []] /\
  nth 5 (snd r) [] = [(2%N, Ctrl 200 [(P_del, 1)])] /\
  nth 8 (snd r) [] = [(1%N, Ctrl 200 [(P_del, 2)])] /\
  nth 10 (snd r) [] = [(2%N, MetaDel 2 [(1, 4)])] /\
  nth 11 (snd r) [] = [(1%N, MetaDel 2 [(2, 4)])] /\
  map m_delid (msgs (st (fst r))) = [0; 2; 2].
Proof. vm_compute. repeat split. Qed.

(* ====================================================================== *)
(* C04, layer 2, requests executed ON BEHALF OF another user ({extra: {obo: u}}).

   "... minus those hard-deleted for everyone or soft-deleted by THAT SAME USER ... another
   user's soft deletions hide nothing": the user of a request is the user it is executed as
   (msg.AsUser): the session's own user, or - for a root session only - the user named by
   extra.obo.  Model: Sys/TopicOboC04.v.  A request is [QReq obo op], or [QSubGet obo ...] for
   {sub get="data del"}; [dispatch_as_c04] is
   Session.dispatch's choice of the acting user (403 for a non-root session naming a user, 400
   for a malformed name); an executed request is one [step] of the product model under the
   session map in which the session stands for the acting user (a root session = a family of
   virtual sessions sharing one attachment); [ostep_c04] / [orun_c04] return [None] outside the
   modelled fragment of a root session's requests (see the head of Sys/TopicOboC04.v);
   [oevent_c04] attributes an accepted publish / deletion to the ACTING user.
   All statements are for every history of (obo, op) requests, any users, sessions, root flags,
   modes and store faults unless a hypothesis says otherwise.                               *)
From Tinode Require Import Sys.TopicOboC04 Sys.TopicOboC04Proofs.

(* ---- who a request is executed as ---- *)

Theorem c04_obo_dispatch : forall sm roots sid ob u, dispatch_as_c04 sm roots sid ob = inl u ->
  (ob = OboNone /\ u = sess_uid sm sid) \/ (ob = OboUser u /\ is_root_c04 roots sid = true /\ u <> 0%N).
Proof.
  intros sm roots sid ob u.
  destruct ob as [|v|]; cbn.
  - intros H. inv H. left. auto.
  - destruct (is_root_c04 roots sid); cbn; [|discriminate]. destruct (v =? 0)%N eqn:E; [discriminate|].
    intros H. inv H. right. repeat split. apply N.eqb_neq. exact E.
  - destruct (is_root_c04 roots sid); discriminate.
Qed.
Print Assumptions c04_obo_dispatch.

(* a session that is not root cannot act for anybody else: 403, no store call, nothing changed *)
Theorem c04_obo_needs_root : forall sm roots f x ob o sid, op_sid o = Some sid ->
  has_obo_c04 ob = true -> is_root_c04 roots sid = false ->
  ostep_c04 sm roots f x (QReq ob o) = Some (mkState (st x) (ca x) 0, [(sid, Ctrl 403 [])]).
Proof.
  intros sm roots f x ob o sid S H R. apply ostep_refused; [exact S|]. apply dispatch_needs_root; assumption.
Qed.
Print Assumptions c04_obo_needs_root.

(* the wrapper is conservative: a history without extra.obo and without root sessions runs
   exactly as the product model of the second part *)
Theorem c04_obo_conservative : forall sm h x,
  orun_c04 sm [] x (map (fun fo => (fst fo, QReq OboNone (snd fo))) h) = Some (run_i sm x h).
Proof.
  intros sm h.
  induction h as [|[f o] h IH]; intros x; cbn [map orun_c04 fst snd]; [reflexivity|].
  unfold run_i. cbn [run]. fold (run_i sm).
  assert (ostep_c04 sm [] f x (QReq OboNone o) = Some (step_i sm f x o)) as E.
  { destruct (op_sid o) as [sid|] eqn:S; [apply (ostep_plain sm [] f x o sid S eq_refl)|].
    unfold ostep_c04. rewrite S. reflexivity. }
  unfold ostep_f_c04. cbn [fst snd]. rewrite E. unfold step_f. cbn [fst snd]. fold (step_i sm f x o).
  destruct (step_i sm f x o) as [x1 o1].
  destruct f; rewrite IH; unfold run_i;
    match goal with |- context [run _ _ _ ?y h] => destruct (run del_ranges_i norm_ranges_i sm y h) end; reflexivity.
Qed.
Print Assumptions c04_obo_conservative.

(* ---- refinement: every accepted request is a specification transition of the ACTING user ---- *)

Theorem c04_obo_history_refines : forall sm roots s0 h x,
  hist_init s0 -> ohist_ok_c04 sm roots h -> oreach_c04 sm roots s0 h = Some x ->
  heq (abs (st x)) (ohs_run_c04 sm roots (mkState s0 None 0) h (abs s0)) /\ inv_hist x.
Proof.
  intros sm roots s0 h x HI HO R. unfold oreach_c04 in R.
  destruct (orun_c04 sm roots (mkState s0 None 0) h) as [[xf outs]|] eqn:ER; [|discriminate]. inv R.
  apply (orun_refines sm roots h (mkState s0 None 0) (abs s0) x outs); [| exact HO | apply heq_refl | exact ER].
  apply fresh_inv_hist. apply hist_init_fresh. exact HI.
Qed.
Print Assumptions c04_obo_history_refines.

Theorem c04_obo_request_refines : forall sm roots x fq x1 o1, inv_hist x -> oreq_ok_c04 sm roots fq ->
  ostep_f_c04 sm roots x fq = Some (x1, o1) ->
  heq (abs (st x1)) (hs_step (abs (st x)) (oevent_c04 sm roots x (snd fq) o1)) /\ inv_hist x1.
Proof. exact ostep_f_sim. Qed.
Print Assumptions c04_obo_request_refines.

(* the transition of an accepted {del msg}: the deletion is the ACTING user's - soft: hidden
   from him only (c04_soft_hides_for_requester_only), hard iff asked and D in HIS mode *)
Theorem c04_obo_delete_is_acting_users : forall sm roots s c n0 sid ob u req hard ou,
  attached c sid = true -> dispatch_as_c04 sm roots sid ob = inl u ->
  oevent_c04 sm roots (mkState s (Some c) n0) (QReq ob (ODelMsg sid req hard)) ou =
  match head_frame ou with
  | Some (Ctrl code [(_, _)]) =>
    if code =? 200 then HDel u (hard && is_deleter (user_mode c u)) (req_ids (c_lastid c) req) else HNone
  | _ => HNone
  end.
Proof.
  intros sm roots s c n0 sid ob u req hard ou AT D. unfold oevent_c04, acting_c04. cbn [q_op q_obo op_sid]. rewrite D.
  unfold event_of. cbn [ca]. rewrite sess_uid_as.
  reflexivity.
Qed.
Print Assumptions c04_obo_delete_is_acting_users.

(* ---- the three requests depend on the acting user only ---- *)

(* an attached session: {get data} / {get del} / {del msg} are the topic's handlers applied to
   the ACTING user (his mode in the cache, his rows in the deletion log), under any faults,
   whoever owns the session and whoever it is attached as *)
Theorem c04_obo_query_runs_as_acting : forall sm roots f s c n0 sid ob u q, attached c sid = true ->
  dispatch_as_c04 sm roots sid ob = inl u ->
  ostep_c04 sm roots f (mkState s (Some c) n0) (QReq ob (op_of_query_c04 sid q)) =
  Some (let h := handle_query_c04 f s c sid u q in (mkState (h_st h) (Some (h_ca h)) (h_n h), h_out h)).
Proof. exact ostep_query. Qed.
Print Assumptions c04_obo_query_runs_as_acting.

(* two attached sessions acting for the same user (a root session with extra.obo = u and u's own
   session, or two root sessions) get the same frames and leave the same state behind *)
Theorem c04_obo_same_answer : forall sm roots f s c n0 sid1 ob1 sid2 ob2 u q,
  attached c sid1 = true -> attached c sid2 = true ->
  dispatch_as_c04 sm roots sid1 ob1 = inl u -> dispatch_as_c04 sm roots sid2 ob2 = inl u ->
  exists x' o1 o2,
    ostep_c04 sm roots f (mkState s (Some c) n0) (QReq ob1 (op_of_query_c04 sid1 q)) = Some (x', o1) /\
    ostep_c04 sm roots f (mkState s (Some c) n0) (QReq ob2 (op_of_query_c04 sid2 q)) = Some (x', o2) /\
    map snd o1 = map snd o2 /\ Forall (fun e => fst e = sid1) o1 /\ Forall (fun e => fst e = sid2) o2.
Proof.
  intros sm roots f s c n0 sid1 ob1 sid2 ob2 u q A1 A2 D1 D2.
  rewrite (ostep_query sm roots f s c n0 sid1 ob1 u q A1 D1), (ostep_query sm roots f s c n0 sid2 ob2 u q A2 D2).
  rewrite (handle_query_session f s c sid1 sid2 u q).
  set (h := handle_query_c04 f s c sid1 u q).
  assert (h_out h = retag sid1 (h_out h)) as K.
  { pose proof (handle_query_session f s c sid1 sid1 u q) as K. fold h in K. cbn zeta in K.
    rewrite K at 1. reflexivity. }
  cbn zeta. cbn [h_st h_ca h_n h_out].
  eexists _, _, _. split; [reflexivity|]. split; [reflexivity|].
  split; [unfold retag; rewrite map_map; reflexivity|].
  split; [rewrite K|]; unfold retag; apply Forall_forall; intros e He; apply in_map_iff in He;
    destruct He as [e0 [<- _]]; reflexivity.
Qed.
Print Assumptions c04_obo_same_answer.

(* the attached-session test is about the SESSION: not attached -> 403 (get) / 409 (del), nothing
   changed, whoever it acts for and whatever other sessions that user has *)
Theorem c04_obo_needs_attach : forall sm roots f s cx n0 sid ob u q,
  match cx with Some c => attached c sid = false | None => True end ->
  dispatch_as_c04 sm roots sid ob = inl u ->
  ostep_c04 sm roots f (mkState s cx n0) (QReq ob (op_of_query_c04 sid q)) =
  Some (mkState s cx 0, [(sid, Ctrl (match q with QDelMsg _ _ => 409 | _ => 403 end) [])]).
Proof.
  intros sm roots f s cx n0 sid ob u q AT D.
  rewrite (ostep_acting sm roots f _ ob _ sid u (op_sid_query sid q) D (fun _ => root_ok_query _ sid u ob q)).
  f_equal. destruct q; cbn [op_of_query_c04]; unfold step_i, step; cbn [st ca]; (destruct cx as [c|]; [rewrite AT|]); reflexivity.
Qed.
Print Assumptions c04_obo_needs_attach.

(* ---- {sub get="data del"} ---- *)

(* the subscription part, then - unless it was refused - replyGetData and replyGetDel for the
   SAME acting user ([sub_get_c04], the model of handleSubscription) *)
Theorem c04_obo_sub_get_runs_as_acting : forall sm roots f x ob sid u want bkg gd gl,
  dispatch_as_c04 sm roots sid ob = inl u ->
  (is_root_c04 roots sid = true -> has_obo_c04 ob = true) ->
  ostep_c04 sm roots f x (QSubGet ob sid want bkg gd gl) =
  Some (sub_get_c04 (sm_as_c04 sm sid u) f x sid u want bkg gd gl).
Proof.
  intros sm roots f x ob sid u want bkg gd gl D R. cbn [ostep_c04]. rewrite D.
  destruct (is_root_c04 roots sid); cbn [andb]; [rewrite (R eq_refl)|]; reflexivity.
Qed.
Print Assumptions c04_obo_sub_get_runs_as_acting.

(* without store faults its frames are the subscription reply followed by what {get data} and
   {get del} from the now attached session answer for that user: c04_obo_get_data_exact /
   c04_obo_get_del_exact / c04_obo_same_answer apply to them *)
Theorem c04_obo_sub_get_as_requests : forall sm' x sid want bkg a b l a' b' l' x1 o1 c,
  step_i sm' NoFault x (OSub sid want bkg) = (x1, o1) -> sub_accepted_c04 sid o1 = true ->
  ca x1 = Some c -> attached c sid = true ->
  let r := sub_get_c04 sm' NoFault x sid (sess_uid sm' sid) want bkg (Some (a, b, l)) (Some (a', b', l')) in
  snd r = o1 ++ snd (step_i sm' NoFault x1 (OGetData sid a b l)) ++ snd (step_i sm' NoFault x1 (OGetDel sid a' b' l')) /\
  st (fst r) = st x1 /\ ca (fst r) = ca x1.
Proof.
  intros sm' x sid want bkg a b l a' b' l' x1 o1 c E A CA AT. cbn zeta. unfold sub_get_c04. rewrite E, A, CA. cbn [fst snd st ca].
  destruct (TopicFrame.get_data_same NoFault (st x1) c (ncalls x1) sid (sess_uid sm' sid) a b l) as [E1 E2]. rewrite E1, E2.
  destruct (TopicFrame.get_del_same norm_ranges_i NoFault (st x1) c
              (h_n (get_data NoFault (st x1) c (ncalls x1) sid (sess_uid sm' sid) a b l)) sid (sess_uid sm' sid) a' b' l') as [E3 E4].
  rewrite E3, E4. split; [|split; reflexivity].
  destruct x1 as [s1 cx1 n1]. cbn [st ca ncalls] in *. subst cx1.
  unfold step_i, step. cbn [st ca]. rewrite AT. cbn [negb snd].
  rewrite (get_data_nofault_n s1 c n1 0), (get_del_nofault_n s1 c _ 0). reflexivity.
Qed.
Print Assumptions c04_obo_sub_get_as_requests.

Theorem c04_obo_sub_get_refused : forall sm' f x sid u want bkg gd gl,
  sub_accepted_c04 sid (snd (step_i sm' f x (OSub sid want bkg))) = false ->
  sub_get_c04 sm' f x sid u want bkg gd gl = step_i sm' f x (OSub sid want bkg).
Proof.
  intros sm' f x sid u want bkg gd gl A. unfold sub_get_c04.
  destruct (step_i sm' f x (OSub sid want bkg)) as [x1 o1]. cbn [snd] in A. rewrite A. reflexivity.
Qed.
Print Assumptions c04_obo_sub_get_refused.

(* ---- {get data} / {get del} after ANY history with obo requests (any faults) ---- *)

(* the answer is exactly the ACTING user's view of the history per the specification: newest
   first, at most min(limit,100), every frame a message in [since,before) visible to u with its
   author and content, every such message present unless the answer is full and it is older *)
Theorem c04_obo_get_data_exact : forall sm roots s0 h x c sid ob u since before limit,
  hist_init s0 -> oreach_c04 sm roots s0 h = Some x -> ca x = Some c -> attached c sid = true ->
  dispatch_as_c04 sm roots sid ob = inl u -> is_reader (user_mode c u) = true ->
  exists x' o, ostep_c04 sm roots NoFault x (QReq ob (OGetData sid since before limit)) = Some (x', o) /\
  st x' = st x /\
  let fr := data_of o in
  let lim := Z.to_nat (eff_limit max_msg_results limit) in
  o = map (fun e => (sid, Data (fst (fst e)) (snd (fst e)) (snd e))) fr ++ [(sid, data_closing (length fr))] /\
  (length fr <= lim)%nat /\
  StronglySorted data_gt fr /\
  (forall y a ct, In (y, a, ct) fr -> in_window since before y = true /\ hs_visible (abs (st x)) u y = Some (a, ct)) /\
  (forall y a ct, in_window since before y = true -> hs_visible (abs (st x)) u y = Some (a, ct) ->
     In (y, a, ct) fr \/ (length fr = lim /\ forall e, In e fr -> y < fst (fst e))).
Proof.
  intros sm roots s0 h x c sid ob u since before limit HI R CA AT D RD.
  destruct (oreach_rows sm roots s0 h x HI R) as [ND _].
  destruct x as [s cx n0]. cbn [st ca] in *. subst cx.
  pose proof (ostep_query sm roots NoFault s c n0 sid ob u (QData since before limit) AT D) as E.
  cbn [op_of_query_c04 handle_query_c04] in E. cbn zeta in E.
  eexists _, _. split; [exact E|]. cbn [st]. split; [apply TopicFrame.get_data_same|].
  exact (get_data_exact NoFault s c 0 sid u since before limit ND RD eq_refl).
Qed.
Print Assumptions c04_obo_get_data_exact.

Theorem c04_obo_get_del_exact : forall sm roots s0 h x c sid ob u since before limit,
  hist_init s0 -> oreach_c04 sm roots s0 h = Some x -> ca x = Some c -> attached c sid = true ->
  dispatch_as_c04 sm roots sid ob = inl u -> is_reader (user_mode c u) = true ->
  (length (filter (del_sel u since before) (dellog (st x))) <= Z.to_nat (eff_limit max_results limit))%nat ->
  exists x' o, ostep_c04 sm roots NoFault x (QReq ob (OGetDel sid since before limit)) = Some (x', o) /\
  st x' = st x /\
  ((o = [(sid, Ctrl 204 [(P_what, 3)])] /\ forall y, logged_sel (st x) u since before y = false) \/
   (exists maxid rs, o = [(sid, MetaDel maxid rs)] /\
      (forall y, covers rs y = logged_sel (st x) u since before y) /\
      (forall d, In d (dellog (st x)) -> del_sel u since before d = true -> d_delid d <= maxid) /\
      (exists d, In d (dellog (st x)) /\ del_sel u since before d = true /\ d_delid d = maxid))).
Proof.
  intros sm roots s0 h x c sid ob u since before limit HI R CA AT D RD L.
  destruct (oreach_rows sm roots s0 h x HI R) as [_ W].
  destruct x as [s cx n0]. cbn [st ca] in *. subst cx.
  pose proof (ostep_query sm roots NoFault s c n0 sid ob u (QDel since before limit) AT D) as E.
  cbn [op_of_query_c04 handle_query_c04] in E. cbn zeta in E.
  eexists _, _. split; [exact E|]. cbn [st]. split; [apply TopicFrame.get_del_same|].
  exact (get_del_answer norm_ranges_i nr_exact_i NoFault s c 0 sid u since before limit W RD eq_refl L).
Qed.
Print Assumptions c04_obo_get_del_exact.

(* the ACTING user has no R: nothing is shown, whatever the session's own user may read *)
Theorem c04_obo_needs_read : forall sm roots f s c n0 sid ob u since before limit, attached c sid = true ->
  dispatch_as_c04 sm roots sid ob = inl u -> is_reader (user_mode c u) = false ->
  ostep_c04 sm roots f (mkState s (Some c) n0) (QReq ob (OGetData sid since before limit)) =
    Some (mkState s (Some c) 0, [(sid, Ctrl 204 [(P_what, 1)])]) /\
  ostep_c04 sm roots f (mkState s (Some c) n0) (QReq ob (OGetDel sid since before limit)) =
    Some (mkState s (Some c) 0, [(sid, Ctrl 204 [(P_what, 3)])]).
Proof.
  intros sm roots f s c n0 sid ob u since before limit AT D RD. split.
  - change (OGetData sid since before limit) with (op_of_query_c04 sid (QData since before limit)).
    rewrite (ostep_query sm roots f s c n0 sid ob u (QData since before limit) AT D).
    cbn [handle_query_c04]. cbn zeta. unfold get_data. rewrite RD. reflexivity.
  - change (OGetDel sid since before limit) with (op_of_query_c04 sid (QDel since before limit)).
    rewrite (ostep_query sm roots f s c n0 sid ob u (QDel since before limit) AT D).
    cbn [handle_query_c04]. cbn zeta. unfold get_del. rewrite RD. reflexivity.
Qed.
Print Assumptions c04_obo_needs_read.

(* with ANY faults, after any obo history: message numbers unique, log rows well formed *)
Theorem c04_obo_rows_wellformed : forall sm roots s0 h x, hist_init s0 -> oreach_c04 sm roots s0 h = Some x ->
  NoDup (seqs (st x)) /\ dellog_wf (st x).
Proof. exact oreach_rows. Qed.
Print Assumptions c04_obo_rows_wellformed.

(* ---- the handler that filters by the SESSION's user is refuted ---- *)

(* "every message sent is visible to the acting user" holds of replyGetData as modelled
   (GetAll(t.name, asUid, ...)) and is refuted for the variant that hands the session's own user
   to the store (GetAll(t.name, sess.uid, ...)): a root session of user 1 reading on behalf of
   user 2 is sent the message user 2 soft-deleted; the two coincide when the session acts for
   its own user, which is why no test with ordinary sessions can tell them apart *)
Theorem c04_obo_shows_only_visible : shows_only_visible_statement (fun f s c n sid su u => get_data f s c n sid u).
Proof.
  intros s c sid su u since before limit y a ct ND Hin.
  destruct (is_reader (user_mode c u)) eqn:RD.
  - destruct (get_data_exact NoFault s c 0 sid u since before limit ND RD eq_refl) as [_ [_ [_ [V _]]]].
    apply (V y a ct Hin).
  - rewrite (get_data_no_read NoFault s c 0 sid u since before limit RD) in Hin. destruct Hin.
Qed.
Print Assumptions c04_obo_shows_only_visible.

Theorem c04_obo_session_user_filter_refuted : ~ shows_only_visible_statement get_data_sessuid_c04.
Proof.
  intros H. specialize (H wit_obo_store wit_obo_cache 1%N 1%N 2%N 0 0 0 1 1%N 7%N).
  assert (hs_visible (abs wit_obo_store) 2%N 1 = None) as V by (vm_compute; reflexivity).
  rewrite V in H. discriminate H.
  - vm_compute. repeat constructor. intros [].
  - vm_compute. left. reflexivity.
Qed.
Print Assumptions c04_obo_session_user_filter_refuted.

Theorem c04_obo_session_user_filter_partial : forall f s c n sid u since before limit,
  get_data_sessuid_c04 f s c n sid u u since before limit = get_data f s c n sid u since before limit.
Proof. intros f s c n sid u since before limit. reflexivity. Qed.
Print Assumptions c04_obo_session_user_filter_partial.

(* non-vacuity: a root session of user 1 attaches, publishes for itself and for user 3,
   soft-deletes 2 for itself and 4, 5 on behalf of user 2; user 2 soft-deletes 1 himself; the
   history and the deletion log read on behalf of 2 equal what 2's own session gets ([3;2]);
   the root's own view is [5;4;3;1], on behalf of 3 everything; obo from a non-root session: 403,
   malformed obo: 400; the hypotheses of the refinement hold of this history *)
Example c04_ex_obo_history :
  exists r, orun_c04 ex_obo_sm [1%N] (mkState ex_obo_s0 None 0) ex_obo_hist = Some r /\
  map (fun o => map (fun e => fst (fst e)) (data_of o)) (firstn 4 (skipn 11 (snd r))) =
    [[3; 2]; [3; 2]; [5; 4; 3; 1]; [5; 4; 3; 2; 1]] /\
  skipn 15 (snd r) = [[(1%N, MetaDel 3 [(1, 0); (4, 6)])]; [(2%N, MetaDel 3 [(1, 0); (4, 6)])]; [(1%N, MetaDel 1 [(2, 0)])];
                      [(2%N, Ctrl 403 [])]; [(1%N, Ctrl 400 [])]; [(1%N, Ctrl 400 [])]] /\
  dellog (st (fst r)) = [mkDel 1 1%N 2 3; mkDel 2 2%N 4 6; mkDel 3 2%N 1 2] /\
  map (fun m => (m_seq m, m_from m)) (msgs (st (fst r))) = [(1, 1%N); (2, 2%N); (3, 3%N); (4, 1%N); (5, 3%N)].
Proof. eexists. split; [vm_compute; reflexivity|]. vm_compute. repeat split. Qed.

Example c04_ex_obo_history_ok : ohist_ok_c04 ex_obo_sm [1%N] ex_obo_hist.
Proof.
  unfold ohist_ok_c04, ex_obo_hist. apply Forall_forall. intros fq H. apply in_map_iff in H.
  destruct H as [q [<- Hq]]. split; cbn [fst snd].
  - cbn in Hq. repeat (destruct Hq as [<-|Hq]; [cbn; try discriminate; exact Logic.I|]). destruct Hq.
  - destruct (snd q); cbn; auto.
Qed.

(* the same history continued with {sub get="data del"} by the root session on behalf of user 2 *)
Example c04_ex_obo_sub_get :
  exists r, orun_c04 ex_obo_sm [1%N] (mkState ex_obo_s0 None 0) ex_obo_hist2 = Some r /\
  skipn 21 (snd r) =
    [[(1%N, Ctrl 200 [])];
     [(1%N, Ctrl 200 []); (1%N, Data 3 3 9); (1%N, Data 2 2 8); (1%N, Ctrl 208 [(P_what, 1); (P_count, 2)]);
      (1%N, MetaDel 3 [(1, 0); (4, 6)])];
     [(1%N, Ctrl 304 [])]; [(2%N, Ctrl 403 [])]].
Proof. eexists. split; [vm_compute; reflexivity|]. vm_compute. reflexivity. Qed.

(* ====================================================================== *)
(* C04, fourth part: "a user without read permission gets none" on topics with CHANNEL subscriptions - whatever
   name (grpXXX / chnXXX / usrXXX / p2pXXX) the request is addressed to and however the session is attached
   (under the group name, under the channel name, on behalf of a user).  Model: the fan-out slice Sys/Fanout.v
   (perUser with isChan, sessions with isChanSub, verifyChannelAccess, attach under either name) + the stored rows
   and replyGetData of Sys/FanoutQueryC01.v + replyGetDel and {sub get=data} of Sys/FanoutHistC04.v.
   Scope of that slice: no {del msg} requests (the deletion log is empty), the store never fails, the topic stays
   loaded.  Statements are for every state / every history of the slice. *)
From Tinode Require Sys.Fanout Sys.FanoutQueryC01 Sys.FanoutQueryC01Proofs Sys.FanoutHistC04 Sys.FanoutHistC04Proofs.
Section ChanC04.
Import Sys.Fanout Sys.FanoutQueryC01 Sys.FanoutQueryC01Proofs Sys.FanoutHistC04 Sys.FanoutHistC04Proofs.
Local Open Scope N_scope.

(* after ANY history, a {get what=data} executed for a user whose want & given lacks R shows no message: the name
   used, the range, the requesting session and the way it is attached are all universally quantified *)
Theorem c04_chan_history_needs_read : forall x0 ops s u name since before limit,
  let x := fst (hrun_c04 x0 ops) in
  read_gate_c04 (q_st x) u = false ->
  forall e, In e (snd (hstep_c04 x (HQ (QGetData s u name since before limit)))) -> is_data_c04 (snd e) = false.
Proof.
  intros x0 ops s u name a b l x G. cbn [hstep_c04 qstep].
  destruct (has_key s (st_sess (q_st x))); cbn [snd lift_c04 map]; [|intros e []].
  apply shown_no_data. now apply q_get_data_needs_read_shown.
Qed.
Print Assumptions c04_chan_history_needs_read.

(* the handler itself, in any state: one {ctrl} - 404 (channel name on a topic without channels) or 204 *)
Theorem c04_chan_get_data_needs_read : forall x s u name since before limit,
  read_gate_c04 (q_st x) u = false ->
  q_get_data x s u name since before limit = [(s, QCtrl 404%Z)] \/
  q_get_data x s u name since before limit = [(s, QCtrl 204%Z)].
Proof. exact q_get_data_needs_read. Qed.
Print Assumptions c04_chan_get_data_needs_read.

(* with R: exactly the rows the store contract selects for the ACTING user in [since, before), newest first, at most
   the limit - for channel readers, subscribers and sessions acting on behalf of a user alike *)
Theorem c04_chan_history_exact : forall x0 ops s u name since before limit,
  let x := fst (hrun_c04 x0 ops) in
  has_key s (st_sess (q_st x)) = true ->
  read_gate_c04 (q_st x) u = true -> chan_ok (q_st x) (name_chan_c01q name) = true ->
  shown_c04 (snd (hstep_c04 x (HQ (QGetData s u name since before limit)))) =
  pairs_c04 (Topic.ad_msg_get_all (store_of_c01q (q_msgs x)) u since before limit).
Proof.
  intros x0 ops s u name a b l x A G C. cbn [hstep_c04 qstep]. rewrite A. cbn [snd]. now apply q_get_data_exact.
Qed.
Print Assumptions c04_chan_history_exact.

(* the name decides nothing about which messages are shown *)
Theorem c04_chan_name_irrelevant : forall x s u n1 n2 since before limit,
  chan_ok (q_st x) (name_chan_c01q n1) = true -> chan_ok (q_st x) (name_chan_c01q n2) = true ->
  shown_c04 (lift_c04 (q_get_data x s u n1 since before limit)) =
  shown_c04 (lift_c04 (q_get_data x s u n2 since before limit)).
Proof.
  intros x s u n1 n2 a b l C1 C2. destruct (read_gate_c04 (q_st x) u) eqn:G.
  - rewrite !q_get_data_exact by assumption. reflexivity.
  - rewrite !q_get_data_needs_read_shown by assumption. reflexivity.
Qed.
Print Assumptions c04_chan_name_irrelevant.

(* every {data} of an answer is a stored row of this topic, goes to the requesting session under the name the acting
   user knows the topic by, and its author is withheld exactly when the request used the channel name *)
Theorem c04_chan_author_withheld : forall x s u name since before limit k t f q c,
  In (k, QData t f q c) (q_get_data x s u name since before limit) ->
  k = s /\ t = original (q_st x) u /\
  exists m, In m (q_msgs x) /\ Topic.m_seq m = q /\ Topic.m_content m = c /\
            f = (if name_chan_c01q name then 0 else Topic.m_from m).
Proof. exact q_get_data_author. Qed.
Print Assumptions c04_chan_author_withheld.

(* {get what=del}: the same gate; in this slice the log is empty *)
Theorem c04_chan_dellog_needs_read : forall x0 ops s u name since before limit,
  let x := fst (hrun_c04 x0 ops) in
  read_gate_c04 (q_st x) u = false ->
  forall e, In e (snd (hstep_c04 x (HGetDel s u name since before limit))) -> is_metadel_c04 (snd e) = false.
Proof.
  intros x0 ops s u name a b l x G. cbn [hstep_c04]. destruct (has_key s (st_sess (q_st x))); cbn [snd]; [|intros e []].
  now apply q_get_del_needs_read.
Qed.
Print Assumptions c04_chan_dellog_needs_read.

Theorem c04_chan_dellog_empty : forall x s u name since before limit,
  q_get_del_c04 x s u name since before limit = [(s, HF (QCtrl 404%Z))] \/
  q_get_del_c04 x s u name since before limit = [(s, HF (QCtrl 204%Z))].
Proof.
  intros x s u name a b l.
  unfold q_get_del_c04. destruct (negb (chan_ok (q_st x) (name_chan_c01q name))); [now left|right].
  destruct (read_gate_c04 (q_st x) u); [|reflexivity].
  assert (Topic.ad_msg_get_deleted (store_of_c01q (q_msgs x)) u a b l = []) as ->; [|reflexivity].
  unfold Topic.ad_msg_get_deleted, store_of_c01q. cbn [Topic.dellog filter Topic.sort_del fold_left].
  apply firstn_nil.
Qed.
Print Assumptions c04_chan_dellog_empty.

(* {sub get=data}: the subscription, then the history handler for the same acting user and name in the state the
   subscription left; no R there -> no message *)
Theorem c04_chan_sub_get_is_query : forall x s u name since before limit x1 out,
  h_sub_get_data_c04 x s u name since before limit = (Some x1, out) ->
  (x1 = x /\ out = [(s, HF (QCtrl 404%Z))]) \/
  (q_msgs x1 = q_msgs x /\ attach (q_st x) s u (name_chan_c01q name) = Some (q_st x1) /\
   out = lift_c04 (q_get_data x1 s u name since before limit)).
Proof. exact h_sub_get_data_is_query. Qed.
Print Assumptions c04_chan_sub_get_is_query.

Theorem c04_chan_sub_get_needs_read : forall x s u name since before limit x1 out,
  h_sub_get_data_c04 x s u name since before limit = (Some x1, out) ->
  read_gate_c04 (q_st x1) u = false -> shown_c04 out = [].
Proof.
  intros x s u name a b l x1 out H G. destruct (h_sub_get_data_is_query _ _ _ _ _ _ _ _ _ H) as [[_ ->]|(_ & _ & ->)]; [reflexivity|].
  now apply q_get_data_needs_read_shown.
Qed.
Print Assumptions c04_chan_sub_get_needs_read.

(* the wrapper adds nothing to FanoutQueryC01 on its requests *)
Theorem c04_chan_conservative : forall x o,
  hstep_c04 x (HQ o) = (fst (fst (qstep x o)), lift_c04 (snd (qstep x o))).
Proof. intros x o. cbn [hstep_c04]. destruct (qstep x o) as [[ox r] out]. reflexivity. Qed.
Print Assumptions c04_chan_conservative.

(* REFUTED + PARTIAL: the read gate short-circuited for requests addressed through the channel name
   (`asChan || (given & want).IsReader()`, seeded change C04-r4-3): a subscriber without R reads the history by
   spelling the topic chnXXX; the variant coincides with the handler for every request addressed by the group / p2p
   name and for every reader *)
Theorem c04_chan_aschan_gate_refuted : ~ aschan_gate_statement_c04.
Proof.
  intros H. pose proof (H wh_x_c04 2 2 TChn 0%Z 0%Z 0%Z wh_gate_c04) as K. rewrite wh_variant_c04 in K. discriminate.
Qed.
Print Assumptions c04_chan_aschan_gate_refuted.

Theorem c04_chan_aschan_gate_partial : forall x s u name since before limit,
  name_chan_c01q name = false \/ read_gate_c04 (q_st x) u = true ->
  q_get_data_aschan_c04 x s u name since before limit = q_get_data x s u name since before limit.
Proof.
  intros x s u name a b l H. unfold q_get_data_aschan_c04. rewrite q_get_data_cases. unfold read_gate_c04 in *.
  destruct H as [-> | ->]; [reflexivity|]. rewrite orb_true_r. reflexivity.
Qed.
Print Assumptions c04_chan_aschan_gate_partial.

(* non-vacuity: channel-enabled group, owner 1 publishes 101, member 2 (given JWPS: no R) attached under the group
   name: 204 under both names, the owner reads message 1 through the channel name; {sub get=data} of channel reader 3
   (first connection) shows message 1 with the author withheld, of member 2 under the group name 204 *)
Example c04_ex_chan_needs_read :
  read_gate_c04 (q_st wh_x_c04) 2 = false /\
  q_get_data wh_x_c04 2 2 TChn 0%Z 0%Z 0%Z = [(2, QCtrl 204%Z)] /\
  q_get_data wh_x_c04 2 2 TGrp 0%Z 0%Z 0%Z = [(2, QCtrl 204%Z)] /\
  shown_c04 (lift_c04 (q_get_data wh_x_c04 1 1 TChn 0%Z 0%Z 0%Z)) = [(1%Z, 101)].
Proof. split; [exact wh_gate_c04|exact wh_real_c04]. Qed.

Example c04_ex_chan_sub_get :
  snd (h_sub_get_data_c04 ws_x_c04 3 3 TChn 0%Z 0%Z 0%Z) = [(3, HF (QData TChn 0 1%Z 101)); (3, HF (QCtrl 208%Z))] /\
  snd (h_sub_get_data_c04 ws_x_c04 2 2 TGrp 0%Z 0%Z 0%Z) = [(2, HF (QCtrl 204%Z))] /\
  fst (h_sub_get_data_c04 ws_x_c04 2 2 TChn 0%Z 0%Z 0%Z) = None.
Proof. vm_compute. repeat split. Qed.
End ChanC04.
