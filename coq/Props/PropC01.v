(* C01  Per-topic message IDs are unique, gapless and follow acceptance order.
   Theorems about the topic model Sys/Topic.v, for EVERY history
   (list of (fault, request) of any length: any number of publishers and
   sessions, any interleaving with unload/restart, a failing or crashing
   adapter call at any position of any request). *)
From Coq Require Import ZArith NArith List Bool.
From Tinode Require Import Base.Util Pure.Acs Sys.Topic Sys.TopicTac Sys.TopicFrame Sys.TopicNum Sys.TopicOut Sys.TopicNumThm.
Import ListNotations.
Open Scope Z_scope.

Section C01.
Variable dr : Z -> list (Z * Z) -> option (list (Z * Z)).   (* any range validator *)
Variable nr : list (Z * Z) -> list (Z * Z).                 (* any range normaliser *)
Variable sm : sessmap.                                      (* any assignment of sessions to users *)

(* In every reachable state no number is stored twice, every stored number lies in
   1..seqid, and while the topic is loaded lastID <= seqid <= lastID+1 with every
   stored number <= lastID. *)
Theorem c01_invariant : forall s h, fresh s -> inv_num (fst (run dr nr sm (mkState s None 0) h)).
Proof. intros s h F. apply run_inv_num. apply fresh_inv. exact F. Qed.

(* An accepted publish is numbered lastID+1; that number is acknowledged, stored with
   the published content and author, becomes lastID, was never stored before, and
   every copy broadcast carries it.  Otherwise nothing is numbered: one error reply to
   the sender, lastID and the stored messages unchanged ("a publish whose save failed
   consumes no number"), for every failing adapter call. *)
Theorem c01_publish : forall f s c n sid u content noecho,
  let h := publish f s c n sid u content noecho in
  (h_ca h = c /\ seqs (h_st h) = seqs s /\ msgs (h_st h) = msgs s /\
   (t_seqid (h_st h) = t_seqid s \/ t_seqid (h_st h) = c_lastid c + 1) /\ no_ack (h_out h) /\
   exists code, h_out h = [(sid, Ctrl code [])] /\ 400 <= code)
  \/
  (c_lastid (h_ca h) = c_lastid c + 1 /\ t_seqid (h_st h) = c_lastid c + 1 /\
   msgs (h_st h) = msgs s ++ [mkMsg (c_lastid c + 1) u content 0] /\
   ~ In (c_lastid c + 1) (seqs s) /\
   h_out h = (sid, Ctrl 202 [(P_seq, c_lastid c + 1)]) ::
             fanout_data (h_ca h) (if noecho then sid else 0%N) (Data (c_lastid c + 1) u content)
             ++ push_out (h_ca h) (c_lastid c + 1) u).
Proof. exact publish_cases. Qed.

(* every copy of a broadcast is the same frame: same number, author, content *)
Theorem c01_copies_agree : forall c skip fr x, In x (fanout_data c skip fr) -> snd x = fr.
Proof. exact fanout_data_frames. Qed.

(* No other request acknowledges a number or moves lastID (gapless between loads):
   together with c01_publish, between two loads the acknowledged numbers are
   consecutive in acceptance order. *)
Theorem c01_only_publish_numbers : forall f x o c,
  ca x = Some c ->
  (forall sid content noecho, o = OPub sid content noecho -> attached c sid = false) ->
  all_out nonack (snd (step dr nr sm f x o)) /\
  (forall c', ca (fst (step dr nr sm f x o)) = Some c' -> c_lastid c' = c_lastid c).
Proof. exact (step_nonpub dr nr sm). Qed.

(* Restart / reload / crash: every number shown to any client anywhere in the history
   (acknowledgements, broadcast and history copies, description, receipts) is at most
   the persisted high-water mark at the end of the history, and a (re)load restores
   lastID from that mark: numbering continues strictly above everything ever shown. *)
Theorem c01_restart_above_shown : forall s h, fresh s ->
  let r := run dr nr sm (mkState s None 0) h in
  Forall (shown_le (c_lastid (load (st (fst r))))) (snd r).
Proof.
  intros s h F r. destruct (run_shown dr nr sm h (mkState s None 0) (fresh_inv s 0 F)) as [R _]. exact R.
Qed.

(* the persisted mark never decreases along any history *)
Theorem c01_mark_monotone : forall h x, inv_num x ->
  t_seqid (st x) <= t_seqid (st (fst (run dr nr sm x h))).
Proof. intros h x I. destruct (run_shown dr nr sm h x I) as [_ R]. exact R. Qed.
End C01.

Print Assumptions c01_invariant.
Print Assumptions c01_publish.
Print Assumptions c01_copies_agree.
Print Assumptions c01_only_publish_numbers.
Print Assumptions c01_restart_above_shown.
Print Assumptions c01_mark_monotone.

(* non-vacuity: a concrete history reaches acknowledged numbers 1 and 2 *)
Example c01_ex :
  let s0 := ad_sub_create (mkStore true 0 0 0 47 0 [] [] [] [(1%N, 47%N)]) 1%N 255%N 255%N in
  let r := run (fun _ _ => None) (fun x => x) [(1%N, 1%N)] (mkState s0 None 0)
               [(NoFault, OSub 1 [] false); (NoFault, OPub 1 7 false); (FailAt 2, OPub 1 8 false); (NoFault, OPub 1 9 false)] in
  map (fun o => out_seqs o) (snd r) = [[]; [1; 1; 1]; []; [2; 2; 2]] /\ t_seqid (st (fst r)) = 2.
Proof. vm_compute. split; reflexivity. Qed.

(* ================================================================== *)
(* Load paths of ALL topic kinds (server/init_topic.go) and the numbering of
   peer-to-peer and 'sys' topics: model Sys/TopicLoad.v.  Same quantifier: every
   history of requests (sub / leave / leave+unsub / pub / get data / get desc /
   idle unload / restart) with a failing or crashing adapter call at any position. *)
From Coq Require Import Lia.
From Tinode Require Import Sys.TopicLoad Sys.TopicLoadProofs.

Section C01Load.
Variable k : lkind.                    (* peer-to-peer or 'sys' *)
Variable sm : sessmap.                 (* any assignment of sessions to users *)
Variable roots : list N.               (* any set of root users *)
Variable ua ub : N.                    (* the two parties of the p2p topic *)

(* After ANY successful load - initTopicP2P with both subscriptions / with one subscription
   missing or soft-deleted (recreated) / of a brand-new topic, initTopicGrp, initTopicSys -
   lastID is the seqid of the stored topic row, which the load does not change.  ('me' and
   'fnd' carry no messages: their lastID and delID stay 0, init_me_fnd_ok.) *)
Theorem c01_load_restores_lastid : forall kd f s n u1 u2 s' c n' ns,
  init_topic kd f s n u1 u2 = LOk s' c n' ns -> carries_messages kd = true ->
  l_lastid c = t_seqid s' /\ (t_exists s = true -> t_seqid s' = t_seqid s).
Proof.
  intros kd f s n u1 u2 s' c n' ns H C. destruct (init_topic_ok _ _ _ _ _ _ _ _ _ _ H C) as (H1 & _ & H3).
  split; [exact H1|]. intros E. apply H3, E.
Qed.

(* the same on the group model's own load function *)
Theorem c01_load_grp : forall f s n n1 c,
  try_load f s n = (n1, inl c) -> c_lastid c = t_seqid s /\ c_delid c = t_delid s.
Proof. intros f s n n1 c H. apply try_load_cases in H. subst c. split; reflexivity. Qed.

(* ... and delID is the delid of the stored topic row, which the load does not change: every
   kind that carries messages, every branch (initTopicSys since /repo 91f0ab5). *)
Theorem c01_load_restores_delid : forall kd f s n u1 u2 s' c n' ns,
  init_topic kd f s n u1 u2 = LOk s' c n' ns -> carries_messages kd = true ->
  l_delid c = t_delid s' /\ (t_exists s = true -> t_delid s' = t_delid s).
Proof.
  intros kd f s n u1 u2 s' c n' ns H C. destruct (init_topic_ok _ _ _ _ _ _ _ _ _ _ H C) as (_ & H2 & H3).
  split; [exact H2|]. intros E. apply H3, E.
Qed.

(* The loader as it was before /repo 91f0ab5 (initTopicSys did not assign t.delID,
   [init_sys_unrepaired]) refutes the statement: a 'sys' row with seqid 5, delid 3 loads delID 0. *)
Definition c01_load_restores_delid_unrepaired_statement : Prop := forall kd f s n u1 u2 s' c n' ns,
  init_topic_unrepaired kd f s n u1 u2 = LOk s' c n' ns -> carries_messages kd = true -> l_delid c = t_delid s'.
Theorem c01_load_restores_delid_unrepaired_refuted : ~ c01_load_restores_delid_unrepaired_statement.
Proof.
  intros H.
  specialize (H KSys NoFault (mkStore true 5 3 0 0 0 [] [] [] []) 0%nat 0%N 0%N
                (mkStore true 5 3 0 0 0 [] [] [] []) (mkLC 5 0 [] []) 2%nat false eq_refl eq_refl).
  vm_compute in H. discriminate.
Qed.

(* In every reachable state of a p2p / sys history: stored numbers are unique and lie in
   1..seqid, a topic row that does not exist (p2p topic deleted by its last unsubscribe) has
   no messages and mark 0, and while loaded lastID <= seqid <= lastID+1 with every stored
   number <= lastID.  [boot] = what a fresh process holds (nothing; 'sys' loaded by the hub). *)
Theorem c01_kinds_invariant : forall s h, sinv s ->
  linv (fst (lrun k sm roots ua ub (mkLS s (boot k s) 0) h)).
Proof. intros s h S. apply lrun_inv. split; [exact S|apply boot_inv; exact S]. Qed.

(* publish on a p2p / sys topic: numbered lastID+1, acknowledged, stored, broadcast with that
   number - or nothing is numbered and one error is returned (a failed save consumes nothing) *)
Theorem c01_kinds_publish : forall f s c n sid u content noecho,
  let h := lpublish k f s c n sid u content noecho in
  (lh_ca h = c /\ msgs (lh_st h) = msgs s /\ t_exists (lh_st h) = t_exists s /\
   (t_seqid (lh_st h) = t_seqid s \/ (t_exists s = true /\ t_seqid (lh_st h) = l_lastid c + 1)) /\ lno_ack (lh_out h) /\
   exists code, lh_out h = [(sid, LCtrl code None)] /\ 400 <= code)
  \/
  (l_lastid (lh_ca h) = l_lastid c + 1 /\ t_seqid (lh_st h) = l_lastid c + 1 /\ t_exists (lh_st h) = true /\
   msgs (lh_st h) = msgs s ++ [mkMsg (l_lastid c + 1) u content 0] /\
   ~ In (l_lastid c + 1) (seqs s) /\
   lh_out h = (sid, LCtrl 202 (Some (l_lastid c + 1))) ::
              lfanout (lh_ca h) (if noecho then sid else 0%N) (LData (l_lastid c + 1) u content)).
Proof. exact (lpublish_cases k). Qed.

Theorem c01_kinds_copies_agree : forall c skip fr x, In x (lfanout c skip fr) -> snd x = fr.
Proof. exact lfanout_frames. Qed.

(* no other request acknowledges a number or moves lastID of a loaded topic *)
Theorem c01_kinds_only_publish_numbers : forall f x o c,
  x_ca x = Some c -> o <> LRestart ->
  (forall sid content noecho, o = LPub sid content noecho -> lattached c sid = false /\ k = LP2P) ->
  all_lout lnonack (snd (lstep k sm roots ua ub f x o)) /\
  (forall c', x_ca (fst (lstep k sm roots ua ub f x o)) = Some c' -> l_lastid c' = l_lastid c).
Proof.
  intros f [s cx n0] o c. cbn [x_ca]. intros -> NR NP.
  pose proof (lstep_shape k sm roots ua ub f s (Some c) n0 o) as SP.
  destruct (lstep k sm roots ua ub f _ o) as [x' out]. cbn [fst snd] in *.
  destruct SP as [o0 c' n1 out0 R RD|o0 s1 c0 h L (_ & E & O)|o0 c0 sid u s1 co n1 o1 [= <-] LU|c0 sid content noecho h [= <-] AT _|].
  - split; [exact (reads_nonack _ _ _ RD)|]. cbn [x_ca]. intros c1 ->.
    destruct R as [[= ->]|[[=]|(c2 & c3 & [= <-] & [= <-] & E)]]; [reflexivity|exact E].
  - destruct L as [[[= <-] _]|[[=] _]]. split; [exact (reads_nonack s1 None _ (plain_reads _ _ _ O))|]. intros c1 [= <-]. exact E.
  - apply lleave_unsub_cases in LU. destruct LU as [LO LU]. split; [exact (reads_nonack s None _ (plain_reads _ _ _ LO))|].
    destruct LU as [[_ [c1 [-> L]]]|[_ [-> _]]]; intros c2 [= <-]. exact L.
  - destruct (NP sid content noecho eq_refl) as [NA ->]. destruct AT; congruence.
  - congruence.
Qed.

(* every transition from "not loaded" to "loaded" - through whichever branch of the load -
   and every process start set lastID to the stored mark *)
Theorem c01_kinds_reload_continues : forall f x o c',
  x_ca x = None -> x_ca (fst (lstep k sm roots ua ub f x o)) = Some c' ->
  l_lastid c' = t_seqid (x_st (fst (lstep k sm roots ua ub f x o))).
Proof.
  intros f [s cx n0] o c'. cbn [x_ca]. intros ->.
  pose proof (lstep_shape k sm roots ua ub f s None n0 o) as SP.
  destruct (lstep k sm roots ua ub f _ o) as [x' out]. cbn [fst] in *.
  destruct SP as [o0 c1 n1 out0 R _|o0 s1 c h L ((_ & N & _) & E & _)|o0 c sid u s1 co n1 o1 [=]|c sid content noecho h [=]|]; cbn [x_ca x_st].
  - destruct R as [->|[->|(c & c2 & [=] & _)]]; discriminate.
  - intros [= <-]. destruct L as [[[=] _]|[_ (u & other & n1 & ns & LD)]]. rewrite E, N. apply lload_ok in LD. apply LD.
  - apply boot_lastid.
Qed.
Theorem c01_kinds_boot_continues : forall s c, boot k s = Some c -> l_lastid c = t_seqid s.
Proof. exact (boot_lastid k). Qed.

(* Restart / reload / crash: along a history that does not delete the topic row, every number
   shown to any client is at most the persisted mark at the end of the history - which the
   next load, by the two theorems above, makes lastID: numbering continues strictly above. *)
Theorem c01_kinds_restart_above_shown : forall s h, sinv s ->
  let x0 := mkLS s (boot k s) 0 in
  keeps_row k sm roots ua ub x0 h ->
  Forall (lshown_le (t_seqid (x_st (fst (lrun k sm roots ua ub x0 h))))) (snd (lrun k sm roots ua ub x0 h)) /\
  t_seqid s <= t_seqid (x_st (fst (lrun k sm roots ua ub x0 h))).
Proof.
  intros s h S x0 K. apply (lrun_shown k sm roots ua ub h x0); [|exact K].
  split; [exact S|apply boot_inv; exact S].
Qed.
End C01Load.

(* the 'sys' row is never deleted: the statement holds for every sys history *)
Theorem c01_sys_restart_above_shown : forall sm roots s h, sinv s ->
  let x0 := mkLS s (boot LSys s) 0 in
  Forall (lshown_le (t_seqid (x_st (fst (lrun LSys sm roots 0%N 0%N x0 h))))) (snd (lrun LSys sm roots 0%N 0%N x0 h)) /\
  t_seqid s <= t_seqid (x_st (fst (lrun LSys sm roots 0%N 0%N x0 h))).
Proof.
  intros sm roots s h S x0. apply c01_kinds_restart_above_shown; [exact S|apply sys_keeps_row].
Qed.

Print Assumptions c01_load_restores_lastid.
Print Assumptions c01_load_grp.
Print Assumptions c01_load_restores_delid.
Print Assumptions c01_load_restores_delid_unrepaired_refuted.
Print Assumptions c01_kinds_invariant.
Print Assumptions c01_kinds_publish.
Print Assumptions c01_kinds_copies_agree.
Print Assumptions c01_kinds_only_publish_numbers.
Print Assumptions c01_kinds_reload_continues.
Print Assumptions c01_kinds_boot_continues.
Print Assumptions c01_kinds_restart_above_shown.
Print Assumptions c01_sys_restart_above_shown.

(* non-vacuity: a p2p topic with 2 stored messages whose second party deleted the
   subscription is re-attached by the first party (initTopicP2P recreates the missing
   subscription), numbering continues at 3; both leave, the topic is unloaded, the second
   party re-attaches, a publish whose MessageSave fails consumes nothing, the next is 4 *)
Example c01_p2p_ex :
  let s0 := mkStore true 2 0 0 0 0 [mkSub 1 31 31 0 0 0 false; mkSub 2 31 31 0 0 0 true]
                    [mkMsg 1 1 11 0; mkMsg 2 2 12 0] [] [(1%N, 47%N); (2%N, 47%N)] in
  let r := lrun LP2P [(1%N, 1%N); (2%N, 2%N)] [] 1%N 2%N (mkLS s0 None 0)
             [(NoFault, LSub 1 false); (NoFault, LPub 1 7 false); (NoFault, LLeave 1 false); (NoFault, LUnload);
              (NoFault, LSub 2 false); (FailAt 2, LPub 2 8 false); (NoFault, LPub 2 9 false)] in
  map lout_seqs (snd r) = [[]; [3; 3]; []; []; []; []; [4; 4]] /\ t_seqid (x_st (fst r)) = 4 /\
  sinv s0 /\ keeps_row LP2P [(1%N, 1%N); (2%N, 2%N)] [] 1%N 2%N (mkLS s0 None 0)
             [(NoFault, LSub 1 false); (NoFault, LPub 1 7 false); (NoFault, LLeave 1 false); (NoFault, LUnload)].
Proof.
  cbv zeta. split; [vm_compute; reflexivity|]. split; [vm_compute; reflexivity|]. split.
  - unfold sinv, seqs. cbn [msgs map m_seq t_seqid t_exists]. split; [|split; [|split]].
    + intros n [<-|[<-|[]]]; lia.
    + repeat constructor; cbn; intuition discriminate.
    + lia.
    + discriminate.
  - vm_compute. auto.
Qed.

(* ================================================================== *)
(* Several requests in flight (model Sys/TopicBurstC01.v).
   (1) UNLOAD RACE, "every interleaving with topic unload/reload": the kill timer of the
   registered instance fires (RTimeout: an unregister request is on its way to the hub), sessions
   may still attach to that instance and publish, the hub handles the request (RHubUnreg:
   topicUnreg marks the instance deleted, removes it from the registry, tells it to exit), a {sub}
   loads a SECOND instance from the store, and the first one, which has not read its exit message
   yet, handles {pub}s queued for it (RZPub) in any interleaving with the requests handled by the
   second one - with failing / crashing adapter calls, restarts and any number of pending
   unregister requests and unregistered instances.
   (2) WRITE LOOPS: a frame is serialised when the session's write loop takes it from the queue,
   any time after the topic goroutine produced it (WDrain). *)
From Tinode Require Import Sys.TopicBurstC01 Sys.TopicBurstC01Proofs.

Section C01Flight.
Variable dr : Z -> list (Z * Z) -> option (list (Z * Z)).
Variable nr : list (Z * Z) -> list (Z * Z).
Variable sm : sessmap.

Definition race_init (s : store) : rstate := mkR (mkState s None 0) 0 [] [].

(* [forallb mid_free h = true]: no unregistration lands INSIDE a publish handler of the instance
   being unregistered (between its isInactive check and its Save).  The handlers of one instance
   are atomic with respect to each other, not with respect to the hub goroutine, which writes the
   status bits; histories with such a step (RHubUnregMid ... RZFinish) refute the statement, see
   c01_race_no_number_issued_twice_refuted below. *)

(* Along every such race history the numbering invariant of c01_invariant holds for the store and
   the registered instance, and every unregistered instance is marked deleted. *)
Theorem c01_race_invariant : forall s h r outs, fresh s -> forallb mid_free h = true ->
  rrun dr nr sm true (race_init s) h = Some (r, outs) ->
  inv_num (r_x r) /\ Forall (fun z => z_deleted z = true /\ z_inflight z = None) (r_zomb r).
Proof.
  intros s h r outs F M R. destruct (rrun_inv dr nr sm h _ _ _ (rinv_init s F) M R) as [A [B _]]. split; assumption.
Qed.

(* No number is issued twice: a number whose store.Messages.Save succeeded is never passed to
   Save again - by either instance (a number whose Save FAILED is passed again by the next
   publish: "a publish whose save failed consumes no number"). *)
Theorem c01_race_no_number_issued_twice_partial : forall s h r outs, fresh s -> forallb mid_free h = true ->
  rrun dr nr sm true (race_init s) h = Some (r, outs) -> issue_ok (r_issued r).
Proof.
  intros s h r outs F M R. destruct (rrun_inv dr nr sm h _ _ _ (rinv_init s F) M R) as [_ [_ [_ K]]]. exact K.
Qed.

(* ... because the unregistered instance refuses: every {pub} it handles is answered with one
   503 to the publisher and changes nothing (store, registered instance, issue log). *)
Theorem c01_race_old_instance_refuses : forall s h r outs i z sid content noecho, fresh s ->
  forallb mid_free h = true ->
  rrun dr nr sm true (race_init s) h = Some (r, outs) ->
  nth_error (r_zomb r) i = Some z -> attached (z_ca z) sid = true ->
  rstep dr nr sm true r (RZPub i sid content noecho) = Some (r, [(sid, Ctrl 503 [])]).
Proof.
  intros s h r outs i z sid content noecho F M R NE AT.
  apply (zombie_refuses dr nr sm r i z); [|exact NE|exact AT].
  exact (rrun_inv dr nr sm h _ _ _ (rinv_init s F) M R).
Qed.

(* Whatever the times at which the write loops run (any schedule of requests and dequeue steps),
   the topic-level run is that of the requests alone and every session reads exactly the frames
   queued for it, in queueing order.  ASSUMPTION made explicit: a frame is a value - the
   implementation shares no mutable state between a queued frame and later work of the topic
   goroutine; the driver checks it by serialising each frame when it is dequeued, with the
   dequeuing of some sessions delayed until the whole burst has been handled. *)
Theorem c01_wire_independent_of_delay : forall mark l w w',
  wrun dr nr sm mark w l = Some w' ->
  exists outs, rrun dr nr sm mark (w_r w) (wdos l) = Some (w_r w', outs) /\
    forall sid, for_sid sid (w_wire w' ++ w_queue w') = for_sid sid (w_wire w ++ w_queue w ++ concat outs).
Proof.
  intros mark l.
  induction l as [|a l IH]; intros w w' H; cbn [wrun] in H.
  - inv H. exists []. split; [reflexivity|]. intros sid. cbn [concat]. rewrite app_nil_r. reflexivity.
  - destruct (wstep dr nr sm mark w a) as [w1|] eqn:S; [|discriminate].
    destruct (IH w1 w' H) as [outs [R W]]. destruct a as [a|sid0]; cbn [wstep] in S; cbn [wdos].
    + destruct (rstep dr nr sm mark (w_r w) a) as [[r1 o]|] eqn:RS; [|discriminate]. inv S.
      cbn [w_r w_queue w_wire] in *. exists (o :: outs). cbn [rrun]. rewrite RS, R. split; [reflexivity|].
      intros sid. rewrite W. cbn [concat]. rewrite <- !app_assoc. reflexivity.
    + destruct (take_first sid0 (w_queue w)) as [[fr q]|] eqn:TF.
      * inv S. cbn [w_r w_queue w_wire] in *. exists outs. split; [exact R|].
        intros sid. rewrite W. destruct (take_first_spec sid0 (w_queue w) fr q TF) as [A B].
        rewrite !for_sid_app. rewrite <- app_assoc. f_equal.
        destruct (N.eq_dec sid sid0) as [->|NE].
        -- rewrite A. unfold for_sid at 1. cbn [filter fst map snd]. rewrite N.eqb_refl. reflexivity.
        -- rewrite (B sid NE). unfold for_sid at 1. cbn [filter fst].
           destruct (N.eqb sid0 sid) eqn:E; [apply N.eqb_eq in E; congruence|reflexivity].
      * inv S. exists outs. split; [exact R|exact W].
Qed.

(* In every burst of k publishes handled back to back by a loaded instance (same or different
   sessions and users, attached or not, writers or not) the i-th ACCEPTED publish is acknowledged
   with lastID+i, every copy broadcast and the push receipt carry that number with its author and
   content, and the row (lastID+i, author, content) is what is stored; a refused publish gets one
   error frame and consumes nothing.  With c01_wire_independent_of_delay: whatever the delay of
   the acknowledgement's serialisation. *)
Theorem c01_burst_numbers : forall ps x c, ca x = Some c -> inv_num x ->
  exists c', ca (fst (run dr nr sm x (burst_ops ps))) = Some c' /\
    burst_spec sm (c_lastid c) (msgs (st x)) ps (snd (run dr nr sm x (burst_ops ps)))
               (c_lastid c') (msgs (st (fst (run dr nr sm x (burst_ops ps))))).
Proof.
  intros ps.
  induction ps as [|[[sid content] noecho] ps IH]; intros x c Hc I.
  - cbn. exists c. auto.
  - cbn [burst_ops map fst snd run].
    change (map (fun p => (NoFault, OPub (fst (fst p)) (snd (fst p)) (snd p))) ps) with (burst_ops ps).
    pose proof (step_f_inv_num dr nr sm x (NoFault, OPub sid content noecho) I) as I1.
    unfold step_f in *. cbn [fst snd] in *.
    destruct x as [s cx n0]. cbn [ca] in Hc. subst cx.
    destruct (attached c sid) eqn:AT.
    + rewrite step_pub in * by exact AT. cbn zeta in *. cbn [fst] in I1.
      set (h := publish NoFault s c 0 sid (sess_uid sm sid) content noecho) in *.
      destruct (IH (mkState (h_st h) (Some (h_ca h)) (h_n h)) (h_ca h) eq_refl I1) as [c' [C' S']].
      destruct (run dr nr sm (mkState (h_st h) (Some (h_ca h)) (h_n h)) (burst_ops ps)) as [x2 os] eqn:R.
      cbn [fst snd st] in *. exists c'. split; [exact C'|].
      cbn [burst_spec fst snd].
      destruct (publish_cases NoFault s c 0 sid (sess_uid sm sid) content noecho) as
        [[E1 [_ [E3 [_ [_ E5]]]]]|[E1 [_ [E3 [_ E5]]]]]; fold h in E1, E3, E5.
      * left. split; [exact E5|]. rewrite E1, E3 in S'. exact S'.
      * right. eexists. split; [exact E5|]. split.
        -- intros e He. apply in_app_or in He. destruct He as [He|He].
           ++ left. eapply fanout_data_frames. exact He.
           ++ right. unfold push_out in He. destruct (push_rcpt (h_ca h)) as [|a l]; [destruct He|].
              destruct He as [<-|[]]. eexists. reflexivity.
        -- rewrite E1, E3 in S'. exact S'.
    + assert (step dr nr sm NoFault (mkState s (Some c) n0) (OPub sid content noecho) =
              (mkState s (Some c) 0, [(sid, Ctrl 409 [])])) as ST.
      { unfold step. cbn [st ca]. rewrite AT. reflexivity. }
      rewrite ST in *. cbn [fst] in I1.
      destruct (IH (mkState s (Some c) 0) c eq_refl I1) as [c' [C' S']].
      destruct (run dr nr sm (mkState s (Some c) 0) (burst_ops ps)) as [x2 os] eqn:R.
      cbn [fst snd st] in *. exists c'. split; [exact C'|].
      cbn [burst_spec fst snd]. left. split; [|exact S'].
      exists 409. split; [reflexivity|lia].
Qed.
End C01Flight.

(* The full statement - every race history, including an unregistration that lands inside a
   publish handler - is REFUTED by the faithful model (and by the real code: findings/C01.md,
   KNOWN_FINDINGS key unregistered-mid-publish): the instance that passed its isInactive check
   before the hub marked it saves under lastID+1, the instance loaded meanwhile passes the same
   number to Save, in either order. *)
Definition c01_race_no_number_issued_twice_statement : Prop :=
  forall dr nr sm s h r outs, fresh s ->
  rrun dr nr sm true (race_init s) h = Some (r, outs) -> issue_ok (r_issued r).
Theorem c01_race_no_number_issued_twice_refuted : ~ c01_race_no_number_issued_twice_statement.
Proof.
  intros H.
  pose proof (race_witness_mid_issued true) as W. cbn [option_map] in W.
  destruct (rrun (fun _ _ => None) (fun x => x) [(1%N, 1%N); (2%N, 1%N)] true
                 (mkR (mkState race_witness_store None 0) 0 [] []) (race_witness_mid true)) as [[r outs]|] eqn:R; [|discriminate].
  cbn [option_map fst] in W. inversion W as [W1].
  assert (fresh race_witness_store) as F by (split; reflexivity).
  specialize (H _ _ _ _ _ _ _ F R). rewrite W1 in H.
  apply (H [(1, true)] 1 false [] eq_refl). left. reflexivity.
Qed.

(* The statement for a topicUnreg that does NOT mark the instance before telling it to exit
   ([mark] = false) is refuted even for the histories of the partial theorem: the old instance
   accepts a {pub} queued for it under lastID+1 and the second instance passes the same number to Save. *)
Definition c01_race_unmarked_statement : Prop :=
  forall dr nr sm s h r outs, fresh s -> forallb mid_free h = true ->
  rrun dr nr sm false (race_init s) h = Some (r, outs) -> issue_ok (r_issued r).
Theorem c01_race_unmarked_refuted : ~ c01_race_unmarked_statement.
Proof.
  intros H.
  pose proof (race_witness_issued false) as W. cbn [option_map] in W.
  destruct (rrun (fun _ _ => None) (fun x => x) [(1%N, 1%N); (2%N, 1%N)] false
                 (mkR (mkState race_witness_store None 0) 0 [] []) race_witness) as [[r outs]|] eqn:R; [|discriminate].
  cbn [option_map fst] in W. inversion W as [W1].
  assert (fresh race_witness_store) as F by (split; reflexivity).
  assert (forallb mid_free race_witness = true) as M by reflexivity.
  specialize (H _ _ _ _ _ _ _ F M R). rewrite W1 in H.
  apply (H [(1, true)] 1 false [] eq_refl). left. reflexivity.
Qed.

Print Assumptions c01_race_invariant.
Print Assumptions c01_race_no_number_issued_twice_partial.
Print Assumptions c01_race_no_number_issued_twice_refuted.
Print Assumptions c01_race_old_instance_refuses.
Print Assumptions c01_wire_independent_of_delay.
Print Assumptions c01_burst_numbers.
Print Assumptions c01_race_unmarked_refuted.

(* non-vacuity: the race history of the refutation, with the code as it is: the old instance
   answers 503, the second instance issues number 1 once; and a burst of three publishes by two
   sessions of one user is acknowledged 1, 2, 3 *)
Example c01_race_ex :
  option_map (fun r => (r_issued (fst r), map out_seqs (snd r)))
    (rrun (fun _ _ => None) (fun x => x) [(1%N, 1%N); (2%N, 1%N)] true (race_init race_witness_store) race_witness)
  = Some ([(1, true)], [[]; []; []; []; []; []; []; [1; 1; 1]]).
Proof. vm_compute. reflexivity. Qed.
Example c01_burst_ex :
  let x := fst (run (fun _ _ => None) (fun x => x) [(1%N, 1%N); (2%N, 1%N)] (mkState race_witness_store None 0)
                    [(NoFault, OSub 1 [] false); (NoFault, OSub 2 [] false)]) in
  map out_seqs (snd (run (fun _ _ => None) (fun x => x) [(1%N, 1%N); (2%N, 1%N)] x
                         (burst_ops [(1%N, 7%N, false); (2%N, 8%N, true); (1%N, 9%N, false)])))
  = [[1; 1; 1; 1]; [2; 2; 2]; [3; 3; 3; 3]].
Proof. vm_compute. reflexivity. Qed.

(* ================================================================== *)
(* OPTIONS of a description query (get.desc.ims / sub.get.desc.ims): model Sys/TopicImsC01.v, a
   wrapper over the group-topic model with replyGetDesc's If-Modified-Since option as the
   three-valued [ims] (absent / before the topic's last metadata update / not before it), the
   malformed-options branch, {sub get=desc} and {set desc public} (which moves t.updated).
   "The number acknowledged to the publisher is the number every later description query shows" -
   for EVERY value of the option. *)
From Tinode Require Import Sys.TopicImsC01 Sys.TopicImsC01Proofs.

Section C01Ims.
Variable dr : Z -> list (Z * Z) -> option (list (Z * Z)).
Variable nr : list (Z * Z) -> list (Z * Z).
Variable sm : sessmap.

(* a subscriber with R is shown seq = lastID, his marks and the deletion mark - for every option value *)
Theorem c01_desc_options_show_lastid : forall c cpub sid u i p,
  alookup u (c_users c) = Some p -> is_reader (pud_mode p) = true ->
  get_desc_ims c cpub sid u i false =
  [(sid, FDesc (p_want p) (p_given p) (c_lastid c) (p_read p) (Z.max (p_recv p) (p_read p))
               (Z.max (p_delid p) (c_delid c)) true (ims_absent_c01i i) (if if_updated_c01i i then cpub else 0%N))].
Proof. exact get_desc_ims_reader. Qed.

(* the numbers of the answer (seq, read, recv, del - or none for a non-reader / stranger) are those of
   the option-less answer of the base model, for every option value *)
Theorem c01_desc_numbers_independent_of_options : forall s c n cpub sid u i,
  nums_c01i (get_desc_ims c cpub sid u i false) = nums_c01i (lift_c01i (h_out (get_desc s c n sid u))).
Proof.
  intros s c n cpub sid u i. unfold get_desc_ims, get_desc. repeat break_match; reflexivity.
Qed.

(* the number acknowledged by an accepted publish is the number a description query with ANY option
   shows to any reader afterwards *)
Theorem c01_desc_options_show_acknowledged : forall f s c n sid u content noecho sid' n',
  acked (h_out (publish f s c n sid u content noecho)) sid' n' ->
  forall cpub sid2 u2 i p,
    alookup u2 (c_users (h_ca (publish f s c n sid u content noecho))) = Some p -> is_reader (pud_mode p) = true ->
    exists w g rd rc dl cr pb,
      get_desc_ims (h_ca (publish f s c n sid u content noecho)) cpub sid2 u2 i false = [(sid2, FDesc w g n' rd rc dl true cr pb)].
Proof.
  intros f s c n sid u content noecho sid' n' Ha cpub sid2 u2 i p Hu Hr.
  pose proof (publish_cases f s c n sid u content noecho) as PC. cbv zeta in PC.
  destruct PC as [(_ & _ & _ & _ & NA & _)|(L & _ & _ & _ & HO)].
  - exfalso. exact (NA _ _ Ha).
  - assert (n' = c_lastid c + 1) as ->.
    { unfold acked in Ha. rewrite HO in Ha. destruct Ha as [E|Hin]; [now inv E|].
      apply in_app_or in Hin. destruct Hin as [Hin|Hin].
      - apply fanout_data_frames in Hin. discriminate.
      - unfold push_out in Hin. destruct (push_rcpt (h_ca (publish f s c n sid u content noecho))); cbn in Hin; [destruct Hin|].
        destruct Hin as [E|[]]. discriminate. }
    rewrite (get_desc_ims_reader _ cpub sid2 u2 i p Hu Hr), L. repeat eexists.
Qed.

(* one request of the wrapper from ANY state ({get desc} with options, {sub get=desc}, {set desc public},
   any request of the base model; any fault): every description answer that shows numbers shows the
   lastID of the cache the request leaves *)
Theorem c01_desc_options_current : forall f x o sid w g seq rd rc dl cr pb,
  In (sid, FDesc w g seq rd rc dl true cr pb) (snd (istep dr nr sm f x o)) ->
  exists c, ca (ibase (fst (istep dr nr sm f x o))) = Some c /\ seq = c_lastid c.
Proof.
  intros f x o sid w g seq rd rc dl cr pb.
  assert (forall o1, ~ In (sid, FDesc w g seq rd rc dl true cr pb) (lift_c01i o1)) as NL.
  { intros o1 H. unfold lift_c01i in H. apply in_map_iff in H. destruct H as (e & E & _). discriminate. }
  destruct o; unfold istep.
  - destruct (step dr nr sm f (ibase x) o) as [b1 o1]. cbn [snd]. intros H. exfalso. exact (NL _ H).
  - destruct (step dr nr sm f (ibase x) (OGetDesc sid0)) as [b1 o1] eqn:ES. cbn [fst snd ibase].
    pose proof (step_getdesc_offline dr nr sm f (ibase x) sid0) as OFF. rewrite ES in OFF. cbn [snd] in OFF.
    assert (forall sp, ~ In (sid, FDesc w g seq rd rc dl true cr pb) (lift_offline_c01i sp o1) \/ is_attached_c01i (ibase x) sid0 = true) as NO.
    { intros sp. destruct (is_attached_c01i (ibase x) sid0) eqn:IA; [now right|left].
      intros H. unfold lift_offline_c01i in H. apply in_map_iff in H. destruct H as (e & E & Hin).
      specialize (OFF eq_refl e Hin). destruct (snd e); try discriminate. inv E. cbn in OFF. discriminate. }
    unfold is_attached_c01i in NO.
    destruct (ca (ibase x)) as [c|] eqn:EC; [|intros H; exfalso; destruct (NO (s_pub x)) as [K|K]; [exact (K H)|discriminate]].
    destruct (attached c sid0) eqn:AT; [|intros H; exfalso; destruct (NO (s_pub x)) as [K|K]; [exact (K H)|discriminate]].
    intros H. exists c. split.
    + pose proof (step_getdesc_noop dr nr sm f (ibase x) sid0) as [_ E2]. rewrite ES in E2. cbn [fst] in E2. congruence.
    + eapply get_desc_ims_current; [exact H|reflexivity].
  - destruct (step dr nr sm f (ibase x) (OSub sid0 want bkg)) as [b1 o1]. cbn [fst snd ibase].
    intros H. apply in_app_or in H. destruct H as [H|H]; [exfalso; exact (NL _ H)|].
    destruct (sub_ok_c01i sid0 o1); [|destruct H].
    destruct (ca b1) as [c1|]; [|destruct H].
    exists c1. split; [reflexivity|]. eapply get_desc_ims_current; [exact H|reflexivity].
  - repeat break_match; cbn [snd]; intros [E|[]]; discriminate.
Qed.

(* ... and the wrapper moves the store rows and the cache exactly as the base model moves them on the
   history with the options erased ({set desc public} = a request without effect on them): every theorem
   above about histories of the base model (c01_invariant, c01_only_publish_numbers,
   c01_restart_above_shown, c01_mark_monotone) holds along every history of the wrapper. *)
Theorem c01_desc_options_simulation : forall h x,
  let r := fst (irun dr nr sm x h) in
  let b := fst (run dr nr sm (ibase x) (base_hist_c01i h)) in
  st (ibase r) = st b /\ ca (ibase r) = ca b.
Proof. intros h x. exact (irun_base dr nr sm h x (ibase x) (beq_refl _)). Qed.

Theorem c01_desc_options_invariant : forall s h pub, fresh s ->
  inv_num (ibase (fst (irun dr nr sm (mkIS (mkState s None 0) pub 0 0) h))).
Proof.
  intros s h pub F.
  destruct (irun_base dr nr sm h (mkIS (mkState s None 0) pub 0 0) (mkState s None 0) (beq_refl _)) as [E1 E2].
  pose proof (run_inv_num dr nr sm (base_hist_c01i h) (mkState s None 0) (fresh_inv s 0 F)) as I.
  destruct (fst (irun dr nr sm (mkIS (mkState s None 0) pub 0 0) h)) as [[s1 c1 n1] p1 p2 k].
  destruct (fst (run dr nr sm (mkState s None 0) (base_hist_c01i h))) as [s2 c2 n2].
  cbn [ibase st ca] in *. subst s2 c2. exact (inv_num_ncalls _ _ _ _ I).
Qed.
End C01Ims.

Print Assumptions c01_desc_options_show_lastid.
Print Assumptions c01_desc_numbers_independent_of_options.
Print Assumptions c01_desc_options_show_acknowledged.
Print Assumptions c01_desc_options_current.
Print Assumptions c01_desc_options_simulation.
Print Assumptions c01_desc_options_invariant.

(* non-vacuity: two publishes, {set desc public} in between (t.updated moves); the reader's description
   shows seq = 2 with the option absent, before and not before the last update; malformed options -> no numbers *)
Example c01_desc_options_ex :
  nth 5 w_descs_c01i [] = [(2%N, Some (2, 2, 2, 0))] /\
  nth 6 w_descs_c01i [] = [(2%N, Some (2, 2, 2, 0))] /\
  nth 7 w_descs_c01i [] = [(2%N, Some (2, 2, 2, 0))].
Proof. destruct w_descs_c01i_ok as (_ & A & B & C & _). auto. Qed.

(* ================================================================== *)
(* CHANNEL READERS.  The group-topic model above has no channel subscriptions; the clause "the number
   acknowledged to the publisher is the number EVERY recipient shows" is stated for them on the fan-out
   model Sys/Fanout.v (group / channel-enabled group / p2p; sessions attached under the grpXXX or the
   chnXXX name), the model of the C02 check, from EVERY state. *)
From Tinode Require Sys.Fanout Sys.FanoutProofs.

(* every delivered copy of an accepted publish - to a subscriber's session or to a channel
   subscription - carries the acknowledged number q = lastID + 1, which becomes lastID *)
Theorem c01_every_recipient_shows_acknowledged : forall st px q a c p st',
  Fanout.publish st px = (Fanout.PAccepted q a c p, st') ->
  q = (Fanout.st_lastid st + 1)%Z /\ Fanout.st_lastid st' = q /\
  forall s f, In (s, f) (Fanout.fanout st px) -> Fanout.f_seq f = q.
Proof.
  intros st px q a c p st' H.
  destruct (FanoutProofs.overflow_detached st px q a c p st' H) as (Q & _ & _ & L & _).
  split; [exact Q|]. split; [exact L|].
  intros s f Hin. destruct (FanoutProofs.copy_payload st px s f Hin) as [E _]. rewrite E, Q. reflexivity.
Qed.

(* a copy is made for every attached channel subscription (whatever the permissions of the user it acts
   for), except for the publishing session when no echo was asked *)
Theorem c01_channel_subscriptions_are_recipients : forall st px s d,
  In (s, d) (Fanout.st_sess st) -> Fanout.ss_chan d = true ->
  (Fanout.px_noecho px && (s =? Fanout.px_sid px)%N) = false ->
  In s (map fst (Fanout.fanout_all st px)).
Proof.
  intros st px s d Hin Hc Hn.
  destruct (FanoutProofs.exact_set st px) as (_ & _ & E). apply E. exists d. split; [exact Hin|].
  unfold FanoutProofs.eligible. cbn [fst snd]. rewrite Hc, Hn, orb_true_r. reflexivity.
Qed.

(* over any list of requests: the numbers of the copies one session receives are strictly increasing and
   lie in (starting lastID, final lastID] *)
Theorem c01_recipient_numbers_increasing : forall ops st,
  FanoutProofs.wf_sess st ->
  (forall s f, In (s, f) (snd (Fanout.run st ops)) ->
     (Fanout.st_lastid st < Fanout.f_seq f <= Fanout.st_lastid (fst (Fanout.run st ops)))%Z) /\
  (forall s, Sorted.StronglySorted Z.lt (map Fanout.f_seq (FanoutProofs.frames_to s (snd (Fanout.run st ops))))).
Proof. intros ops st W. destruct (FanoutProofs.run_order ops st W) as (_ & _ & A & B). split; assumption. Qed.

Print Assumptions c01_every_recipient_shows_acknowledged.
Print Assumptions c01_channel_subscriptions_are_recipients.
Print Assumptions c01_recipient_numbers_increasing.

(* ---- later QUERIES of channel subscriptions, p2p participants and sessions acting on behalf of a user:
   model Sys/FanoutQueryC01.v (the fan-out model plus the stored message rows and the {get desc} / {get data}
   of an attached session). *)
From Tinode Require Sys.FanoutQueryC01 Sys.FanoutQueryC01Proofs.

(* an accepted publish stores the row (acknowledged number, author, content); that number becomes lastID *)
Theorem c01_query_publish_stores_acknowledged : forall x px q a c p st',
  Fanout.publish (FanoutQueryC01.q_st x) px = (Fanout.PAccepted q a c p, st') ->
  FanoutQueryC01.qstep x (FanoutQueryC01.QBase (Fanout.OPub px)) =
    (Some (FanoutQueryC01.mkQ st' (FanoutQueryC01.q_msgs x ++ [mkMsg q (Fanout.px_author px) (Fanout.px_content px) 0])),
     Some (Fanout.PAccepted q a c p), []) /\
  q = (Fanout.st_lastid (FanoutQueryC01.q_st x) + 1)%Z /\ Fanout.st_lastid st' = q.
Proof. exact FanoutQueryC01Proofs.qstep_pub_accepted. Qed.

(* no other request stores a row or moves lastID *)
Theorem c01_query_only_publish_stores : forall x o ox res out,
  FanoutQueryC01.qstep x o = (ox, res, out) ->
  (forall px q a c p, o = FanoutQueryC01.QBase (Fanout.OPub px) -> res <> Some (Fanout.PAccepted q a c p)) ->
  FanoutQueryC01.q_msgs (FanoutQueryC01.qnext x ox) = FanoutQueryC01.q_msgs x /\
  Fanout.st_lastid (FanoutQueryC01.q_st (FanoutQueryC01.qnext x ox)) = Fanout.st_lastid (FanoutQueryC01.q_st x).
Proof. exact FanoutQueryC01Proofs.qstep_stores_nothing. Qed.

(* every history from a topic without messages: the stored rows are numbered 1 .. lastID, one row per number,
   and rows once stored are never changed (the log only grows) *)
Theorem c01_query_rows_numbered : forall ops st, Fanout.st_lastid st = 0 ->
  FanoutQueryC01Proofs.qinv (fst (FanoutQueryC01.qrun (FanoutQueryC01.qinit st) ops)).
Proof. intros ops st H. apply FanoutQueryC01Proofs.qrun_inv. apply FanoutQueryC01Proofs.qinv_init. exact H. Qed.
Theorem c01_query_rows_kept : forall ops x, exists tl,
  FanoutQueryC01.q_msgs (fst (FanoutQueryC01.qrun x ops)) = FanoutQueryC01.q_msgs x ++ tl.
Proof. exact FanoutQueryC01Proofs.qrun_prefix. Qed.

(* DESCRIPTION: a subscriber with R - a channel reader included - is shown seq = lastID under every name he may
   use and for every value of the If-Modified-Since option *)
Theorem c01_query_desc_shows_lastid : forall st s u name i p,
  Fanout.chan_ok st (FanoutQueryC01.name_chan_c01q name) = true ->
  Fanout.lookup u (Fanout.st_users st) = Some p -> Fanout.has (Fanout.eff p) Fanout.bR = true ->
  FanoutQueryC01.q_get_desc st s u name i = [(s, FanoutQueryC01.QDesc true true (Fanout.st_lastid st))].
Proof. exact FanoutQueryC01Proofs.q_desc_reader. Qed.

(* HISTORY: every {data} of an answer is a stored row: its number and content are the row's, the author is the
   row's or withheld (channel name) *)
Theorem c01_query_history_shows_stored_rows : forall x s u name a b l s' t f q c,
  In (s', FanoutQueryC01.QData t f q c) (FanoutQueryC01.q_get_data x s u name a b l) ->
  exists m, In m (FanoutQueryC01.q_msgs x) /\ m_seq m = q /\ m_content m = c /\ (f = 0%N \/ f = m_from m).
Proof. exact FanoutQueryC01Proofs.q_data_from_store. Qed.

(* ... and an unbounded query shows every stored row (up to the adapter's page of 100 rows) *)
Theorem c01_query_history_complete : forall ms u,
  FanoutQueryC01Proofs.rows_live ms -> (length ms <= 100)%nat ->
  Permutation.Permutation (ad_msg_get_all (FanoutQueryC01.store_of_c01q ms) u 0 0 0) ms.
Proof. exact FanoutQueryC01Proofs.q_history_complete. Qed.

Print Assumptions c01_query_publish_stores_acknowledged.
Print Assumptions c01_query_only_publish_stores.
Print Assumptions c01_query_rows_numbered.
Print Assumptions c01_query_rows_kept.
Print Assumptions c01_query_desc_shows_lastid.
Print Assumptions c01_query_history_shows_stored_rows.
Print Assumptions c01_query_history_complete.

Example c01_query_ex :
  snd (FanoutQueryC01.qrun (FanoutQueryC01.qinit FanoutQueryC01Proofs.wq_st) FanoutQueryC01Proofs.wq_ops) =
  [[]; []; [(3%N, FanoutQueryC01.QDesc true true 2)];
   [(3%N, FanoutQueryC01.QData Fanout.TChn 0%N 2 102%N); (3%N, FanoutQueryC01.QData Fanout.TChn 0%N 1 101%N); (3%N, FanoutQueryC01.QCtrl 208)]].
Proof. exact FanoutQueryC01Proofs.wq_ok. Qed.

(* ================================================================== *)
(* A {pub} that lists ATTACHMENTS (extra.attachments): model Sys/TopicAttC01.v -
   saveAndBroadcastMessage + messagesMapper.Save with the attachment URLs (none / several; URLs
   without a file id, well-formed ids without an upload record, uploaded files) under every
   fault plan of the save path: TopicUpdateOnMessage, MessageSave, SubsUpdate and
   FileLinkAttachments, the LAST store call of a publish, whose error is the save's error
   although the topic row and the message row are already written. *)
From Tinode Require Import Sys.TopicAttC01 Sys.TopicAttC01Proofs.

(* Every publish, whatever its attachments and the fault plan, ends in one of three ways:
   refused with nothing stored and lastID unchanged; accepted under lastID+1 (acknowledged,
   stored, broadcast with that number, never stored before); or refused at the attachment-link
   call - message lastID+1 is stored, lastID is NOT advanced - which happens only when the link
   can fail (an unknown file id, or the fault plan hits that call). *)
Theorem c01_att_publish : forall f s c n sid u content noecho atts,
  let h := publish_att f s c n sid u content noecho atts in
  att_refused s c sid h \/ att_accepted s c sid u content noecho h \/
  (att_link_failed s c sid u content h /\ link_safe_c01a f c u n atts = false).
Proof. exact publish_att_cases. Qed.

(* "a publish whose save failed consumes no number", on the topic's counter: a publish that
   acknowledges nothing leaves lastID (the whole cache) as it was - for every attachment list and
   every failing or crashing store call, the link call included. *)
Theorem c01_att_failed_publish_keeps_lastid : forall f s c n sid u content noecho atts,
  no_ack (h_out (publish_att f s c n sid u content noecho atts)) ->
  h_ca (publish_att f s c n sid u content noecho atts) = c.
Proof.
  intros f s c n sid u content noecho atts NA. destruct (publish_att_cases f s c n sid u content noecho atts) as [R|[A|[L _]]].
  - apply R.
  - exfalso. destruct A as (_ & _ & _ & _ & O). rewrite O in NA. exact (NA _ _ (acked_head _ _ _)).
  - apply L.
Qed.

(* The full clause - such a publish also leaves no message behind, so that the number stays
   free for the next accepted message - is REFUTED by the faithful model: the owner publishes
   with one well-formed URL of a file that was never uploaded, no store fault at all. *)
Definition c01_att_failed_publish_stores_nothing_statement : Prop :=
  forall f s c n sid u content noecho atts,
    no_ack (h_out (publish_att f s c n sid u content noecho atts)) ->
    msgs (h_st (publish_att f s c n sid u content noecho atts)) = msgs s.
Theorem c01_att_failed_publish_stores_nothing_refuted : ~ c01_att_failed_publish_stores_nothing_statement.
Proof.
  intros H. specialize (H NoFault att_wit_store att_wit_cache 0%nat 1%N 1%N 7%N false [AttUnknown]).
  destruct att_wit_facts as (O & _ & M & S0). fold att_wit in H.
  assert (msgs (h_st att_wit) = msgs att_wit_store) as E.
  { apply H. rewrite O. apply no_ack_single. }
  rewrite E, S0 in M. discriminate.
Qed.
(* ... and holds whenever the attachment link cannot fail: every listed file id is known and the
   fault plan does not hit the link call (any other failing or crashing call is allowed). *)
Theorem c01_att_failed_publish_stores_nothing_partial : forall f s c n sid u content noecho atts,
  link_safe_c01a f c u n atts = true ->
  no_ack (h_out (publish_att f s c n sid u content noecho atts)) ->
  att_refused s c sid (publish_att f s c n sid u content noecho atts).
Proof.
  intros f s c n sid u content noecho atts LS NA. destruct (publish_att_cases f s c n sid u content noecho atts) as [R|[A|[_ L]]].
  - exact R.
  - exfalso. destruct A as (_ & _ & _ & _ & O). rewrite O in NA. exact (NA _ _ (acked_head _ _ _)).
  - congruence.
Qed.

(* No number is issued twice even then: while message lastID+1 is stored every publish is
   refused with lastID unchanged - so after a refusal at the link call the topic accepts no
   publish at all until it is reloaded (the reload restores lastID from the stored mark). *)
Theorem c01_att_taken_number_never_issued : forall f s c n sid u content noecho atts,
  In (c_lastid c + 1) (seqs s) ->
  att_refused s c sid (publish_att f s c n sid u content noecho atts).
Proof. exact publish_att_taken_number_refused. Qed.
Theorem c01_att_link_failure_blocks_topic : forall f s c n sid u content noecho atts,
  att_link_failed s c sid u content (publish_att f s c n sid u content noecho atts) ->
  forall f' n' sid' u' content' noecho' atts',
    let h := publish_att f s c n sid u content noecho atts in
    att_refused (h_st h) c sid' (publish_att f' (h_st h) (h_ca h) n' sid' u' content' noecho' atts').
Proof.
  intros f s c n sid u content noecho atts L f' n' sid' u' content' noecho' atts'. cbn zeta.
  destruct L as (E1 & _ & E3 & _ & _). rewrite E1.
  apply publish_att_taken_number_refused. unfold seqs. rewrite E3. rewrite map_app. apply in_or_app. right. left. reflexivity.
Qed.

(* Attachments that name no file (URLs of another directory, names without an id) change nothing:
   the history is a history of the base model with the attachments erased, so every theorem of
   the first part (invariant, restart above everything shown, monotone mark) covers it. *)
Theorem c01_att_no_file_ids_simulation : forall dr nr sm h x,
  forallb (fun fo => no_file_ids_c01a (snd fo)) h = true ->
  arun dr nr sm x h = run dr nr sm x (map (fun fo => (fst fo, base_op_c01a (snd fo))) h).
Proof. intros dr nr sm h x. exact (arun_no_ids dr nr sm h x). Qed.
Theorem c01_att_no_file_ids_invariant : forall dr nr sm s h, fresh s ->
  forallb (fun fo => no_file_ids_c01a (snd fo)) h = true ->
  inv_num (fst (arun dr nr sm (mkState s None 0) h)).
Proof. intros dr nr sm s h F E. rewrite (arun_no_ids dr nr sm h _ E). apply run_inv_num. apply fresh_inv. exact F. Qed.

Print Assumptions c01_att_publish.
Print Assumptions c01_att_failed_publish_keeps_lastid.
Print Assumptions c01_att_failed_publish_stores_nothing_refuted.
Print Assumptions c01_att_failed_publish_stores_nothing_partial.
Print Assumptions c01_att_taken_number_never_issued.
Print Assumptions c01_att_link_failure_blocks_topic.
Print Assumptions c01_att_no_file_ids_simulation.
Print Assumptions c01_att_no_file_ids_invariant.

(* non-vacuity: uploaded files are linked and the numbers run on; a failing first or second store
   call of a publish WITH attachments consumes nothing (2 is issued next); the unknown file id
   stores message 3 without advancing lastID and the next publish is refused *)
Example c01_att_ex :
  let s0 := ad_sub_create (mkStore true 0 0 0 47 0 [] [] [] [(1%N, 47%N)]) 1%N 255%N 255%N in
  let r := arun (fun _ _ => None) (fun x => x) [(1%N, 1%N)] (mkState s0 None 0)
               [(NoFault, ABase (OSub 1 [] false)); (NoFault, APubAtt 1 7 false [AttKnown; AttJunk]);
                (FailAt 1, APubAtt 1 8 false [AttKnown]); (FailAt 2, APubAtt 1 8 false [AttKnown; AttKnown]);
                (NoFault, APubAtt 1 9 false [AttKnown]); (NoFault, APubAtt 1 10 false [AttUnknown]);
                (NoFault, APubAtt 1 11 false [])] in
  map (fun o => out_seqs o) (snd r) = [[]; [1; 1; 1]; []; []; [2; 2; 2]; []; []] /\
  map m_seq (msgs (st (fst r))) = [1; 2; 3] /\
  match ca (fst r) with Some c => c_lastid c = 2 | None => False end.
Proof. vm_compute. repeat split; reflexivity. Qed.

(* ================================================================== *)
(* "the number acknowledged is the number EVERY recipient and every later query shows": the
   two wire encodings of a frame (JSON; protobuf for gRPC clients, server/pbconverter.go) -
   model Sys/DescEncC01.v.  The protobuf fields are int32(...) of the Go int. *)
From Tinode Require Import Sys.DescEncC01 Sys.DescEncC01Proofs.

(* full statement: every frame shows the same number in both encodings - refuted by the faithful
   model for a number that does not fit 32 bits (message 2^31 of one topic) ... *)
Definition c01_number_same_in_every_encoding_statement : Prop :=
  forall fr, shown_num_c01e EncPB fr = shown_num_c01e EncJSON fr.
Theorem c01_number_same_in_every_encoding_refuted : ~ c01_number_same_in_every_encoding_statement.
Proof. intros H. specialize (H (Data 2147483648 1 7)). vm_compute in H. discriminate. Qed.
(* ... and true for every {data}, {meta desc} and 202 acknowledgement whose number fits *)
Theorem c01_number_same_in_every_encoding_partial : forall fr, fits_int32_c01e fr = true ->
  shown_num_c01e EncPB fr = shown_num_c01e EncJSON fr.
Proof.
  intros fr.
  unfold fits_int32_c01e. destruct fr; cbn [shown_num_c01e enc_num_c01e]; try reflexivity;
    intros H; apply andb_true_iff in H; destruct H as [H1 H2]; rewrite int32_id by lia; reflexivity.
Qed.
(* with c01_publish / c01_att_publish: the acknowledgement and every broadcast copy of an accepted
   publish show lastID+1 in both encodings *)
Theorem c01_accepted_number_in_every_encoding : forall e c skip seq u content x,
  -2147483648 <= seq < 2147483648 ->
  In x (fanout_data c skip (Data seq u content)) -> shown_num_c01e e (snd x) = Some seq.
Proof.
  intros e c skip seq u content x R H. rewrite (fanout_data_frames _ _ _ _ H).
  destruct e; cbn [shown_num_c01e enc_num_c01e]; [reflexivity|]. rewrite int32_id by lia. reflexivity.
Qed.

Print Assumptions c01_number_same_in_every_encoding_refuted.
Print Assumptions c01_number_same_in_every_encoding_partial.
Print Assumptions c01_accepted_number_in_every_encoding.

(* ================================================================== *)
(* Two near-simultaneous {sub} to a topic that is NOT loaded (Hub.run registers the paused
   instance before `go topicInit`): model Sys/HubJoinC01.v.  Every order of: the hub takes a
   join / a load completes / an attached session's publish is handled. *)
From Tinode Require Import Sys.HubJoinC01 Sys.HubJoinC01Proofs.

(* at most one Topic instance is ever created for the name, whatever the order of events *)
Theorem c01_join_single_instance : forall seqid rows h, (forall n, In n rows -> n <= seqid) ->
  (length (j_insts (fst (jrun true (jinit seqid rows) h))) <= 1)%nat.
Proof. intros seqid rows h H. apply jinv_one_instance. apply jrun_inv. apply jinit_inv. exact H. Qed.

(* hence every number is passed to MessageSave once and no publish of an attached writer is
   refused for a number that is already taken *)
Theorem c01_join_numbers_saved_once : forall seqid rows h, (forall n, In n rows -> n <= seqid) ->
  let x := fst (jrun true (jinit seqid rows) h) in
  NoDup (map fst (j_saves x)) /\ (forall p, In p (j_saves x) -> snd p = true).
Proof.
  intros seqid rows h H x. destruct (jrun_inv h _ (jinit_inv seqid rows H)) as ((_ & B & C) & _).
  split; [exact C|]. intros p Hp. apply (B p Hp).
Qed.

(* what the early registration is for: with the registration at the end of topicInit the same
   statement is refuted (both joins taken before either load completes: two instances, both number
   from the same stored mark) *)
Definition c01_join_late_registration_statement : Prop :=
  forall seqid rows h, (forall n, In n rows -> n <= seqid) ->
    NoDup (map fst (j_saves (fst (jrun false (jinit seqid rows) h)))).
Theorem c01_join_late_registration_refuted : ~ c01_join_late_registration_statement.
Proof.
  intros H. specialize (H 0 [] join_wit (fun n (F : In n []) => match F with end)).
  destruct join_wit_late as (_ & S & _). cbn zeta in S. rewrite S in H. cbn in H.
  inversion H as [|a l NI _]. apply NI. left. reflexivity.
Qed.

Print Assumptions c01_join_single_instance.
Print Assumptions c01_join_numbers_saved_once.
Print Assumptions c01_join_late_registration_refuted.

Example c01_join_ex :
  let r := jrun true (jinit 0 []) (join_wit ++ [JJoin 2; JPub 2]) in
  j_saves (fst r) = [(1, true); (2, true)] /\
  snd r = [[]; [JCtrl 2 503]; [JCtrl 1 200]; []; [JAck 1 1]; [JCtrl 2 409]; [JCtrl 2 200]; [JAck 2 2]].
Proof. vm_compute. split; reflexivity. Qed.
