(* C06  A group topic has exactly one owner at all times.
   Theorems only, about the topic model Sys/Topic.v (one group topic: store rows, cache,
   {sub} / {set sub} / {leave unsub} / {del sub} on the attached and on the offline path,
   unload, restart, failing/crashing store calls) and, for the owner-only requests that are
   outside that model's alphabet, about the gate model Sys/OwnerGate.v.

   Vocabulary (Sys/TopicOwner.v, Sys/TopicOwnerProofs.v):
     smode s u        = Some (want, given, deleted) of u's stored subscription row, None if there is none
     store_owners s   = users of the non-deleted rows with O in want & given, in row order
     cache_owners c   = users of the cached entries with O in want & given
     sinv s           = well-formed store: exactly one effective owner, equal to topics.owner (non-zero),
                        no other row (deleted or not) has O in want, user ids are unique, the default
                        access and the accounts' default modes have no O (enforced by topic/account creation)
     oinv_state sm x  = sinv of the store plus, when the topic is loaded: cached owner = topics.owner, cache and
                        store agree on who is subscribed, on every given mode and on the O bit of every want
                        mode, attached sessions belong to cached users
     actor_ok sm o    = the request comes from a session logged in as a non-zero user
     asks_owner o     = the request names an explicit mode containing O
     fault_safe (f,o) = f = NoFault or asks_owner o = false
     op_user sm o     = the acting user;  asks_op sm o = the actor's own {sub}/{set sub} with O in the mode;
     is_set_op sm o t = o is {set sub} naming another user t;
     fault_safe_c06x sm (f,o) = fault_safe (f,o) or o is a {set sub} naming another user (any mode, O included):
                        the only faulted requests left out are the actor's OWN {sub}/{set sub} naming O;
     acks_c06x fr     = fr is a 200-with-acs or a ctrl below 400.
   Gate with population (Sys/OwnerGateC06x.v): gate_del_c06x reads the topic category and the
   subscriber counts exactly as hub.topicUnreg does ((p2p AND count < 2) shortcut). *)
From Coq Require Import ZArith NArith List Bool.
From Tinode Require Import Base.Util Pure.Acs Sys.Topic Sys.TopicOwner Sys.TopicOwnerProofs Sys.OwnerGate Sys.OwnerGateProofs.
From Tinode Require Import Sys.TopicOwnerC06x Sys.OwnerGateC06x.
Import ListNotations.
Open Scope N_scope.

Section C06.
Variable dr : Z -> list (Z * Z) -> option (list (Z * Z)).
Variable nr : list (Z * Z) -> list (Z * Z).
Variable sm : sessmap.

(* The invariant holds in every state reached from a well-formed store by any history in which
   no FAULTED request names O (fault-free histories are a special case). *)
Theorem c06_reachable : forall s h, sinv s -> hist_ok sm h ->
  oinv_state sm (fst (run dr nr sm (mkState s None 0) h)).
Proof. intros s h SI H. exact (run_owner_c06x dr nr sm h (mkState s None 0) SI (hist_ok_weaken_c06x sm h H)). Qed.

(* Exactly one owner at all times: after every fault-free history of any length, the stored
   subscriptions and, when the topic is loaded, the cached ones have exactly one effective owner,
   and it is the user named by topics.owner / Topic.owner. *)
Theorem c06_one_owner : forall s h,
  sinv s -> Forall (fun fo => actor_ok sm (snd fo)) h -> Forall (fun fo => fst fo = NoFault) h ->
  let x := fst (run dr nr sm (mkState s None 0) h) in
  store_owners (st x) = [t_owner (st x)] /\
  match ca x with Some c => cache_owners c = [c_owner c] /\ c_owner c = t_owner (st x) | None => True end.
Proof. intros s h SI A B. exact (run_one_owner_c06x dr nr sm s h SI (hist_ok_weaken_c06x sm h (hist_ok_nofault sm h A B))). Qed.

(* No request by another user removes, bans or demotes the owner: the owner's stored row (want,
   given, deleted flag) is exactly as before and topics.owner is unchanged - unless the request
   is the acceptance of a transfer by a user whose previous grant has O. *)
Theorem c06_owner_not_demoted_by_others : forall x fo,
  oinv_state sm x -> actor_ok sm (snd fo) -> fault_safe fo -> op_user sm (snd fo) <> t_owner (st x) ->
  let x' := fst (step_f dr nr sm x fo) in
  (smode (st x') (t_owner (st x)) = smode (st x) (t_owner (st x)) /\ t_owner (st x') = t_owner (st x)) \/
  (asks_op sm (snd fo) /\ t_owner (st x') = op_user sm (snd fo) /\
   exists w g, smode (st x) (op_user sm (snd fo)) = Some (w, g, false) /\ is_owner g = true /\ is_owner w = false).
Proof. intros x fo I AO FS. exact (step_owner_kept_c06x dr nr sm x fo I AO (or_introl FS)). Qed.

(* The owner cannot unsubscribe: the request is refused and nothing changes, whatever the fault plan. *)
Theorem c06_owner_cannot_leave : forall f x sid,
  oinv_state sm x -> sess_uid sm sid = t_owner (st x) ->
  exists code, (400 <= code)%Z /\
    step dr nr sm f x (OLeave sid true) = (mkState (st x) (ca x) 0, [(sid, Ctrl code [])]).
Proof.
  intros f x sid I EA. destruct x as [s cx n0]. unfold oinv_state in I. cbn [st ca] in *. unfold step. cbn [st ca].
  destruct cx as [c|]; [destruct (attached c sid) eqn:AT|]; cbn [negb].
  - rewrite (cinv_acting sm s c sid (proj2 I)), EA, <- (ci_owner _ _ _ (proj2 I)), TopicFrame.leave_unsub_owner. cbn [h_st h_ca h_n h_out]. exists 403%Z. split; [discriminate|reflexivity].
  - exists 409%Z. split; [discriminate|reflexivity].
  - exists 409%Z. split; [discriminate|reflexivity].
Qed.

(* The owner cannot give ownership up: after any request of the owner (attached or offline path,
   any mode string) topics.owner is unchanged and the owner's row is live with O in want and given. *)
Theorem c06_owner_keeps_ownership : forall x fo,
  oinv_state sm x -> actor_ok sm (snd fo) -> fault_safe fo -> op_user sm (snd fo) = t_owner (st x) ->
  let x' := fst (step_f dr nr sm x fo) in
  t_owner (st x') = t_owner (st x) /\
  exists w g, smode (st x') (t_owner (st x)) = Some (w, g, false) /\ is_owner w = true /\ is_owner g = true.
Proof.
  intros x fo I AO FS EA. cbn zeta.
  pose proof (step_owner_self_c06x dr nr sm x fo I AO (or_introl FS) EA) as EO. split; [exact EO|].
  rewrite <- EO. exact (step_owner_stays_c06x dr nr sm x fo I AO (or_introl FS)).
Qed.

(* Ownership moves only by acceptance: if topics.owner changes at a step, the actor asked for O
   explicitly in his own {sub}/{set sub}, his previous live row had O in given (and not in want), he
   is the new owner, and the previous owner is left with O neither in want nor in given. *)
Theorem c06_transfer : forall x fo,
  oinv_state sm x -> actor_ok sm (snd fo) -> fault_safe fo ->
  let x' := fst (step_f dr nr sm x fo) in
  t_owner (st x') <> t_owner (st x) ->
  asks_op sm (snd fo) /\ t_owner (st x') = op_user sm (snd fo) /\
  (exists w g, smode (st x) (op_user sm (snd fo)) = Some (w, g, false) /\ is_owner g = true /\ is_owner w = false) /\
  (exists w' g', smode (st x') (t_owner (st x)) = Some (w', g', false) /\ is_owner w' = false /\ is_owner g' = false).
Proof. intros x fo I AO FS. exact (step_transfer_c06x dr nr sm x fo I AO (or_introl FS)). Qed.

(* O enters the given mode of a user only by a {set sub} of the current owner naming that user;
   a row that already had O in given (soft-deleted rows included: re-subscription restores the
   previous grant) is the only other source. *)
Theorem c06_grant_by_owner_only : forall x fo v w' g' d',
  oinv_state sm x -> actor_ok sm (snd fo) -> fault_safe fo ->
  let x' := fst (step_f dr nr sm x fo) in
  smode (st x') v = Some (w', g', d') -> is_owner g' = true -> ~ had_given_O (smode (st x) v) ->
  op_user sm (snd fo) = t_owner (st x) /\ is_set_op sm (snd fo) v.
Proof. intros x fo v w' g' d' I AO FS. exact (step_grant_c06x dr nr sm x fo v w' g' d' I AO (or_introl FS)). Qed.

(* With store faults: the statement for histories in which faulted requests do not name O. *)
Theorem c06_one_owner_faults_partial : forall s h, sinv s -> hist_ok sm h ->
  let x := fst (run dr nr sm (mkState s None 0) h) in
  store_owners (st x) = [t_owner (st x)] /\
  match ca x with Some c => cache_owners c = [c_owner c] /\ c_owner c = t_owner (st x) | None => True end.
Proof. intros s h SI H. exact (run_one_owner_c06x dr nr sm s h SI (hist_ok_weaken_c06x sm h H)). Qed.

(* ---- store faults on the OFFER of ownership ---- *)
(* A {set sub} naming another user, sent by an attached session, that is not acknowledged (refused,
   or its store call failed and no reply is sent) grants nothing: the store and the cache are
   exactly as before - in ANY state, under ANY fault plan.  (anotherUserSub writes the cached
   given mode only after store.Subs.Update went through.) *)
Theorem c06_failed_offer_grants_nothing : forall f x sid t mode c,
  ca x = Some c -> attached c sid = true -> t <> 0 -> t <> sess_uid sm sid ->
  (forall fr, In (sid, fr) (snd (step dr nr sm f x (OSetSub sid t mode))) -> acks_c06x fr = false) ->
  st (fst (step dr nr sm f x (OSetSub sid t mode))) = st x /\
  ca (fst (step dr nr sm f x (OSetSub sid t mode))) = ca x.
Proof. exact (step_failed_offer_c06x dr nr sm). Qed.

(* The invariant, hence exactly one owner, after every history whose faulted requests are anything
   but the actor's own {sub}/{set sub} naming O: faulted offers of ownership are covered. *)
Theorem c06_one_owner_offer_faults : forall s h, sinv s -> hist_ok_c06x sm h ->
  let x := fst (run dr nr sm (mkState s None 0) h) in
  store_owners (st x) = [t_owner (st x)] /\
  match ca x with Some c => cache_owners c = [c_owner c] /\ c_owner c = t_owner (st x) | None => True end.
Proof. exact (run_one_owner_c06x dr nr sm). Qed.

(* Ownership moves only by the acceptance of a grant that is in the STORE: at a step of such a
   history topics.owner changes only if the actor asked for O in his own request and his stored live
   row had O in given (not in want) BEFORE the step; he is then the owner and the previous owner
   keeps O neither in want nor in given.  With c06_failed_offer_grants_nothing: an offer whose store
   write failed cannot be accepted. *)
Theorem c06_transfer_needs_stored_grant : forall x fo,
  oinv_state sm x -> actor_ok sm (snd fo) -> fault_safe_c06x sm fo ->
  let x' := fst (step_f dr nr sm x fo) in
  t_owner (st x') <> t_owner (st x) ->
  asks_op sm (snd fo) /\ t_owner (st x') = op_user sm (snd fo) /\
  (exists w g, smode (st x) (op_user sm (snd fo)) = Some (w, g, false) /\ is_owner g = true /\ is_owner w = false) /\
  (exists w' g', smode (st x') (t_owner (st x)) = Some (w', g', false) /\ is_owner w' = false /\ is_owner g' = false).
Proof. exact (step_transfer_c06x dr nr sm). Qed.

(* and whoever topics.owner names after such a step has a live stored row with O in want and given *)
Theorem c06_owner_row_after_step : forall x fo,
  oinv_state sm x -> actor_ok sm (snd fo) -> fault_safe_c06x sm fo ->
  let x' := fst (step_f dr nr sm x fo) in
  exists w g, smode (st x') (t_owner (st x')) = Some (w, g, false) /\ is_owner w = true /\ is_owner g = true.
Proof. exact (step_owner_stays_c06x dr nr sm). Qed.
End C06.

(* The full statement over ALL fault plans is REFUTED by the faithful model (known finding
   stored-owner-count-2-after-store-fault): the acceptance of a transfer makes three separate store
   writes; when the second one fails the accepting user already has O in want and given while the
   previous owner still has it. *)
Definition c06_one_owner_faults_statement : Prop :=
  forall sm s h, sinv s -> Forall (fun fo => actor_ok sm (snd fo)) h ->
    let x := fst (run (fun _ _ => None) (fun x => x) sm (mkState s None 0) h) in
    store_owners (st x) = [t_owner (st x)].

Definition c06_w_store : store :=
  ad_sub_create (ad_sub_create (mkStore true 0 0 0 47 0 [] [] [] [(1, 47); (2, 47)]) 1 255 255) 2 47 255.
Definition c06_w_sess : sessmap := [(1, 1); (2, 2)].
Definition c06_w_full : list N := [74; 82; 87; 80; 65; 83; 68; 79].   (* "JRWPASDO" *)

Example c06_w_store_ok : sinv c06_w_store.
Proof.
  apply sinv_add_row; [|discriminate|reflexivity].
  apply sinv_new_topic; try reflexivity; try discriminate.
  intros u acc. cbn. destruct (u =? 1); [intros H; inversion H; reflexivity|].
  destruct (u =? 2); [intros H; inversion H; reflexivity|discriminate].
Qed.

Theorem c06_one_owner_faults_refuted : ~ c06_one_owner_faults_statement.
Proof.
  intros H.
  specialize (H c06_w_sess c06_w_store [(NoFault, OSub 2 [] false); (FailAt 2, OSetSub 2 0 c06_w_full)] c06_w_store_ok).
  assert (Forall (fun fo => actor_ok c06_w_sess (snd fo)) [(NoFault, OSub 2 [] false); (FailAt 2, OSetSub 2 0 c06_w_full)]) as A
    by (repeat constructor; cbn; discriminate).
  specialize (H A). vm_compute in H. discriminate H.
Qed.

(* Owner-only requests (gate model Sys/OwnerGate.v): a {del topic}, {set desc public|trusted|defacs}
   or {set tags} is accepted with a topic-wide effect only from the user the code takes for the
   owner on that path (Topic.owner when the topic is loaded, O in the stored want & given otherwise);
   by sinv_eff_owner_iff / oinv_cached_owner_iff both readings name the one owner of c06_one_owner. *)
Theorem c06_owner_only_ops : forall k r code, (g_attached r = true -> g_loaded r = true) ->
  gate k r = GAll code -> g_is_owner r = true /\ code = 200%Z.
Proof.
  intros k r code AL. unfold g_is_owner. destruct r as [l a oc os sb rt]. cbn [g_attached g_loaded] in AL.
  destruct k as [| | |o|]; cbn; unfold gate_del, gate_desc, gate_tags; cbn;
    destruct l, a, oc, os, sb, rt; try destruct o; cbn; intros H; try discriminate; inversion H; auto;
    try (specialize (AL eq_refl); discriminate).
Qed.

Theorem c06_owner_only_ops_set_attached : forall k r code, k <> GDelTopic -> gate k r = GAll code -> g_attached r = true.
Proof.
  intros k r code.
  destruct r as [l a oc os sb rt]. destruct k as [| | |o|]; cbn; unfold gate_desc, gate_tags; cbn; intros NK;
    try congruence; destruct a; cbn; auto; discriminate.
Qed.

Theorem c06_owner_readings_agree : forall sm s c u, oinv sm s c ->
  (c_owner c = u <-> u = t_owner s) /\
  ((exists w g, smode s u = Some (w, g, false) /\ is_owner (N.land w g) = true) <-> u = t_owner s).
Proof. intros sm s c u I. split; [exact (oinv_cached_owner_iff sm s c u I)|apply sinv_eff_owner_iff; apply I]. Qed.

(* {del what=topic} with the population of the topic (Sys/OwnerGateC06x.v: category, subscriber
   counts as read by hub.topicUnreg): a GROUP topic is deleted for everybody only at the request of
   the user the code takes for its owner, whatever the number of subscribers - the "last
   subscriber" shortcut is the p2p one. *)
Theorem c06_group_deleted_by_owner_only : forall r code, dx_p2p r = false ->
  gate_del_c06x r = GAll code -> dx_is_owner r = true /\ code = 200%Z.
Proof.
  intros r code.
  destruct r as [p l oc cc sb os cs]. cbn. intros ->. unfold gate_del_c06x, dx_is_owner. cbn.
  rewrite orb_false_r.
  destruct l, oc, sb, os, (cs =? 0)%N; cbn; intros H; try discriminate; inversion H; auto.
Qed.

Theorem c06_del_gate_counts_not_read_on_groups : forall r, dx_p2p r = false ->
  (dx_subscribed r = true -> dx_count_s r <> 0) -> gate_del_c06x r = gate GDelTopic (dx_greq r).
Proof.
  intros r.
  destruct r as [p l oc cc sb os cs]. cbn. intros -> NZ. unfold gate_del_c06x, gate_del. cbn.
  rewrite orb_false_r. destruct l; [reflexivity|].
  destruct (cs =? 0)%N eqn:E; [|reflexivity].
  destruct sb; [|reflexivity]. apply N.eqb_eq in E. exfalso. now apply NZ.
Qed.

Theorem c06_p2p_last_subscriber_shortcut : forall r, dx_p2p r = true -> dx_loaded r = true -> dx_owner_c r = false ->
  ((exists code, gate_del_c06x r = GAll code) <-> dx_count_c r < 2).
Proof.
  intros r.
  destruct r as [p l oc cc sb os cs]. cbn. intros -> -> ->. unfold gate_del_c06x. cbn.
  destruct (cc <? 2)%N eqn:E.
  - apply N.ltb_lt in E. split; [auto|]. intros _. eexists. reflexivity.
  - apply N.ltb_ge in E. split; [|intros H; exfalso; now apply N.lt_nge in H].
    intros [code H]. destruct sb; discriminate H.
Qed.

Theorem c06_group_member_only_leaves : forall r, dx_p2p r = false -> dx_is_owner r = false -> dx_subscribed r = true ->
  dx_count_s r <> 0 -> gate_del_c06x r = GOwn 200%Z.
Proof.
  intros r.
  destruct r as [p l oc cc sb os cs]. cbn. unfold dx_is_owner, gate_del_c06x. cbn. intros -> O -> NZ.
  apply N.eqb_neq in NZ. rewrite NZ. destruct l; rewrite O; reflexivity.
Qed.

Print Assumptions c06_reachable.
Print Assumptions c06_one_owner.
Print Assumptions c06_owner_not_demoted_by_others.
Print Assumptions c06_owner_cannot_leave.
Print Assumptions c06_owner_keeps_ownership.
Print Assumptions c06_transfer.
Print Assumptions c06_grant_by_owner_only.
Print Assumptions c06_one_owner_faults_partial.
Print Assumptions c06_one_owner_faults_refuted.
Print Assumptions c06_owner_only_ops.
Print Assumptions c06_owner_only_ops_set_attached.
Print Assumptions c06_owner_readings_agree.
Print Assumptions c06_failed_offer_grants_nothing.
Print Assumptions c06_one_owner_offer_faults.
Print Assumptions c06_transfer_needs_stored_grant.
Print Assumptions c06_owner_row_after_step.
Print Assumptions c06_group_deleted_by_owner_only.
Print Assumptions c06_del_gate_counts_not_read_on_groups.
Print Assumptions c06_p2p_last_subscriber_shortcut.
Print Assumptions c06_group_member_only_leaves.

(* the hypotheses are satisfiable, and the laws are not vacuous *)
Example c06_ex_initial_state_ok : sinv c06_w_store /\ hist_ok c06_w_sess [(NoFault, OSub 2 [] false); (NoFault, OSetSub 2 0 c06_w_full)].
Proof. split; [exact c06_w_store_ok|]. repeat constructor; cbn; discriminate. Qed.

Example c06_ex_transfer_happens :
  let x := fst (run (fun _ _ => None) (fun x => x) c06_w_sess (mkState c06_w_store None 0)
                    [(NoFault, OSub 2 [] false); (NoFault, OSetSub 2 0 c06_w_full)]) in
  t_owner (st x) = 2 /\ store_owners (st x) = [2] /\ option_map cache_owners (ca x) = Some [2] /\
  smode (st x) 1 = Some (127, 127, false).
Proof. vm_compute. repeat split. Qed.

Example c06_ex_gate :
  gate GDelTopic (mkGreq true true true true true false) = GAll 200%Z /\
  gate GDelTopic (mkGreq true true false false true false) = GOwn 200%Z /\
  gate GSetTags (mkGreq true true false false true true) = GNone 403%Z /\
  gate GSetTrusted (mkGreq true true true true true false) = GNone 403%Z /\
  gate (GSetDefacs true) (mkGreq true true true true true false) = GNone 400%Z.
Proof. repeat split. Qed.

(* a failed offer followed by an acceptance: the history is covered by c06_one_owner_offer_faults
   (not by c06_one_owner_faults_partial), the acceptance is refused and the owner stays *)
Definition c06x_w_store : store :=
  ad_sub_create (ad_sub_create (mkStore true 0 0 0 47 0 [] [] [] [(1, 47); (2, 47)]) 1 255 255) 2 47 47.
Definition c06x_w_hist : list (fault * op) :=
  [(NoFault, OSub 1 [] false); (NoFault, OSub 2 [] false); (FailAt 1, OSetSub 1 2 c06_w_full); (NoFault, OSetSub 2 0 c06_w_full)].

Example c06x_ex_failed_offer_hist_ok : hist_ok_c06x c06_w_sess c06x_w_hist /\ ~ hist_ok c06_w_sess c06x_w_hist.
Proof.
  split.
  - unfold hist_ok_c06x, c06x_w_hist.
    constructor; [split; [cbn; discriminate|left; left; reflexivity]|].
    constructor; [split; [cbn; discriminate|left; left; reflexivity]|].
    constructor; [split; [cbn; discriminate|]|].
    + right. exists 2. exists 1, c06_w_full. cbn. repeat split; discriminate.
    + constructor; [split; [cbn; discriminate|left; left; reflexivity]|constructor].
  - intros H. inversion H as [|? ? _ H1]; subst. inversion H1 as [|? ? _ H2]; subst.
    inversion H2 as [|? ? [_ [F|F]] _]; subst; discriminate F.
Qed.

Example c06x_ex_failed_offer_then_acceptance :
  let r := run (fun _ _ => None) (fun x => x) c06_w_sess (mkState c06x_w_store None 0) c06x_w_hist in
  t_owner (st (fst r)) = 1 /\ store_owners (st (fst r)) = [1] /\ option_map cache_owners (ca (fst r)) = Some [1] /\
  smode (st (fst r)) 2 = Some (47, 47, false) /\
  nth 2 (snd r) [] = [] /\ nth 3 (snd r) [] = [(2, Ctrl 403 [])].
Proof. vm_compute. repeat split. Qed.

Example c06x_ex_gate :
  gate_del_c06x (mkDreqC06x false true false 1 false false 1) = GNone 304%Z /\
  gate_del_c06x (mkDreqC06x true true false 1 false false 1) = GAll 200%Z /\
  gate_del_c06x (mkDreqC06x false true true 1 true true 1) = GAll 200%Z /\
  gate_del_c06x (mkDreqC06x false false false 0 true false 1) = GOwn 200%Z /\
  gate_del_c06x (mkDreqC06x true false false 0 true false 1) = GAll 200%Z.
Proof. repeat split. Qed.
