(* C08 (description part)  The live topic state and the stored state never diverge, for the fields
   that Sys/Topic.v does not model: default access, public / trusted content, tags, per-user private
   content (and the cached owner, want, given they depend on).
   Model: Sys/TopicDesc.v (one group topic: store rows, Topic cache, {sub} {leave} {set desc} {set tags}
   {get desc} {get tags} unload restart, fault plans).  The shape and invariant lemmas about the handlers are
   in Sys/TopicDescProofs.v; the acknowledgement and rejection theorems walk the handlers here.  All statements are over arbitrary states / histories: any number of
   users, sessions, requests, any fault plan.

   [coherent_desc x]: the store is well-formed (one row per user, no O in the default access, sorted tags)
   and, when the topic is loaded, every cached description field equals [load_desc (dst x)], the cache the
   load path (initTopicGrp + loadSubscribers) builds from the stored rows.
   [dinv sm x] = [coherent_desc x] + every attached session belongs to a cached user (the inductive invariant). *)
From Coq Require Import ZArith NArith List Bool.
From Tinode Require Import Base.Util Pure.Acs Sys.Topic Sys.TopicDesc Sys.TopicDescProofs.
Import ListNotations.
Open Scope Z_scope.

(* ---- the invariant ---- *)

Theorem c08d_invariant_is_coherence : forall sm x, dinv sm x -> coherent_desc x.
Proof. exact dinv_coherent. Qed.
Print Assumptions c08d_invariant_is_coherence.

(* what the load path builds is coherent with the rows it was built from *)
Theorem c08d_load_coherent : forall s, wf_store s -> coherent_cache s (load_desc s).
Proof. exact coherent_load. Qed.
Print Assumptions c08d_load_coherent.

Theorem c08d_coherent_init : forall sm s, wf_store s -> dinv sm (mkDState s None 0).
Proof. exact dinv_init. Qed.
Print Assumptions c08d_coherent_init.

(* Full statement: every request under every fault plan keeps the cache coherent with the store. *)
Definition c08d_step_coherent_statement : Prop := step_coherent_statement.

(* The faithful model REFUTES it, in three ways (each reproduced on the real server, findings/C08_desc.md):
   {set desc private} from a session that is not attached while the topic is loaded; *)
Theorem c08d_step_coherent_refuted : ~ c08d_step_coherent_statement.
Proof.
  intros H. specialize (H w_sm NoFault _ (DSetDesc 2 None 0 0 9) w_x1_inv).
  match type of H with coherent_desc ?x => remember x as y eqn:Ey end.
  vm_compute in Ey.
  match type of Ey with _ = {| dst := _; dca := Some ?c; dncalls := _ |} =>
    pose proof (coherent_users_lookup y c 2%N H ltac:(subst y; reflexivity)) as Hl end.
  subst y. vm_compute in Hl. discriminate.
Qed.
Print Assumptions c08d_step_coherent_refuted.
(* an attached {set desc} that writes the topic row and the subscription row, second write failing; *)
Theorem c08d_step_coherent_refuted_partly_stored : ~ c08d_step_coherent_statement.
Proof.
  intros H. specialize (H w_sm (FailAt 2) _ (DSetDesc 1 None 8 0 9) w_x1_inv).
  match type of H with coherent_desc ?x => remember x as y eqn:Ey end.
  vm_compute in Ey.
  match type of Ey with _ = {| dst := _; dca := Some ?c; dncalls := _ |} =>
    pose proof (coherent_pub y c H ltac:(subst y; reflexivity)) as Hl end.
  subst y. vm_compute in Hl. discriminate.
Qed.
Print Assumptions c08d_step_coherent_refuted_partly_stored.
(* {sub} of a user whose soft-deleted subscription row holds a private value. *)
Theorem c08d_step_coherent_refuted_resubscribe : ~ c08d_step_coherent_statement.
Proof.
  intros H. specialize (H w_sm NoFault _ (DSub 3 0) w_x1_inv).
  match type of H with coherent_desc ?x => remember x as y eqn:Ey end.
  vm_compute in Ey.
  match type of Ey with _ = {| dst := _; dca := Some ?c; dncalls := _ |} =>
    pose proof (coherent_users_lookup y c 3%N H ltac:(subst y; reflexivity)) as Hl end.
  subst y. vm_compute in Hl. discriminate.
Qed.
Print Assumptions c08d_step_coherent_refuted_resubscribe.

(* Outside these triggers ([dtrigger] is a decidable test on the request, the state and the fault plan)
   every request of the alphabet under every fault plan keeps the invariant. *)
Theorem c08d_step_coherent_partial : forall sm f x o,
  dinv sm x -> dtrigger sm f x o = false -> dinv sm (fst (dstep_f sm x (f, o))).
Proof. exact dstep_f_inv. Qed.
Print Assumptions c08d_step_coherent_partial.

(* hence along whole histories (any length) *)
Theorem c08d_history_coherent : forall sm h x,
  dinv sm x -> dbenign sm x h -> dinv sm (fst (drun sm x h)).
Proof. exact drun_inv. Qed.
Print Assumptions c08d_history_coherent.

(* a crash during ANY request (the three triggers included, no hypothesis on the request) leaves a coherent
   state: the store is well-formed, the cache is gone and the next load builds it from the store *)
Theorem c08d_crash_coherent : forall sm k x o, dinv sm x -> dinv sm (fst (dstep_f sm x (CrashAt k, o))).
Proof.
  intros sm k x o Hi. pose proof (proj1 (dstep_inv sm (CrashAt k) x o Hi)) as H. unfold dstep_f. cbn [fst snd].
  destruct (dstep sm (CrashAt k) x o) as [x1 o1]. cbn [fst] in *. split; [exact H|exact I].
Qed.
Print Assumptions c08d_crash_coherent.

(* ---- reload invisibility ---- *)

(* In a coherent state the answer to {get desc} / {get tags} (attached or not, any fault plan on the query)
   is the same with the topic unloaded and loaded back right before the query. *)
Theorem c08d_reload_invisible : forall sm f x q,
  coherent_desc x -> is_query q = true -> snd (dstep sm f x q) = snd (dstep sm f (dreload x) q).
Proof. exact reload_invisible_query. Qed.
Print Assumptions c08d_reload_invisible.

(* ... after any history without the triggers, from any well-formed store *)
Theorem c08d_reload_invisible_after_history : forall sm h s f q,
  wf_store s -> dbenign sm (mkDState s None 0) h -> is_query q = true ->
  let x := fst (drun sm (mkDState s None 0) h) in
  snd (dstep sm f x q) = snd (dstep sm f (dreload x) q).
Proof.
  intros sm h s f q Hwf Hb Hq x. apply reload_invisible_query; [|exact Hq].
  apply (dinv_coherent sm). apply drun_inv; [exact (dinv_init sm s Hwf)|exact Hb].
Qed.
Print Assumptions c08d_reload_invisible_after_history.

(* queries change neither the store nor the cache *)
Theorem c08d_query_no_change : forall sm f x q, is_query q = true ->
  dst (fst (dstep sm f x q)) = dst x /\ dca (fst (dstep sm f x q)) = dca x.
Proof.
  intros sm f x q Hq. destruct q; try discriminate Hq; unfold dstep; cbn [dop_sid];
    (destruct (dsess_uid sm sid =? 0)%N; [cbn; auto|]);
    (destruct (dca x) as [c|]; [destruct (dattached c sid)|]); cbn [fst snd dst dca]; auto;
    rewrite offline_get_desc_st; auto.
Qed.
Print Assumptions c08d_query_no_change.

(* ---- ack => stored ---- *)

(* tags: a 200 to {set tags} means the stored tags are the normalized request (no hypothesis at all) *)
Theorem c08d_ack_tags_stored : forall sm f x sid tags,
  acked sid (snd (dstep sm f x (DSetTags sid tags))) ->
  normalize_tags tags = Some (d_tags (dst (fst (dstep sm f x (DSetTags sid tags))))).
Proof.
  intros sm f x sid tags.
  unfold acked, dstep. cbn [dop_sid].
  destruct (dsess_uid sm sid =? 0)%N; [intros []|].
  destruct (dca x) as [c|]; [|cbn; intros [H|[]]; inversion H].
  destruct (dattached c sid); [|cbn; intros [H|[]]; inversion H].
  cbn [fst snd dst]. unfold d_set_tags.
  destruct (negb (N.eqb (k_owner c) (dsess_uid sm sid))); [cbn; intros [H|[]]; inversion H|].
  destruct (normalize_tags tags) as [t|]; [|cbn; intros [H|[]]; inversion H].
  destruct (negb (restricted_eq (k_tags c) t)); [cbn; intros [H|[]]; inversion H|].
  destruct (tags_differ (k_tags c) t); [|cbn; intros [H|[]]; inversion H].
  destruct (call f 0) as [ok n1]. destruct ok; cbn [negb]; [|cbn; intros [H|[]]; inversion H].
  intros _. reflexivity.
Qed.
Print Assumptions c08d_ack_tags_stored.

(* description: full statement *)
Definition c08d_ack_implies_stored_statement : Prop := ack_implies_stored_statement.
(* refuted: a non-attached {set desc private=DEL} is acknowledged and the marker is stored as a value; *)
Theorem c08d_ack_implies_stored_refuted : ~ c08d_ack_implies_stored_statement.
Proof.
  intros H. specialize (H w_sm NoFault _ 2%N None 0%N 0%N 1%N w_x1_inv ltac:(discriminate)).
  assert (Ha : acked 2 (snd (dstep w_sm NoFault (fst (drun w_sm w_init w_h1)) (DSetDesc 2 None 0 0 1)))) by (vm_compute; auto).
  destruct (H Ha) as [_ [_ [_ [_ Hp]]]].
  destruct (Hp ltac:(discriminate) (mkDRow 2 47 47 7 false) ltac:(reflexivity)) as [r' [Hr' Hv]].
  vm_compute in Hr'. inversion Hr'; subst r'. vm_compute in Hv. discriminate.
Qed.
Print Assumptions c08d_ack_implies_stored_refuted.
(* a non-attached {set desc public, private} is acknowledged and the public part is dropped *)
Theorem c08d_ack_implies_stored_refuted_public : ~ c08d_ack_implies_stored_statement.
Proof.
  intros H. specialize (H w_sm NoFault w_init 1%N None 8%N 0%N 9%N w_init_inv ltac:(discriminate)).
  assert (Ha : acked 1 (snd (dstep w_sm NoFault w_init (DSetDesc 1 None 8 0 9)))) by (vm_compute; auto).
  destruct (H Ha) as [_ [_ [Hp _]]]. vm_compute in Hp. discriminate.
Qed.
Print Assumptions c08d_ack_implies_stored_refuted_public.
(* it holds for every request of an attached session, under every fault plan *)
Theorem c08d_ack_implies_stored_partial : forall sm f x c sid defacs pub tru priv,
  dinv sm x -> dca x = Some c -> dattached c sid = true -> dsess_uid sm sid <> 0%N ->
  acked sid (snd (dstep sm f x (DSetDesc sid defacs pub tru priv))) ->
  desc_stored (dst x) (dst (fst (dstep sm f x (DSetDesc sid defacs pub tru priv)))) (dsess_uid sm sid) defacs pub tru priv.
Proof.
  intros sm f x c sid defacs pub tru priv [Hwf Hinv] Ec Ea Hu. rewrite Ec in Hinv.
  unfold dstep. cbn [dop_sid]. rewrite Ec. apply N.eqb_neq in Hu. rewrite Hu, Ea. cbn [fst snd dst].
  apply (set_desc_acked sm); [exact Hwf|exact Hinv|apply (sess_ok_attached sm c sid (proj2 Hinv) Ea)].
Qed.
Print Assumptions c08d_ack_implies_stored_partial.
(* and for a non-attached session that sends only a private value other than the DEL marker *)
Theorem c08d_ack_implies_stored_partial_offline : forall sm f x sid defacs pub tru priv,
  (forall c, dca x = Some c -> dattached c sid = false) -> dsess_uid sm sid <> 0%N ->
  defacs = None -> pub = 0%N -> tru = 0%N -> priv <> 1%N ->
  acked sid (snd (dstep sm f x (DSetDesc sid defacs pub tru priv))) ->
  desc_stored (dst x) (dst (fst (dstep sm f x (DSetDesc sid defacs pub tru priv)))) (dsess_uid sm sid) defacs pub tru priv.
Proof.
  intros sm f x sid defacs pub tru priv.
  intros Hna Hu -> -> -> Hp. unfold acked, dstep. cbn [dop_sid].
  apply N.eqb_neq in Hu. rewrite Hu.
  assert (Hoff : (match dca x with Some c => if dattached c sid then Some c else None | None => None end) = None).
  { destruct (dca x) as [c|]; [rewrite (Hna c eq_refl)|]; reflexivity. }
  rewrite Hoff. cbn [fst snd dst]. unfold d_offline_set_desc.
  destruct (priv =? 0)%N eqn:E0; [cbn; intros [H|[]]; inversion H|].
  destruct (call f 0) as [ok1 n1]. destruct ok1; cbn [negb]; [|cbn; intros [H|[]]; inversion H].
  destruct (dad_sub_get (dst x) (dsess_uid sm sid) false); [|cbn; intros [H|[]]; inversion H].
  destruct (call f n1) as [ok2 n2]. destruct ok2; cbn [negb]; [|cbn; intros [H|[]]; inversion H].
  intros _. cbn [do_st]. unfold desc_stored, acs_after, val_after.
  cbn [acs_arg_val dad_subs_update ds_subs d_auth d_anon d_pub d_tru d_subs].
  repeat split.
  intros _ r Hr. rewrite dfind_dupd by reflexivity. rewrite N.eqb_refl, Hr. cbn [option_map].
  eexists. split; [reflexivity|]. cbn [r_priv]. rewrite E0.
  destruct (priv =? 1)%N eqn:E1; [apply N.eqb_eq in E1; contradiction|reflexivity].
Qed.
Print Assumptions c08d_ack_implies_stored_partial_offline.

(* ---- reject => no change ---- *)

Definition c08d_reject_no_change_statement : Prop := reject_no_change_statement.
(* refuted: the 500 after the failed second write leaves the topic row changed *)
Theorem c08d_reject_no_change_refuted : ~ c08d_reject_no_change_statement.
Proof.
  intros H. specialize (H w_sm (FailAt 2) _ (DSetDesc 1 None 8 0 9) w_x1_inv eq_refl).
  assert (Hr : rejected 1 (snd (dstep w_sm (FailAt 2) (fst (drun w_sm w_init w_h1)) (DSetDesc 1 None 8 0 9)))).
  { exists 500. vm_compute. split; [auto|discriminate]. }
  destruct (H Hr) as [Hs _]. vm_compute in Hs. discriminate.
Qed.
Print Assumptions c08d_reject_no_change_refuted.
(* it holds whenever the second adapter call of the request does not fail: every 4xx/5xx answer to
   {set desc} {set tags} {get desc} {get tags} leaves the store AND the cache exactly as they were *)
Theorem c08d_reject_no_change_partial : forall sm f x o,
  dinv sm x -> fails f 2 = false -> is_set_or_query o = true ->
  rejected (dop_sid o) (snd (dstep sm f x o)) ->
  dst (fst (dstep sm f x o)) = dst x /\ dca (fst (dstep sm f x o)) = dca x.
Proof.
  intros sm f x o.
  intros [Hwf Hinv] Hf Hq.
  destruct o as [sid priv|sid unsub|sid defacs pub tru priv|sid tags|sid|sid| |]; try discriminate Hq;
    unfold dstep; cbn [dop_sid]; (destruct (dsess_uid sm sid =? 0)%N; [cbn; auto|]);
    (destruct (dca x) as [c|]; [destruct (dattached c sid)|]); cbn [fst snd dst dca]; auto.
  - intros Hr. destruct (set_desc_rejected f (dst x) c sid _ _ defacs pub tru priv Hf Hr) as [-> ->]. auto.
  - intros Hr. rewrite (offline_set_desc_rejected _ _ _ _ _ Hr). auto.
  - intros Hr. rewrite (offline_set_desc_rejected _ _ _ _ _ Hr). auto.
  - intros Hr. destruct (set_tags_rejected f (dst x) c sid _ tags Hwf (proj1 Hinv) Hr) as [-> ->]. auto.
  - rewrite offline_get_desc_st. auto.
  - rewrite offline_get_desc_st. auto.
Qed.
Print Assumptions c08d_reject_no_change_partial.

(* ---- the hypotheses are satisfiable; a non-trivial history ---- *)

Example c08d_witness_store_wf : wf_store w_store.
Proof. exact w_store_wf. Qed.

(* 15 requests (subscribe, default access + public + private, a failed write, tags with duplicates / upper case /
   a short tag, a private value cleared, a crash, a query, unsubscribe, unload, subscribe again): no trigger on the way *)
Example c08d_witness_history_benign : dbenign w_sm w_init w_h2.
Proof. exact w_h2_benign. Qed.

Example c08d_witness_history_final :
  let x := fst (drun w_sm w_init w_h2) in
  dinv w_sm x /\ d_auth (dst x) = 15%N /\ d_pub (dst x) = 8%N /\ d_tags (dst x) = [10%N; 13%N] /\
  dca x <> None /\ snd (drun w_sm w_init [(NoFault, DSub 1 0); (NoFault, DSetDesc 1 None 8 0 9)]) = [[(1%N, DCtrl 200)]; [(1%N, DCtrl 200)]].
Proof.
  cbv zeta. split; [apply drun_inv; [exact w_init_inv|exact w_h2_benign]|].
  vm_compute. repeat split; try reflexivity; discriminate.
Qed.
