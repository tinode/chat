(* C16  Out-of-band files are served only to authorised users and kept while referenced.
   Theorems only; the lemmas they rest on are in Pure/UrlProofs.v, Sys/FilesGateProofs.v,
   Sys/FilesStoreProofs.v and the proof files of the parts named below.
   Models: Pure/Url.v (media.GetIdFromUrl), Sys/Files.v (request gate of
   largeFileServe / largeFileReceive, disposition rule, store slice of uploads, links, GC).
   The models follow /repo after the fix commits c986697 (failed FinishUpload answered, bytes
   removed) and 560b667 (only completed uploads are served); the handlers as they were are kept
   as [upload_gate_unrepaired] / [download_unrepaired] and refuted below.
   Sys/FilesSaveC16b.v: messagesMapper.Save and Topic.saveAndBroadcastMessage statement by statement
   above the store slice (section "Save" below).
   Sys/FilesServeC16c.v: largeFileServe with every request field the upload side has (section "The
   download gate, every request field").  Sys/FilesDescC16c.v: Topic.replySetDesc with a fault plan
   over its adapter calls (section "Avatar updates under store faults"). *)
From Coq Require Import NArith ZArith List Bool.
From Tinode Require Import Pure.Url Pure.UrlProofs Sys.Files Sys.FilesGateProofs Sys.FilesStoreProofs.
From Tinode Require Import Sys.FilesSaveC16b Sys.FilesSaveC16bProofs.
From Tinode Require Import Sys.FilesServeC16c Sys.FilesServeC16cProofs Sys.FilesDescC16c Sys.FilesDescC16cProofs.
From Tinode Require Import Sys.FilesAccC16c Sys.FilesAccC16cProofs.
From Tinode Require Import Sys.FilesTypeC16f Sys.FilesTypeC16fProofs.
Import ListNotations.

(* ------------------------------------------------------------------ *)
(* the gate                                                             *)

(* Work (a record created, bytes written or served) happens only for GET on the download
   endpoint and POST/PUT on the upload endpoint, only when the first non-empty API key
   placement holds a valid key, and only when the request is authenticated as a non-zero
   uid - with exactly ONE exception, made by largeFileReceive (hdl_files.go:229): an
   unauthenticated upload whose topic field is "newacc". *)
Theorem c16_gate :
  (forall r, effect_of (serve_gate r) <> ENone ->
     s_meth r = MGet /\ first_some (s_keys r) = Some KValid /\
     exists u, auth_of (s_creds r) (s_sid r) = AuthUid u /\ u <> 0%N) /\
  (forall r, effect_of (upload_gate r) <> ENone ->
     (u_meth r = MPost \/ u_meth r = MPut) /\ first_some (u_keys r) = Some KValid /\
     exists u, auth_of (u_creds r) (u_sid r) = AuthUid u /\ (u <> 0%N \/ u_newacc r = true)).
Proof.
  split; intros r H.
  - destruct (serve_gate_work r H) as [Hm [Hk [Ha _]]]. exact (conj Hm (conj (key_check_source _ Hk) Ha)).
  - destruct (upload_gate_work r H) as [Hm [Hk [Ha _]]]. exact (conj Hm (conj (key_check_source _ Hk) Ha)).
Qed.
Print Assumptions c16_gate.

(* a non-zero uid comes from a credential placement accepted by its authenticator, or,
   when no placement names a method, from a live session id *)
Theorem c16_gate_credential_source : forall creds sid u,
  auth_of creds sid = AuthUid u -> u <> 0%N ->
  first_some creds = Some (CGood u) \/ (first_some creds = None /\ sid = Some u).
Proof.
  intros creds sid u H Hu. unfold auth_of in H.
  destruct (first_some creds) as [[v|c| |]|].
  - inversion H; subst. left; reflexivity.
  - discriminate.
  - discriminate.
  - inversion H; subst. congruence.
  - destruct sid as [v|]; inversion H; subst; [right; split; reflexivity|congruence].
Qed.
Print Assumptions c16_gate_credential_source.

(* the property text as written: "act only on requests that carry a valid API key and valid
   credentials".  The faithful model refutes it for uploads (finding
   c16-unauthenticated-newacc-upload); [c16_gate] is the statement with the exception. *)
Definition c16_gate_statement : Prop :=
  forall r, effect_of (upload_gate r) <> ENone ->
    exists u, auth_of (u_creds r) (u_sid r) = AuthUid u /\ u <> 0%N.

Definition c16_newacc_request : ureq :=
  {| u_meth := MPost; u_key_hdr := Some KValid; u_key_query := None; u_key_form := None; u_key_cookie := None;
     u_cred_xauth := None; u_cred_authz := None; u_cred_query := None; u_cred_form := None; u_cred_cookie := None;
     u_sid_query := None; u_sid_form := None; u_topic_query := None; u_topic_form := Some true;
     u_handler := true; u_hdr := HdrStatus 0; u_limit := 4096; u_body := BForm 2000 true 1000; u_fault := FNone |}.

Theorem c16_gate_refuted : ~ c16_gate_statement.
Proof.
  intros H. destruct (H c16_newacc_request) as [u [Ha Hu]]; [vm_compute; discriminate|].
  vm_compute in Ha. inversion Ha. congruence.
Qed.
Print Assumptions c16_gate_refuted.

Theorem c16_methods :
  (forall r, s_meth r <> MGet -> s_meth r <> MHead -> s_meth r <> MOptions ->
     serve_gate r = Reply 405 ENone) /\
  (forall r, u_meth r <> MPost -> u_meth r <> MPut -> u_meth r <> MHead -> u_meth r <> MOptions ->
     upload_gate r = Reply 405 ENone).
Proof. exact (conj serve_methods upload_methods). Qed.
Print Assumptions c16_methods.

(* A reply other than 200 has no effect: nothing is served, and nothing is stored unless the
   STORE failed while the upload was being finalised (an injected fault, not a refusal; next
   theorem).  A request without effect leaves the store slice as it was.  The upload handler
   leaves no request unanswered except when no media handler is configured (no effect). *)
Theorem c16_refused_no_effect :
  (forall r c e, serve_gate r = Reply c e -> c <> 200%Z -> e = ENone) /\
  (forall r c e, upload_gate r = Reply c e -> c <> 200%Z -> u_fault r <> FFinish -> e = ENone) /\
  (forall r c e, upload_gate r = Reply c e -> c <> 200%Z ->
     e = ENone \/ (e = EResidueNoBytes /\ c = 500%Z /\ u_fault r = FFinish)) /\
  (forall r e, upload_gate r = Crash e -> u_handler r = false /\ e = ENone) /\
  (forall s r fid now mime, effect_of (upload_gate r) = ENone -> fst (apply_upload s r fid now mime) = s).
Proof.
  exact (conj serve_refused_no_effect (conj upload_refused_no_effect (conj upload_refused_effect
        (conj upload_answered upload_refused_state)))).
Qed.
Print Assumptions c16_refused_no_effect.

(* The failed upload (FinishUpload fails in the store; hdl_files.go:327-334 after c986697), in
   the state reached by ANY history and for a fresh id: the reply is 500; what is left is ONE
   record in status 'started'; its bytes are gone (the stored bytes are those of before); no
   link, message, topic or user row changed; no URL serves anything it did not serve before;
   the record has no link row, and the next GC run without a limit whose bound is past the
   upload time removes it. *)
Theorem c16_failed_upload_collectable : forall h r fid now mime c e,
  let s := run h in
  upload_gate r = Reply c e -> c <> 200%Z -> e <> ENone ->
  memN fid (file_ids s) = false -> fid <> 0%N ->
  let s' := fst (apply_upload s r fid now mime) in
  let rec := {| f_id := fid; f_done := false; f_upd := now; f_mime := mime |} in
  c = 500%Z /\ u_fault r = FFinish /\
  files s' = files s ++ [rec] /\ disk s' = disk s /\ links s' = links s /\ msgs s' = msgs s /\
  next_mid s' = next_mid s /\ topics s' = topics s /\ users s' = users s /\
  (forall serve url, download s' serve url = download s serve url) /\
  linked fid (links s') = false /\
  (forall older limit, (limit <= 0)%Z -> gc_older_ok older rec = true ->
     ~ In fid (file_ids (step s' (OGC older limit))) /\ ~ In fid (disk (step s' (OGC older limit)))).
Proof.
  intros h r fid now mime c e s Hg Hc He Hfresh Hnz.
  destruct (upload_refused_effect r c e Hg Hc) as [Hn|[He' [Hc' Hf]]]; [contradiction|].
  subst e c. unfold apply_upload. cbn [fst]. rewrite Hg. cbn [effect_of].
  split; [reflexivity|]. split; [exact Hf|].
  exact (failed_upload_exact s fid now mime (inv_run h) Hfresh Hnz).
Qed.
Print Assumptions c16_failed_upload_collectable.

Definition c16_finish_fault_request : ureq :=
  {| u_meth := MPost; u_key_hdr := Some KValid; u_key_query := None; u_key_form := None; u_key_cookie := None;
     u_cred_xauth := Some (CGood 1); u_cred_authz := None; u_cred_query := None; u_cred_form := None; u_cred_cookie := None;
     u_sid_query := None; u_sid_form := None; u_topic_query := None; u_topic_form := None;
     u_handler := true; u_hdr := HdrStatus 0; u_limit := 4096; u_body := BForm 2000 true 1000; u_fault := FFinish |}.

(* "every request that is not answered 200 leaves no trace": false when the store fails at
   FinishUpload - the record cannot be removed from a failing store and is left to the GC (the
   property text: failed uploads become collectable).  Kept and refuted; not a defect. *)
Definition c16_failed_no_trace_statement : Prop :=
  forall s r fid now mime c e,
    upload_gate r = Reply c e -> c <> 200%Z -> fst (apply_upload s r fid now mime) = s.

Theorem c16_failed_no_trace_refuted : ~ c16_failed_no_trace_statement.
Proof.
  intros H. specialize (H init c16_finish_fault_request 5%N 0%Z [] 500%Z EResidueNoBytes eq_refl).
  assert (X : (500 <> 200)%Z) by discriminate. specialize (H X). vm_compute in H. discriminate.
Qed.
Print Assumptions c16_failed_no_trace_refuted.

(* the upload handler as it was before c986697: the same request gets NO reply (panic on the
   nil fdef) and record AND bytes stay *)
Definition c16_upload_answered_unrepaired_statement : Prop :=
  forall r e, upload_gate_unrepaired r = Crash e -> u_handler r = false /\ e = ENone.

Theorem c16_upload_answered_unrepaired_refuted : ~ c16_upload_answered_unrepaired_statement.
Proof.
  intros H. destruct (H c16_finish_fault_request EResidue eq_refl) as [H1 _]. discriminate.
Qed.
Print Assumptions c16_upload_answered_unrepaired_refuted.

(* a body above the configured size is never stored, and is answered 413 once it is looked at *)
Theorem c16_size_limit : forall r total hf flen,
  u_body r = BForm total hf flen -> (0 < u_limit r)%Z -> (u_limit r < total)%Z ->
  effect_of (upload_gate r) = ENone /\ upload_body r = Reply 413 ENone.
Proof.
  intros r total hf flen Hb Hl Ht.
  exact (conj (upload_size_limit r total hf flen Hb Hl Ht) (upload_size_limit_413 r total hf flen Hb Hl Ht)).
Qed.
Print Assumptions c16_size_limit.

(* ------------------------------------------------------------------ *)
(* URLs                                                                 *)

(* Every URL (every byte string) that yields an id: the cleaned path is [dir ++ name] with
   dir empty or exactly the serve prefix, name without '/', name = 11 characters of
   [-_A-Za-z0-9] followed by nothing or by a character outside the class, and the id is the
   decoding of those 11 characters.  Nothing else of the URL is used. *)
Theorem c16_url_names_upload : forall serve url id,
  get_id_from_url serve url = id -> id <> 0%N ->
  exists dir name pre rest,
    path_clean url = dir ++ name /\ (dir = [] \/ dir = serve) /\ ~ In cSlash name /\
    name = pre ++ rest /\ length pre = 11%nat /\ forallb fname_char pre = true /\
    match rest with [] => True | c :: _ => fname_char c = false end /\
    parse_uid pre = id.
Proof.
  intros serve url id H Hnz. unfold get_id_from_url in H.
  destruct (path_split (path_clean url)) as [d f] eqn:Es.
  destruct (path_split_spec _ _ _ Es) as [Hcat Hns].
  assert (Hid : parse_uid (fname_prefix f) = id /\ (d = [] \/ d = serve)).
  { destruct d as [|x d'].
    - split; [exact H|left; reflexivity].
    - destruct (list_N_eqb (x :: d') serve) eqn:Ee.
      + split; [exact H|right; apply list_N_eqb_true; exact Ee].
      + exfalso. apply Hnz. symmetry. exact H. }
  destruct Hid as [Hid Hd].
  assert (Hp : parse_uid (fname_prefix f) <> 0) by (rewrite Hid; exact Hnz).
  destruct (parse_uid_nonzero _ Hp) as [Hlen Hcls].
  exists d, f, (fname_prefix f), (fname_rest f).
  repeat split; try assumption.
  - apply fname_prefix_rest.
  - apply fname_rest_head.
Qed.
Print Assumptions c16_url_names_upload.

Theorem c16_url_foreign_dir : forall serve url d f,
  path_split (path_clean url) = (d, f) -> d <> [] -> d <> serve -> get_id_from_url serve url = 0%N.
Proof.
  intros serve url d f Es Hne Hns. unfold get_id_from_url. rewrite Es.
  destruct d as [|x d']; [congruence|].
  destruct (list_N_eqb (x :: d') serve) eqn:Ee; [|reflexivity].
  apply list_N_eqb_true in Ee. congruence.
Qed.
Print Assumptions c16_url_foreign_dir.

(* the cleaned form of an absolute path has no empty, "." or ".." element *)
Theorem c16_url_no_traversal : forall p,
  is_rooted p = true ->
  path_clean p = cSlash :: join_slash (clean_elems p) /\ Forall real_elem (clean_elems p).
Proof. intros p H. exact (conj (path_clean_rooted p H) (clean_elems_rooted_real p H)). Qed.
Print Assumptions c16_url_no_traversal.

(* a download serves a record of the store, found by the id alone, and its own bytes *)
Theorem c16_download_names_record : forall s serve url f,
  download s serve url = Some f ->
  get_id_from_url serve url = f_id f /\ f_id f <> 0%N /\ In f (files s) /\ In (f_id f) (disk s).
Proof.
  intros s serve url f H. destruct (download_with_names_record true s serve url f H) as [H1 [H2 [H3 [H4 _]]]].
  repeat split; assumption.
Qed.
Print Assumptions c16_download_names_record.

(* "no URL - relative, absolute, with traversal segments or odd characters - can name anything
   other than a completed upload": for EVERY state of the store slice, EVERY serve prefix and
   EVERY byte string as URL, what Download serves is a record of the store in status
   'completed', selected by the id the URL yields (c16_url_names_upload says which part of the
   URL that is), with its bytes present.  (filesys.go:119, fix 560b667) *)
Theorem c16_download_completed : forall s serve url f,
  download s serve url = Some f ->
  f_done f = true /\ is_done (f_id f) (files s) = true /\
  get_id_from_url serve url = f_id f /\ f_id f <> 0%N /\ In f (files s) /\ In (f_id f) (disk s).
Proof. exact download_completed. Qed.
Print Assumptions c16_download_completed.

(* a record that is not completed (upload running, failed, or abandoned) is invisible to every URL *)
Theorem c16_download_started_none : forall s serve url,
  is_done (get_id_from_url serve url) (files s) = false -> download s serve url = None.
Proof.
  intros s serve url H. destruct (download s serve url) as [f|] eqn:E; [|reflexivity].
  destruct (download_completed s serve url f E) as [_ [Hd [Hid _]]]. rewrite <- Hid in Hd. congruence.
Qed.
Print Assumptions c16_download_started_none.

(* over ALL histories: what a download serves was uploaded (StartUpload with the content type
   the record carries - the detected type) and completed (FinishUpload ok) in that history *)
Theorem c16_download_provenance : forall h serve url f,
  download (run h) serve url = Some f ->
  (exists t0, In (OStart (f_id f) t0 (f_mime f)) h) /\ In (OFinish (f_id f) true (f_upd f)) h.
Proof.
  intros h serve url f H. destruct (download_completed _ _ _ _ H) as [Hd [_ [_ [_ [Hin _]]]]].
  destruct (file_provenance h f Hin) as [H1 H2]. split; [exact H1|exact (H2 Hd)].
Qed.
Print Assumptions c16_download_provenance.

(* the download request as a whole (gate of largeFileServe + fs Download), every state, every
   request, every URL: bytes are sent only by a 200 reply to a GET with a valid API key and a
   non-zero authenticated uid, and they are the bytes of the completed upload the URL names;
   otherwise the request has no effect *)
Theorem c16_served_only_completed :
  (forall s r serve url o f,
     serve_request s r serve url = (o, Some f) ->
     o = Reply 200 EServed /\ s_meth r = MGet /\ first_some (s_keys r) = Some KValid /\
     (exists u, auth_of (s_creds r) (s_sid r) = AuthUid u /\ u <> 0%N) /\
     download s serve url = Some f /\
     f_done f = true /\ In f (files s) /\ get_id_from_url serve url = f_id f /\ In (f_id f) (disk s)) /\
  (forall s r serve url o, serve_request s r serve url = (o, None) -> effect_of o = ENone).
Proof. exact (conj serve_request_served serve_request_nothing). Qed.
Print Assumptions c16_served_only_completed.

(* Download as it was before 560b667 (no status test): refuted, an upload that was started and
   never completed is served *)
Definition c16_download_completed_unrepaired_statement : Prop :=
  forall h serve url f, download_unrepaired (run h) serve url = Some f -> f_done f = true.

Theorem c16_download_completed_unrepaired_refuted : ~ c16_download_completed_unrepaired_statement.
Proof.
  intros H.
  pose (name := [86;102;51;107;81;57;95;45;97;90;48]%N).
  specialize (H [OStart (parse_uid name) 0 []] [] name).
  vm_compute in H. specialize (H _ eq_refl). discriminate.
Qed.
Print Assumptions c16_download_completed_unrepaired_refuted.

(* ------------------------------------------------------------------ *)
(* disposition                                                          *)

Theorem c16_active_types_attached : forall asatt mime,
  active mime = true -> force_attachment asatt mime = true.
Proof.
  intros asatt mime H. unfold active in H. unfold force_attachment.
  repeat (apply orb_true_iff in H; destruct H as [H|H]); rewrite H;
    repeat rewrite orb_true_r; reflexivity.
Qed.
Print Assumptions c16_active_types_attached.

(* ------------------------------------------------------------------ *)
(* garbage collection, over ALL histories of the store slice            *)

(* After DeleteUnused(older, limit) in the state reached by ANY history h:
   a record is gone iff it is in the removed set; the removed set consists of records without
   a link row that are older than the bound; it is all of them when there is no limit, and
   min(limit, candidates) of them otherwise; linked records stay; the location of every removed
   record is handed to the media handler's Delete and its bytes are gone; no other bytes, no
   link, message, topic or user row is touched. *)
Theorem c16_gc_exact : forall h older limit,
  let s := run h in
  let s' := step s (OGC older limit) in
  let rem := gc_removed s older limit in
  (forall f, In f (files s) -> (In f (files s') <-> ~ In f rem)) /\
  (forall f, In f (files s') -> In f (files s)) /\
  (forall f, In f rem ->
     In f (files s) /\ linked (f_id f) (links s) = false /\ gc_older_ok older f = true) /\
  ((limit <= 0)%Z -> forall f, In f (files s) -> linked (f_id f) (links s) = false ->
     gc_older_ok older f = true -> In f rem) /\
  ((0 < limit)%Z ->
     length rem = Nat.min (Z.to_nat limit) (length (filter (gc_candidate s older) (files s)))) /\
  (forall f, In f (files s) -> linked (f_id f) (links s) = true -> In f (files s')) /\
  (forall f, In f rem ->
     In (f_id f) (gc_deleted_locations s older limit) /\ ~ In (f_id f) (disk s')) /\
  (forall d, In d (disk s) -> ~ In d (gc_deleted_locations s older limit) -> In d (disk s')) /\
  links s' = links s /\ msgs s' = msgs s /\ topics s' = topics s /\ users s' = users s.
Proof.
  intros h older limit. apply gc_exact_step. destruct (inv_run h) as [H _]. exact H.
Qed.
Print Assumptions c16_gc_exact.

(* in every reachable state: ids are unique, stored bytes belong to upload records, every
   COMPLETED upload has its bytes (a record in status 'started' may have lost them: failed
   FinishUpload), every link points to an existing record and an existing message / topic / user *)
Theorem c16_store_consistent : forall h,
  let s := run h in
  NoDup (file_ids s) /\
  (forall d, In d (disk s) -> In d (file_ids s)) /\
  (forall f, is_done f (files s) = true -> In f (disk s)) /\
  (forall f t, In (f, t) (links s) -> In f (file_ids s) /\ target_live s t = true).
Proof.
  intros h. destruct (inv_run h) as [H1 [[H2 H3] [_ [H4 _]]]]. exact (conj H1 (conj H2 (conj H3 H4))).
Qed.
Print Assumptions c16_store_consistent.

(* "uploads that were never linked, failed, or lost their last link become collectable ... and
   are then removed together with their stored bytes": after ANY history, a record without a link
   row - whatever its status - is removed with its bytes by the next GC run without a limit whose
   bound is past the record's time *)
Theorem c16_unreferenced_collected : forall h f older limit,
  let s := run h in
  In f (files s) -> linked (f_id f) (links s) = false -> gc_older_ok older f = true -> (limit <= 0)%Z ->
  ~ In (f_id f) (file_ids (step s (OGC older limit))) /\ ~ In (f_id f) (disk (step s (OGC older limit))).
Proof.
  intros h f older limit s H1 H2 H3 H4. destruct (inv_run h) as [Hids _].
  exact (unreferenced_collected s f older limit Hids H1 H2 H3 H4).
Qed.
Print Assumptions c16_unreferenced_collected.

(* "and nothing else is removed": after ANY history, whatever the next operation is, an upload
   record disappears only in a GC run that selected it (no link row, older than the bound) or -
   if it was still in status 'started' - through FinishUpload(failed); stored bytes disappear only
   with a GC-selected record, or for an upload that is not completed (failed copy / failed
   FinishUpload).  In particular a completed upload and its bytes go only through the GC, unlinked. *)
Theorem c16_nothing_else_removed : forall h o,
  let s := run h in
  (forall f, In f (files s) -> ~ In (f_id f) (file_ids (step s o)) ->
     (exists older limit, o = OGC older limit /\ In f (gc_removed s older limit) /\
        linked (f_id f) (links s) = false /\ gc_older_ok older f = true) \/
     (exists now, o = OFinish (f_id f) false now /\ f_done f = false)) /\
  (forall d, In d (disk s) -> ~ In d (disk (step s o)) ->
     (exists older limit, o = OGC older limit /\ In d (gc_deleted_locations s older limit)) \/
     (exists now, o = OFinish d false now /\ is_done d (files s) = false) \/
     (o = ODropBytes d /\ is_done d (files s) = false)).
Proof.
  intros h o. exact (conj (record_removed_only_by_run h o) (bytes_removed_only_by (run h) o)).
Qed.
Print Assumptions c16_nothing_else_removed.

(* "never garbage-collected while it exists", as a one-step invariant over ALL histories: in the
   state reached by any history, a completed upload that has at least one link row is still a
   record, with its bytes, after ANY next operation (GC run with any bound and limit, upload,
   failed upload, publish, avatar change, deletion) *)
Theorem c16_linked_never_removed : forall h o f t,
  let s := run h in
  In (f, t) (links s) -> is_done f (files s) = true ->
  In f (file_ids (step s o)) /\ In f (disk (step s o)).
Proof.
  intros h o f t s Hl Hd.
  destruct (inv_run h) as [Hids [[_ Hdb] _]]. fold s in Hids, Hdb.
  assert (Hlk : linked f (links s) = true) by (exact (linked_In f t (links s) Hl)).
  unfold is_done in Hd. destruct (find_file f (files s)) as [g|] eqn:Eg; [|discriminate].
  destruct (find_file_in _ _ _ Eg) as [Hg Hgid].
  split.
  - destruct (in_dec N.eq_dec f (file_ids (step s o))) as [H|H]; [exact H|]. exfalso.
    rewrite <- Hgid in H.
    destruct (record_removed_only_by s o g Hids Hg H) as [[older [limit [_ Hr]]]|[now [_ Hnd]]].
    + destruct (gc_removed_sub s older limit g Hr) as [_ [Hn _]]. rewrite Hgid in Hn. congruence.
    + congruence.
  - assert (Hdisk : In f (disk s)) by (apply Hdb; unfold is_done; rewrite Eg; exact Hd).
    destruct (in_dec N.eq_dec f (disk (step s o))) as [H|H]; [exact H|]. exfalso.
    destruct (bytes_removed_only_by s o f Hdisk H) as [[older [limit [_ Hr]]]|[[now [_ Hnd]]|[_ Hnd]]].
    + unfold gc_deleted_locations in Hr. apply in_map_iff in Hr. destruct Hr as [g' [Hid' Hr]].
      destruct (gc_removed_sub s older limit g' Hr) as [_ [Hn _]]. rewrite Hid' in Hn. congruence.
    + unfold is_done in Hnd. rewrite Eg in Hnd. congruence.
    + unfold is_done in Hnd. rewrite Eg in Hnd. congruence.
Qed.
Print Assumptions c16_linked_never_removed.

(* deleting messages / a topic / a user removes exactly their link rows (so that uploads whose
   last link this was become collectable, previous theorem) and touches no record and no bytes *)
Theorem c16_deletion_unlinks : forall s,
  (forall mids f m, In m mids -> ~ In (f, TMsg m) (links (step s (ODelMsgs mids)))) /\
  (forall t f, ~ In (f, TTopic t) (links (step s (ODelTopic t))) /\
     forall m, msg_topic m (msgs s) = Some t -> ~ In (f, TMsg m) (links (step s (ODelTopic t)))) /\
  (forall u f, ~ In (f, TUser u) (links (step s (ODelUser u)))) /\
  (forall o, match o with ODelMsgs _ | ODelTopic _ | ODelUser _ => True | _ => False end ->
     files (step s o) = files s /\ disk (step s o) = disk s).
Proof.
  intros s. exact (conj (del_msgs_unlinks s) (conj (del_topic_unlinks s) (conj (del_user_unlinks s) (deletions_keep_files s)))).
Qed.
Print Assumptions c16_deletion_unlinks.

(* ------------------------------------------------------------------ *)
(* kept while referenced                                                *)

(* Scope the code guarantees: the message is saved in an existing topic, EVERY id the
   attachment list resolves to names an upload record (otherwise nothing is linked, see
   below), and the upload was completed.  Then, whatever happens afterwards (h2: uploads,
   publishes, avatar changes, deletions, GC runs with any bound and limit), as long as the
   message exists the link row, the record and the bytes exist. *)
Theorem c16_linked_while_referenced : forall h1 topic fids h2 f,
  let s1 := run h1 in
  memN topic (topics s1) = true ->
  forallb (fun x => memN x (file_ids s1)) fids = true ->
  In f fids -> is_done f (files s1) = true ->
  let mid := next_mid s1 in
  let s2 := run (h1 ++ OPublish topic fids :: h2) in
  target_live s2 (TMsg mid) = true ->
  In (f, TMsg mid) (links s2) /\ In f (file_ids s2) /\ In f (disk s2) /\ is_done f (files s2) = true.
Proof. exact linked_msg. Qed.
Print Assumptions c16_linked_while_referenced.

(* the same, end to end from the URLs of the {pub} request (Pure/Url.v and the store slice
   together): under the same scope, a listed URL that names a completed upload keeps its link row,
   its record and its bytes, and Download of that very URL keeps serving that upload, for as long
   as the message exists - whatever else happens *)
Theorem c16_listed_url_kept_downloadable : forall h1 serve topic urls h2 url,
  let s1 := run h1 in
  let fids := resolve serve urls in
  memN topic (topics s1) = true ->
  forallb (fun x => memN x (file_ids s1)) fids = true ->
  In url urls -> is_done (get_id_from_url serve url) (files s1) = true ->
  let mid := next_mid s1 in
  let s2 := run (h1 ++ OPublish topic fids :: h2) in
  target_live s2 (TMsg mid) = true ->
  let f := get_id_from_url serve url in
  In (f, TMsg mid) (links s2) /\ In f (file_ids s2) /\ In f (disk s2) /\
  exists g, download s2 serve url = Some g /\ f_id g = f /\ f_done g = true.
Proof. exact listed_url_linked. Qed.
Print Assumptions c16_listed_url_kept_downloadable.

(* avatars: the first resolvable id of the list, until the topic / user is deleted or its
   avatar is replaced *)
Theorem c16_topic_avatar_linked : forall h1 t f rest h2,
  let s1 := run h1 in
  memN f (file_ids s1) = true -> memN t (topics s1) = true -> is_done f (files s1) = true ->
  forallb (avatar_kept (TTopic t)) h2 = true ->
  let s2 := run_from (step s1 (OTopicAvatar t (f :: rest))) h2 in
  In (f, TTopic t) (links s2) /\ In f (file_ids s2) /\ In f (disk s2) /\ is_done f (files s2) = true.
Proof. intros h1 t f rest h2. exact (linked_avatar h1 (TTopic t) f rest h2 I). Qed.
Print Assumptions c16_topic_avatar_linked.

Theorem c16_user_avatar_linked : forall h1 u f rest h2,
  let s1 := run h1 in
  memN f (file_ids s1) = true -> memN u (users s1) = true -> is_done f (files s1) = true ->
  forallb (avatar_kept (TUser u)) h2 = true ->
  let s2 := run_from (step s1 (OUserAvatar u (f :: rest))) h2 in
  In (f, TUser u) (links s2) /\ In f (file_ids s2) /\ In f (disk s2) /\ is_done f (files s2) = true.
Proof. intros h1 u f rest h2. exact (linked_avatar h1 (TUser u) f rest h2 I). Qed.
Print Assumptions c16_user_avatar_linked.

(* the full sentence of the property for messages - every listed attachment that names a
   completed upload is linked while the message exists - is refuted: one listed id without a
   record makes the single INSERT fail, the message row stays, nothing is linked
   (finding c16-attachment-link-all-or-nothing) *)
Definition c16_linked_statement : Prop :=
  forall h1 topic fids f,
    let s1 := run h1 in
    memN topic (topics s1) = true -> In f fids -> is_done f (files s1) = true ->
    let s2 := step s1 (OPublish topic fids) in
    target_live s2 (TMsg (next_mid s1)) = true /\ In (f, TMsg (next_mid s1)) (links s2).

Theorem c16_linked_refuted : ~ c16_linked_statement.
Proof.
  intros H.
  specialize (H [OAddTopic 1; OStart 5 0 []; OFinish 5 true 0] 1%N [5; 6]%N 5%N eq_refl (or_introl eq_refl) eq_refl).
  destruct H as [_ H]. vm_compute in H. exact H.
Qed.
Print Assumptions c16_linked_refuted.

Theorem c16_missing_attachment_links_nothing : forall s topic fids,
  forallb (fun x => memN x (file_ids s)) fids = false ->
  links (step s (OPublish topic fids)) = links s.
Proof. exact publish_missing_links_nothing. Qed.
Print Assumptions c16_missing_attachment_links_nothing.

(* ------------------------------------------------------------------ *)
(* Save: the attachments of EVERY accepted message are linked, whoever sent it             *)
(* (Sys/FilesSaveC16b.v: messagesMapper.Save = TopicUpdateOnMessage; MessageSave;          *)
(*  [SubsUpdate, error ignored]; [FileLinkAttachments, error returned], with readBySender, *)
(*  the sender uid and a fault plan of the four adapter calls as parameters)               *)

(* For EVERY store state, fault plan, message, sender uid (zero included), attachment list and
   BOTH values of readBySender: if Save returns no error then every listed URL that yields a file
   id has its link row to the new message, the message row exists and the upload record exists. *)
Theorem c16_save_links_every_attachment : forall ft serve s m urls read_by_sender url,
  let r := save_c16b ft true serve s m urls read_by_sender in
  sr_err (snd r) = false ->
  In url urls -> get_id_from_url serve url <> 0%N ->
  In (get_id_from_url serve url, TMsg (next_mid (sv_fs s))) (links (sv_fs (fst r))) /\
  target_live (sv_fs (fst r)) (TMsg (next_mid (sv_fs s))) = true /\
  In (get_id_from_url serve url) (file_ids (sv_fs (fst r))).
Proof. exact save_accepted_links. Qed.
Print Assumptions c16_save_links_every_attachment.

(* ... and Save does return no error whenever TopicUpdateOnMessage, MessageSave and
   FileLinkAttachments do not fail, the topic row exists and every listed id names an upload record
   (the existing scope of c16_linked_while_referenced) - whatever readBySender, the sender, the
   subscription rows and the outcome of SubsUpdate are. *)
Theorem c16_save_accepts : forall ft handler serve s m urls read_by_sender,
  ff_topic ft = false -> ff_msg ft = false -> ff_link ft = false ->
  memN (mg_topic m) (topics (sv_fs s)) = true ->
  forallb (fun x => memN x (file_ids (sv_fs s))) (save_fids_c16b handler serve urls) = true ->
  sr_err (snd (save_c16b ft handler serve s m urls read_by_sender)) = false.
Proof. exact save_accepts. Qed.
Print Assumptions c16_save_accepts.

(* "independently of readBySender": upload records, link rows, message rows, bytes and the error
   returned are the same function of (fault plan of the three other calls, media handler, topic,
   URLs) for any two values of readBySender, any two senders, any two sequence numbers, any two
   outcomes of SubsUpdate and any two subscription tables. *)
Theorem c16_save_independent_of_sender : forall ft ft' handler serve s s' m m' urls rbs rbs',
  ff_topic ft = ff_topic ft' -> ff_msg ft = ff_msg ft' -> ff_link ft = ff_link ft' ->
  sv_fs s = sv_fs s' -> mg_topic m = mg_topic m' ->
  sv_fs (fst (save_c16b ft handler serve s m urls rbs)) = sv_fs (fst (save_c16b ft' handler serve s' m' urls rbs')) /\
  sr_err (snd (save_c16b ft handler serve s m urls rbs)) = sr_err (snd (save_c16b ft' handler serve s' m' urls rbs')).
Proof. exact save_fs_independent. Qed.
Print Assumptions c16_save_independent_of_sender.

(* Save IS the publish operation of the history model (so every history theorem above applies to
   it): an accepted Save leaves exactly the file slice of [OPublish topic (resolve serve urls)] *)
Theorem c16_save_is_publish : forall ft serve s m urls read_by_sender,
  let r := save_c16b ft true serve s m urls read_by_sender in
  sr_err (snd r) = false ->
  memN (mg_topic m) (topics (sv_fs s)) = true /\
  forallb (fun x => memN x (file_ids (sv_fs s))) (resolve serve urls) = true /\
  sv_fs (fst r) = step (sv_fs s) (OPublish (mg_topic m) (resolve serve urls)).
Proof. exact save_accepted_fs. Qed.
Print Assumptions c16_save_is_publish.

(* over ALL histories before (h1) and after (h2) the Save: a listed URL that names a completed
   upload keeps its link row, its record, its bytes and stays downloadable by that very URL for as
   long as the message exists - for every sender, readBySender and fault plan under which Save
   returned no error *)
Theorem c16_save_listed_url_kept_downloadable : forall h1 ft serve sq sb cl m urls read_by_sender h2 url,
  let s := {| sv_fs := run h1; sv_seq := sq; sv_subs := sb; sv_calls := cl |} in
  let r := save_c16b ft true serve s m urls read_by_sender in
  sr_err (snd r) = false ->
  In url urls -> is_done (get_id_from_url serve url) (files (run h1)) = true ->
  let mid := next_mid (run h1) in
  let s2 := run_from (sv_fs (fst r)) h2 in
  target_live s2 (TMsg mid) = true ->
  let f := get_id_from_url serve url in
  In (f, TMsg mid) (links s2) /\ In f (file_ids s2) /\ In f (disk s2) /\
  exists g, download s2 serve url = Some g /\ f_id g = f /\ f_done g = true.
Proof.
  intros h1 ft serve sq sb cl m urls rbs h2 url s r Herr Hin Hd mid s2.
  destruct (save_accepted_fs ft serve s m urls rbs Herr) as [Ht [Hall Hfs]].
  assert (Hs2 : s2 = run (h1 ++ OPublish (mg_topic m) (resolve serve urls) :: h2)).
  { subst s2. fold r in Hfs. rewrite Hfs, run_app. reflexivity. }
  rewrite Hs2. exact (listed_url_linked h1 serve (mg_topic m) urls h2 url Ht Hall Hin Hd).
Qed.
Print Assumptions c16_save_listed_url_kept_downloadable.

(* Topic.saveAndBroadcastMessage, EVERY sender mode (want, given: any N, in particular all 256 x 256
   access modes), 'sys' or not, subscribed or not (want = given = 0), any acting uid: a publish that
   is answered "accepted" has every resolvable attachment linked to the stored message.  W without R
   (readBySender = false) is not special. *)
Theorem c16_every_sender_mode_links : forall ft serve s is_sys want given last_id topic as_uid urls s' marked url,
  pub_save_c16b ft true serve s is_sys want given last_id topic as_uid urls = (s', PubAccepted marked) ->
  In url urls -> get_id_from_url serve url <> 0%N ->
  In (get_id_from_url serve url, TMsg (next_mid (sv_fs s))) (links (sv_fs s')) /\
  target_live (sv_fs s') (TMsg (next_mid (sv_fs s))) = true /\
  In (get_id_from_url serve url) (file_ids (sv_fs s')).
Proof.
  intros ft serve s is_sys want given last_id topic as_uid urls s' marked url H. unfold pub_save_c16b in H.
  destruct (negb is_sys && negb (is_writer_c16b (N.land want given))); [discriminate H|].
  destruct (sr_err (snd (save_c16b ft true serve s _ urls _))) eqn:E; [discriminate H|].
  injection H as <- _. exact (save_accepted_links ft serve s _ urls _ url E).
Qed.
Print Assumptions c16_every_sender_mode_links.

(* two publishes of the same attachment list that pass the write gate - by senders of any two modes,
   to 'sys' or not - leave the same upload records, link rows and bytes and fail or succeed together;
   a publish is refused only to a non-writer outside 'sys', and then nothing at all changes *)
Theorem c16_pub_independent_of_sender_mode :
  (forall ft ft' handler serve s is_sys is_sys' want given want' given' last last' topic as_uid as_uid' urls,
     ff_topic ft = ff_topic ft' -> ff_msg ft = ff_msg ft' -> ff_link ft = ff_link ft' ->
     let r := pub_save_c16b ft handler serve s is_sys want given last topic as_uid urls in
     let r' := pub_save_c16b ft' handler serve s is_sys' want' given' last' topic as_uid' urls in
     snd r <> PubDenied -> snd r' <> PubDenied ->
     sv_fs (fst r) = sv_fs (fst r') /\ (snd r = PubFailed <-> snd r' = PubFailed)) /\
  (forall ft handler serve s is_sys want given last topic as_uid urls s',
     pub_save_c16b ft handler serve s is_sys want given last topic as_uid urls = (s', PubDenied) ->
     s' = s /\ is_sys = false /\ is_writer_c16b (N.land want given) = false) /\
  (forall ft handler serve s is_sys want given last topic as_uid urls,
     snd (pub_save_c16b ft handler serve s is_sys want given last topic as_uid urls) <> PubDenied ->
     is_sys = true \/ is_writer_c16b (N.land want given) = true).
Proof.
  unfold pub_save_c16b. split; [|split].
  - intros ft ft' handler serve s is_sys is_sys' want given want' given' last last' topic as_uid as_uid' urls H1 H2 H3.
    destruct (negb is_sys && negb (is_writer_c16b (N.land want given))); [intros Hr; destruct (Hr eq_refl)|].
    destruct (negb is_sys' && negb (is_writer_c16b (N.land want' given'))); [intros _ Hr; destruct (Hr eq_refl)|].
    intros _ _. cbn [fst snd].
    destruct (save_fs_independent ft ft' handler serve s s
                {| mg_topic := topic; mg_seq := last + 1; mg_from := as_uid |}
                {| mg_topic := topic; mg_seq := last' + 1; mg_from := as_uid' |} urls
                (is_reader_c16b (N.land given want)) (is_reader_c16b (N.land given' want')) H1 H2 H3 eq_refl eq_refl) as [A B].
    split; [exact A|]. rewrite B.
    destruct (sr_err (snd (save_c16b ft' handler serve s _ urls _))); split; intros X; try reflexivity; discriminate X.
  - intros ft handler serve s is_sys want given last topic as_uid urls s' H.
    destruct is_sys, (is_writer_c16b (N.land want given)); cbn [negb andb] in H;
      try (destruct (sr_err _) in H; discriminate H).
    injection H as <-. repeat split.
  - intros ft handler serve s is_sys want given last topic as_uid urls H.
    destruct is_sys; [left; reflexivity|]. destruct (is_writer_c16b (N.land want given)); [right; reflexivity|].
    destruct (H eq_refl).
Qed.
Print Assumptions c16_pub_independent_of_sender_mode.

(* what readBySender and the sender DO decide: the sender's read / received marks, and nothing else.
   SubsUpdate runs only for a reading sender with a non-zero uid (a zero uid would reset the marks of
   every subscriber); its failure is ignored. *)
Theorem c16_save_marks_only : forall ft handler serve s m urls read_by_sender,
  (ff_topic ft = false -> ff_msg ft = false -> memN (mg_topic m) (topics (sv_fs s)) = true ->
     sr_marked (snd (save_c16b ft handler serve s m urls read_by_sender)) =
     read_by_sender && negb (mg_from m =? 0)%N && negb (ff_subs ft)) /\
  (read_by_sender = false \/ mg_from m = 0%N ->
     sv_subs (fst (save_c16b ft handler serve s m urls read_by_sender)) = sv_subs s).
Proof.
  intros ft handler serve s m urls rbs. rewrite save_cases.
  destruct (mark_step_spec ft rbs m (saved_c16b s m)) as [_ [_ [Hm Hs]]]. split.
  - intros H1 H2 Ht. rewrite H1, H2, Ht. cbn [orb negb]. cbv zeta.
    destruct (save_fids_c16b handler serve urls); exact Hm.
  - intros H. destruct (ff_topic ft); [reflexivity|].
    destruct (ff_msg ft || negb (memN (mg_topic m) (topics (sv_fs s)))); [reflexivity|]. cbv zeta.
    assert (Hd : rbs && negb (mg_from m =? 0)%N = false).
    { destruct H as [H|H]; rewrite H; [reflexivity|apply andb_false_r]. }
    destruct (save_fids_c16b handler serve urls); cbn [fst];
      [|rewrite (proj1 (file_link_spec _ _ _ _))]; exact (Hs Hd).
Qed.
Print Assumptions c16_save_marks_only.

(* Save's control flow as the sequence of adapter calls it makes (the log memverif keeps; compared with
   the implementation's log on every generated publish): TopicUpdateOnMessage; then MessageSave unless
   that failed; then, unless that failed, SubsUpdate iff readBySender and the sender uid is not zero, and
   FileLinkAttachments iff the list resolves to at least one id and a media handler is configured - in
   particular the link call does NOT depend on readBySender, on the sender or on what SubsUpdate did *)
Theorem c16_save_calls : forall ft handler serve s m urls read_by_sender,
  sv_calls (fst (save_c16b ft handler serve s m urls read_by_sender)) =
  sv_calls s ++
  (CTopicUpdateOnMessage, ff_topic ft) ::
  if ff_topic ft then []
  else (CMessageSave, ff_msg ft) ::
    if ff_msg ft || negb (memN (mg_topic m) (topics (sv_fs s))) then []
    else (if read_by_sender && negb (mg_from m =? 0)%N then [(CSubsUpdate, ff_subs ft)] else []) ++
         (match save_fids_c16b handler serve urls with
          | [] => []
          | _ :: _ => [(CFileLinkAttachments, ff_link ft)]
          end).
Proof.
  intros ft handler serve s m urls rbs. rewrite save_cases.
  destruct (ff_topic ft); [reflexivity|].
  destruct (ff_msg ft); [cbn; rewrite <- app_assoc; reflexivity|].
  destruct (memN (mg_topic m) (topics (sv_fs s))); [|cbn; rewrite <- app_assoc; reflexivity].
  cbn [orb negb]. cbv zeta. destruct (mark_step_spec ft rbs m (saved_c16b s m)) as [_ [Hc _]].
  destruct (save_fids_c16b handler serve urls); cbn [fst];
    [rewrite app_nil_r|rewrite (proj2 (file_link_spec _ _ _ _))];
    rewrite Hc, saved_calls_c16b, <- !app_assoc; reflexivity.
Qed.
Print Assumptions c16_save_calls.

(* The sentence without the scope - "once the message row is stored, every listed attachment that
   names a completed upload is linked" - is refuted by Save's own control flow: FileLinkAttachments
   is called AFTER MessageSave and its error is returned with the row in place (a store failure,
   or one listed id without a record: finding c16-attachment-link-all-or-nothing). *)
Definition c16_save_row_linked_statement : Prop :=
  forall ft serve s m urls read_by_sender url,
    ff_topic ft = false -> ff_msg ft = false -> memN (mg_topic m) (topics (sv_fs s)) = true ->
    In url urls -> is_done (get_id_from_url serve url) (files (sv_fs s)) = true ->
    let r := save_c16b ft true serve s m urls read_by_sender in
    In (get_id_from_url serve url, TMsg (next_mid (sv_fs s))) (links (sv_fs (fst r))).

Definition c16_save_witness_name : list N := [86;102;51;107;81;57;95;45;97;90;48]%N.
Definition c16_save_witness_state : sstate_c16b :=
  {| sv_fs := run [OAddTopic 1; OStart (parse_uid c16_save_witness_name) 0 []; OFinish (parse_uid c16_save_witness_name) true 0];
     sv_seq := [(1, 0)]%N; sv_subs := [{| sb_topic := 1; sb_user := 7; sb_recv := 0; sb_read := 0 |}]; sv_calls := [] |}.

(* the witness state, evaluated once *)
Definition c16_save_witness_fs : state := Eval vm_compute in sv_fs c16_save_witness_state.

Remark c16_save_witness_eval :
  c16_save_witness_state =
  {| sv_fs := c16_save_witness_fs; sv_seq := [(1, 0)]%N;
     sv_subs := [{| sb_topic := 1; sb_user := 7; sb_recv := 0; sb_read := 0 |}]; sv_calls := [] |}.
Proof. vm_compute. reflexivity. Qed.

Theorem c16_save_row_linked_refuted : ~ c16_save_row_linked_statement.
Proof.
  intros H.
  specialize (H {| ff_topic := false; ff_msg := false; ff_subs := false; ff_link := true |} []
                c16_save_witness_state {| mg_topic := 1; mg_seq := 1; mg_from := 7 |}
                [c16_save_witness_name] true c16_save_witness_name eq_refl eq_refl eq_refl (or_introl eq_refl) eq_refl).
  rewrite c16_save_witness_eval in H. vm_compute in H. exact H.
Qed.
Print Assumptions c16_save_row_linked_refuted.

(* exactly when: an error with the row stored comes from FileLinkAttachments - injected failure or a
   listed id without a record - and then NO link row was written *)
Theorem c16_save_error_after_row : forall ft handler serve s m urls read_by_sender,
  let r := save_c16b ft handler serve s m urls read_by_sender in
  sr_err (snd r) = true -> ff_topic ft = false -> ff_msg ft = false ->
  memN (mg_topic m) (topics (sv_fs s)) = true ->
  target_live (sv_fs (fst r)) (TMsg (next_mid (sv_fs s))) = true /\
  links (sv_fs (fst r)) = links (sv_fs s) /\
  (ff_link ft = true \/ forallb (fun x => memN x (file_ids (sv_fs s))) (save_fids_c16b handler serve urls) = false).
Proof.
  intros ft handler serve s m urls rbs r Herr H1 H2 Ht. subst r.
  destruct (save_fs_char ft handler serve s m urls rbs) as [A1 A2]. rewrite A2 in Herr. rewrite A1.
  unfold save_fs_c16b in *. rewrite H1, H2, Ht in *. cbn [orb negb] in *.
  destruct (save_fids_c16b handler serve urls) as [|a fids]; [discriminate Herr|].
  destruct (ff_link ft); cbn [fst snd] in *.
  - split; [exact (publish_row_live _ _ _ Ht)|]. split; [cbn [step]; rewrite Ht; apply app_nil_r|left; reflexivity].
  - apply negb_true_iff in Herr.
    exact (conj (publish_row_live _ _ _ Ht) (conj (publish_missing_links_nothing _ _ _ Herr) (or_intror Herr))).
Qed.
Print Assumptions c16_save_error_after_row.

(* the statement under the hypothesis that excludes exactly that trigger *)
Theorem c16_save_row_linked_partial : forall ft serve s m urls read_by_sender url,
  ff_topic ft = false -> ff_msg ft = false -> memN (mg_topic m) (topics (sv_fs s)) = true ->
  ff_link ft = false -> forallb (fun x => memN x (file_ids (sv_fs s))) (resolve serve urls) = true ->
  In url urls -> get_id_from_url serve url <> 0%N ->
  let r := save_c16b ft true serve s m urls read_by_sender in
  sr_err (snd r) = false /\
  In (get_id_from_url serve url, TMsg (next_mid (sv_fs s))) (links (sv_fs (fst r))).
Proof.
  intros ft serve s m urls rbs url H1 H2 Ht H3 Hall Hin Hnz r.
  assert (E : sr_err (snd r) = false) by exact (save_accepts ft true serve s m urls rbs H1 H2 H3 Ht Hall).
  exact (conj E (proj1 (save_accepted_links ft serve s m urls rbs url E Hin Hnz))).
Qed.
Print Assumptions c16_save_row_linked_partial.

(* ------------------------------------------------------------------ *)
(* The download gate, every request field                              *)
(* (Sys/FilesServeC16c.v: largeFileServe over a request that has EVERY field of the upload request - *)
(*  API key at header / query / form / cookie, credentials at X-Tinode-Auth / Authorization / query / *)
(*  form / cookie, sid in query / form, the `topic` parameter in query / form, a multipart body or    *)
(*  none, media handler configuration)                                                                *)

(* "act only on requests that carry a valid API key and valid credentials", download side, at full
   strength: bytes are sent ONLY for a GET whose first non-empty API-key placement holds a valid key
   and whose credentials yield a non-zero uid - for EVERY value of EVERY other field.  There is no
   sign-up (topic=newacc) exemption on this side: the topic fields do not occur in the conclusion and
   the next theorems say they do not occur in the decision. *)
Theorem c16_download_needs_credentials : forall r,
  effect_of (serve_gate_c16c r) <> ENone ->
  dq_meth r = MGet /\ first_some (dq_keys_c16c r) = Some KValid /\
  (exists u, auth_of (dq_creds_c16c r) (dq_sid_c16c r) = AuthUid u /\ u <> 0%N) /\
  dq_handler r = true /\ dq_hdr r = HdrStatus 0 /\ dq_found r = true /\
  serve_gate_c16c r = Reply 200 EServed.
Proof.
  intros r H. rewrite serve_gate_c16c_eq in *.
  destruct (serve_gate_work (sreq_of_c16c r) H) as [H1 [H2 [H3 [H4 [H5 [H6 H7]]]]]].
  cbn [sreq_of_c16c s_meth s_keys s_creds s_sid s_handler s_hdr s_found] in *.
  repeat split; try assumption. apply key_check_source. exact H2.
Qed.
Print Assumptions c16_download_needs_credentials.

(* the reply and the effect are the same whatever the `topic` parameter says, in the query or in a form
   field, "newacc" or not, present or absent *)
Theorem c16_download_ignores_topic :
  (forall r tq tf, serve_gate_c16c (dq_with_topic_c16c r tq tf) = serve_gate_c16c r) /\
  (forall s r tq tf serve url,
     serve_request_c16c s (dq_with_topic_c16c r tq tf) serve url = serve_request_c16c s r serve url).
Proof. exact (conj serve_c16c_ignores_topic serve_request_c16c_ignores_topic). Qed.
Print Assumptions c16_download_ignores_topic.

(* a GET / HEAD with a valid key and NO valid credentials - no placement names a method and the sid is
   absent, unknown or of a session that has not logged in; or the first placement holds an unknown scheme
   or a token for the zero uid - is answered 401 and nothing is served: every other field is free *)
Theorem c16_download_unauthenticated_refused : forall r,
  dq_meth r = MGet \/ dq_meth r = MHead ->
  key_check (dq_keys_c16c r) = true ->
  (first_some (dq_creds_c16c r) = Some (CGood 0) \/ first_some (dq_creds_c16c r) = Some CUnknownScheme \/
   (first_some (dq_creds_c16c r) = None /\ (dq_sid_c16c r = None \/ dq_sid_c16c r = Some 0%N))) ->
  serve_gate_c16c r = Reply 401 ENone.
Proof.
  intros r Hm Hk Hc. apply serve_c16c_unauthenticated; [exact Hm|exact Hk|].
  apply auth_zero_cases. exact Hc.
Qed.
Print Assumptions c16_download_unauthenticated_refused.

(* not only bytes: ANY 200 to a GET / HEAD (HEAD's empty 200, the media handler's own status) is given only
   behind the key check and the credential check *)
Theorem c16_download_200_needs_credentials : forall r e,
  dq_meth r = MGet \/ dq_meth r = MHead ->
  (forall c, auth_of (dq_creds_c16c r) (dq_sid_c16c r) = AuthErr c -> c <> 200%Z) ->
  serve_gate_c16c r = Reply 200 e ->
  first_some (dq_keys_c16c r) = Some KValid /\
  exists u, auth_of (dq_creds_c16c r) (dq_sid_c16c r) = AuthUid u /\ u <> 0%N.
Proof.
  intros r e Hm Hc H. unfold serve_gate_c16c in H.
  destruct (key_check (dq_keys_c16c r)) eqn:Hk; cbn [negb] in H;
    [|destruct Hm as [Hm|Hm]; rewrite Hm in H; discriminate H].
  destruct (auth_of (dq_creds_c16c r) (dq_sid_c16c r)) as [c| |u] eqn:Ha.
  - exfalso. apply (Hc c eq_refl). destruct Hm as [Hm|Hm]; rewrite Hm in H; inversion H; reflexivity.
  - destruct Hm as [Hm|Hm]; rewrite Hm in H; discriminate H.
  - destruct (u =? 0)%N eqn:Hu; [destruct Hm as [Hm|Hm]; rewrite Hm in H; discriminate H|].
    split; [apply key_check_source; exact Hk|].
    exists u. split; [reflexivity|apply N.eqb_neq; exact Hu].
Qed.
Print Assumptions c16_download_200_needs_credentials.

(* the full-field gate is the gate of Sys/Files.v on the projected request: c16_gate, c16_methods,
   c16_refused_no_effect and c16_served_only_completed hold for it as they stand *)
Theorem c16_download_full_is_gate :
  (forall r, serve_gate_c16c r = serve_gate (sreq_of_c16c r)) /\
  (forall s r serve url, serve_request_c16c s r serve url = serve_request s (sreq_of_c16c r) serve url) /\
  (forall r, dq_meth r <> MGet -> dq_meth r <> MHead -> dq_meth r <> MOptions -> serve_gate_c16c r = Reply 405 ENone) /\
  (forall r c e, serve_gate_c16c r = Reply c e -> c <> 200%Z -> e = ENone).
Proof.
  exact (conj serve_gate_c16c_eq (conj serve_request_c16c_eq (conj serve_c16c_methods serve_c16c_refused_no_effect))).
Qed.
Print Assumptions c16_download_full_is_gate.

(* the whole download request against the store slice, every state, every request, every URL: bytes
   only for an authenticated GET with a valid key, and they are those of the completed upload the URL names *)
Theorem c16_download_full_served_only_completed :
  (forall s r serve url o f,
     serve_request_c16c s r serve url = (o, Some f) ->
     o = Reply 200 EServed /\ dq_meth r = MGet /\ first_some (dq_keys_c16c r) = Some KValid /\
     (exists u, auth_of (dq_creds_c16c r) (dq_sid_c16c r) = AuthUid u /\ u <> 0%N) /\
     download s serve url = Some f /\
     f_done f = true /\ In f (files s) /\ get_id_from_url serve url = f_id f /\ In (f_id f) (disk s)) /\
  (forall s r serve url o, serve_request_c16c s r serve url = (o, None) -> effect_of o = ENone).
Proof. exact (conj serve_request_c16c_served serve_request_c16c_nothing). Qed.
Print Assumptions c16_download_full_served_only_completed.

(* the gate AS IT WOULD BE with the upload side's exemption (`uid.IsZero() && FormValue("topic") !=
   "newacc"`): the statement is refuted for it, and it differs from the real gate exactly on requests
   with a valid key, no valid credentials and topic=newacc *)
Definition c16_download_exempt_statement : Prop :=
  forall r, effect_of (serve_gate_exempt_c16c r) <> ENone ->
    exists u, auth_of (dq_creds_c16c r) (dq_sid_c16c r) = AuthUid u /\ u <> 0%N.

Theorem c16_download_exempt_refuted : ~ c16_download_exempt_statement.
Proof.
  intros H. destruct (H exempt_witness_c16c) as [u [Ha Hu]].
  - rewrite exempt_witness_served. discriminate.
  - rewrite exempt_witness_no_credentials in Ha. inversion Ha. congruence.
Qed.
Print Assumptions c16_download_exempt_refuted.

Theorem c16_download_exempt_differs_only_unauthenticated_newacc : forall r,
  serve_gate_exempt_c16c r <> serve_gate_c16c r ->
  (dq_meth r = MGet \/ dq_meth r = MHead) /\ key_check (dq_keys_c16c r) = true /\
  auth_of (dq_creds_c16c r) (dq_sid_c16c r) = AuthUid 0 /\ dq_newacc_c16c r = true.
Proof.
  intros r H. unfold serve_gate_exempt_c16c, serve_gate_c16c in H.
  destruct (dq_meth r) eqn:Hm; try (exfalso; apply H; reflexivity).
  - destruct (key_check (dq_keys_c16c r)) eqn:Hk; cbn [negb] in H; [|exfalso; apply H; reflexivity].
    destruct (auth_of (dq_creds_c16c r) (dq_sid_c16c r)) as [c| |u] eqn:Ha; try (exfalso; apply H; reflexivity).
    destruct (u =? 0)%N eqn:Hu; cbn [andb] in H; [|exfalso; apply H; reflexivity].
    apply N.eqb_eq in Hu. subst u.
    destruct (dq_newacc_c16c r) eqn:Hn; cbn [negb] in H; [|exfalso; apply H; reflexivity].
    repeat split; try reflexivity. left; reflexivity.
  - destruct (key_check (dq_keys_c16c r)) eqn:Hk; cbn [negb] in H; [|exfalso; apply H; reflexivity].
    destruct (auth_of (dq_creds_c16c r) (dq_sid_c16c r)) as [c| |u] eqn:Ha; try (exfalso; apply H; reflexivity).
    destruct (u =? 0)%N eqn:Hu; cbn [andb] in H; [|exfalso; apply H; reflexivity].
    apply N.eqb_eq in Hu. subst u.
    destruct (dq_newacc_c16c r) eqn:Hn; cbn [negb] in H; [|exfalso; apply H; reflexivity].
    repeat split; try reflexivity. right; reflexivity.
Qed.
Print Assumptions c16_download_exempt_differs_only_unauthenticated_newacc.

(* ------------------------------------------------------------------ *)
(* Avatar updates under store faults                                   *)
(* (Sys/FilesDescC16c.v: Topic.replySetDesc = [UserUpdate | TopicUpdate] ; [SubsUpdate] ;          *)
(*  [FileLinkAttachments, error ignored], the third only after the first two succeeded; fault plan *)
(*  over the three calls, 'me' / 'fnd' / p2p / group topics, every request environment)            *)

(* "a refused request has no effect", for the link table: a {set desc} that is answered with anything but
   200 - denied, malformed, not modified, or a core / subscription update that failed in the store -
   leaves upload records, link rows and bytes exactly as they were (the old avatar stays linked), and
   FileLinkAttachments was not called.  Every fault plan, topic kind, request, store state. *)
Theorem c16_set_desc_refused_keeps_links : forall ft handler serve s cat tname as_uid rq,
  snd (set_desc_c16c ft handler serve s cat tname as_uid rq) <> SetOkC16c ->
  dd_fs (fst (set_desc_c16c ft handler serve s cat tname as_uid rq)) = dd_fs s /\
  forall b, ~ In (DFileLinkC16c, b) (expected_calls_c16c ft handler serve cat rq).
Proof. exact set_desc_refused_fs. Qed.
Print Assumptions c16_set_desc_refused_keeps_links.

(* the order of the adapter calls of the request (memverif's call log is compared with it on every
   generated {set desc}): core update; then, unless it failed, the subscription update; then, unless one
   of them failed, the link call - iff `core` is not empty, attachments are listed, a media handler is
   configured and the list resolves to at least one id *)
Theorem c16_set_desc_calls : forall ft handler serve s cat tname as_uid rq,
  rev (dd_calls (fst (set_desc_c16c ft handler serve s cat tname as_uid rq))) =
  rev (dd_calls s) ++
  match sq_pre rq with
  | PreOkC16c =>
    if negb (is_modified_c16c rq) then []
    else
      core_calls_c16c (df_core ft) cat (sq_core rq) ++
      (if core_err_c16c (df_core ft) cat (sq_core rq) then [] else subs_calls_c16c (df_subs ft) (sq_sub rq)) ++
      (if upd_err_c16c ft cat rq then [] else link_calls_c16c (df_link ft) handler serve (sq_core rq) (sq_urls rq))
  | _ => []
  end.
Proof.
  intros ft handler serve s cat tname as_uid rq.
  destruct (set_desc_char ft handler serve s cat tname as_uid rq) as [_ [C _]]. cbv zeta in C.
  rewrite C, rev_app_distr, expected_calls_rev. reflexivity.
Qed.
Print Assumptions c16_set_desc_calls.

(* the reply: 500 exactly when the core or the subscription update failed *)
Theorem c16_set_desc_failed_iff : forall ft handler serve s cat tname as_uid rq,
  snd (set_desc_c16c ft handler serve s cat tname as_uid rq) = SetFailedC16c <->
  sq_pre rq = PreOkC16c /\ is_modified_c16c rq = true /\ upd_err_c16c ft cat rq = true.
Proof.
  intros ft handler serve s cat tname as_uid rq.
  destruct (set_desc_char ft handler serve s cat tname as_uid rq) as [O _]. cbv zeta in O. rewrite O.
  unfold expected_outcome_c16c.
  destruct (sq_pre rq); [|split; [discriminate|intros [H _]; discriminate]..].
  destruct (is_modified_c16c rq); cbn [negb]; [|split; [discriminate|intros [_ [H _]]; discriminate]].
  destruct (upd_err_c16c ft cat rq); split; try discriminate; try (intros [_ [_ H]]; discriminate);
    repeat split; reflexivity.
Qed.
Print Assumptions c16_set_desc_failed_iff.

(* an acknowledged {set desc} is the avatar operation of the history model (when the link call is due and
   does not fail) or leaves the file slice alone: every history theorem above applies to what follows *)
Theorem c16_set_desc_is_avatar_op : forall ft handler serve s cat tname as_uid rq,
  snd (set_desc_c16c ft handler serve s cat tname as_uid rq) = SetOkC16c ->
  dd_fs (fst (set_desc_c16c ft handler serve s cat tname as_uid rq)) =
    (if link_due_c16c handler serve (sq_core rq) (sq_urls rq) && negb (df_link ft)
     then step (dd_fs s) (avatar_op_c16c cat tname as_uid (resolve serve (sq_urls rq)))
     else dd_fs s).
Proof. exact set_desc_ok_fs. Qed.
Print Assumptions c16_set_desc_is_avatar_op.

(* an acknowledged one links the new avatar and releases the old: the first listed id that names an
   upload record is linked to the topic / user, it is its ONLY link, every other link row is as before *)
Theorem c16_set_desc_ok_links_new_releases_old : forall ft handler serve s cat tname as_uid rq f rest,
  snd (set_desc_c16c ft handler serve s cat tname as_uid rq) = SetOkC16c ->
  sq_core rq <> None -> handler = true -> df_link ft = false ->
  resolve serve (sq_urls rq) = f :: rest ->
  let tg := owner_target_c16c cat tname as_uid in
  memN f (file_ids (dd_fs s)) = true -> target_live (dd_fs s) tg = true ->
  let ls := links (dd_fs (fst (set_desc_c16c ft handler serve s cat tname as_uid rq))) in
  In (f, tg) ls /\
  (forall a, In (a, tg) ls -> a = f) /\
  (forall a t, t <> tg -> (In (a, t) ls <-> In (a, t) (links (dd_fs s)))).
Proof. exact set_desc_ok_links. Qed.
Print Assumptions c16_set_desc_ok_links_new_releases_old.

(* over ALL histories: the avatar a of a topic / user (linked by h1's last operation), any operations h2
   that neither delete the owner nor replace the avatar, then a {set desc} that is REFUSED (any reason, any
   fault plan), then any such operations h3 - garbage collection with any bound and limit included: a is
   still linked, still a record, its bytes are still there *)
Theorem c16_refused_set_desc_keeps_avatar : forall h1 tg a rest h2 ft handler serve pb pv cl cat tname as_uid rq h3,
  match tg with TMsg _ => False | _ => True end ->
  let s1 := run h1 in
  memN a (file_ids s1) = true -> target_live s1 tg = true -> is_done a (files s1) = true ->
  forallb (avatar_kept tg) h2 = true ->
  let s2 := run_from (link_single s1 tg (a :: rest)) h2 in
  let r := set_desc_c16c ft handler serve {| dd_fs := s2; dd_public := pb; dd_private := pv; dd_calls := cl |}
             cat tname as_uid rq in
  snd r <> SetOkC16c ->
  forallb (avatar_kept tg) h3 = true ->
  let s3 := run_from (dd_fs (fst r)) h3 in
  dd_fs (fst r) = s2 /\
  In (a, tg) (links s3) /\ In a (file_ids s3) /\ In a (disk s3) /\ is_done a (files s3) = true.
Proof.
  intros h1 tg a rest h2 ft handler serve pb pv cl cat tname as_uid rq h3 Htg s1 H1 H2 H3 Hk2 s2 r Hr Hk3 s3.
  destruct (set_desc_refused_fs ft handler serve {| dd_fs := s2; dd_public := pb; dd_private := pv; dd_calls := cl |}
              cat tname as_uid rq Hr) as [E _].
  cbn [dd_fs] in E. fold r in E. split; [exact E|].
  unfold s3. rewrite E. unfold s2. rewrite <- run_from_app.
  apply (linked_avatar h1 tg a rest (h2 ++ h3) Htg H1 H2 H3).
  rewrite forallb_app, Hk2, Hk3. reflexivity.
Qed.
Print Assumptions c16_refused_set_desc_keeps_avatar.

(* ... and the avatar listed with an ACKNOWLEDGED {set desc} (link call not failing, completed upload,
   existing owner) is linked and stored for as long as the owner exists and the avatar is not replaced *)
Theorem c16_acknowledged_set_desc_avatar_kept : forall h1 ft handler serve pb pv cl cat tname as_uid rq f rest h2,
  let s1 := run h1 in
  let tg := owner_target_c16c cat tname as_uid in
  let r := set_desc_c16c ft handler serve {| dd_fs := s1; dd_public := pb; dd_private := pv; dd_calls := cl |}
             cat tname as_uid rq in
  snd r = SetOkC16c ->
  sq_core rq <> None -> handler = true -> df_link ft = false ->
  resolve serve (sq_urls rq) = f :: rest ->
  memN f (file_ids s1) = true -> target_live s1 tg = true -> is_done f (files s1) = true ->
  forallb (avatar_kept tg) h2 = true ->
  let s2 := run_from (dd_fs (fst r)) h2 in
  In (f, tg) (links s2) /\ In f (file_ids s2) /\ In f (disk s2) /\ is_done f (files s2) = true.
Proof.
  intros h1 ft handler serve pb pv cl cat tname as_uid rq f rest h2 s1 tg r Hok Hc Hh Hl Hr Hf Ht Hd Hk s2.
  pose proof (link_due_of_resolve handler serve (sq_core rq) (sq_urls rq) f rest Hc Hh Hr) as Hdue.
  unfold s2, r. rewrite (set_desc_ok_fs _ _ _ _ _ _ _ _ Hok), Hdue, Hl. cbn [negb andb dd_fs].
  rewrite avatar_op_step, Hr.
  apply (linked_avatar h1 tg f rest h2); try assumption.
  unfold tg. destruct cat; exact I.
Qed.
Print Assumptions c16_acknowledged_set_desc_avatar_kept.

(* replySetDesc AS IT WOULD BE with the link made before the store updates: "a refused request has no
   effect on the link table" is refuted - the update fails, the reply is 500, the record keeps its old
   public, the old avatar has lost its link and the next GC run removes it *)
Definition c16_set_desc_link_first_statement : Prop :=
  forall ft handler serve s cat tname as_uid rq a,
    snd (set_desc_link_first_c16c ft handler serve s cat tname as_uid rq) <> SetOkC16c ->
    linked a (links (dd_fs s)) = true ->
    linked a (links (dd_fs (fst (set_desc_link_first_c16c ft handler serve s cat tname as_uid rq)))) = true.

Theorem c16_set_desc_link_first_refuted : ~ c16_set_desc_link_first_statement.
Proof.
  intros H. destruct link_first_witness as [W1 [W2 [W3 _]]].
  specialize (H lf_faults_c16c true lf_serve_c16c lf_state_c16c CatGrpC16c 1%N 5%N lf_request_c16c (parse_uid lf_name_a_c16c)).
  rewrite W3 in H. rewrite W1 in H.
  assert (X : SetFailedC16c <> SetOkC16c) by discriminate.
  specialize (H X W2). discriminate H.
Qed.
Print Assumptions c16_set_desc_link_first_refuted.

(* "the avatar listed with an acknowledged update is linked", without the scope: refuted by the handler's own
   treatment of the link call - its error is logged and ignored ("not a critical error"), the request is
   acknowledged, the record refers to the new avatar and the new avatar has no link.  A store failure, not
   a refusal; [c16_set_desc_ok_links_new_releases_old] is the statement with [df_link ft = false]. *)
Definition c16_set_desc_ok_linked_statement : Prop :=
  forall ft serve s cat tname as_uid rq f rest,
    snd (set_desc_c16c ft true serve s cat tname as_uid rq) = SetOkC16c ->
    sq_core rq <> None -> resolve serve (sq_urls rq) = f :: rest ->
    memN f (file_ids (dd_fs s)) = true -> target_live (dd_fs s) (owner_target_c16c cat tname as_uid) = true ->
    linked f (links (dd_fs (fst (set_desc_c16c ft true serve s cat tname as_uid rq)))) = true.

Theorem c16_set_desc_ok_linked_refuted : ~ c16_set_desc_ok_linked_statement.
Proof.
  intros H. destruct link_ignored_witness as [W1 [_ [W3 _]]].
  specialize (H li_faults_c16c lf_serve_c16c lf_state_c16c CatGrpC16c 1%N 5%N lf_request_c16c
                (parse_uid lf_name_b_c16c) [] W1).
  rewrite W3 in H.
  assert (X : false = true); [|discriminate X].
  apply H; [discriminate|vm_compute; reflexivity|rewrite lf_state_eval; vm_compute; reflexivity..].
Qed.
Print Assumptions c16_set_desc_ok_linked_refuted.

Theorem c16_set_desc_ok_linked_partial : forall ft serve s cat tname as_uid rq f rest,
  snd (set_desc_c16c ft true serve s cat tname as_uid rq) = SetOkC16c ->
  sq_core rq <> None -> resolve serve (sq_urls rq) = f :: rest ->
  memN f (file_ids (dd_fs s)) = true -> target_live (dd_fs s) (owner_target_c16c cat tname as_uid) = true ->
  df_link ft = false ->
  linked f (links (dd_fs (fst (set_desc_c16c ft true serve s cat tname as_uid rq)))) = true.
Proof.
  intros ft serve s cat tname as_uid rq f rest Hok Hc Hr Hf Ht Hl.
  destruct (set_desc_ok_links ft true serve s cat tname as_uid rq f rest Hok Hc eq_refl Hl Hr Hf Ht) as [Hin _].
  exact (linked_In _ _ _ Hin).
Qed.
Print Assumptions c16_set_desc_ok_linked_partial.

(* ---- account creation ({acc user="new"}, Sys/FilesAccC16c.v: AuthGetUniqueRecord ; UserCreate ; TopicShare ;
   AuthAddRecord ; [credentials] ; FileLinkAttachments - the link call LAST; a failure after UserCreate deletes
   the account again) ---- *)

(* an {acc user="new"} that does not create the account (whatever its reply code: the AddRecord failure is
   answered 200 by the code as it is, see FilesAccC16c.v) - IsUnique, UserCreate, the me/fnd subscriptions, AddRecord or the credentials
   failing, in the state reached by ANY history, for a fresh account id - leaves upload records, link rows,
   bytes, topics and users exactly as they were, and FileLinkAttachments was not called *)
Theorem c16_create_user_refused_no_effect : forall h ft handler serve cl uid creds_ok urls,
  let s := {| aa_fs := run h; aa_calls := cl |} in
  memN uid (users (run h)) = false ->
  ao_created (snd (create_user_c16c ft handler serve s uid creds_ok urls)) = false ->
  aa_fs (fst (create_user_c16c ft handler serve s uid creds_ok urls)) = run h /\
  forall b, ~ In (AFileLinkC16c, b) (acc_calls_c16c ft handler serve creds_ok urls).
Proof.
  intros h ft handler serve cl uid creds_ok urls s Hu Hr.
  destruct (create_user_char ft handler serve s uid creds_ok urls) as [O [_ [_ F]]]. cbv zeta in O, F.
  apply O in Hr. rewrite F. unfold acc_refused_c16c in Hr. cbn [aa_fs s].
  split.
  - destruct (af_unique ft); [reflexivity|]. destruct (af_create ft); [reflexivity|]. cbn [orb] in Hr |- *.
    rewrite Hr. apply add_del_user_id; [apply inv_run|exact Hu].
  - intros b. unfold acc_calls_c16c.
    destruct (af_unique ft); [intros [X|[]]; discriminate|].
    destruct (af_create ft); [intros [X|[X|[]]]; discriminate|].
    destruct (af_share ft); [intros [X|[X|[X|[X|[]]]]]; discriminate|].
    destruct (af_auth ft); [intros [X|[X|[X|[X|[X|[]]]]]]; discriminate|].
    cbn [orb] in Hr. rewrite Hr. intros [X|[X|[X|[X|[X|[]]]]]]; discriminate.
Qed.
Print Assumptions c16_create_user_refused_no_effect.

(* whether the account exists afterwards, the reply code, the adapter calls in the order they are made (compared with memverif's call log on every generated
   account creation), and the file slice: account creation followed by the avatar operation of the history model *)
Theorem c16_create_user_calls : forall ft handler serve s uid creds_ok urls,
  let r := create_user_c16c ft handler serve s uid creds_ok urls in
  (ao_created (snd r) = false <-> acc_refused_c16c ft creds_ok = true) /\
  ao_code (snd r) = acc_code_c16c ft creds_ok /\
  rev (aa_calls (fst r)) = rev (aa_calls s) ++ acc_calls_c16c ft handler serve creds_ok urls /\
  (ao_created (snd r) = true ->
   aa_fs (fst r) =
     (if acc_link_due_c16c handler serve urls && negb (af_link ft)
      then step (step (aa_fs s) (OAddUser uid)) (OUserAvatar uid (resolve serve urls))
      else step (aa_fs s) (OAddUser uid))).
Proof.
  intros ft handler serve s uid creds_ok urls r.
  destruct (create_user_char ft handler serve s uid creds_ok urls) as [O [K [C _]]].
  exact (conj O (conj K (conj C (create_user_created ft handler serve s uid creds_ok urls)))).
Qed.
Print Assumptions c16_create_user_calls.

(* ------------------------------------------------------------------ *)
(* non-vacuity                                                          *)

Example c16_ex_upload_ok :
  upload_gate {| u_meth := MPost; u_key_hdr := None; u_key_query := None; u_key_form := Some KValid; u_key_cookie := None;
     u_cred_xauth := None; u_cred_authz := None; u_cred_query := None; u_cred_form := Some (CGood 7); u_cred_cookie := None;
     u_sid_query := None; u_sid_form := None; u_topic_query := None; u_topic_form := None;
     u_handler := true; u_hdr := HdrStatus 0; u_limit := 4096; u_body := BForm 4096 true 3000; u_fault := FNone |}
  = Reply 200 EStored.
Proof. reflexivity. Qed.

Example c16_ex_finish_fault :
  upload_gate c16_finish_fault_request = Reply 500 EResidueNoBytes /\
  upload_gate_unrepaired c16_finish_fault_request = Crash EResidue /\
  (let s := fst (apply_upload init c16_finish_fault_request 5 0 []) in
   file_ids s = [5%N] /\ disk s = [] /\ file_ids (step s (OGC (Some 1%Z) 0)) = []).
Proof. vm_compute. repeat split. Qed.

Example c16_ex_form_key_over_limit :
  (* the API key travels in the form and the body is over the limit: the form cannot be read, 403 *)
  upload_gate {| u_meth := MPost; u_key_hdr := None; u_key_query := None; u_key_form := Some KValid; u_key_cookie := None;
     u_cred_xauth := Some (CGood 7); u_cred_authz := None; u_cred_query := None; u_cred_form := None; u_cred_cookie := None;
     u_sid_query := None; u_sid_form := None; u_topic_query := None; u_topic_form := None;
     u_handler := true; u_hdr := HdrStatus 0; u_limit := 4096; u_body := BForm 4097 true 3000; u_fault := FNone |}
  = Reply 403 ENone.
Proof. reflexivity. Qed.

Example c16_ex_history :
  (* upload 5 and 6, publish 5, avatar 6, GC: nothing goes; delete the message, GC: 5 goes *)
  let h := [OAddTopic 1; OStart 5 0 []; OFinish 5 true 0; OStart 6 0 []; OFinish 6 true 0;
            OPublish 1 [5%N]; OTopicAvatar 1 [6%N]; OGC None 0] in
  file_ids (run h) = [5; 6]%N /\
  file_ids (run (h ++ [ODelMsgs [1%N]; OGC None 0])) = [6%N] /\
  disk (run (h ++ [ODelMsgs [1%N]; OGC None 0])) = [6%N].
Proof. vm_compute. repeat split. Qed.

Example c16_ex_active : force_attachment false [116;101;120;116;47;104;116;109;108]%N = true /\
                        force_attachment false [105;109;97;103;101;47;112;110;103]%N = false.
Proof. vm_compute. split; reflexivity. Qed.

Example c16_ex_save_write_only_sender :
  (* a group topic, the sender's want = JWP (13), given = JRWPS (47): W without R.  The publish is
     accepted, the read mark of the sender is NOT moved, the attachment IS linked; the same for a post
     to 'sys' by a user without a subscription (modes 0) *)
  let serve := [47;118;48;47;102;105;108;101;47;115;47]%N in
  let url := serve ++ c16_save_witness_name in
  let r := pub_save_c16b no_faults_c16b true serve c16_save_witness_state false 13 47 0 1 7 [url] in
  let r' := pub_save_c16b no_faults_c16b true serve c16_save_witness_state true 0 0 0 1 9 [url] in
  snd r = PubAccepted false /\ snd r' = PubAccepted false /\
  links (sv_fs (fst r)) = [(parse_uid c16_save_witness_name, TMsg 1)] /\
  links (sv_fs (fst r')) = [(parse_uid c16_save_witness_name, TMsg 1)] /\
  sv_subs (fst r) = sv_subs c16_save_witness_state /\
  snd (pub_save_c16b no_faults_c16b true serve c16_save_witness_state false 47 47 0 1 7 [url]) = PubAccepted true /\
  snd (pub_save_c16b no_faults_c16b true serve c16_save_witness_state false 11 47 0 1 7 [url]) = PubDenied.
Proof. rewrite c16_save_witness_eval. vm_compute. repeat split. Qed.

Example c16_ex_download_newacc :
  (* GET with a valid key in the header, topic=newacc in the query, no credentials: 401 - and 200 with a token *)
  let r := exempt_witness_c16c in
  serve_gate_c16c r = Reply 401 ENone /\
  serve_gate_c16c {| dq_meth := MGet; dq_key_hdr := None; dq_key_query := None; dq_key_form := Some KValid; dq_key_cookie := None;
     dq_cred_xauth := None; dq_cred_authz := None; dq_cred_query := None; dq_cred_form := None; dq_cred_cookie := Some (CGood 3);
     dq_sid_query := None; dq_sid_form := Some 0%N; dq_topic_query := None; dq_topic_form := Some true;
     dq_body_form := true; dq_handler := true; dq_hdr := HdrStatus 0; dq_found := true |} = Reply 200 EServed.
Proof. vm_compute. split; reflexivity. Qed.

Example c16_ex_set_desc_fault :
  (* group topic 1 with avatar a; {set desc public, attachments [b]} while TopicUpdate fails: 500, a stays
     linked and survives the GC; without the fault: 200, b is linked, a is released and collected *)
  let r := set_desc_c16c lf_faults_c16c true lf_serve_c16c lf_state_c16c CatGrpC16c 1 5 lf_request_c16c in
  let r' := set_desc_c16c no_desc_faults_c16c true lf_serve_c16c lf_state_c16c CatGrpC16c 1 5 lf_request_c16c in
  snd r = SetFailedC16c /\ rev (dd_calls (fst r)) = [(DTopicUpdateC16c, true)] /\
  links (dd_fs (fst r)) = [(parse_uid lf_name_a_c16c, TTopic 1)] /\
  snd r' = SetOkC16c /\ rev (dd_calls (fst r')) = [(DTopicUpdateC16c, false); (DFileLinkC16c, false)] /\
  links (dd_fs (fst r')) = [(parse_uid lf_name_b_c16c, TTopic 1)] /\
  file_ids (step (dd_fs (fst r')) (OGC None 0)) = [parse_uid lf_name_b_c16c].
Proof. rewrite lf_state_eval. vm_compute. repeat split; reflexivity. Qed.

(* ------------------------------------------------------------------ *)
(* the stored content type, the disposition of the later download, the GC cut-off.
   [sniff] = http.DetectContentType of the first 512 bytes, [declared] = the parsed Content-Type
   of the multipart part (None: mime.ParseMediaType failed); both are inputs (stdlib). *)

(* 'the detected content type': whatever the client declares, the stored type is the sniffed one
   unless the sniffed type is exactly application/octet-stream *)
Theorem c16_declared_type_only_for_undetectable : forall sniff declared,
  (sniff <> s_octet_c16f -> stored_type_c16f sniff declared = sniff) /\
  (stored_type_c16f sniff declared = sniff \/
   (sniff = s_octet_c16f /\
    exists d, declared = Some d /\ stored_type_c16f sniff declared = d_formatted d /\ d_formatted d <> [] /\
      exists a, In a allowed_mime_types_c16f /\ has_prefix a (d_media d) = true)).
Proof.
  intros sniff declared. split; [apply stored_type_c16f_detected|apply stored_type_c16f_char].
Qed.
Print Assumptions c16_declared_type_only_for_undetectable.

(* ... and for an undetectable body a well-formed declared type of a listed family is the stored type *)
Theorem c16_declared_type_used_for_undetectable : forall d a,
  In a allowed_mime_types_c16f -> has_prefix a (d_media d) = true -> d_formatted d <> [] ->
  stored_type_c16f s_octet_c16f (Some d) = d_formatted d.
Proof.
  intros d a Ha Hp Hf. unfold stored_type_c16f.
  replace (bytes_eqb_c16f s_octet_c16f s_octet_c16f) with true by (symmetry; apply bytes_eqb_c16f_eq; reflexivity).
  destruct (allowed_loop_c16f_char allowed_mime_types_c16f d s_octet_c16f) as [[_ [H|H]]|[H _]].
  - rewrite (H a Ha) in Hp. discriminate.
  - contradiction.
  - exact H.
Qed.
Print Assumptions c16_declared_type_used_for_undetectable.

(* the download of a detectable upload carries the sniffed type and the disposition of the sniffed
   type: the declared type has no influence *)
Theorem c16_served_type_is_detected : forall asatt sniff declared,
  sniff <> s_octet_c16f ->
  served_c16f asatt sniff declared = (sniff, force_attachment asatt sniff).
Proof. exact served_c16f_detected. Qed.
Print Assumptions c16_served_type_is_detected.

(* 'forced to be saved for active content (HTML, XML, text and application types)': content that
   sniffs as an active type is served under that type with Content-Disposition: attachment
   whatever was declared, with or without asatt.  (For application/octet-stream itself the
   declared type, when usable, decides: hdl_files.go:290-302.) *)
Theorem c16_application_forced_download : forall asatt sniff declared,
  active sniff = true -> sniff <> s_octet_c16f \/ declared = None ->
  served_c16f asatt sniff declared = (sniff, true).
Proof.
  intros asatt sniff declared Ha [H|H].
  - rewrite (served_c16f_detected _ _ _ H). rewrite (c16_active_types_attached _ _ Ha). reflexivity.
  - subst. unfold served_c16f, stored_type_c16f. destruct (bytes_eqb_c16f sniff s_octet_c16f);
      rewrite (c16_active_types_attached _ _ Ha); reflexivity.
Qed.
Print Assumptions c16_application_forced_download.

(* the same statement for a handler that consults the declared type for every application/* sniff
   is false: application/pdf declared as image/png would be displayed *)
Definition c16_application_forced_download_wide_statement : Prop :=
  forall asatt sniff declared, active sniff = true -> sniff <> s_octet_c16f \/ declared = None ->
  (stored_type_wide_c16f sniff declared, force_attachment asatt (stored_type_wide_c16f sniff declared)) = (sniff, true).
Theorem c16_application_forced_download_wide_refuted : ~ c16_application_forced_download_wide_statement.
Proof.
  intros H.
  assert (Ha : active s_pdf_c16f = true) by (vm_compute; reflexivity).
  assert (Hn : s_pdf_c16f <> s_octet_c16f) by discriminate.
  specialize (H false s_pdf_c16f (Some {| d_media := s_png_c16f; d_formatted := s_png_c16f |}) Ha (or_introl Hn)).
  revert H. vm_compute. discriminate.
Qed.
Print Assumptions c16_application_forced_download_wide_refuted.

(* 'collectable after the grace period': the cut-off one tick of the GC loop hands to
   DeleteUnused is one hour before the tick, for every configured period *)
Theorem c16_gc_cutoff_independent_of_period : forall now p1 p2,
  gc_cutoff_c16f now p1 = gc_cutoff_c16f now p2 /\ (now - gc_cutoff_c16f now p1 = hour_c16f)%Z.
Proof. intros. split; [apply gc_cutoff_c16f_const|apply gc_cutoff_c16f_hour]. Qed.
Print Assumptions c16_gc_cutoff_independent_of_period.

(* after any history, a tick of the loop with any period and block size leaves every upload record
   that was updated less than (or exactly) one hour ago, linked or not, and its bytes *)
Theorem c16_gc_respects_grace_period : forall h now period block f,
  let s := run h in
  In f (files s) -> (now - hour_c16f <= f_upd f)%Z ->
  In f (files (gc_tick_c16f s now period block)) /\
  (In (f_id f) (disk s) -> In (f_id f) (disk (gc_tick_c16f s now period block))).
Proof.
  intros h now period block f s. apply gc_tick_c16f_grace. destruct (inv_run h) as [H _]. exact H.
Qed.
Print Assumptions c16_gc_respects_grace_period.

(* the tick is exactly DeleteUnused(now - 1h, block): c16_gc_exact describes what it removes *)
Theorem c16_gc_tick_is_delete_unused : forall s now period block,
  gc_tick_c16f s now period block = step s (OGC (Some (now - hour_c16f)%Z) block).
Proof. reflexivity. Qed.
Print Assumptions c16_gc_tick_is_delete_unused.

(* the jittered tick period is within [0.75, 1.25) of the configured one; a period of at most one
   nanosecond makes rand.Intn panic in the loop's goroutine (not reachable from a request: the
   period is configuration) *)
Theorem c16_gc_tick_period : forall period r,
  ((period <= 1)%Z -> gc_tick_period_c16f period r = None) /\
  (forall p, (0 <= r < Z.shiftr period 1)%Z -> gc_tick_period_c16f period r = Some p ->
     (Z.shiftr period 1 + Z.shiftr period 2 <= p < 2 * Z.shiftr period 1 + Z.shiftr period 2)%Z).
Proof.
  intros period r. split; [apply gc_tick_period_c16f_panics|intros p; apply gc_tick_period_c16f_range].
Qed.
Print Assumptions c16_gc_tick_period.

(* a cut-off derived from the period collects a two-minute-old unlinked upload when the period is 60 s *)
Example c16_gc_cutoff_by_period_collects_young :
  let s := run [OStart 5 0 []; OFinish 5 true 0] in
  file_ids (step s (OGC (Some (gc_cutoff_by_period_c16f 120000000000 60000000000)) 100)) = [] /\
  file_ids (gc_tick_c16f s 120000000000 60000000000 100) = [5%N].
Proof. vm_compute. split; reflexivity. Qed.
