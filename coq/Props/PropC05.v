(* C05  Access modes obey one consistent algebra in every representation.
   The theorems of the property; the lemmas behind them are in Pure/AcsProofs.v,
   Sys/AcsNotifyProofs.v and Sys/AcsSitesC05Proofs.v. *)
From Coq Require Import NArith List Bool.
From Tinode Require Import Base.Util Pure.Acs Pure.AcsProofs Sys.AcsNotify Sys.AcsNotifyProofs.
From Tinode Require Import Sys.AcsSitesC05 Sys.AcsSitesC05Proofs.
Import ListNotations.
Open Scope N_scope.

(* every permission set has one canonical text that parses back to the set *)
Theorem c05_parse_marshal : forall m cur, m < 256 ->
  unmarshal_text cur (mode_string m) = (m, true).
Proof. exact parse_marshal. Qed.
Print Assumptions c05_parse_marshal.

Theorem c05_text_canonical : forall m1 m2, m1 < 256 -> m2 < 256 ->
  mode_string m1 = mode_string m2 -> m1 = m2.
Proof.
  intros m1 m2 H1 H2 E. pose proof (parse_marshal m1 0 H1) as P1. pose proof (parse_marshal m2 0 H2) as P2.
  rewrite E in P1. rewrite P1 in P2. congruence.
Qed.
Print Assumptions c05_text_canonical.

(* letters in any case *)
Theorem c05_case_insensitive : forall s, parse_acs (map upper s) = parse_acs s.
Proof. exact parse_case_insensitive. Qed.
Print Assumptions c05_case_insensitive.

(* text with unknown letters is rejected and leaves the target unchanged
   (all strings; the target is any N) *)
Theorem c05_unknown_rejected : forall cur s,
  forallb known_letter s = false -> unmarshal_text cur s = (cur, false).
Proof.
  intros cur s H. unfold unmarshal_text.
  destruct (parse_acs s) as [m0|] eqn:P; [|reflexivity].
  apply parse_rejects_unknown in P. congruence.
Qed.
Print Assumptions c05_unknown_rejected.

Theorem c05_reject_keeps_target : forall cur s,
  snd (apply_mutation cur s) = false -> fst (apply_mutation cur s) = cur.
Proof.
  intros cur s.
  unfold apply_mutation. destruct s as [|c r]; [reflexivity|].
  destruct (existsb is_sign (c :: r)).
  - apply apply_delta_reject_keeps.
  - apply unmarshal_reject_keeps.
Qed.
Print Assumptions c05_reject_keeps_target.

Theorem c05_mutation_unknown_rejected : forall cur s,
  snd (apply_mutation cur s) = true -> forallb known_char s = true.
Proof. exact apply_mutation_rejects_unknown. Qed.
Print Assumptions c05_mutation_unknown_rejected.

(* 'N' means none and stands alone *)
Theorem c05_N_alone : forall s m, parse_acs s = Some m -> existsb is_N s = true ->
  exists c, s = [c] /\ m = ModeNone.
Proof. intros s m. exact (parse_loop_N_alone s ModeUnset m). Qed.
Print Assumptions c05_N_alone.

(* an empty string means no change *)
Theorem c05_empty_no_change : forall cur,
  unmarshal_text cur [] = (cur, true) /\ apply_mutation cur [] = (cur, true).
Proof. intros cur. split; [exact (unmarshal_empty cur)|exact (apply_mutation_empty cur)]. Qed.
Print Assumptions c05_empty_no_change.

(* effective permission = intersection *)
Theorem c05_effective_intersection : forall w g i,
  N.testbit (effective w g) i = N.testbit w i && N.testbit g i.
Proof. intros w g i. apply N.land_spec. Qed.
Print Assumptions c05_effective_intersection.

(* the textual difference applied to the first yields the second: all 256x256 *)
Theorem c05_delta_apply : forall o n, o < 256 -> n < 256 ->
  apply_delta o (delta o n) = (n, true) /\ apply_mutation o (delta o n) = (n, true).
Proof. intros o n Ho Hn. split; [exact (delta_apply o n Ho Hn)|exact (delta_mutation o n Ho Hn)]. Qed.
Print Assumptions c05_delta_apply.

(* every party tracking permissions from change notifications ends up with the
   authoritative value: every sequence of changes, incl. Unset (removed) and
   Invalid *)
Theorem c05_tracking : forall cur changes,
  In cur mode_domain -> Forall (fun n => In n mode_domain) changes ->
  replay (norm cur) cur changes = norm (last changes cur).
Proof. exact tracking. Qed.
Print Assumptions c05_tracking.

(* non-vacuity: concrete instances *)
Example c05_ex_roundtrip : unmarshal_text 0 (mode_string 47) = (47, true).
Proof. reflexivity. Qed.
Example c05_ex_tracking : replay (norm 47) 47 [0; 256; 255; 3] = 3.
Proof. reflexivity. Qed.
Example c05_ex_reject : apply_mutation 47 [cPlus; cJ; 63] = (47, false).
Proof. reflexivity. Qed.

(* finding, repaired by a fix: commit: before the repair junk after 'N' was accepted *)
Theorem c05_unrepaired_refuted :
  exists s m, parse_acs_unrepaired s = Some m /\ forallb known_letter s = false.
Proof. exists [cN; 63; 120], ModeNone. split; reflexivity. Qed.
Print Assumptions c05_unrepaired_refuted.

(* ------------------------------------------------------------------ *)
(* LAYER 2: the change notifications of a topic (Sys/AcsNotify.v: notifySubChange's
   acs parameters and recipients, updateAcsFromPresMsg, client sessions) *)

(* the difference put into a notification, applied to the old modes, yields the new modes and
   is never rejected: every (want, given) pair a topic can hold before and after, i.e. all
   sets, Unset (no subscription) and Invalid; [nmodes] reads Unset/Invalid as no permission *)
Theorem c05_notification_yields_new : forall ow og nw ng,
  In ow mode_domain -> In og mode_domain -> In nw mode_domain -> In ng mode_domain ->
  follow_opt (nmodes (ow, og)) (notify_params ow og nw ng) = Some (nmodes (nw, ng)).
Proof. exact follow_opt_notify. Qed.
Print Assumptions c05_notification_yields_new.

(* ... also when presParams.packAcs drops an all-empty payload *)
Theorem c05_client_follows_notification : forall ow og nw ng,
  In ow mode_domain -> In og mode_domain -> In nw mode_domain -> In ng mode_domain ->
  follow (nmodes (ow, og)) (pack_acs (notify_params ow og nw ng)) = nmodes (nw, ng).
Proof. exact follow_notify. Qed.
Print Assumptions c05_client_follows_notification.

(* proxyMasterResponse/updateAcsFromPresMsg: the entry of the notified user becomes the new
   modes, every other entry is untouched *)
Theorem c05_proxy_applies_notification : forall t target ow og nw ng,
  target <> 0 ->
  In ow mode_domain -> In og mode_domain -> In nw mode_domain -> In ng mode_domain ->
  tget t target = nmodes (ow, og) ->
  forall u, tget (proxy_pres t target (pack_acs (notify_params ow og nw ng))) u =
            if u =? target then nmodes (nw, ng) else tget t u.
Proof. exact proxy_pres_notify. Qed.
Print Assumptions c05_proxy_applies_notification.

(* who is told of a change that is not an unsubscribe: exactly the target's sessions attached
   to the topic / to 'me' only, except the requesting one *)
Theorem c05_target_sessions_told : forall ss target skip sid, NoDup (map fst ss) ->
  mem sid (direct_rcpt ss target skip false) =
    match lk sid ss with Some (u, it) => it && (u =? target) && negb (sid =? skip) | None => false end /\
  mem sid (me_rcpt ss target skip false) =
    match lk sid ss with Some (u, it) => negb it && (u =? target) && negb (sid =? skip) | None => false end.
Proof. intros ss target skip sid H. split; [exact (direct_rcpt_spec ss target skip sid H)|exact (me_rcpt_spec ss target skip sid H)]. Qed.
Print Assumptions c05_target_sessions_told.

(* every party that tracks permissions from change notifications holds exactly what the
   authoritative topic holds: for EVERY history of attach / detach / permission change
   (any users, any sessions, any sequence of (want, given) pairs, unsubscribes included)
   from any initial table, and after EVERY step k of it:
   - each tracking session (attached to the topic, or to the user's 'me' only; the requester
     of a change reads the full modes from its {ctrl}) holds the modes of its user,
   - the proxy's table holds the modes of every user. *)
Theorem c05_trackers_hold_authoritative : forall a h k,
  tbl_ok a -> wf_run (ninit a) h ->
  let s := nrun (ninit a) (firstn k h) in
  (forall sid u it, lk sid (sess s) = Some (u, it) -> lk sid (fol s) = Some (nmodes (aget (auth s) u))) /\
  (forall u, tget (prox s) u = nmodes (aget (auth s) u)).
Proof.
  intros a h k Ha W s. assert (I : ninv s) by (apply ninv_run; [now apply ninv_init|now apply wf_run_firstn]).
  destruct I. split; assumption.
Qed.
Print Assumptions c05_trackers_hold_authoritative.

(* non-vacuity: the member mutes the topic (want JRWPS -> JRWS) from session 10, then the owner
   (session 20) takes P from the member's given; sessions 11 (in the topic) and 12 (on 'me') of the
   member and the proxy all end with JRWS/JRWS *)
Definition c05_ex_hist : list nop :=
  [NAttach 10 2 true; NAttach 11 2 true; NAttach 12 2 false; NAttach 20 1 true;
   NChange 10 2 39 47; NChange 20 2 39 39].
Example c05_ex_hist_wf : tbl_ok [(1, (255, 255)); (2, (47, 47))] /\ wf_run (ninit [(1, (255, 255)); (2, (47, 47))]) c05_ex_hist.
Proof.
  split.
  - intros u m. cbn [lk]. destruct (u =? 1); [intros X; inversion X; subst; split; apply small_in_domain; reflexivity|].
    destruct (u =? 2); [intros X; inversion X; subst; split; apply small_in_domain; reflexivity|discriminate].
  - cbn. repeat split; try discriminate; left; split; reflexivity.
Qed.
Example c05_ex_hist_result :
  let s := nrun (ninit [(1, (255, 255)); (2, (47, 47))]) c05_ex_hist in
  (lk 10 (fol s), lk 11 (fol s), lk 12 (fol s), tget (prox s) 2) = (Some (39, 39), Some (39, 39), Some (39, 39), (39, 39)).
Proof. vm_compute. reflexivity. Qed.
(* the notification of the second change carries no want part and "-P" for given *)
Example c05_ex_params : notify_params 39 47 39 39 = ([], [cMinus; cP]).
Proof. reflexivity. Qed.

(* ------------------------------------------------------------------ *)
(* LAYER 3: the handlers that INTERPRET a client-supplied default-access mode text
   (Sys/AcsSitesC05.v: replySetDesc/assignAccess on 'me' and group topics, replyOfflineTopicSetSub,
   initTopicNewGrp, replyCreateUser, initTopicP2P; all on top of parseTopicAccess/UnmarshalText).
   A text is a [list N]; [] is both "" and an absent JSON key; [None] is an absent defacs object.
   "not a mode text" = ParseAcs rejects it, which by [c05_site_unknown_letters_not_parsed] covers
   every text with an unknown letter.  All statements are for ALL texts and ALL current modes. *)

Theorem c05_site_unknown_letters_not_parsed : forall s,
  forallb known_letter s = false -> parse_acs s = None.
Proof.
  intros s H. destruct (parse_acs s) as [m|] eqn:E; [|reflexivity].
  apply parse_rejects_unknown in E. congruence.
Qed.
Print Assumptions c05_site_unknown_letters_not_parsed.

(* --- {set desc.defacs} on 'me' / a group topic (attached session of the user / the owner) --- *)

(* complete description: the request is answered 400 and nothing moves, or EVERY field holds exactly
   what its own text says - untouched when the text is empty, absent or not a mode text; the parsed
   set, sanitised (& ModeCAuth / & ModeCP2P, +A unless N) on 'me' ONLY, when one is supplied -
   answered 200, or 304 when nothing moved *)
Theorem c05_setdesc_result : forall cat a n acs,
  set_desc_defacs cat a n (Some acs) = (400, (a, n)) \/
  (snd (set_desc_defacs cat a n (Some acs)) =
     (field_spec (cat_sanitize cat ModeCAuth) a (da_auth acs),
      field_spec (cat_sanitize cat ModeCP2P) n (da_anon acs)) /\
   (fst (set_desc_defacs cat a n (Some acs)) = 200 \/
    fst (set_desc_defacs cat a n (Some acs)) = 304 /\
    (field_spec (cat_sanitize cat ModeCAuth) a (da_auth acs),
     field_spec (cat_sanitize cat ModeCP2P) n (da_anon acs)) = (a, n))).
Proof. exact set_desc_result. Qed.
Print Assumptions c05_setdesc_result.

(* an empty string means no change: per field, whatever the other field carries, whatever the
   category, whatever the field holds (sanitised or not) *)
Theorem c05_setdesc_empty_no_change : forall cat a n acs,
  (da_auth acs = [] -> fst (snd (set_desc_defacs cat a n (Some acs))) = a) /\
  (da_anon acs = [] -> snd (snd (set_desc_defacs cat a n (Some acs))) = n) /\
  (da_auth acs = [] -> da_anon acs = [] -> set_desc_defacs cat a n (Some acs) = (304, (a, n))) /\
  set_desc_defacs cat a n None = (304, (a, n)).
Proof.
  intros cat a n acs. split; [exact (set_desc_empty_auth cat a n acs)|].
  split; [exact (set_desc_empty_anon cat a n acs)|].
  split; [exact (set_desc_empty_both cat a n acs)|exact (set_desc_absent cat a n)].
Qed.
Print Assumptions c05_setdesc_empty_no_change.

(* text that is not a mode text leaves its target unchanged (always), and is rejected with
   everything unchanged when it is the anon text or when no anon text comes with it *)
Theorem c05_setdesc_rejected_keeps_target : forall cat a n acs,
  (parse_acs (da_auth acs) = None -> fst (snd (set_desc_defacs cat a n (Some acs))) = a) /\
  (parse_acs (da_anon acs) = None -> set_desc_defacs cat a n (Some acs) = (400, (a, n))).
Proof.
  intros cat a n acs. split; [exact (set_desc_rejected_auth_keeps cat a n acs)|exact (set_desc_rejected_anon cat a n acs)].
Qed.
Print Assumptions c05_setdesc_rejected_keeps_target.

(* FINDING (findings/C05.md #3): the full statement "rejected, everything unchanged" is REFUTED by
   the faithful model: parseTopicAccess overwrites the error of auth by the result for anon *)
Definition c05_setdesc_junk_rejected_statement : Prop := set_desc_junk_rejected_statement.
Theorem c05_setdesc_junk_rejected_refuted : ~ c05_setdesc_junk_rejected_statement.
Proof.
  intros H.
  specialize (H CatGrp 47 0 (mkDefacs [cJ; 33] [cJ; cR]) (or_introl eq_refl)).
  vm_compute in H. discriminate H.
Qed.
Print Assumptions c05_setdesc_junk_rejected_refuted.
(* ... and holds whenever the trigger (a bad auth text hidden by an accepted non-empty anon text) is excluded *)
Theorem c05_setdesc_junk_rejected_partial : forall cat a n acs,
  parse_acs (da_auth acs) = None \/ parse_acs (da_anon acs) = None ->
  (da_anon acs = [] \/ parse_acs (da_anon acs) = None) ->
  set_desc_defacs cat a n (Some acs) = (400, (a, n)).
Proof.
  intros cat a n acs.
  intros [H|H] [Hn|Hn].
  - apply set_desc_rejected_auth_alone; assumption.
  - apply set_desc_rejected_anon; assumption.
  - rewrite Hn in H. discriminate H.
  - apply set_desc_rejected_anon; assumption.
Qed.
Print Assumptions c05_setdesc_junk_rejected_partial.

(* the category-specific sanitising applies to supplied values (and, by c05_setdesc_empty_no_change,
   to nothing else) *)
Theorem c05_setdesc_supplied_sanitised : forall cat a n acs ma mn,
  da_auth acs <> [] -> da_anon acs <> [] ->
  parse_acs (da_auth acs) = Some ma -> parse_acs (da_anon acs) = Some mn ->
  is_owner (N.land ma ModeBitmask) || is_owner (N.land mn ModeBitmask) = false ->
  snd (set_desc_defacs cat a n (Some acs)) =
    (cat_sanitize cat ModeCAuth (N.land ma ModeBitmask), cat_sanitize cat ModeCP2P (N.land mn ModeBitmask)).
Proof.
  intros cat a n acs ma mn Ha Hn Pa Pn Ho. unfold set_desc_defacs, assign_access. rewrite pta_spec.
  unfold pta_err, text_bad.
  destruct (da_anon acs) as [|c2 r2] eqn:En; [congruence|]. rewrite Pn.
  rewrite (field_spec_supplied _ _ _ ma Ha Pa).
  rewrite (field_spec_supplied _ _ (c2 :: r2) mn Hn Pn).
  rewrite Ho. rewrite !land_bitmask_not_unset. cbn [negb].
  destruct (negb _ || negb _) eqn:E; [destruct cat; reflexivity|].
  apply orb_false_elim in E. destruct E as [E1 E2].
  apply negb_false_iff in E1. apply negb_false_iff in E2.
  apply N.eqb_eq in E1. apply N.eqb_eq in E2. cbn [snd]. rewrite <- E1, <- E2. destruct cat; reflexivity.
Qed.
Print Assumptions c05_setdesc_supplied_sanitised.

(* the same request from a session that is not attached changes nothing *)
Theorem c05_offline_setdesc_unchanged : forall a n mode, offline_set_desc_defacs a n mode = (304, (a, n)).
Proof. intros a n mode. reflexivity. Qed.
Print Assumptions c05_offline_setdesc_unchanged.

(* --- {sub topic=new|nch set.desc.defacs}: the default of the category plays the current value --- *)
Theorem c05_newgrp_not_supplied_keeps_default : forall ch acs,
  new_grp_defacs ch None = (default_access_grp true ch, default_access_grp false ch) /\
  (da_auth acs = [] \/ parse_acs (da_auth acs) = None ->
     fst (new_grp_defacs ch (Some acs)) = default_access_grp true ch) /\
  (da_anon acs = [] \/ parse_acs (da_anon acs) = None ->
     snd (new_grp_defacs ch (Some acs)) = default_access_grp false ch).
Proof. intros ch acs. split; [exact (new_grp_absent ch)|exact (new_grp_field_keeps ch acs)]. Qed.
Print Assumptions c05_newgrp_not_supplied_keeps_default.

Theorem c05_newgrp_supplied_taken : forall ch acs ma mn,
  da_auth acs <> [] -> da_anon acs <> [] ->
  parse_acs (da_auth acs) = Some ma -> parse_acs (da_anon acs) = Some mn ->
  is_owner (N.land ma ModeBitmask) || is_owner (N.land mn ModeBitmask) = false ->
  new_grp_defacs ch (Some acs) = (N.land ma ModeBitmask, N.land mn ModeBitmask).
Proof.
  intros ch acs ma mn Ha Hn Pa Pn Ho. unfold new_grp_defacs. rewrite pta_spec.
  unfold pta_err, text_bad.
  destruct (da_anon acs) as [|c2 r2] eqn:En; [congruence|]. rewrite Pn.
  rewrite (field_spec_supplied _ _ _ ma Ha Pa).
  rewrite (field_spec_supplied _ _ (c2 :: r2) mn Hn Pn).
  rewrite Ho. reflexivity.
Qed.
Print Assumptions c05_newgrp_supplied_taken.

(* --- {acc user=new desc.defacs} --- *)
Theorem c05_acc_empty_keeps_default : forall acs,
  acc_defacs None = (acc_default_auth, acc_default_anon) /\
  (da_auth acs = [] -> fst (acc_defacs (Some acs)) = acc_default_auth) /\
  (da_anon acs = [] -> snd (acc_defacs (Some acs)) = acc_default_anon).
Proof. intros acs. split; [exact acc_absent|exact (acc_empty_keeps acs)]. Qed.
Print Assumptions c05_acc_empty_keeps_default.

Theorem c05_acc_rejected_anon_keeps_default : forall acs,
  parse_acs (da_anon acs) = None -> snd (acc_defacs (Some acs)) = acc_default_anon.
Proof.
  intros acs H. cbn [acc_defacs snd]. destruct (da_anon acs) as [|c r] eqn:E; [reflexivity|].
  rewrite acc_field_rejected; [reflexivity|discriminate|exact H].
Qed.
Print Assumptions c05_acc_rejected_anon_keeps_default.

(* FINDING (findings/C05.md #4): replyCreateUser ignores the error of UnmarshalText and sanitises the
   untouched default: a text that is not a mode text turns the default JRWPAS into JRWPA *)
Definition c05_acc_rejected_auth_keeps_statement : Prop := acc_rejected_auth_keeps_statement.
Theorem c05_acc_rejected_auth_keeps_refuted : ~ c05_acc_rejected_auth_keeps_statement.
Proof. intros H. specialize (H (mkDefacs [cJ; 33] []) eq_refl). vm_compute in H. discriminate H. Qed.
Print Assumptions c05_acc_rejected_auth_keeps_refuted.
Theorem c05_acc_rejected_auth_keeps_partial : forall acs,
  parse_acs (da_auth acs) = None ->
  fst (acc_defacs (Some acs)) = sanitize_p2p ModeCP2P acc_default_auth.
Proof.
  intros acs H. cbn [acc_defacs fst]. apply acc_field_rejected; [|exact H].
  intros E. rewrite E in H. discriminate H.
Qed.
Print Assumptions c05_acc_rejected_auth_keeps_partial.

Theorem c05_acc_supplied_sanitised : forall acs ma mn,
  da_auth acs <> [] -> da_anon acs <> [] ->
  parse_acs (da_auth acs) = Some ma -> parse_acs (da_anon acs) = Some mn ->
  acc_defacs (Some acs) =
    (sanitize_p2p ModeCP2P (N.land ma ModeBitmask), sanitize_p2p ModeCP2P (N.land mn ModeBitmask)).
Proof.
  intros acs ma mn Ha Hn Pa Pn. cbn [acc_defacs]. unfold acc_field.
  destruct (da_auth acs) as [|c1 r1] eqn:E1; [congruence|].
  destruct (da_anon acs) as [|c2 r2] eqn:E2; [congruence|].
  rewrite !unmarshal_nonempty, Pa, Pn. reflexivity.
Qed.
Print Assumptions c05_acc_supplied_sanitised.

(* --- {sub topic=usrX set.desc.defacs.auth} creating a p2p topic: the permissions given to the peer --- *)
Theorem c05_p2p_not_supplied_same_as_absent : forall u acs,
  da_auth acs = [] \/ parse_acs (da_auth acs) = None ->
  p2p_new_given u (Some acs) = p2p_new_given u None.
Proof.
  intros u acs H. unfold p2p_new_given. rewrite unmarshal_field.
  destruct H as [H|H]; [rewrite H; reflexivity|rewrite (field_spec_rejected _ _ _ H); reflexivity].
Qed.
Print Assumptions c05_p2p_not_supplied_same_as_absent.

Theorem c05_p2p_supplied_sanitised : forall u acs m,
  da_auth acs <> [] -> parse_acs (da_auth acs) = Some m ->
  p2p_new_given u (Some acs) = N.lor (N.land (N.land m ModeBitmask) ModeCP2P) ModeApprove.
Proof.
  intros u acs m Hs H. unfold p2p_new_given. rewrite unmarshal_field, (field_spec_supplied _ _ _ m Hs H). reflexivity.
Qed.
Print Assumptions c05_p2p_supplied_sanitised.

(* non-vacuity / the seeded shape: on 'me' holding JRWPAS/N, {defacs:{anon:"JRW"}} leaves auth alone
   and stores JRWA for anon; on a group topic the same text is stored as it is; "J!"+"JR" is the
   refutation witness; the account default after a bad auth text *)
Example c05_ex_me_anon_only :
  set_desc_defacs CatMe 63 0 (Some (mkDefacs [] [cJ; cR; cW])) = (200, (63, 23)).
Proof. reflexivity. Qed.
Example c05_ex_grp_anon_only :
  set_desc_defacs CatGrp 47 0 (Some (mkDefacs [] [cJ; cR; cW])) = (200, (47, 7)).
Proof. reflexivity. Qed.
Example c05_ex_me_unsanitised_kept :
  set_desc_defacs CatMe 111 0 (Some (mkDefacs [] [cN])) = (304, (111, 0)).
Proof. reflexivity. Qed.
Example c05_ex_junk_auth_hidden :
  set_desc_defacs CatGrp 47 0 (Some (mkDefacs [cJ; 33] [cJ; cR])) = (200, (47, 3)).
Proof. reflexivity. Qed.
Example c05_ex_acc_junk_auth : acc_defacs (Some (mkDefacs [cJ; 33] [])) = (31, 0) /\ acc_defacs None = (63, 0).
Proof. split; reflexivity. Qed.

(* --- the mode text of an EXISTING subscription: {set sub.mode} / {sub set.sub.mode} on a group or
   p2p topic (thisUserSub: the user's own want; anotherUserSub: the given set by an administrator /
   the p2p peer; replyOfflineTopicSetSub: own want from a session that is not attached).
   [ss_modes w g r] = the (want, given) the subscription holds after outcome r --- *)

(* an empty text changes neither want nor given (own want: for a subscription that has not banned
   itself; there the empty text means "default" by design, see c05_ex_unselfban) *)
Theorem c05_subtext_empty_no_change : forall cat af w g,
  (forall owner, is_joiner w = true ->
     ss_modes w g (this_user_sub_existing cat owner af w g []) = Some (w, g)) /\
  (forall hm ho to, ss_modes w g (another_user_sub_existing cat hm ho to w g []) = Some (w, g)) /\
  offline_set_sub cat w g [] = SsDone 304 w g.
Proof.
  intros cat af w g. split; [|split].
  - intros owner Hj. rewrite (this_empty_no_change cat owner af w g Hj). reflexivity.
  - intros hm ho to. rewrite (another_empty_no_change cat hm ho to w g). destruct (is_sharer hm); reflexivity.
  - exact (offline_sub_empty cat w g).
Qed.
Print Assumptions c05_subtext_empty_no_change.

(* text that is not a mode text is rejected with an error reply and nothing is written *)
Theorem c05_subtext_rejected_unchanged : forall cat af w g s, parse_acs s = None ->
  (forall owner, this_user_sub_existing cat owner af w g s = SsErr 400) /\
  (forall hm ho to, another_user_sub_existing cat hm ho to w g s = SsErr 400 \/
                    another_user_sub_existing cat hm ho to w g s = SsErr 403) /\
  offline_set_sub cat w g s = SsErr 500.
Proof.
  intros cat af w g s H. split; [|split].
  - intros owner. exact (this_rejected cat owner af w g s H).
  - intros hm ho to. rewrite (another_rejected cat hm ho to w g s H). destruct (is_sharer hm); [left|right]; reflexivity.
  - exact (offline_sub_rejected cat w g s H).
Qed.
Print Assumptions c05_subtext_rejected_unchanged.

(* the p2p sanitising (& ModeCP2P, +A) of the given applies to a supplied set (and by
   c05_subtext_empty_no_change to nothing else) *)
Theorem c05_subtext_p2p_supplied_sanitised : forall hm ho w g s m,
  s <> [] -> parse_acs s = Some m -> is_admin hm = true ->
  another_user_sub_existing SP2P hm ho false w g s =
    (let g' := N.lor (N.land (N.land m ModeBitmask) ModeCP2P) ModeApprove in
     if g' =? g then SsDone 304 w g else SsDone 200 w g').
Proof.
  intros hm ho w g s m Hs H Ha. destruct s as [|c r]; [congruence|].
  unfold another_user_sub_existing, unmarshal_err.
  rewrite (admin_sharer hm Ha). cbn [negb]. rewrite unmarshal_nonempty, H.
  cbv beta iota zeta. cbn [negb].
  rewrite p2p_sanitised_not_unset, p2p_sanitised_not_owner, Ha. cbn [negb andb].
  cbv zeta. destruct (_ =? g); reflexivity.
Qed.
Print Assumptions c05_subtext_p2p_supplied_sanitised.

Example c05_ex_sub_empty : this_user_sub_existing SP2P false 0 23 95 [] = SsDone 304 23 95.
Proof. reflexivity. Qed.
Example c05_ex_unselfban : this_user_sub_existing SGrp false 47 46 47 [] = SsDone 200 47 47.
Proof. reflexivity. Qed.
Example c05_ex_peer_given : another_user_sub_existing SP2P 31 false false 31 31 [cJ; cR; cW; cD] = SsDone 200 31 23.
Proof. reflexivity. Qed.
