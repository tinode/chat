(* C19: search finds only what the query and the tag rules allow. *)
From Coq Require Import NArith ZArith List Bool Permutation.
Require Import Tinode.Base.Util Tinode.Pure.Query Tinode.Pure.QuerySpec Tinode.Pure.QueryProofs.
Require Import Tinode.Pure.Tags Tinode.Pure.TagsProofs.
Require Import Tinode.Sys.TagState Tinode.Sys.TagStateProofs.
Require Import Tinode.Sys.FndSearchC19 Tinode.Sys.FndSearchC19Proofs.
Import ListNotations.

(* ---- the query parser (model of parseSearchQuery after the repair of
   findings/C19_query.diff) computes the documented reading of EVERY query
   string, for every lower-casing and tag-rewriting function: no bound on the
   length, non-ASCII runes included (positions are byte offsets). ---- *)
Theorem c19_parse_sound_complete : forall lower rewrite q r,
  parse lower rewrite q = Ok r <-> well_formed q /\ r = denote lower rewrite q.
Proof. exact parse_sound_complete. Qed.
Print Assumptions c19_parse_sound_complete.

(* malformed queries (unterminated quote, doubled comma, a quote glued to a
   word or to another quote) are rejected, and only those *)
Theorem c19_parse_err_iff : forall lower rewrite q,
  parse lower rewrite q = Err <-> ~ well_formed q.
Proof.
  intros lower rewrite q. rewrite parse_eq. unfold well_formed.
  destruct (well_formedb q); split; intros H; try discriminate; try congruence.
Qed.
Print Assumptions c19_parse_err_iff.

(* The parser as it is in /repo (Query.parse_unrepaired) does NOT satisfy the
   statement: witnesses, with identity lower-casing and rewriting. *)
Definition q_glued : list N := [34; 97; 34; 98; 32; 99]%N.          (* "a"b c *)
Definition q_quoted_second : list N := [97; 32; 34; 98; 34]%N.      (* a "b" *)

Definition parse_sound_statement_unrepaired : Prop :=
  forall lower rewrite q r, parse_unrepaired lower rewrite q = Ok r ->
    well_formed q /\ r = denote lower rewrite q.
Definition parse_complete_statement_unrepaired : Prop :=
  forall lower rewrite q, well_formed q ->
    parse_unrepaired lower rewrite q = Ok (denote lower rewrite q).

Theorem c19_unrepaired_sound_refuted : ~ parse_sound_statement_unrepaired.
Proof.
  intros H. destruct (parse_unrepaired (fun r => r) (fun s => s) q_glued) as [r|] eqn:E; [|vm_compute in E; discriminate].
  destruct (H _ _ _ _ E) as [W _]. vm_compute in W. discriminate.
Qed.
Print Assumptions c19_unrepaired_sound_refuted.

Theorem c19_unrepaired_complete_refuted : ~ parse_complete_statement_unrepaired.
Proof.
  intros H. specialize (H (fun r => r) (fun s => s) q_quoted_second eq_refl).
  vm_compute in H. discriminate.
Qed.
Print Assumptions c19_unrepaired_complete_refuted.

(* ---- stored tags are always normalised: for every input list (nil included),
   every maxTagCount, every unicode table whose lowering is idempotent and
   keeps non-space runes non-space (checked on all code points by the driver). ---- *)
Section C19Tags.
  Variable lower : N -> N.
  Variables is_letter is_digit is_number : N -> bool.
  Hypothesis lower_idem : forall r, lower (lower r) = lower r.
  Hypothesis lower_space : forall r, is_space (lower r) = is_space r.

  Theorem c19_norm_count : forall mx src,
    (length (content (normalize_tags lower is_letter is_digit mx src)) <= mx)%nat.
  Proof. exact (norm_count lower is_letter is_digit). Qed.

  Theorem c19_norm_nodup : forall mx src,
    NoDup (content (normalize_tags lower is_letter is_digit mx src)).
  Proof. exact (norm_nodup lower is_letter is_digit). Qed.

  (* trimmed, lower-cased, starting with a letter or digit, 2..96 runes *)
  Theorem c19_norm_each_tag_valid : forall mx src t,
    In t (content (normalize_tags lower is_letter is_digit mx src)) ->
    (2 <= length t <= 96)%nat /\ (is_letter (hd 0%N t) = true \/ is_digit (hd 0%N t) = true) /\
    map lower t = t /\ trim_space t = t.
  Proof. exact (norm_each_tag_valid lower is_letter is_digit lower_idem lower_space). Qed.

  Theorem c19_norm_idempotent : forall mx src,
    content (normalize_tags lower is_letter is_digit mx (normalize_tags lower is_letter is_digit mx src))
    = content (normalize_tags lower is_letter is_digit mx src).
  Proof. exact (norm_idempotent lower is_letter is_digit lower_idem lower_space). Qed.

  (* ---- reserved namespaces: an update accepted by restrictedTagsEqual keeps
     the reserved-namespace tags exactly (as a multiset), for every old list, new
     list and namespace configuration ---- *)
  Theorem c19_restricted_equal_sound : forall old new ns,
    restricted_tags_equal is_letter is_number old new ns = true ->
    Permutation (filter_restricted is_letter is_number old ns) (filter_restricted is_letter is_number new ns).
  Proof. exact (restricted_equal_sound is_letter is_number). Qed.

  Theorem c19_restricted_no_add_no_remove : forall old new ns,
    restricted_tags_equal is_letter is_number old new ns = true ->
    forall t, restricted is_letter is_number ns t = true ->
      (In t new <-> In t old) /\
      count_occ (list_eq_dec N.eq_dec) new t = count_occ (list_eq_dec N.eq_dec) old t.
  Proof.
    intros old new ns H t Ht. pose proof (restricted_equal_sound _ _ _ _ _ H) as P. split.
    - pose proof (Permutation_in t P) as A. pose proof (Permutation_in t (Permutation_sym P)) as B.
      rewrite !in_filter_restricted in A, B. tauto.
    - pose proof (proj1 (Permutation_count_occ (list_eq_dec N.eq_dec) _ _) P t) as C.
      rewrite !count_occ_filter_restricted in C by exact Ht. now symmetry.
  Qed.

  (* ---- masked namespaces: the fnd search is executed only if every search
     term of a masked namespace is one of the searcher's own tags ---- *)
  Theorem c19_masked_filter_sound : forall own terms masked,
    masked_gate is_letter is_number own terms masked = true ->
    forall t, In t terms -> restricted is_letter is_number masked t = true -> In t own.
  Proof. exact (masked_filter_sound is_letter is_number). Qed.
End C19Tags.
Print Assumptions c19_norm_count.
Print Assumptions c19_norm_nodup.
Print Assumptions c19_norm_each_tag_valid.
Print Assumptions c19_norm_idempotent.
Print Assumptions c19_restricted_equal_sound.
Print Assumptions c19_restricted_no_add_no_remove.
Print Assumptions c19_masked_filter_sound.

(* ---- the tag rules over HISTORIES (model Sys/TagState.v of replySetTags / replyGetTags on
   'me' and group topics, of the tags of a new group topic and of a new account, of unload /
   reload and of the server-side tag changes made for authenticators and validators):
   every configuration c = (reserved namespaces, maxTagCount), every world w (any number of
   tag holders, any rows, loaded or not), every sequence of requests rs. ---- *)
Section C19TagState.
  Variable lower : N -> N.
  Variables is_letter is_digit is_number : N -> bool.
  Hypothesis lower_idem : forall r, lower (lower r) = lower r.
  Hypothesis lower_space : forall r, is_space (lower r) = is_space r.

  Notation step := (TagState.step lower is_letter is_digit is_number).
  Notation run := (TagState.run lower is_letter is_digit is_number).
  Notation norm_list := (norm_list lower is_letter is_digit).
  Notation w_norm := (w_norm lower is_letter is_digit).
  Notation step_factored := (step_factored lower is_letter is_digit is_number).
  Notation step_invisible := (step_invisible lower is_letter is_digit is_number).
  Notation run_cons := (run_cons lower is_letter is_digit is_number).

  (* an accepted {set tags} writes exactly the normalised request to the row and to the loaded topic *)
  Theorem c19_accepted_update_stores_normalised : forall c w h who fail tags a b,
    snd (step c w (SetTags h who fail tags)) = RCtrl 200 a b ->
    exists hd', lookup h (fst (step c w (SetTags h who fail tags))) = Some hd' /\
                normalize_tags lower is_letter is_digit (c_max c) tags = Some (h_store hd') /\
                h_cache hd' = Some (h_store hd') /\ norm_list c (h_store hd').
  Proof.
    intros c w h who fail tags a b. destruct (step_factored c w (SetTags h who fail tags)) as [-> L].
    rewrite L. cbn [target on_holder on_absent]. rewrite N.eqb_refl.
    destruct (lookup h w) as [hd|]; [|discriminate].
    destruct (TagState.set_tags _ _ _ _ c hd who fail tags) as [hd' x] eqn:E. cbn [fst snd]. intros ->.
    exists hd'. split; [reflexivity|]. exact (set_tags_accepted _ _ _ _ lower_idem lower_space c _ _ _ _ _ _ _ E).
  Qed.

  (* what "normalised" says: de-duplicated, within the count limit, every tag trimmed, lower-cased,
     2..96 runes, starting with a letter or a digit *)
  Theorem c19_normalised_meaning : forall c l, norm_list c l ->
    NoDup l /\ (length l <= c_max c)%nat /\
    forall t, In t l -> (2 <= length t <= 96)%nat /\ (is_letter (hd 0%N t) = true \/ is_digit (hd 0%N t) = true) /\
                        map lower t = t /\ trim_space t = t.
  Proof.
    intros c l H. split; [exact (norm_list_nodup _ _ _ c l H)|]. destruct H as (_ & H1 & H2). split; [exact H1|exact H2].
  Qed.

  (* stored tags are ALWAYS normalised: every sequence of client tag requests (set / get / unload /
     new topic / new account) keeps every row normalised and every loaded topic equal to its row *)
  Theorem c19_rows_stay_normalised : forall c rs w,
    w_norm c w -> forallb tag_request rs = true -> w_norm c (fst (run c w rs)).
  Proof.
    intros c rs. induction rs as [|r rs IH]; intros w Hw Hr; [exact Hw|].
    cbn [forallb] in Hr. apply andb_prop in Hr as [H1 H2]. rewrite run_cons. cbn [fst].
    apply IH; [|exact H2]. exact (step_norm _ _ _ is_number lower_idem lower_space c w r Hw H1).
  Qed.

  Theorem c19_loaded_topic_holds_the_row : forall c w h hd c0,
    w_norm c w -> lookup h w = Some hd -> h_cache hd = Some c0 -> c0 = h_store hd.
  Proof. intros c w h hd c0 Hw Hl Hc. destruct (Hw _ _ Hl) as [_ [X|X]]; congruence. Qed.

  (* for ANY rows (normalised or not) and any requests, server-side ones included, the loaded topic
     holds a permutation of the row *)
  Theorem c19_loaded_topic_permutes_the_row : forall c rs w,
    w_coherent w -> w_coherent (fst (run c w rs)).
  Proof.
    intros c rs. induction rs as [|r rs IH]; intros w Hw; [exact Hw|].
    rewrite run_cons. cbn [fst]. apply IH. now apply step_coherent.
  Qed.

  (* clients can never add or remove a tag of a reserved namespace: through every sequence of client
     requests the reserved-namespace tags of every row stay the same multiset *)
  Theorem c19_reserved_tags_never_changed_by_clients : forall c rs w h hd,
    w_coherent w -> forallb (fun r => negb (is_srv r)) rs = true -> lookup h w = Some hd ->
    exists hd', lookup h (fst (run c w rs)) = Some hd' /\ h_kind hd' = h_kind hd /\ h_owner hd' = h_owner hd /\
                Permutation (filter_restricted is_letter is_number (h_store hd') (c_ns c))
                            (filter_restricted is_letter is_number (h_store hd) (c_ns c)).
  Proof.
    intros c rs. induction rs as [|r rs IH]; intros w h hd Hw Hs Hl.
    - exists hd. auto.
    - cbn [forallb] in Hs. apply andb_prop in Hs as [Hr Hs]. apply negb_true_iff in Hr.
      destruct (step_reserved_unchanged lower is_letter is_digit is_number c w r h hd Hw Hr Hl) as (hd1 & L1 & K1 & O1 & P1).
      destruct (IH _ h hd1 (step_coherent lower is_letter is_digit is_number c w r Hw) Hs L1) as (hd2 & L2 & K2 & O2 & P2).
      rewrite run_cons. cbn [fst]. exists hd2. repeat split; try congruence. now rewrite P2.
  Qed.

  (* a topic or account created by a client request carries no reserved-namespace tag chosen by the
     client: none at all for a topic, only the authenticator's own for an account *)
  Theorem c19_new_holder_has_no_client_reserved_tag : forall c w r h hd',
    lookup h w = None -> lookup h (fst (step c w r)) = Some hd' ->
    forall t, restricted is_letter is_number (c_ns c) t = true -> In t (h_store hd') ->
      match r with NewUser _ _ au => In t au | _ => False end.
  Proof.
    intros c w r h hd' Hn. rewrite (proj2 (step_factored c w r)).
    destruct (target r =? h) eqn:Ek; [apply N.eqb_eq in Ek; rewrite Ek, Hn|congruence].
    apply on_absent_reserved.
  Qed.

  (* a rejected request (403: reserved tags touched, or not the owner) changes nothing: rows, loaded
     topics, and the answers to every later sequence of requests are those of the history without it *)
  Theorem c19_rejected_request_invisible : forall c w r rs a b,
    snd (step c w r) = RCtrl 403 a b ->
    snd (run c w (r :: rs)) = RCtrl 403 a b :: snd (run c w rs) /\
    obs_eq (fst (run c w (r :: rs))) (fst (run c w rs)).
  Proof.
    intros c w r rs a b H. rewrite run_cons. cbn [fst snd]. rewrite H.
    assert (O : obs_eq (fst (step c w r)) w).
    { apply obs_eq_sym. revert H. rewrite (proj1 (step_factored c w r)). intros H. apply step_invisible.
      - intros hd E. rewrite E in H. exact (on_holder_rejected _ _ _ _ c r hd a b H).
      - intros E. rewrite E in H. apply (on_absent_unaccepted _ _ _ _ c r _ a b H); discriminate. }
    destruct (run_obs lower is_letter is_digit is_number c rs _ _ O) as [A B]. split; [now rewrite A|exact B].
  Qed.

  (* with normalised rows the same holds for every request that is not accepted (304 not modified,
     500 store failure, 204 no tags) *)
  Theorem c19_unaccepted_request_changes_nothing : forall c w r code a b,
    w_norm c w -> snd (step c w r) = RCtrl code a b -> code <> 200%N -> code <> 201%N ->
    obs_eq w (fst (step c w r)).
  Proof.
    intros c w r code a b Hw. rewrite (proj1 (step_factored c w r)). intros Ha N1 N2. apply step_invisible.
    - intros hd E. rewrite E in Ha. exact (on_holder_unaccepted _ _ _ _ c r hd code a b (Hw _ _ E) Ha N1 N2).
    - intros E. rewrite E in Ha. exact (on_absent_unaccepted _ _ _ _ c r code a b Ha N1 N2).
  Qed.

  Theorem c19_get_tags_changes_nothing : forall c w h who, obs_eq w (fst (step c w (GetTags h who))).
  Proof. intros c w h who. apply step_invisible; [intros hd _; exact (load_obs hd)|reflexivity]. Qed.

  (* answers depend only on the rows and on what the loaded topics hold (the VALUES of the lists) *)
  Theorem c19_answers_depend_on_visible_state : forall c rs w1 w2, obs_eq w1 w2 ->
    snd (run c w1 rs) = snd (run c w2 rs) /\ obs_eq (fst (run c w1 rs)) (fst (run c w2 rs)).
  Proof. exact (run_obs lower is_letter is_digit is_number). Qed.
End C19TagState.
Print Assumptions c19_accepted_update_stores_normalised.
Print Assumptions c19_normalised_meaning.
Print Assumptions c19_rows_stay_normalised.
Print Assumptions c19_loaded_topic_holds_the_row.
Print Assumptions c19_loaded_topic_permutes_the_row.
Print Assumptions c19_reserved_tags_never_changed_by_clients.
Print Assumptions c19_new_holder_has_no_client_reserved_tag.
Print Assumptions c19_rejected_request_invisible.
Print Assumptions c19_unaccepted_request_changes_nothing.
Print Assumptions c19_get_tags_changes_nothing.
Print Assumptions c19_answers_depend_on_visible_state.

(* non-vacuity: a query using every construct, identity lower-casing and rewriting *)
Example c19_ex_query :
  parse (fun r => r) (fun s => s) [97; 32; 34; 98; 32; 44; 34; 44; 99; 32; 233]%N   (* a "b ,",c e-acute *)
  = Ok ([[[97]]; [[233]]], [[98; 32; 44]; [99]])%N.
Proof. reflexivity. Qed.
Example c19_ex_wf : well_formed [97; 32; 34; 98; 32; 44; 34; 44; 99; 32; 233]%N.
Proof. reflexivity. Qed.
Example c19_ex_glued_rejected : parse (fun r => r) (fun s => s) q_glued = Err.
Proof. reflexivity. Qed.
Example c19_ex_quoted_second_accepted :
  parse (fun r => r) (fun s => s) q_quoted_second = Ok ([[[97]]; [[98]]], [])%N.
Proof. reflexivity. Qed.

(* the hypotheses on the unicode table are satisfiable (ASCII lowering), and the
   tag laws are not vacuous *)
Definition ascii_lower (r : N) : N := if ((65 <=? r) && (r <=? 90))%N then (r + 32)%N else r.
Definition ascii_letter (r : N) : bool := ((65 <=? r) && (r <=? 90) || (97 <=? r) && (r <=? 122))%N.
Definition ascii_digit (r : N) : bool := ((48 <=? r) && (r <=? 57))%N.
Example c19_ex_normalize :
  normalize_tags ascii_lower ascii_letter ascii_digit 16
    (Some [[32; 66; 111; 98]; [98; 111; 98; 9]; [120]; [45; 97; 98]; [97; 49]])%N    (* " Bob", "bob\t", "x", "-ab", "a1" *)
  = Some [[97; 49]; [98; 111; 98]]%N.
Proof. reflexivity. Qed.
Example c19_ex_restricted_rejected :
  restricted_tags_equal ascii_letter ascii_digit [[116; 101; 108; 58; 49]]%N [] [[116; 101; 108]]%N = false.  (* tel:1 removed *)
Proof. reflexivity. Qed.
Example c19_ex_masked_denied :
  masked_gate ascii_letter ascii_digit [[97; 98]]%N [[116; 101; 108; 58; 49]]%N [[116; 101; 108]]%N = false.
Proof. reflexivity. Qed.

(* a history through the stateful layer: account created with the authenticator's tag basic:alice,
   an ordinary tag replaced (accepted), the reserved tag replaced (rejected), read back *)
Definition s_alice : tag := [97; 108; 105; 99; 101]%N.
Definition s_bob : tag := [98; 111; 98]%N.
Definition s_basic : tag := [98; 97; 115; 105; 99]%N.
Definition s_basic_alice : tag := (s_basic ++ [58] ++ s_alice)%N.
Definition s_basic_bob : tag := (s_basic ++ [58] ++ s_bob)%N.
Example c19_ex_history :
  snd (TagState.run ascii_lower ascii_letter ascii_digit ascii_digit (mkCfg [s_basic] 16) []
         [NewUser 1 (Some [s_alice]) [s_basic_alice]; GetTags 1 1;
          SetTags 1 1 false (Some [s_bob; s_basic_alice]);
          SetTags 1 1 false (Some [s_bob; s_basic_bob]);
          SetTags 1 1 false (Some [s_bob; s_basic_alice; s_basic_alice]);
          GetTags 1 1]%N)
  = [RCtrl 201 0 0; RTags [s_alice; s_basic_alice]; RCtrl 200 1 1; RCtrl 403 0 0; RCtrl 304 0 0;
     RTags [s_basic_alice; s_bob]]%N.
Proof. reflexivity. Qed.
(* the hypotheses w_norm / w_coherent are satisfiable and reach non-empty worlds: the empty world,
   then topics and accounts created by requests *)
Example c19_ex_norm_world : w_norm ascii_lower ascii_letter ascii_digit (mkCfg [s_basic] 16) [].
Proof. intros h hd H. discriminate. Qed.
Example c19_ex_coherent_world : w_coherent [].
Proof. intros h hd H. discriminate. Qed.
Example c19_ex_new_topic :
  TagState.run ascii_lower ascii_letter ascii_digit ascii_digit (mkCfg [s_basic] 16) []
    [NewGrp 7 1 (Some [s_bob; s_alice]); NewGrp 8 1 (Some [s_basic_bob]); SetTags 7 2 false (Some [s_bob])]%N
  = ([(7, mkH KGrp 1 [s_alice; s_bob] (Some [s_alice; s_bob])); (7, mkH KGrp 1 [s_alice; s_bob] (Some [s_alice; s_bob]))],
     [RCtrl 200 0 0; RCtrl 403 0 0; RCtrl 403 0 0])%N.
Proof. reflexivity. Qed.

(* ---- the SEARCH layer (model Sys/FndSearchC19.v of rewriteTag and of the 'fnd' topic: the
   {set desc} that stores the query, the fnd branch of replyGetSub, store.Users.FindSubs above the
   store contract of FindUsers / FindTopics).  Every unicode table, every list of validators'
   PreCheck functions [vals] and authenticators' AsTag functions [auths] (in the order in which
   rewriteTag visits them), every configuration c = (masked namespaces, the user's own tags, the
   candidate rows), every topic state t, every session s (ANY auth level - sess.authLvl is an int:
   LevelNone 0, LevelAnon 10, LevelAuth 20, LevelRoot 30 or any other number -, any country code),
   every query, every request sequence.  [s_root s] abbreviates [s_lvl s =? level_root_c19], so
   [s_root s = false] covers every level other than root. ---- *)
Section C19Search.
  Variable lower : N -> N.
  Variables is_letter is_number : N -> bool.
  Variable vals : list (tag -> tag -> tag).
  Variable auths : list (tag -> tag).

  Notation rewrite_tag := (rewrite_tag_c19 is_letter is_number vals auths).
  Notation get_sub := (get_sub_c19 lower is_letter is_number vals auths).
  Notation run := (run_c19 lower is_letter is_number vals auths).

  (* (a) masked namespaces: store.Users.FindSubs is called only if every term of BOTH sets - the
     required (AND) groups and the optional (comma / OR) list - that lies in a masked namespace is
     one of the tags the topic holds for the user ... *)
  Theorem c19_search_masked_terms_are_own : forall c t s r k,
    get_sub c t s = (r, Some k) ->
    forall x, In x (concat (k_req k) ++ k_opt k) -> restricted is_letter is_number (fc_masked c) x = true ->
      In x (f_tags t).
  Proof.
    intros c t s r k H x Hx Hr. destruct (get_sub_call_c19 _ _ _ _ _ _ _ _ _ _ H) as (q & wl & _ & _ & G & _).
    exact (masked_filter_sound _ _ _ _ _ G x Hx Hr).
  Qed.

  (* ... otherwise the answer is 403 and the store is not called: ONE foreign masked term anywhere
     in the reading of the query, required or optional, is enough *)
  Theorem c19_search_foreign_masked_term_refused : forall c t s q wl req opt x,
    active_query_c19 t s = Some (q, wl) ->
    parse lower (rewrite_tag (s_cc s) wl) q = Ok (req, opt) ->
    In x (concat req ++ opt) -> restricted is_letter is_number (fc_masked c) x = true -> ~ In x (f_tags t) ->
    get_sub c t s = (FCtrl 403, None).
  Proof.
    intros c t s q wl req opt x A P Hx Hr Hn. unfold get_sub_c19, parse_query_c19. rewrite A.
    destruct q as [|r0 q]; cbn [is_nil].
    { apply parse_sound_complete in P as [_ P]. vm_compute in P. inversion P; subst. destruct Hx. }
    rewrite P. destruct (is_nil req && is_nil opt) eqn:E.
    { destruct req, opt; try discriminate. destruct Hx. }
    destruct (masked_gate _ _ _ _ _) eqn:G; [|reflexivity].
    destruct Hn. exact (masked_filter_sound _ _ _ _ _ G x Hx Hr).
  Qed.

  (* over histories: the topic's tag list never holds anything but tags of the user's row (it is
     empty after initTopicFnd), so through every sequence of requests every masked-namespace term
     that reaches the store is one of the user's own stored tags *)
  Theorem c19_search_history_masked_terms_are_own : forall c rs t,
    incl (f_tags t) (fc_own c) ->
    Forall (fun a => match snd a with
                     | Some k => forall x, In x (concat (k_req k) ++ k_opt k) ->
                                   restricted is_letter is_number (fc_masked c) x = true -> In x (fc_own c)
                     | None => True
                     end) (snd (run c t rs)).
  Proof.
    intros c rs t H. apply (Forall2_right_c19 _ rs).
    apply (run_inv_c19 lower is_letter is_number vals auths c (fun t => incl (f_tags t) (fc_own c))); [|exact H].
    clear t H. intros t r H. split; [now apply step_tags_own_c19|].
    destruct r as [s pub priv|s| |]; cbn [step_c19 snd]; try exact I.
    - destruct (set_desc_c19 t s pub priv). exact I.
    - destruct (get_sub c t s) as [a [k|]] eqn:E; cbn [snd]; [|exact I].
      intros x Hx Hr. exact (H x (c19_search_masked_terms_are_own c t s a k E x Hx Hr)).
  Qed.

  (* (b) what is handed to the store is the documented reading (QuerySpec.denote: comma = OR,
     white space = AND, quoted terms literal) of the query that is active for the session - its
     public query, else the stored private one - with every term spelled as itself and, when
     rewriteTag changes it, its rewritten form; login rewriting exactly for the public query *)
  Theorem c19_search_terms_are_documented_reading : forall c t s r k,
    get_sub c t s = (r, Some k) ->
    exists q wl, active_query_c19 t s = Some (q, wl) /\ well_formed q /\
                 (k_req k, k_opt k) = denote lower (rewrite_tag (s_cc s) wl) q.
  Proof.
    intros c t s r k H. destruct (get_sub_call_c19 _ _ _ _ _ _ _ _ _ _ H) as (q & wl & A & P & _).
    exists q, wl. apply parse_sound_complete in P as [W P]. auto.
  Qed.

  (* the precedence of rewriteTag, for ALL strings: a term that already has a prefix is left alone; *)
  Theorem c19_rewrite_prefixed_left_alone : forall cc wl orig,
    prefixed is_letter is_number orig = true -> rewrite_tag cc wl orig = orig.
  Proof. intros cc wl orig H. unfold rewrite_tag_c19. now rewrite H. Qed.

  (* else the first validator (e-mail, phone) that indexes it decides - whatever the authenticators
     would make of the same string (a phone number made of digits is also a well-formed login); *)
  Theorem c19_rewrite_validators_first : forall cc wl orig vs1 v vs2,
    vals = vs1 ++ v :: vs2 -> prefixed is_letter is_number orig = false ->
    (forall u, In u vs1 -> u cc orig = []) -> v cc orig <> [] ->
    rewrite_tag cc wl orig = v cc orig.
  Proof.
    intros cc wl orig vs1 v vs2 Hv Hp H1 Hn. unfold rewrite_tag_c19. rewrite Hp, Hv, map_app. cbn [map].
    rewrite first_rewrite_split_c19; [destruct (v cc orig); [congruence|reflexivity]| |exact Hn].
    intros g Hg. apply in_map_iff in Hg as [u [<- Hu]]. auto.
  Qed.

  (* else, with login rewriting, the first authenticator that answers; *)
  Theorem c19_rewrite_logins_second : forall cc orig as1 a as2,
    auths = as1 ++ a :: as2 -> prefixed is_letter is_number orig = false ->
    (forall u, In u vals -> u cc orig = []) ->
    (forall b, In b as1 -> b orig = []) -> a orig <> [] ->
    rewrite_tag cc true orig = a orig.
  Proof.
    intros cc orig as1 a as2 Ha Hp Hv H1 Hn. unfold rewrite_tag_c19.
    rewrite Hp, (vals_silent_c19 _ _ _ Hv), Ha, (first_rewrite_split_c19 as1 a as2 orig H1 Hn).
    destruct (a orig); [congruence|reflexivity].
  Qed.

  (* else the term itself when it is a valid tag, and nothing (the term is dropped) when not *)
  Theorem c19_rewrite_plain_or_dropped : forall cc wl orig,
    prefixed is_letter is_number orig = false -> (forall u, In u vals -> u cc orig = []) ->
    (wl = true -> forall a, In a auths -> a orig = []) ->
    rewrite_tag cc wl orig = if tag_ok is_letter is_number orig then orig else [].
  Proof.
    intros cc wl orig Hp Hv Ha. unfold rewrite_tag_c19. rewrite Hp, (vals_silent_c19 _ _ _ Hv).
    destruct wl; [|reflexivity]. now rewrite (proj2 (first_rewrite_nil_c19 auths orig) (Ha eq_refl)).
  Qed.

  (* malformed queries never reach the store *)
  Theorem c19_search_malformed_query_rejected : forall c t s q wl,
    active_query_c19 t s = Some (q, wl) -> q <> [] -> ~ well_formed q ->
    get_sub c t s = (FCtrl 400, None).
  Proof.
    intros c t s q wl A Hq W. unfold get_sub_c19, parse_query_c19. rewrite A.
    destruct q; [congruence|]. cbn [is_nil].
    apply (c19_parse_err_iff lower (rewrite_tag (s_cc s) wl)) in W. now rewrite W.
  Qed.

  (* (c) a session that is not root always passes activeOnly, in every history ... *)
  Theorem c19_search_nonroot_passes_active_only : forall c t s r k,
    get_sub c t s = (r, Some k) -> s_root s = false -> k_active k = true.
  Proof.
    intros c t s r k H R. destruct (get_sub_call_c19 _ _ _ _ _ _ _ _ _ _ H) as (q & wl & _ & _ & _ & A & _).
    now rewrite A, R.
  Qed.

  Theorem c19_search_history_nonroot_active_only : forall c rs t,
    Forall2 (fun r a => match r, snd a with
                        | FGetSub s, Some k => s_root s = false -> k_active k = true
                        | _, _ => True
                        end) rs (snd (run c t rs)).
  Proof.
    intros c rs t. apply (run_inv_c19 lower is_letter is_number vals auths c (fun _ => True)); [|exact I].
    clear t. intros t r _. split; [exact I|]. destruct r as [s pub priv|s| |]; try exact I.
    cbn [step_c19 snd]. destruct (get_sub c t s) as [a [k|]] eqn:G; cbn [snd]; [|exact I].
    exact (c19_search_nonroot_passes_active_only c t s a k G).
  Qed.

  (* ... and is shown only rows that exist, carry a tag of the query and one of every required
     group, and - for a session that is not root - are active (neither suspended nor deleted) *)
  Theorem c19_search_results_allowed : forall c t s ids k,
    get_sub c t s = (FMeta ids, Some k) ->
    forall i, In i ids -> exists x, In x (fc_world c) /\ cd_id x = i /\
      cand_matches_c19 (k_req k) (k_opt k) x = true /\ (s_root s = false -> cd_ok x = true).
  Proof.
    intros c t s ids k H i Hi. destruct (get_sub_call_c19 _ _ _ _ _ _ _ _ _ _ H) as (q & wl & _ & _ & _ & A & R).
    destruct (find_subs_c19 (fc_self c) (k_req k) (k_opt k) (k_active k) (fc_world c)) as [|y l] eqn:E;
      [discriminate|]. assert (ids = map cd_id (y :: l)) as -> by (inversion R; reflexivity). rewrite <- E in Hi.
    apply in_map_iff in Hi as [x [<- Hx]]. apply find_subs_in_c19 in Hx as (Hw & Hm & Ha & _).
    exists x. repeat split; auto. intros Rt. apply Ha. now rewrite A, Rt.
  Qed.
  (* (c) restated over the LEVEL itself.  'Ordinary users' are the sessions whose sess.authLvl is
     not LevelRoot - anonymous-scheme logins (LevelAnon), session objects that were never given a
     level (LevelNone: the proxied session on a cluster master), fully authenticated users and any
     other value of the int: activeOnly = true is handed to the store EXACTLY for them ... *)
  Theorem c19_search_active_only_iff_level_not_root : forall c t s r k,
    get_sub c t s = (r, Some k) -> (k_active k = true <-> s_lvl s <> level_root_c19).
  Proof.
    intros c t s r k H. destruct (get_sub_call_c19 _ _ _ _ _ _ _ _ _ _ H) as (q & wl & _ & _ & _ & -> & _).
    rewrite <- s_root_false_iff_c19. now destruct (s_root s).
  Qed.

  Theorem c19_search_every_nonroot_level_passes_active_only : forall c t s r k,
    get_sub c t s = (r, Some k) -> s_lvl s <> level_root_c19 -> k_active k = true.
  Proof. intros c t s r k H. apply (c19_search_active_only_iff_level_not_root c t s r k H). Qed.

  (* the named levels, spelled out *)
  Theorem c19_search_none_anon_auth_pass_active_only : forall c t s r k,
    get_sub c t s = (r, Some k) ->
    s_lvl s = level_none_c19 \/ s_lvl s = level_anon_c19 \/ s_lvl s = level_auth_c19 -> k_active k = true.
  Proof.
    intros c t s r k H L. apply (c19_search_every_nonroot_level_passes_active_only c t s r k H).
    destruct L as [-> | [-> | ->]]; discriminate.
  Qed.

  (* ... every row they are shown is an existing, matching, active row ... *)
  Theorem c19_search_every_nonroot_level_shown_active_rows_only : forall c t s ids k,
    get_sub c t s = (FMeta ids, Some k) -> s_lvl s <> level_root_c19 ->
    forall i, In i ids -> exists x, In x (fc_world c) /\ cd_id x = i /\
      cand_matches_c19 (k_req k) (k_opt k) x = true /\ cd_ok x = true.
  Proof.
    intros c t s ids k H L i Hi. destruct (c19_search_results_allowed c t s ids k H i Hi) as (x & Hw & He & Hm & Ha).
    exists x. repeat split; auto. now apply Ha, s_root_false_iff_c19.
  Qed.

  (* ... and, rows having distinct ids, NO suspended or deleted account / topic is among them *)
  Theorem c19_search_nonroot_level_never_shown_inactive : forall c t s ids k,
    NoDup (map cd_id (fc_world c)) ->
    get_sub c t s = (FMeta ids, Some k) -> s_lvl s <> level_root_c19 ->
    forall x, In x (fc_world c) -> cd_ok x = false -> ~ In (cd_id x) ids.
  Proof.
    intros c t s ids k N H L x Hx Hok Hi.
    destruct (c19_search_every_nonroot_level_shown_active_rows_only c t s ids k H L _ Hi) as (y & Hy & E & _ & Ok).
    rewrite (nodup_map_inj_c19 cd_id _ y x N Hy Hx E) in Ok. congruence.
  Qed.

  (* over histories: both facts after every request sequence *)
  Theorem c19_search_history_every_nonroot_level_active_only : forall c rs t,
    Forall2 (fun r a => match r, a with
                        | FGetSub s, (resp, Some k) =>
                          s_lvl s <> level_root_c19 ->
                          k_active k = true /\
                          match resp with
                          | FMeta ids => forall i, In i ids ->
                                           exists x, In x (fc_world c) /\ cd_id x = i /\ cd_ok x = true
                          | _ => True
                          end
                        | _, _ => True
                        end) rs (snd (run c t rs)).
  Proof.
    intros c rs t. apply (run_inv_c19 lower is_letter is_number vals auths c (fun _ => True)); [|exact I].
    clear t. intros t r _. split; [exact I|]. destruct r as [s pub priv|s| |]; try exact I.
    cbn [step_c19 snd]. destruct (get_sub c t s) as [resp [k|]] eqn:G; [|exact I].
    intros L. split; [exact (c19_search_every_nonroot_level_passes_active_only c t s resp k G L)|].
    destruct resp as [code|ids|]; try exact I. intros i Hi.
    destruct (c19_search_every_nonroot_level_shown_active_rows_only c t s ids k G L i Hi) as (x & Hw & He & _ & Ok).
    exists x. auto.
  Qed.

  (* the level matters in NO other way: sessions that differ only in their levels, none of them
     root, get the same replies and make the same store calls through every history (what an
     anonymous or level-less session is shown is what a fully authenticated one is shown) *)
  Theorem c19_search_nonroot_levels_indistinguishable : forall c t s1 s2,
    s_id s1 = s_id s2 -> s_cc s1 = s_cc s2 -> s_lvl s1 <> level_root_c19 -> s_lvl s2 <> level_root_c19 ->
    get_sub c t s1 = get_sub c t s2.
  Proof.
    intros c t s1 s2 Hi Hc L1 L2.
    apply get_sub_level_irrelevant_c19. repeat split; assumption.
  Qed.

  Theorem c19_search_history_nonroot_levels_indistinguishable : forall c rs1 rs2 t,
    Forall2 (fun r1 r2 => match r1, r2 with
                          | FSetDesc s1 p1 v1, FSetDesc s2 p2 v2 => s_id s1 = s_id s2 /\ p1 = p2 /\ v1 = v2
                          | FGetSub s1, FGetSub s2 =>
                            s_id s1 = s_id s2 /\ s_cc s1 = s_cc s2 /\
                            s_lvl s1 <> level_root_c19 /\ s_lvl s2 <> level_root_c19
                          | FUnload, FUnload => True
                          | FUserTags, FUserTags => True
                          | _, _ => False
                          end) rs1 rs2 ->
    run c t rs1 = run c t rs2.
  Proof.
    intros c rs1 rs2 t F. revert t. induction F as [|r1 r2 rs1 rs2 Hr _ IH]; intros t; [reflexivity|].
    cbn [run_c19]. rewrite (step_level_irrelevant_c19 lower is_letter is_number vals auths c t r1 r2 Hr).
    destruct (step_c19 _ _ _ _ _ c t r2) as [t1 a]. now rewrite IH.
  Qed.
End C19Search.
Print Assumptions c19_search_masked_terms_are_own.
Print Assumptions c19_search_foreign_masked_term_refused.
Print Assumptions c19_search_history_masked_terms_are_own.
Print Assumptions c19_search_terms_are_documented_reading.
Print Assumptions c19_rewrite_prefixed_left_alone.
Print Assumptions c19_rewrite_validators_first.
Print Assumptions c19_rewrite_logins_second.
Print Assumptions c19_rewrite_plain_or_dropped.
Print Assumptions c19_search_malformed_query_rejected.
Print Assumptions c19_search_nonroot_passes_active_only.
Print Assumptions c19_search_history_nonroot_active_only.
Print Assumptions c19_search_results_allowed.
Print Assumptions c19_search_active_only_iff_level_not_root.
Print Assumptions c19_search_every_nonroot_level_passes_active_only.
Print Assumptions c19_search_none_anon_auth_pass_active_only.
Print Assumptions c19_search_every_nonroot_level_shown_active_rows_only.
Print Assumptions c19_search_nonroot_level_never_shown_inactive.
Print Assumptions c19_search_history_every_nonroot_level_active_only.
Print Assumptions c19_search_nonroot_levels_indistinguishable.
Print Assumptions c19_search_history_nonroot_levels_indistinguishable.

(* non-vacuity of the search layer: toy rewriters that OVERLAP on digit strings, as the phone
   validator and the login authenticator do *)
Definition x_digits (s : tag) : bool := negb (is_nil s) && forallb ascii_digit s.
Definition x_tel (cc s : tag) : tag := if x_digits s then [116; 101; 108; 58; 43]%N ++ cc ++ s else [].   (* tel:+<cc><s> *)
Definition x_login (s : tag) : tag :=
  if negb (is_nil s) && forallb (fun r => ascii_letter r || ascii_digit r) s
  then [98; 97; 115; 105; 99; 58]%N ++ s else [].                                                    (* basic:<s> *)
Definition x_rewrite := rewrite_tag_c19 ascii_letter ascii_digit [x_tel] [x_login].
(* 650 with country code 1 and login rewriting on: the validator wins -> tel:+1650 *)
Example c19_ex_rewrite_phone : x_rewrite [49]%N true [54; 53; 48]%N = [116; 101; 108; 58; 43; 49; 54; 53; 48]%N.
Proof. reflexivity. Qed.
(* bob -> basic:bob with login rewriting, bob without *)
Example c19_ex_rewrite_login : x_rewrite [49]%N true s_bob = s_basic_bob /\ x_rewrite [49]%N false s_bob = s_bob.
Proof. split; reflexivity. Qed.

Definition s_org : tag := [111; 114; 103]%N.
Definition s_org_acme : tag := (s_org ++ [58; 97; 99; 109; 101])%N.          (* org:acme *)
Definition s_org_rival : tag := (s_org ++ [58; 114; 105; 118; 97; 108])%N.   (* org:rival *)
Definition s_travel : tag := [116; 114; 97; 118; 101; 108]%N.
Definition x_sess : sess_c19 := mkSessC19 1 level_auth_c19 [49]%N.
Definition x_root : sess_c19 := mkSessC19 2 level_root_c19 [49]%N.
Definition x_anon : sess_c19 := mkSessC19 1 level_anon_c19 [49]%N.      (* anonymous-scheme login *)
Definition x_none : sess_c19 := mkSessC19 1 level_none_c19 [49]%N.      (* a session without a level *)
Definition x_junk : sess_c19 := mkSessC19 1 31 [49]%N.                  (* not a level at all *)
Definition x_cfg : fcfg_c19 :=
  mkFcfgC19 [s_org] [s_org_acme; s_travel] 0
    [mkCandC19 0 true true [s_org_acme; s_travel];          (* the searcher *)
     mkCandC19 1 true true [s_travel];
     mkCandC19 2 true false [s_travel];                     (* suspended account *)
     mkCandC19 3 false true [s_org_rival];
     mkCandC19 4 false false [s_travel; s_org_acme]]%N.     (* deleted topic *)
Definition x_run := run_c19 ascii_lower ascii_letter ascii_digit [x_tel] [x_login] x_cfg.
(* the private query "travel,org:rival": the foreign masked tag in the OPTIONAL list is refused;
   "travel": the ordinary session finds account 1 only, the root session also 2 and 4;
   "travel,org:acme": refused as long as the fnd topic holds no tags (initTopicFnd), executed once
   it holds the user's tags *)
Example c19_ex_search_history :
  snd (x_run (load_c19 None)
         [FSetDesc x_sess None (Some (s_travel ++ [44] ++ s_org_rival)); FGetSub x_sess;
          FSetDesc x_sess None (Some s_travel); FGetSub x_sess; FGetSub x_root;
          FSetDesc x_sess None (Some (s_travel ++ [44] ++ s_org_acme)); FGetSub x_sess;
          FUserTags; FGetSub x_sess]%N)
  = [(FCtrl 200, None); (FCtrl 403, None);
     (FCtrl 200, None); (FMeta [1], Some (mkCallC19 [[s_travel]] [] true)); (FMeta [1; 2; 4], Some (mkCallC19 [[s_travel]] [] false));
     (FCtrl 200, None); (FCtrl 403, None);
     (FNone, None); (FMeta [1], Some (mkCallC19 [] [s_travel; s_org_acme] true))]%N.
Proof. reflexivity. Qed.

(* every level other than root: the anonymous, the level-less and the junk-level session find
   account 1 only, with activeOnly; the root session also the suspended account 2 and the deleted
   topic 4 *)
Example c19_ex_search_levels :
  snd (x_run (load_c19 None)
         [FSetDesc x_sess None (Some s_travel); FGetSub x_anon; FGetSub x_none; FGetSub x_junk; FGetSub x_root]%N)
  = [(FCtrl 200, None); (FMeta [1], Some (mkCallC19 [[s_travel]] [] true));
     (FMeta [1], Some (mkCallC19 [[s_travel]] [] true)); (FMeta [1], Some (mkCallC19 [[s_travel]] [] true));
     (FMeta [1; 2; 4], Some (mkCallC19 [[s_travel]] [] false))]%N.
Proof. reflexivity. Qed.
Example c19_ex_world_ids_distinct : NoDup (map cd_id (fc_world x_cfg)).
Proof. repeat constructor; cbn; intuition discriminate. Qed.
