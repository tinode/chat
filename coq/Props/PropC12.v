(* C12  Secrets cannot be forged, outlive their validity, or be guessed by brute force.
   The lemmas the theorems rest on are in Pure/TokenProofs.v, Pure/CodeProofs.v,
   Pure/SecretsProofs.v and Sys/ReloginProofs.v.

   The keyed hashes (HMAC-SHA256 for tokens, HMAC-MD5 for API keys), bcrypt
   verification, strings.ToLower and the login/password policies are universally
   quantified functions ([mac], [cmp], [lower], ...): every theorem holds for
   every such function; where the code relies on a property of it (output
   length of the MAC, idempotence of lower-casing) the property is an explicit
   premise.  What the theorems do NOT say: that producing a valid pair
   (data, mac key data) without the key is hard.  [c12_token_mutation_is_forgery]
   and [c12_apikey_sound] reduce every acceptance of a non-issued secret to
   such a pair; the hardness of finding one (HMAC security) is part of the
   trusted base. *)
From Coq Require Import NArith ZArith List Bool.
From Tinode Require Import Base.Base64Lite Pure.Token Pure.TokenProofs Pure.Code Pure.CodeProofs
  Pure.ApiKey Pure.Basic Pure.SecretsProofs Sys.Relogin Sys.ReloginProofs.
Import ListNotations.
Open Scope N_scope.

(* ------------------------------ tokens ------------------------------ *)

(* an accepted token is at least 50 bytes, its bytes 18..50 are the MAC of its
   first 18 bytes under the server key, those bytes are the encoding of the
   fields read, the serial is the configured one, it has not expired at [now]
   (with the one second of slack of the source), the level is in range, and the
   result is exactly (uid, level, features) of the signed fields *)
Theorem c12_token_accept_sound :
  forall (mac : list N -> list N -> list N) key sn now tok r,
  is_bytes tok ->
  authenticate mac key sn now tok = TOk r ->
  let f := decode_fields (tok_data tok) in
  (50 <= length tok)%nat /\
  tok_sig tok = mac key (tok_data tok) /\
  encode_fields f = tok_data tok /\
  f_level f <= 30 /\
  Z.of_N (f_serial f) = sn /\
  (now + second <= Z.of_N (f_expires f) * second)%Z /\
  r = mkR (f_uid f) (f_level f) (f_features f).
Proof. exact accept_sound. Qed.
Print Assumptions c12_token_accept_sound.

(* an issued token authenticates, until its expiry field, as exactly the record it was issued for *)
Theorem c12_token_roundtrip :
  forall (mac : list N -> list N -> list N) key sn deflt now0 g tok exp now,
  (forall k d, length (mac k d) = 32%nat) ->
  (0 <= sn < 65536)%Z -> (0 <= g_level g <= 30)%Z -> g_uid g < 2 ^ 64 -> g_features g < 2 ^ 16 ->
  gen_secret mac key sn deflt now0 g = Some (tok, exp) ->
  (now + second <= expiry_field exp * second)%Z ->
  authenticate mac key sn now tok = TOk (mkR (g_uid g) (Z.to_N (g_level g)) (g_features g)).
Proof. exact roundtrip. Qed.
Print Assumptions c12_token_roundtrip.

(* whatever the signer issued ([issued] = any set of (data, signature) pairs):
   if the first 50 bytes of an accepted token are not one of them, the token
   exhibits a valid (data, MAC) pair the signer never produced - a MAC forgery.
   Covers every single- and multi-bit mutation and every re-assembly. *)
Theorem c12_token_mutation_is_forgery :
  forall (mac : list N -> list N -> list N) key sn now (issued : list (list N * list N)) tok' r,
  is_bytes tok' ->
  ~ In (firstn 50 tok') (map (fun p => fst p ++ snd p) issued) ->
  authenticate mac key sn now tok' = TOk r ->
  mac key (tok_data tok') = tok_sig tok' /\ ~ In (tok_data tok', tok_sig tok') issued.
Proof. exact mutation_is_forgery. Qed.
Print Assumptions c12_token_mutation_is_forgery.

Theorem c12_token_truncated_refused :
  forall (mac : list N -> list N -> list N) key sn now tok,
  (length tok < 50)%nat -> authenticate mac key sn now tok = TErr TMalformed.
Proof. exact truncated_refused. Qed.
Print Assumptions c12_token_truncated_refused.

Theorem c12_token_foreign_key_refused :
  forall (mac : list N -> list N -> list N) key key' sn now f,
  length (mac key' (encode_fields f)) = 32%nat ->
  mac key' (encode_fields f) <> mac key (encode_fields f) ->
  authenticate mac key sn now (encode_fields f ++ mac key' (encode_fields f)) = TErr TFailed.
Proof. exact foreign_key_refused. Qed.
Print Assumptions c12_token_foreign_key_refused.

Theorem c12_token_expired_refused :
  forall (mac : list N -> list N -> list N) key sn now tok r,
  (Z.of_N (f_expires (decode_fields (tok_data tok))) * second < now + second)%Z ->
  authenticate mac key sn now tok <> TOk r.
Proof. exact expired_refused. Qed.
Print Assumptions c12_token_expired_refused.

(* accepted at [now] -> now is before the instant asked for at issue: neither
   the uint32 wrap of the expiry second (lifetimes reaching beyond 2106), nor
   the int64 wrap of expire_in * 1e9, nor the millisecond rounding can produce
   a LATER validity than requested (they can only shorten it: fail-safe) *)
Theorem c12_token_never_outlives :
  forall (mac : list N -> list N -> list N) key sn sn' expire_in now0 g tok exp now r,
  (0 <= now0)%Z -> (0 < expire_in)%Z ->
  gen_secret mac key sn (default_lifetime expire_in) now0 g = Some (tok, exp) ->
  authenticate mac key sn' now tok = TOk r ->
  (now < now0 + requested_lifetime expire_in g)%Z.
Proof. exact never_outlives. Qed.
Print Assumptions c12_token_never_outlives.

(* wrong serial: the serial travels as uint16, the configuration holds an int *)
Definition c12_token_wrong_serial_statement : Prop :=
  forall (mac : list N -> list N -> list N), (forall k d, length (mac k d) = 32%nat) ->
  forall key sn sn' exp g now r, sn' <> sn ->
  authenticate mac key sn' now (issue_at mac key sn exp g) <> TOk r.

(* FINDING (findings/C12.md, token-serial-alias): a server configured with serial 5
   accepts the tokens issued under serial 65541 *)
Theorem c12_token_wrong_serial_refuted : ~ c12_token_wrong_serial_statement.
Proof.
  intros H.
  set (mac := fun (_ _ : list N) => repeat 0 32).
  assert (L : forall k d, length (mac k d) = 32%nat) by reflexivity.
  set (g := mkG 1 20 0 0).
  apply (H mac L [] 65541%Z 5%Z 3600000000000%Z g 0%Z (mkR 1 20 0)); [discriminate|].
  rewrite serial_alias. change (65541 mod 65536)%Z with 5%Z.
  rewrite issued_authenticate by apply L. reflexivity.
Qed.
Print Assumptions c12_token_wrong_serial_refuted.

(* ... and that is the only way: refused unless the serials agree modulo 65536;
   in particular always refused when the issuing serial is within uint16 *)
Theorem c12_token_wrong_serial_partial :
  forall (mac : list N -> list N -> list N) key sn sn' exp g now r,
  (forall k d, length (mac k d) = 32%nat) ->
  sn' <> (sn mod 65536)%Z ->
  authenticate mac key sn' now (issue_at mac key sn exp g) <> TOk r.
Proof. exact issued_wrong_serial_refused. Qed.
Print Assumptions c12_token_wrong_serial_partial.

(* a server whose configured serial is outside 0..65535 refuses every token, its own included *)
Theorem c12_token_serial_out_of_range_refuses_all :
  forall (mac : list N -> list N -> list N) key sn now tok r,
  is_bytes tok -> ~ (0 <= sn < 65536)%Z -> authenticate mac key sn now tok <> TOk r.
Proof. exact serial_out_of_range_refuses_all. Qed.
Print Assumptions c12_token_serial_out_of_range_refuses_all.

(* ------------------------------ API keys ------------------------------ *)

(* a valid key decodes (URL-safe base64, CR/LF skipped) to bytes whose tail is
   the MAC of the first 8 bytes under the server's salt: any accepted key not
   produced with the salt exhibits a MAC forgery *)
Theorem c12_apikey_sound :
  forall (mac : list N -> list N -> list N) salt key r,
  check_api_key mac salt key = AKValid r ->
  decoded_len (length key) = 24%nat /\
  exists data, b64url_decode key = Some data /\
    nth 0 data 0 = 1 /\ (8 <= length data)%nat /\
    skipn 8 data = mac salt (firstn 8 data) /\
    r = (nth 7 data 0 =? 1).
Proof. exact apikey_sound. Qed.
Print Assumptions c12_apikey_sound.

Theorem c12_apikey_unsigned_refused :
  forall (mac : list N -> list N -> list N) salt key data,
  b64url_decode key = Some data ->
  skipn 8 data <> mac salt (firstn 8 data) ->
  forall r, check_api_key mac salt key <> AKValid r.
Proof. exact apikey_unsigned_refused. Qed.
Print Assumptions c12_apikey_unsigned_refused.

(* "refused" as an orderly answer *)
Definition c12_apikey_no_panic_statement : Prop :=
  forall (mac : list N -> list N -> list N) salt key, check_api_key mac salt key <> AKPanic.

(* FINDING (findings/C12.md, apikey-panic): 32 line feeds, or "AQAA" and 28 line feeds *)
Theorem c12_apikey_no_panic_refuted : ~ c12_apikey_no_panic_statement.
Proof. intros H. apply (H (fun _ _ => []) [] (repeat 10 32)). reflexivity. Qed.
Print Assumptions c12_apikey_no_panic_refuted.

(* with the proposed repair there is no panic, and nothing else changes *)
Theorem c12_apikey_fixed_no_panic :
  forall (mac : list N -> list N -> list N) salt key, check_api_key_fixed mac salt key <> AKPanic.
Proof. exact apikey_fixed_no_panic. Qed.
Print Assumptions c12_apikey_fixed_no_panic.

Theorem c12_apikey_fixed_spec :
  forall (mac : list N -> list N -> list N) salt key,
  (forall k d, length (mac k d) = 16%nat) ->
  check_api_key_fixed mac salt key =
  match check_api_key mac salt key with AKPanic => AKRefused | r => r end.
Proof. exact apikey_fixed_spec. Qed.
Print Assumptions c12_apikey_fixed_spec.

(* ------------------------------ reset codes ------------------------------ *)
(* every sequence of GenSecret / Authenticate / time steps, any credentials
   interleaved; K = the cache key of one credential *)

(* between two GenSecret for a credential at most one Authenticate succeeds *)
Theorem c12_code_once :
  forall K cfg ops st, wf (cs_store st) -> no_gen K ops -> (succ_count K cfg st ops <= 1)%nat.
Proof. intros K cfg ops st. exact (once K cfg ops st). Qed.
Print Assumptions c12_code_once.

(* after max_retries failed attempts no guess - not even the right one -
   succeeds until the next GenSecret for that credential *)
Theorem c12_code_lockout :
  forall K cfg ops1 ops2 st,
  wf (cs_store st) -> linv K 0 st -> no_gen K (ops1 ++ ops2) ->
  (cc_max_retries cfg <= Z.of_nat (fail_count K cfg st ops1))%Z ->
  succ_count K cfg (fst (crun cfg st ops1)) ops2 = O.
Proof. exact lockout. Qed.
Print Assumptions c12_code_lockout.

(* the premises of the two theorems hold in every state reachable from the empty cache *)
Theorem c12_code_reachable :
  forall cfg ops K, let st := fst (crun cfg cinit ops) in wf (cs_store st) /\ linv K 0 st.
Proof.
  intros cfg ops K. destruct init_reach as [W C].
  destruct (run_reach cfg ops cinit W C) as [W1 C1]. split; [exact W1|exact (counts_linv K _ C1)].
Qed.
Print Assumptions c12_code_reachable.

(* a code is not usable beyond its life time *)
Definition c12_code_expiry_statement : Prop :=
  forall cfg st secret st' uid cred code,
  wf (cs_store st) -> split_colon secret = Some (code, cred) ->
  cstep cfg st (CAuth secret) = (st', CAuthOk uid cred) ->
  exists e, cget (key_of_cred cred) (cs_store st) = Some e /\ (cs_now st - cc_lifetime cfg <= ce_created e)%Z.

(* FINDING (findings/C12.md, code-outlives-lifetime): expire_in 10 s, right code accepted after 24 s *)
Theorem c12_code_expiry_refuted : ~ c12_code_expiry_statement.
Proof.
  intros H.
  set (cfg := mkCC 3 10000000000).
  set (st := fst (crun cfg cinit [CGen [97%N] 9%N 0 [49%N; 50%N]; CAdv 24000000000])).
  destruct (H cfg st [49%N; 50%N; 58%N; 97%N] (mkCS [] 24000000000) 9%N [97%N] [49%N; 50%N]) as (e & G & L).
  - repeat constructor. intros [].
  - reflexivity.
  - reflexivity.
  - vm_compute in G. injection G as <-. vm_compute in L. apply L. reflexivity.
Qed.
Print Assumptions c12_code_expiry_refuted.

(* with the proposed repair (stale rows expired before the lookup) the statement holds *)
Theorem c12_code_expiry_fixed :
  forall cfg st secret st' uid cred code,
  wf (cs_store st) -> split_colon secret = Some (code, cred) ->
  cstep_fixed cfg st (CAuth secret) = (st', CAuthOk uid cred) ->
  exists e, cget (key_of_cred cred) (cs_store st) = Some e /\ (cs_now st - cc_lifetime cfg <= ce_created e)%Z.
Proof. exact code_expiry_fixed. Qed.
Print Assumptions c12_code_expiry_fixed.

(* ------------------------------ login / password ------------------------------ *)
(* [cmp] = bcrypt.CompareHashAndPassword as a three-valued oracle over ARBITRARY stored bytes:
   BcMatch (nil) / BcMismatch (ErrMismatchedHashAndPassword) / BcError e (every other error:
   hash too short, bad prefix, newer version, unparsable or out-of-range cost, bad salt ...) *)

Theorem c12_basic_auth_sound :
  forall (lower : list N -> list N) login_ok pw_ok (cmp : list N -> list N -> bcres)
         st secret st' uid lvl,
  bstep lower login_ok pw_ok cmp st (BAuth secret) = (st', BAuthOk uid lvl) ->
  exists u p r, split_colon secret = Some (u, p) /\
    bget (lower u) (bs_store st) = Some r /\
    cmp (br_hash r) p = BcMatch /\
    uid = br_uid r /\ lvl = br_level r /\ uid <> 0 /\
    (match br_expires r with Some e => (bs_now st <= e)%Z | None => True end) /\
    st' = st.
Proof. exact basic_auth_sound. Qed.
Print Assumptions c12_basic_auth_sound.

(* a wrong password or an unknown login never authenticates (relative to [cmp]): anything but
   the oracle's "match" - mismatch AND every error - is refused *)
Theorem c12_basic_wrong_never :
  forall (lower : list N -> list N) login_ok pw_ok (cmp : list N -> list N -> bcres) st secret u p,
  split_colon secret = Some (u, p) ->
  (bget (lower u) (bs_store st) = None \/
   exists r, bget (lower u) (bs_store st) = Some r /\ cmp (br_hash r) p <> BcMatch) ->
  exists e, bstep lower login_ok pw_ok cmp st (BAuth secret) = (st, BErr e).
Proof.
  intros lower login_ok pw_ok cmp st secret u p S [G|[r [G V]]].
  - exists BEFailed. exact (basic_unknown_login_never lower login_ok pw_ok cmp st secret u p S G).
  - exact (basic_wrong_password_never lower login_ok pw_ok cmp st secret u p r S G V).
Qed.
Print Assumptions c12_basic_wrong_never.

(* for EVERY state - every stored record, ANY bytes in its secret - and every password: the
   authenticator returns success only if the oracle says match for exactly the bytes stored under
   the lower-cased login and the password presented *)
Theorem c12_basic_authenticates_only_on_match :
  forall (lower : list N -> list N) login_ok pw_ok (cmp : list N -> list N -> bcres)
         st secret u p r st' uid lvl,
  split_colon secret = Some (u, p) -> bget (lower u) (bs_store st) = Some r ->
  bstep lower login_ok pw_ok cmp st (BAuth secret) = (st', BAuthOk uid lvl) ->
  cmp (br_hash r) p = BcMatch.
Proof. exact basic_authenticates_only_on_match. Qed.
Print Assumptions c12_basic_authenticates_only_on_match.

(* ... in particular never on an oracle error (the check does not fail open) *)
Theorem c12_basic_never_on_oracle_error :
  forall (lower : list N -> list N) login_ok pw_ok (cmp : list N -> list N -> bcres)
         st secret u p r e,
  split_colon secret = Some (u, p) -> bget (lower u) (bs_store st) = Some r ->
  cmp (br_hash r) p = BcError e ->
  exists e', bstep lower login_ok pw_ok cmp st (BAuth secret) = (st, BErr e').
Proof. exact basic_never_on_oracle_error. Qed.
Print Assumptions c12_basic_never_on_oracle_error.

(* stored bytes rejected by bcrypt's header check ([bc_header] = newFromHash: shorter than 59
   bytes incl. empty / nil, first byte not '$', major version above '2', cost not two decimal
   digits / sign+digit, cost outside 4..31) authenticate with NO password at all.  Premise: the
   oracle reports the error of its own header check (CompareHashAndPassword begins with
   newFromHash); tested on every run against the real library. *)
Theorem c12_basic_malformed_hash_never_authenticates :
  forall (lower : list N -> list N) login_ok pw_ok (cmp : list N -> list N -> bcres)
         st secret u p r e,
  (forall h q e0, bc_header h = Some e0 -> cmp h q = BcError e0) ->
  split_colon secret = Some (u, p) -> bget (lower u) (bs_store st) = Some r ->
  bc_header (br_hash r) = Some e ->
  exists e', bstep lower login_ok pw_ok cmp st (BAuth secret) = (st, BErr e').
Proof. exact basic_malformed_hash_never. Qed.
Print Assumptions c12_basic_malformed_hash_never_authenticates.

(* the store anomaly: ANY bytes written over the secret of an existing login's row ([BRaw]); the
   login then authenticates with a password only if the oracle matches those bytes *)
Theorem c12_basic_raw_secret_then_auth :
  forall (lower : list N -> list N) login_ok pw_ok (cmp : list N -> list N -> bcres)
         st uid hash secret u p r,
  split_colon secret = Some (u, p) -> bget (lower u) (bs_store st) = Some r -> br_uid r = uid ->
  exists st1, bstep lower login_ok pw_ok cmp st (BRaw uid hash) = (st1, BRawOk) /\
    bget (lower u) (bs_store st1) = Some (mkBR (br_uid r) (br_level r) hash (br_expires r)) /\
    (cmp hash p <> BcMatch -> exists e', bstep lower login_ok pw_ok cmp st1 (BAuth secret) = (st1, BErr e')).
Proof. exact basic_raw_then_auth. Qed.
Print Assumptions c12_basic_raw_secret_then_auth.

(* the index expressions of newFromHash are guarded by its length test *)
Theorem c12_bcrypt_header_no_index_panic : forall h, bc_header h <> Some BcIndexPanic.
Proof.
  intros h.
  unfold bc_header. destruct (N.of_nat (length h) <? 59) eqn:L; [discriminate|].
  destruct h as [|b0 [|b1 [|b2 [|b3 [|b4 [|b5 t]]]]]]; try (vm_compute in L; discriminate).
  destruct (negb (b0 =? 36)); [discriminate|]. destruct (50 <? b1); [discriminate|].
  destruct (negb (b2 =? 36)); cbn [tl].
  - destruct (bc_atoi2 b4 b5); [destruct (_ || _)|]; discriminate.
  - destruct (bc_atoi2 b3 b4); [destruct (_ || _)|]; discriminate.
Qed.
Print Assumptions c12_bcrypt_header_no_index_panic.

(* login names are unique regardless of letter case: every reachable store, all
   operation sequences (add, update incl. rename, authenticate, time, raw secret writes) *)
Theorem c12_login_case_insensitive_unique :
  forall (lower : list N -> list N) login_ok pw_ok (cmp : list N -> list N -> bcres),
  (forall s, lower (lower s) = lower s) ->
  forall ops k1 r1 k2 r2,
  let s := bs_store (fst (brun lower login_ok pw_ok cmp binit ops)) in
  In (k1, r1) s -> In (k2, r2) s -> lower k1 = lower k2 -> k1 = k2 /\ r1 = r2.
Proof. exact logins_unique. Qed.
Print Assumptions c12_login_case_insensitive_unique.

Theorem c12_login_other_case_refused :
  forall (lower : list N -> list N) login_ok pw_ok (cmp : list N -> list N -> bcres)
         st uid lvl secret hash lt u p r,
  split_colon secret = Some (u, p) -> bget (lower u) (bs_store st) = Some r ->
  exists e, bstep lower login_ok pw_ok cmp st (BAdd uid lvl secret hash lt) = (st, BErr e).
Proof. exact add_other_case_refused. Qed.
Print Assumptions c12_login_other_case_refused.

(* ------------------------------ non-vacuity ------------------------------ *)
Definition ex_mac (k d : list N) : list N := repeat (le_val k mod 256 + le_val d mod 251) 32.

Example c12_ex_roundtrip :
  let g := mkG 12345 20 1 0 in
  match gen_secret ex_mac [7] 5 (default_lifetime 3600) 1790000000000000000 g with
  | Some (tok, _) => authenticate ex_mac [7] 5 1790000000000000000 tok = TOk (mkR 12345 20 1)
                     /\ authenticate ex_mac [7] 6 1790000000000000000 tok = TErr TFailed
                     /\ authenticate ex_mac [7] 5 1790003600000000000 tok = TErr TExpired
                     /\ authenticate ex_mac [7] 5 1790000000000000000 (firstn 49 tok) = TErr TMalformed
  | None => False
  end.
Proof. vm_compute. repeat split. Qed.

Example c12_ex_code :
  let cfg := mkCC 2 10000000000 in
  snd (crun cfg cinit [CGen [97] 9 0 [49; 50]; CAuth [49; 51; 58; 97]; CAuth [49; 50; 58; 97]; CAuth [49; 50; 58; 97]])
  = [CGenOk [49; 50]; CErr CEFailed; CAuthOk 9 [97]; CErr CEFailed].
Proof. reflexivity. Qed.

(* login / password: a well-formed header, the anomaly classes, and the authenticator above an
   oracle that satisfies the premise of [c12_basic_malformed_hash_never_authenticates] *)
Definition ex_bc_hash : list N := [36; 50; 97; 36; 48; 52; 36; 81; 99; 69; 97; 71; 112; 98; 79; 75; 72; 46; 115; 73; 80; 78; 109; 111; 46; 55; 71; 89; 101; 79; 48; 78; 117; 77; 85; 51; 70; 113; 89; 56; 98; 51; 85; 77; 82; 78; 56; 108; 83; 83; 81; 97; 121; 105; 80; 100; 82; 104; 82; 54].
Definition ex_cmp (h p : list N) : bcres :=
  match bc_header h with Some e => BcError e | None => if bytes_eqb p [112; 119] then BcMatch else BcMismatch end.
Example c12_ex_bcrypt_header :
  bc_header ex_bc_hash = None /\ bc_header [] = Some BcTooShort /\ bc_header (firstn 58 ex_bc_hash) = Some BcTooShort
  /\ bc_header (firstn 59 ex_bc_hash) = None /\ bc_header (ex_bc_hash ++ [120]) = None
  /\ bc_header (120 :: tl ex_bc_hash) = Some BcPrefix /\ bc_header (36 :: 51 :: skipn 2 ex_bc_hash) = Some BcVersion
  /\ bc_header (firstn 4 ex_bc_hash ++ [48; 51] ++ skipn 6 ex_bc_hash) = Some BcCostRange
  /\ bc_header (firstn 4 ex_bc_hash ++ [51; 50] ++ skipn 6 ex_bc_hash) = Some BcCostRange
  /\ bc_header (firstn 4 ex_bc_hash ++ [43; 52] ++ skipn 6 ex_bc_hash) = None
  /\ bc_header (firstn 4 ex_bc_hash ++ [32; 52] ++ skipn 6 ex_bc_hash) = Some BcCostSyntax
  /\ bc_header (repeat 112 60) = Some BcPrefix.
Proof. vm_compute. repeat split. Qed.
Example c12_ex_basic_raw :
  let idf := fun x : list N => x in
  let tt := fun _ : list N => true in
  snd (brun idf tt tt ex_cmp binit
         [BAdd 1 20 [97; 58; 112; 119] ex_bc_hash 0; BAuth [97; 58; 112; 119]; BAuth [97; 58; 120];
          BRaw 1 []; BAuth [97; 58; 112; 119]; BAuth [97; 58];
          BRaw 1 (firstn 30 ex_bc_hash); BAuth [97; 58; 112; 119];
          BRaw 1 ex_bc_hash; BAuth [97; 58; 112; 119]; BRaw 2 []])
  = [BAddOk 20; BAuthOk 1 20; BErr BEFailed; BRawOk; BErr BEFailed; BErr BEFailed; BRawOk; BErr BEFailed;
     BRawOk; BAuthOk 1 20; BErr BENotFound].
Proof. vm_compute. reflexivity. Qed.

Example c12_ex_code_lockout :
  let cfg := mkCC 2 10000000000 in
  snd (crun cfg cinit [CGen [97] 9 0 [49; 50]; CAuth [49; 51; 58; 97]; CAuth [49; 52; 58; 97]; CAuth [49; 50; 58; 97]])
  = [CGenOk [49; 50]; CErr CEFailed; CErr CEFailed; CErr CEFailed].
Proof. reflexivity. Qed.

(* ------------------------------ token re-issuance on {login} ------------------------------ *)
(* Session.login / Session.onLogin (Sys/Relogin.v): which token is handed back after a login by
   token, by reset code, by password; with which user, level, feature flags and expiry.
   [tok_fields] = the signed fields of a token, [tok_expiry] its expiry second,
   [tok_restricted] = the no-login feature bit (auth.FeatureNoLogin) is signed into it.
   Every theorem holds for every keyed hash, configuration, environment (user state,
   validators), starting session, and instant. *)
Open Scope Z_scope.

(* presenting a restricted token never authenticates the session: every branch of login *)
Theorem c12_relogin_restricted_never_authenticates :
  forall (mac : list N -> list N -> list N) c env s clk tok,
  tok_restricted tok = true ->
  fst (login mac c env s clk (SecToken tok)) = s.
Proof. exact restricted_never_authenticates. Qed.
Print Assumptions c12_relogin_restricted_never_authenticates.

(* one login with a restricted token, processed promptly (clock readings ordered, less than
   0.9995 s from the expiry check to GenSecret): the session is left alone, the token handed back
   is restricted, signed for the same user and level, and expires no later than - in fact in
   the very second in which - the presented token expires *)
Theorem c12_relogin_restricted_step :
  forall (mac : list N -> list N -> list N) c env s clk tok s' code tok' exp,
  tok_restricted tok = true -> prompt clk ->
  login mac c env s clk (SecToken tok) = (s', mkLO code (Some (tok', exp))) ->
  s' = s /\ tok_restricted tok' = true /\
  f_uid (tok_fields tok') = (f_uid (tok_fields tok) mod 2 ^ 64)%N /\
  f_level (tok_fields tok') = f_level (tok_fields tok) /\
  tok_expiry tok' <= tok_expiry tok /\
  (tok_expiry tok < 2 ^ 32 -> tok_expiry tok' = tok_expiry tok).
Proof. exact restricted_step. Qed.
Print Assumptions c12_relogin_restricted_step.

(* the two theorems above along ARBITRARY chains of logins: [chain mac c tok0 tok] = tok is tok0
   or was handed back by a (prompt) login - any session, any environment, any instant - that presented a token of the
   chain.  Every token derived from a restricted secret is restricted, for the same level (and
   user), and its expiry second never exceeds that of the secret the chain started from. *)
Theorem c12_relogin_chain :
  forall (mac : list N -> list N -> list N) c tok0 tok,
  chain mac c tok0 tok -> tok_restricted tok0 = true ->
  tok_restricted tok = true /\ tok_expiry tok <= tok_expiry tok0 /\
  f_level (tok_fields tok) = f_level (tok_fields tok0) /\
  ((f_uid (tok_fields tok0) < 2 ^ 64)%N -> f_uid (tok_fields tok) = f_uid (tok_fields tok0)).
Proof. exact chain_restricted. Qed.
Print Assumptions c12_relogin_chain.

(* ... hence no token of the chain is accepted (by any key / serial) at or after the expiry
   instant of the secret the chain started from: exchanging a restricted secret again and
   again buys no time *)
Theorem c12_relogin_chain_never_outlives :
  forall (mac : list N -> list N -> list N) c tok0 tok key sn now r,
  chain mac c tok0 tok -> tok_restricted tok0 = true ->
  authenticate mac key sn now tok = TOk r ->
  now + second <= tok_expiry tok0 * second.
Proof. exact chain_never_outlives. Qed.
Print Assumptions c12_relogin_chain_never_outlives.

(* the same over HISTORIES: a list of logins, each with its own session, environment and clock,
   each presenting either an independently obtained secret ([Indep]) or the token handed back by
   an earlier login of the list ([Earlier j]); [descends reqs i k] = login k presents the token of
   a login that presents the token of ... login i.  Whatever else happens in the history, a token
   that descends from a restricted one is restricted and does not expire later, ... *)
Theorem c12_relogin_history :
  forall (mac : list N -> list N -> list N) c reqs i k ti tk,
  (forall r, In r reqs -> prompt (rq_clk r)) ->
  descends reqs i k ->
  out_tok (nth i (history mac c reqs) no_out) = Some ti ->
  out_tok (nth k (history mac c reqs) no_out) = Some tk ->
  tok_restricted ti = true ->
  tok_restricted tk = true /\ tok_expiry tk <= tok_expiry ti.
Proof. exact history_restricted. Qed.
Print Assumptions c12_relogin_history.

(* ... and the login that presents it leaves its session as it was *)
Theorem c12_relogin_history_never_authenticates :
  forall (mac : list N -> list N -> list N) c reqs j k r tj,
  nth_error reqs k = Some r -> rq_src r = Earlier j -> (j < k)%nat ->
  out_tok (nth j (history mac c reqs) no_out) = Some tj -> tok_restricted tj = true ->
  fst (nth k (history mac c reqs) no_out) = rq_sess r.
Proof. exact history_never_authenticates. Qed.
Print Assumptions c12_relogin_history_never_authenticates.

(* the statement without the promptness premise *)
Definition c12_relogin_never_outlives_statement : Prop := relogin_never_outlives_statement.

(* the faithful model refutes it: the remaining lifetime is measured by time.Until inside
   Authenticate and added to a LATER time.Now() inside GenSecret; a login that stalls for two
   seconds between the two hands back a token that expires two seconds later (witness) *)
Theorem c12_relogin_never_outlives_refuted : ~ c12_relogin_never_outlives_statement.
Proof.
  intros H. unfold c12_relogin_never_outlives_statement, relogin_never_outlives_statement in H.
  set (clk := mkClk wT wT (wT + 2 * second)).
  destruct (login wmac wcfg wenv (mkSess 0 0) clk (SecToken wtok)) as [s' [code [[tok' exp]|]]] eqn:L.
  - assert (R : tok_restricted wtok = true) by (vm_compute; reflexivity).
    assert (C : 0 <= t_auth clk /\ t_auth clk <= t_until clk /\ t_until clk <= t_gen clk)
      by (vm_compute; repeat split; discriminate).
    pose proof (H wmac wcfg wenv (mkSess 0 0) clk wtok s' code tok' exp R C L) as X.
    assert (Y : tok_expiry tok' = tok_expiry wtok + 2).
    { vm_compute in L. injection L as _ _ <- _. vm_compute. reflexivity. }
    rewrite Y in X. vm_compute in X. now apply X.
  - vm_compute in L. discriminate L.
Qed.
Print Assumptions c12_relogin_never_outlives_refuted.

(* ... and that is all there is to it: for ANY clock the excess is at most the time the login
   itself took between the two readings plus the half millisecond of rounding, provided
   time.Until still saw a positive remaining lifetime (the premise excludes exactly the case
   [c12_relogin_zero_remaining_gets_default] below) *)
Theorem c12_relogin_never_outlives_partial :
  forall (mac : list N -> list N -> list N) c env s clk tok s' code tok' exp,
  tok_restricted tok = true ->
  0 <= t_auth clk -> t_until clk <= t_gen clk -> t_until clk < tok_expiry tok * second ->
  login mac c env s clk (SecToken tok) = (s', mkLO code (Some (tok', exp))) ->
  s' = s /\ tok_restricted tok' = true /\
  f_uid (tok_fields tok') = (f_uid (tok_fields tok) mod 2 ^ 64)%N /\
  f_level (tok_fields tok') = f_level (tok_fields tok) /\
  tok_expiry tok' * second <= tok_expiry tok * second + (t_gen clk - t_until clk) + 500000.
Proof. exact restricted_step_general. Qed.
Print Assumptions c12_relogin_never_outlives_partial.

(* remaining lifetime exactly 0 ns at time.Until (needs more than a second between two
   statements of Authenticate): GenSecret reads 0 as "default": model-only observation *)
Example c12_relogin_zero_remaining_gets_default :
  let clk := mkClk wT (wT + 3600 * second) (wT + 3600 * second) in
  match login wmac wcfg wenv (mkSess 0 0) clk (SecToken wtok) with
  | (_, mkLO _ (Some (tok', _))) => tok_expiry tok' = tok_expiry wtok + 1209600 /\ tok_restricted tok' = true
  | _ => False
  end.
Proof. vm_compute. split; reflexivity. Qed.

(* a full login - any scheme; record without the no-login bit, user in state OK, nothing
   left to validate: the session is authenticated as exactly the record's user and level, and
   the token handed back is GenSecret of (that user, that level, features + validated,
   Lifetime 0 = the CONFIGURED lifetime counted from this login) *)
Theorem c12_relogin_full_login :
  forall (mac : list N -> list N -> list N) c env s clk sec rec,
  s_uid s = 0%N -> sec <> SecUnknownScheme ->
  authenticate_secret mac c env clk sec = ARec rec ->
  le_state_ok env = true ->
  has_feature (g_features rec) feature_nologin = false ->
  (has_feature (g_features rec) feature_validated = true \/ le_unvalidated env = false) ->
  login mac c env s clk sec =
  (mkSess (g_uid rec) (g_level rec),
   mkLO LOk200 (Some (issue_at mac (tc_key c) (tc_serial c) (round_ms (t_gen clk + tc_lifetime c))
                        (mkG (g_uid rec) (g_level rec) (N.lor (g_features rec) feature_validated) 0),
                      round_ms (t_gen clk + tc_lifetime c)))).
Proof. exact full_login. Qed.
Print Assumptions c12_relogin_full_login.

(* ... and that token is not accepted beyond the configured lifetime counted from the login *)
Theorem c12_relogin_full_login_bound :
  forall (mac : list N -> list N -> list N) c env s clk sec rec s' code tok exp key' sn' now r,
  0 <= t_gen clk -> 0 < tc_lifetime c ->
  s_uid s = 0%N -> sec <> SecUnknownScheme ->
  authenticate_secret mac c env clk sec = ARec rec ->
  le_state_ok env = true ->
  has_feature (g_features rec) feature_nologin = false ->
  (has_feature (g_features rec) feature_validated = true \/ le_unvalidated env = false) ->
  login mac c env s clk sec = (s', mkLO code (Some (tok, exp))) ->
  authenticate mac key' sn' now tok = TOk r ->
  now < t_gen clk + tc_lifetime c.
Proof. exact full_login_bound. Qed.
Print Assumptions c12_relogin_full_login_bound.

(* a login by reset code never authenticates the session; the token handed back is restricted,
   level None, for the user the code was made for, with the code authenticator's lifetime
   counted from the login *)
Theorem c12_relogin_code_login :
  forall (mac : list N -> list N -> list N) c env s clk uid,
  s_uid s = 0%N -> le_state_ok env = true -> 0 < le_code_lifetime env ->
  let exp := round_ms (t_gen clk + le_code_lifetime env) in
  login mac c env s clk (SecCode (Some uid)) =
  (s, mkLO (if le_unvalidated env then LValidate300 else LOk200)
           (Some (issue_at mac (tc_key c) (tc_serial c) exp
                    (mkG uid 0 (if le_unvalidated env then feature_nologin
                                else N.lor feature_nologin feature_validated) (le_code_lifetime env)),
                  exp))).
Proof. exact code_login. Qed.
Print Assumptions c12_relogin_code_login.

(* measured against the expiry of the CODE (generated at [created], presented within its life
   time) the token handed back is late: statement, refuted by the faithful model (the code
   authenticator reports its full lifetime, not the remaining one: code made at T, presented at
   T+600 s, token accepted at T+1200 s, code lifetime 900 s) ... *)
Definition c12_relogin_code_statement : Prop := relogin_code_statement.
Theorem c12_relogin_code_refuted : ~ c12_relogin_code_statement.
Proof.
  intros H.
  set (t := wT + 600 * second). set (clk := mkClk t t t).
  destruct (login wmac wcfg wenv (mkSess 0 0) clk (SecCode (Some 77%N))) as [s' [code [[tok exp]|]]] eqn:L.
  - assert (P : prompt clk) by (vm_compute; repeat split; discriminate).
    assert (A : authenticate wmac [7%N] 5 (wT + 1200 * second) tok = TOk (mkR 77 0 3)).
    { vm_compute in L. injection L as _ _ <- _. vm_compute. reflexivity. }
    pose proof (H wmac wcfg wenv (mkSess 0 0) clk 77%N wT s' code tok exp [7%N] 5 (wT + 1200 * second) _
                  P ltac:(reflexivity) ltac:(vm_compute; split; discriminate) L A) as X.
    vm_compute in X. discriminate X.
  - vm_compute in L. discriminate L.
Qed.
Print Assumptions c12_relogin_code_refuted.

(* ... what holds: not accepted beyond one code lifetime counted from the LOGIN (so less than two
   code lifetimes from the code's creation; the code is single-use - c12_code_once - and every
   token derived from this one is bounded by it - c12_relogin_chain - so it cannot be repeated) *)
Theorem c12_relogin_code_partial :
  forall (mac : list N -> list N -> list N) c env s clk uid s' code tok exp key' sn' now r,
  0 <= t_gen clk -> 0 < le_code_lifetime env ->
  login mac c env s clk (SecCode (Some uid)) = (s', mkLO code (Some (tok, exp))) ->
  authenticate mac key' sn' now tok = TOk r ->
  now < t_gen clk + le_code_lifetime env.
Proof. exact code_login_bound. Qed.
Print Assumptions c12_relogin_code_partial.

(* the temporary token handed to a credential validator when a credential is added to an existing
   account (replyUpdateUser, Topic.replySetCred): restricted, level None, for that user, and not
   accepted beyond 24 h from its issue; by c12_relogin_chain the same holds for everything it is
   exchanged for *)
Theorem c12_tmp_token_update_cred :
  forall (mac : list N -> list N -> list N) c now uid tok exp,
  tmp_token mac c now (update_cred_rec uid) = Some (tok, exp) ->
  tok_restricted tok = true /\ f_level (tok_fields tok) = 0%N /\ f_uid (tok_fields tok) = (uid mod 2 ^ 64)%N /\
  forall key' sn' now' r, 0 <= now -> authenticate mac key' sn' now' tok = TOk r -> now' < now + tmp_token_lifetime.
Proof. exact tmp_token_update. Qed.
Print Assumptions c12_tmp_token_update_cred.

(* the one made when an account is created (replyCreateUser) carries NO no-login bit and level
   Auth: it is a 24 h login token (as the code is; presenting it is a full login) *)
Theorem c12_tmp_token_create_account :
  forall (mac : list N -> list N -> list N) c now uid tok exp,
  tmp_token mac c now (create_cred_rec uid) = Some (tok, exp) ->
  tok_restricted tok = false /\ f_level (tok_fields tok) = 20%N /\ f_uid (tok_fields tok) = (uid mod 2 ^ 64)%N /\
  forall key' sn' now' r, 0 <= now -> authenticate mac key' sn' now' tok = TOk r -> now' < now + tmp_token_lifetime.
Proof. exact tmp_token_create. Qed.
Print Assumptions c12_tmp_token_create_account.

(* non-vacuity: a restricted one hour token exchanged twice, 100 s and 1000 s after issue, on
   fresh sessions: both times restricted, same expiry second, session not authenticated; the
   same token without the no-login bit authenticates and is renewed for two weeks *)
Example c12_ex_relogin :
  let clk1 := mkClk (wT + 100 * second) (wT + 100 * second + 20000) (wT + 100 * second + 900000) in
  let clk2 := mkClk (wT + 1000 * second) (wT + 1000 * second + 20000) (wT + 1000 * second + 900000) in
  match login wmac wcfg wenv (mkSess 0 0) clk1 (SecToken wtok) with
  | (s1, mkLO LOk200 (Some (tok1, _))) =>
    s1 = mkSess 0 0 /\ tok_restricted tok1 = true /\ tok_expiry tok1 = tok_expiry wtok /\
    match login wmac wcfg wenv (mkSess 0 0) clk2 (SecToken tok1) with
    | (s2, mkLO LOk200 (Some (tok2, _))) =>
      s2 = mkSess 0 0 /\ tok_restricted tok2 = true /\ tok_expiry tok2 = tok_expiry wtok
    | _ => False
    end
  | _ => False
  end /\
  match login wmac wcfg wenv (mkSess 0 0) clk1
          (SecToken (issue_at wmac [7%N] 5 (wT + 3600 * second) (mkG 12345 20 0 0))) with
  | (s1, mkLO LOk200 (Some (tok1, _))) =>
    s1 = mkSess 12345 20 /\ tok_restricted tok1 = false /\ tok_expiry tok1 = 1790000000 + 100 + 1209600
  | _ => False
  end.
Proof. vm_compute. repeat split. Qed.

(* a history of three logins, the second and third presenting what the previous one handed back *)
Example c12_ex_history :
  let clk n := mkClk (wT + n * second) (wT + n * second + 20000) (wT + n * second + 900000) in
  let rq s n := mkRq s wenv (mkSess 0 0) (clk n) in
  let reqs := [rq (Indep (SecToken wtok)) 100; rq (Earlier 0%nat) 1000; rq (Earlier 1%nat) 3000] in
  descends reqs 0 2 /\
  match map out_tok (history wmac wcfg reqs) with
  | [Some a; Some b; Some d] => tok_expiry d = tok_expiry wtok /\ tok_restricted d = true /\ a = b /\ b = d
  | _ => False
  end.
Proof.
  split.
  - eapply desc_step; [eapply desc_step; [apply desc_refl| | |]| | |]; try reflexivity; repeat constructor.
  - vm_compute. repeat split.
Qed.
