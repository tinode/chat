(* Lemmas about Pure/Code.v: at most one success between two GenSecret, lock-out
   after max_retries failures; every operation sequence, by induction. *)
From Coq Require Import NArith ZArith List Bool Lia ZifyBool ZifyNat ZifyN.
From Tinode Require Import Pure.Token Pure.TokenProofs Pure.Code.
Import ListNotations.
Open Scope Z_scope.

Definition wf (st : cstore) : Prop := NoDup (map fst st).

Lemma beq_true a b : bytes_eqb a b = true -> a = b.
Proof. apply bytes_eqb_eq. Qed.
Lemma beq_false a b : bytes_eqb a b = false -> a <> b.
Proof. intros H E. apply bytes_eqb_eq in E. congruence. Qed.
Lemma beq_neq a b : a <> b -> bytes_eqb a b = false.
Proof. intros H. destruct (bytes_eqb a b) eqn:E; [apply beq_true in E; contradiction|reflexivity]. Qed.

Lemma cget_in k st e : cget k st = Some e -> In (k, e) st.
Proof.
  induction st as [|[k' e'] r IH]; cbn [cget]; [discriminate|].
  destruct (bytes_eqb k k') eqn:E.
  - intros [= ->]. apply beq_true in E. subst. now left.
  - intros H. right. auto.
Qed.

Lemma cget_notin k st : ~ In k (map fst st) -> cget k st = None.
Proof.
  induction st as [|[k' e'] r IH]; cbn [cget map fst]; [reflexivity|]. intros H.
  destruct (bytes_eqb k k') eqn:E.
  - apply beq_true in E. subst. exfalso. apply H. now left.
  - apply IH. intros Hin. apply H. now right.
Qed.

Lemma cget_none_notin k st : cget k st = None -> ~ In k (map fst st).
Proof.
  induction st as [|[k' e'] r IH]; cbn [cget map fst]; [tauto|].
  destruct (bytes_eqb k k') eqn:E; [discriminate|]. apply beq_false in E.
  intros H [Hk|Hin]; [congruence|]. now apply IH.
Qed.

Lemma keys_cdel k x st : In x (map fst (cdel k st)) -> In x (map fst st) /\ x <> k.
Proof.
  induction st as [|[k' e'] r IH]; cbn [cdel map fst]; [tauto|].
  destruct (bytes_eqb k k') eqn:E.
  - intros H. destruct (IH H). split; [now right|assumption].
  - apply beq_false in E. cbn [map fst]. intros [->|H].
    + split; [now left|congruence].
    + destruct (IH H). split; [now right|assumption].
Qed.

Lemma wf_cdel k st : wf st -> wf (cdel k st).
Proof.
  unfold wf. induction st as [|[k' e'] r IH]; cbn [cdel map fst]; [auto|].
  intros H. inversion H as [|? ? Hn Hr]; subst.
  destruct (bytes_eqb k k'); [auto|]. cbn [map fst]. constructor; [|auto].
  intros Hin. apply keys_cdel in Hin. tauto.
Qed.

Lemma cget_cdel_same k st : cget k (cdel k st) = None.
Proof. apply cget_notin. intros H. apply keys_cdel in H. tauto. Qed.

Lemma cget_cdel_other k k' st : k <> k' -> cget k (cdel k' st) = cget k st.
Proof.
  intros Hne. induction st as [|[k2 e2] r IH]; cbn [cdel cget]; [reflexivity|].
  destruct (bytes_eqb k' k2) eqn:E.
  - apply beq_true in E. subst k2. rewrite (beq_neq k k') by assumption. exact IH.
  - cbn [cget]. destruct (bytes_eqb k k2); [reflexivity|exact IH].
Qed.

Lemma wf_cput k e st : wf st -> wf (cput k e st).
Proof.
  intros H. unfold wf, cput. cbn [map fst]. constructor; [|now apply wf_cdel].
  intros Hin. apply keys_cdel in Hin. tauto.
Qed.

Lemma cget_cput_same k e st : cget k (cput k e st) = Some e.
Proof. unfold cput. cbn [cget]. now rewrite bytes_eqb_refl. Qed.

Lemma cget_cput_other k k' e st : k <> k' -> cget k (cput k' e st) = cget k st.
Proof. intros H. unfold cput. cbn [cget]. rewrite (beq_neq _ _ H). now apply cget_cdel_other. Qed.

Lemma keys_filter (f : list N * centry -> bool) x st :
  In x (map fst (filter f st)) -> In x (map fst st).
Proof.
  induction st as [|p r IH]; cbn [filter map]; [tauto|].
  destruct (f p); cbn [map]; intros H; [destruct H; [now left|right; auto]|right; auto].
Qed.

Lemma wf_filter f st : wf st -> wf (filter f st).
Proof.
  unfold wf. induction st as [|p r IH]; cbn [filter map]; [auto|].
  intros H. inversion H as [|? ? Hn Hr]; subst.
  destruct (f p); [|auto]. cbn [map]. constructor; [|auto].
  intros Hin. apply Hn. now apply keys_filter in Hin.
Qed.

Lemma cget_filter f k st : wf st ->
  cget k (filter f st) = match cget k st with Some e => if f (k, e) then Some e else None | None => None end.
Proof.
  unfold wf. induction st as [|[k' e'] r IH]; cbn [filter cget map fst]; [reflexivity|].
  intros H. inversion H as [|? ? Hn Hr]; subst.
  destruct (bytes_eqb k k') eqn:E.
  - apply beq_true in E. subst k'. destruct (f (k, e')) eqn:F.
    + cbn [cget]. now rewrite bytes_eqb_refl.
    + apply cget_notin. intros Hin. apply Hn. now apply keys_filter in Hin.
  - destruct (f (k', e')); [cbn [cget]; rewrite E|]; now apply IH.
Qed.

(* ------------------------------------------------------------------ *)
(* effect of one operation, other than GenSecret for K, on the row of key K *)

Lemma step_effect cfg st op st' res K :
  wf (cs_store st) -> is_gen_for K op = false -> cstep cfg st op = (st', res) ->
  wf (cs_store st') /\
  if is_auth_for K op then
    match cget K (cs_store st) with
    | None => is_ok res = false /\ cget K (cs_store st') = None
    | Some e =>
      if cc_max_retries cfg <=? ce_count e
      then is_ok res = false /\ cget K (cs_store st') = Some e
      else (is_ok res = false /\ exists e', cget K (cs_store st') = Some e' /\ ce_count e' = ce_count e + 1)
           \/ (is_ok res = true /\ cget K (cs_store st') = None)
    end
  else cget K (cs_store st') = None \/ cget K (cs_store st') = cget K (cs_store st).
Proof.
  intros W G S. destruct op as [cred uid lt nc|secret|d]; cbn [cstep is_gen_for is_auth_for] in *.
  - (* GenSecret for another key *)
    apply beq_false in G.
    set (s1 := cexpire (cs_now st - cc_lifetime cfg) (cs_store st)) in *.
    assert (W1 : wf s1) by (apply wf_filter; exact W).
    assert (E1 : cget K s1 = None \/ cget K s1 = cget K (cs_store st)).
    { unfold s1, cexpire. rewrite cget_filter by exact W.
      destruct (cget K (cs_store st)); [|now left].
      match goal with |- context [if ?b then _ else _] => destruct b end; [now right|now left]. }
    destruct (lt <? 0); [injection S as <- <-; cbn; tauto|].
    destruct (cget (key_of_cred cred) s1); injection S as <- <-; cbn [cs_store]; [tauto|].
    split; [now apply wf_cput|]. rewrite cget_cput_other by exact G. exact E1.
  - (* Authenticate *)
    unfold auth_key. destruct (split_colon secret) as [[code cred]|].
    2:{ injection S as <- <-. split; [exact W|now right]. }
    set (k := key_of_cred cred) in *.
    destruct (bytes_eqb K k) eqn:EK.
    + apply beq_true in EK. subst K.
      destruct (cget k (cs_store st)) as [e|] eqn:Eg.
      2:{ injection S as <- <-. rewrite Eg. split; [exact W|split; reflexivity]. }
      destruct (cc_max_retries cfg <=? ce_count e).
      { injection S as <- <-. rewrite Eg. split; [exact W|split; reflexivity]. }
      destruct (bytes_eqb (ce_code e) code); cbn [negb] in S; injection S as <- <-; cbn [cs_store].
      * split; [now apply wf_cdel|]. right. split; [reflexivity|apply cget_cdel_same].
      * split; [now apply wf_cput|]. left. split; [reflexivity|].
        eexists. split; [apply cget_cput_same|reflexivity].
    + apply beq_false in EK.
      destruct (cget k (cs_store st)) as [e|] eqn:Eg.
      2:{ injection S as <- <-. split; [exact W|now right]. }
      destruct (cc_max_retries cfg <=? ce_count e).
      { injection S as <- <-. split; [exact W|now right]. }
      destruct (bytes_eqb (ce_code e) code); cbn [negb] in S; injection S as <- <-; cbn [cs_store].
      * split; [now apply wf_cdel|]. right. now apply cget_cdel_other.
      * split; [now apply wf_cput|]. right. now apply cget_cput_other.
  - injection S as <- <-. cbn. split; [exact W|now right].
Qed.

Definition no_gen (K : list N) (ops : list cop) : Prop := forallb (fun op => negb (is_gen_for K op)) ops = true.

Lemma no_gen_cons K op r : no_gen K (op :: r) -> is_gen_for K op = false /\ no_gen K r.
Proof.
  unfold no_gen. cbn [forallb]. intros H. apply andb_true_iff in H. destruct H as [H1 H2].
  split; [now apply negb_true_iff in H1|exact H2].
Qed.

Lemma no_gen_app K a b : no_gen K (a ++ b) -> no_gen K a /\ no_gen K b.
Proof. unfold no_gen. rewrite forallb_app. apply andb_true_iff. Qed.

(* lower bound m on the attempt counter of K's row (vacuous without a row) *)
Definition linv (K : list N) (m : Z) (st : cstate) : Prop :=
  match cget K (cs_store st) with None => True | Some e => m <= ce_count e end.

Lemma locked_zero K cfg ops : forall st,
  wf (cs_store st) -> linv K (cc_max_retries cfg) st -> no_gen K ops -> succ_count K cfg st ops = O.
Proof.
  induction ops as [|op r IH]; intros st W L NG; cbn [succ_count]; [reflexivity|].
  apply no_gen_cons in NG. destruct NG as [G NG].
  destruct (cstep cfg st op) as [st1 res] eqn:S.
  destruct (step_effect _ _ _ _ _ K W G S) as [W1 E]. unfold linv in *.
  destruct (is_auth_for K op); cbn [andb].
  - destruct (cget K (cs_store st)) as [e|].
    + destruct (Z.leb_spec (cc_max_retries cfg) (ce_count e)); [|lia].
      destruct E as [E1 E2]. rewrite E1. cbn. apply IH; try assumption. now rewrite E2.
    + destruct E as [E1 E2]. rewrite E1. cbn. apply IH; try assumption. now rewrite E2.
  - cbn. apply IH; try assumption. destruct E as [E|E]; rewrite E; [exact I|exact L].
Qed.

(* a key without a row: the lower bound holds vacuously *)
Lemma absent_zero K cfg ops st :
  wf (cs_store st) -> cget K (cs_store st) = None -> no_gen K ops -> succ_count K cfg st ops = O.
Proof. intros W A. apply locked_zero; [exact W|]. unfold linv. now rewrite A. Qed.

Lemma once K cfg ops : forall st,
  wf (cs_store st) -> no_gen K ops -> (succ_count K cfg st ops <= 1)%nat.
Proof.
  induction ops as [|op r IH]; intros st W NG; cbn [succ_count]; [lia|].
  apply no_gen_cons in NG. destruct NG as [G NG].
  destruct (cstep cfg st op) as [st1 res] eqn:S.
  destruct (step_effect _ _ _ _ _ K W G S) as [W1 E].
  destruct (is_auth_for K op); cbn [andb].
  - destruct (cget K (cs_store st)) as [e|].
    + destruct (cc_max_retries cfg <=? ce_count e).
      * destruct E as [E1 _]. rewrite E1. cbn. now apply IH.
      * destruct E as [[E1 _]|[E1 E2]]; rewrite E1.
        -- cbn. now apply IH.
        -- rewrite (absent_zero K cfg r st1 W1 E2 NG). lia.
    + destruct E as [E1 E2]. rewrite E1. cbn. now apply IH.
  - cbn. now apply IH.
Qed.

Lemma linv_le K m m' st : m' <= m -> linv K m st -> linv K m' st.
Proof. unfold linv. destruct (cget K (cs_store st)); [lia|easy]. Qed.

Lemma fail_progress K cfg ops : forall st m,
  wf (cs_store st) -> linv K m st -> no_gen K ops ->
  wf (cs_store (fst (crun cfg st ops))) /\
  linv K (Z.min (cc_max_retries cfg) (m + Z.of_nat (fail_count K cfg st ops))) (fst (crun cfg st ops)).
Proof.
  induction ops as [|op r IH]; intros st m W L NG; cbn [fail_count crun].
  - cbn [fst]. split; [exact W|]. apply (linv_le K m); [lia|exact L].
  - apply no_gen_cons in NG. destruct NG as [G NG].
    destruct (cstep cfg st op) as [st1 res] eqn:S.
    destruct (step_effect _ _ _ _ _ K W G S) as [W1 E].
    destruct (crun cfg st1 r) as [st2 rs] eqn:R. cbn [fst].
    assert (IH' : forall m' t, linv K m' st1 ->
              t <= Z.min (cc_max_retries cfg) (m' + Z.of_nat (fail_count K cfg st1 r)) ->
              wf (cs_store st2) /\ linv K t st2).
    { intros m' t L' Ht. specialize (IH st1 m' W1 L' NG). rewrite R in IH. destruct IH as [W2 L2].
      split; [exact W2|exact (linv_le K _ t st2 Ht L2)]. }
    unfold linv in L.
    destruct (is_auth_for K op); cbn [andb].
    + destruct (cget K (cs_store st)) as [e|].
      * destruct (Z.leb_spec (cc_max_retries cfg) (ce_count e)).
        -- destruct E as [E1 E2]. rewrite E1. cbn [negb].
           apply (IH' (Z.min (cc_max_retries cfg) (m + 1))); [unfold linv; rewrite E2|]; lia.
        -- destruct E as [[E1 (e' & E2 & E3)]|[E1 E2]]; rewrite E1; cbn [negb].
           ++ apply (IH' (m + 1)); [unfold linv; rewrite E2|]; lia.
           ++ apply (IH' m); [unfold linv; now rewrite E2|lia].
      * destruct E as [E1 E2]. rewrite E1. cbn [negb].
        apply (IH' (m + 1)); [unfold linv; now rewrite E2|lia].
    + apply (IH' m); [|lia]. unfold linv. destruct E as [E|E]; rewrite E; [exact I|exact L].
Qed.

Lemma lockout K cfg ops1 ops2 st :
  wf (cs_store st) -> linv K 0 st -> no_gen K (ops1 ++ ops2) ->
  cc_max_retries cfg <= Z.of_nat (fail_count K cfg st ops1) ->
  succ_count K cfg (fst (crun cfg st ops1)) ops2 = O.
Proof.
  intros W L NG F. apply no_gen_app in NG. destruct NG as [NG1 NG2].
  destruct (fail_progress K cfg ops1 st 0 W L NG1) as [W2 L2].
  apply locked_zero; try assumption.
  unfold linv in *. destruct (cget K (cs_store (fst (crun cfg st ops1)))); [lia|exact I].
Qed.

(* ------------------------------------------------------------------ *)
(* reachable states: unique keys, counters >= 0 *)

Definition counts_nonneg (st : cstore) : Prop := Forall (fun p => 0 <= ce_count (snd p)) st.

Lemma counts_cdel k st : counts_nonneg st -> counts_nonneg (cdel k st).
Proof.
  unfold counts_nonneg. induction 1 as [|[k' e'] r H1 H2 IH]; cbn [cdel]; [constructor|].
  destruct (bytes_eqb k k'); [exact IH|constructor; assumption].
Qed.

Lemma counts_filter f st : counts_nonneg st -> counts_nonneg (filter f st).
Proof.
  unfold counts_nonneg. induction 1 as [|p r H1 H2 IH]; cbn [filter]; [constructor|].
  destruct (f p); [constructor; assumption|exact IH].
Qed.

Lemma counts_linv K st : counts_nonneg (cs_store st) -> linv K 0 st.
Proof.
  intros H. unfold linv. destruct (cget K (cs_store st)) as [e|] eqn:E; [|exact I].
  apply cget_in in E. unfold counts_nonneg in H. rewrite Forall_forall in H. exact (H _ E).
Qed.

Lemma step_reach cfg st op :
  wf (cs_store st) -> counts_nonneg (cs_store st) ->
  wf (cs_store (fst (cstep cfg st op))) /\ counts_nonneg (cs_store (fst (cstep cfg st op))).
Proof.
  intros W C. destruct op as [cred uid lt nc|secret|d]; cbn [cstep].
  - set (s1 := cexpire _ _).
    assert (wf s1 /\ counts_nonneg s1) as [W1 C1] by (split; [now apply wf_filter|now apply counts_filter]).
    destruct (lt <? 0); [cbn; tauto|].
    destruct (cget (key_of_cred cred) s1); cbn [fst cs_store]; [tauto|].
    split; [now apply wf_cput|]. constructor; [cbn; lia|now apply counts_cdel].
  - destruct (split_colon secret) as [[code cred]|]; [|cbn; tauto].
    destruct (cget (key_of_cred cred) (cs_store st)) as [e|] eqn:E; [|cbn; tauto].
    destruct (cc_max_retries cfg <=? ce_count e); [cbn; tauto|].
    destruct (bytes_eqb (ce_code e) code); cbn [negb fst cs_store].
    + split; [now apply wf_cdel|now apply counts_cdel].
    + split; [now apply wf_cput|]. constructor; [|now apply counts_cdel].
      cbn [snd ce_count]. apply cget_in in E. unfold counts_nonneg in C. rewrite Forall_forall in C.
      specialize (C _ E). cbn in C. lia.
  - cbn. tauto.
Qed.

Lemma run_reach cfg ops : forall st,
  wf (cs_store st) -> counts_nonneg (cs_store st) ->
  wf (cs_store (fst (crun cfg st ops))) /\ counts_nonneg (cs_store (fst (crun cfg st ops))).
Proof.
  induction ops as [|op r IH]; intros st W C; cbn [crun]; [cbn; tauto|].
  destruct (step_reach cfg st op W C) as [W1 C1].
  destruct (cstep cfg st op) as [st1 res]. cbn [fst] in *.
  specialize (IH st1 W1 C1). destruct (crun cfg st1 r) as [st2 rs]. exact IH.
Qed.

Lemma init_reach : wf (cs_store cinit) /\ counts_nonneg (cs_store cinit).
Proof. split; constructor. Qed.

(* ------------------------------------------------------------------ *)
(* life time of a code *)

(* Authenticate as it is never looks at the clock: a code stays valid until some later GenSecret
   (for any credential) collects it.  With the expiry check added it does not: *)
Lemma code_expiry_fixed cfg st secret st' uid cred code :
  wf (cs_store st) -> split_colon secret = Some (code, cred) ->
  cstep_fixed cfg st (CAuth secret) = (st', CAuthOk uid cred) ->
  exists e, cget (key_of_cred cred) (cs_store st) = Some e /\ cs_now st - cc_lifetime cfg <= ce_created e.
Proof.
  intros W S. cbn [cstep_fixed cstep cs_store cs_now]. rewrite S.
  unfold cexpire. rewrite cget_filter by exact W.
  destruct (cget (key_of_cred cred) (cs_store st)) as [e|]; [|intros [= _ H]; discriminate].
  cbn [snd]. destruct (ce_created e <? cs_now st - cc_lifetime cfg) eqn:E; cbn [negb];
    [intros [= _ H]; discriminate|].
  intros _. exists e. split; [reflexivity|lia].
Qed.
