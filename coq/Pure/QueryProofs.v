(* Proof that the (repaired) parser loop of Query.v computes the reference
   semantics of QuerySpec.v on EVERY query string: induction over the items of
   the string with an invariant on the parser state.  No bound on length. *)
From Coq Require Import NArith ZArith List Bool Lia Arith.
From Coq Require Import ZifyBool ZifyNat ZifyN.
Require Import Tinode.Base.Util Tinode.Pure.Query Tinode.Pure.QuerySpec.
Import ListNotations.

(* ---------- byte length and slicing ---------- *)
Definition blen (l : list N) : Z := fold_right (fun r a => (width r + a)%Z) 0%Z l.

Lemma width_pos r : (0 < width r)%Z.
Proof. unfold width. repeat destruct (_ <? _)%N; lia. Qed.

Lemma blen_cons r l : blen (r :: l) = (width r + blen l)%Z.
Proof. reflexivity. Qed.

Lemma blen_app a b : blen (a ++ b) = (blen a + blen b)%Z.
Proof.
  induction a as [|r a IH]; [cbn [app]; change (blen []) with 0%Z; lia|].
  rewrite <- app_comm_cons, !blen_cons, IH. lia.
Qed.

Lemma blen_nonneg l : (0 <= blen l)%Z.
Proof. induction l as [|r l IH]; [cbn; lia|]. rewrite blen_cons. pose proof (width_pos r). lia. Qed.

Lemma blen_pos l : l <> [] -> (0 < blen l)%Z.
Proof. destruct l as [|r l]; [congruence|]. intros _. rewrite blen_cons. pose proof (width_pos r). pose proof (blen_nonneg l). lia. Qed.

Lemma slice_after c : forall pos s e, (e <= pos)%Z -> slice_from c pos s e = [].
Proof.
  induction c as [|r c IH]; intros pos s e H; [reflexivity|].
  cbn [slice_from]. pose proof (width_pos r).
  rewrite IH by lia.
  destruct ((s <=? pos)%Z && (pos + width r <=? e)%Z) eqn:E; [lia|].
  replace (Z.to_nat _) with 0%nat by lia. reflexivity.
Qed.

Lemma slice_inside b : forall c pos s e, (s <= pos)%Z -> e = (pos + blen b)%Z ->
  slice_from (b ++ c) pos s e = b.
Proof.
  induction b as [|r b IH]; intros c pos s e Hs He.
  - cbn [app]. apply slice_after. cbn in He. lia.
  - rewrite blen_cons in He. cbn [app slice_from]. pose proof (width_pos r). pose proof (blen_nonneg b).
    replace ((s <=? pos)%Z && (pos + width r <=? e)%Z) with true by lia.
    rewrite IH by lia. reflexivity.
Qed.

Lemma slice_before a : forall b c pos s e, s = (pos + blen a)%Z -> e = (s + blen b)%Z ->
  slice_from (a ++ b ++ c) pos s e = b.
Proof.
  induction a as [|r a IH]; intros b c pos s e Hs He.
  - cbn [app]. apply slice_inside; cbn in Hs; lia.
  - rewrite blen_cons in Hs. cbn [app slice_from]. pose proof (width_pos r). pose proof (blen_nonneg a).
    pose proof (blen_nonneg b).
    replace ((s <=? pos)%Z && (pos + width r <=? e)%Z) with false by lia.
    replace (Z.to_nat _) with 0%nat by lia. cbn [repeat app].
    apply IH; lia.
Qed.

Lemma substr_mid a b c : substr (a ++ b ++ c) (blen a) (blen a + blen b) = b.
Proof. unfold substr. apply slice_before; lia. Qed.

Ltac ltb_case := match goal with |- context [(?a <? ?b)%Z] => destruct (Z.ltb_spec a b) end.

(* ---------- the token a context is holding ---------- *)
Definition opl (b : bool) : lexeme := if b then OR else AND.

Definition tok_text (q : list N) (uq : bool) (st en : Z) : option (list N) :=
  let s := if uq then (st + 1)%Z else st in
  let e := if uq then (en - 1)%Z else en in
  if (s <? e)%Z then Some (substr q s e) else None.

Definition some_text (w : list N) : option (list N) := if is_nil w then None else Some w.

Definition wrap (qd : bool) (w : list N) : list N := if qd then [cQuote] ++ w ++ [cQuote] else w.

Lemma tok_text_term pre0 qd w post :
  tok_text (pre0 ++ wrap qd w ++ post) qd (blen pre0) (blen pre0 + blen (wrap qd w)) = some_text w.
Proof.
  unfold tok_text, some_text, wrap. destruct qd.
  - rewrite !blen_app. change (blen [cQuote]) with 1%Z.
    destruct w as [|r w]; cbn [is_nil].
    + cbn [blen fold_right]. ltb_case; [lia|reflexivity].
    + pose proof (blen_pos (r :: w) ltac:(congruence)).
      ltb_case; [|lia]. f_equal.
      replace (pre0 ++ ([cQuote] ++ (r :: w) ++ [cQuote]) ++ post)
        with ((pre0 ++ [cQuote]) ++ (r :: w) ++ ([cQuote] ++ post)) by (rewrite <- !app_assoc; reflexivity).
      replace (blen pre0 + 1)%Z with (blen (pre0 ++ [cQuote])) by (rewrite blen_app; reflexivity).
      replace (blen pre0 + (1 + (blen (r :: w) + 1)) - 1)%Z with (blen (pre0 ++ [cQuote]) + blen (r :: w))%Z
        by (rewrite blen_app; change (blen [cQuote]) with 1%Z; lia).
      apply substr_mid.
  - destruct w as [|r w]; cbn [is_nil].
    + cbn [blen fold_right]. ltb_case; [lia|reflexivity].
    + pose proof (blen_pos (r :: w) ltac:(congruence)).
      ltb_case; [|lia]. f_equal. apply substr_mid.
Qed.

Section Proofs.
  Variable lower : N -> N.
  Variable rewrite : list N -> list N.

  Definition toks_of (o : bool) (pend : option (list N)) : list token :=
    match pend with
    | None => []
    | Some w =>
      let original := to_lower lower w in
      let rw := rewrite original in
      if is_nil rw then []
      else [mkTok (opl o) original (if list_eqb rw original then [] else rw)]
    end.

  Lemma emit_token_eq q p po uq st en qo o :
    emit_token lower rewrite q (mkCtx (opl p) po qo uq st en) o
    = o ++ toks_of (p || lexeme_eqb po OR) (tok_text q uq st en).
  Proof.
    unfold emit_token, tok_text, toks_of. cbn [postOp preOp unquote cstart cend].
    assert (Hop : (if lexeme_eqb po OR then OR else opl p) = opl (p || lexeme_eqb po OR))
      by (destruct p, (lexeme_eqb po OR); reflexivity).
    rewrite Hop.
    destruct ((if uq then (st + 1)%Z else st) <? (if uq then (en - 1)%Z else en))%Z; [|now rewrite app_nil_r].
    cbv zeta. destruct (is_nil _); [now rewrite app_nil_r|reflexivity].
  Qed.

  (* ---------- the loop, cut at any point ---------- *)
  Notation body := (iter lower rewrite).

  Fixpoint steps (q : list N) (i : Z) (s : pstate) (l : list N) : result (Z * pstate) :=
    match l with
    | [] => Ok (i, s)
    | r :: t => match body q i s (Some r) with
                | Err => Err
                | Ok s' => steps q (i + width r)%Z s' t
                end
    end.

  Lemma loop_app q l1 : forall i s l2,
    loop body q i s (l1 ++ l2) =
    match steps q i s l1 with Err => Err | Ok (i', s') => loop body q i' s' l2 end.
  Proof.
    induction l1 as [|r l1 IH]; intros i s l2; [reflexivity|].
    cbn [app loop steps]. destruct (body q i s (Some r)); [apply IH|reflexivity].
  Qed.

  Lemma steps_app q l1 : forall i s l2,
    steps q i s (l1 ++ l2) =
    match steps q i s l1 with Err => Err | Ok (i', s') => steps q i' s' l2 end.
  Proof.
    induction l1 as [|r l1 IH]; intros i s l2; [reflexivity|].
    cbn [app steps]. destruct (body q i s (Some r)); [apply IH|reflexivity].
  Qed.

  (* ---------- lexemes ---------- *)
  Lemma lexeme_inquote r : is_quoteb r = false -> lexeme_of true (Some r) = ORD.
  Proof. unfold is_quoteb, lexeme_of. intros ->. reflexivity. Qed.

  Lemma lexeme_word r : is_wordb r = true -> lexeme_of false (Some r) = ORD.
  Proof.
    unfold is_wordb, is_sepb, is_quoteb, lexeme_of. intros H.
    destruct (r =? cQuote)%N; [cbn in H; lia|].
    destruct (r =? cSpace)%N; [cbn in H; lia|].
    destruct (r =? cTab)%N; [cbn in H; lia|].
    destruct (r =? cComma)%N; [cbn in H; lia|]. reflexivity.
  Qed.

  Definition is_commab (r : N) : bool := (r =? cComma)%N.

  Lemma lexeme_sep r : is_sepb r = true -> lexeme_of false (Some r) = opl (is_commab r).
  Proof.
    unfold is_sepb, lexeme_of, is_commab, cQuote, cSpace, cTab, cComma. intros H.
    destruct (r =? 34)%N eqn:E1; [lia|].
    destruct (r =? 32)%N eqn:E2; [replace (r =? 44)%N with false by lia; reflexivity|].
    destruct (r =? 9)%N eqn:E3; [replace (r =? 44)%N with false by lia; reflexivity|].
    destruct (r =? 44)%N eqn:E4; [reflexivity|]. cbn in H. discriminate.
  Qed.

  (* iter with the lexeme abstracted *)
  Definition iter_core (q : list N) (i : Z) (s : pstate) (curr : lexeme) : result pstate :=
    let c := ctx s in
    let qres :=
      if lexeme_eqb curr QUO then
        if quo c then Ok (set_quo c false, ORD, false, true)
        else if lexeme_eqb (prev s) ORD then Err
        else Ok (c, ORD, true, false)
      else if lexeme_eqb curr ORD && closed s then Err
      else Ok (c, curr, false, false) in
    match qres with
    | Err => Err
    | Ok (c, curr, opening, closing) =>
      match parser_switch i c (prev s) curr with
      | Err => Err
      | Ok (c, emit) =>
        let open c := if opening then set_unquote (set_quo c true) true else c in
        if emit then
          if quo c then Err
          else Ok (mkSt (open (emit_ctx i c)) curr (emit_token lower rewrite q c (out s)) closing)
        else Ok (mkSt (open c) curr (out s) closing)
      end
    end.

  Lemma iter_eq q i s r : body q i s r = iter_core q i s (lexeme_of (quo (ctx s)) r).
  Proof. reflexivity. Qed.

  Ltac run :=
    unfold iter_core, parser_switch, set_quo, set_unquote, set_postOp, set_end, emit_ctx;
    cbn [ctx prev out closed quo unquote preOp postOp cstart cend lexeme_eqb andb orb negb
         parser_switch set_quo set_unquote set_postOp set_end emit_ctx opl].

  (* ---------- runs of runes ---------- *)
  (* runes that leave the state as it is *)
  Lemma steps_inert q s w : (forall i r, In r w -> body q i s (Some r) = Ok s) ->
    forall i, steps q i s w = Ok ((i + blen w)%Z, s).
  Proof.
    induction w as [|r w IH]; intros H i.
    - cbn. f_equal. f_equal. lia.
    - cbn [steps]. rewrite H by now left. rewrite IH by (intros j r' Hr; apply H; now right).
      rewrite blen_cons. f_equal. f_equal. lia.
  Qed.

  (* inside a word *)
  Lemma steps_word q w i p uq st en o :
    forallb is_wordb w = true ->
    steps q i (mkSt (mkCtx p NONE false uq st en) ORD o false) w
    = Ok ((i + blen w)%Z, mkSt (mkCtx p NONE false uq st en) ORD o false).
  Proof.
    intros H. apply steps_inert. intros j r Hr.
    rewrite iter_eq. cbn [ctx quo]. now rewrite (lexeme_word r (proj1 (forallb_forall _ _) H r Hr)).
  Qed.

  Definition no_quote (l : list N) : bool := forallb (fun r => negb (is_quoteb r)) l.

  (* inside a quoted string *)
  Lemma steps_quoted q w i p st en o :
    no_quote w = true ->
    steps q i (mkSt (mkCtx p NONE true true st en) ORD o false) w
    = Ok ((i + blen w)%Z, mkSt (mkCtx p NONE true true st en) ORD o false).
  Proof.
    intros H. apply steps_inert. intros j r Hr. apply (proj1 (forallb_forall _ _) H), negb_true_iff in Hr.
    rewrite iter_eq. cbn [ctx quo]. now rewrite (lexeme_inquote r Hr).
  Qed.

  Definition b2n (b : bool) : nat := if b then 1%nat else 0%nat.

  Lemma commas_cons r s : commas (r :: s) = (b2n (is_commab r) + commas s)%nat.
  Proof. unfold commas, is_commab. cbn [filter]. destruct (r =? cComma)%N; reflexivity. Qed.

  Lemma has_comma_cons r s : has_comma (r :: s) = is_commab r || has_comma s.
  Proof. unfold has_comma. rewrite commas_cons. now destruct (is_commab r). Qed.

  Definition is_sep_lex (l : lexeme) : Prop := l = AND \/ l = OR.

  Lemma opl_sep b : is_sep_lex (opl b).
  Proof. destruct b; [now right|now left]. Qed.

  Lemma opl_or c : lexeme_eqb (opl c) OR = c.
  Proof. now destruct c. Qed.

  (* a separator rune, wherever it comes: a second comma in the run is the only error;
     it closes the token that an ordinary rune before it was part of *)
  Lemma iter_sep q i p po uq st en pv o cl r :
    is_sepb r = true -> (lexeme_eqb pv ORD = true -> lexeme_eqb po OR = false) ->
    body q i (mkSt (mkCtx p po false uq st en) pv o cl) (Some r) =
    if is_commab r && lexeme_eqb po OR then Err
    else Ok (mkSt (mkCtx p (opl (is_commab r || lexeme_eqb po OR)) false uq st
                         (if lexeme_eqb pv ORD then i else en)) (opl (is_commab r)) o false).
  Proof.
    intros Hr. rewrite iter_eq. cbn [ctx quo]. rewrite (lexeme_sep r Hr).
    destruct (lexeme_eqb pv ORD) eqn:Epv; intros Hpv;
      [rewrite (Hpv eq_refl), andb_false_r, orb_false_r; destruct (is_commab r)
      |destruct (is_commab r), po];
      run; rewrite ?Epv, ?(Hpv eq_refl); reflexivity.
  Qed.

  (* ---------- list facts about the reference lexer ---------- *)
  Definition hd_not (p : N -> bool) (l : list N) : Prop :=
    match l with [] => True | x :: _ => p x = false end.

  Lemma span_spec p l : forall a b, span p l = (a, b) ->
    l = a ++ b /\ forallb p a = true /\ hd_not p b /\ (length b <= length l)%nat.
  Proof.
    induction l as [|r l IH]; intros a b H; cbn [span] in H.
    - inversion H. repeat split; cbn; auto.
    - destruct (p r) eqn:Er.
      + destruct (span p l) as [a' b'] eqn:E. inversion H; subst.
        destruct (IH _ _ eq_refl) as (H1 & H2 & H3 & H4).
        repeat split; [cbn; now f_equal|cbn; now rewrite Er, H2|assumption|cbn; lia].
      + inversion H; subst. repeat split; cbn; auto.
  Qed.

  Lemma is_quoteb_eq r : is_quoteb r = true -> r = cQuote.
  Proof. unfold is_quoteb. intros H. now apply N.eqb_eq. Qed.

  Lemma until_quote_some t : forall a b, until_quote t = Some (a, b) ->
    t = a ++ cQuote :: b /\ no_quote a = true /\ (length b < length t)%nat.
  Proof.
    induction t as [|r t IH]; intros a b H; cbn [until_quote] in H; [discriminate|].
    destruct (is_quoteb r) eqn:Er.
    - inversion H; subst. apply is_quoteb_eq in Er. subst. repeat split; cbn; auto.
    - destruct (until_quote t) as [[a' b']|]; [|discriminate]. inversion H; subst.
      destruct (IH _ _ eq_refl) as (H1 & H2 & H3).
      repeat split; [cbn; now f_equal|unfold no_quote in *; cbn; now rewrite Er, H2|cbn; lia].
  Qed.

  Lemma until_quote_none t : until_quote t = None -> no_quote t = true.
  Proof.
    induction t as [|r t IH]; intros H; [reflexivity|]. cbn [until_quote] in H.
    destruct (is_quoteb r) eqn:Er; [discriminate|].
    destruct (until_quote t) as [[a' b']|]; [discriminate|].
    unfold no_quote in *. cbn. now rewrite Er, IH.
  Qed.

  (* ---------- the invariant between two items ----------
     What the parser holds after the items read so far.  [o]: the tokens already out.
     [ATerm p qd wt o]: the last item was the term [wt] ([qd]: quoted), not yet out; [p]: a comma
     stood before it.  [ASep p pend c o]: the last item is a separator run; [pend] is the term
     before it (still not out: whether it is an OR term depends on this run too), [p] as before,
     [c]: the run holds a comma.
     [rel q a pre s]: the loop state [s] after the prefix [pre] of [q] stands for [a].  Inside a
     separator run the loop state does not record the position, so the [ASep] case says nothing
     about [pre]; [outa a its]: the tokens of the whole query when the items [its] are still to come. *)
  Inductive astate :=
  | AInit
  | ATerm (p qd : bool) (wt : list N) (o : list token)
  | ASep (p : bool) (pend : option (list N)) (c : bool) (o : list token).

  Definition rel (q : list N) (a : astate) (pre : list N) (s : pstate) : Prop :=
    match a with
    | AInit => pre = [] /\ s = init_state
    | ATerm p qd wt o => exists pre0 en, pre = pre0 ++ wrap qd wt /\
        s = mkSt (mkCtx (opl p) NONE false qd (blen pre0) en) ORD o qd
    | ASep p pend c o => exists uq st en pv, is_sep_lex pv /\ tok_text q uq st en = pend /\
        s = mkSt (mkCtx (opl p) (opl c) false uq st en) pv o false
    end.

  Definition toks (ts : list (bool * list N)) : list token :=
    flat_map (fun t => toks_of (fst t) (some_text (snd t))) ts.

  Definition outa (a : astate) (its : list item) : list token :=
    match a with
    | AInit => toks (terms false its)
    | ATerm p qd wt o => o ++ toks_of (p || next_comma its) (some_text wt) ++ toks (terms false its)
    | ASep p pend c o => o ++ toks_of (p || c) pend ++ toks (terms c its)
    end.

  Definition wfa (a : astate) (its : list item) : bool :=
    match a with ATerm _ _ _ _ => wf_items true its | _ => wf_items false its end.

  Definition final (a : astate) (l : option (list item)) : result (list token) :=
    match l with
    | None => Err
    | Some its => if wfa a its then Ok (outa a its) else Err
    end.

  Definition astep_term (a : astate) (qd : bool) (wt : list N) : option astate :=
    match a with
    | AInit => Some (ATerm false qd wt [])
    | ASep p pend c o => Some (ATerm c qd wt (o ++ toks_of (p || c) pend))
    | ATerm _ _ _ _ => None
    end.

  (* [c]: the run holds a comma *)
  Definition astep_sep (a : astate) (c : bool) : astate :=
    match a with
    | AInit => ASep false None c []
    | ATerm p qd wt o => ASep p (some_text wt) c o
    | ASep _ _ _ _ => a
    end.

  (* end of input *)
  Lemma end_item q a s fuel : rel q a q s -> loop body q (blen q) s [] = final a (lex fuel []).
  Proof.
    intros Hrel. replace (lex fuel []) with (Some (@nil item)) by now destruct fuel.
    replace (final a (Some [])) with (Ok (outa a [])) by now destruct a.
    cbn [loop]. rewrite iter_eq. cbn [lexeme_of].
    destruct a as [|p qd wt o|p pend c o]; cbn [rel] in Hrel.
    - destruct Hrel as [-> ->]. unfold init_state. run. apply f_equal.
      change AND with (opl false). rewrite emit_token_eq. reflexivity.
    - destruct Hrel as (pre0 & en & Hpre & ->). run. apply f_equal.
      rewrite emit_token_eq. cbn [lexeme_eqb outa terms toks flat_map next_comma].
      rewrite app_nil_r. f_equal. f_equal. subst q.
      rewrite blen_app.
      replace (pre0 ++ wrap qd wt) with (pre0 ++ wrap qd wt ++ []) by now rewrite app_nil_r.
      apply tok_text_term.
    - destruct Hrel as (uq & st & en & pv & Hpv & Hpend & ->).
      destruct Hpv as [-> | ->]; run; apply f_equal; rewrite emit_token_eq, opl_or; subst pend;
        cbn [outa terms toks flat_map]; now rewrite app_nil_r.
  Qed.

  (* the first separator after the start or after a term *)
  Lemma sep_first q a pre r post s :
    q = pre ++ r :: post -> is_sepb r = true -> rel q a pre s ->
    match a with ASep _ _ _ _ => False | _ => True end ->
    exists s', body q (blen pre) s (Some r) = Ok s' /\ rel q (astep_sep a (is_commab r)) pre s'.
  Proof.
    intros Hq Hr Hrel Ha. destruct a as [|p qd wt o|]; [| |contradiction]; cbn [rel astep_sep] in *.
    - destruct Hrel as [-> ->]. unfold init_state. rewrite iter_sep by (assumption || discriminate).
      cbn [lexeme_eqb]. rewrite andb_false_r, orb_false_r. eexists. split; [reflexivity|].
      exists false, 0%Z, 0%Z, (opl (is_commab r)). split; [apply opl_sep|split; reflexivity].
    - destruct Hrel as (pre0 & en & -> & ->). change AND with (opl false). rewrite iter_sep by (assumption || reflexivity).
      cbn [lexeme_eqb]. rewrite andb_false_r, orb_false_r. eexists. split; [reflexivity|].
      exists qd, (blen pre0), (blen (pre0 ++ wrap qd wt)), (opl (is_commab r)).
      split; [apply opl_sep|split; [|reflexivity]].
      subst q. rewrite <- app_assoc, blen_app. apply tok_text_term.
  Qed.

  (* further separators of the run; [c]: a comma has been seen.  [rel] at [ASep] does not mention
     the prefix, hence the two unrelated [pre], [pre'] *)
  Lemma steps_sep q pre pre' sp : forall i p pend c o s,
    forallb is_sepb sp = true -> rel q (ASep p pend c o) pre s ->
    if (2 <=? b2n c + commas sp)%nat then steps q i s sp = Err
    else exists s', steps q i s sp = Ok ((i + blen sp)%Z, s') /\ rel q (ASep p pend (c || has_comma sp) o) pre' s'.
  Proof.
    induction sp as [|r sp IH]; intros i p pend c o s H Hrel.
    - replace (2 <=? _)%nat with false by (destruct c; reflexivity).
      exists s. rewrite orb_false_r. split; [cbn; f_equal; f_equal; lia|exact Hrel].
    - cbn [forallb] in H. apply andb_prop in H as [Hr Hs].
      destruct Hrel as (uq & st & en & pv & Hpv & Hpend & ->).
      assert (Epv : lexeme_eqb pv ORD = false) by (destruct Hpv as [-> | ->]; reflexivity).
      cbn [steps]. rewrite iter_sep, Epv, opl_or, commas_cons, has_comma_cons, blen_cons by (assumption || congruence).
      specialize (IH (i + width r)%Z p pend (is_commab r || c) o _ Hs
        (ex_intro _ uq (ex_intro _ st (ex_intro _ en (ex_intro _ _ (conj (opl_sep (is_commab r)) (conj Hpend eq_refl))))))).
      destruct (is_commab r), c; cbn [andb orb b2n Nat.add] in *; [reflexivity| | |];
        (destruct (2 <=? _)%nat; [exact IH|]; destruct IH as (s' & -> & R);
         exists s'; split; [f_equal; f_equal; lia|exact R]).
  Qed.

  (* a separator run *)
  Lemma sep_item q a pre r sp post s :
    q = pre ++ (r :: sp) ++ post -> forallb is_sepb (r :: sp) = true -> rel q a pre s ->
    match a with ASep _ _ _ _ => False | _ => True end ->
    if (2 <=? commas (r :: sp))%nat then steps q (blen pre) s (r :: sp) = Err
    else exists s', steps q (blen pre) s (r :: sp) = Ok (blen (pre ++ r :: sp), s')
                    /\ rel q (astep_sep a (has_comma (r :: sp))) (pre ++ r :: sp) s'.
  Proof.
    intros Hq Hsp Hrel Ha. cbn [forallb] in Hsp. apply andb_prop in Hsp as [Hr Hs].
    destruct (sep_first q a pre r _ s Hq Hr Hrel Ha) as (s1 & E1 & R1).
    cbn [steps]. rewrite E1, commas_cons, has_comma_cons.
    replace (blen (pre ++ r :: sp)) with (blen pre + width r + blen sp)%Z by (rewrite blen_app, blen_cons; lia).
    destruct a as [|p qd wt o|]; [| |contradiction]; exact (steps_sep q _ _ sp _ _ _ _ _ _ Hs R1).
  Qed.

  Ltac blen_solve :=
    cbn [app]; repeat (rewrite blen_app || rewrite blen_cons); change (blen []) with 0%Z;
    change (width cQuote) with 1%Z; lia.
  Ltac ok_pair := apply f_equal; apply f_equal2; [blen_solve|reflexivity].

  (* the first rune of a term: a word rune, or the opening quote ([qd]) *)
  Lemma term_first q a pre s r (qd : bool) wt :
    rel q a pre s -> lexeme_of false (Some r) = (if qd then QUO else ORD) ->
    (qd = false -> match a with ATerm _ false _ _ => False | _ => True end) ->
    match astep_term a qd wt with
    | Some a' =>
      exists p' o' en, a' = ATerm p' qd wt o' /\
        body q (blen pre) s (Some r) = Ok (mkSt (mkCtx (opl p') NONE qd qd (blen pre) en) ORD o' false)
    | None => body q (blen pre) s (Some r) = Err
    end.
  Proof.
    intros Hrel Hl Ha. destruct a as [|p qd' wt' o|p pend c o]; cbn [rel astep_term] in *.
    - destruct Hrel as [-> ->]. unfold init_state. rewrite iter_eq. cbn [ctx quo]. rewrite Hl.
      exists false, [], 0%Z. destruct qd; split; reflexivity.
    - destruct Hrel as (pre0 & en & Hpre & ->). rewrite iter_eq. cbn [ctx quo]. rewrite Hl.
      destruct qd; [destruct qd'; reflexivity|]. destruct qd'; [reflexivity|destruct (Ha eq_refl)].
    - destruct Hrel as (uq & st & en & pv & Hpv & Hpend & ->). rewrite iter_eq. cbn [ctx quo]. rewrite Hl.
      exists c, (o ++ toks_of (p || c) pend), en. split; [reflexivity|].
      destruct qd, Hpv as [-> | ->]; run; rewrite emit_token_eq, opl_or, Hpend; reflexivity.
  Qed.

  Lemma steps_close q i p st en o :
    steps q i (mkSt (mkCtx p NONE true true st en) ORD o false) [cQuote]
    = Ok ((i + 1)%Z, mkSt (mkCtx p NONE false true st en) ORD o true).
  Proof. reflexivity. Qed.

  (* a term: a word, or a quoted string with its quotes ([qd]) *)
  Lemma term_item q a pre (qd : bool) wt post s :
    q = pre ++ wrap qd wt ++ post -> (if qd then no_quote wt else forallb is_wordb wt) = true ->
    (qd = false -> wt <> [] /\ match a with ATerm _ false _ _ => False | _ => True end) ->
    rel q a pre s ->
    match astep_term a qd wt with
    | None => steps q (blen pre) s (wrap qd wt) = Err
    | Some a' => exists s', steps q (blen pre) s (wrap qd wt) = Ok (blen (pre ++ wrap qd wt), s')
                            /\ rel q a' (pre ++ wrap qd wt) s'
    end.
  Proof.
    intros Hq Hw Hs Hrel. destruct qd; unfold wrap.
    - cbn [app steps].
      generalize (term_first q a pre s cQuote true wt Hrel eq_refl ltac:(discriminate)).
      destruct (astep_term a true wt) as [a'|]; [|intros ->; reflexivity].
      intros (p' & o' & en & -> & ->). rewrite steps_app, steps_quoted by assumption. rewrite steps_close.
      eexists. split; [ok_pair|]. exists pre, en. split; reflexivity.
    - destruct (Hs eq_refl) as [Hne Ha]. destruct wt as [|r w]; [contradiction|].
      cbn [forallb] in Hw. apply andb_prop in Hw as [Hr Hw]. cbn [steps].
      generalize (term_first q a pre s r false (r :: w) Hrel (lexeme_word r Hr) (fun _ => Ha)).
      destruct (astep_term a false (r :: w)) as [a'|]; [|intros ->; reflexivity].
      intros (p' & o' & en & -> & ->). rewrite steps_word by assumption.
      eexists. split; [ok_pair|]. exists pre, en. split; reflexivity.
  Qed.

  (* a quote that is never closed *)
  Lemma unterminated q a pre t s :
    no_quote t = true -> rel q a pre s -> loop body q (blen pre) s (cQuote :: t) = Err.
  Proof.
    intros Ht Hrel.
    replace (cQuote :: t) with ((cQuote :: t) ++ []) by apply app_nil_r.
    rewrite loop_app. cbn [steps].
    generalize (term_first q a pre s cQuote true t Hrel eq_refl ltac:(discriminate)).
    destruct (astep_term a true t) as [a'|]; [|intros ->; reflexivity].
    intros (p' & o' & en & -> & ->). rewrite steps_quoted by assumption. reflexivity.
  Qed.

  (* ---------- the spec side of one step ---------- *)
  Lemma final_sep a sp L :
    match a with ASep _ _ _ _ => False | _ => True end ->
    final a (option_map (cons (Sep sp)) L) =
    if (2 <=? commas sp)%nat then Err else final (astep_sep a (has_comma sp)) L.
  Proof.
    intros Ha. destruct L as [its|]; cbn [option_map final]; [|now destruct (2 <=? _)%nat].
    destruct a as [|p qd wt o|]; [| |contradiction]; cbn [wfa wf_items astep_sep outa terms next_comma];
      destruct (2 <=? commas sp)%nat eqn:E;
      (replace (Nat.leb (commas sp) 1) with false by lia) || (replace (Nat.leb (commas sp) 1) with true by lia);
      cbn [andb]; reflexivity.
  Qed.

  Lemma final_term a (qd : bool) wt L it :
    it = (if qd then Quoted wt else Word wt) ->
    final a (option_map (cons it) L) =
    match astep_term a qd wt with None => Err | Some a' => final a' L end.
  Proof.
    intros ->. destruct L as [its|]; cbn [option_map final]; [|now destruct (astep_term a qd wt)].
    destruct a as [|p qd' wt' o|p pend c o]; destruct qd;
      cbn [wfa wf_items astep_term outa terms next_comma negb andb toks flat_map fst snd orb];
      try reflexivity; destruct (wf_items true its); try reflexivity;
      rewrite <- ?app_assoc; reflexivity.
  Qed.

  (* ---------- the main induction ---------- *)
  Definition side (a : astate) (rest : list N) : Prop :=
    match a with
    | ATerm _ false _ _ => hd_not is_wordb rest
    | ASep _ _ _ _ => hd_not is_sepb rest
    | _ => True
    end.

  Lemma main q : forall fuel rest pre s a,
    (length rest <= fuel)%nat -> q = pre ++ rest -> rel q a pre s -> side a rest ->
    loop body q (blen pre) s rest = final a (lex fuel rest).
  Proof.
    induction fuel as [|f IH]; intros rest pre s a Hlen Hq Hrel Hside.
    - destruct rest; [|cbn in Hlen; lia]. rewrite app_nil_r in Hq. subst pre. now apply end_item.
    - destruct rest as [|r t].
      + rewrite app_nil_r in Hq. subst pre. now apply end_item.
      + cbn [lex]. destruct (is_sepb r) eqn:Esep.
        * (* separator run *)
          destruct (span is_sepb t) as [sp rest'] eqn:Espan.
          destruct (span_spec _ _ _ _ Espan) as (Ht & Hsp & Hhd & Hl). subst t.
          assert (Ha : match a with ASep _ _ _ _ => False | _ => True end).
          { destruct a; auto. cbn in Hside. congruence. }
          rewrite final_sep by assumption.
          change (r :: sp ++ rest') with ((r :: sp) ++ rest'). rewrite loop_app.
          pose proof (sep_item q a pre r sp rest' s Hq ltac:(cbn; now rewrite Esep, Hsp) Hrel Ha) as Hstep.
          destruct (2 <=? commas (r :: sp))%nat; [now rewrite Hstep|].
          destruct Hstep as (s' & -> & Hrel').
          apply IH; [cbn in Hlen; lia|now rewrite <- app_assoc|assumption|].
          destruct a; cbn [astep_sep side]; auto; contradiction.
        * destruct (is_quoteb r) eqn:Equo.
          -- (* quoted string *)
             apply is_quoteb_eq in Equo. subst r.
             destruct (until_quote t) as [[w rest']|] eqn:Eu.
             ++ destruct (until_quote_some _ _ _ Eu) as (Ht & Hw & Hl). subst t.
                rewrite (final_term a true w _ _ eq_refl).
                assert (E : cQuote :: w ++ cQuote :: rest' = wrap true w ++ rest') by (cbn; now rewrite <- app_assoc).
                rewrite E in Hq |- *. rewrite loop_app.
                pose proof (term_item q a pre true w rest' s Hq Hw ltac:(discriminate) Hrel) as Hstep.
                destruct (astep_term a true w) as [a'|] eqn:Ea; [|now rewrite Hstep].
                destruct Hstep as (s' & -> & Hrel').
                apply IH; [cbn in Hlen; lia|now rewrite <- app_assoc|assumption|].
                destruct a; cbn in Ea; inversion Ea; exact I.
             ++ cbn [final]. apply (unterminated q a pre t s); [now apply until_quote_none|assumption].
          -- (* word *)
             assert (Hr : is_wordb r = true) by (unfold is_wordb; now rewrite Esep, Equo).
             destruct (span is_wordb t) as [w rest'] eqn:Espan.
             destruct (span_spec _ _ _ _ Espan) as (Ht & Hw & Hhd & Hl). subst t.
             rewrite (final_term a false (r :: w) _ _ eq_refl).
             change (r :: w ++ rest') with ((r :: w) ++ rest'). rewrite loop_app.
             assert (Ha : match a with ATerm _ false _ _ => False | _ => True end).
             { destruct a as [|? [] ? ?|]; auto. cbn in Hside. congruence. }
             assert (Hrw : forallb is_wordb (r :: w) = true) by (cbn [forallb]; now rewrite Hr).
             assert (Hne : r :: w <> []) by discriminate.
             pose proof (term_item q a pre false (r :: w) rest' s Hq Hrw (fun _ => conj Hne Ha) Hrel) as Hstep.
             unfold wrap in Hstep.
             destruct (astep_term a false (r :: w)) as [a'|] eqn:Ea; [|now rewrite Hstep].
             destruct Hstep as (s' & -> & Hrel').
             apply IH; [cbn in Hlen; lia|now rewrite <- app_assoc|assumption|].
             destruct a; cbn in Ea; inversion Ea; exact Hhd.
  Qed.

  (* ---------- tokens to the two slices ---------- *)
  Lemma group_one (o : bool) w l :
    group (toks_of o (some_text w) ++ l) =
    let '(a, b) := group l in
    if o then (a, spellings lower rewrite w ++ b)
    else (if is_nil (spellings lower rewrite w) then a else spellings lower rewrite w :: a, b).
  Proof.
    unfold toks_of, some_text, spellings.
    destruct (is_nil w) eqn:Ew.
    - cbn [app is_nil]. destruct (group l), o; reflexivity.
    - cbv zeta. destruct (is_nil (rewrite (to_lower lower w))) eqn:Er.
      + cbn [app is_nil]. destruct (group l), o; reflexivity.
      + cbn [app group is_nil t_op]. destruct (group l) as [a b]. unfold with_rw. cbn [t_val t_rw].
        destruct (list_eqb (rewrite (to_lower lower w)) (to_lower lower w)) eqn:El.
        * destruct o; reflexivity.
        * rewrite Er. destruct o; reflexivity.
  Qed.

  Lemma group_toks ts :
    group (toks ts) =
    (filter (fun g => negb (is_nil g)) (map (fun t => spellings lower rewrite (snd t)) (filter (fun t => negb (fst t)) ts)),
     flat_map (fun t => spellings lower rewrite (snd t)) (filter (fun t => fst t) ts)).
  Proof.
    induction ts as [|[o w] ts IH]; [reflexivity|].
    unfold toks in *. cbn [flat_map fst snd filter].
    rewrite group_one, IH.
    destruct o; cbn [negb map flat_map filter fst snd]; [reflexivity|].
    destruct (is_nil (spellings lower rewrite w)); reflexivity.
  Qed.

  (* ---------- the parser computes the reference semantics ---------- *)
  Theorem parse_eq query :
    parse lower rewrite query =
    if well_formedb query then Ok (denote lower rewrite query) else Err.
  Proof.
    unfold parse, parse_with, well_formedb, denote, items.
    set (q := trim_space query).
    pose proof (main q (length q) q [] init_state AInit (le_n _) eq_refl (conj eq_refl eq_refl) I) as H.
    change (blen []) with 0%Z in H. rewrite H.
    destruct (lex (length q) q) as [its|]; cbn [final]; [|reflexivity].
    cbn [wfa outa]. destruct (wf_items false its); [|reflexivity].
    unfold denote_items. now rewrite group_toks.
  Qed.

  Theorem parse_sound_complete query r :
    parse lower rewrite query = Ok r <-> well_formed query /\ r = denote lower rewrite query.
  Proof.
    rewrite parse_eq. unfold well_formed. destruct (well_formedb query); split.
    - intros H. inversion H. auto.
    - intros [_ ->]. reflexivity.
    - discriminate.
    - intros [H _]. discriminate.
  Qed.

End Proofs.
