(* Lemmas about Pure/Ring.v.  Everything is for an arbitrary hash function and
   digest (Section variables), arbitrary node-name lists, replica counts and
   keys; no bound on any size. *)
From Coq Require Import NArith ZArith List Bool Arith Lia Permutation Sorted.
From Coq Require Import ZifyBool ZifyNat ZifyN.
From Tinode Require Import Base.Insertion Pure.Ring.
Import ListNotations.

(* ------------------------------------------------------------------ *)
(* the string order                                                    *)

Lemma scmp_refl a : scmp a a = Eq.
Proof. induction a as [|x a IH]; cbn; [reflexivity|]. rewrite N.compare_refl. exact IH. Qed.

Lemma scmp_eq a : forall b, scmp a b = Eq -> a = b.
Proof.
  induction a as [|x a IH]; destruct b as [|y b]; cbn; try discriminate; auto.
  destruct (N.compare x y) eqn:E; try discriminate.
  intros H. apply N.compare_eq in E. f_equal; auto.
Qed.

Lemma scmp_antisym a : forall b, scmp b a = CompOpp (scmp a b).
Proof.
  induction a as [|x a IH]; destruct b as [|y b]; cbn; auto.
  rewrite (N.compare_antisym x y). destruct (N.compare x y); cbn; auto.
Qed.

Lemma scmp_lt_trans a : forall b c, scmp a b = Lt -> scmp b c = Lt -> scmp a c = Lt.
Proof.
  induction a as [|x a IH]; destruct b as [|y b]; destruct c as [|z c]; cbn; try discriminate; auto.
  destruct (N.compare_spec x y) as [E1|E1|E1]; try discriminate;
  destruct (N.compare_spec y z) as [E2|E2|E2]; try discriminate; intros H1 H2.
  - subst. rewrite N.compare_refl. eauto.
  - subst. apply N.compare_lt_iff in E2. rewrite E2. reflexivity.
  - subst. apply N.compare_lt_iff in E1. rewrite E1. reflexivity.
  - assert (E : (x < z)%N) by lia. apply N.compare_lt_iff in E. rewrite E. reflexivity.
Qed.

Lemma seqb_eq a b : seqb a b = true <-> a = b.
Proof.
  unfold seqb. split.
  - destruct (scmp a b) eqn:E; try discriminate. intros _. now apply scmp_eq.
  - intros ->. now rewrite scmp_refl.
Qed.

Lemma seqb_neq a b : seqb a b = false <-> a <> b.
Proof.
  rewrite <- seqb_eq. destruct (seqb a b); split; congruence.
Qed.

(* ------------------------------------------------------------------ *)
(* the element order of sortable.Less                                  *)

Definition ecmp (a b : elt) : comparison :=
  match N.compare (fst a) (fst b) with
  | Eq => scmp (snd a) (snd b)
  | c => c
  end.

Lemma eless_ecmp a b : eless a b = match ecmp a b with Lt => true | _ => false end.
Proof.
  unfold eless, ecmp, sltb.
  destruct (N.compare_spec (fst a) (fst b)) as [E|E|E].
  - rewrite E, N.ltb_irrefl, N.eqb_refl. reflexivity.
  - apply N.ltb_lt in E. rewrite E. reflexivity.
  - assert (H1 : (fst a <? fst b)%N = false) by lia.
    assert (H2 : (fst a =? fst b)%N = false) by lia.
    rewrite H1, H2. reflexivity.
Qed.

Lemma ecmp_refl a : ecmp a a = Eq.
Proof. unfold ecmp. rewrite N.compare_refl. apply scmp_refl. Qed.

Lemma ecmp_eq a b : ecmp a b = Eq -> a = b.
Proof.
  destruct a as [h1 k1], b as [h2 k2]. unfold ecmp. cbn [fst snd].
  destruct (N.compare h1 h2) eqn:E; try discriminate.
  intros H. apply N.compare_eq in E. apply scmp_eq in H. congruence.
Qed.

Lemma ecmp_antisym a b : ecmp b a = CompOpp (ecmp a b).
Proof.
  unfold ecmp. rewrite (N.compare_antisym (fst a) (fst b)).
  destruct (N.compare (fst a) (fst b)); cbn; auto. apply scmp_antisym.
Qed.

Lemma ecmp_lt_trans a b c : ecmp a b = Lt -> ecmp b c = Lt -> ecmp a c = Lt.
Proof.
  unfold ecmp.
  destruct (N.compare_spec (fst a) (fst b)) as [E1|E1|E1]; try discriminate;
  destruct (N.compare_spec (fst b) (fst c)) as [E2|E2|E2]; try discriminate; intros H1 H2.
  - rewrite E1, E2, N.compare_refl. eapply scmp_lt_trans; eauto.
  - rewrite E1. apply N.compare_lt_iff in E2. rewrite E2. reflexivity.
  - rewrite <- E2. apply N.compare_lt_iff in E1. rewrite E1. reflexivity.
  - assert (E : (fst a < fst c)%N) by lia. apply N.compare_lt_iff in E. rewrite E. reflexivity.
Qed.

(* a <= b in the code's order: Less(b, a) is false *)
Definition ele (a b : elt) : Prop := eless b a = false.

Lemma ele_ecmp a b : ele a b <-> ecmp a b <> Gt.
Proof.
  unfold ele. rewrite eless_ecmp, (ecmp_antisym a b).
  destruct (ecmp a b); cbn; split; congruence.
Qed.

Lemma ele_refl a : ele a a.
Proof. apply ele_ecmp. rewrite ecmp_refl. discriminate. Qed.

Lemma ele_trans a b c : ele a b -> ele b c -> ele a c.
Proof.
  rewrite !ele_ecmp. intros H1 H2.
  destruct (ecmp a b) eqn:E1; try congruence.
  - apply ecmp_eq in E1. now subst.
  - destruct (ecmp b c) eqn:E2; try congruence.
    + apply ecmp_eq in E2. subst. rewrite E1. discriminate.
    + rewrite (ecmp_lt_trans _ _ _ E1 E2). discriminate.
Qed.

(* elements that the comparison cannot tell apart are identical: the order is
   a total order on (hash, name) pairs, ties included *)
Lemma ele_antisym a b : ele a b -> ele b a -> a = b.
Proof.
  rewrite !ele_ecmp, (ecmp_antisym a b). intros H1 H2.
  destruct (ecmp a b) eqn:E; cbn in *; try congruence. now apply ecmp_eq.
Qed.

Lemma ele_total a b : ele a b \/ ele b a.
Proof.
  rewrite !ele_ecmp, (ecmp_antisym a b). destruct (ecmp a b); cbn; [left|left|right]; discriminate.
Qed.

Lemma eless_true_ele a b : eless a b = true -> ele a b.
Proof.
  intros H. apply ele_ecmp. rewrite eless_ecmp in H. destruct (ecmp a b); congruence.
Qed.

(* Less is a strict order whose incomparable elements are equal *)
Lemma eless_irrefl a : eless a a = false.
Proof. rewrite eless_ecmp, ecmp_refl. reflexivity. Qed.

Lemma eless_trans a b c : eless a b = true -> eless b c = true -> eless a c = true.
Proof.
  rewrite !eless_ecmp. destruct (ecmp a b) eqn:E1; try discriminate.
  destruct (ecmp b c) eqn:E2; try discriminate. now rewrite (ecmp_lt_trans _ _ _ E1 E2).
Qed.

Lemma eless_trichotomy a b : eless a b = false -> eless b a = false -> a = b.
Proof. intros H1 H2. apply ele_antisym; assumption. Qed.

(* ------------------------------------------------------------------ *)
(* sorting                                                             *)

Definition sorted (l : list elt) : Prop := StronglySorted ele l.

Lemma isort_perm l : Permutation (isort l) l.
Proof. exact (Insertion.isort_perm eless insert (fun _ => eq_refl) (fun _ _ _ => eq_refl) l). Qed.

Lemma isort_sorted l : sorted (isort l).
Proof.
  apply (Insertion.isort_sorted eless insert (fun _ => eq_refl) (fun _ _ _ => eq_refl) ele).
  - exact eless_true_ele.
  - intros a x H. exact H.
  - exact ele_trans.
Qed.

(* Whatever sort.Sort does: a sorted permutation of the input is unique. *)
Lemma sorted_unique l : forall l', sorted l -> sorted l' -> Permutation l l' -> l = l'.
Proof.
  unfold sorted. induction l as [|a l IH]; intros l' S S' P.
  - apply Permutation_nil in P. now subst.
  - destruct l' as [|b l']; [apply Permutation_sym, Permutation_nil in P; discriminate|].
    apply StronglySorted_inv in S as [S F]. apply StronglySorted_inv in S' as [S' F'].
    rewrite Forall_forall in F, F'.
    assert (Hab : a = b).
    { apply ele_antisym.
      - assert (In b (a :: l)) as [->|Hb] by (eapply Permutation_in; [apply Permutation_sym; exact P|now left]);
          [apply ele_refl|auto].
      - assert (In a (b :: l')) as [->|Ha] by (eapply Permutation_in; [exact P|now left]);
          [apply ele_refl|auto]. }
    subst b. f_equal. apply IH; auto. eapply Permutation_cons_inv; exact P.
Qed.

Lemma sorted_is_isort l s : sorted s -> Permutation s l -> s = isort l.
Proof.
  intros S P. apply sorted_unique; [assumption|apply isort_sorted|].
  rewrite P. symmetry. apply isort_perm.
Qed.

Lemma isort_perm_eq l l' : Permutation l l' -> isort l = isort l'.
Proof.
  intros P. apply sorted_is_isort; [apply isort_sorted|]. rewrite isort_perm. exact P.
Qed.

Lemma isort_app a b : isort (a ++ b) = fold_right insert (isort b) a.
Proof. unfold isort. apply fold_right_app. Qed.

Lemma sorted_filter q l : sorted l -> sorted (filter q l).
Proof.
  unfold sorted. induction l as [|a l IH]; cbn; intros S; [constructor|].
  apply StronglySorted_inv in S as [S F].
  destruct (q a); auto. constructor; auto.
  rewrite Forall_forall in *. intros x Hx. apply filter_In in Hx. apply F, Hx.
Qed.

Lemma filter_perm {A} (q : A -> bool) l l' : Permutation l l' -> Permutation (filter q l) (filter q l').
Proof.
  induction 1; cbn.
  - constructor.
  - destruct (q x); auto.
  - destruct (q x), (q y); auto. apply perm_swap.
  - etransitivity; eauto.
Qed.

(* ------------------------------------------------------------------ *)
(* sort.Search                                                         *)

Lemma bsearch_spec (f : nat -> bool) (n : nat) :
  (forall a b, a <= b -> b < n -> f a = true -> f b = true) ->
  forall fuel i j, j - i <= fuel -> i <= j -> j <= n ->
    (forall k, k < i -> f k = false) -> (j < n -> f j = true) ->
    let r := bsearch fuel f i j in
    r <= n /\ (forall k, k < r -> f k = false) /\ (r < n -> f r = true).
Proof.
  intros mono. induction fuel as [|fu IH]; intros i j Hf Hij Hjn Hlo Hhi; cbn [bsearch]; cbv zeta.
  - assert (i = j) by lia. subst. repeat split; auto; lia.
  - destruct (i <? j) eqn:E.
    + apply Nat.ltb_lt in E. cbv zeta in IH.
      assert (Hh : i <= Nat.div2 (i + j) < j).
      { rewrite Nat.div2_div. split; [apply Nat.div_le_lower_bound|apply Nat.div_lt_upper_bound]; lia. }
      (* only the bounds of the midpoint matter from here on *)
      generalize dependent (Nat.div2 (i + j)). intros h [Hh1 Hh2].
      destruct (f h) eqn:Fh.
      * apply IH; [clear - Hf Hh1 Hh2; lia|exact Hh1|clear - Hh2 Hjn; lia|exact Hlo|intros _; exact Fh].
      * apply IH; [clear - Hf Hh1 Hh2; lia|exact Hh2|exact Hjn| |exact Hhi].
        intros k Hk. destruct (f k) eqn:Fk; [|reflexivity].
        rewrite <- Fh. symmetry. apply (mono k); [clear - Hk; lia|clear - Hh2 Hjn; lia|exact Fk].
    + apply Nat.ltb_ge in E. assert (i = j) by lia. subst. repeat split; auto; lia.
Qed.

Lemma find_first_index {A} (p : A -> bool) (d : A) : forall (l : list A) (r : nat),
  r <= length l ->
  (forall k, k < r -> p (nth k l d) = false) ->
  (r < length l -> p (nth r l d) = true) ->
  find p l = nth_error l r.
Proof.
  induction l as [|a l IH]; intros r Hr Hlo Hhi; cbn in *.
  - assert (r = 0) by lia. subst. reflexivity.
  - destruct r as [|r].
    + rewrite Hhi by lia. reflexivity.
    + rewrite (Hlo 0) by lia. cbn.
      apply IH; [lia | intros k Hk; apply (Hlo (S k)); lia | intros H; apply Hhi; lia].
Qed.

Lemma gepred_ecmp hk key el : gepred hk key el = true <-> ecmp el (hk, key) <> Lt.
Proof.
  unfold gepred, ecmp, sltb. cbn [fst snd].
  destruct (N.compare_spec (fst el) hk) as [E|E|E].
  - rewrite E, N.ltb_irrefl, N.eqb_refl. cbn.
    destruct (scmp (snd el) key); cbn; split; congruence.
  - assert (H1 : (hk <? fst el)%N = false) by lia.
    assert (H2 : (fst el =? hk)%N = false) by lia.
    rewrite H1, H2. cbn. split; congruence.
  - assert (H1 : (hk <? fst el)%N = true) by lia. rewrite H1. cbn. split; congruence.
Qed.

(* the predicate is monotone along the code's order, which is what sort.Search needs *)
Lemma gepred_mono hk key a b : ele a b -> gepred hk key a = true -> gepred hk key b = true.
Proof.
  rewrite !gepred_ecmp, ele_ecmp. intros Hab Ha Hb. apply Ha.
  destruct (ecmp a b) eqn:E; try congruence.
  - apply ecmp_eq in E. now subst.
  - eapply ecmp_lt_trans; eauto.
Qed.

Lemma sorted_nth_ele l d : sorted l -> forall a b, a <= b -> b < length l -> ele (nth a l d) (nth b l d).
Proof.
  unfold sorted. induction l as [|x l IH]; intros S a b Hab Hb; cbn in Hb; [lia|].
  apply StronglySorted_inv in S as [S F].
  destruct a as [|a], b as [|b]; cbn; try lia.
  - apply ele_refl.
  - rewrite Forall_forall in F. apply F, nth_In. lia.
  - apply IH; auto; lia.
Qed.

Lemma fnv_step_eq h c : fnv_step h c = (((N.lxor h c) * fnv128_prime) mod two128)%N.
Proof.
  unfold fnv_step, fnv128_prime, two128. cbv zeta.
  rewrite N.land_ones, N.shiftl_mul_pow2.
  change (2 ^ 88)%N with 309485009821345068724781056%N.
  change (2 ^ 128)%N with 340282366920938463463374607431768211456%N.
  f_equal. lia.
Qed.

Section RingProofs.
  Variable hash : str -> N.
  Variable digest : str -> str.

  Notation ring_add := (ring_add hash digest).
  Notation ring_of := (ring_of hash digest).
  Notation ring_get := (ring_get hash).
  Notation get_spec := (get_spec hash).
  Notation appended := (appended hash).
  Notation replica_elts := (replica_elts hash).

  (* Ring.Get (binary search) = the first element >= (hash key, key), else the first *)
  Lemma ring_get_spec r key : sorted (rkeys r) -> ring_get r key = get_spec (rkeys r) key.
  Proof.
    intros S. unfold Ring.ring_get, Ring.get_spec.
    destruct (rkeys r) as [|e0 l]; [reflexivity|].
    remember (e0 :: l) as ks eqn:K.
    set (n := length ks).
    set (f := fun i => gepred (hash key) key (nth i ks e0)).
    assert (mono : forall a b, a <= b -> b < n -> f a = true -> f b = true).
    { intros a b Hab Hb. unfold f. apply gepred_mono. now apply sorted_nth_ele. }
    assert (Hn0 : 0 < n) by (unfold n; rewrite K; cbn; lia).
    destruct (bsearch_spec f n mono n 0 n) as (Hr & Hlo & Hhi); try lia.
    fold (sort_search n f) in Hr, Hlo, Hhi. cbv zeta. set (idx := sort_search n f) in *.
    rewrite (find_first_index _ e0 ks idx Hr Hlo Hhi).
    destruct (idx =? n) eqn:E.
    - apply Nat.eqb_eq in E. rewrite E.
      assert (Hn : nth_error ks n = None) by (apply nth_error_None; unfold n; lia).
      rewrite Hn, K. reflexivity.
    - apply Nat.eqb_neq in E.
      rewrite (nth_error_nth' ks e0) by (unfold n in *; lia). reflexivity.
  Qed.

  Lemma ring_add_keys reps r names :
    rkeys (ring_add reps r names) = isort (rkeys r ++ appended reps names).
  Proof. reflexivity. Qed.

  Lemma ring_of_keys reps names : rkeys (ring_of reps names) = isort (appended reps names).
  Proof. reflexivity. Qed.

  Lemma ring_add_sorted reps r names : sorted (rkeys (ring_add reps r names)).
  Proof. apply isort_sorted. Qed.

  Lemma ring_of_sorted reps names : sorted (rkeys (ring_of reps names)).
  Proof. apply isort_sorted. Qed.

  (* the signature is a function of the sorted keys *)
  Lemma ring_add_signature reps r names :
    ring_signature (ring_add reps r names) = digest (sig_preimage (rkeys (ring_add reps r names))).
  Proof. reflexivity. Qed.

  Lemma appended_perm reps ns ns' : Permutation ns ns' -> Permutation (appended reps ns) (appended reps ns').
  Proof. intros P. unfold Ring.appended. now apply Permutation_flat_map. Qed.

  (* Add in any order of the names *)
  Lemma ring_add_perm reps r ns ns' : Permutation ns ns' -> ring_add reps r ns = ring_add reps r ns'.
  Proof.
    intros P. unfold Ring.ring_add.
    assert (E : isort (rkeys r ++ appended reps ns) = isort (rkeys r ++ appended reps ns')).
    { apply isort_perm_eq. apply Permutation_app_head. now apply appended_perm. }
    rewrite E. reflexivity.
  Qed.

  Lemma ring_perm reps ns ns' : Permutation ns ns' -> ring_of reps ns = ring_of reps ns'.
  Proof. apply ring_add_perm. Qed.

  (* Add called twice = Add called once with both lists *)
  Lemma ring_add_add reps r a b :
    ring_add reps (ring_add reps r a) b = ring_add reps r (a ++ b).
  Proof.
    unfold Ring.ring_add. cbn [rkeys].
    assert (E : isort (isort (rkeys r ++ appended reps a) ++ appended reps b)
                = isort (rkeys r ++ appended reps (a ++ b))).
    { apply isort_perm_eq. unfold Ring.appended. rewrite flat_map_app, app_assoc.
      apply Permutation_app_tail. apply isort_perm. }
    rewrite E. reflexivity.
  Qed.

  Lemma replica_elts_snd reps name e : In e (replica_elts reps name) -> snd e = name.
  Proof.
    unfold Ring.replica_elts. rewrite in_map_iff. intros (i & <- & _). reflexivity.
  Qed.

  Lemma appended_snd reps ns e : In e (appended reps ns) -> In (snd e) ns.
  Proof.
    unfold Ring.appended. rewrite in_flat_map. intros (n & Hn & He).
    apply replica_elts_snd in He. now subst.
  Qed.

  Lemma replica_elts_length reps name : length (replica_elts reps name) = Z.to_nat reps.
  Proof. unfold Ring.replica_elts. now rewrite map_length, seq_length. Qed.

  (* ---- Get on arbitrary key lists ---- *)

  Lemma get_spec_in ks key : ks <> [] -> exists e, In e ks /\ get_spec ks key = snd e.
  Proof.
    destruct ks as [|e0 l]; [congruence|]. intros _. unfold Ring.get_spec.
    destruct (find _ (e0 :: l)) as [e|] eqn:F.
    - apply find_some in F. exists e. tauto.
    - exists e0. split; [now left|reflexivity].
  Qed.

  Lemma find_insert p e l : find p (insert e l) = Some e \/ find p (insert e l) = find p l.
  Proof.
    induction l as [|a l IH]; cbn.
    - destruct (p e); auto.
    - destruct (eless e a); cbn.
      + destruct (p e); auto.
      + destruct (p a); auto.
  Qed.

  Lemma hd_insert e a l : exists x l', insert e (a :: l) = x :: l' /\ (x = e \/ x = a).
  Proof. cbn. destruct (eless e a); eauto. Qed.

  Lemma get_spec_insert e l key :
    get_spec (insert e l) key = snd e \/ get_spec (insert e l) key = get_spec l key.
  Proof.
    destruct l as [|a l].
    - left. cbn. destruct (gepred _ _ e); reflexivity.
    - destruct (hd_insert e a l) as (x & l' & E & Hx).
      pose proof (find_insert (gepred (hash key) key) e (a :: l)) as F.
      unfold Ring.get_spec at 1 2. rewrite E. rewrite <- E.
      destruct F as [F|F]; rewrite F.
      + now left.
      + unfold Ring.get_spec. destruct (find _ (a :: l)); [now right|].
        destruct Hx as [->| ->]; auto.
  Qed.

  Lemma get_spec_inserts es n l key :
    (forall e, In e es -> snd e = n) ->
    get_spec (fold_right insert l es) key = get_spec l key \/
    get_spec (fold_right insert l es) key = n.
  Proof.
    induction es as [|e es IH]; cbn; intros H; [now left|].
    destruct (get_spec_insert e (fold_right insert l es) key) as [E|E]; rewrite E.
    - right. apply H. now left.
    - apply IH. intros x Hx. apply H. now right.
  Qed.

  Lemma find_filter_some {A} (p q : A -> bool) l x :
    find p l = Some x -> q x = true -> find p (filter q l) = Some x.
  Proof.
    induction l as [|a l IH]; cbn; [discriminate|].
    destruct (p a) eqn:Pa.
    - intros [= ->] Q. rewrite Q. cbn. now rewrite Pa.
    - intros F Q. destruct (q a); cbn; [rewrite Pa|]; auto.
  Qed.

  Lemma find_filter_none {A} (p q : A -> bool) l :
    find p l = None -> find p (filter q l) = None.
  Proof.
    induction l as [|a l IH]; cbn; [reflexivity|].
    destruct (p a) eqn:Pa; [discriminate|]. intros F.
    destruct (q a); cbn; [rewrite Pa|]; auto.
  Qed.

  (* dropping elements that are not the chosen one does not change the choice *)
  Lemma get_spec_filter (q : elt -> bool) n l key :
    (forall e, snd e <> n -> q e = true) ->
    get_spec l key <> n -> get_spec (filter q l) key = get_spec l key.
  Proof.
    intros Q. destruct l as [|e0 l]; [reflexivity|].
    unfold Ring.get_spec at 1 3.
    destruct (find _ (e0 :: l)) as [e|] eqn:F; intros Hn.
    - pose proof (find_filter_some _ q _ _ F (Q _ Hn)) as F'.
      unfold Ring.get_spec. destruct (filter q (e0 :: l)); [discriminate|]. now rewrite F'.
    - pose proof (find_filter_none _ q _ F) as F'.
      unfold Ring.get_spec. cbn [filter] in *. rewrite (Q _ Hn) in *. now rewrite F'.
  Qed.

  (* ---- the ring theorems ---- *)

  Lemma ring_total reps ns key :
    ns <> [] -> (0 < reps)%Z -> In (ring_get (ring_of reps ns) key) ns.
  Proof.
    intros Hns Hreps. rewrite ring_get_spec by apply ring_of_sorted.
    rewrite ring_of_keys.
    destruct (get_spec_in (isort (appended reps ns)) key) as (e & He & ->).
    - intros E. pose proof (isort_perm (appended reps ns)) as P. rewrite E in P.
      apply Permutation_nil in P. destruct ns as [|n ns]; [congruence|].
      unfold Ring.appended in P. cbn in P. apply app_eq_nil in P as [P _].
      apply (f_equal (@length _)) in P. rewrite replica_elts_length in P. cbn in P. lia.
    - apply appended_snd with reps. eapply Permutation_in; [apply isort_perm|exact He].
  Qed.

  Lemma ring_minimal_add_cons reps n ns key :
    ring_get (ring_of reps (n :: ns)) key = ring_get (ring_of reps ns) key \/
    ring_get (ring_of reps (n :: ns)) key = n.
  Proof.
    rewrite !ring_get_spec by apply ring_of_sorted. rewrite !ring_of_keys.
    unfold Ring.appended. cbn [flat_map]. rewrite isort_app.
    apply get_spec_inserts. intros e. apply replica_elts_snd.
  Qed.

  (* the new node listed anywhere *)
  Lemma ring_minimal_add reps n ns ms key :
    Permutation ms (n :: ns) ->
    ring_get (ring_of reps ms) key = ring_get (ring_of reps ns) key \/
    ring_get (ring_of reps ms) key = n.
  Proof. intros P. rewrite (ring_perm reps _ _ P). apply ring_minimal_add_cons. Qed.

  Definition without (n : str) (ns : list str) : list str := filter (fun m => negb (seqb m n)) ns.

  Lemma filter_replicas reps n m :
    filter (fun e => negb (seqb (snd e) n)) (replica_elts reps m) =
    if seqb m n then [] else replica_elts reps m.
  Proof.
    unfold Ring.replica_elts. destruct (seqb m n) eqn:E;
      induction (seq 0 (Z.to_nat reps)) as [|i l IH]; cbn [map filter snd]; try reflexivity;
      rewrite E; cbn [negb]; rewrite IH; reflexivity.
  Qed.

  Lemma appended_without reps n ns :
    filter (fun e => negb (seqb (snd e) n)) (appended reps ns) = appended reps (without n ns).
  Proof.
    unfold Ring.appended, without. induction ns as [|m ns IH]; [reflexivity|].
    simpl flat_map. simpl filter. rewrite filter_app.
    etransitivity; [apply (f_equal2 (@app _)); [apply filter_replicas|exact IH]|].
    destruct (seqb m n); reflexivity.
  Qed.

  (* the ring without node n = the old sorted keys with n's replicas dropped *)
  Lemma ring_of_without_keys reps n ns :
    rkeys (ring_of reps (without n ns)) =
    filter (fun e => negb (seqb (snd e) n)) (rkeys (ring_of reps ns)).
  Proof.
    rewrite !ring_of_keys. symmetry. apply sorted_is_isort.
    - apply sorted_filter, isort_sorted.
    - rewrite <- appended_without. apply filter_perm, isort_perm.
  Qed.

  Lemma ring_minimal_remove reps n ns key :
    ring_get (ring_of reps ns) key <> n ->
    ring_get (ring_of reps (without n ns)) key = ring_get (ring_of reps ns) key.
  Proof.
    rewrite !ring_get_spec by apply ring_of_sorted.
    rewrite ring_of_without_keys. apply get_spec_filter.
    intros e He. apply negb_true_iff, seqb_neq. exact He.
  Qed.

  (* ---- placement and the signature gate ---- *)

  Lemma is_remote_false r this topic :
    is_remote_topic hash r this topic = false <-> ring_get r topic = this.
  Proof. unfold is_remote_topic. rewrite negb_false_iff. apply seqb_eq. Qed.

  Lemma sig_gate_accepts r s : sig_gate r s = true <-> s = ring_signature r.
  Proof. unfold sig_gate. apply seqb_eq. Qed.

  Lemma sig_gate_refuses r s : s <> ring_signature r -> sig_gate r s = false.
  Proof. intros H. apply not_true_is_false. now rewrite sig_gate_accepts. Qed.

End RingProofs.
