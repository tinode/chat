(* Lemmas about Pure/ApiKey.v and Pure/Basic.v. *)
From Coq Require Import NArith ZArith List Bool Lia ZifyBool ZifyNat ZifyN.
From Tinode Require Import Base.Base64Lite Pure.Token Pure.TokenProofs Pure.Code Pure.CodeProofs
  Pure.ApiKey Pure.Basic.
Import ListNotations.
Open Scope N_scope.

(* ------------------------------------------------------------------ *)
Section ApiKeyThms.
Variable mac : list N -> list N -> list N.

Lemma apikey_sound salt key r :
  check_api_key mac salt key = AKValid r ->
  decoded_len (length key) = 24%nat /\
  exists data, b64url_decode key = Some data /\
    nth 0 data 0 = 1 /\ (8 <= length data)%nat /\
    skipn 8 data = mac salt (firstn 8 data) /\
    r = (nth 7 data 0 =? 1).
Proof.
  unfold check_api_key, apikey_length, apikey_signed. intros H.
  destruct (Nat.eqb (decoded_len (length key)) 24) eqn:E0; cbn [negb] in H; [|discriminate].
  apply Nat.eqb_eq in E0. split; [exact E0|].
  destruct (b64url_decode key) as [data|]; [|discriminate]. exists data. split; [reflexivity|].
  destruct data as [|v l]; [discriminate|].
  destruct (v =? 1) eqn:E1; cbn [negb] in H; [|discriminate]. apply N.eqb_eq in E1.
  destruct (Nat.ltb (length (v :: l)) 8) eqn:E2; [discriminate|]. apply Nat.ltb_ge in E2.
  destruct (bytes_eqb _ _) eqn:E3; cbn [negb] in H; [|discriminate]. apply bytes_eqb_eq in E3.
  injection H as <-. repeat split; assumption.
Qed.

Lemma apikey_unsigned_refused salt key data :
  b64url_decode key = Some data ->
  skipn 8 data <> mac salt (firstn 8 data) ->
  forall r, check_api_key mac salt key <> AKValid r.
Proof.
  intros D Hne r H. apply apikey_sound in H. destruct H as (_ & d & D' & _ & _ & S & _).
  rewrite D in D'. injection D' as <-. contradiction.
Qed.

Lemma apikey_fixed_no_panic salt key : check_api_key_fixed mac salt key <> AKPanic.
Proof.
  unfold check_api_key_fixed.
  destruct (negb _); [discriminate|]. destruct (b64url_decode key); [|discriminate].
  destruct (negb _); [discriminate|]. destruct (negb _); [discriminate|].
  destruct (negb _); discriminate.
Qed.

(* the repair changes nothing but the panic *)
Lemma apikey_fixed_spec salt key :
  (forall k d, length (mac k d) = 16%nat) ->
  check_api_key_fixed mac salt key =
  match check_api_key mac salt key with AKPanic => AKRefused | r => r end.
Proof.
  intros L. unfold check_api_key_fixed, check_api_key, apikey_length, apikey_signed.
  destruct (negb (Nat.eqb (decoded_len (length key)) 24)); [reflexivity|].
  destruct (b64url_decode key) as [data|]; [|reflexivity].
  destruct data as [|v l]; [reflexivity|].
  cbn [nth].
  destruct (v =? 1) eqn:E1; cbn [negb].
  2:{ destruct (negb _); reflexivity. }
  destruct (Nat.ltb (length (v :: l)) 8) eqn:E2.
  { apply Nat.ltb_lt in E2. destruct (Nat.eqb (length (v :: l)) 24) eqn:E3; [|reflexivity].
    apply Nat.eqb_eq in E3. lia. }
  apply Nat.ltb_ge in E2.
  destruct (bytes_eqb (skipn 8 (v :: l)) (mac salt (firstn 8 (v :: l)))) eqn:E3; cbn [negb].
  - apply bytes_eqb_eq in E3.
    assert (length (v :: l) = 24%nat).
    { assert (length (skipn 8 (v :: l)) = 16%nat) by (rewrite E3; apply L).
      rewrite skipn_length in H. lia. }
    rewrite H. reflexivity.
  - destruct (negb _); reflexivity.
Qed.

(* 32 line feeds: pass the length gate, decode to nothing, data[0] panics.
   "AQAA" + 28 line feeds: version byte 1, 3 bytes decoded, data[8:] panics. *)
Lemma apikey_panic_witness salt :
  check_api_key mac salt (repeat 10 32) = AKPanic /\
  check_api_key mac salt ([65; 81; 65; 65] ++ repeat 10 28) = AKPanic.
Proof. split; reflexivity. Qed.

End ApiKeyThms.

(* ------------------------------------------------------------------ *)
Section BasicThms.
Variable lower : list N -> list N.
Variable login_ok : list N -> bool.
Variable pw_ok : list N -> bool.
Variable cmp : list N -> list N -> bcres.

Notation bstep := (bstep lower login_ok pw_ok cmp).
Notation brun := (brun lower login_ok pw_ok cmp).
Notation parse_secret := (parse_secret lower).

Lemma bget_in k st r : bget k st = Some r -> In (k, r) st.
Proof.
  induction st as [|[k' r'] t IH]; cbn [bget]; [discriminate|].
  destruct (bytes_eqb k k') eqn:E.
  - intros [= ->]. apply bytes_eqb_eq in E. subst. now left.
  - intros H. right. auto.
Qed.

Lemma bget_none k st : bget k st = None -> ~ In k (map fst st).
Proof.
  induction st as [|[k' r'] t IH]; cbn [bget map fst]; [tauto|].
  destruct (bytes_eqb k k') eqn:E; [discriminate|]. apply beq_false in E.
  intros H [Hk|Hin]; [congruence|]. now apply IH.
Qed.

(* an accepted password was verified against the stored hash of exactly that
   (lower-cased) login, which exists and has not expired *)
Lemma basic_auth_sound st secret st' uid lvl :
  bstep st (BAuth secret) = (st', BAuthOk uid lvl) ->
  exists u p r, split_colon secret = Some (u, p) /\
    bget (lower u) (bs_store st) = Some r /\
    cmp (br_hash r) p = BcMatch /\
    uid = br_uid r /\ lvl = br_level r /\ uid <> 0 /\
    (match br_expires r with Some e => (bs_now st <= e)%Z | None => True end) /\
    st' = st.
Proof.
  cbn [bstep]. unfold Basic.parse_secret.
  destruct (split_colon secret) as [[u p]|]; [|intros [= _ H]; discriminate].
  destruct (bget (lower u) (bs_store st)) as [r|] eqn:G; [|intros [= _ H]; discriminate].
  destruct (br_uid r =? 0) eqn:E0; [intros [= _ H]; discriminate|].
  destruct (match br_expires r with Some e => (e <? bs_now st)%Z | None => false end) eqn:E1;
    [intros [= _ H]; discriminate|].
  cbv zeta. destruct (cmp (br_hash r) p) eqn:E2; cbn [negb bc_is_nil]; try (intros [= _ H]; discriminate).
  intros [= <- <- <-]. exists u, p, r. repeat split; try assumption; try reflexivity.
  - lia.
  - destruct (br_expires r); [lia|exact I].
Qed.

Lemma basic_unknown_login_never st secret u p :
  split_colon secret = Some (u, p) -> bget (lower u) (bs_store st) = None ->
  bstep st (BAuth secret) = (st, BErr BEFailed).
Proof. intros S G. cbn [bstep]. unfold Basic.parse_secret. now rewrite S, G. Qed.

Lemma basic_wrong_password_never st secret u p r :
  split_colon secret = Some (u, p) -> bget (lower u) (bs_store st) = Some r ->
  cmp (br_hash r) p <> BcMatch ->
  exists e, bstep st (BAuth secret) = (st, BErr e).
Proof.
  intros S G V. cbn [bstep]. unfold Basic.parse_secret. rewrite S, G.
  destruct (br_uid r =? 0); [eexists; reflexivity|].
  destruct (match br_expires r with Some e => (e <? bs_now st)%Z | None => false end); [eexists; reflexivity|].
  cbv zeta. destruct (cmp (br_hash r) p); [congruence| |]; cbn [negb bc_is_nil]; eexists; reflexivity.
Qed.

(* for EVERY stored record (any bytes) and every password: success only on the oracle's "match" *)
Lemma basic_authenticates_only_on_match st secret u p r st' uid lvl :
  split_colon secret = Some (u, p) -> bget (lower u) (bs_store st) = Some r ->
  bstep st (BAuth secret) = (st', BAuthOk uid lvl) ->
  cmp (br_hash r) p = BcMatch.
Proof.
  intros S G H. destruct (basic_auth_sound _ _ _ _ _ H) as (u' & p' & r' & S' & G' & M & _).
  rewrite S in S'. injection S' as <- <-. rewrite G in G'. injection G' as <-. exact M.
Qed.

(* ... in particular never on an oracle error, whatever the error and the password *)
Lemma basic_never_on_oracle_error st secret u p r e :
  split_colon secret = Some (u, p) -> bget (lower u) (bs_store st) = Some r ->
  cmp (br_hash r) p = BcError e ->
  exists e', bstep st (BAuth secret) = (st, BErr e').
Proof.
  intros S G V. apply (basic_wrong_password_never st secret u p r S G). rewrite V. discriminate.
Qed.

(* stored bytes that newFromHash rejects never authenticate, with ANY password: premise = the oracle
   returns the error of its header check (CompareHashAndPassword starts with newFromHash) *)
Lemma basic_malformed_hash_never st secret u p r e :
  (forall h q e0, bc_header h = Some e0 -> cmp h q = BcError e0) ->
  split_colon secret = Some (u, p) -> bget (lower u) (bs_store st) = Some r ->
  bc_header (br_hash r) = Some e ->
  exists e', bstep st (BAuth secret) = (st, BErr e').
Proof.
  intros O S G Hh. exact (basic_never_on_oracle_error st secret u p r e S G (O _ _ _ Hh)).
Qed.

(* the store anomaly puts ANY bytes under an existing login *)
Lemma bset_hash_get uid hash st k r :
  bget k st = Some r -> br_uid r = uid ->
  bget k (bset_hash uid hash st) = Some (mkBR (br_uid r) (br_level r) hash (br_expires r)).
Proof.
  induction st as [|[k' r'] t IH]; cbn [bget bset_hash]; [discriminate|].
  destruct (bytes_eqb k k'); [|exact IH].
  intros [= ->] U. rewrite U, N.eqb_refl. now rewrite <- U.
Qed.

Lemma basic_raw_then_auth st uid hash secret u p r :
  split_colon secret = Some (u, p) -> bget (lower u) (bs_store st) = Some r -> br_uid r = uid ->
  exists st1, bstep st (BRaw uid hash) = (st1, BRawOk) /\
    bget (lower u) (bs_store st1) = Some (mkBR (br_uid r) (br_level r) hash (br_expires r)) /\
    (cmp hash p <> BcMatch -> exists e', bstep st1 (BAuth secret) = (st1, BErr e')).
Proof.
  intros S G U.
  assert (F : bfind_uid uid (bs_store st) <> None).
  { clear S. revert G. induction (bs_store st) as [|[k' r'] t IH]; cbn [bget bfind_uid]; [discriminate|].
    destruct (bytes_eqb (lower u) k').
    - intros [= ->]. rewrite U, N.eqb_refl. discriminate.
    - intros G. destruct (br_uid r' =? uid); [discriminate|auto]. }
  exists (mkBS (bset_hash uid hash (bs_store st)) (bs_now st)).
  pose proof (bset_hash_get uid hash _ _ _ G U) as G1.
  split; [|split].
  - cbn [bstep]. destruct (bfind_uid uid (bs_store st)) as [x|]; [reflexivity|congruence].
  - exact G1.
  - intros V. eapply basic_wrong_password_never; [exact S|cbn [bs_store]; exact G1|exact V].
Qed.

(* ---- unique logins ---- *)
Hypothesis lower_idem : forall s, lower (lower s) = lower s.
Definition uidf (p : list N * brec) : N := br_uid (snd p).
Definition binv (s : bstore) : Prop :=
  NoDup (map fst s) /\ NoDup (map uidf s) /\ Forall (fun p => lower (fst p) = fst p) s.

Lemma bfind_uid_in uid st k r : bfind_uid uid st = Some (k, r) -> In (k, r) st /\ br_uid r = uid.
Proof.
  induction st as [|[k' r'] t IH]; cbn [bfind_uid]; [discriminate|].
  destruct (br_uid r' =? uid) eqn:E.
  - intros [= -> ->]. apply N.eqb_eq in E. split; [now left|exact E].
  - intros H. destruct (IH H). split; [now right|assumption].
Qed.

Lemma bfind_uid_none uid st : bfind_uid uid st = None -> ~ In uid (map uidf st).
Proof.
  induction st as [|[k' r'] t IH]; cbn [bfind_uid map]; [tauto|].
  destruct (br_uid r' =? uid) eqn:E; [discriminate|]. apply N.eqb_neq in E.
  intros H [Hk|Hin]; [unfold uidf in Hk; cbn in Hk; congruence|]. now apply IH.
Qed.

Lemma bdel_uid_in uid st p : In p (bdel_uid uid st) -> In p st /\ uidf p <> uid.
Proof.
  induction st as [|[k' r'] t IH]; cbn [bdel_uid]; [tauto|].
  destruct (br_uid r' =? uid) eqn:E.
  - intros H. destruct (IH H). split; [now right|assumption].
  - apply N.eqb_neq in E. intros [<-|H]; [split; [now left|exact E]|].
    destruct (IH H). split; [now right|assumption].
Qed.

Lemma bdel_uid_nodup {B} (f : list N * brec -> B) uid st :
  NoDup (map f st) -> NoDup (map f (bdel_uid uid st)).
Proof.
  induction st as [|[k' r'] t IH]; cbn [bdel_uid map]; [auto|].
  intros H. inversion H as [|? ? Hn Hr]; subst.
  destruct (br_uid r' =? uid); [auto|]. cbn [map]. constructor; [|auto].
  intros Hin. apply Hn. apply in_map_iff in Hin. destruct Hin as (p & <- & Hp).
  apply bdel_uid_in in Hp. apply in_map. tauto.
Qed.

Lemma nodup_fst_inj {B} (l : list (list N * B)) k a b :
  NoDup (map fst l) -> In (k, a) l -> In (k, b) l -> a = b.
Proof.
  induction l as [|[k' c] t IH]; cbn [map fst]; [intros _ []|].
  intros H. inversion H as [|? ? Hn Hr]; subst. intros [E1|H1] [E2|H2].
  - congruence.
  - injection E1 as -> ->. exfalso. apply Hn. change k with (fst (k, b)). now apply in_map.
  - injection E2 as -> ->. exfalso. apply Hn. change k with (fst (k, a)). now apply in_map.
  - now apply IH.
Qed.

Lemma parse_lower s u p : parse_secret s = Some (u, p) -> lower u = u.
Proof.
  unfold Basic.parse_secret. destruct (split_colon s) as [[u' p']|]; [|discriminate].
  intros [= <- <-]. apply lower_idem.
Qed.

Ltac same := cbn [fst]; unfold binv; tauto.

Lemma bset_hash_keys uid hash st : map fst (bset_hash uid hash st) = map fst st.
Proof. induction st as [|[k r] t IH]; cbn [bset_hash map fst]; [reflexivity|]. now rewrite IH. Qed.
Lemma bset_hash_uids uid hash st : map uidf (bset_hash uid hash st) = map uidf st.
Proof.
  induction st as [|[k r] t IH]; cbn [bset_hash map]; [reflexivity|]. rewrite IH. f_equal.
  unfold uidf. cbn [snd]. now destruct (br_uid r =? uid).
Qed.

Lemma bstep_inv st op : binv (bs_store st) -> binv (bs_store (fst (bstep st op))).
Proof.
  intros (K & U & F). destruct op as [uid level secret hash lt|secret|uid secret hash lt|d|uid hash]; cbn [bstep].
  - destruct (parse_secret secret) as [[uname pw]|] eqn:P; [|same].
    destruct (negb (login_ok uname)); [same|]. destruct (negb (pw_ok pw)); [same|].
    destruct (bget uname (bs_store st)) eqn:G; [same|].
    destruct (bfind_uid uid (bs_store st)) eqn:B; [same|].
    cbn [fst bs_store]. repeat split.
    + cbn [map fst]. constructor; [now apply bget_none|exact K].
    + cbn [map]. constructor; [|exact U]. unfold uidf at 1. cbn [snd br_uid]. now apply bfind_uid_none.
    + constructor; [cbn [fst]; eapply parse_lower; exact P|exact F].
  - destruct (parse_secret secret) as [[uname pw]|]; [|same].
    destruct (bget uname (bs_store st)) as [r|]; [|same].
    destruct (br_uid r =? 0); [same|]. destruct (match br_expires r with Some _ => _ | None => _ end); [same|].
    cbv zeta. destruct (negb _); same.
  - destruct (parse_secret secret) as [[uname pw]|] eqn:P; [|same].
    destruct (bfind_uid uid (bs_store st)) as [[login r]|] eqn:B; [|same].
    apply bfind_uid_in in B. destruct B as [Bin Buid].
    set (keep := match uname with [] => true | _ => bytes_eqb uname login end).
    destruct (negb keep && negb (login_ok uname)); [same|].
    destruct (negb keep && _); [same|].
    destruct (negb (pw_ok pw)); [same|].
    destruct keep eqn:EK.
    + cbn [fst bs_store]. repeat split.
      * cbn [map fst]. constructor; [|now apply bdel_uid_nodup].
        intros Hin. apply in_map_iff in Hin. destruct Hin as ([k2 r2] & Hk & Hp). cbn [fst] in Hk. subst k2.
        apply bdel_uid_in in Hp. destruct Hp as [Hp Hne].
        pose proof (nodup_fst_inj _ _ _ _ K Bin Hp) as ->. unfold uidf in Hne. cbn in Hne. congruence.
      * cbn [map]. constructor; [|now apply bdel_uid_nodup]. unfold uidf at 1. cbn [snd br_uid].
        intros Hin. apply in_map_iff in Hin. destruct Hin as (p & Hk & Hp).
        apply bdel_uid_in in Hp. tauto.
      * constructor.
        -- cbn [fst]. rewrite Forall_forall in F. exact (F _ Bin).
        -- rewrite Forall_forall in *. intros p Hp. apply bdel_uid_in in Hp. apply F. tauto.
    + destruct (bget uname (bs_store st)) eqn:G; [same|].
      cbn [fst bs_store]. repeat split.
      * cbn [map fst]. constructor; [|now apply bdel_uid_nodup].
        intros Hin. apply in_map_iff in Hin. destruct Hin as (p & Hk & Hp).
        apply bdel_uid_in in Hp. apply (bget_none _ _ G). rewrite <- Hk. apply in_map. tauto.
      * cbn [map]. constructor; [|now apply bdel_uid_nodup]. unfold uidf at 1. cbn [snd br_uid].
        intros Hin. apply in_map_iff in Hin. destruct Hin as (p & Hk & Hp).
        apply bdel_uid_in in Hp. tauto.
      * constructor.
        -- cbn [fst]. eapply parse_lower; exact P.
        -- rewrite Forall_forall in *. intros p Hp. apply bdel_uid_in in Hp. apply F. tauto.
  - cbn [fst bs_store]. unfold binv. tauto.
  - destruct (bfind_uid uid (bs_store st)); [|same].
    cbn [fst bs_store]. unfold binv. rewrite bset_hash_keys, bset_hash_uids. repeat split; [exact K|exact U|].
    rewrite Forall_forall in *. intros q Hq. apply (in_map fst) in Hq. rewrite bset_hash_keys in Hq.
    apply in_map_iff in Hq. destruct Hq as (q' & E & Hq'). rewrite <- E. exact (F _ Hq').
Qed.

Lemma brun_inv ops : forall st, binv (bs_store st) -> binv (bs_store (fst (brun st ops))).
Proof.
  induction ops as [|op r IH]; intros st H; cbn [Basic.brun]; [exact H|].
  pose proof (bstep_inv st op H) as H1. destruct (bstep st op) as [st1 res]. cbn [fst] in H1.
  specialize (IH st1 H1). destruct (brun st1 r) as [st2 rs]. exact IH.
Qed.

Lemma binv_init : binv (bs_store binit).
Proof. repeat split; constructor. Qed.

(* in every reachable store two records never carry logins that are equal up to letter case *)
Lemma logins_unique ops k1 r1 k2 r2 :
  let s := bs_store (fst (brun binit ops)) in
  In (k1, r1) s -> In (k2, r2) s -> lower k1 = lower k2 -> k1 = k2 /\ r1 = r2.
Proof.
  intros s H1 H2 E. destruct (brun_inv ops binit binv_init) as (K & _ & F). fold s in K, F.
  rewrite Forall_forall in F. pose proof (F _ H1) as F1. pose proof (F _ H2) as F2. cbn [fst] in F1, F2.
  assert (k1 = k2) by congruence. subst k2. split; [reflexivity|].
  exact (nodup_fst_inj _ _ _ _ K H1 H2).
Qed.

(* a login that exists in any spelling cannot be registered again in another spelling *)
Lemma add_other_case_refused st uid lvl secret hash lt u p r :
  split_colon secret = Some (u, p) -> bget (lower u) (bs_store st) = Some r ->
  exists e, bstep st (BAdd uid lvl secret hash lt) = (st, BErr e).
Proof.
  intros S G. cbn [bstep]. unfold Basic.parse_secret. rewrite S.
  destruct (negb (login_ok (lower u))); [eexists; reflexivity|].
  destruct (negb (pw_ok p)); [eexists; reflexivity|].
  rewrite G. eexists; reflexivity.
Qed.

End BasicThms.

