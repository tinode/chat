(* Lemmas about Pure/Url.v (model of media.GetIdFromUrl). *)
From Coq Require Import NArith List Bool Lia.
From Tinode Require Import Pure.Url.
Import ListNotations.
Open Scope N_scope.

(* ---- path.Split ---- *)
Lemma path_split_spec : forall p d f,
  path_split p = (d, f) -> p = d ++ f /\ ~ In cSlash f.
Proof.
  induction p as [|c r IH]; intros d f H; cbn [path_split] in H.
  - inversion H; subst. split; [reflexivity|intros []].
  - destruct (path_split r) as [d0 f0] eqn:E.
    destruct (IH d0 f0 eq_refl) as [Hr Hn].
    destruct (c =? cSlash) eqn:Ec.
    + inversion H; subst. split; [reflexivity|exact Hn].
    + destruct d0 as [|x d0'].
      * inversion H; subst. split; [reflexivity|].
        intros [Hc|Hin]; [|exact (Hn Hin)].
        apply N.eqb_neq in Ec. congruence.
      * inversion H; subst. split; [reflexivity|exact Hn].
Qed.

(* ---- the file-name pattern ---- *)
Lemma fname_prefix_rest : forall s, s = fname_prefix s ++ fname_rest s.
Proof.
  induction s as [|c r IH]; [reflexivity|].
  cbn [fname_prefix fname_rest]. destruct (fname_char c); [|reflexivity].
  cbn [app]. f_equal. exact IH.
Qed.

Lemma fname_prefix_class : forall s, forallb fname_char (fname_prefix s) = true.
Proof.
  induction s as [|c r IH]; [reflexivity|].
  cbn [fname_prefix]. destruct (fname_char c) eqn:E; [|reflexivity].
  cbn [forallb]. rewrite E, IH. reflexivity.
Qed.

Lemma fname_rest_head : forall s,
  match fname_rest s with [] => True | c :: _ => fname_char c = false end.
Proof.
  induction s as [|c r IH]; [exact I|].
  cbn [fname_rest]. destruct (fname_char c) eqn:E; [exact IH|exact E].
Qed.

Lemma parse_uid_nonzero : forall s, parse_uid s <> 0 ->
  length s = 11%nat /\ forallb fname_char s = true.
Proof.
  intros s H. unfold parse_uid in H.
  destruct (N.of_nat (length s) =? 11) eqn:El; [|cbn [andb] in H; congruence].
  destruct (forallb fname_char s) eqn:Ef; [|cbn [andb] in H; congruence].
  apply N.eqb_eq in El. split; [lia|reflexivity].
Qed.

Lemma list_N_eqb_true : forall a b, list_N_eqb a b = true -> a = b.
Proof.
  intros a b. unfold list_N_eqb. destruct (list_eq_dec N.eq_dec a b); [auto|discriminate].
Qed.

(* ---- path.Clean of an absolute path has no empty, "." or ".." element ---- *)
Lemma clean_step_rooted_real : forall st e,
  Forall real_elem st -> Forall real_elem (clean_step true st e).
Proof.
  intros st e Hst. unfold clean_step.
  destruct e as [|c r]; [exact Hst|].
  destruct (is_dot (c :: r)) eqn:Ed; [exact Hst|].
  destruct (is_dotdot (c :: r)) eqn:Edd.
  - destruct st as [|top rest]; [constructor|].
    inversion Hst as [|? ? Htop Hrest]; subst.
    destruct Htop as [_ [_ Htd]]. rewrite Htd. exact Hrest.
  - constructor; [|exact Hst]. split; [discriminate|split; assumption].
Qed.

Lemma fold_clean_rooted_real : forall es st,
  Forall real_elem st -> Forall real_elem (fold_left (clean_step true) es st).
Proof.
  induction es as [|e es IH]; intros st Hst; cbn [fold_left]; [exact Hst|].
  apply IH. apply clean_step_rooted_real. exact Hst.
Qed.

Lemma clean_elems_rooted_real : forall p,
  is_rooted p = true -> Forall real_elem (clean_elems p).
Proof.
  intros p Hr. unfold clean_elems. rewrite Hr.
  apply Forall_rev. apply fold_clean_rooted_real. constructor.
Qed.

Lemma path_clean_rooted : forall p,
  is_rooted p = true -> path_clean p = cSlash :: join_slash (clean_elems p).
Proof.
  intros p Hr. unfold path_clean. destruct p as [|c r]; [discriminate|]. rewrite Hr. reflexivity.
Qed.

(* the four spellings of an id: only the two low bits of the last digit are ignored *)
Example parse_uid_alias :
  parse_uid [86;102;51;107;81;57;95;45;97;90;48] = parse_uid [86;102;51;107;81;57;95;45;97;90;49].
Proof. vm_compute. reflexivity. Qed.

Example get_id_traversal :
  (* "/v0/file/s/x/../Vf3kQ9_-aZ0.jpg" names the same upload as "/v0/file/s/Vf3kQ9_-aZ0" *)
  get_id_from_url [47;118;48;47;102;105;108;101;47;115;47]
    [47;118;48;47;102;105;108;101;47;115;47;120;47;46;46;47;86;102;51;107;81;57;95;45;97;90;48;46;106;112;103]
  = parse_uid [86;102;51;107;81;57;95;45;97;90;48].
Proof. vm_compute. reflexivity. Qed.

Example get_id_foreign :
  (* "/v0/file/s/../../etc/Vf3kQ9_-aZ0" names nothing *)
  get_id_from_url [47;118;48;47;102;105;108;101;47;115;47]
    [47;118;48;47;102;105;108;101;47;115;47;46;46;47;46;46;47;101;116;99;47;86;102;51;107;81;57;95;45;97;90;48] = 0.
Proof. vm_compute. reflexivity. Qed.
