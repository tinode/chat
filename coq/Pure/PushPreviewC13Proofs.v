(* C13: lemmas about the push preview truncation (coq/Pure/PushPreviewC13.v). *)
From Coq Require Import List NArith Bool Arith Lia.
Import ListNotations.
Require Import Tinode.Pure.PushPreviewC13.

Lemma unit_width_range : forall u, 1 <= unit_width_c13 u <= 4.
Proof.
  intros [cp|b]; cbn [unit_width_c13]; [|lia]. unfold rune_width_c13.
  destruct (cp <? 128)%N; [lia|]. destruct (cp <? 2048)%N; [lia|]. destruct (cp <? 65536)%N; lia.
Qed.

(* every rune takes at least one byte and at most four: len([]rune(s)) <= len(s) <= 4 * len([]rune(s)) *)
Lemma bytes_runes : forall s, length (runes_c13 s) <= byte_len_c13 s <= 4 * length (runes_c13 s).
Proof.
  induction s as [|u r IH]; cbn [runes_c13 map length byte_len_c13]; [lia|].
  pose proof (unit_width_range u). unfold runes_c13 in IH. lia.
Qed.

Lemma bytes_le_4runes : forall s, byte_len_c13 s <= 4 * length (runes_c13 s).
Proof. intros s. exact (proj2 (bytes_runes s)). Qed.

(* exact description of the result of the code as it is *)
Lemma trim_spec : forall s,
  (length (runes_c13 s) <= max_payload_c13 /\ trim_c13 true s = POk s) \/
  (max_payload_c13 < length (runes_c13 s) /\ trim_c13 true s = POk (map UValid (firstn max_payload_c13 (runes_c13 s)) ++ [UValid ellipsis_c13])).
Proof.
  intros s. unfold trim_c13. cbn [negb orb].
  destruct (max_payload_c13 <? byte_len_c13 s) eqn:Hb.
  - destruct (max_payload_c13 <? length (runes_c13 s)) eqn:Hr.
    + apply Nat.ltb_lt in Hr. right. split; [exact Hr|].
      unfold slice_to_c13. destruct (max_payload_c13 <=? length (runes_c13 s)) eqn:Hs; [reflexivity|].
      apply Nat.leb_gt in Hs. lia.
    + apply Nat.ltb_ge in Hr. left. split; [exact Hr|reflexivity].
  - apply Nat.ltb_ge in Hb. left. split; [|reflexivity]. pose proof (proj1 (bytes_runes s)). lia.
Qed.

(* the variant without the rune-length test *)
Lemma variant_panics : trim_c13 false witness_cyrillic_c13 = PPanicSlice 128 65.
Proof. vm_compute. reflexivity. Qed.
