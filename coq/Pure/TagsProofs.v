(* Laws of the tag functions of Tags.v: normalisation (count, validity of
   every kept tag, no duplicates, idempotence), the restricted-namespace gate
   of tag updates, the masked-namespace gate of fnd searches.  All lists, all
   namespace configurations, no bound.  The unicode functions are Section
   variables; the two hypotheses used (lowering is idempotent and maps
   non-space to non-space) are checked by the driver on all code points. *)
From Coq Require Import NArith List Bool Lia Arith Permutation Sorted.
From Coq Require Import ZifyBool ZifyNat ZifyN.
Require Import Tinode.Base.Insertion Tinode.Pure.Query Tinode.Pure.Tags.
Import ListNotations.
Open Scope N_scope.

(* ---------- string equality and order ---------- *)
Lemma list_eqb_eq a : forall b, list_eqb a b = true <-> a = b.
Proof.
  induction a as [|x a IH]; destruct b as [|y b]; cbn; split; try congruence; try discriminate.
  - intros H. apply andb_prop in H as [H1 H2]. apply N.eqb_eq in H1. apply IH in H2. congruence.
  - intros H. inversion H; subst. rewrite N.eqb_refl. cbn. now apply IH.
Qed.

Lemma list_eqb_refl a : list_eqb a a = true.
Proof. now apply list_eqb_eq. Qed.

Lemma list_eqb_neq a b : list_eqb a b = false <-> a <> b.
Proof.
  split.
  - intros H E. apply list_eqb_eq in E. congruence.
  - intros H. destruct (list_eqb a b) eqn:E; [apply list_eqb_eq in E; contradiction|reflexivity].
Qed.

Lemma lex_irrefl a : lex_ltb a a = false.
Proof. induction a as [|x a IH]; cbn; [reflexivity|]. rewrite IH, N.ltb_irrefl, andb_false_r. reflexivity. Qed.

Lemma lex_trans a : forall b c, lex_ltb a b = true -> lex_ltb b c = true -> lex_ltb a c = true.
Proof.
  induction a as [|x a IH]; destruct b as [|y b]; destruct c as [|z c]; cbn; try congruence.
  specialize (IH b c). lia.
Qed.

Lemma lex_total a : forall b, lex_ltb a b = false -> lex_ltb b a = false -> a = b.
Proof.
  induction a as [|x a IH]; destruct b as [|y b]; cbn; try congruence.
  intros H1 H2. assert (x = y) by lia. subst y. f_equal. apply IH; lia.
Qed.

Lemma lex_asym a b : lex_ltb a b = true -> lex_ltb b a = false.
Proof.
  intros H. destruct (lex_ltb b a) eqn:E; [|reflexivity].
  pose proof (lex_trans _ _ _ H E) as C. rewrite lex_irrefl in C. discriminate.
Qed.

(* a <= b <= c *)
Lemma lex_le_trans a b c : lex_ltb b a = false -> lex_ltb c b = false -> lex_ltb c a = false.
Proof.
  intros H1 H2. destruct (lex_ltb c a) eqn:E; [|reflexivity].
  destruct (lex_ltb a b) eqn:E2.
  - rewrite (lex_trans _ _ _ E E2) in H2. discriminate.
  - pose proof (lex_total _ _ E2 H1). subst. congruence.
Qed.

Lemma lex_le_lt_trans a b c : lex_ltb b a = false -> lex_ltb b c = true -> lex_ltb a c = true.
Proof.
  intros H1 H2. destruct (lex_ltb a b) eqn:E.
  - eapply lex_trans; eassumption.
  - pose proof (lex_total _ _ E H1). now subst.
Qed.

(* ---------- sorting ---------- *)
(* a <= b *)
Definition le_tag (a b : tag) : Prop := lex_ltb b a = false.

Fixpoint ssorted (l : list tag) : Prop :=
  match l with
  | x :: ((y :: _) as t) => lex_ltb x y = true /\ ssorted t
  | _ => True
  end.

Lemma insert_eq a x l :
  insert_sorted a (x :: l) = if negb (lex_ltb x a) then a :: x :: l else x :: insert_sorted a l.
Proof. cbn. now destruct (lex_ltb x a). Qed.

Lemma sort_perm l : Permutation (sort_strings l) l.
Proof. exact (isort_perm _ insert_sorted (fun _ => eq_refl) insert_eq l). Qed.

Lemma sort_sorted l : StronglySorted le_tag (sort_strings l).
Proof.
  apply (isort_sorted _ insert_sorted (fun _ => eq_refl) insert_eq le_tag).
  - intros a x. apply negb_true_iff.
  - intros a x H. apply negb_false_iff in H. now apply lex_asym.
  - intros a b c H1 H2. eapply lex_le_trans; eassumption.
Qed.

Lemma sort_ssorted_id l : ssorted l -> sort_strings l = l.
Proof.
  induction l as [|x l IH]; intros H; [reflexivity|].
  unfold sort_strings in *. cbn [fold_right].
  destruct l as [|y l]; [reflexivity|].
  cbn in H. destruct H as [H1 H2]. rewrite (IH H2). cbn [insert_sorted].
  now rewrite (lex_asym _ _ H1).
Qed.

Lemma ssorted_all_gt x l : ssorted (x :: l) -> forall y, In y l -> lex_ltb x y = true.
Proof.
  revert x. induction l as [|z l IH]; intros x H y Hy; [contradiction|].
  cbn in H. destruct H as [H1 H2]. destruct Hy as [<-|Hy]; [assumption|].
  eapply lex_trans; [exact H1|]. now apply IH.
Qed.

Lemma ssorted_nodup l : ssorted l -> NoDup l.
Proof.
  induction l as [|x l IH]; intros H; constructor.
  - intros Hin. pose proof (ssorted_all_gt _ _ H _ Hin) as C. rewrite lex_irrefl in C. discriminate.
  - apply IH. destruct l; [exact I|]. cbn in H. tauto.
Qed.

(* ---------- trimming ---------- *)
Definition hd_ok (l : list N) : Prop := match l with [] => True | r :: _ => is_space r = false end.
Definition clean (t : list N) : Prop := hd_ok t /\ hd_ok (rev t).

Lemma drop_space_hd l : hd_ok (drop_space l).
Proof. induction l as [|r l IH]; cbn; [exact I|]. destruct (is_space r) eqn:E; [assumption|]. cbn. assumption. Qed.

Lemma drop_space_suffix l : exists p, l = p ++ drop_space l.
Proof.
  induction l as [|r l [p IH]]; [now exists []|]. cbn. destruct (is_space r).
  - exists (r :: p). cbn. now f_equal.
  - now exists [].
Qed.

Lemma drop_space_id l : hd_ok l -> drop_space l = l.
Proof. destruct l as [|r l]; cbn; [reflexivity|]. now intros ->. Qed.

Lemma trim_clean s : clean (trim_space s).
Proof.
  unfold trim_space, clean. set (a := drop_space s). set (b := drop_space (rev a)).
  split.
  - destruct (drop_space_suffix (rev a)) as [p Hp]. fold b in Hp.
    assert (Ha : a = rev b ++ rev p) by (rewrite <- rev_app_distr, <- Hp; now rewrite rev_involutive).
    pose proof (drop_space_hd s) as Hh. fold a in Hh.
    destruct (rev b) as [|x rb] eqn:E; [exact I|]. rewrite Ha in Hh. exact Hh.
  - rewrite rev_involutive. apply drop_space_hd.
Qed.

Lemma trim_id t : clean t -> trim_space t = t.
Proof.
  intros [H1 H2]. unfold trim_space. rewrite (drop_space_id _ H1), (drop_space_id _ H2).
  apply rev_involutive.
Qed.

Section TagLaws.
  Variable lower : N -> N.
  Variable is_letter : N -> bool.
  Variable is_digit : N -> bool.
  Variable is_number : N -> bool.
  Hypothesis lower_idem : forall r, lower (lower r) = lower r.
  Hypothesis lower_space : forall r, is_space (lower r) = is_space r.

  Notation norm_one := (norm_one lower).
  Notation norm_loop := (norm_loop is_letter is_digit).
  Notation normalize_tags := (normalize_tags lower is_letter is_digit).
  Notation filter_restricted := (filter_restricted is_letter is_number).
  Notation restricted := (restricted is_letter is_number).
  Notation restricted_tags_equal := (restricted_tags_equal is_letter is_number).
  Notation masked_gate := (masked_gate is_letter is_number).

  (* what "normalised" means for one stored tag *)
  Definition tag_valid (t : tag) : Prop :=
    (minTagLength <= length t <= maxTagLength)%nat /\
    (is_letter (hd 0 t) = true \/ is_digit (hd 0 t) = true) /\
    map lower t = t /\ trim_space t = t.

  Definition content (r : option (list tag)) : list tag := match r with None => [] | Some l => l end.

  Lemma map_lower_clean t : clean t -> clean (map lower t).
  Proof.
    intros [H1 H2]. split.
    - destruct t; cbn in *; [exact I|]. now rewrite lower_space.
    - rewrite <- map_rev. destruct (rev t); cbn in *; [exact I|]. now rewrite lower_space.
  Qed.

  Lemma norm_one_props s : map lower (norm_one s) = norm_one s /\ trim_space (norm_one s) = norm_one s.
  Proof.
    unfold Tags.norm_one. split.
    - rewrite map_map. apply map_ext. intros r. apply lower_idem.
    - apply trim_id, map_lower_clean, trim_clean.
  Qed.

  Lemma norm_one_fix s : norm_one (norm_one s) = norm_one s.
  Proof. destruct (norm_one_props s) as [A B]. unfold Tags.norm_one at 1. now rewrite B, A. Qed.

  Lemma sorted_drop (x y : tag) l : StronglySorted le_tag (x :: y :: l) -> StronglySorted le_tag (x :: l).
  Proof.
    intros H. apply StronglySorted_inv in H as [H1 H2]. apply StronglySorted_inv in H1 as [H1 _].
    inversion H2; subst. now constructor.
  Qed.

  (* the filtering loop: kept tags come from the input, pass the tests, and
     are strictly increasing when the input is sorted *)
  Lemma norm_loop_spec src : forall prev out, norm_loop prev src = Some out ->
    (length out <= length src)%nat /\
    (forall t, In t out -> In t src /\ (minTagLength <= length t <= maxTagLength)%nat /\
                           (is_letter (hd 0 t) = true \/ is_digit (hd 0 t) = true)) /\
    (StronglySorted le_tag (prev :: src) -> ssorted (prev :: out)).
  Proof.
    induction src as [|curr rest IH]; intros prev out H; cbn [Tags.norm_loop] in H.
    - injection H as <-. split; [apply le_n|]. split; [intros t []|exact (fun _ => I)].
    - assert (Hskip : norm_loop prev rest = Some out ->
                (length out <= length (curr :: rest))%nat /\
                (forall t, In t out -> In t (curr :: rest) /\ (minTagLength <= length t <= maxTagLength)%nat /\
                                       (is_letter (hd 0 t) = true \/ is_digit (hd 0 t) = true)) /\
                (StronglySorted le_tag (prev :: curr :: rest) -> ssorted (prev :: out))).
      { intros E. destruct (IH _ _ E) as (L & M & S). split; [cbn [length]; lia|]. split.
        - intros t Ht. destruct (M t Ht) as [A B]. split; [now right|exact B].
        - intros Hs. eapply S, sorted_drop, Hs. }
      destruct (list_eqb curr null_value); [discriminate|].
      destruct ((length curr <? minTagLength)%nat || (maxTagLength <? length curr)%nat || list_eqb curr prev) eqn:E1;
        [now apply Hskip|].
      destruct (negb (is_letter (hd 0 curr)) && negb (is_digit (hd 0 curr))) eqn:E2; [now apply Hskip|]. clear Hskip.
      destruct (Tags.norm_loop is_letter is_digit curr rest) as [out'|] eqn:E3; [|discriminate].
      injection H as <-. destruct (IH _ _ E3) as (L & M & S). split; [cbn [length]; lia|]. split.
      + intros t [<-|Ht].
        * split; [now left|]. split; [lia|].
          destruct (is_letter (hd 0 curr)); [now left|]. destruct (is_digit (hd 0 curr)); [now right|discriminate].
        * destruct (M t Ht) as [A B]. split; [now right|exact B].
      + intros Hs. apply StronglySorted_inv in Hs as [Hs Hf]. inversion Hf as [|? ? Hle _]; subst.
        split; [|exact (S Hs)].
        (* prev <= curr and curr <> prev *)
        destruct (lex_ltb prev curr) eqn:E; [reflexivity|].
        rewrite (lex_total _ _ E Hle), list_eqb_refl, orb_true_r in E1. discriminate.
  Qed.

  Lemma sorted_nil_cons l : StronglySorted le_tag l -> StronglySorted le_tag ([] :: l).
  Proof. constructor; [assumption|]. apply Forall_forall. intros x _. now destruct x. Qed.

  Lemma ssorted_tail x l : ssorted (x :: l) -> ssorted l.
  Proof. destruct l; cbn; tauto. Qed.

  (* shape of the result *)
  Lemma normalize_cases mx src :
    normalize_tags mx src = None \/ normalize_tags mx src = Some [] \/
    exists l, normalize_tags mx src = Some l /\ l <> [] /\
              norm_loop [] (sort_strings (map norm_one (firstn mx (content src)))) = Some l.
  Proof.
    unfold Tags.normalize_tags. destruct src as [src|]; [|now left]. cbn [content].
    destruct (Tags.norm_loop _ _ _ _) as [[|t l]|] eqn:E; [now left| |now right; left].
    right; right. exists (t :: l). repeat split; congruence.
  Qed.

  Theorem norm_count mx src : (length (content (normalize_tags mx src)) <= mx)%nat.
  Proof.
    destruct (normalize_cases mx src) as [-> | [-> | (l & -> & _ & H)]]; cbn; try lia.
    destruct (norm_loop_spec _ _ _ H) as [L _].
    pose proof (Permutation_length (sort_perm (map norm_one (firstn mx (content src))))) as P.
    rewrite map_length in P. pose proof (firstn_le_length mx (content src)). lia.
  Qed.

  Theorem norm_sorted mx src : ssorted (content (normalize_tags mx src)).
  Proof.
    destruct (normalize_cases mx src) as [-> | [-> | (l & -> & _ & H)]]; cbn [content]; try exact I.
    eapply ssorted_tail, (norm_loop_spec _ _ _ H), sorted_nil_cons, sort_sorted.
  Qed.

  Theorem norm_nodup mx src : NoDup (content (normalize_tags mx src)).
  Proof. apply ssorted_nodup, norm_sorted. Qed.

  Theorem norm_each_tag_valid mx src : forall t, In t (content (normalize_tags mx src)) -> tag_valid t.
  Proof.
    destruct (normalize_cases mx src) as [-> | [-> | (l & -> & _ & H)]]; cbn [content]; try (intros t []).
    intros t Ht. destruct (norm_loop_spec _ _ _ H) as (_ & L & _). destruct (L t Ht) as (A & B & C).
    apply (Permutation_in _ (sort_perm _)) in A. apply in_map_iff in A as (s0 & <- & _).
    destruct (norm_one_props s0). repeat split; try tauto; lia.
  Qed.

  (* a list of valid, strictly increasing tags goes through the loop unchanged *)
  Lemma norm_loop_id l : forall prev, ssorted (prev :: l) -> (forall t, In t l -> tag_valid t) ->
    norm_loop prev l = Some l.
  Proof.
    induction l as [|curr rest IH]; intros prev Hs Hv; [reflexivity|].
    cbn [Tags.norm_loop]. destruct (Hv curr (or_introl eq_refl)) as ((L1 & L2) & Hc & _).
    unfold minTagLength, maxTagLength in *.
    assert (E0 : list_eqb curr null_value = false).
    { apply list_eqb_neq. intros ->. cbn in L1. lia. }
    rewrite E0. cbn in Hs. destruct Hs as [Hlt Hs].
    assert (E1 : list_eqb curr prev = false).
    { apply list_eqb_neq. intros ->. rewrite lex_irrefl in Hlt. discriminate. }
    rewrite E1, (proj2 (Nat.ltb_ge _ _) L1), (proj2 (Nat.ltb_ge _ _) L2).
    cbn [orb]. replace (negb (is_letter (hd 0 curr)) && negb (is_digit (hd 0 curr))) with false
      by (destruct Hc as [-> | ->]; cbn; [reflexivity|now rewrite andb_false_r]).
    rewrite IH; [reflexivity|exact Hs|]. intros t Ht. apply Hv. now right.
  Qed.

  Theorem norm_idempotent mx src :
    content (normalize_tags mx (normalize_tags mx src)) = content (normalize_tags mx src).
  Proof.
    pose proof (norm_count mx src) as Hc. pose proof (norm_sorted mx src) as Hs.
    pose proof (norm_each_tag_valid mx src) as Hv.
    destruct (normalize_cases mx src) as [E | [E | (l & E & Hne & _)]]; rewrite E in *; cbn [content] in *.
    - reflexivity.
    - unfold Tags.normalize_tags. rewrite firstn_nil. reflexivity.
    - unfold Tags.normalize_tags. rewrite firstn_all2 by lia.
      assert (Hm : map norm_one l = l).
      { rewrite <- (map_id l) at 2. apply map_ext_in. intros t Ht. destruct (Hv t Ht) as (_ & _ & H1 & H2).
        unfold Tags.norm_one. now rewrite H2, H1. }
      rewrite Hm, (sort_ssorted_id _ Hs).
      rewrite norm_loop_id; [destruct l; [congruence|reflexivity]| |exact Hv].
      destruct l as [|x l]; [exact I|]. cbn [ssorted]. split; [|exact Hs].
      destruct (Hv x (or_introl eq_refl)) as ((L1 & _) & _). destruct x; [cbn in L1; unfold minTagLength in L1; lia|reflexivity].
  Qed.

  (* ---------- restricted namespaces ---------- *)
  Lemma tags_eqb_eq a : forall b, tags_eqb a b = true -> a = b.
  Proof.
    induction a as [|x a IH]; destruct b as [|y b]; cbn; try congruence; try discriminate.
    intros H. apply andb_prop in H as [H1 H2]. apply list_eqb_eq in H1. f_equal; auto.
  Qed.

  Theorem restricted_equal_sound old new ns :
    restricted_tags_equal old new ns = true ->
    Permutation (filter_restricted old ns) (filter_restricted new ns).
  Proof.
    unfold Tags.restricted_tags_equal. destruct (negb _); [discriminate|].
    intros H. apply tags_eqb_eq in H.
    rewrite <- (sort_perm (filter_restricted old ns)), H. apply sort_perm.
  Qed.

  Lemma mem_nil_false x ns : mem x ns = true -> ns <> [].
  Proof. destruct ns; [discriminate|congruence]. Qed.

  Lemma in_filter_restricted t l ns :
    In t (filter_restricted l ns) <-> In t l /\ restricted ns t = true.
  Proof.
    unfold Tags.filter_restricted. destruct ns as [|n ns]; cbn [is_nil].
    - split; [intros []|]. intros [_ H]. unfold Tags.restricted in H.
      destruct (prefixed_ns _ _ t); [cbn in H|]; discriminate.
    - apply filter_In.
  Qed.

  Lemma count_occ_filter_restricted t l ns : restricted ns t = true ->
    count_occ (list_eq_dec N.eq_dec) (filter_restricted l ns) t = count_occ (list_eq_dec N.eq_dec) l t.
  Proof.
    intros Ht. unfold Tags.filter_restricted. destruct ns as [|n ns]; cbn [is_nil].
    - unfold Tags.restricted in Ht. destruct (prefixed_ns _ _ t); discriminate.
    - induction l as [|x l IH]; [reflexivity|]. cbn [filter].
      destruct (list_eq_dec N.eq_dec x t) as [->|Hne].
      + rewrite Ht, !count_occ_cons_eq by reflexivity. f_equal. exact IH.
      + destruct (Tags.restricted is_letter is_number (n :: ns) x); rewrite !count_occ_cons_neq by exact Hne; exact IH.
  Qed.

  (* ---------- masked namespaces ---------- *)
  (* stringSliceDelta: every new string that is not old is reported as added *)
  Lemma delta_loop_added fuel : forall old new a r i,
    (length old + length new <= fuel)%nat ->
    delta_loop fuel old new = (a, r, i) -> forall x, In x new -> ~ In x old -> In x a.
  Proof.
    induction fuel as [|f IH]; intros old new a r i Hl H x Hx Hn.
    - destruct new; [contradiction|]. destruct old; cbn in Hl; lia.
    - cbn [delta_loop] in H. destruct old as [|o os], new as [|n ns]; try contradiction.
      + destruct (delta_loop f [] ns) as [[a' r'] i'] eqn:E. inversion H; subst.
        destruct Hx as [<-|Hx]; [now left|]. right.
        eapply IH; [|exact E|exact Hx|exact Hn]. cbn in *. lia.
      + destruct (lex_ltb n o) eqn:E1.
        * destruct (delta_loop f (o :: os) ns) as [[a' r'] i'] eqn:E. inversion H; subst.
          destruct Hx as [<-|Hx]; [now left|]. right.
          eapply IH; [|exact E|exact Hx|exact Hn]. cbn in *. lia.
        * destruct (lex_ltb o n) eqn:E2.
          -- destruct (delta_loop f os (n :: ns)) as [[a' r'] i'] eqn:E. inversion H; subst.
             eapply IH; [|exact E|exact Hx|]. { cbn in *. lia. }
             intros C. apply Hn. now right.
          -- pose proof (lex_total _ _ E2 E1). subst n.
             destruct (delta_loop f os ns) as [[a' r'] i'] eqn:E. inversion H; subst.
             destruct Hx as [<-|Hx]; [exfalso; apply Hn; now left|].
             eapply IH; [|exact E|exact Hx|]. { cbn in *. lia. }
             intros C. apply Hn. now right.
  Qed.

  Lemma delta_added old new a r i :
    string_slice_delta old new = (a, r, i) -> forall x, In x new -> ~ In x old -> In x a.
  Proof.
    unfold string_slice_delta. intros H x Hx Hn.
    destruct old as [|o os], new as [|n ns]; try contradiction.
    - inversion H; subst. exact Hx.
    - eapply delta_loop_added; [|exact H| |].
      + rewrite (Permutation_length (sort_perm (o :: os))), (Permutation_length (sort_perm (n :: ns))). lia.
      + apply (Permutation_in _ (Permutation_sym (sort_perm (n :: ns)))). exact Hx.
      + intros C. apply Hn. apply (Permutation_in _ (sort_perm (o :: os))). exact C.
  Qed.

  (* a search is executed only if every masked-namespace term is one of the
     searcher's own tags *)
  Theorem masked_filter_sound own terms masked :
    masked_gate own terms masked = true ->
    forall t, In t terms -> restricted masked t = true -> In t own.
  Proof.
    unfold Tags.masked_gate. intros H t Ht Hr.
    destruct (string_slice_delta own (filter_restricted terms masked)) as [[a r] i] eqn:E.
    destruct a; [|discriminate].
    destruct (in_dec (list_eq_dec N.eq_dec) t own) as [Hin|Hn]; [exact Hin|].
    destruct (delta_added _ _ _ _ _ E t (proj2 (in_filter_restricted _ _ _) (conj Ht Hr)) Hn).
  Qed.
End TagLaws.
