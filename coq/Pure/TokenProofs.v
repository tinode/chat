(* Lemmas about Pure/Token.v. *)
From Coq Require Import NArith ZArith List Bool Lia ZifyBool ZifyNat ZifyN.
From Tinode Require Import Pure.Token.
Import ListNotations.
Open Scope N_scope.

Definition is_bytes (l : list N) : Prop := Forall (fun b => b < 256) l.

Lemma bytes_eqb_eq a b : bytes_eqb a b = true <-> a = b.
Proof.
  revert b. induction a as [|x a IH]; intros [|y b]; cbn [bytes_eqb]; split; intros H;
    try reflexivity; try discriminate.
  - apply andb_true_iff in H. destruct H as [H1 H2]. apply N.eqb_eq in H1. apply IH in H2. now subst.
  - injection H as -> ->. rewrite N.eqb_refl. cbn. now apply IH.
Qed.

Lemma bytes_eqb_refl a : bytes_eqb a a = true.
Proof. now apply bytes_eqb_eq. Qed.

Lemma length_le_bytes k v : length (le_bytes k v) = k.
Proof. revert v. induction k; intros v; cbn [le_bytes length]; auto. Qed.

Lemma le_bytes_is_bytes k v : is_bytes (le_bytes k v).
Proof.
  revert v. induction k; intros v; cbn [le_bytes]; constructor.
  - apply N.mod_lt. lia.
  - apply IHk.
Qed.

Lemma le_val_le_bytes k v : le_val (le_bytes k v) = v mod 2 ^ (8 * N.of_nat k).
Proof.
  revert v. induction k as [|k IH]; intros v.
  - cbn [le_bytes le_val]. change (8 * N.of_nat 0) with 0. rewrite N.pow_0_r, N.mod_1_r. reflexivity.
  - cbn [le_bytes le_val]. rewrite IH.
    replace (8 * N.of_nat (S k)) with (8 + 8 * N.of_nat k) by lia.
    rewrite N.pow_add_r. change (2 ^ 8) with 256.
    rewrite N.mod_mul_r by (try lia; apply N.pow_nonzero; lia). lia.
Qed.

Lemma le_bytes_le_val l : is_bytes l -> le_bytes (length l) (le_val l) = l.
Proof.
  induction 1 as [|b l Hb Hl IH]; cbn [length le_bytes le_val]; [reflexivity|].
  replace (b + 256 * le_val l) with (b + le_val l * 256) by lia.
  f_equal.
  - rewrite N.mod_add by lia. apply N.mod_small. exact Hb.
  - rewrite N.div_add by lia. rewrite (N.div_small b) by exact Hb.
    rewrite N.add_0_l. exact IH.
Qed.

Lemma le_bytes_le_val_k k l : is_bytes l -> length l = k -> le_bytes k (le_val l) = l.
Proof. intros H <-. now apply le_bytes_le_val. Qed.

Lemma firstn_plus {A} (n m : nat) (l : list A) :
  firstn (n + m) l = firstn n l ++ firstn m (skipn n l).
Proof.
  revert l. induction n as [|n IH]; intros l; [reflexivity|].
  destruct l as [|x l]; cbn [Nat.add firstn skipn app].
  - now rewrite firstn_nil.
  - now rewrite IH.
Qed.

Lemma is_bytes_firstn n l : is_bytes l -> is_bytes (firstn n l).
Proof. unfold is_bytes. intros H. revert n. induction H; intros [|n]; cbn [firstn]; auto. Qed.

Lemma is_bytes_skipn n l : is_bytes l -> is_bytes (skipn n l).
Proof. unfold is_bytes. intros H. revert n. induction H; intros [|n]; cbn [skipn]; auto. Qed.

Lemma is_bytes_app a b : is_bytes a -> is_bytes b -> is_bytes (a ++ b).
Proof. unfold is_bytes. intros. apply Forall_app. now split. Qed.

(* re-encoding what was read gives back the bytes read (the source signs hbuf, the re-encoding) *)
Lemma encode_decode d : is_bytes d -> length d = 18%nat -> encode_fields (decode_fields d) = d.
Proof.
  intros Hb Hl. unfold encode_fields, decode_fields.
  cbn [f_uid f_expires f_level f_serial f_features].
  assert (L : forall n m, (n + m <= 18)%nat -> length (firstn m (skipn n d)) = m).
  { intros n m H. rewrite firstn_length, skipn_length. lia. }
  rewrite (le_bytes_le_val_k 8 (firstn 8 d)); [|now apply is_bytes_firstn|rewrite firstn_length; lia].
  rewrite (le_bytes_le_val_k 4); [|now apply is_bytes_firstn, is_bytes_skipn|apply L; lia].
  rewrite (le_bytes_le_val_k 2); [|now apply is_bytes_firstn, is_bytes_skipn|apply L; lia].
  rewrite (le_bytes_le_val_k 2); [|now apply is_bytes_firstn, is_bytes_skipn|apply L; lia].
  rewrite (le_bytes_le_val_k 2); [|now apply is_bytes_firstn, is_bytes_skipn|apply L; lia].
  do 19 (destruct d as [|? d]; [discriminate Hl || reflexivity|]). discriminate Hl.
Qed.

Lemma length_encode_fields f : length (encode_fields f) = 18%nat.
Proof. unfold encode_fields. rewrite !app_length, !length_le_bytes. reflexivity. Qed.

Lemma encode_fields_is_bytes f : is_bytes (encode_fields f).
Proof. unfold encode_fields. repeat apply is_bytes_app; apply le_bytes_is_bytes. Qed.

Lemma firstn_app_exact {A} (a b : list A) n : length a = n -> firstn n (a ++ b) = a.
Proof. intros <-. rewrite firstn_app, Nat.sub_diag, firstn_all. cbn. apply app_nil_r. Qed.

Lemma skipn_app_exact {A} (a b : list A) n : length a = n -> skipn n (a ++ b) = b.
Proof. intros <-. rewrite skipn_app, Nat.sub_diag, skipn_all. reflexivity. Qed.

Lemma decode_encode f :
  decode_fields (encode_fields f) =
  mkF (f_uid f mod 2 ^ 64) (f_expires f mod 2 ^ 32) (f_level f mod 2 ^ 16)
      (f_serial f mod 2 ^ 16) (f_features f mod 2 ^ 16).
Proof.
  (* the five fields are cut out of explicit lists of 8 + 4 + 2 + 2 + 2 bytes: by evaluation *)
  exact (f_equal5 mkF (le_val_le_bytes 8 _) (le_val_le_bytes 4 _) (le_val_le_bytes 2 _)
           (le_val_le_bytes 2 _) (le_val_le_bytes 2 _)).
Qed.

(* ------------------------------------------------------------------ *)
(* arithmetic of the expiry computation *)

Lemma wrap64_le z : (0 <= z -> wrap64 z <= z)%Z.
Proof.
  unfold wrap64. change (2 ^ 63)%Z with 9223372036854775808%Z.
  change (2 ^ 64)%Z with 18446744073709551616%Z. intros H. Z.div_mod_to_equations. lia.
Qed.

Lemma wrap64_neg z : (0 <= z -> wrap64 z < 0 -> 2 ^ 63 <= z)%Z.
Proof.
  unfold wrap64. change (2 ^ 63)%Z with 9223372036854775808%Z.
  change (2 ^ 64)%Z with 18446744073709551616%Z. intros H. Z.div_mod_to_equations. lia.
Qed.

Lemma wrap64_small z : (- 2 ^ 63 <= z < 2 ^ 63 -> wrap64 z = z)%Z.
Proof.
  unfold wrap64. change (2 ^ 63)%Z with 9223372036854775808%Z.
  change (2 ^ 64)%Z with 18446744073709551616%Z. intros H. Z.div_mod_to_equations. lia.
Qed.

Lemma round_ms_bounds t : (t - 500000 <= round_ms t <= t + 500000)%Z.
Proof.
  unfold round_ms. destruct (2 * (t mod 1000000) <? 1000000)%Z eqn:E;
    Z.div_mod_to_equations; lia.
Qed.

(* the expiry second written into the token, as a function of the instant *)
Definition expiry_field (expires : Z) : Z := (unix_sec expires mod 2 ^ 32)%Z.

Lemma expiry_field_range x : (0 <= expiry_field x < 2 ^ 32)%Z.
Proof. unfold expiry_field. apply Z.mod_pos_bound. reflexivity. Qed.

Lemma round_ms_nonneg t : (0 <= t -> 0 <= round_ms t)%Z.
Proof.
  intros H. unfold round_ms. destruct (2 * (t mod 1000000) <? 1000000)%Z; Z.div_mod_to_equations; lia.
Qed.

(* the uint32 wrap and the truncation to seconds only make an instant earlier *)
Lemma expiry_field_le x : (0 <= x -> expiry_field x * second <= x)%Z.
Proof.
  intros H. apply Z.le_trans with (unix_sec x * second)%Z.
  - apply Z.mul_le_mono_nonneg_r; [discriminate|]. apply Z.mod_le; [now apply Z.div_pos|reflexivity].
  - rewrite Z.mul_comm. now apply Z.mul_div_le.
Qed.

(* uint32 wrap and millisecond rounding never give a LATER expiry than asked for
   (up to the second of slack Authenticate subtracts) *)
Lemma expiry_bound now0 lt req :
  (0 <= now0 -> lt <= req -> (lt < 0 -> 2 ^ 63 <= req) ->
   expiry_field (round_ms (now0 + lt)) * second < now0 + req + second)%Z.
Proof.
  intros H0 Hle Hneg. destruct (Z.ltb_spec lt 0) as [Hl|Hl].
  - specialize (Hneg Hl). pose proof (expiry_field_range (round_ms (now0 + lt))) as R.
    unfold second. lia.
  - pose proof (round_ms_bounds (now0 + lt)) as R.
    pose proof (expiry_field_le _ (round_ms_nonneg _ (Z.add_nonneg_nonneg _ _ H0 Hl))) as B.
    unfold second in *. lia.
Qed.

(* ------------------------------------------------------------------ *)
Section TokenThms.
Variable mac : list N -> list N -> list N.

Definition tok_data (tok : list N) : list N := firstn 18 tok.
Definition tok_sig (tok : list N) : list N := firstn 32 (skipn 18 tok).

Lemma first50 tok : firstn 50 tok = tok_data tok ++ tok_sig tok.
Proof. exact (firstn_plus 18 32 tok). Qed.

(* everything Authenticate checked, on the re-encoded data *)
Lemma accept_inv key sn now tok r :
  authenticate mac key sn now tok = TOk r ->
  let f := decode_fields (tok_data tok) in
  (50 <= length tok)%nat /\
  tok_sig tok = mac key (encode_fields f) /\
  f_level f <= 30 /\
  Z.of_N (f_serial f) = sn /\
  (now + second <= Z.of_N (f_expires f) * second)%Z /\
  r = mkR (f_uid f) (f_level f) (f_features f).
Proof.
  unfold authenticate, tok_data, tok_sig, data_size, sig_size, level_root. intros H.
  destruct (length tok <? 18 + 32)%nat eqn:E1; [discriminate|]. apply Nat.ltb_ge in E1.
  destruct (bytes_eqb _ _) eqn:E2; cbn [negb] in H; [|discriminate]. apply bytes_eqb_eq in E2.
  destruct (30 <? _) eqn:E3; [discriminate|].
  destruct (Z.of_N _ =? sn)%Z eqn:E4; cbn [negb] in H; [|discriminate].
  destruct (_ <? _)%Z eqn:E5; [discriminate|]. injection H as <-.
  cbv zeta. repeat split; try assumption; try lia.
Qed.

Lemma tok_data_props tok : is_bytes tok -> (50 <= length tok)%nat ->
  encode_fields (decode_fields (tok_data tok)) = tok_data tok.
Proof.
  intros Hb Hl. apply encode_decode.
  - now apply is_bytes_firstn.
  - unfold tok_data. rewrite firstn_length. lia.
Qed.

Lemma accept_sound key sn now tok r :
  is_bytes tok ->
  authenticate mac key sn now tok = TOk r ->
  let f := decode_fields (tok_data tok) in
  (50 <= length tok)%nat /\
  tok_sig tok = mac key (tok_data tok) /\
  encode_fields f = tok_data tok /\
  f_level f <= 30 /\
  Z.of_N (f_serial f) = sn /\
  (now + second <= Z.of_N (f_expires f) * second)%Z /\
  r = mkR (f_uid f) (f_level f) (f_features f).
Proof.
  intros Hb H. apply accept_inv in H. cbv zeta in *.
  destruct H as (H1 & H2 & H3 & H4 & H5 & H6).
  pose proof (tok_data_props tok Hb H1) as E. rewrite E in H2.
  repeat split; assumption.
Qed.

Lemma truncated_refused key sn now tok :
  (length tok < 50)%nat -> authenticate mac key sn now tok = TErr TMalformed.
Proof.
  intros H. unfold authenticate, data_size, sig_size.
  destruct (length tok <? 18 + 32)%nat eqn:E; [reflexivity|]. apply Nat.ltb_ge in E. lia.
Qed.

(* acceptance of anything that is not (the first 50 bytes of) an issued token
   exhibits a valid MAC pair the signer never produced *)
Lemma mutation_is_forgery key sn now (issued : list (list N * list N)) tok' r :
  is_bytes tok' ->
  ~ In (firstn 50 tok') (map (fun p => fst p ++ snd p) issued) ->
  authenticate mac key sn now tok' = TOk r ->
  mac key (tok_data tok') = tok_sig tok' /\ ~ In (tok_data tok', tok_sig tok') issued.
Proof.
  intros Hb Hn H. apply accept_sound in H; [|exact Hb]. cbv zeta in H.
  destruct H as (_ & H2 & _). split; [now symmetry|].
  intros Hin. apply Hn. rewrite first50. apply in_map_iff.
  exists (tok_data tok', tok_sig tok'). split; [reflexivity|exact Hin].
Qed.

Lemma expired_refused key sn now tok r :
  (Z.of_N (f_expires (decode_fields (tok_data tok))) * second < now + second)%Z ->
  authenticate mac key sn now tok <> TOk r.
Proof. intros H A. apply accept_inv in A. cbv zeta in A. lia. Qed.

Lemma serial_checked key sn now tok r :
  authenticate mac key sn now tok = TOk r ->
  Z.of_N (f_serial (decode_fields (tok_data tok))) = sn.
Proof. intros A. apply accept_inv in A. cbv zeta in A. tauto. Qed.

(* ---- issued tokens ---- *)

Lemma issue_fields_fix sn exp g :
  decode_fields (encode_fields (issue_fields sn exp g)) = issue_fields sn exp g.
Proof.
  rewrite decode_encode. unfold issue_fields.
  cbn [f_uid f_expires f_level f_serial f_features]. f_equal.
  - apply N.mod_mod. discriminate.
  - apply N.mod_small.
    assert (0 <= unix_sec exp mod 2 ^ 32 < 2 ^ 32)%Z by (apply Z.mod_pos_bound; reflexivity).
    change (2 ^ 32)%Z with 4294967296%Z in *. change (2 ^ 32) with 4294967296. lia.
  - apply N.mod_small.
    assert (0 <= g_level g mod 2 ^ 16 < 2 ^ 16)%Z by (apply Z.mod_pos_bound; reflexivity).
    change (2 ^ 16)%Z with 65536%Z in *. change (2 ^ 16) with 65536. lia.
  - apply N.mod_small.
    assert (0 <= sn mod 2 ^ 16 < 2 ^ 16)%Z by (apply Z.mod_pos_bound; reflexivity).
    change (2 ^ 16)%Z with 65536%Z in *. change (2 ^ 16) with 65536. lia.
  - apply N.mod_mod. discriminate.
Qed.

Lemma issued_data key sn exp g :
  tok_data (issue_at mac key sn exp g) = encode_fields (issue_fields sn exp g).
Proof. unfold tok_data, issue_at. apply firstn_app_exact, length_encode_fields. Qed.

Lemma issued_sig key sn exp g :
  length (mac key (encode_fields (issue_fields sn exp g))) = 32%nat ->
  tok_sig (issue_at mac key sn exp g) = mac key (encode_fields (issue_fields sn exp g)).
Proof.
  intros L. unfold tok_sig, issue_at. rewrite (skipn_app_exact _ _ 18) by apply length_encode_fields.
  rewrite <- L. apply firstn_all.
Qed.

(* the exact acceptance condition of an issued token *)
Lemma issued_authenticate key sn sn' exp g now :
  length (mac key (encode_fields (issue_fields sn exp g))) = 32%nat ->
  authenticate mac key sn' now (issue_at mac key sn exp g) =
  let f := issue_fields sn exp g in
  if 30 <? f_level f then TErr TMalformed else
  if negb (Z.of_N (f_serial f) =? sn')%Z then TErr TFailed else
  if (Z.of_N (f_expires f) * second <? now + second)%Z then TErr TExpired else
  TOk (mkR (f_uid f) (f_level f) (f_features f)).
Proof.
  intros L. unfold authenticate.
  assert (Hlen : length (issue_at mac key sn exp g) = 50%nat).
  { unfold issue_at. rewrite app_length, length_encode_fields, L. reflexivity. }
  rewrite Hlen. change (50 <? data_size + sig_size)%nat with false. cbv iota.
  change (firstn data_size ?t) with (tok_data t).
  change (firstn sig_size (skipn data_size ?t)) with (tok_sig t).
  rewrite issued_data, issue_fields_fix, (issued_sig _ _ _ _ L), bytes_eqb_refl.
  reflexivity.
Qed.

Lemma roundtrip key sn deflt now0 g tok exp now :
  (forall k d, length (mac k d) = 32%nat) ->
  (0 <= sn < 65536)%Z -> (0 <= g_level g <= 30)%Z -> g_uid g < 2 ^ 64 -> g_features g < 2 ^ 16 ->
  gen_secret mac key sn deflt now0 g = Some (tok, exp) ->
  (now + second <= expiry_field exp * second)%Z ->
  authenticate mac key sn now tok = TOk (mkR (g_uid g) (Z.to_N (g_level g)) (g_features g)).
Proof.
  intros L Hsn Hlv Hu Hf G Hnow. unfold gen_secret in G.
  destruct (effective_lifetime deflt g) as [lt|]; [|discriminate]. injection G as <- <-.
  rewrite issued_authenticate by apply L. cbv zeta. unfold issue_fields.
  cbn [f_uid f_expires f_level f_serial f_features].
  change (2 ^ 16)%Z with 65536%Z. rewrite !Z.mod_small by lia.
  rewrite !N.mod_small by assumption.
  destruct (30 <? Z.to_N (g_level g)) eqn:E1; [lia|].
  rewrite Z2N.id by lia. rewrite Z.eqb_refl. cbn [negb].
  pose proof (expiry_field_range (round_ms (now0 + lt))) as R. unfold expiry_field in *.
  rewrite Z2N.id by lia.
  destruct (_ <? _)%Z eqn:E2; [lia|]. reflexivity.
Qed.

(* ---- serial numbers: uint16 on the wire, int in the configuration ---- *)

Lemma serial_alias key sn exp g :
  issue_at mac key sn exp g = issue_at mac key (sn mod 65536) exp g.
Proof.
  unfold issue_at, issue_fields. change (2 ^ 16)%Z with 65536%Z.
  rewrite Z.mod_mod by discriminate. reflexivity.
Qed.

Lemma issued_wrong_serial_refused key sn sn' exp g now r :
  (forall k d, length (mac k d) = 32%nat) ->
  sn' <> (sn mod 65536)%Z ->
  authenticate mac key sn' now (issue_at mac key sn exp g) <> TOk r.
Proof.
  intros L Hne A. apply serial_checked in A. rewrite issued_data, issue_fields_fix in A.
  unfold issue_fields in A. cbn [f_serial] in A. change (2 ^ 16)%Z with 65536%Z in A.
  assert (0 <= sn mod 65536 < 65536)%Z by (apply Z.mod_pos_bound; reflexivity).
  rewrite Z2N.id in A by lia. congruence.
Qed.

Lemma le_val_bound l : is_bytes l -> le_val l < 2 ^ (8 * N.of_nat (length l)).
Proof.
  intros H. rewrite <- (le_bytes_le_val l H) at 1. rewrite le_val_le_bytes.
  apply N.mod_lt. apply N.pow_nonzero. discriminate.
Qed.

Lemma serial_out_of_range_refuses_all key sn now tok r :
  is_bytes tok -> ~ (0 <= sn < 65536)%Z -> authenticate mac key sn now tok <> TOk r.
Proof.
  intros Hb Hsn A. pose proof (accept_inv _ _ _ _ _ A) as I. cbv zeta in I.
  destruct I as (Hl & _ & _ & Hs & _).
  unfold decode_fields in Hs. cbn [f_serial] in Hs.
  assert (B : le_val (firstn 2 (skipn 14 (tok_data tok))) < 2 ^ (8 * N.of_nat 2)).
  { assert (Hlen : length (firstn 2 (skipn 14 (tok_data tok))) = 2%nat).
    { unfold tok_data. rewrite firstn_length, skipn_length, firstn_length. lia. }
    pose proof (le_val_bound (firstn 2 (skipn 14 (tok_data tok)))) as LB.
    rewrite Hlen in LB. apply LB. apply is_bytes_firstn, is_bytes_skipn, is_bytes_firstn, Hb. }
  change (2 ^ (8 * N.of_nat 2)) with 65536 in B. lia.
Qed.

Lemma foreign_key_refused key key' sn now f :
  length (mac key' (encode_fields f)) = 32%nat ->
  mac key' (encode_fields f) <> mac key (encode_fields f) ->
  authenticate mac key sn now (encode_fields f ++ mac key' (encode_fields f)) = TErr TFailed.
Proof.
  intros L Hne. unfold authenticate.
  rewrite app_length, length_encode_fields, L. change (18 + 32 <? data_size + sig_size)%nat with false.
  cbv iota. unfold data_size, sig_size.
  rewrite (firstn_app_exact _ _ 18) by apply length_encode_fields.
  rewrite (skipn_app_exact _ _ 18) by apply length_encode_fields.
  rewrite encode_decode by (apply encode_fields_is_bytes || apply length_encode_fields).
  replace (firstn 32 (mac key' (encode_fields f))) with (mac key' (encode_fields f))
    by (symmetry; rewrite <- L; apply firstn_all).
  destruct (bytes_eqb _ _) eqn:E; [apply bytes_eqb_eq in E; contradiction|reflexivity].
Qed.

(* ---- validity never exceeds what was asked for ---- *)

Definition requested_lifetime (expire_in : Z) (g : grec) : Z :=
  if (g_lifetime g =? 0)%Z then (expire_in * second)%Z else g_lifetime g.

Lemma never_outlives key sn sn' expire_in now0 g tok exp now r :
  (0 <= now0)%Z -> (0 < expire_in)%Z ->
  gen_secret mac key sn (default_lifetime expire_in) now0 g = Some (tok, exp) ->
  authenticate mac key sn' now tok = TOk r ->
  (now < now0 + requested_lifetime expire_in g)%Z.
Proof.
  intros H0 He G A. unfold gen_secret, effective_lifetime, requested_lifetime in *.
  apply accept_inv in A. cbv zeta in A. destruct A as (_ & _ & _ & _ & A & _).
  assert (K : forall lt, tok = issue_at mac key sn (round_ms (now0 + lt)) g ->
            (lt <= requested_lifetime expire_in g)%Z ->
            (lt < 0 -> 2 ^ 63 <= requested_lifetime expire_in g)%Z ->
            (now < now0 + requested_lifetime expire_in g)%Z).
  { intros lt -> Hle Hneg. rewrite issued_data, issue_fields_fix in A.
    unfold issue_fields in A. cbn [f_expires] in A.
    pose proof (expiry_field_range (round_ms (now0 + lt))) as R.
    pose proof (expiry_bound now0 lt _ H0 Hle Hneg) as B. unfold expiry_field in *.
    rewrite Z2N.id in A by lia. lia. }
  unfold requested_lifetime in K.
  destruct (g_lifetime g =? 0)%Z eqn:E0.
  - injection G as G _. apply (K (default_lifetime expire_in)); [now symmetry| |].
    + apply wrap64_le. unfold second. lia.
    + apply wrap64_neg. unfold second. lia.
  - destruct (g_lifetime g <? 0)%Z eqn:E1; [discriminate|]. injection G as G _.
    apply (K (g_lifetime g)); [now symmetry|lia|lia].
Qed.

End TokenThms.

