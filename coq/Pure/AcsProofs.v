(* Proofs about Pure/Acs.v.  One finite sweep (vm_compute over the 256 permission
   sets) says what the text of a set looks like; everything about pairs of modes
   (delta/apply, tracking) is derived from it by an argument about runs of a sign
   followed by letters; statements about strings are by induction. *)
From Coq Require Import NArith List Bool Lia Arith.
From Tinode Require Import Base.Util Pure.Acs.
Import ListNotations.
Open Scope N_scope.

(* ---------- canonical text round trip (all 256 modes) ---------- *)

Definition rt_ok (m : N) : bool :=
  match parse_acs (mode_string m) with
  | Some m0 => negb (m0 =? ModeUnset) && (N.land m0 ModeBitmask =? m)
  | None => false
  end.

(* the text of a set is not empty, holds no sign and parses back to the set *)
Definition letters_ok (k : N) : bool :=
  match mode_string k with
  | [] => false
  | s => negb (existsb is_sign s) && rt_ok k
  end.
Lemma letters_sweep : forallb letters_ok (nrange 256) = true.
Proof. vm_compute. reflexivity. Qed.

Lemma mode_string_canonical m : m < 256 ->
  exists c s m0, mode_string m = c :: s /\ existsb is_sign (c :: s) = false /\
    parse_acs (c :: s) = Some m0 /\ (m0 =? ModeUnset) = false /\ N.land m0 ModeBitmask = m.
Proof.
  intros H. pose proof (sweep1 _ _ letters_sweep m H) as L. unfold letters_ok, rt_ok in L.
  destruct (mode_string m) as [|c s]; [discriminate|].
  apply andb_true_iff in L. destruct L as [L1 L2]. apply negb_true_iff in L1.
  destruct (parse_acs (c :: s)) as [m0|] eqn:P; [|discriminate].
  apply andb_true_iff in L2. destruct L2 as [L2 L3]. apply negb_true_iff in L2. apply N.eqb_eq in L3.
  exists c, s, m0. auto.
Qed.

Lemma marshal_defined m : m < 256 -> marshal m = Some (mode_string m).
Proof.
  intros H. unfold mode_string, marshal.
  destruct (m =? ModeNone); [reflexivity|].
  destruct (m =? ModeInvalid) eqn:E; [|reflexivity].
  apply N.eqb_eq in E. unfold ModeInvalid in E. lia.
Qed.

Lemma parse_marshal m cur :
  m < 256 -> unmarshal_text cur (mode_string m) = (m, true).
Proof.
  intros H. destruct (mode_string_canonical m H) as (c & s & m0 & -> & _ & P & U & M).
  unfold unmarshal_text. now rewrite P, U, M.
Qed.

(* ---------- case insensitivity (all strings) ---------- *)

Lemma upper_idem c : upper (upper c) = upper c.
Proof.
  unfold upper.
  destruct ((97 <=? c) && (c <=? 122)) eqn:E; [|now rewrite E].
  apply andb_true_iff in E. destruct E as [E1 E2].
  apply N.leb_le in E1. apply N.leb_le in E2.
  destruct ((97 <=? c - 32) && (c - 32 <=? 122)) eqn:F; [|reflexivity].
  apply andb_true_iff in F. destruct F as [F1 F2]. apply N.leb_le in F1. lia.
Qed.

Lemma letter_bit_upper c : letter_bit (upper c) = letter_bit c.
Proof. unfold letter_bit. now rewrite upper_idem. Qed.

Lemma is_N_upper c : is_N (upper c) = is_N c.
Proof. unfold is_N. now rewrite upper_idem. Qed.

Lemma parse_loop_upper s : forall m0, parse_loop (map upper s) m0 = parse_loop s m0.
Proof.
  induction s as [|c r IH]; intros m0; [reflexivity|].
  cbn [map parse_loop]. rewrite letter_bit_upper, is_N_upper.
  destruct (letter_bit c); [apply IH|].
  destruct r; reflexivity.
Qed.

Lemma parse_case_insensitive s : parse_acs (map upper s) = parse_acs s.
Proof. apply parse_loop_upper. Qed.

(* ---------- unknown letters are rejected (all strings) ---------- *)

Definition known_letter (c : N) : bool :=
  match letter_bit c with Some _ => true | None => is_N c end.

Lemma parse_loop_known s : forall m0 m, parse_loop s m0 = Some m -> forallb known_letter s = true.
Proof.
  induction s as [|c r IH]; intros m0 m H; [reflexivity|].
  cbn [parse_loop] in H. cbn [forallb]. unfold known_letter at 1.
  destruct (letter_bit c) as [b|].
  - cbn. eapply IH; eauto.
  - destruct (is_N c); [|discriminate].
    destruct r as [|c' r']; [reflexivity|].
    rewrite andb_false_r in H. discriminate.
Qed.

Lemma parse_rejects_unknown s m : parse_acs s = Some m -> forallb known_letter s = true.
Proof. apply parse_loop_known. Qed.

(* 'N' stands alone *)
Lemma parse_loop_N_alone s : forall m0 m, parse_loop s m0 = Some m ->
  existsb is_N s = true -> exists c, s = [c] /\ m = ModeNone.
Proof.
  induction s as [|c r IH]; intros m0 m H E; [discriminate|].
  cbn [parse_loop] in H. cbn [existsb] in E.
  destruct (letter_bit c) as [b|] eqn:L.
  - assert (is_N c = false) as NC.
    { unfold letter_bit in L. unfold is_N.
      destruct (upper c =? cN) eqn:U; [|reflexivity].
      apply N.eqb_eq in U. rewrite U in L. vm_compute in L. discriminate. }
    rewrite NC in E. cbn in E.
    destruct (IH _ _ H E) as [c' [-> ->]].
    (* r = [c'] with is_N c': but then m0|b <> Unset makes the parse fail *)
    cbn [parse_loop] in H. cbn [existsb] in E. rewrite orb_false_r in E.
    assert (letter_bit c' = None) as L'.
    { unfold letter_bit. unfold is_N in E. apply N.eqb_eq in E. rewrite E. reflexivity. }
    rewrite L', E in H.
    destruct (N.lor m0 b =? ModeUnset) eqn:Q; cbn in H; [|discriminate].
    exfalso. apply N.eqb_eq in Q.
    assert (N.testbit (N.lor m0 b) 8 = true /\ b < 256 /\ b <> 0) as [_ [Hb Hb0]].
    { rewrite Q. split; [reflexivity|].
      unfold letter_bit in L.
      repeat match type of L with
             | (if ?x then _ else _) = _ => destruct x; [inversion L; subst; lia|]
             end. discriminate. }
    assert (N.land (N.lor m0 b) 255 = 0) as Z by (rewrite Q; reflexivity).
    rewrite N.land_lor_distr_l in Z. apply N.lor_eq_0_iff in Z. destruct Z as [_ Z].
    replace 255 with (N.ones 8) in Z by reflexivity. rewrite N.land_ones in Z.
    rewrite N.mod_small in Z by (cbn; lia). contradiction.
  - destruct (is_N c); [|discriminate].
    destruct r; [|rewrite andb_false_r in H; discriminate].
    rewrite andb_true_r in H. destruct (m0 =? ModeUnset); [|discriminate].
    inversion H. eauto.
Qed.

(* a rejected text leaves the target unchanged; empty text = no change *)
Lemma unmarshal_reject_keeps cur s : snd (unmarshal_text cur s) = false -> fst (unmarshal_text cur s) = cur.
Proof.
  unfold unmarshal_text. destruct (parse_acs s) as [m0|]; [|reflexivity].
  destruct (m0 =? ModeUnset); cbn; discriminate.
Qed.

Lemma unmarshal_empty cur : unmarshal_text cur [] = (cur, true).
Proof. reflexivity. Qed.

Lemma apply_delta_reject_keeps cur d : snd (apply_delta cur d) = false -> fst (apply_delta cur d) = cur.
Proof.
  unfold apply_delta. destruct d as [|c r]; [reflexivity|].
  destruct (list_eqb (c :: r) [cN]); [reflexivity|].
  destruct (apply_delta_loop _ _ _); cbn; [discriminate|reflexivity].
Qed.

Lemma apply_mutation_empty cur : apply_mutation cur [] = (cur, true).
Proof. reflexivity. Qed.

(* ---------- unknown letters in a mutation (delta or assignment) ---------- *)

Definition known_char (c : N) : bool := known_letter c || is_sign c.

Lemma split_sign_spec s : forall ch tl, split_sign s = (ch, tl) ->
  s = ch ++ (match tl with Some t => t | None => [] end) /\
  (forall t, tl = Some t -> exists c r, t = c :: r /\ is_sign c = true) /\
  (length (match tl with Some t => t | None => [] end) <= length s)%nat.
Proof.
  induction s as [|c r IH]; intros ch tl H; cbn in H.
  - inversion H; subst. repeat split; auto. intros t E; discriminate.
  - destruct (is_sign c) eqn:S.
    + inversion H; subst. repeat split; auto.
      intros t E. inversion E; subst. eauto.
    + destruct (split_sign r) as [ch' tl'] eqn:R. inversion H; subst.
      destruct (IH _ _ eq_refl) as [E1 [E2 E3]].
      repeat split; auto.
      * cbn. now rewrite <- E1.
      * cbn. lia.
Qed.

Lemma forallb_known_letter_char s : forallb known_letter s = true -> forallb known_char s = true.
Proof.
  intros H. rewrite forallb_forall in *. intros x Hx. unfold known_char. now rewrite H.
Qed.

Lemma apply_delta_loop_known f : forall d m0 m,
  (length d <= f)%nat ->
  (match d with [c] => is_sign c = true | _ => True end) ->
  apply_delta_loop f d m0 = Some m -> forallb known_char d = true.
Proof.
  induction f as [|f IH]; intros d m0 m Hlen Hone H.
  - destruct d; [reflexivity|cbn in Hlen; lia].
  - cbn [apply_delta_loop] in H.
    destruct d as [|ch [|c2 r]]; [reflexivity| |].
    + cbn. unfold known_char. rewrite Hone. now rewrite orb_true_r.
    + destruct (split_sign (c2 :: r)) as [chunk tl] eqn:SP.
      destruct (split_sign_spec _ _ _ SP) as [E1 [E2 E3]].
      destruct (parse_acs chunk) as [upd|] eqn:P; [|discriminate].
      apply parse_rejects_unknown in P. apply forallb_known_letter_char in P.
      assert (is_sign ch = true) as Sch.
      { unfold is_sign. destruct (ch =? cPlus); [reflexivity|].
        destruct (ch =? cMinus); [reflexivity|discriminate]. }
      change (known_char ch && forallb known_char (c2 :: r) = true).
      rewrite E1, forallb_app, P.
      unfold known_char at 1. rewrite Sch, orb_true_r. cbn [andb].
      destruct tl as [t|]; [|reflexivity].
      destruct (E2 t eq_refl) as [c' [r' [-> Sc']]].
      destruct ((ch =? cPlus)); [|destruct (ch =? cMinus); [|discriminate]].
      * eapply IH; [| |exact H].
        -- cbn in Hlen, E3 |- *. lia.
        -- destruct r'; auto.
      * eapply IH; [| |exact H].
        -- cbn in Hlen, E3 |- *. lia.
        -- destruct r'; auto.
Qed.

Lemma list_eqb_eq a b : list_eqb a b = true -> a = b.
Proof.
  revert b. induction a as [|x a IH]; intros [|y b] H; try reflexivity;
    unfold list_eqb in H; cbn in H; try discriminate.
  apply andb_true_iff in H. destruct H as [H1 H2].
  apply andb_true_iff in H2. destruct H2 as [H2 H3]. apply N.eqb_eq in H2. subst.
  f_equal. apply IH. unfold list_eqb. now rewrite H1, H3.
Qed.

Lemma apply_mutation_rejects_unknown cur s :
  snd (apply_mutation cur s) = true -> forallb known_char s = true.
Proof.
  unfold apply_mutation. destruct s as [|c r]; [reflexivity|].
  destruct (existsb is_sign (c :: r)) eqn:X.
  - unfold apply_delta.
    destruct (list_eqb (c :: r) [cN]) eqn:LE.
    + apply list_eqb_eq in LE. rewrite LE. reflexivity.
    + destruct (apply_delta_loop _ _ _) as [m|] eqn:L; [|discriminate].
      intros _. eapply apply_delta_loop_known; [| |exact L]; [lia|].
      destruct r; [|exact I]. cbn in X. now rewrite orb_false_r in X.
  - unfold unmarshal_text. destruct (parse_acs (c :: r)) eqn:P; [|discriminate].
    intros _. apply forallb_known_letter_char. eapply parse_rejects_unknown; eauto.
Qed.

(* ---------- delta/apply (all pairs of sets) ---------- *)

Lemma split_sign_app s t :
  existsb is_sign s = false -> match t with [] => True | c :: _ => is_sign c = true end ->
  split_sign (s ++ t) = (s, match t with [] => None | _ => Some t end).
Proof.
  intros Hs Ht. induction s as [|c r IH]; cbn [app].
  - destruct t as [|c t]; [reflexivity|]. cbn [split_sign]. now rewrite Ht.
  - cbn [existsb] in Hs. apply orb_false_iff in Hs. destruct Hs as [Hc Hr].
    cbn [split_sign]. now rewrite Hc, (IH Hr).
Qed.

Definition apply_sign (sign m k : N) : N := if sign =? cPlus then N.lor m k else N.ldiff m k.

Lemma apply_delta_loop_signed f sign k t m :
  is_sign sign = true -> k < 256 ->
  match t with [] => True | c :: _ => is_sign c = true end ->
  apply_delta_loop (S f) (sign :: mode_string k ++ t) m =
  match t with [] => Some (apply_sign sign m k) | _ => apply_delta_loop f t (apply_sign sign m k) end.
Proof.
  intros Hsg Hk Ht.
  destruct (mode_string_canonical k Hk) as (c & s & upd & -> & Lns & P & U & M).
  cbn [apply_delta_loop app]. change (c :: s ++ t) with ((c :: s) ++ t).
  rewrite (split_sign_app _ _ Lns Ht), P, U, M. unfold apply_sign.
  unfold is_sign in Hsg. destruct (sign =? cPlus); [|destruct (sign =? cMinus); [|discriminate]];
    destruct t; reflexivity.
Qed.

(* A delta in canonical form is a list of runs, each a sign followed by the letters of a set;
   ApplyDelta folds the runs over the target. *)
Definition run_ok (r : N * N) : Prop := is_sign (fst r) = true /\ snd r < 256.
Fixpoint runs_string (rs : list (N * N)) : list N :=
  match rs with [] => [] | (sign, k) :: r => sign :: mode_string k ++ runs_string r end.
Definition apply_runs (m : N) (rs : list (N * N)) : N :=
  fold_left (fun m r => apply_sign (fst r) m (snd r)) rs m.

Lemma apply_delta_loop_runs rs : forall f m, Forall run_ok rs -> (length rs <= f)%nat ->
  apply_delta_loop f (runs_string rs) m = Some (apply_runs m rs).
Proof.
  induction rs as [|[sign k] r IH]; intros f m Hok Hf; [destruct f; reflexivity|].
  destruct f as [|f]; [cbn in Hf; lia|]. apply le_S_n in Hf.
  inversion Hok as [|? ? [Hs Hk] Hr]; subst. cbn [runs_string].
  rewrite (apply_delta_loop_signed f sign k (runs_string r) m Hs Hk).
  - destruct r as [|[s2 k2] r2]; [reflexivity|]. exact (IH f _ Hr Hf).
  - destruct r as [|[s2 k2] r2]; [exact I|]. inversion Hr as [|? ? [Hs2 _] _]. exact Hs2.
Qed.

Lemma apply_delta_runs rs cur : Forall run_ok rs -> apply_delta cur (runs_string rs) = (apply_runs cur rs, true).
Proof.
  intros Hok. destruct rs as [|[sign k] r]; [reflexivity|].
  unfold apply_delta. cbn [runs_string].
  destruct (list_eqb _ [cN]) eqn:LE.
  - apply list_eqb_eq in LE. injection LE as -> _.
    inversion Hok as [|? ? [Hs _] _]. discriminate Hs.
  - change (sign :: mode_string k ++ runs_string r) with (runs_string ((sign, k) :: r)).
    rewrite apply_delta_loop_runs; [reflexivity|exact Hok|].
    cbn [runs_string length]. rewrite app_length. clear. induction r as [|[s2 k2] r IH]; cbn [runs_string length]; [lia|].
    rewrite app_length. lia.
Qed.

Lemma runs_string_app a b : runs_string (a ++ b) = runs_string a ++ runs_string b.
Proof. induction a as [|[s k] a IH]; cbn [app runs_string]; [reflexivity|]. now rewrite IH, app_assoc. Qed.

Lemma lt256_iff m : m < 256 <-> N.land m ModeBitmask = m.
Proof.
  change ModeBitmask with (N.ones 8). rewrite N.land_ones. split; intros H.
  - now apply N.mod_small.
  - rewrite <- H. now apply N.mod_lt.
Qed.
Lemma ldiff_lt256 a b : a < 256 -> N.ldiff a b < 256.
Proof.
  rewrite !lt256_iff. intros H. apply N.bits_inj. intros i.
  pose proof (N.land_spec a ModeBitmask i) as Hi. rewrite H in Hi.
  rewrite N.land_spec, !N.ldiff_spec, Hi. now destruct (N.testbit a i), (N.testbit ModeBitmask i), (N.testbit b i).
Qed.

(* the runs of o.Delta(n): what n adds, then what it removes *)
Definition run_of (sign k : N) : list (N * N) := if 0 <? k then [(sign, k)] else [].
Definition delta_runs (o n : N) : list (N * N) := run_of cPlus (N.ldiff n o) ++ run_of cMinus (N.ldiff o n).

Lemma run_of_ok sign k : is_sign sign = true -> k < 256 -> Forall run_ok (run_of sign k).
Proof.
  intros Hs Hk. unfold run_of. destruct (0 <? k); repeat constructor; assumption.
Qed.
Lemma apply_run_of sign k m : apply_runs m (run_of sign k) = apply_sign sign m k.
Proof.
  unfold run_of. destruct (0 <? k) eqn:E; [reflexivity|].
  apply N.ltb_ge, N.le_0_r in E. subst k. unfold apply_sign. now rewrite N.lor_0_r, N.ldiff_0_r, Tauto.if_same.
Qed.

Lemma delta_runs_string o n : o < 256 -> n < 256 -> delta o n = runs_string (delta_runs o n).
Proof.
  intros Ho Hn. unfold delta, delta_runs. rewrite runs_string_app.
  rewrite (N.land_comm _ o), (N.land_comm _ n), (proj1 (lt256_iff o) Ho), (proj1 (lt256_iff n) Hn).
  assert (forall sign k, k < 256 ->
    (if 0 <? k then match mode_string k with [] => [] | s => sign :: s end else []) = runs_string (run_of sign k)) as R.
  { intros sign k Hk. unfold run_of. destruct (0 <? k); [|reflexivity]. cbn [runs_string]. rewrite app_nil_r.
    now destruct (mode_string_canonical k Hk) as (c & s & _ & -> & _). }
  now rewrite !R by now apply ldiff_lt256.
Qed.

Lemma delta_runs_ok o n : o < 256 -> n < 256 -> Forall run_ok (delta_runs o n).
Proof. intros Ho Hn. apply Forall_app. split; apply run_of_ok; try reflexivity; now apply ldiff_lt256. Qed.

Lemma delta_apply o n : o < 256 -> n < 256 -> apply_delta o (delta o n) = (n, true).
Proof.
  intros Ho Hn. rewrite (delta_runs_string o n Ho Hn), (apply_delta_runs _ o (delta_runs_ok o n Ho Hn)).
  unfold delta_runs, apply_runs. rewrite fold_left_app. fold (apply_runs o (run_of cPlus (N.ldiff n o))).
  rewrite apply_run_of. fold (apply_runs (apply_sign cPlus o (N.ldiff n o)) (run_of cMinus (N.ldiff o n))).
  rewrite apply_run_of. f_equal. apply N.bits_inj. intros i. cbn [apply_sign N.eqb cPlus cMinus Pos.eqb].
  rewrite !N.ldiff_spec, N.lor_spec, N.ldiff_spec. now destruct (N.testbit o i), (N.testbit n i).
Qed.

(* the same through ApplyMutation, which is what trackers call: a delta is empty or starts with a sign *)
Lemma apply_mutation_runs rs cur : Forall run_ok rs -> apply_mutation cur (runs_string rs) = apply_delta cur (runs_string rs).
Proof.
  intros Hok. destruct rs as [|[sign k] r]; [reflexivity|]. inversion Hok as [|? ? [Hs _] _].
  unfold apply_mutation. cbn [runs_string existsb fst] in *. now rewrite Hs.
Qed.
Lemma delta_mutation o n : o < 256 -> n < 256 -> apply_mutation o (delta o n) = (n, true).
Proof.
  intros Ho Hn. rewrite (delta_runs_string o n Ho Hn), (apply_mutation_runs _ o (delta_runs_ok o n Ho Hn)),
    <- (delta_runs_string o n Ho Hn). now apply delta_apply.
Qed.

Lemma delta_same o : o < 256 -> delta o o = [].
Proof.
  intros Ho. rewrite (delta_runs_string o o Ho Ho). unfold delta_runs. now rewrite N.ldiff_diag.
Qed.

(* ---------- tracking through notifications ---------- *)

(* the modes a topic can hold for a subscription: a set, Unset, or Invalid *)
Definition mode_domain : list N := nrange 257 ++ [ModeInvalid].
Definition norm (m : N) : N := if is_defined m then N.land m ModeBitmask else ModeNone.

Lemma defined_small m : m < 256 -> is_defined m = true /\ norm m = m.
Proof.
  intros H. assert (is_defined m = true) as D.
  { unfold is_defined, ModeInvalid, ModeUnset. apply andb_true_iff. split; apply negb_true_iff, N.eqb_neq; lia. }
  unfold norm. rewrite D. split; [reflexivity|]. now apply lt256_iff.
Qed.
Lemma mode_domain_cases m : In m mode_domain -> m < 256 \/ is_defined m = false.
Proof.
  unfold mode_domain. rewrite in_app_iff, in_nrange. intros [H|[<-|[]]]; [|now right].
  destruct (N.eq_dec m 256) as [->|]; [now right|left; lia].
Qed.

Lemma mode_string_mutation cur m : m < 256 -> apply_mutation cur (mode_string m) = (m, true).
Proof.
  intros H. pose proof (parse_marshal m cur H) as P. unfold apply_mutation.
  destruct (mode_string_canonical m H) as (c & s & _ & E & L & _). rewrite E in *. now rewrite L.
Qed.

(* the notification string of (old, new) applied to the normalised old value gives the
   normalised new value, without error *)
Lemma notify_mutation o n : In o mode_domain -> In n mode_domain ->
  apply_mutation (norm o) (notify_string o n) = (norm n, true).
Proof.
  intros Ho Hn. unfold notify_string.
  destruct (mode_domain_cases n Hn) as [Hn'|Dn].
  - destruct (defined_small n Hn') as [-> ->].
    destruct (is_defined o && negb (o =? ModeNone)) eqn:E; [|now apply mode_string_mutation].
    apply andb_true_iff in E. destruct E as [Do _].
    destruct (mode_domain_cases o Ho) as [Ho'|Do']; [|congruence].
    destruct (defined_small o Ho') as [_ ->]. now apply delta_mutation.
  - unfold norm at 2. now rewrite Dn.
Qed.

Lemma track_step o n : In o mode_domain -> In n mode_domain -> track (norm o) o n = norm n.
Proof. intros Ho Hn. unfold track. now rewrite notify_mutation. Qed.

(* A tracker that starts in agreement and applies the notification of every
   change, in order, holds what the topic holds: for every sequence. *)
Fixpoint replay (tracked cur : N) (changes : list N) : N :=
  match changes with
  | [] => tracked
  | n :: rest => replay (track tracked cur n) n rest
  end.

Lemma last_cons_default {A} (x : A) l d d' : last (x :: l) d = last (x :: l) d'.
Proof. revert x. induction l as [|y l IH]; intros x; [reflexivity|]. cbn [last] in *. apply IH. Qed.

Lemma tracking cur changes :
  In cur mode_domain -> Forall (fun n => In n mode_domain) changes ->
  replay (norm cur) cur changes = norm (last changes cur).
Proof.
  revert cur. induction changes as [|n rest IH]; intros cur Hc Hall; [reflexivity|].
  inversion Hall as [|? ? Hn Hrest]; subst.
  cbn [replay]. rewrite track_step by assumption. rewrite IH by assumption.
  destruct rest; [reflexivity|]. f_equal. change (last (n :: n0 :: rest) cur) with (last (n0 :: rest) cur). apply last_cons_default.
Qed.

