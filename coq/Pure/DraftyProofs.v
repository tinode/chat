(* C13: lemmas about the Drafty span pipeline model (coq/Pure/Drafty.v).
   Main results: [to_tree_safe] (toTree never panics and never runs out of fuel, for every document),
   [preview_safe], [plain_text_safe], [unrepaired_panics] (the range check before /repo 6cc931e lets a
   wrapped at+len through), [unrepaired_same] (without overflow the two checks coincide).

   The code is walked through with two predicates on outcomes, [ok_with P] (a value satisfying [P]) and
   [err_or P] (that, or a returned error), and their rules for [bind]. *)
From Coq Require Import List NArith ZArith Bool Lia ZifyBool ZifyNat ZifyN Permutation.
Import ListNotations.
Require Import Tinode.Base.Insertion Tinode.Pure.Drafty.
Open Scope Z_scope.

Definition ok_with {A} (P : A -> Prop) (r : res A) : Prop := exists a, r = Ok a /\ P a.
Definition err_or {A} (P : A -> Prop) (r : res A) : Prop := (exists e, r = Err e) \/ ok_with P r.
Definition safe {A} (r : res A) : Prop := (exists a, r = Ok a) \/ (exists e, r = Err e).

Lemma ok_ret {A} (P : A -> Prop) a : P a -> ok_with P (Ok a).
Proof. intros H. exists a. split; [reflexivity|exact H]. Qed.

Lemma ok_bind {A B} (P : A -> Prop) (Q : B -> Prop) r f :
  ok_with P r -> (forall a, P a -> ok_with Q (f a)) -> ok_with Q (bind r f).
Proof. intros [a [-> Ha]] Hf. exact (Hf a Ha). Qed.

Lemma err_or_bind {A B} (P : A -> Prop) (Q : B -> Prop) r f :
  err_or P r -> (forall a, P a -> err_or Q (f a)) -> err_or Q (bind r f).
Proof. intros [[e ->] | [a [-> Ha]]] Hf; [left; exists e; reflexivity|exact (Hf a Ha)]. Qed.

Lemma err_or_safe {A} (P : A -> Prop) r : err_or P r -> safe r.
Proof. intros [He | [a [E _]]]; [right; exact He|left; exists a; exact E]. Qed.

Lemma safe_not_panic {A} (r : res A) : safe r -> (forall s, r <> Panic s) /\ r <> OutOfFuel.
Proof. intros [[a E] | [e E]]; rewrite E; split; try intros s; discriminate. Qed.

Lemma wrap_small x : - two63 <= x < two63 -> wrap x = x.
Proof. intros H. unfold wrap. rewrite Z.mod_small; unfold two63, two64 in *; lia. Qed.

Lemma wrap_le x : 0 <= x -> wrap x <= x.
Proof.
  intros H. unfold wrap.
  assert (K : (x + two63) mod two64 <= x + two63) by (apply Z.mod_le; unfold two63, two64; lia).
  lia.
Qed.

Fixpoint sum (l : list N) : Z := match l with [] => 0 | x :: r => Z.of_N x + sum r end.

Lemma sum_nonneg l : 0 <= sum l.
Proof. induction l as [|x r IH]; cbn [sum]; lia. Qed.

Lemma sum_app a b : sum (a ++ b) = sum a + sum b.
Proof. induction a as [|x r IH]; cbn [sum app]; lia. Qed.

Lemma sum_firstn_skipn n l : sum (firstn n l) + sum (skipn n l) = sum l.
Proof. rewrite <- sum_app, firstn_skipn. reflexivity. Qed.

Lemma sum_firstn_le n l : sum (firstn n l) <= sum l.
Proof. pose proof (sum_firstn_skipn n l). pose proof (sum_nonneg (skipn n l)). lia. Qed.

Definition g_wf (x : graphemes) : Prop := sum (g_sizes x) <= Z.of_nat (length (g_orig x)).
Definition gcs_wf (g : gcs) : Prop := match g with None => True | Some x => g_wf x end.

Lemma prepare_wf cl : g_wf (prepare cl).
Proof.
  unfold g_wf, prepare. cbn [g_sizes g_orig].
  induction cl as [|c r IH]; cbn [map sum concat]; [reflexivity|].
  rewrite app_length, Nat2Z.inj_add, <- nat_N_Z.
  apply Z.add_le_mono; [|exact IH]. apply N2Z.inj_le, N.mod_le. discriminate.
Qed.

Lemma d_gc_wf d : gcs_wf (d_gc d).
Proof. unfold d_gc. destruct (d_txt d); cbn [option_map gcs_wf]; [apply prepare_wf|exact I]. Qed.

(* the index loops of graphemes.slice *)
(* the loop from [i] to [stop] makes [stop - i] steps (none when [stop <= i]) *)
Lemma walk_ok : forall n sizes i stop acc, Z.to_nat (stop - i) = n -> (n <= length sizes)%nat ->
  walk sizes i stop acc = Some (acc + sum (firstn n sizes), skipn n sizes).
Proof.
  induction n as [|n IH]; intros sizes i stop acc Hn Hlen.
  - assert (E : (i <? stop) = false) by lia.
    cbn [firstn skipn sum]. rewrite Z.add_0_r. destruct sizes; cbn [walk]; rewrite E; reflexivity.
  - assert (E : (i <? stop) = true /\ Z.to_nat (stop - (i + 1)) = n) by lia. destruct E as [E Hn'].
    destruct sizes as [|x r]; [inversion Hlen|]. apply le_S_n in Hlen.
    cbn [walk firstn skipn sum]. rewrite E, Z.add_assoc. exact (IH r _ _ _ Hn' Hlen).
Qed.

Lemma sub_list_length {A} (l : list A) a b : 0 <= a -> a <= b -> b <= Z.of_nat (length l) ->
  Z.of_nat (length (sub_list l a b)) = b - a.
Proof. intros. unfold sub_list. rewrite firstn_length, skipn_length. lia. Qed.

(* the bounds test of a slice expression x[a:b] *)
Lemma slice_bounds a b len : 0 <= a -> a <= b -> b <= len -> (0 <=? a) && (a <=? b) && (b <=? len) = true.
Proof. intros H1 H2 H3. apply Z.leb_le in H1, H2, H3. rewrite H1, H2, H3. reflexivity. Qed.

(* g.slice(a, b) with 0 <= a <= b <= len on a well-formed non-nil container *)
Lemma g_slice_ok x a b : g_wf x -> 0 <= a -> a <= b -> b <= Z.of_nat (length (g_sizes x)) ->
  exists y, g_slice (Some x) a b = Ok (Some y) /\ g_wf y /\ Z.of_nat (length (g_sizes y)) = b - a.
Proof.
  intros Hwf Ha Hab Hb.
  assert (Hn : (Z.to_nat a + Z.to_nat (b - a) <= length (g_sizes x))%nat) by lia.
  (* [s], [e]: the byte offsets the two loops compute *)
  set (rest := skipn (Z.to_nat a) (g_sizes x)).
  set (s := sum (firstn (Z.to_nat a) (g_sizes x))).
  set (e := s + sum (firstn (Z.to_nat (b - a)) rest)).
  assert (Hs0 : 0 <= s) by apply sum_nonneg.
  assert (Hse : s <= e) by (pose proof (sum_nonneg (firstn (Z.to_nat (b - a)) rest)); unfold e; lia).
  assert (He : e <= Z.of_nat (length (g_orig x))).
  { pose proof (sum_firstn_skipn (Z.to_nat a) (g_sizes x)). pose proof (sum_firstn_le (Z.to_nat (b - a)) rest).
    unfold g_wf in Hwf. unfold e, s, rest in *. lia. }
  unfold g_slice.
  rewrite (walk_ok (Z.to_nat a)); [|rewrite Z.sub_0_r; reflexivity|exact (Nat.le_trans _ _ _ (Nat.le_add_r _ _) Hn)].
  rewrite Z.add_0_l. fold s rest.
  assert (Hr2 : (if a <? b then (if a <? 0 then None else option_map fst (walk rest a b s)) else Some s) = Some e).
  { destruct (a <? b) eqn:E.
    - rewrite (proj2 (Z.ltb_ge a 0) Ha), (walk_ok (Z.to_nat (b - a))); [reflexivity|reflexivity|].
      unfold rest. rewrite skipn_length. exact (Nat.le_add_le_sub_l _ _ _ Hn).
    - pose proof (Z.le_antisymm _ _ Hab (proj1 (Z.ltb_ge _ _) E)) as Eab.
      unfold e. rewrite <- Eab, Z.sub_diag. cbn [Z.to_nat firstn sum]. rewrite Z.add_0_r. reflexivity. }
  rewrite Hr2.
  rewrite (slice_bounds _ _ _ Hs0 Hse He), (slice_bounds _ _ _ Ha Hab Hb).
  cbn [negb]. eexists. split; [reflexivity|]. split.
  - unfold g_wf. cbn [g_sizes g_orig]. rewrite sub_list_length by assumption.
    unfold e, sub_list. fold rest. rewrite Z.add_simpl_l. apply Z.le_refl.
  - cbn [g_sizes]. apply sub_list_length; assumption.
Qed.

Lemma g_slice_gcs g a b : gcs_wf g -> 0 <= a -> a < b -> b <= g_length g -> ok_with gcs_wf (g_slice g a b).
Proof.
  intros Hwf Ha Hab Hb. destruct g as [x|]; cbn [g_length] in Hb; [|lia].
  destruct (g_slice_ok x a b Hwf Ha (Z.lt_le_incl _ _ Hab) Hb) as [y [E [W _]]].
  exists (Some y). split; [exact E|exact W].
Qed.

(* trees whose grapheme containers are well-formed *)
Inductive node_wf : node -> Prop :=
  | node_wf_intro gc sp children : gcs_wf gc -> Forall node_wf children -> node_wf (Node gc sp children).

Definition nodes_wf : list node -> Prop := Forall node_wf.

Lemma node_wf_inv gc sp ch : node_wf (Node gc sp ch) -> gcs_wf gc /\ nodes_wf ch.
Proof. intros H. inversion H. split; assumption. Qed.

Definition span_ok (tl : Z) (s : span) : Prop := sp_at s < 0 \/ (0 <= sp_at s /\ sp_at s <= sp_end s /\ sp_end s <= tl).

Lemma take_drop_while {A} (p : A -> bool) l : take_while p l ++ drop_while p l = l.
Proof. induction l as [|x r IH]; cbn [take_while drop_while]; [reflexivity|]. destruct (p x); [cbn [app]; rewrite IH|]; reflexivity. Qed.

(* forEach terminates (fuel above the number of spans is enough) and never panics, for ANY list of spans
   that passed the range check, in any order *)
Lemma for_each_ok : forall fuel g start end_ spans,
  gcs_wf g -> (length spans < fuel)%nat -> 0 <= start -> end_ <= g_length g -> Forall (span_ok (g_length g)) spans ->
  exists nodes, for_each fuel g start end_ spans = Ok nodes /\ nodes_wf nodes.
Proof.
  induction fuel as [|f IH]; intros g start end_ spans Hwf Hlen Hs He Hok; [inversion Hlen|].
  change (ok_with nodes_wf (for_each (S f) g start end_ spans)).
  apply le_S_n in Hlen. cbn [for_each]. destruct spans as [|sp rest].
  - destruct (start <? end_) eqn:E; [|apply ok_ret; constructor].
    apply (ok_bind gcs_wf); [apply g_slice_gcs; [exact Hwf|exact Hs|apply Z.ltb_lt; exact E|exact He]|].
    intros r Wr. apply ok_ret. repeat constructor. exact Wr.
  - apply Forall_cons_iff in Hok as [Hsp Hrest]. cbn [length] in Hlen.
    destruct (sp_at sp <? 0) eqn:Eat.
    + apply (ok_bind nodes_wf); [apply IH; assumption|].
      intros tl Wt. apply ok_ret. repeat constructor. exact Wt.
    + destruct Hsp as [Hneg | [H0 [H1 H2]]]; [apply Z.ltb_lt in Hneg; congruence|]. clear Eat.
      set (p := fun s : span => sp_at s <? sp_end sp).
      (* the spans inside the current one and those after it *)
      rewrite <- (take_drop_while p rest) in Hrest, Hlen. apply Forall_app in Hrest as [Hin Hafter].
      rewrite app_length in Hlen.
      (* the un-styled range before the span *)
      apply (ok_bind (fun pre => nodes_wf (fst pre) /\ 0 <= snd pre)).
      { destruct (start <? sp_at sp) eqn:E; [|apply ok_ret; split; [constructor|exact Hs]].
        apply (ok_bind gcs_wf); [apply g_slice_gcs; [exact Hwf|exact Hs|apply Z.ltb_lt; exact E|exact (Z.le_trans _ _ _ H1 H2)]|].
        intros r Wr. apply ok_ret. split; [repeat constructor; exact Wr|exact H0]. }
      intros pre [Wpre Hs1].
      apply (ok_bind node_wf).
      { destruct (is_void (sp_tp sp)); [apply ok_ret; repeat constructor|].
        apply (ok_bind nodes_wf); [apply IH; [exact Hwf|exact (Nat.le_lt_trans _ _ _ (Nat.le_add_r _ _) Hlen)|exact Hs1|exact H2|exact Hin]|].
        intros ch Wch. apply ok_ret. constructor; [exact I|exact Wch]. }
      intros nd Wnd.
      apply (ok_bind nodes_wf); [apply IH; [exact Hwf|exact (Nat.le_lt_trans _ _ _ (Nat.le_add_l _ _) Hlen)|exact (Z.le_trans _ _ _ H0 H1)|exact He|exact Hafter]|].
      intros tl Wt. apply ok_ret. apply Forall_app. split; [exact Wpre|constructor; [exact Wnd|exact Wt]].
Qed.

Lemma index_ent_some ents k : 0 <= k -> k < Z.of_nat (length ents) -> exists e, index_ent ents k = Some e.
Proof.
  intros H0 H1. unfold index_ent. replace ((k <? 0) || (Z.of_nat (length ents) <=? k)) with false by lia.
  destruct (nth_error ents (Z.to_nat k)) eqn:E; [eauto|]. apply nth_error_None in E. lia.
Qed.

Lemma style_to_span_cases i :
  err_or (fun s => sp_at s = st_at i /\ sp_end s = add64 (st_len i) (st_at i) /\ 0 <= st_len i) (style_to_span i).
Proof.
  unfold style_to_span. destruct (st_len i <? 0) eqn:E; [left; eauto|].
  apply Z.ltb_ge in E.
  destruct (is_empty (st_tp i)); [destruct (st_key i <? 0); [left; eauto|]|];
    right; apply ok_ret; cbn [sp_at sp_end]; repeat split; exact E.
Qed.

(* the body of the loop (code as it is): an error or a span within range; never a panic *)
Lemma one_span_cases tl ents i : err_or (span_ok tl) (one_span true tl ents i).
Proof.
  unfold one_span. apply (err_or_bind _ _ _ _ (style_to_span_cases i)). intros s _.
  destruct ((sp_at s <? -1) || (tl <? sp_end s) || (true && (sp_end s <? sp_at s))) eqn:Echk; [left; eauto|].
  (* the range check is all that [span_ok] needs; the entity only replaces type and data *)
  assert (Hok : forall s', sp_at s' = sp_at s -> sp_end s' = sp_end s -> span_ok tl s').
  { intros s' A B. unfold span_ok. rewrite A, B. lia. }
  clear Echk. apply (err_or_bind (span_ok tl)).
  - destruct (is_empty (sp_tp s) && (0 <? Z.of_nat (length ents))); [|right; apply ok_ret, Hok; reflexivity].
    destruct ((sp_key s <? 0) || (Z.of_nat (length ents) <=? sp_key s)) eqn:Ekey; [left; eauto|].
    destruct (index_ent_some ents (sp_key s)) as [e ->]; [lia|lia|].
    right. apply ok_ret, Hok; reflexivity.
  - intros s2 H2. match goal with |- context [if ?c then _ else _] => destruct c end; [left; eauto|].
    right. apply ok_ret. exact H2.
Qed.

Lemma all_spans_cases tl ents fmt : err_or (Forall (span_ok tl)) (all_spans true tl ents fmt).
Proof.
  induction fmt as [|i r IH]; cbn [all_spans]; [right; apply ok_ret; constructor|].
  apply (err_or_bind _ _ _ _ (one_span_cases tl ents i)). intros s Hs.
  apply (err_or_bind _ _ _ _ IH). intros l Hl.
  right. apply ok_ret. constructor; assumption.
Qed.

(* sorting permutes: Base/Insertion.v, with [less] and [insert_span] *)
Lemma sort_spans_forall (P : span -> Prop) l : Forall P l -> Forall P (sort_spans l).
Proof.
  rewrite <- (app_nil_r l) at 1. apply Permutation_Forall. symmetry.
  now apply (isort_left_perm less insert_span).
Qed.

Lemma filter_spans_forall (P : span -> Prop) l : forall e, Forall P l -> Forall P (filter_spans e l).
Proof.
  induction l as [|s r IH]; intros e H; cbn [filter_spans]; [constructor|].
  apply Forall_cons_iff in H as [Hs Hr].
  destruct ((sp_at s <? e) && (e <? sp_end s)); [|constructor; [exact Hs|]]; apply IH; exact Hr.
Qed.

Lemma to_tree_cases d : err_or node_wf (to_tree true d).
Proof.
  unfold to_tree. destruct (d_fmt d) as [|i r] eqn:Ef.
  - right. apply ok_ret. constructor; [apply d_gc_wf|constructor].
  - apply (err_or_bind _ _ _ _ (all_spans_cases (g_length (d_gc d)) (d_ent d) (i :: r))). intros l Hl.
    right. apply (ok_bind nodes_wf).
    + apply for_each_ok; [apply d_gc_wf|apply Nat.lt_succ_diag_r|reflexivity|reflexivity|].
      apply filter_spans_forall, sort_spans_forall. exact Hl.
    + intros nodes Wn. apply ok_ret. constructor; [exact I|exact Wn].
Qed.

Lemma to_tree_safe d : safe (to_tree true d).
Proof. exact (err_or_safe _ _ (to_tree_cases d)). Qed.

Lemma plain_text_safe d : safe (plain_text true d).
Proof.
  apply (err_or_safe (fun _ => True)). unfold plain_text.
  apply (err_or_bind _ _ _ _ (to_tree_cases d)). intros t _. right. apply ok_ret. exact I.
Qed.

Lemma g_length_nonneg g : 0 <= g_length g.
Proof. destruct g; cbn [g_length]; lia. Qed.

Lemma increment_range at_ max_len L : 0 <= at_ -> at_ < max_len -> max_len < two63 -> 0 < L ->
  let inc' := if max_len <? add64 at_ L then sub64 max_len at_ else L in 0 <= inc' <= L.
Proof.
  intros H0 H1 H2 H3. cbv zeta. destruct (max_len <? add64 at_ L) eqn:E; [|lia].
  unfold sub64. rewrite wrap_small by (unfold two63 in *; lia).
  unfold add64 in E. pose proof (wrap_le (at_ + L) ltac:(lia)). lia.
Qed.

Section NodeInd.
  Variable P : node -> Prop.
  Hypothesis H : forall gc sp ch, Forall P ch -> P (Node gc sp ch).
  Fixpoint node_ind' (n : node) : P n :=
    match n with
    | Node gc sp ch => H gc sp ch ((fix go (l : list node) : Forall P l :=
                                     match l with [] => Forall_nil P | c :: l' => Forall_cons c (node_ind' c) (go l') end) ch)
    end.
End NodeInd.

Lemma preview_fmt_ok max_len : max_len < two63 ->
  forall n, node_wf n -> forall st, ok_with (fun _ => True) (preview_fmt max_len n st).
Proof.
  intros Hmax. apply (node_ind' (fun n => node_wf n -> forall st, ok_with (fun _ => True) (preview_fmt max_len n st))).
  intros gc sp ch IH Hwf st. apply node_wf_inv in Hwf as [Wgc Wch].
  cbn [preview_fmt].
  destruct (max_len <=? g_length (p_gc st)) eqn:Emax; [apply ok_ret; exact I|].
  match goal with |- context [if ?c then Ok st else _] => destruct c end; [apply ok_ret; exact I|].
  apply (ok_bind (fun _ => True)); [|intros st1 _; destruct sp; apply ok_ret; exact I].
  destruct ch as [|c r].
  - destruct (0 <? g_length gc) eqn:EL; [|apply ok_ret; exact I].
    pose proof (increment_range (g_length (p_gc st)) max_len (g_length gc) (g_length_nonneg _) ltac:(lia) Hmax ltac:(lia)) as Hinc.
    cbv zeta in *.
    destruct gc as [x|]; [|discriminate EL].
    destruct (g_slice_ok x 0 _ Wgc (Z.le_refl 0) (proj1 Hinc) (proj2 Hinc)) as [y [-> _]].
    apply ok_ret. exact I.
  - (* the loop over the children, on its unfolded form: one child [c], then the loop over [r] *)
    clear Emax. revert c st IH Wch. induction r as [|c' r IHr]; intros c st IH Wch;
      apply Forall_cons_iff in IH as [Hc Hr]; apply Forall_cons_iff in Wch as [Wc Wr];
      (apply (ok_bind (fun _ => True)); [exact (Hc Wc st)|]); intros s' _.
    + apply ok_ret. exact I.
    + exact (IHr c' s' Hr Wr).
Qed.

Lemma preview_safe max_len d : max_len < two63 -> safe (preview true max_len d).
Proof.
  intros Hmax. apply (err_or_safe (fun _ => True)). unfold preview.
  apply (err_or_bind _ _ _ _ (to_tree_cases d)). intros t W. right.
  apply (ok_bind _ _ _ _ (preview_fmt_ok max_len Hmax t W _)). intros st _. apply ok_ret. exact I.
Qed.

(* the range check before /repo commit 6cc931e *)
Lemma unrepaired_panics : to_tree false doc_overflow = Panic site_sizes_index.
Proof. vm_compute. reflexivity. Qed.

(* without overflow of at+len the old and the new check accept the same spans *)
Definition no_overflow (d : document) : Prop := forall i, In i (d_fmt d) -> - two63 <= st_len i + st_at i < two63.

Lemma one_span_same tl ents i : - two63 <= st_len i + st_at i < two63 -> one_span false tl ents i = one_span true tl ents i.
Proof.
  intros H. unfold one_span. destruct (style_to_span_cases i) as [[e ->] | [s [-> [Hat [Hend Hlen]]]]]; [reflexivity|].
  cbn [bind]. unfold add64 in Hend. rewrite wrap_small in Hend by exact H.
  replace (true && (sp_end s <? sp_at s)) with false by lia. reflexivity.
Qed.

Lemma all_spans_same tl ents fmt : (forall i, In i fmt -> - two63 <= st_len i + st_at i < two63) ->
  all_spans false tl ents fmt = all_spans true tl ents fmt.
Proof.
  induction fmt as [|i r IH]; intros H; [reflexivity|]. cbn [all_spans].
  rewrite one_span_same by (apply H; left; reflexivity). rewrite IH by (intros j Hj; apply H; right; exact Hj). reflexivity.
Qed.

Lemma unrepaired_same d : no_overflow d -> to_tree false d = to_tree true d.
Proof. intros H. unfold to_tree. destruct (d_fmt d) eqn:E; [reflexivity|]. rewrite all_spans_same; [reflexivity|]. rewrite <- E. exact H. Qed.
