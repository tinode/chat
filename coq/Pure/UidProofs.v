(* Lemmas about Pure/Uid.v: little-endian layout, text / prefixed / database / base32
   round trips for every u < 2^64, soundness of decoding (a text that decodes to
   a non-zero id is one of the four spellings of that id), group/channel names.
   The JSON round trip is Props/PropC20.uid_json_roundtrip. *)
From Coq Require Import NArith ZArith List Bool Lia Arith.
From Coq Require Import ZifyBool ZifyNat ZifyN.
From Tinode Require Import Base.Util Base.Base64 Base.Base64Proofs Pure.Uid.
Import ListNotations.
Open Scope N_scope.

(* ------------------------------------------------ little-endian layout *)

Lemma lor_byte_shl b x : b < 256 -> N.lor b (N.shiftl x 8) = x * 256 + b.
Proof. intros. now rewrite N.lor_comm, lor_cat. Qed.

Lemma le_bytes_length n v : length (le_bytes n v) = n.
Proof. revert v. induction n; intros; cbn; auto. Qed.

Lemma le_bytes_lt256 n v : Forall lt256 (le_bytes n v).
Proof. revert v. induction n; intros; cbn [le_bytes]; constructor; auto. apply byte_lt. Qed.

Lemma le_bytes_le_num bs : Forall lt256 bs -> le_bytes (length bs) (le_num bs) = bs.
Proof.
  induction 1 as [|x l Hx HF IH]; [reflexivity|].
  cbn [le_bytes le_num length]. unfold lt256 in Hx. rewrite lor_byte_shl by assumption. f_equal.
  - rewrite byte_mod. now apply cat_mod.
  - rewrite shr_div. pow_lit. rewrite cat_div by assumption. exact IH.
Qed.

Lemma le_num_le_bytes n v : le_num (le_bytes n v) = v mod 2 ^ (8 * N.of_nat n).
Proof.
  revert v. induction n as [|k IH]; intros v.
  - cbn. now rewrite N.mod_1_r.
  - cbn [le_bytes le_num]. rewrite lor_byte_shl by apply byte_lt. rewrite IH, byte_mod, shr_div.
    rewrite Nat2N.inj_succ. replace (8 * N.succ (N.of_nat k)) with (8 + 8 * N.of_nat k) by lia.
    rewrite N.pow_add_r. pow_lit.
    rewrite N.mod_mul_r by (try (apply N.pow_nonzero; discriminate); discriminate).
    now rewrite N.add_comm, N.mul_comm.
Qed.

Lemma le_num_bound bs : Forall lt256 bs -> le_num bs < 2 ^ (8 * N.of_nat (length bs)).
Proof.
  intros H. rewrite <- (le_bytes_le_num bs H) at 1. rewrite le_num_le_bytes.
  apply N.mod_lt. apply N.pow_nonzero. discriminate.
Qed.

Lemma le_uint64_le_bytes u : u < two64 -> le_uint64 (le_bytes 8 u) = u.
Proof.
  intros H. unfold le_uint64. rewrite firstn_all2 by (rewrite le_bytes_length; lia).
  rewrite le_num_le_bytes. apply N.mod_small. exact H.
Qed.

Lemma le_bytes_le_uint64 bs : length bs = 8%nat -> Forall lt256 bs -> le_bytes 8 (le_uint64 bs) = bs.
Proof.
  intros L F. unfold le_uint64. rewrite firstn_all2 by lia. rewrite <- L. now apply le_bytes_le_num.
Qed.

Lemma in_firstn' {A} n (l : list A) x : In x (firstn n l) -> In x l.
Proof.
  revert l. induction n as [|n IH]; intros l H; [destruct H|].
  destruct l as [|y l]; [destruct H|]. cbn in H. destruct H as [-> | H]; [now left|right; auto].
Qed.

Lemma le_uint64_bound bs : Forall lt256 bs -> le_uint64 bs < two64.
Proof.
  intros F. unfold le_uint64.
  assert (F' : Forall lt256 (firstn 8 bs)).
  { apply Forall_forall. intros x Hx. rewrite Forall_forall in F. apply F. eapply in_firstn'; eauto. }
  pose proof (le_num_bound _ F') as B. eapply N.lt_le_trans; [exact B|].
  pose proof (firstn_le_length 8 bs) as L. unfold two64.
  change 18446744073709551616 with (2 ^ 64). apply N.pow_le_mono_r; lia.
Qed.

(* ------------------------------------------------ text form *)

Lemma marshal_text_shape u : u <> 0 ->
  exists c0 c1 c2 c3 c4 c5 c6 c7 c8 c9 c10, marshal_text u = [c0; c1; c2; c3; c4; c5; c6; c7; c8; c9; c10].
Proof.
  intros H. unfold marshal_text. destruct (u =? 0) eqn:E; [lia|].
  cbn [le_bytes b64_encode b64_sextets map]. repeat eexists.
Qed.

Lemma unmarshal_text_fail cur s v : unmarshal_text cur s = (v, false) -> v = cur.
Proof.
  unfold unmarshal_text. destruct (negb _); [now inversion 1|].
  destruct (b64_decode s) as [dec fl]. destruct (Nat.ltb _ _); now inversion 1.
Qed.

(* what an accepted text looks like *)
Lemma unmarshal_text_ok cur s v : unmarshal_text cur s = (v, true) ->
  exists l, length l = 11%nat /\ s = map enc_char l /\ Forall lt64 l /\
            v = le_uint64 (sx_bytes l) /\ v < two64 /\ b64_sextets (le_bytes 8 v) = canon l.
Proof.
  unfold unmarshal_text. destruct (Nat.eqb (length s) uidBase64Unpadded) eqn:L; cbn [negb]; [|discriminate].
  apply Nat.eqb_eq in L. unfold uidBase64Unpadded in L.
  destruct (b64_decode s) as [dec fl] eqn:D. destruct (Nat.ltb (length dec) 8) eqn:C; [discriminate|].
  apply Nat.ltb_ge in C. intros E. inversion E; subst v; clear E.
  destruct (decode_count_all_valid s 8) as (l & Es & Fl & Ed).
  { rewrite D. exact C. } { lia. }
  rewrite D in Ed. cbn [fst] in Ed. subst dec. exists l.
  assert (Ll : length l = 11%nat) by (rewrite <- L, Es; now rewrite map_length).
  repeat split; auto.
  - apply le_uint64_bound, sx_bytes_lt256.
  - rewrite <- (sextets_sx_bytes l Fl). f_equal. apply le_bytes_le_uint64; [|apply sx_bytes_lt256].
    do 12 (destruct l as [|? l]; try discriminate). reflexivity.
Qed.

(* ---- the spellings of an id: the canonical text, and the three texts that
   differ from it only in the two unused trailing bits of the last character *)
Definition uid_sextets (u : N) : list N := b64_sextets (le_bytes 8 u).
Definition spelling (u k : N) : list N :=
  map enc_char (firstn 10 (uid_sextets u) ++ [nth 10 (uid_sextets u) 0 + k]).
Definition spellings (u : N) : list (list N) := [spelling u 0; spelling u 1; spelling u 2; spelling u 3].

Lemma spelling_0 u : u <> 0 -> uid_string u = spelling u 0.
Proof.
  intros H. unfold uid_string, marshal_text, spelling, uid_sextets. destruct (u =? 0) eqn:E; [lia|].
  cbn [le_bytes b64_encode b64_sextets firstn nth app]. now rewrite N.add_0_r.
Qed.

Lemma in_spellings u k : k < 4 -> In (spelling u k) (spellings u).
Proof.
  intros H. unfold spellings.
  assert (k = 0 \/ k = 1 \/ k = 2 \/ k = 3) as [-> | [-> | [-> | ->]]] by lia; cbn [In];
    [left | right; left | right; right; left | right; right; right; left]; reflexivity.
Qed.

Lemma unmarshal_text_sound cur s v : unmarshal_text cur s = (v, true) ->
  v < two64 /\ exists k, k < 4 /\ s = spelling v k.
Proof.
  intros H. destruct (unmarshal_text_ok cur s v H) as (l & Ll & Es & Fl & Ev & Bv & C).
  split; [exact Bv|]. unfold spelling, uid_sextets. rewrite C.
  do 12 (destruct l as [|? l]; try discriminate). clear Ll.
  cbn [canon firstn nth app].
  match goal with |- context [?d / 4 * 4] => exists (d mod 4); split; [apply N.mod_lt; discriminate|];
     rewrite Es, (div_mod_cat 4 d) by discriminate end.
  reflexivity.
Qed.

Lemma sx_tail3_mod4 a b : a < 256 -> b < 256 -> sx (enc_val a b 0) 6 mod 4 = 0.
Proof.
  intros. rewrite sx_arith, enc_val_arith, N.add_0_r by easy. pow_lit.
  change 256 with (4 * 64) at 2. rewrite N.mul_assoc, N.div_mul by discriminate.
  change 64 with (16 * 4). now rewrite N.mul_mod_distr_r, N.mod_mul.
Qed.

Lemma le_bytes8_shape u : exists b0 b1 b2 b3 b4 b5 b6 b7,
  le_bytes 8 u = [b0; b1; b2; b3; b4; b5; b6; b7] /\
  b0 < 256 /\ b1 < 256 /\ b2 < 256 /\ b3 < 256 /\ b4 < 256 /\ b5 < 256 /\ b6 < 256 /\ b7 < 256.
Proof. cbn [le_bytes]. repeat eexists; apply byte_lt. Qed.

(* each of the four spellings decodes to the id *)
Theorem spelling_decodes cur u k : u < two64 -> k < 4 -> unmarshal_text cur (spelling u k) = (u, true).
Proof.
  intros Hu Hk. unfold spelling, uid_sextets.
  pose proof (le_uint64_le_bytes u Hu) as R.
  destruct (le_bytes8_shape u) as (b0&b1&b2&b3&b4&b5&b6&b7&E&H0&H1&H2&H3&H4&H5&H6&H7).
  rewrite E in *. cbn [b64_sextets firstn nth app].
  set (s10 := sx (enc_val b6 b7 0) 6).
  assert (M : s10 mod 4 = 0) by (apply sx_tail3_mod4; assumption).
  assert (B : s10 < 64) by apply sx_lt.
  unfold unmarshal_text. rewrite map_length. cbn [length uidBase64Unpadded Nat.eqb negb].
  match goal with |- context [b64_decode (map enc_char ?l)] =>
    assert (D : fst (b64_decode (map enc_char l)) = sx_bytes l);
    [ apply (dec_loop_all_valid l); repeat constructor; try apply sx_lt;
      unfold lt64; rewrite (N.div_mod' s10 4), M, N.add_0_r, N.mul_comm; apply (cat_lt 16 4); [apply div_lt; [discriminate|exact B]|exact Hk]
    | destruct (b64_decode (map enc_char l)) as [dec fl] ] end.
  cbn [fst] in D. subst dec.
  cbn [app sx_bytes]. rewrite q3_trailing by (try apply sx_lt; assumption).
  rewrite !q4_enc, q3_enc by assumption. cbn [app length Nat.ltb Nat.leb]. now rewrite R.
Qed.

(* the canonical text is the spelling with both unused bits clear *)
Theorem text_roundtrip cur u : u < two64 -> u <> 0 -> unmarshal_text cur (marshal_text u) = (u, true).
Proof.
  intros Hu H0. change (marshal_text u) with (uid_string u). rewrite (spelling_0 u H0).
  now apply spelling_decodes.
Qed.

Theorem parse_uid_string u : u < two64 -> parse_uid (uid_string u) = u.
Proof.
  intros Hu. unfold parse_uid, uid_string. destruct (N.eq_dec u 0) as [->|H0]; [reflexivity|].
  now rewrite text_roundtrip.
Qed.

Theorem spellings_decode u s : u < two64 -> In s (spellings u) -> parse_uid s = u.
Proof.
  intros Hu H. unfold parse_uid. unfold spellings in H. cbn [In] in H.
  destruct H as [<- | [<- | [<- | [<- | []]]]]; rewrite spelling_decodes; auto; lia.
Qed.

Theorem parse_uid_sound s u : parse_uid s = u -> u <> 0 -> u < two64 /\ In s (spellings u).
Proof.
  unfold parse_uid. intros H H0. destruct (unmarshal_text 0 s) as [v ok] eqn:E. cbn in H. subst v.
  destruct ok; [|apply unmarshal_text_fail in E; contradiction].
  destruct (unmarshal_text_sound _ _ _ E) as (B & k & Hk & ->). split; [exact B|]. now apply in_spellings.
Qed.

(* invalid text: wrong length, or a character outside the alphabet (CR and LF
   included: at the fixed length they make the decoded count too small) *)
Theorem parse_uid_invalid s :
  length s <> 11%nat \/ forallb valid_char s = false -> forall cur, unmarshal_text cur s = (cur, false).
Proof.
  intros H cur. destruct (unmarshal_text cur s) as [v ok] eqn:E. destruct ok.
  - exfalso. destruct (unmarshal_text_ok _ _ _ E) as (l & Ll & Es & Fl & _).
    destruct H as [H|H].
    + apply H. rewrite Es, map_length. exact Ll.
    + assert (forallb valid_char s = true); [|congruence].
      rewrite Es. clear -Fl. induction Fl as [|x l Hx _ IH]; [reflexivity|].
      cbn. unfold valid_char at 1. rewrite dec_enc_char by exact Hx. exact IH.
  - apply unmarshal_text_fail in E. now subst.
Qed.

(* ------------------------------------------------ JSON form *)

Lemma unmarshal_json_fail cur b v : unmarshal_json cur b = (v, false) -> v = cur.
Proof.
  unfold unmarshal_json. destruct (negb _); [now inversion 1|].
  destruct (_ || _); [now inversion 1|]. apply unmarshal_text_fail.
Qed.

(* ------------------------------------------------ prefixed forms *)

Lemma has_prefix_app p s : has_prefix (p ++ s) p = true.
Proof. induction p as [|x p IH]; cbn; [reflexivity|]. now rewrite N.eqb_refl. Qed.

Lemma has_prefix3 s a b c : has_prefix s [a; b; c] = true -> s = [a; b; c] ++ skipn 3 s.
Proof.
  destruct s as [|x [|y [|z s]]]; cbn [has_prefix andb]; try discriminate;
    try (destruct (_ =? _); cbn; try discriminate; destruct (_ =? _); cbn; discriminate).
  intros H. apply andb_prop in H. destruct H as [H1 H]. apply andb_prop in H. destruct H as [H2 H].
  apply andb_prop in H. destruct H as [H3 _]. apply N.eqb_eq in H1, H2, H3. now subst.
Qed.

Lemma skipn_app3 (a b c : N) s : skipn 3 ([a; b; c] ++ s) = s.
Proof. reflexivity. Qed.

(* any three-character prefix: usr, fnd, grp, chn ... *)
Theorem prefix_roundtrip a b c u : u < two64 -> u <> 0 ->
  has_prefix (prefix_id [a; b; c] u) [a; b; c] = true /\
  parse_uid (skipn 3 (prefix_id [a; b; c] u)) = u.
Proof.
  intros Hu H0. unfold prefix_id. destruct (u =? 0) eqn:E; [lia|]. split.
  - apply has_prefix_app.
  - rewrite skipn_app3. now apply parse_uid_string.
Qed.

(* ------------------------------------------------ group / channel names *)

Theorem grp_chn_inverse s : has_prefix s s_grp = true ->
  chn_to_grp (grp_to_chn s) = s /\ is_channel (grp_to_chn s) = true /\
  skipn 3 (grp_to_chn s) = skipn 3 s /\ chn_to_grp s = s.
Proof.
  intros H. pose proof (has_prefix3 _ _ _ _ H) as E. unfold grp_to_chn. rewrite H.
  unfold chn_to_grp, is_channel. rewrite !has_prefix_app.
  change (skipn 3 (s_chn ++ skipn 3 s)) with (skipn 3 s).
  assert (C : has_prefix s s_chn = false) by (rewrite E; reflexivity). rewrite C, H.
  repeat split; auto.
Qed.

Theorem chn_grp_inverse s : has_prefix s s_chn = true ->
  grp_to_chn (chn_to_grp s) = s /\ is_channel s = true /\
  skipn 3 (chn_to_grp s) = skipn 3 s /\ grp_to_chn s = s.
Proof.
  intros H. pose proof (has_prefix3 _ _ _ _ H) as E. unfold chn_to_grp. rewrite H.
  unfold grp_to_chn, is_channel. rewrite !has_prefix_app.
  change (skipn 3 (s_grp ++ skipn 3 s)) with (skipn 3 s).
  assert (C : has_prefix s s_grp = false) by (rewrite E; reflexivity). rewrite C, H.
  repeat split; auto.
Qed.

(* ------------------------------------------------ database form *)

Definition block8 (b : list N) : Prop := length b = 8%nat /\ Forall lt256 b.

Lemma of_to_int64 v : v < two64 -> of_int64 (to_int64 v) = v.
Proof.
  unfold two64, of_int64, to_int64. intros H. destruct (v <? 9223372036854775808) eqn:E.
  - rewrite Z.mod_small by lia. lia.
  - replace (Z.of_N v - 18446744073709551616)%Z with (Z.of_N v + (-1) * 18446744073709551616)%Z by lia.
    rewrite Z.mod_add by lia. rewrite Z.mod_small by lia. lia.
Qed.

Lemma to_of_int64 z : (-9223372036854775808 <= z < 9223372036854775808)%Z -> to_int64 (of_int64 z) = z.
Proof.
  unfold of_int64, to_int64. intros H.
  destruct (Z_lt_le_dec z 0) as [Hn|Hp].
  - replace (z mod 18446744073709551616)%Z with (z + 18446744073709551616)%Z.
    2:{ symmetry. rewrite <- (Z.mod_add z 1 18446744073709551616) by lia. apply Z.mod_small. lia. }
    destruct (_ <? _) eqn:E; lia.
  - rewrite Z.mod_small by lia. destruct (_ <? _) eqn:E; lia.
Qed.

Lemma of_int64_bound z : of_int64 z < two64.
Proof.
  unfold of_int64, two64. pose proof (Z.mod_pos_bound z 18446744073709551616 ltac:(lia)). lia.
Qed.

Section DbProofs.
  Variable enc dec : list N -> list N.
  Hypothesis enc_block : forall b, block8 b -> block8 (enc b).
  Hypothesis dec_block : forall b, block8 b -> block8 (dec b).
  Hypothesis dec_enc : forall b, block8 b -> dec (enc b) = b.
  Hypothesis enc_dec : forall b, block8 b -> enc (dec b) = b.

  Lemma block8_le_bytes v : block8 (le_bytes 8 v).
  Proof. split; [apply le_bytes_length|apply le_bytes_lt256]. Qed.

  Theorem db_roundtrip u : u < two64 -> encode_int64 enc (decode_uid dec u) = u.
  Proof.
    intros Hu. unfold encode_int64, decode_uid.
    destruct (dec_block _ (block8_le_bytes u)) as [L F].
    rewrite of_to_int64 by (now apply le_uint64_bound).
    rewrite le_bytes_le_uint64 by assumption. rewrite enc_dec by apply block8_le_bytes.
    now apply le_uint64_le_bytes.
  Qed.

  Theorem db_roundtrip_int z : (-9223372036854775808 <= z < 9223372036854775808)%Z ->
    decode_uid dec (encode_int64 enc z) = z.
  Proof.
    intros Hz. unfold encode_int64, decode_uid.
    destruct (enc_block _ (block8_le_bytes (of_int64 z))) as [L F].
    rewrite le_bytes_le_uint64 by assumption. rewrite dec_enc by apply block8_le_bytes.
    rewrite le_uint64_le_bytes by apply of_int64_bound. now apply to_of_int64.
  Qed.

  Theorem db_encode_bound z : encode_int64 enc z < two64.
  Proof.
    unfold encode_int64. apply le_uint64_bound.
    now destruct (enc_block _ (block8_le_bytes (of_int64 z))).
  Qed.
End DbProofs.

(* ------------------------------------------------ base32 form (String32 / ParseUid32) *)

Lemma unmarshal_binary_8 bs : length bs = 8%nat -> Forall lt256 bs ->
  fst (unmarshal_binary 0 bs) = le_uint64 bs.
Proof. intros L _. unfold unmarshal_binary. now rewrite L. Qed.

Definition lt32 (v : N) : Prop := v < 32.

Lemma lower_map l : Forall lt32 l -> map lower_ascii (map enc32_char l) = map enc32l_char l.
Proof. induction 1 as [|x l Hx _ IH]; cbn [map]; [reflexivity|]. now rewrite lower_enc32, IH. Qed.

Lemma strip_plain l : Forall lt32 l -> strip_newlines (map enc32l_char l) = map enc32l_char l.
Proof.
  induction 1 as [|x l Hx _ IH]; [reflexivity|]. unfold strip_newlines in *. cbn [map filter].
  rewrite (proj2 (enc32l_plain x Hx)). cbn [negb]. now rewrite IH.
Qed.

Theorem uid32_roundtrip u : u < two64 -> parse_uid32 (string32 u) = u.
Proof.
  intros Hu. unfold parse_uid32, string32, marshal_binary.
  pose proof (le_uint64_le_bytes u Hu) as R.
  destruct (le_bytes8_shape u) as (b0&b1&b2&b3&b4&b5&b6&b7&E&H0&H1&H2&H3&H4&H5&H6&H7).
  rewrite E in *. unfold b32_encode. cbn [b32_quintets].
  pose proof (b32_group5 b0 b1 b2 b3 b4 H0 H1 H2 H3 H4) as G5. cbv zeta in G5.
  pose proof (b32_group3 b5 b6 b7 H5 H6 H7) as G3. cbn [b32_tail] in G3. cbn [b32_tail].
  match goal with |- context [map enc32_char ?l] =>
    assert (F : Forall lt32 l) by (repeat constructor; apply q5_lt);
    rewrite (lower_map _ F); unfold b32_decode; rewrite (strip_plain _ F) end.
  cbn [map]. do 13 (rewrite b32_loop_valid by apply q5_lt; cbn [app length Nat.eqb]).
  cbn [b32_dec_loop]. rewrite G5, G3. cbn [app].
  rewrite unmarshal_binary_8; [exact R|reflexivity|repeat constructor; assumption].
Qed.

(* before the repair: the lower-case text is decoded with the upper-case alphabet *)
Theorem uid32_roundtrip_unrepaired_refuted :
  ~ (forall u, u < two64 -> parse_uid32_unrepaired (string32 u) = u).
Proof. intros H. specialize (H 1 ltac:(reflexivity)). vm_compute in H. discriminate. Qed.
