(* Lemmas about Pure/P2PName.v. *)
From Coq Require Import NArith ZArith List Bool Lia Arith.
From Coq Require Import ZifyBool ZifyNat ZifyN.
From Tinode Require Import Base.Util Base.Base64 Base.Base64Proofs Pure.Uid Pure.UidProofs Pure.P2PName.
Import ListNotations.
Open Scope N_scope.

Definition valid_uid (u : N) : Prop := u <> 0 /\ u < two64.

(* the name of an ordered pair lo < hi *)
Definition p2p_body (lo hi : N) : list N := b64_encode (le_bytes 8 lo ++ le_bytes 8 hi).

Lemma p2p_name_lt a b : a <> 0 -> a < b -> p2p_name a b = s_p2p ++ p2p_body a b.
Proof.
  intros Ha Hab. unfold p2p_name, p2p_body, marshal_binary.
  destruct (a =? 0) eqn:E1; [lia|]. destruct (b =? 0) eqn:E2; [lia|]. cbn [negb andb].
  destruct (a <? b) eqn:E3; [reflexivity|lia].
Qed.

Theorem p2p_commutes a b : p2p_name a b = p2p_name b a.
Proof.
  unfold p2p_name.
  destruct (a =? 0) eqn:E1; destruct (b =? 0) eqn:E2; cbn [negb andb]; try reflexivity.
  destruct (a <? b) eqn:E3; destruct (b <? a) eqn:E4; try reflexivity; lia.
Qed.

Lemma p2p_body_length a b : length (p2p_body a b) = 22%nat.
Proof. reflexivity. Qed.

Lemma le_uint64_app x r : x < two64 -> le_uint64 (le_bytes 8 x ++ r) = x.
Proof.
  intros H. unfold le_uint64. rewrite firstn_app, le_bytes_length. cbn [Nat.sub firstn].
  rewrite app_nil_r. exact (le_uint64_le_bytes x H).
Qed.

Lemma skipn8_app x r : skipn 8 (le_bytes 8 x ++ r) = r.
Proof. reflexivity. Qed.

Lemma parse_p2p_body a b : a < two64 -> b < two64 -> parse_p2p (s_p2p ++ p2p_body a b) = Some (a, b).
Proof.
  intros Ha Hb. unfold parse_p2p. rewrite has_prefix_app.
  change (skipn 3 (s_p2p ++ p2p_body a b)) with (p2p_body a b).
  rewrite p2p_body_length. cbn [p2pBase64Unpadded Nat.eqb negb]. unfold p2p_body.
  assert (F : Forall lt256 (le_bytes 8 a ++ le_bytes 8 b)).
  { apply Forall_app. split; apply le_bytes_lt256. }
  pose proof (b64_decode_encode _ F) as D.
  destruct (b64_decode (b64_encode (le_bytes 8 a ++ le_bytes 8 b))) as [dec fl]. cbn [fst] in D. subst dec.
  rewrite app_length, !le_bytes_length. cbn [Nat.add Nat.ltb Nat.leb].
  rewrite skipn8_app, le_uint64_app by assumption.
  rewrite <- (app_nil_r (le_bytes 8 b)). now rewrite le_uint64_app.
Qed.

Theorem p2p_parse a b : valid_uid a -> valid_uid b -> a <> b ->
  parse_p2p (p2p_name a b) = Some (N.min a b, N.max a b).
Proof.
  intros [Ha0 Ha] [Hb0 Hb] Hab. destruct (N.lt_ge_cases a b) as [L|L].
  - rewrite p2p_name_lt by assumption. rewrite parse_p2p_body by assumption. f_equal. f_equal; lia.
  - rewrite p2p_commutes, p2p_name_lt by lia. rewrite parse_p2p_body by assumption. f_equal. f_equal; lia.
Qed.

Theorem p2p_injective a b c d :
  valid_uid a -> valid_uid b -> valid_uid c -> valid_uid d -> a <> b -> c <> d ->
  p2p_name a b = p2p_name c d -> (a = c /\ b = d) \/ (a = d /\ b = c).
Proof.
  intros Ha Hb Hc Hd Hab Hcd E.
  pose proof (p2p_parse a b Ha Hb Hab) as P1. pose proof (p2p_parse c d Hc Hd Hcd) as P2.
  rewrite E, P2 in P1. inversion P1. lia.
Qed.

Theorem p2p_no_self a b : a = 0 \/ b = 0 \/ a = b -> p2p_name a b = [] /\ parse_p2p (p2p_name a b) = None.
Proof.
  intros H. assert (E : p2p_name a b = []).
  { unfold p2p_name. destruct (a =? 0) eqn:E1; destruct (b =? 0) eqn:E2; cbn [negb andb]; try reflexivity.
    destruct (a <? b) eqn:E3; destruct (b <? a) eqn:E4; try reflexivity; lia. }
  rewrite E. split; reflexivity.
Qed.

Theorem p2p_name_nonempty a b : valid_uid a -> valid_uid b -> a <> b ->
  exists body, p2p_name a b = s_p2p ++ body /\ length body = 22%nat.
Proof.
  intros [Ha0 _] [Hb0 _] Hab. destruct (N.lt_ge_cases a b) as [L|L].
  - exists (p2p_body a b). split; [now apply p2p_name_lt|reflexivity].
  - exists (p2p_body b a). split; [rewrite p2p_commutes; apply p2p_name_lt; lia|reflexivity].
Qed.

Theorem p2p_for_user a b : valid_uid a -> valid_uid b -> a <> b ->
  p2p_name_for_user a (p2p_name a b) = Some (user_id b) /\
  p2p_name_for_user b (p2p_name a b) = Some (user_id a).
Proof.
  intros Ha Hb Hab. unfold p2p_name_for_user. rewrite (p2p_parse a b Ha Hb Hab).
  destruct (N.lt_ge_cases a b) as [L|L].
  - rewrite N.min_l, N.max_r by lia. rewrite N.eqb_refl.
    destruct (b =? a) eqn:E; [lia|]. split; reflexivity.
  - rewrite N.min_r, N.max_l by lia. rewrite N.eqb_refl.
    destruct (a =? b) eqn:E; [lia|]. split; reflexivity.
Qed.

Theorem parse_p2p_bad_prefix s : has_prefix s s_p2p = false -> parse_p2p s = None.
Proof. unfold parse_p2p. now intros ->. Qed.

(* ------------------------------------------------ soundness of ParseP2P on arbitrary names *)

Lemma forall_firstn {A} (P : A -> Prop) n l : Forall P l -> Forall P (firstn n l).
Proof. intros F. apply Forall_forall. intros x Hx. rewrite Forall_forall in F. apply F. eapply in_firstn'; eauto. Qed.

Lemma forall_skipn {A} (P : A -> Prop) n l : Forall P l -> Forall P (skipn n l).
Proof.
  revert l. induction n as [|n IH]; intros l F; [exact F|]. destruct l as [|x l]; [constructor|].
  inversion_clear F. now apply IH.
Qed.

Lemma le_bytes_le_uint64_firstn bs : (8 <= length bs)%nat -> Forall lt256 bs ->
  le_bytes 8 (le_uint64 bs) = firstn 8 bs.
Proof.
  intros L F. unfold le_uint64.
  rewrite <- (firstn_length_le bs L) at 1. apply le_bytes_le_num. now apply forall_firstn.
Qed.

(* the spellings of a pair: the canonical body, and the 15 bodies that differ
   from it only in the 4 unused trailing bits of the 22nd character *)
Definition pair_sextets (x y : N) : list N := b64_sextets (le_bytes 8 x ++ le_bytes 8 y).
Definition pair_spelling (x y k : N) : list N :=
  map enc_char (firstn 21 (pair_sextets x y) ++ [nth 21 (pair_sextets x y) 0 + k]).

Theorem parse_p2p_sound s x y : parse_p2p s = Some (x, y) ->
  x < two64 /\ y < two64 /\ exists k, k < 16 /\ s = s_p2p ++ pair_spelling x y k.
Proof.
  unfold parse_p2p. destruct (has_prefix s s_p2p) eqn:P; [|discriminate].
  pose proof (has_prefix3 _ _ _ _ P) as Es. remember (skipn 3 s) as src eqn:Esrc. clear Esrc P.
  destruct (Nat.eqb (length src) p2pBase64Unpadded) eqn:L; cbn [negb]; [|discriminate].
  apply Nat.eqb_eq in L. unfold p2pBase64Unpadded in L.
  destruct (b64_decode src) as [dec fl] eqn:D. destruct (Nat.ltb (length dec) 16) eqn:C; [discriminate|].
  apply Nat.ltb_ge in C. intros E.
  assert (Ex : x = le_uint64 dec) by congruence. assert (Ey : y = le_uint64 (skipn 8 dec)) by congruence.
  clear E. subst x y.
  destruct (decode_count_all_valid src 16) as (l & El & Fl & Ed).
  { rewrite D. exact C. } { lia. }
  rewrite D in Ed. cbn [fst] in Ed.
  assert (F : Forall lt256 dec) by (rewrite Ed; apply sx_bytes_lt256).
  assert (Ll : length l = 22%nat) by (rewrite <- L, El; now rewrite map_length).
  assert (Ld : length dec = 16%nat).
  { rewrite Ed. do 23 (destruct l as [|? l]; try discriminate). reflexivity. }
  split; [apply le_uint64_bound; exact F|]. split; [apply le_uint64_bound; exact (forall_skipn lt256 8 dec F)|].
  unfold pair_spelling, pair_sextets.
  rewrite le_bytes_le_uint64_firstn by (try lia; assumption).
  rewrite (le_bytes_le_uint64_firstn (skipn 8 dec)) by (try (rewrite skipn_length; lia); now apply forall_skipn).
  rewrite (firstn_all2 (skipn 8 dec)) by (rewrite skipn_length; lia).
  rewrite firstn_skipn. rewrite Ed, (sextets_sx_bytes l Fl).
  do 23 (destruct l as [|? l]; try discriminate). clear Ll.
  cbn [canon firstn nth app].
  match goal with |- context [?d / 16 * 16] => exists (d mod 16); split; [now apply N.mod_lt|];
     rewrite (div_mod_cat 16 d) by discriminate end.
  rewrite Es. f_equal. exact El.
Qed.

Lemma filter_length_lt {A} (f : A -> bool) l : forallb f l = false -> (length (filter f l) < length l)%nat.
Proof.
  induction l as [|x l IH]; cbn; [discriminate|].
  assert (L : (length (filter f l) <= length l)%nat).
  { clear. induction l as [|y l IH]; cbn; [lia|]. destruct (f y); cbn; lia. }
  destruct (f x); cbn; intros H; [specialize (IH H)|]; lia.
Qed.

(* bad prefix, wrong length, or any character outside the alphabet (CR, LF included): rejected *)
Theorem parse_p2p_rejects s : has_prefix s s_p2p = false \/ length (skipn 3 s) <> 22%nat \/
  forallb valid_char (skipn 3 s) = false -> parse_p2p s = None.
Proof.
  intros H. unfold parse_p2p. destruct (has_prefix s s_p2p); [|reflexivity].
  destruct (Nat.eqb (length (skipn 3 s)) p2pBase64Unpadded) eqn:L; cbn [negb]; [|reflexivity].
  apply Nat.eqb_eq in L. unfold p2pBase64Unpadded in L.
  destruct H as [H|[H|H]]; [discriminate|contradiction|].
  pose proof (dec_loop_count (skipn 3 s) [] [] ltac:(cbn; lia)) as C. cbn [length] in C.
  pose proof (filter_length_lt _ _ H) as V. unfold b64_decode.
  destruct (b64_dec_loop (skipn 3 s) [] []) as [dec fl]. cbn [fst] in C.
  destruct (Nat.ltb (length dec) 16) eqn:E; [reflexivity|]. apply Nat.ltb_ge in E. lia.
Qed.
