(* Proofs about Pure/Ranges.v (C04 layer 1).  Everything is by induction over
   arbitrary lists: no bound on the number of ranges or on the IDs. *)
From Coq Require Import ZArith List Bool Lia Permutation Sorted ZifyBool.
From Tinode Require Import Base.Insertion Pure.Ranges.
Import ListNotations.
Open Scope Z_scope.

(* ------------------------------------------------------------------ *)
(* vocabulary                                                           *)

(* IDs are not negative *)
Definition nonneg (r : range) : Prop := 0 <= low r.
(* a range as replyDelMsg builds it and as the dellog is read back: a single
   ID (hi = 0) or low < hi *)
Definition wf (r : range) : Prop := 0 <= low r /\ (hi r = 0 \/ low r < hi r).

Definition lessR (a b : range) : Prop := less a b = true.
Definition sorted_less (l : list range) : Prop := StronglySorted lessR l.
Definition le_low (a b : range) : Prop := low a <= low b.
(* b starts after the end of a with at least one ID between them *)
Definition gap (a b : range) : Prop := upper a < low b.
(* what Normalize guarantees about its result *)
Definition normal (l : list range) : Prop := Forall wf l /\ StronglySorted gap l.

(* ------------------------------------------------------------------ *)
(* meaning                                                              *)

Lemma in_range_spec x r : in_range x r = (low r <=? x) && (x <? upper r).
Proof. unfold in_range, upper. destruct (hi r =? 0); lia. Qed.

Lemma in_range_iff x r : in_range x r = true <-> low r <= x < upper r.
Proof. rewrite in_range_spec. lia. Qed.

Lemma wf_upper r : wf r -> low r < upper r.
Proof. unfold wf, upper. intros [_ [H|H]]; destruct (hi r =? 0) eqn:E; lia. Qed.

Lemma wf_nonneg r : wf r -> nonneg r.
Proof. unfold wf, nonneg. tauto. Qed.

Lemma in_ranges_app x l1 l2 : in_ranges x (l1 ++ l2) = in_ranges x l1 || in_ranges x l2.
Proof. apply existsb_app. Qed.

Lemma in_ranges_iff x l : in_ranges x l = true <-> exists r, In r l /\ in_range x r = true.
Proof. apply existsb_exists. Qed.

Lemma in_ranges_perm x l l' : Permutation l l' -> in_ranges x l = in_ranges x l'.
Proof.
  induction 1; cbn [in_ranges existsb] in *; try congruence.
  - fold (in_ranges x l) (in_ranges x l'). now rewrite IHPermutation.
  - now rewrite !orb_assoc, (orb_comm (in_range x y)).
Qed.

Lemma in_ranges_concat x ls : in_ranges x (concat ls) = existsb (in_ranges x) ls.
Proof.
  induction ls as [|l ls IH]; [reflexivity|].
  cbn [concat existsb]. now rewrite in_ranges_app, IH.
Qed.

(* ------------------------------------------------------------------ *)
(* Less and sort                                                        *)

Lemma less_spec a b :
  less a b = true <-> low a < low b \/ (low a = low b /\ hi b <= hi a).
Proof.
  unfold less. destruct (low a <? low b) eqn:E1; [lia|].
  destruct (low a =? low b) eqn:E2; lia.
Qed.

Lemma less_total a b : less a b = false -> less b a = true.
Proof.
  intros H. apply less_spec.
  destruct (less a b) eqn:E; [discriminate|].
  assert (~ (low a < low b \/ (low a = low b /\ hi b <= hi a))) by (rewrite <- less_spec; congruence).
  lia.
Qed.

Lemma less_trans a b c : lessR a b -> lessR b c -> lessR a c.
Proof. unfold lessR. rewrite !less_spec. lia. Qed.

Lemma less_antisym a b : lessR a b -> lessR b a -> a = b.
Proof.
  unfold lessR. rewrite !less_spec. destruct a as [la ha], b as [lb hb]. cbn [low hi].
  intros H1 H2. assert (la = lb) by lia. assert (ha = hb) by lia. now subst.
Qed.

Lemma less_le_low a b : lessR a b -> le_low a b.
Proof. unfold lessR, le_low. rewrite less_spec. lia. Qed.

Lemma sort_perm rs : Permutation (sort rs) rs.
Proof. exact (isort_perm less insert (fun _ => eq_refl) (fun _ _ _ => eq_refl) rs). Qed.

Lemma sort_sorted rs : sorted_less (sort rs).
Proof.
  exact (isort_sorted less insert (fun _ => eq_refl) (fun _ _ _ => eq_refl) lessR (fun _ _ E => E) less_total less_trans rs).
Qed.

Lemma sort_sorted_id l : sorted_less l -> sort l = l.
Proof.
  unfold sorted_less. induction 1 as [|a t Hs IH Hf]; [reflexivity|].
  cbn [sort fold_right]. fold (sort t). rewrite IH.
  destruct t as [|y t']; [reflexivity|]. cbn [insert].
  inversion Hf as [|? ? Hy _]; subst. unfold lessR in Hy. now rewrite Hy.
Qed.

(* [less] is a total order on values, so the sorted permutation is unique:
   whatever sort.Sort does internally, if it returns a permutation ordered by
   Less, it returns [sort rs]. *)
Lemma sorted_perm_unique l1 : forall l2,
  sorted_less l1 -> sorted_less l2 -> Permutation l1 l2 -> l1 = l2.
Proof.
  unfold sorted_less. induction l1 as [|a t1 IH]; intros l2 H1 H2 HP.
  - apply Permutation_nil in HP. now subst.
  - destruct l2 as [|b t2]; [symmetry in HP; now apply Permutation_nil in HP|].
    inversion H1 as [|? ? Hs1 Hf1]; inversion H2 as [|? ? Hs2 Hf2]; subst.
    assert (Hab : a = b).
    { assert (Ha : In a (b :: t2)) by (eapply Permutation_in; [exact HP|now left]).
      assert (Hb : In b (a :: t1)) by (eapply Permutation_in; [symmetry; exact HP|now left]).
      destruct Ha as [Ha|Ha]; [now subst|]. destruct Hb as [Hb|Hb]; [now subst|].
      rewrite Forall_forall in Hf1, Hf2. apply less_antisym; auto. }
    subst b. f_equal. apply IH; auto. eapply Permutation_cons_inv; eauto.
Qed.

Lemma StronglySorted_weaken {A} (R R' : A -> A -> Prop) l :
  (forall a b, R a b -> R' a b) -> StronglySorted R l -> StronglySorted R' l.
Proof.
  intros HR. induction 1; constructor; auto.
  eapply Forall_impl; [|eassumption]. auto.
Qed.

Lemma sorted_less_low l : sorted_less l -> StronglySorted le_low l.
Proof. apply StronglySorted_weaken. exact less_le_low. Qed.

(* ------------------------------------------------------------------ *)
(* the array program computes normalize_fun                             *)

Lemma upd_middle out x tl v : upd (out ++ x :: tl) (length out) v = out ++ v :: tl.
Proof. induction out as [|o out IH]; cbn [upd app length]; [reflexivity|]. now rewrite IH. Qed.

Lemma get_middle out x tl : get (out ++ x :: tl) (length out) = x.
Proof. unfold get. apply nth_middle. Qed.

Lemma firstn_middle (out : list range) x tl : firstn (S (length out)) (out ++ x :: tl) = out ++ [x].
Proof. induction out as [|o out IH]; [reflexivity|]. simpl. f_equal. exact IH. Qed.

(* loop invariant: the slice is  out ++ cur :: mid ++ rest  where out = rs[:prev]
   is final, cur = rs[prev], mid are cells already consumed (stale), rest =
   rs[i:] is the untouched input *)
Lemma loop_norm_go : forall rest out cur mid i arr prev,
  arr = out ++ cur :: mid ++ rest -> prev = length out ->
  i = S (length out + length mid) ->
  firstn (S (snd (loop step (length rest) i arr prev))) (fst (loop step (length rest) i arr prev))
  = out ++ norm_go cur rest.
Proof.
  induction rest as [|c rest IH]; intros out cur mid i arr prev Harr Hprev Hi.
  - cbn [loop length fst snd norm_go]. subst. apply firstn_middle.
  - cbn [length loop norm_go].
    assert (Hp : get arr prev = cur) by (subst; apply get_middle).
    assert (Hc : get arr i = c).
    { subst arr i. replace (out ++ cur :: mid ++ c :: rest) with ((out ++ cur :: mid) ++ c :: rest)
        by (rewrite <- app_assoc; reflexivity).
      replace (S (length out + length mid)) with (length (out ++ cur :: mid))
        by (rewrite app_length; cbn [length]; lia).
      apply get_middle. }
    unfold step at 1 3. rewrite Hp, Hc.
    destruct (low c <=? upper cur) eqn:Em.
    + destruct (upper cur <? upper c) eqn:Ex.
      * apply IH with (mid := mid ++ [c]).
        -- subst arr prev. rewrite upd_middle. rewrite <- app_assoc. reflexivity.
        -- exact Hprev.
        -- rewrite app_length. cbn [length]. lia.
      * apply IH with (mid := mid ++ [c]).
        -- subst arr. rewrite <- app_assoc. reflexivity.
        -- exact Hprev.
        -- rewrite app_length. cbn [length]. lia.
    + replace (out ++ cur :: norm_go c rest) with ((out ++ [cur]) ++ norm_go c rest)
        by (rewrite <- app_assoc; reflexivity).
      destruct mid as [|m mid0].
      * apply IH with (mid := []).
        -- subst arr prev. cbn [app].
           replace (out ++ cur :: c :: rest) with ((out ++ [cur]) ++ c :: rest)
             by (rewrite <- app_assoc; reflexivity).
           replace (S (length out)) with (length (out ++ [cur])) by (rewrite app_length; cbn [length]; lia).
           rewrite upd_middle. reflexivity.
        -- subst prev. rewrite app_length. cbn [length]. lia.
        -- rewrite app_length. cbn [length] in *. lia.
      * apply IH with (mid := mid0 ++ [c]).
        -- subst arr prev. cbn [app].
           replace (out ++ cur :: m :: mid0 ++ c :: rest) with ((out ++ [cur]) ++ m :: mid0 ++ c :: rest)
             by (rewrite <- app_assoc; reflexivity).
           replace (S (length out)) with (length (out ++ [cur])) by (rewrite app_length; cbn [length]; lia).
           rewrite upd_middle. rewrite <- (app_assoc mid0). reflexivity.
        -- subst prev. rewrite app_length. cbn [length]. lia.
        -- rewrite !app_length. cbn [length] in *. lia.
Qed.

Lemma normalize_fun_eq rs : normalize rs = normalize_fun rs.
Proof.
  unfold normalize, normalize_with, normalize_fun.
  destruct rs as [|r [|c rest]]; [reflexivity|reflexivity|].
  replace (1 <? length (r :: c :: rest))%nat with true by (cbn [length]; symmetry; apply Nat.ltb_lt; lia).
  replace (length (r :: c :: rest) - 1)%nat with (length (c :: rest)) by (cbn [length]; lia).
  pose proof (loop_norm_go (c :: rest) [] r [] 1%nat (r :: c :: rest) 0%nat eq_refl eq_refl eq_refl) as H.
  destruct (loop step (length (c :: rest)) 1 (r :: c :: rest) 0) as [a prev].
  exact H.
Qed.

(* ------------------------------------------------------------------ *)
(* the merge: exactness and shape of the result                         *)

(* one merge step: [c] starts inside or right after [a] *)
Definition join (a c : range) : range := if upper a <? upper c then mkRange (low a) (upper c) else a.

Lemma join_low a c : low (join a c) = low a.
Proof. unfold join. destruct (upper a <? upper c); reflexivity. Qed.

Lemma join_upper a c : 0 <= low c <= upper a -> upper (join a c) = Z.max (upper a) (upper c).
Proof.
  intros H. unfold join. destruct (upper a <? upper c) eqn:E; [|lia].
  unfold upper at 1. cbn [hi low]. destruct (upper c =? 0) eqn:E0; lia.
Qed.

Lemma join_wf a c : wf a -> wf c -> wf (join a c).
Proof.
  intros Ha Hc. unfold join. destruct (upper a <? upper c) eqn:E; [|exact Ha].
  pose proof (wf_upper _ Ha). destruct Ha as [Ha0 _]. split; cbn [low hi]; lia.
Qed.

Lemma norm_go_cons cur c rest :
  norm_go cur (c :: rest) = if low c <=? upper cur then norm_go (join cur c) rest else cur :: norm_go c rest.
Proof. reflexivity. Qed.

(* The invariant of the loop, on input ordered by Low: the result covers what [cur] and the
   rest cover, nothing in it starts before [cur], and - when every input range is non-empty -
   it is [normal].  Exactness needs only non-negative Lows (c04_ex_nonneg_needed). *)
Lemma norm_go_spec : forall rest cur,
  StronglySorted le_low (cur :: rest) -> Forall nonneg (cur :: rest) ->
  (forall x, in_ranges x (norm_go cur rest) = in_ranges x (cur :: rest)) /\
  Forall (le_low cur) (norm_go cur rest) /\
  (Forall wf (cur :: rest) -> normal (norm_go cur rest)).
Proof.
  induction rest as [|c rest IH]; intros cur Hs Hn.
  - split; [reflexivity|]. split; [repeat constructor; unfold le_low; lia|].
    intros Hw. split; [exact Hw|repeat constructor].
  - inversion Hs as [|? ? Hs' Hl]; subst. inversion Hl as [|? ? Hlc Hl']; subst.
    inversion Hs' as [|? ? Hs'' Hfc]; subst.
    inversion Hn as [|? ? Hn0 Hn']; subst. inversion Hn' as [|? ? Hnc Hn'']; subst.
    unfold le_low in Hlc. unfold nonneg in Hnc.
    rewrite norm_go_cons. destruct (low c <=? upper cur) eqn:Em.
    + destruct (IH (join cur c)) as (Hx & Hlow & Hnorm).
      * constructor; [exact Hs''|]. eapply Forall_impl; [|exact Hfc]. unfold le_low. rewrite join_low. lia.
      * constructor; [unfold nonneg; rewrite join_low; exact Hn0|exact Hn''].
      * split; [|split].
        -- intros x. rewrite Hx. cbn [in_ranges existsb]. rewrite orb_assoc. f_equal.
           rewrite !in_range_spec, join_low, join_upper by lia. lia.
        -- eapply Forall_impl; [|exact Hlow]. unfold le_low. now rewrite join_low.
        -- intros Hw. inversion Hw as [|? ? Hw0 Hw']; subst. inversion Hw'; subst.
           apply Hnorm. constructor; [now apply join_wf|assumption].
    + destruct (IH c Hs' Hn') as (Hx & Hlow & Hnorm). split; [|split].
      * intros x. change (in_ranges x (cur :: norm_go c rest)) with (in_range x cur || in_ranges x (norm_go c rest)).
        now rewrite Hx.
      * constructor; [unfold le_low; lia|]. eapply Forall_impl; [|exact Hlow]. unfold le_low. lia.
      * intros Hw. inversion Hw as [|? ? Hw0 Hw']; subst. destruct (Hnorm Hw') as [A B].
        split; constructor; auto. eapply Forall_impl; [|exact Hlow]. unfold gap, le_low. lia.
Qed.

Lemma normalize_spec s : sorted_less s -> Forall nonneg s ->
  (forall x, in_ranges x (normalize s) = in_ranges x s) /\ (Forall wf s -> normal (normalize s)).
Proof.
  intros Hs Hn. rewrite normalize_fun_eq. apply sorted_less_low in Hs.
  destruct s as [|r rest]; [split; [reflexivity|intros _; split; constructor]|].
  destruct (norm_go_spec rest r Hs Hn) as (Hx & _ & Hw). exact (conj Hx Hw).
Qed.

(* for ANY list s that is a permutation of rs ordered by Less *)
Lemma normalize_exact_any rs s x :
  Forall nonneg rs -> Permutation s rs -> sorted_less s ->
  in_ranges x (normalize s) = in_ranges x rs.
Proof.
  intros Hn HP HS. rewrite <- (in_ranges_perm x _ _ HP). apply normalize_spec; [exact HS|].
  eapply Permutation_Forall; [symmetry; exact HP|exact Hn].
Qed.

Lemma normalize_exact rs x :
  Forall nonneg rs -> in_ranges x (normalize (sort rs)) = in_ranges x rs.
Proof. intros Hn. apply normalize_exact_any; [exact Hn|apply sort_perm|apply sort_sorted]. Qed.

Lemma normalize_normal_any rs s :
  Forall wf rs -> Permutation s rs -> sorted_less s -> normal (normalize s).
Proof.
  intros Hf HP HS. apply (Permutation_Forall (Permutation_sym HP)) in Hf.
  apply normalize_spec; [exact HS| |exact Hf]. eapply Forall_impl; [|exact Hf]. exact wf_nonneg.
Qed.

Lemma normalize_normal rs : Forall wf rs -> normal (normalize (sort rs)).
Proof. intros Hf. eapply normalize_normal_any; [exact Hf|apply sort_perm|apply sort_sorted]. Qed.

Lemma gap_trans_wf a b c : wf b -> gap a b -> gap b c -> gap a c.
Proof. unfold gap. intros Hb. pose proof (wf_upper _ Hb). lia. Qed.

(* what [normal] means, spelled out: two different positions of a normal list never share an ID, and are not even
   adjacent: the ID  upper a  lies strictly between them and is in neither *)
Lemma normal_disjoint l1 a l2 b l3 x :
  normal (l1 ++ a :: l2 ++ b :: l3) ->
  upper a < low b /\ (in_range x a = true -> in_range x b = true -> False)
  /\ in_range (upper a) a = false /\ in_range (upper a) b = false.
Proof.
  intros [_ Hs]. unfold gap in Hs.
  assert (Hg : upper a < low b).
  { induction l1 as [|y l1 IH]; cbn [app] in Hs.
    - inversion Hs as [|? ? _ Hf]; subst. rewrite Forall_forall in Hf. apply Hf.
      apply in_or_app. right. now left.
    - inversion Hs; subst. auto. }
  rewrite !in_range_spec. repeat split; try lia.
Qed.

Lemma normal_sorted_less l : normal l -> sorted_less l.
Proof.
  intros [Hw Hs]. unfold sorted_less.
  induction Hs as [|a t Hs IH Hf]; constructor.
  - apply IH. now inversion Hw.
  - inversion Hw as [|? ? Hwa _]; subst. pose proof (wf_upper _ Hwa).
    eapply Forall_impl; [|exact Hf]. unfold gap, lessR. intros z Hz. apply less_spec. lia.
Qed.

Lemma normal_nonempty l r : normal l -> In r l -> in_range (low r) r = true.
Proof.
  intros [Hw _] Hin. rewrite Forall_forall in Hw. pose proof (wf_upper _ (Hw r Hin)).
  rewrite in_range_spec. lia.
Qed.

Lemma norm_go_length : forall rest cur, (length (norm_go cur rest) <= S (length rest))%nat.
Proof.
  induction rest as [|c rest IH]; intros cur; cbn [norm_go length]; [lia|].
  destruct (low c <=? upper cur).
  - etransitivity; [apply IH|lia].
  - cbn [length]. specialize (IH c). lia.
Qed.

Lemma normalize_length s : (length (normalize s) <= length s)%nat.
Proof.
  rewrite normalize_fun_eq. destruct s as [|r rest]; [cbn; lia|]. apply norm_go_length.
Qed.

(* ------------------------------------------------------------------ *)
(* idempotence                                                          *)

Lemma norm_go_id : forall rest cur, StronglySorted gap (cur :: rest) -> norm_go cur rest = cur :: rest.
Proof.
  induction rest as [|c rest IH]; intros cur Hs; [reflexivity|].
  inversion Hs as [|? ? Hs' Hf]; subst. inversion Hf as [|? ? Hg _]; subst. unfold gap in Hg.
  cbn [norm_go]. replace (low c <=? upper cur) with false by lia.
  now rewrite IH.
Qed.

Lemma normalize_normal_id l : normal l -> normalize l = l.
Proof.
  intros [_ Hs]. rewrite normalize_fun_eq. destruct l as [|r rest]; [reflexivity|].
  now apply norm_go_id.
Qed.

(* ------------------------------------------------------------------ *)
(* the program without the repair is refuted                            *)

Definition normalize_exact_statement (norm : list range -> list range) : Prop :=
  forall rs x, Forall wf rs -> in_ranges x (norm (sort rs)) = in_ranges x rs.

(* no copy-down after a merge: IDs 10, 11 lost *)
Lemma normalize_unrepaired_refuted : ~ normalize_exact_statement normalize_unrepaired.
Proof.
  intros H. specialize (H [mkRange 1 3; mkRange 2 4; mkRange 10 12] 10).
  assert (Hw : Forall wf [mkRange 1 3; mkRange 2 4; mkRange 10 12])
    by (repeat constructor; cbn; lia).
  specialize (H Hw). vm_compute in H. discriminate.
Qed.

Lemma normalize_repaired_witnesses :
  normalize [mkRange 1 3; mkRange 2 4; mkRange 10 12] = [mkRange 1 4; mkRange 10 12]
  /\ normalize [mkRange 1 3; mkRange 4 5] = [mkRange 1 3; mkRange 4 5]
  /\ normalize [mkRange 1 3; mkRange 3 0] = [mkRange 1 4]
  /\ normalize [mkRange 1 0; mkRange 1 0; mkRange 5 0] = [mkRange 1 0; mkRange 5 0].
Proof. repeat split; vm_compute; reflexivity. Qed.

(* ------------------------------------------------------------------ *)
(* replyDelMsg: validation, clipping, what reaches the store            *)

(* the IDs a request entry (low, hi) denotes, clipped to IDs <= lastID:
   [low, hi); no upper bound (hi = 0) or hi = low: the single ID low *)
Definition req_covers (lastID : Z) (q : Z * Z) (x : Z) : Prop :=
  let '(lo, h) := q in
  lo <= x /\ x <= lastID /\ x < (if (h =? 0) || (h =? lo) then lo + 1 else h).

(* the entries the loop accepts *)
Definition req_valid (lastID : Z) (q : Z * Z) : Prop :=
  let '(lo, h) := q in
  0 <= lo <= lastID /\ 0 <= h /\ (h = 0 \/ lo <= h) /\ ~ (lo = 0 /\ h = 0).

Lemma clip_one_valid lastID q : req_valid lastID q <-> clip_one lastID q <> None.
Proof.
  destruct q as [lo h]. unfold req_valid, clip_one.
  destruct ((lo >? lastID) || (lo <? 0) || (h <? 0) || ((h >? 0) && (lo >? h)) || ((lo =? 0) && (h =? 0))) eqn:E.
  - split; [lia|]. intros H. now contradiction H.
  - split; [discriminate|]. intros _. lia.
Qed.

Lemma clip_one_spec lastID q r :
  clip_one lastID q = Some r ->
  wf r /\ forall x, in_range x r = true <-> req_covers lastID q x.
Proof.
  destruct q as [lo h]. unfold clip_one, req_covers.
  destruct ((lo >? lastID) || (lo <? 0) || (h <? 0) || ((h >? 0) && (lo >? h)) || ((lo =? 0) && (h =? 0))) eqn:E;
    [discriminate|].
  intros H. injection H as <-. unfold wf. cbn [low hi].
  split.
  - destruct (h >? lastID) eqn:E1; [lia|]. destruct ((lo =? h) || (lo + 1 =? h)) eqn:E2; lia.
  - intros x. rewrite in_range_iff. unfold upper. cbn [low hi].
    destruct (h >? lastID) eqn:E1.
    + replace (lastID + 1 =? 0) with false by lia.
      destruct ((h =? 0) || (h =? lo)) eqn:E3; lia.
    + destruct ((lo =? h) || (lo + 1 =? h)) eqn:E2.
      * replace (0 =? 0) with true by lia. destruct ((h =? 0) || (h =? lo)) eqn:E3; lia.
      * destruct (h =? 0) eqn:E4; cbn [orb]; [lia|].
        destruct (h =? lo) eqn:E5; lia.
Qed.

Lemma clip_all_spec lastID : forall req rs,
  clip_all lastID req = Some rs ->
  Forall wf rs /\ Forall (req_valid lastID) req /\ length rs = length req
  /\ forall x, in_ranges x rs = true <-> exists q, In q req /\ req_covers lastID q x.
Proof.
  induction req as [|q req IH]; intros rs H; cbn [clip_all] in H.
  - injection H as <-. repeat split; try constructor.
    + cbn. discriminate.
    + intros [q [[] _]].
  - destruct (clip_one lastID q) as [r|] eqn:E1; [|discriminate].
    destruct (clip_all lastID req) as [rs'|] eqn:E2; [|discriminate].
    injection H as <-.
    destruct (clip_one_spec _ _ _ E1) as [Hw Hx].
    destruct (IH _ eq_refl) as (Hf & Hv & Hlen & Hxs).
    repeat split.
    + now constructor.
    + constructor; [|exact Hv]. apply clip_one_valid. congruence.
    + cbn [length]. now rewrite Hlen.
    + cbn [in_ranges existsb]. fold (in_ranges x rs'). rewrite orb_true_iff, Hx, Hxs.
      intros [H|[q' [Hin Hc]]]; [exists q; split; [now left|exact H]|exists q'; split; [now right|exact Hc]].
    + cbn [in_ranges existsb]. fold (in_ranges x rs'). rewrite orb_true_iff, Hx, Hxs.
      intros [q' [[<-|Hin] Hc]]; [now left|right; now exists q'].
Qed.

Lemma clip_all_valid lastID : forall req,
  Forall (req_valid lastID) req -> exists rs, clip_all lastID req = Some rs.
Proof.
  induction req as [|q req IH]; intros Hf; [now exists []|].
  inversion Hf as [|? ? Hq Hf']; subst. cbn [clip_all].
  apply clip_one_valid in Hq. destruct (clip_one lastID q) as [r|]; [|congruence].
  destruct (IH Hf') as [rs ->]. now eexists.
Qed.

Lemma del_ranges_inv lastID req out :
  del_ranges lastID req = Some out ->
  exists rs, clip_all lastID req = Some rs /\ out = normalize (sort rs) /\ req <> [].
Proof.
  unfold del_ranges, del_ranges_with. destruct req as [|q req]; [discriminate|].
  destruct (clip_all lastID (q :: req)) as [rs|]; [|discriminate].
  destruct ((count_all rs >? max_delete_count) && (1 <? length (normalize (sort rs)))%nat); [discriminate|].
  intros H. injection H as <-. exists rs. repeat split. discriminate.
Qed.

(* the ranges handed to the store cover exactly the union of the requested
   ranges, each clipped to IDs <= lastID *)
Lemma del_ranges_exact lastID req out :
  del_ranges lastID req = Some out ->
  forall x, in_ranges x out = true <-> exists q, In q req /\ req_covers lastID q x.
Proof.
  intros H x. destruct (del_ranges_inv _ _ _ H) as (rs & Hc & -> & _).
  destruct (clip_all_spec _ _ _ Hc) as (Hw & _ & _ & Hx).
  rewrite normalize_exact; [apply Hx|].
  eapply Forall_impl; [|exact Hw]. exact wf_nonneg.
Qed.

Lemma del_ranges_normal lastID req out : del_ranges lastID req = Some out -> normal out.
Proof.
  intros H. destruct (del_ranges_inv _ _ _ H) as (rs & Hc & -> & _).
  destruct (clip_all_spec _ _ _ Hc) as (Hw & _). now apply normalize_normal.
Qed.

(* never an ID outside 0..lastID; never outside 1..lastID unless an entry has low = 0 *)
Lemma del_ranges_within lastID req out x :
  del_ranges lastID req = Some out -> in_ranges x out = true ->
  0 <= x <= lastID /\ (x = 0 -> exists h, In (0, h) req).
Proof.
  intros H Hx. destruct (del_ranges_inv _ _ _ H) as (rs & Hc & _ & _).
  destruct (clip_all_spec _ _ _ Hc) as (_ & Hv & _ & _).
  apply (del_ranges_exact _ _ _ H) in Hx. destruct Hx as [[lo h] [Hin Hcov]].
  rewrite Forall_forall in Hv. specialize (Hv _ Hin). unfold req_valid in Hv. unfold req_covers in Hcov.
  split; [lia|]. intros ->. exists h. assert (lo = 0) by lia. now subst.
Qed.

(* a request is refused only if it is empty, has an invalid entry, or is over
   the count limit with more than one range left after merging *)
Lemma del_ranges_accepts lastID req :
  req <> [] -> Forall (req_valid lastID) req ->
  (forall rs, clip_all lastID req = Some rs -> count_all rs <= max_delete_count) ->
  exists out, del_ranges lastID req = Some out.
Proof.
  intros Hne Hv Hcount. unfold del_ranges, del_ranges_with.
  destruct req as [|q req]; [congruence|].
  destruct (clip_all_valid _ _ Hv) as [rs Hrs]. rewrite Hrs.
  specialize (Hcount _ Hrs).
  replace (count_all rs >? max_delete_count) with false by lia. cbn [andb]. now eexists.
Qed.

Definition del_ranges_exact_statement (del : Z -> list (Z * Z) -> option (list range)) : Prop :=
  forall lastID req out, del lastID req = Some out ->
  forall x, in_ranges x out = true <-> exists q, In q req /\ req_covers lastID q x.

Lemma del_ranges_unrepaired_refuted : ~ del_ranges_exact_statement del_ranges_unrepaired.
Proof.
  intros H.
  specialize (H 12 [(1, 3); (2, 4); (10, 12)] [mkRange 1 4; mkRange 2 4] eq_refl 10).
  destruct H as [_ H]. assert (in_ranges 10 [mkRange 1 4; mkRange 2 4] = true); [|discriminate].
  apply H. exists (10, 12). split; [cbn; tauto|]. cbn. lia.
Qed.

(* ------------------------------------------------------------------ *)
(* the deletion log                                                     *)

Lemma dellog_roundtrip r :
  wf r -> wf (dellog_load (dellog_store r))
          /\ forall x, in_range x (dellog_load (dellog_store r)) = in_range x r.
Proof.
  intros [H0 H]. unfold dellog_load, dellog_store, wf.
  destruct (hi r =? 0) eqn:E.
  - replace (low r + 1 <=? low r + 1) with true by lia. cbn [low hi]. split; [lia|].
    intros x. unfold in_range. cbn [low hi]. now rewrite E.
  - destruct (hi r <=? low r + 1) eqn:E1; cbn [low hi].
    + split; [lia|]. intros x. unfold in_range. cbn [low hi]. rewrite E.
      change (0 =? 0) with true. cbv iota. lia.
    + split; [lia|]. intros x. unfold in_range. cbn [low hi]. now rewrite E.
Qed.

Lemma report_deleted_exact logs x :
  Forall (Forall nonneg) logs ->
  in_ranges x (report_deleted logs) = existsb (in_ranges x) logs.
Proof.
  intros Hn. unfold report_deleted. rewrite normalize_exact; [apply in_ranges_concat|].
  induction Hn; cbn [concat]; [constructor|]. apply Forall_app. now split.
Qed.

(* stored by messageDeleteList, read back by MessageGetDeleted, merged by
   GetDeleted: the reported log covers exactly the IDs of the logged ranges *)
Definition stored_log (outs : list (list range)) : list (list range) :=
  map (map (fun r => dellog_load (dellog_store r))) outs.

Lemma deletion_log_exact outs x :
  Forall (Forall wf) outs ->
  in_ranges x (report_deleted (stored_log outs)) = existsb (in_ranges x) outs.
Proof.
  intros Hw. rewrite report_deleted_exact.
  - unfold stored_log. induction Hw as [|l ls Hl Hls IH]; [reflexivity|].
    cbn [map existsb]. rewrite IH. f_equal.
    clear -Hl. induction Hl as [|r l Hr Hl IH]; [reflexivity|].
    cbn [map in_ranges existsb]. fold (in_ranges x l).
    fold (in_ranges x (map (fun r => dellog_load (dellog_store r)) l)).
    rewrite IH. now rewrite (proj2 (dellog_roundtrip r Hr)).
  - unfold stored_log. induction Hw as [|l ls Hl Hls IH]; [constructor|].
    cbn [map]. constructor; [|exact IH].
    clear -Hl. induction Hl as [|r l Hr Hl IH]; [constructor|].
    cbn [map]. constructor; [|exact IH]. apply wf_nonneg. apply (dellog_roundtrip r Hr).
Qed.

(* the log of the deletions accepted for one user: every logged transaction is
   the output of an accepted delete request *)
Lemma deletion_log_of_requests (reqs : list (Z * list (Z * Z))) outs x :
  Forall2 (fun rq out => del_ranges (fst rq) (snd rq) = Some out) reqs outs ->
  in_ranges x (report_deleted (stored_log outs)) = true <->
  exists rq q, In rq reqs /\ In q (snd rq) /\ req_covers (fst rq) q x.
Proof.
  intros HF.
  assert (Hw : Forall (Forall wf) outs).
  { induction HF as [|rq out reqs outs H HF IH]; constructor; auto.
    apply (del_ranges_normal _ _ _ H). }
  rewrite deletion_log_exact by exact Hw. clear Hw.
  induction HF as [|rq out reqs outs H HF IH].
  - cbn. split; [discriminate|]. intros (rq & q & [] & _).
  - cbn [existsb]. rewrite orb_true_iff, IH, (del_ranges_exact _ _ _ H x). split.
    + intros [[q [Hin Hc]]|(rq' & q & Hin & Hq & Hc)].
      * exists rq, q. repeat split; auto. now left.
      * exists rq', q. repeat split; auto. now right.
    + intros (rq' & q & [<-|Hin] & Hq & Hc).
      * left. now exists q.
      * right. now exists rq', q.
Qed.

