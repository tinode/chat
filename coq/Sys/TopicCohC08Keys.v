(* C08: the cached per-user table has one entry per user (needed to compare table sizes and the
   push recipient lists of two caches that agree pointwise). *)
From Coq Require Import ZArith NArith List Bool Lia Permutation.
From Tinode Require Import Base.Util Pure.Acs Sys.Topic Sys.TopicTac Sys.TopicFrame Sys.TopicMarks Sys.TopicCohC08 Sys.TopicCohC08Proofs Sys.TopicCohC08Step.
Import ListNotations.
Open Scope Z_scope.

Definition keys_ok (c : cache) : Prop := NoDup (map fst (c_users c)).

Lemma keys_load s : keys_ok (load s).
Proof.
  unfold keys_ok, load, load_users. cbn [c_users].
  assert (forall rows acc, NoDup (map fst acc) ->
            NoDup (map fst (fold_left (fun a r => if s_deleted r then a
                     else aset (s_user r) (mkPud (s_want r) (s_given r) (s_read r) (s_recv r) (s_delid r) 0) a) rows acc))) as H.
  { induction rows as [|r rows IH]; intros acc ND; cbn; [exact ND|]. apply IH. destruct (s_deleted r); [exact ND|apply keys_aset; exact ND]. }
  apply H. constructor.
Qed.

Lemma keys_users_aset c u p : keys_ok c -> keys_ok (c_set_users (aset u p) c).
Proof. unfold keys_ok. cbn [c_users c_set_users]. apply keys_aset. Qed.
Lemma keys_users_map c g : keys_ok c -> keys_ok (c_set_users (map (fun e => (fst e, g (snd e)))) c).
Proof. unfold keys_ok. cbn [c_users c_set_users]. rewrite keys_map_snd. auto. Qed.
Lemma keys_evict c u unsub k c' o : keys_ok c -> evict_user c u unsub k = (c', o) -> keys_ok c'.
Proof. intros K H. exact (evict_nodup _ _ _ _ _ _ H K). Qed.

Ltac keys_tac K :=
  cbn [h_ca fst];
  repeat match goal with H : (_, _) = (_, _) |- _ => inv H end;
  repeat first [ exact K
               | apply keys_users_aset
               | apply keys_users_map
               | (eapply keys_evict; [|eassumption])
               | (unfold keys_ok in *; cbn [c_users c_set_users c_set_sess c_set_owner c_set_lastid c_set_delid] in *; exact K) ].

Lemma keys_note f s c n sid u what seq : keys_ok c -> keys_ok (h_ca (note f s c n sid u what seq)).
Proof. intros K. unfold note. repeat break_match; keys_tac K. Qed.
Lemma keys_publish f s c n sid u content noecho : keys_ok c -> keys_ok (h_ca (publish f s c n sid u content noecho)).
Proof. intros K. unfold publish. repeat break_match; keys_tac K. Qed.
Lemma keys_del_msg dr f s c n sid u req hard : keys_ok c -> keys_ok (h_ca (del_msg dr f s c n sid u req hard)).
Proof. intros K. unfold del_msg. repeat break_match; keys_tac K. Qed.
Lemma keys_del_sub f s c n sid u t : keys_ok c -> keys_ok (h_ca (del_sub f s c n sid u t)).
Proof. intros K. unfold del_sub. repeat break_match; keys_tac K. Qed.
Lemma keys_leave_unsub f s c n sid u : keys_ok c -> keys_ok (h_ca (leave_unsub f s c n sid u)).
Proof. intros K. unfold leave_unsub. repeat break_match; keys_tac K. Qed.
Lemma keys_leave c sid u : keys_ok c -> keys_ok (fst (leave c sid u)).
Proof. intros K. unfold leave. repeat break_match; keys_tac K. Qed.
Lemma keys_aus f s c n sid u t m : keys_ok c -> keys_ok (h_ca (fst (another_user_sub f s c n sid u t m))).
Proof. apply aus_post. Qed.
Lemma keys_tus f s c n sid u want nb : keys_ok c -> keys_ok (h_ca (fst (this_user_sub f s c n sid u want nb))).
Proof. apply tus_post. Qed.

(* ------------------------------------------------------------------ *)
(* two caches that agree pointwise and have one entry per user have the same size and the same
   (sorted) list of push recipients *)
Lemma agree_keys c d : cache_agree c d -> forall k, In k (map fst (c_users c)) <-> In k (map fst (c_users d)).
Proof.
  intros [_ [_ [_ [_ [_ P]]]]] k. rewrite !in_keys_alookup. specialize (P k).
  destruct (alookup k (c_users c)), (alookup k (c_users d)); cbn in P; try discriminate; split; congruence.
Qed.

Lemma agree_length c d : cache_agree c d -> keys_ok c -> keys_ok d -> length (c_users c) = length (c_users d).
Proof.
  intros A Kc Kd. rewrite <- (map_length fst (c_users c)), <- (map_length fst (c_users d)).
  apply Permutation_length. apply NoDup_Permutation; [exact Kc|exact Kd|apply agree_keys; exact A].
Qed.

Lemma insert_n_comm x y l : insert_n x (insert_n y l) = insert_n y (insert_n x l).
Proof.
  induction l as [|e l IH]; cbn;
    repeat (match goal with |- context [(?a <=? ?b)%N] => destruct (N.leb_spec a b); cbn end);
    try reflexivity; try lia;
    try (assert (x = y) by lia; subst; reflexivity);
    try (rewrite IH; reflexivity).
Qed.

Lemma sort_perm l l' : Permutation l l' -> fold_right insert_n [] l = fold_right insert_n [] l'.
Proof.
  induction 1; cbn; try congruence. apply insert_n_comm.
Qed.


Lemma agree_push c d : cache_agree c d -> keys_ok c -> keys_ok d -> push_rcpt c = push_rcpt d.
Proof.
  intros A Kc Kd. unfold push_rcpt. apply sort_perm.
  set (P := fun e : N * pud => is_presencer (pud_mode (snd e)) && is_reader (pud_mode (snd e))).
  assert (forall (x : cache), keys_ok x -> NoDup (map fst (filter P (c_users x)))) as NDf.
  { intros x K. unfold keys_ok in K. induction (c_users x) as [|[k v] l IH]; cbn; [constructor|].
    inversion K as [|? ? Hx Hl]; subst. destruct (P (k, v)); cbn; [|apply IH; exact Hl].
    constructor; [|apply IH; exact Hl]. intros Hin. apply Hx. apply in_map_iff in Hin. destruct Hin as [[k' v'] [E Hf]].
    cbn in E. subst k'. apply filter_In in Hf. change k with (fst (k, v')). apply in_map. apply Hf. }
  assert (forall (x y : cache), cache_agree x y -> keys_ok x -> keys_ok y ->
            forall k, In k (map fst (filter P (c_users x))) -> In k (map fst (filter P (c_users y)))) as SUB.
  { intros x y [_ [_ [_ [_ [_ Q]]]]] Kx Ky k Hin. apply in_map_iff in Hin. destruct Hin as [[k' p] [E Hf]]. cbn in E. subst k'.
    apply filter_In in Hf. destruct Hf as [Hin HP].
    pose proof (in_alookup _ _ _ Kx Hin) as L. specialize (Q k). rewrite L in Q.
    destruct (alookup k (c_users y)) as [q|] eqn:Lq; [|discriminate]. cbn in Q. unfold core in Q. inv Q.
    apply in_map_iff. exists (k, q). split; [reflexivity|]. apply filter_In. split; [apply alookup_in; exact Lq|].
    unfold P, pud_mode in *. cbn [snd] in *. congruence. }
  apply NoDup_Permutation; [apply NDf; exact Kc|apply NDf; exact Kd|].
  intros k. split; [apply SUB; assumption|apply SUB; try assumption].
  destruct A as [E1 [E2 [E3 [E4 [E5 Q]]]]]. repeat split; try congruence.
  all: try (intros u; symmetry; apply Q).
Qed.
