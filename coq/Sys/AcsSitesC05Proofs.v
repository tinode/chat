(* Proofs about Sys/AcsSitesC05.v (C05 layer 3: handlers interpreting a client-supplied mode text). *)
From Coq Require Import NArith List Bool Lia.
From Tinode Require Import Base.Util Pure.Acs Pure.AcsProofs Sys.AcsSitesC05.
Import ListNotations.
Open Scope N_scope.

(* ---- ParseAcs / UnmarshalText facts used by every site ---- *)

Lemma letter_bit_low c bit : letter_bit c = Some bit -> N.land bit 255 <> 0.
Proof.
  unfold letter_bit.
  repeat match goal with |- context [if ?b then _ else _] => destruct b end;
    intros X; inversion X; subst; vm_compute; discriminate.
Qed.

Lemma lor_low m0 bit : N.land bit 255 <> 0 -> N.land (N.lor m0 bit) 255 <> 0.
Proof.
  intros H E. apply H. rewrite N.land_lor_distr_l in E. apply N.lor_eq_0_iff in E. tauto.
Qed.

Lemma parse_loop_low s : forall m0 m,
  N.land m0 255 <> 0 -> parse_loop s m0 = Some m -> N.land m 255 <> 0.
Proof.
  induction s as [|c rest IH]; intros m0 m Hm0 H; cbn [parse_loop] in H.
  - inversion H; subst; exact Hm0.
  - destruct (letter_bit c) as [bit|] eqn:Eb.
    + apply (IH (N.lor m0 bit) m); [|exact H].
      apply lor_low. exact (letter_bit_low c bit Eb).
    + destruct (is_N c); [|discriminate].
      destruct (m0 =? ModeUnset) eqn:Em; [|discriminate].
      apply N.eqb_eq in Em. subst m0. exfalso. apply Hm0. reflexivity.
Qed.

(* a non-empty text that is accepted denotes a set, never the "no change" marker *)
Lemma parse_nonempty_not_unset c rest m : parse_acs (c :: rest) = Some m -> m <> ModeUnset.
Proof.
  unfold parse_acs. cbn [parse_loop]. intros H.
  destruct (letter_bit c) as [bit|] eqn:Eb.
  - pose proof (parse_loop_low rest (N.lor ModeUnset bit) m
                 (lor_low ModeUnset bit (letter_bit_low c bit Eb)) H) as L.
    intros ->. apply L. reflexivity.
  - destruct (is_N c); [|discriminate].
    destruct ((ModeUnset =? ModeUnset) && match rest with [] => true | _ :: _ => false end); [|discriminate].
    inversion H. discriminate.
Qed.

Lemma land_bitmask_lt m : N.land m ModeBitmask < 256.
Proof.
  change ModeBitmask with (N.ones 8). rewrite N.land_ones. apply N.mod_lt. discriminate.
Qed.

Lemma land_bitmask_not_unset m : (N.land m ModeBitmask =? ModeUnset) = false.
Proof.
  apply N.eqb_neq. pose proof (land_bitmask_lt m). unfold ModeUnset. lia.
Qed.

(* UnmarshalText on a non-empty text: the parsed set, or the receiver untouched + an error *)
Lemma unmarshal_nonempty cur c rest :
  unmarshal_text cur (c :: rest) =
    match parse_acs (c :: rest) with
    | Some m => (N.land m ModeBitmask, true)
    | None => (cur, false)
    end.
Proof.
  unfold unmarshal_text. destruct (parse_acs (c :: rest)) as [m|] eqn:E; [|reflexivity].
  pose proof (parse_nonempty_not_unset c rest m E) as Hn.
  apply N.eqb_neq in Hn. rewrite Hn. reflexivity.
Qed.

Lemma unmarshal_field cur s : fst (unmarshal_text cur s) = field_spec (fun m => m) cur s.
Proof.
  destruct s as [|c rest]; [reflexivity|].
  rewrite unmarshal_nonempty. unfold field_spec. destruct (parse_acs (c :: rest)); reflexivity.
Qed.

(* ---- parseTopicAccess ---- *)

Definition text_bad (s : list N) : bool :=
  match s with [] => false | _ :: _ => match parse_acs s with Some _ => false | None => true end end.

(* the error parseTopicAccess returns: that of anon when anon is given, else that of auth *)
Definition pta_err (acs : defacs) : bool :=
  match da_anon acs with [] => text_bad (da_auth acs) | _ :: _ => text_bad (da_anon acs) end.

Lemma pta_spec acs dA dN :
  parse_topic_access acs dA dN =
    (field_spec (fun m => m) dA (da_auth acs), field_spec (fun m => m) dN (da_anon acs), pta_err acs).
Proof.
  unfold parse_topic_access, pta_err, unmarshal_err.
  destruct (da_auth acs) as [|c1 r1] eqn:Ea; destruct (da_anon acs) as [|c2 r2] eqn:En;
    try rewrite !unmarshal_nonempty; unfold field_spec, text_bad;
    repeat match goal with |- context [parse_acs ?x] => destruct (parse_acs x) end; reflexivity.
Qed.

Lemma field_spec_empty f cur : field_spec f cur [] = cur.
Proof. reflexivity. Qed.

Lemma field_spec_rejected f cur s : parse_acs s = None -> field_spec f cur s = cur.
Proof. intros H. destruct s; [reflexivity|]. unfold field_spec. rewrite H. reflexivity. Qed.

Lemma field_spec_supplied f cur s m : s <> [] -> parse_acs s = Some m ->
  field_spec f cur s = f (N.land m ModeBitmask).
Proof. intros Hs H. destruct s; [congruence|]. unfold field_spec. rewrite H. reflexivity. Qed.

(* with ModeUnset as the default, the parsed field is ModeUnset exactly when nothing is taken *)
Lemma field_unset_cases s :
  (field_spec (fun m => m) ModeUnset s = ModeUnset /\ forall f cur, field_spec f cur s = cur) \/
  (exists m, s <> [] /\ parse_acs s = Some m /\ field_spec (fun m => m) ModeUnset s = N.land m ModeBitmask).
Proof.
  destruct s as [|c r]; [left; split; reflexivity|].
  destruct (parse_acs (c :: r)) as [m|] eqn:E.
  - right. exists m. split; [discriminate|]. split; [reflexivity|]. unfold field_spec. rewrite E. reflexivity.
  - left. split; intros; unfold field_spec; rewrite E; reflexivity.
Qed.

(* ---- {set desc.defacs} on 'me' and on a group topic ---- *)

Definition sd_spec (cat : tcat) (a n : N) (acs : defacs) : N * N :=
  (field_spec (cat_sanitize cat ModeCAuth) a (da_auth acs),
   field_spec (cat_sanitize cat ModeCP2P) n (da_anon acs)).

Lemma assign_field cat mask cur s :
  (if negb (field_spec (fun m => m) ModeUnset s =? ModeUnset)
   then match cat with CatMe => sanitize_p2p mask (field_spec (fun m => m) ModeUnset s)
                     | CatGrp => field_spec (fun m => m) ModeUnset s end
   else cur) = field_spec (cat_sanitize cat mask) cur s.
Proof.
  destruct (field_unset_cases s) as [[H1 H2]|[m [Hs [Hp H1]]]].
  - rewrite H1, H2. reflexivity.
  - rewrite H1, land_bitmask_not_unset. cbn [negb].
    rewrite (field_spec_supplied _ cur s m Hs Hp). destruct cat; reflexivity.
Qed.

(* complete description of the handler: the request is answered 400 and nothing moves, or every
   field holds exactly what its own text says (untouched when empty / not a mode text, the parsed
   set - sanitised on 'me' only - when supplied), answered 200, or 304 when nothing moved *)
Lemma set_desc_result cat a n acs :
  set_desc_defacs cat a n (Some acs) = (400, (a, n)) \/
  (snd (set_desc_defacs cat a n (Some acs)) = sd_spec cat a n acs /\
   (fst (set_desc_defacs cat a n (Some acs)) = 200 \/
    fst (set_desc_defacs cat a n (Some acs)) = 304 /\ sd_spec cat a n acs = (a, n))).
Proof.
  unfold set_desc_defacs, assign_access. rewrite pta_spec.
  destruct (pta_err acs); [left; reflexivity|].
  destruct (is_owner _ || is_owner _); [left; reflexivity|].
  right. rewrite !assign_field. fold (sd_spec cat a n acs). unfold sd_spec.
  set (x := field_spec (cat_sanitize cat ModeCAuth) a (da_auth acs)).
  set (y := field_spec (cat_sanitize cat ModeCP2P) n (da_anon acs)).
  destruct (negb (x =? a) || negb (y =? n)) eqn:E; cbn [fst snd].
  - split; [reflexivity|left; reflexivity].
  - apply orb_false_elim in E. destruct E as [E1 E2].
    apply negb_false_iff in E1. apply negb_false_iff in E2.
    apply N.eqb_eq in E1. apply N.eqb_eq in E2. rewrite E1, E2.
    split; [reflexivity|right; split; reflexivity].
Qed.

Lemma set_desc_absent cat a n : set_desc_defacs cat a n None = (304, (a, n)).
Proof. reflexivity. Qed.

Lemma set_desc_empty_auth cat a n acs : da_auth acs = [] ->
  fst (snd (set_desc_defacs cat a n (Some acs))) = a.
Proof.
  intros H. destruct (set_desc_result cat a n acs) as [E|[E _]]; rewrite E; [reflexivity|].
  unfold sd_spec. rewrite H. reflexivity.
Qed.

Lemma set_desc_empty_anon cat a n acs : da_anon acs = [] ->
  snd (snd (set_desc_defacs cat a n (Some acs))) = n.
Proof.
  intros H. destruct (set_desc_result cat a n acs) as [E|[E _]]; rewrite E; [reflexivity|].
  unfold sd_spec. rewrite H. reflexivity.
Qed.

Lemma set_desc_empty_both cat a n acs : da_auth acs = [] -> da_anon acs = [] ->
  set_desc_defacs cat a n (Some acs) = (304, (a, n)).
Proof.
  intros H1 H2. unfold set_desc_defacs, assign_access. rewrite pta_spec.
  unfold pta_err. rewrite H1, H2. cbn. rewrite !N.eqb_refl. reflexivity.
Qed.

Lemma set_desc_rejected_auth_keeps cat a n acs : parse_acs (da_auth acs) = None ->
  fst (snd (set_desc_defacs cat a n (Some acs))) = a.
Proof.
  intros H. destruct (set_desc_result cat a n acs) as [E|[E _]]; rewrite E; [reflexivity|].
  unfold sd_spec. cbn [fst]. apply field_spec_rejected. exact H.
Qed.

Lemma set_desc_rejected_anon cat a n acs : parse_acs (da_anon acs) = None ->
  set_desc_defacs cat a n (Some acs) = (400, (a, n)).
Proof.
  intros H. unfold set_desc_defacs, assign_access. rewrite pta_spec.
  unfold pta_err, text_bad. destruct (da_anon acs) as [|c r]; [discriminate H|]. rewrite H. reflexivity.
Qed.

Lemma set_desc_rejected_auth_alone cat a n acs : parse_acs (da_auth acs) = None -> da_anon acs = [] ->
  set_desc_defacs cat a n (Some acs) = (400, (a, n)).
Proof.
  intros H Hn. unfold set_desc_defacs, assign_access. rewrite pta_spec.
  unfold pta_err, text_bad. rewrite Hn. destruct (da_auth acs) as [|c r]; [discriminate H|]. rewrite H. reflexivity.
Qed.

(* the full "rejected, everything unchanged" statement and its refutation by the faithful model *)
Definition set_desc_junk_rejected_statement : Prop :=
  forall cat a n acs,
    parse_acs (da_auth acs) = None \/ parse_acs (da_anon acs) = None ->
    set_desc_defacs cat a n (Some acs) = (400, (a, n)).

(* ---- {sub topic=new set.desc.defacs} ---- *)

Lemma new_grp_absent ch : new_grp_defacs ch None = (default_access_grp true ch, default_access_grp false ch).
Proof. reflexivity. Qed.

Lemma default_grp_small b ch : default_access_grp b ch < 128.
Proof. destruct b, ch; vm_compute; reflexivity. Qed.

Lemma small_not_owner m : m < 128 -> N.ldiff m ModeOwner = m /\ (m =? ModeInvalid) = false.
Proof.
  intros H. split.
  - apply N.bits_inj. intros i. rewrite N.ldiff_spec.
    destruct (N.testbit ModeOwner i) eqn:E; [|apply andb_true_r].
    assert (i = 7).
    { destruct (N.eq_dec i 7) as [|Hne]; [assumption|].
      change ModeOwner with (2 ^ 7) in E. rewrite N.pow2_bits_false in E by congruence. discriminate. }
    subst i. cbn [negb]. rewrite andb_false_r.
    destruct m as [|p]; [reflexivity|].
    symmetry. apply N.bits_above_log2. apply N.log2_lt_pow2; [lia|]. exact H.
  - apply N.eqb_neq. unfold ModeInvalid. lia.
Qed.

(* a field whose text is empty / absent / not a mode text keeps the default of the category *)
Lemma new_grp_field_keeps ch acs :
  (da_auth acs = [] \/ parse_acs (da_auth acs) = None ->
     fst (new_grp_defacs ch (Some acs)) = default_access_grp true ch) /\
  (da_anon acs = [] \/ parse_acs (da_anon acs) = None ->
     snd (new_grp_defacs ch (Some acs)) = default_access_grp false ch).
Proof.
  unfold new_grp_defacs. rewrite pta_spec.
  pose proof (small_not_owner _ (default_grp_small true ch)) as [Ld Li].
  pose proof (small_not_owner _ (default_grp_small false ch)) as [Ld' Li'].
  split; intros H.
  - assert (E : field_spec (fun m => m) (default_access_grp true ch) (da_auth acs) = default_access_grp true ch).
    { destruct H as [H|H]; [rewrite H; reflexivity|apply field_spec_rejected; exact H]. }
    rewrite E. destruct (pta_err acs); cbn [fst]; [rewrite Li; reflexivity|].
    destruct (_ || _); cbn [fst]; [exact Ld|reflexivity].
  - assert (E : field_spec (fun m => m) (default_access_grp false ch) (da_anon acs) = default_access_grp false ch).
    { destruct H as [H|H]; [rewrite H; reflexivity|apply field_spec_rejected; exact H]. }
    rewrite E. destruct (pta_err acs); cbn [snd]; [rewrite Li'; reflexivity|].
    destruct (_ || _); cbn [snd]; [exact Ld'|reflexivity].
Qed.

(* ---- {acc user=new desc.defacs} ---- *)

Lemma acc_absent : acc_defacs None = (acc_default_auth, acc_default_anon).
Proof. reflexivity. Qed.

Lemma acc_empty_keeps acs :
  (da_auth acs = [] -> fst (acc_defacs (Some acs)) = acc_default_auth) /\
  (da_anon acs = [] -> snd (acc_defacs (Some acs)) = acc_default_anon).
Proof. split; intros H; cbn [acc_defacs fst snd]; rewrite H; reflexivity. Qed.

Lemma acc_field_rejected dflt s : s <> [] -> parse_acs s = None ->
  acc_field dflt s = sanitize_p2p ModeCP2P dflt.
Proof.
  intros Hs H. destruct s as [|c r]; [congruence|]. unfold acc_field.
  rewrite unmarshal_nonempty, H. reflexivity.
Qed.

Definition acc_rejected_auth_keeps_statement : Prop :=
  forall acs, parse_acs (da_auth acs) = None -> fst (acc_defacs (Some acs)) = acc_default_auth.

(* ====================================================================================== *)
(* the mode text of an existing subscription *)

Lemma sub_mode_text_empty : sub_mode_text [] = Some ModeUnset.
Proof. reflexivity. Qed.

Lemma parse_none_nonempty s : parse_acs s = None -> exists c r, s = c :: r.
Proof. destruct s as [|c r]; [discriminate|]. intros _. exists c, r. reflexivity. Qed.

Lemma sub_mode_text_rejected s : parse_acs s = None -> sub_mode_text s = None.
Proof.
  intros H. destruct (parse_none_nonempty s H) as [c [r ->]].
  unfold sub_mode_text, unmarshal_err. rewrite unmarshal_nonempty, H. reflexivity.
Qed.

Lemma sub_mode_text_supplied s m : s <> [] -> parse_acs s = Some m ->
  sub_mode_text s = Some (N.land m ModeBitmask).
Proof.
  intros Hs H. destruct s as [|c r]; [congruence|].
  unfold sub_mode_text, unmarshal_err. rewrite unmarshal_nonempty, H. reflexivity.
Qed.

(* own subscription, empty text: want and given are what they were (unless the user had banned
   itself: then, by design, the empty text means "default" - see the Example in PropC05.v) *)
Lemma this_empty_no_change cat owner af w g : is_joiner w = true ->
  this_user_sub_existing cat owner af w g [] = SsDone (if is_joiner g then 304 else 403) w g.
Proof.
  intros Hj. unfold this_user_sub_existing. rewrite sub_mode_text_empty.
  change (ModeUnset =? ModeUnset) with true. cbn [negb].
  rewrite Hj. cbn [negb]. rewrite !N.eqb_refl. cbn [negb orb].
  rewrite Hj. cbn [negb]. destruct (is_joiner g); reflexivity.
Qed.

Lemma this_rejected cat owner af w g s : parse_acs s = None ->
  this_user_sub_existing cat owner af w g s = SsErr 400.
Proof. intros H. unfold this_user_sub_existing. rewrite (sub_mode_text_rejected s H). reflexivity. Qed.

Lemma unset_not_owner : is_owner ModeUnset = false.
Proof. reflexivity. Qed.

Lemma another_empty_no_change cat hm ho to w g :
  another_user_sub_existing cat hm ho to w g [] = (if is_sharer hm then SsDone 304 w g else SsErr 403).
Proof.
  unfold another_user_sub_existing. destruct (is_sharer hm); [|reflexivity].
  cbn [negb]. change (ModeUnset =? ModeUnset) with true. rewrite unset_not_owner. reflexivity.
Qed.

Lemma another_rejected cat hm ho to w g s : parse_acs s = None ->
  another_user_sub_existing cat hm ho to w g s = (if is_sharer hm then SsErr 400 else SsErr 403).
Proof.
  intros H. destruct (parse_none_nonempty s H) as [c [r ->]].
  unfold another_user_sub_existing, unmarshal_err. destruct (is_sharer hm); [|reflexivity].
  cbn [negb]. rewrite unmarshal_nonempty, H. reflexivity.
Qed.

Lemma offline_sub_empty cat w g : offline_set_sub cat w g [] = SsDone 304 w g.
Proof. reflexivity. Qed.

Lemma offline_sub_rejected cat w g s : parse_acs s = None -> offline_set_sub cat w g s = SsErr 500.
Proof.
  intros H. destruct (parse_none_nonempty s H) as [c [r ->]].
  unfold offline_set_sub, unmarshal_err. rewrite unmarshal_nonempty, H. reflexivity.
Qed.

Lemma p2p_sanitised_not_owner x : is_owner (N.lor (N.land x ModeCP2P) ModeApprove) = false.
Proof.
  unfold is_owner. rewrite N.land_lor_distr_l, <- N.land_assoc.
  change (N.land ModeCP2P ModeOwner) with 0. change (N.land ModeApprove ModeOwner) with 0.
  rewrite N.land_0_r. reflexivity.
Qed.

Lemma p2p_sanitised_not_unset x : (N.lor (N.land x ModeCP2P) ModeApprove =? ModeUnset) = false.
Proof.
  apply N.eqb_neq. intros E.
  assert (H : N.testbit (N.lor (N.land x ModeCP2P) ModeApprove) 8 = N.testbit ModeUnset 8) by (rewrite E; reflexivity).
  rewrite N.lor_spec, N.land_spec in H. change (N.testbit ModeCP2P 8) with false in H.
  change (N.testbit ModeApprove 8) with false in H. change (N.testbit ModeUnset 8) with true in H.
  rewrite andb_false_r in H. discriminate H.
Qed.

Lemma admin_sharer m : is_admin m = true -> is_sharer m = true.
Proof. intros H. unfold is_sharer. rewrite H. reflexivity. Qed.

