(* C09 on a peer-to-peer topic, over EVERY history of Sys/LoadMarksC09.v (any notes, publishes,
   unsubscriptions, re-subscriptions by either party, unloads, restarts, failing / crashing store
   calls): the store is never ahead of the loaded topic, the stored marks never decrease while a
   subscription lasts, and a (re)load gives every party exactly its stored marks back. *)
From Coq Require Import ZArith NArith List Bool Lia.
From Tinode Require Import Base.Util Pure.Acs Sys.Topic Sys.TopicTac Sys.TopicFrame Sys.TopicMarks Sys.TopicMono
  Sys.TopicCohMarks Sys.TopicCoh2 Sys.TopicLoad Sys.LoadMarksC09 Sys.LoadMarksC09Proofs.
Import ListNotations.
Open Scope Z_scope.

(* ------------------------------------------------------------------ *)
(* more store primitives through smk                                    *)
Definition set3 (rd rc : option Z) (a : Z * Z * Z) : Z * Z * Z :=
  let '(r0, c0, d0) := a in (match rd with Some v => v | None => r0 end, match rc with Some v => v | None => c0 end, d0).
Lemma smk_update_marks s u rd rc u0 : (u =? 0)%N = false ->
  smk (ad_subs_update s u (mkUpd None None rd rc None)) u0 = if N.eqb u0 u then option_map (set3 rd rc) (smk s u0) else smk s u0.
Proof.
  intros NZ. unfold smk. rewrite find_sub_update, NZ. cbn [orb].
  destruct (N.eqb u0 u); [|reflexivity]. destruct (find_sub u0 (subs s)) as [r|]; [|reflexivity].
  cbn [option_map apply_upd s_deleted s_read s_recv s_delid u_read u_recv u_delid]. destruct (s_deleted r); reflexivity.
Qed.
Lemma smk_subs_delete s u s' u0 : ad_subs_delete s u = Some s' -> smk s' u0 = if N.eqb u0 u then None else smk s u0.
Proof.
  intros H. unfold smk. rewrite (find_sub_delete _ _ _ u0 H).
  destruct (N.eqb u0 u); [|reflexivity]. destruct (find_sub u0 (subs s)); reflexivity.
Qed.
Lemma smk_seqid v s u : smk (st_seqid v s) u = smk s u. Proof. reflexivity. Qed.
Lemma smk_msg_save s seq from content s2 u : ad_msg_save s seq from content = Some s2 -> smk s2 u = smk s u.
Proof. unfold ad_msg_save. break_match; intros H; inv H. reflexivity. Qed.
Lemma smk_wipe s u : smk (p2p_wipe s) u = None. Proof. reflexivity. Qed.

(* ------------------------------------------------------------------ *)
(* the invariant                                                        *)
Section Hist.
Variable sm : sessmap.
Variable roots : list N.
Variable ua ub : N.
Hypothesis ua_nz : ua <> 0%N.
Hypothesis ub_nz : ub <> 0%N.

Definition party (u : N) : Prop := u = ua \/ u = ub.
(* the sessions that act in a history belong to the two parties *)
Definition kop_ok (o : kop) : Prop :=
  match o with
  | KSub sid _ | KLeave sid _ | KPub sid _ _ | KNote sid _ _ | KGetDesc sid | KGetSub sid => party (sess_uid sm sid)
  | KUnload | KRestart => True
  end.

(* store: one row per user, rows of the two parties only, no rows without a topic row, stored marks at most seqid *)
Definition ksinv (s : store) : Prop :=
  und s /\ p2p_parties s ua ub /\ (t_exists s = false -> subs s = []) /\
  (forall u rd rc dl, smk s u = Some (rd, rc, dl) -> rd <= t_seqid s /\ rc <= t_seqid s).
(* loaded topic: the topic row exists, lastID <= seqid <= lastID + 1, an entry marked deleted has no live row, a live
   entry has a live row whose marks are NOT AHEAD of the cached ones, and the cached marks are at most lastID *)
Definition entry_ok (s : store) (L : Z) (u : N) (p : kpud) : Prop :=
  if kp_deleted p then smk s u = None
  else kp_read p <= L /\ kp_recv p <= L /\
       exists srd src sdl, smk s u = Some (srd, src, sdl) /\ srd <= kp_read p /\ src <= kp_recv p.
Definition kcinv (s : store) (c : kcache) : Prop :=
  t_exists s = true /\ (0 <= k_lastid c /\ k_lastid c <= t_seqid s <= k_lastid c + 1) /\
  forall u p, alookup u (k_users c) = Some p -> entry_ok s (k_lastid c) u p.
(* uid 0 is nobody; sequence numbers are not negative *)
Definition kbase (s : store) : Prop := 0 <= t_seqid s /\ alookup 0%N (users s) = None.
Definition kinv (x : kstate) : Prop :=
  ksinv (y_st x) /\ kbase (y_st x) /\ match y_ca x with Some c => kcinv (y_st x) c | None => True end.
Lemma kinv_init s : ksinv s -> kbase s -> kinv (mkKS s None 0).
Proof. intros SI KB. exact (conj SI (conj KB I)). Qed.

(* neither stored mark of a user whose row is live before and after is lower afterwards *)
Definition ksmono (s s' : store) : Prop :=
  forall u rd rc dl rd' rc' dl', smk s u = Some (rd, rc, dl) -> smk s' u = Some (rd', rc', dl') -> rd <= rd' /\ rc <= rc'.
Lemma ksmono_refl s : ksmono s s.
Proof. intros u rd rc dl rd' rc' dl' H1 H2. rewrite H1 in H2. inv H2. lia. Qed.
Lemma ksmono_same s s' : (forall u, smk s' u = smk s u) -> ksmono s s'.
Proof. intros E u rd rc dl rd' rc' dl' H1 H2. rewrite E, H1 in H2. inv H2. lia. Qed.

(* ---------- moves of the store ---------- *)
Lemma parties_sub_create s u w g : p2p_parties s ua ub -> party u -> p2p_parties (ad_sub_create s u w g) ua ub.
Proof.
  intros PP PU r. unfold ad_sub_create. rewrite owner_subs. destruct (find_sub u (subs s)); cbn [subs st_subs]; intros Hin.
  - unfold upd_sub in Hin. apply in_map_iff in Hin. destruct Hin as [r0 [E Hin]]. destruct (N.eqb (s_user r0) u); subst r; [exact PU|auto].
  - apply in_app_or in Hin. destruct Hin as [Hin|[<-|[]]]; [auto|exact PU].
Qed.
Lemma parties_same s s' : (forall r', In r' (subs s') -> exists r, In r (subs s) /\ s_user r = s_user r') -> p2p_parties s ua ub -> p2p_parties s' ua ub.
Proof. intros E PP r' Hin. destruct (E r' Hin) as [r [H1 H2]]. rewrite <- H2. auto. Qed.
Lemma parties_subs_update s u up : p2p_parties s ua ub -> p2p_parties (ad_subs_update s u up) ua ub.
Proof.
  apply parties_same. intros r'. unfold ad_subs_update. destruct (u =? 0)%N; cbn [subs st_subs]; intros Hin.
  - apply in_map_iff in Hin. destruct Hin as [r [<- Hin]]. exists r. split; [exact Hin|reflexivity].
  - unfold upd_sub in Hin. apply in_map_iff in Hin. destruct Hin as [r [<- Hin]]. exists r. split; [exact Hin|]. destruct (N.eqb (s_user r) u); reflexivity.
Qed.
Lemma parties_subs_delete s u s' : ad_subs_delete s u = Some s' -> p2p_parties s ua ub -> p2p_parties s' ua ub.
Proof.
  unfold ad_subs_delete. break_match; intros H; inv H. apply parties_same. cbn [subs st_subs st_dellog]. intros r' Hin.
  unfold upd_sub in Hin. apply in_map_iff in Hin. destruct Hin as [r [<- Hin]]. exists r. split; [exact Hin|]. destruct (N.eqb (s_user r) u); reflexivity.
Qed.
Lemma subs_delete_nonempty s u s' : ad_subs_delete s u = Some s' -> subs s' = [] -> subs s = [].
Proof.
  unfold ad_subs_delete. break_match; intros H; inv H. cbn [subs st_subs st_dellog]. unfold upd_sub.
  destruct (subs s); [reflexivity|discriminate].
Qed.

Lemma exists_sub_create s u w g : t_exists (ad_sub_create s u w g) = t_exists s.
Proof. destruct (sframe_sub_create s u w g) as [H _]. exact H. Qed.
Lemma exists_subs_update s u up : t_exists (ad_subs_update s u up) = t_exists s.
Proof. destruct (sframe_subs_update s u up) as [H _]. exact H. Qed.

(* a row is created for a party whose row is not live: the topic row exists *)
Lemma ksinv_sub_create s u w g : ksinv s -> party u -> t_exists s = true -> 0 <= t_seqid s -> ksinv (ad_sub_create s u w g).
Proof.
  intros [U [PP [NE SB]]] PU EX NN. split; [now apply und_sub_create|]. split; [now apply parties_sub_create|].
  split; [rewrite exists_sub_create, EX; discriminate|].
  intros u0 rd rc dl. rewrite smk_sub_create, seqid_sub_create. destruct (N.eqb u0 u); [intros H; inv H; lia|apply SB].
Qed.
Lemma ksinv_update_nomarks s u w g : ksinv s -> ksinv (ad_subs_update s u (mkUpd w g None None None)).
Proof.
  intros [U [PP [NE SB]]]. split; [now apply und_subs_update|]. split; [now apply parties_subs_update|].
  split.
  - rewrite exists_subs_update. intros EX. specialize (NE EX). unfold ad_subs_update. destruct (u =? 0)%N; cbn [subs st_subs]; rewrite NE; reflexivity.
  - intros u0 rd rc dl. rewrite smk_update_nomarks, seqid_subs_update. apply SB.
Qed.
Lemma ksinv_update_marks s u rd rc : ksinv s -> (u =? 0)%N = false ->
  (forall v, rd = Some v -> v <= t_seqid s) -> (forall v, rc = Some v -> v <= t_seqid s) ->
  ksinv (ad_subs_update s u (mkUpd None None rd rc None)).
Proof.
  intros [U [PP [NE SB]]] NZ Brd Brc. split; [now apply und_subs_update|]. split; [now apply parties_subs_update|].
  split.
  - rewrite exists_subs_update. intros EX. specialize (NE EX). unfold ad_subs_update. rewrite NZ; cbn [subs st_subs]; rewrite NE; reflexivity.
  - intros u0 a b d. rewrite smk_update_marks by exact NZ. rewrite seqid_subs_update. destruct (N.eqb u0 u); [|apply SB].
    destruct (smk s u0) as [[[r0 c0] d0]|] eqn:E; [|discriminate]. cbn [option_map set3]. intros H. inv H.
    destruct (SB _ _ _ _ E) as [B1 B2]. split; [destruct rd; [apply Brd; reflexivity|exact B1]|destruct rc; [apply Brc; reflexivity|exact B2]].
Qed.
Lemma ksinv_subs_delete s u s' : ad_subs_delete s u = Some s' -> ksinv s -> ksinv s'.
Proof.
  intros D [U [PP [NE SB]]]. pose proof (sframe_subs_delete _ _ _ D) as [EX [SQ _]].
  split; [eapply und_subs_delete; eauto|]. split; [eapply parties_subs_delete; eauto|]. split.
  - rewrite EX. intros E. specialize (NE E). unfold ad_subs_delete in D. break_match_hyp; [|discriminate]. inv D.
    cbn [subs st_subs st_dellog]. rewrite NE. reflexivity.
  - intros u0 a b d. rewrite (smk_subs_delete _ _ _ _ D), SQ. destruct (N.eqb u0 u); [discriminate|apply SB].
Qed.
Lemma ksinv_seqid s v : ksinv s -> t_seqid s <= v -> ksinv (st_seqid v s).
Proof.
  intros [U [PP [NE SB]]] LE. split; [exact U|]. split; [exact PP|]. split; [exact NE|].
  intros u a b d H. cbn [t_seqid st_seqid]. destruct (SB _ _ _ _ H). lia.
Qed.
Lemma ksinv_msg_save s seq from content s2 : ad_msg_save s seq from content = Some s2 -> ksinv s -> ksinv s2.
Proof.
  unfold ad_msg_save. break_match; intros H; inv H. intros [U [PP [NE SB]]]. split; [exact U|]. split; [exact PP|]. split; [exact NE|exact SB].
Qed.
Lemma ksinv_wipe s : ksinv (p2p_wipe s).
Proof.
  split; [constructor|]. split; [intros r []|]. split; [reflexivity|]. intros u a b d H. discriminate H.
Qed.

(* ---------- entries ---------- *)
Lemma kcinv_sess f0 s c : kcinv s c -> kcinv s (k_set_sess f0 c).
Proof. exact (fun H => H). Qed.

(* after a load the cache is the store *)
Lemma keq_kcinv s c : ksinv s -> kbase s -> keq s c -> t_exists s = true -> k_lastid c = t_seqid s ->
  (forall u p, alookup u (k_users c) = Some p -> kp_deleted p = false) -> kcinv s c.
Proof.
  intros [U [PP [NE SB]]] [NN _] K EX L LV. split; [exact EX|]. split; [lia|].
  intros u p AL. unfold entry_ok. rewrite (LV u p AL).
  assert (kmk c u = Some (kp_read p, kp_recv p, kp_delid p)) as M by (unfold kmk; rewrite AL, (LV u p AL); reflexivity).
  apply K in M. destruct (SB _ _ _ _ M). rewrite L. split; [assumption|]. split; [assumption|].
  exists (kp_read p), (kp_recv p), (kp_delid p). split; [exact M|lia].
Qed.

(* ---------- base facts ---------- *)
Lemma kbase_sframe s s' : sframe s s' -> kbase s -> kbase s'.
Proof. intros [_ [SQ [_ [_ [_ [_ US]]]]]] [A B]. split; [rewrite SQ; exact A|rewrite US; exact B]. Qed.
Lemma kbase_sub_create s u w g : kbase s -> kbase (ad_sub_create s u w g).
Proof. apply kbase_sframe, sframe_sub_create. Qed.
Lemma kbase_subs_update s u up : kbase s -> kbase (ad_subs_update s u up).
Proof. apply kbase_sframe, sframe_subs_update. Qed.

(* ---------- the load ---------- *)
Lemma smk_known_row s u m : smk s u = Some m -> known s u = true -> exists r, In r (p2p_rows s) /\ s_user r = u.
Proof.
  unfold smk. destruct (find_sub u (subs s)) as [r|] eqn:FS; [|discriminate]. destruct (s_deleted r) eqn:D; [discriminate|].
  intros _ K. exists r. pose proof (find_sub_user _ _ _ FS) as E. split; [|exact E].
  unfold p2p_rows. apply filter_In. split; [unfold find_sub in FS; apply find_some in FS; tauto|]. rewrite D, E, K. reflexivity.
Qed.

Inductive load_store (s : store) (u1 u2 : N) : store -> Prop :=
| LS_same : load_store s u1 u2 s
| LS_one u w g : u = u1 \/ u = u2 -> smk s u = None -> t_exists s = true -> alookup u2 (users s) <> None ->
    load_store s u1 u2 (ad_sub_create s u w g)
| LS_new w1 g1 w2 g2 : t_exists s = false -> alookup u2 (users s) <> None ->
    load_store s u1 u2 (ad_sub_create (ad_sub_create (p2p_row s) u1 w1 g1) u2 w2 g2).

Lemma kinit_p2p_store f s n u1 u2 s' c n' ns :
  und s -> (alookup u2 (users s) <> None -> p2p_parties s u1 u2) ->
  kinit_p2p f s n u1 u2 = KOk s' c n' ns ->
  load_store s u1 u2 s' /\ k_lastid c = t_seqid s' /\ t_exists s' = true.
Proof.
  intros U PP0 H.
  (* a live row of a known user that is not the single row of p2p_rows *)
  assert (forall r u, p2p_rows s = [r] -> s_user r <> u -> alookup u (users s) <> None -> smk s u = None) as ONE.
  { intros r u RS NE A. destruct (smk s u) as [m|] eqn:S; [exfalso|reflexivity].
    destruct (smk_known_row _ _ _ S) as [r' [Hin E]]; [unfold known; destruct (alookup u (users s)); [reflexivity|now destruct A]|].
    rewrite RS in Hin. destruct Hin as [<-|[]]. auto. }
  pose proof (kinit_p2p_cases f s n u1 u2) as S. rewrite H in S.
  destruct S as [(EX & -> & ->) | (NEQ & A1 & A2 & w1 & g1 & o1 & w2 & g2 & o2 & -> &
         [(r & EX & RS & E & _ & _ & ->) | [(r & EX & RS & E & _ & _ & ->) | [(EX & _ & _ & ->) | (r & r2 & r3 & rest & RS)]]])];
    cbn [k_lastid]; rewrite ?EX, ?seqid_sub_create, ?exists_sub_create.
  - split; [constructor|auto].
  - split; [|auto]. apply LS_one; auto. apply (ONE r); auto. rewrite E. intros X. rewrite X, N.eqb_refl in NEQ. discriminate.
  - split; [|auto]. apply LS_one; auto. apply (ONE r); auto.
  - split; [now apply LS_new|auto].
  - destruct (p2p_rows_three s u1 u2 r r2 r3 rest U (PP0 A2) RS).
Qed.

Lemma party_peer u : party u -> party (kpeer ua ub u).
Proof. unfold party, kpeer. intros [-> | ->]; [rewrite N.eqb_refl; auto|]. destruct (N.eqb ub ua) eqn:E; [apply N.eqb_eq in E|]; auto. Qed.
Lemma parties_peer s u : party u -> p2p_parties s ua ub -> p2p_parties s u (kpeer ua ub u).
Proof.
  unfold party, kpeer. intros [-> | ->] PP r Hin; destruct (PP r Hin) as [E|E].
  - rewrite N.eqb_refl. auto.
  - rewrite N.eqb_refl. auto.
  - destruct (N.eqb ub ua) eqn:E2; [apply N.eqb_eq in E2; left; congruence|auto].
  - destruct (N.eqb ub ua) eqn:E2; auto.
Qed.

Lemma load_store_inv s u1 u2 s' : ksinv s -> kbase s -> party u1 -> (u2 = kpeer ua ub u1 \/ u2 = 0%N) ->
  load_store s u1 u2 s' -> ksinv s' /\ kbase s' /\ ksmono s s'.
Proof.
  intros SI KB P1 P2 LS.
  assert (alookup u2 (users s) <> None -> party u2) as PU2.
  { intros NN. destruct P2 as [-> | ->]; [now apply party_peer|]. destruct KB as [_ Z0]. contradiction. }
  destruct LS as [|u w g HU SN EX A2|w1 g1 w2 g2 EX A2].
  - split; [exact SI|]. split; [exact KB|apply ksmono_refl].
  - assert (party u) as PU by (destruct HU as [-> | ->]; auto).
    split; [apply ksinv_sub_create; auto; apply KB|]. split; [now apply kbase_sub_create|].
    intros u0 rd rc dl rd' rc' dl' H1. rewrite smk_sub_create. destruct (N.eqb u0 u) eqn:E; [|intros H2; rewrite H1 in H2; inv H2; lia].
    apply N.eqb_eq in E. subst u0. rewrite SN in H1. discriminate.
  - destruct SI as [U [PP [NE SB]]]. pose proof (NE EX) as E0.
    assert (ksinv (p2p_row s)) as S0.
    { unfold p2p_row. split; [unfold und; cbn [subs]; rewrite E0; constructor|]. split; [intros r; cbn [subs]; rewrite E0; intros []|].
      split; [cbn [t_exists]; discriminate|]. intros u a b d. unfold smk. cbn [subs]. rewrite E0. discriminate. }
    assert (kbase (p2p_row s)) as B0 by (destruct KB as [_ Z0]; split; [cbn; lia|exact Z0]).
    split; [apply ksinv_sub_create; [apply ksinv_sub_create; auto; cbn; lia|apply PU2, A2|now rewrite exists_sub_create|rewrite seqid_sub_create; cbn; lia]|].
    split; [now apply kbase_sub_create, kbase_sub_create|].
    intros u0 rd rc dl rd' rc' dl' H1. unfold smk in H1. rewrite E0 in H1. discriminate.
Qed.

(* the other user named by a {sub}: the peer, or nobody (the p2pAAABBB form), who is not an account *)
Lemma other_parties s u1 u2 : ksinv s -> kbase s -> party u1 -> (u2 = kpeer ua ub u1 \/ u2 = 0%N) ->
  alookup u2 (users s) <> None -> p2p_parties s u1 u2.
Proof.
  intros SI KB P1 P2 NN. destruct P2 as [-> | ->]; [apply parties_peer; [exact P1|apply SI]|]. destruct KB as [_ Z0]. contradiction.
Qed.

Lemma kload_inv f s n u1 u2 s' c n' ns : ksinv s -> kbase s -> party u1 -> (u2 = kpeer ua ub u1 \/ u2 = 0%N) ->
  kinit_p2p f s n u1 u2 = KOk s' c n' ns ->
  ksinv s' /\ kbase s' /\ kcinv s' c /\ ksmono s s' /\ keq s' c.
Proof.
  intros SI KB P1 P2 H. pose proof (other_parties _ _ _ SI KB P1 P2) as PP0.
  pose proof (kinit_p2p_store _ _ _ _ _ _ _ _ _ (proj1 SI) PP0 H) as [LS [L EX]].
  destruct (load_store_inv _ _ _ _ SI KB P1 P2 LS) as [SI' [KB' SM]].
  assert (keq s' c) as K by (eapply kinit_p2p_keq_gen; eauto; apply SI).
  split; [exact SI'|]. split; [exact KB'|]. split; [|split; [exact SM|exact K]].
  apply keq_kcinv; auto. intros u p AL. eapply (kinit_topic_live KP2P); [exact H|exact AL].
Qed.

(* ---------- handlers ---------- *)
Definition ok4 (s s1 : store) (c1 : kcache) : Prop := ksinv s1 /\ kbase s1 /\ kcinv s1 c1 /\ ksmono s s1.
Lemma ok4_sess f0 s s1 c1 : ok4 s s1 c1 -> ok4 s s1 (k_set_sess f0 c1).
Proof. exact (fun H => H). Qed.
Lemma ok4_refl s c : ksinv s -> kbase s -> kcinv s c -> ok4 s s c.
Proof. intros. split; [assumption|]. split; [assumption|]. split; [assumption|apply ksmono_refl]. Qed.

Lemma entry_ok_mono s s' L L' u p : entry_ok s L u p -> smk s' u = smk s u -> L <= L' -> entry_ok s' L' u p.
Proof.
  unfold entry_ok. intros H E LE. rewrite E. destruct (kp_deleted p); [exact H|].
  destruct H as [A [B C]]. split; [lia|]. split; [lia|exact C].
Qed.
(* one entry is (re)written, lastID may grow *)
Lemma kcinv_set s c s' u v L' :
  kcinv s c -> t_exists s' = true -> (0 <= L' /\ L' <= t_seqid s' <= L' + 1) -> k_lastid c <= L' ->
  (forall u0, N.eqb u0 u = false -> smk s' u0 = smk s u0) -> entry_ok s' L' u v ->
  kcinv s' (mkKC L' (k_delid c) (aset u v (k_users c)) (k_sess c)).
Proof.
  intros [EX [LS EN]] EX' LS' LE SM EV. split; [exact EX'|]. split; [exact LS'|]. cbn [k_users k_lastid].
  intros u0 p0. rewrite alookup_aset. destruct (N.eqb u0 u) eqn:E.
  - intros H. inv H. apply N.eqb_eq in E. subst u0. exact EV.
  - intros AL. eapply entry_ok_mono; [apply EN; exact AL|apply SM; exact E|exact LE].
Qed.
Lemma kcinv_keep s c s' L' :
  kcinv s c -> t_exists s' = true -> (0 <= L' /\ L' <= t_seqid s' <= L' + 1) -> k_lastid c <= L' ->
  (forall u0 p0, alookup u0 (k_users c) = Some p0 -> smk s' u0 = smk s u0) ->
  kcinv s' (mkKC L' (k_delid c) (k_users c) (k_sess c)).
Proof.
  intros [EX [LS EN]] EX' LS' LE SM. split; [exact EX'|]. split; [exact LS'|]. cbn [k_users k_lastid].
  intros u0 p0 AL. eapply entry_ok_mono; [apply EN; exact AL|eapply SM; exact AL|exact LE].
Qed.

Lemma party_nz u : party u -> (u =? 0)%N = false.
Proof. intros [-> | ->]; apply N.eqb_neq; assumption. Qed.

(* Subs.Create for a party without a live row *)
Lemma ok4_create s c u w g : ksinv s -> kbase s -> kcinv s c -> party u -> smk s u = None ->
  ok4 s (ad_sub_create s u w g) (k_set_users (aset u (mkKP w g false 0 0 0)) c).
Proof.
  intros SI KB CI PU SN. pose proof CI as [EX [LS EN]].
  split; [apply ksinv_sub_create; auto; apply KB|]. split; [now apply kbase_sub_create|]. split.
  - unfold k_set_users. apply kcinv_set with (s := s); auto.
    + now rewrite exists_sub_create.
    + now rewrite seqid_sub_create.
    + lia.
    + intros u0 E. rewrite smk_sub_create, E. reflexivity.
    + unfold entry_ok. cbn [kp_deleted kp_read kp_recv]. split; [lia|]. split; [lia|].
      exists 0, 0, 0. rewrite smk_sub_create, N.eqb_refl. split; [reflexivity|lia].
  - intros u0 rd rc dl rd' rc' dl' H1. rewrite smk_sub_create. destruct (N.eqb u0 u) eqn:E; [|intros H2; rewrite H1 in H2; inv H2; lia].
    apply N.eqb_eq in E. subst u0. rewrite SN in H1. discriminate.
Qed.
(* thisUserSub on a live entry: the modes change, the marks stay *)
Lemma ok4_modes s c u p w g s1 : ksinv s -> kbase s -> kcinv s c -> alookup u (k_users c) = Some p ->
  s1 = s \/ (exists w', s1 = ad_subs_update s u (mkUpd (Some w') None None None None)) ->
  ok4 s s1 (k_set_users (aset u (kp_set_modes w g p)) c).
Proof.
  intros SI KB CI AL HS. pose proof CI as [EX [LS EN]].
  assert (forall u0, smk s1 u0 = smk s u0) as SM by (intros u0; destruct HS as [-> | [w' ->]]; [reflexivity|apply smk_update_nomarks]).
  assert (ksinv s1 /\ kbase s1 /\ t_exists s1 = true /\ t_seqid s1 = t_seqid s) as [SI1 [KB1 [EX1 SQ1]]].
  { destruct HS as [-> | [w' ->]]; [auto|]. split; [now apply ksinv_update_nomarks|]. split; [now apply kbase_subs_update|].
    split; [now rewrite exists_subs_update|apply seqid_subs_update]. }
  split; [exact SI1|]. split; [exact KB1|]. split; [|now apply ksmono_same].
  unfold k_set_users. apply kcinv_set with (s := s); auto; try (rewrite SQ1; exact LS); try lia.
  pose proof (EN u p AL) as E. unfold entry_ok in *. cbn [kp_set_modes kp_deleted kp_read kp_recv]. rewrite SM. exact E.
Qed.

Lemma ok4_users s s1 c1 c' : k_lastid c' = k_lastid c1 /\ k_users c' = k_users c1 -> ok4 s s1 c1 -> ok4 s s1 c'.
Proof. intros [EL EU] (A & B & C & D). unfold ok4, kcinv in *. rewrite EL, EU. auto. Qed.

Lemma ksub_inv root f s c n sid u ns : ksinv s -> kbase s -> kcinv s c -> party u ->
  ok4 s (kh_st (ksub LP2P root f s c n sid u ns)) (kh_ca (ksub LP2P root f s c n sid u ns)).
Proof.
  intros SI KB CI PU.
  destruct (ksub_cases LP2P root f s c n sid u ns) as (c1 & E & [(-> & ->) | [(w & g & DL & -> & ->) | (p & w & AL & D & ES & ->)]]);
    apply (ok4_users _ _ _ _ E).
  - now apply ok4_refl.
  - apply ok4_create; auto. destruct (alookup u (k_users c)) as [p|] eqn:AL; [|discriminate].
    destruct CI as [_ [_ EN]]. specialize (EN u p AL). unfold entry_ok in EN. now rewrite DL in EN.
  - eapply ok4_modes; eauto.
Qed.

Lemma kleave_unsub_inv f s c n sid u s1 oc n1 o1 : ksinv s -> kbase s -> kcinv s c -> party u ->
  kleave_unsub LP2P f s c n sid u = (s1, oc, n1, o1) ->
  ksinv s1 /\ kbase s1 /\ ksmono s s1 /\ match oc with Some c1 => kcinv s1 c1 | None => True end.
Proof.
  intros SI KB CI PU H. unfold kleave_unsub in H. pose proof CI as [EX [LS EN]].
  destruct (call f n) as [ok1 m1]. destruct (negb ok1); [inv H; auto using ksmono_refl|].
  destruct (ad_subs_delete s u) as [s2|] eqn:D; [|inv H; auto using ksmono_refl].
  pose proof (sframe_subs_delete _ _ _ D) as SF. pose proof SF as [EX2 [SQ2 _]].
  assert (ksinv s2) as SI2 by (eapply ksinv_subs_delete; eauto).
  assert (kbase s2) as KB2 by (eapply kbase_sframe; eauto).
  assert (ksmono s s2) as SM2.
  { intros u0 rd rc dl rd' rc' dl' H1. rewrite (smk_subs_delete _ _ _ _ D). destruct (N.eqb u0 u); [discriminate|]. intros H2. rewrite H1 in H2. inv H2. lia. }
  assert (kcinv s2 (k_evict (k_set_users (aset u (mkKP (kp_want (kget c u)) (kp_given (kget c u)) true (kp_read (kget c u)) (kp_recv (kget c u)) (kp_delid (kget c u)))) c) u)) as CI2.
  { unfold k_evict. apply kcinv_sess. unfold k_set_users. apply kcinv_set with (s := s); auto; try (rewrite ?EX2, ?SQ2; assumption); try lia.
    - intros u0 E. rewrite (smk_subs_delete _ _ _ _ D), E. reflexivity.
    - unfold entry_ok. cbn [kp_deleted]. rewrite (smk_subs_delete _ _ _ _ D), N.eqb_refl. reflexivity. }
  break_match_hyp.
  - destruct (call f m1) as [ok2 m2]. destruct (negb ok2); inv H; [auto|].
    split; [apply ksinv_wipe|]. split; [destruct KB2 as [_ Z0]; split; [cbn; lia|exact Z0]|]. split; [|exact I].
    intros u0 rd rc dl rd' rc' dl' _ H2. discriminate H2.
  - inv H. auto.
Qed.

Lemma seqid_msg_save s seq from content s2 : ad_msg_save s seq from content = Some s2 -> t_seqid s2 = t_seqid s /\ t_exists s2 = t_exists s /\ users s2 = users s.
Proof. unfold ad_msg_save. break_match; intros H; inv H. auto. Qed.

Lemma kpublish_inv f s c n sid u content noecho : ksinv s -> kbase s -> kcinv s c -> party u ->
  ok4 s (kh_st (kpublish LP2P f s c n sid u content noecho)) (kh_ca (kpublish LP2P f s c n sid u content noecho)).
Proof.
  intros SI KB CI PU. pose proof CI as [EX [LS EN]]. unfold kpublish. rewrite EX. cbn [negb].
  set (seq := k_lastid c + 1).
  assert (ksinv (st_seqid seq s)) as SI1 by (apply ksinv_seqid; [exact SI|unfold seq; lia]).
  assert (kbase (st_seqid seq s)) as KB1 by (destruct KB as [A B]; split; [cbn; unfold seq; lia|exact B]).
  assert (kcinv (st_seqid seq s) c) as CI1.
  { destruct c as [L d us ss]. apply kcinv_keep with (s := s) (c := mkKC L d us ss); auto; cbn [k_lastid t_seqid st_seqid] in *; try lia; reflexivity. }
  assert (ksmono s (st_seqid seq s)) as SM1 by (apply ksmono_same; reflexivity).
  destruct (negb (is_writer (kp_mode (kget c u)))); [cbn [kh_st kh_ca]; now apply ok4_refl|].
  destruct (call f n) as [ok1 n1]. destruct (negb ok1); [cbn [kh_st kh_ca]; now apply ok4_refl|].
  destruct (call f n1) as [ok2 n2].
  destruct (negb ok2); [cbn [kh_st kh_ca]; split; [exact SI1|]; split; [exact KB1|]; split; [exact CI1|exact SM1]|].
  destruct (ad_msg_save (st_seqid seq s) seq u content) as [s2|] eqn:MS;
    [|cbn [kh_st kh_ca]; split; [exact SI1|]; split; [exact KB1|]; split; [exact CI1|exact SM1]].
  pose proof (seqid_msg_save _ _ _ _ _ MS) as [SQ2 [EX2 US2]]. cbn [t_seqid t_exists users st_seqid] in SQ2, EX2, US2.
  assert (ksinv s2) as SI2 by (eapply ksinv_msg_save; eauto).
  assert (forall u0, smk s2 u0 = smk s u0) as SM2 by (intros u0; rewrite (smk_msg_save _ _ _ _ _ u0 MS); reflexivity).
  set (p := kget c u).
  destruct (if is_reader (kp_mode p) then call f n2 else (true, n2)) as [ok3 n3].
  set (b := is_reader (kp_mode p) && ok3).
  set (s3 := if b then ad_subs_update s2 u (mkUpd None None (Some seq) (Some seq) None) else s2).
  cbn [kh_st kh_ca].
  assert (t_seqid s3 = seq /\ t_exists s3 = true /\ users s3 = users s) as [SQ3 [EX3 US3]].
  { unfold s3. destruct b; [rewrite seqid_subs_update, exists_subs_update; destruct (sframe_subs_update s2 u (mkUpd None None (Some seq) (Some seq) None)) as [_ [_ [_ [_ [_ [_ E]]]]]]; rewrite E|]; rewrite ?SQ2, ?EX2, ?US2; auto. }
  assert (forall u0, smk s3 u0 = if b && N.eqb u0 u then option_map (set3 (Some seq) (Some seq)) (smk s u0) else smk s u0) as SM3.
  { intros u0. unfold s3. destruct b; cbn [andb]; [|apply SM2]. rewrite smk_update_marks by (now apply party_nz). rewrite !SM2. reflexivity. }
  assert (ksinv s3) as SI3.
  { unfold s3. destruct b; [|exact SI2]. apply ksinv_update_marks; [exact SI2|now apply party_nz| |]; intros v E; inv E; rewrite SQ2; lia. }
  assert (kbase s3) as KB3 by (destruct KB as [A B]; split; [rewrite SQ3; unfold seq; lia|rewrite US3; exact B]).
  assert (ksmono s s3) as SM.
  { intros u0 rd rc dl rd' rc' dl' H1. rewrite SM3, H1. destruct SI as [_ [_ [_ SB]]]. destruct (SB _ _ _ _ H1) as [B1 B2].
    destruct (b && N.eqb u0 u); cbn [option_map set3]; intros H2; inv H2; unfold seq; lia. }
  split; [exact SI3|]. split; [exact KB3|]. split; [|exact SM].
  destruct (alookup u (k_users c)) as [q|] eqn:AL.
  - assert (p = q) as -> by (unfold p, kget; rewrite AL; reflexivity).
    unfold k_set_users, k_set_lastid. cbn [k_lastid k_delid k_users k_sess].
    apply kcinv_set with (s := s) (c := c); auto; try (rewrite SQ3; unfold seq; lia); try (unfold seq; lia).
    + intros u0 E. rewrite SM3, E, andb_false_r. reflexivity.
    + pose proof (EN u q AL) as E. unfold entry_ok in *. cbn [kp_set_marks kp_deleted kp_read kp_recv]. rewrite SM3, N.eqb_refl, andb_true_r.
      destruct (kp_deleted q); [rewrite E; destruct b; reflexivity|].
      destruct E as [A [B [srd [src [sdl [E [C D]]]]]]]. split; [lia|]. split; [lia|]. rewrite E.
      destruct b; cbn [option_map set3]; [exists seq, seq, sdl|exists srd, src, sdl]; (split; [reflexivity|unfold seq; lia]).
  - unfold k_set_lastid. apply kcinv_keep with (s := s); auto; try (rewrite SQ3; unfold seq; lia); try (unfold seq; lia).
    intros u0 p0 AL0. rewrite SM3. destruct (N.eqb u0 u) eqn:E; [|rewrite andb_false_r; reflexivity].
    apply N.eqb_eq in E. subst u0. rewrite AL in AL0. discriminate.
Qed.

Lemma knote_inv f s c n sid u what seq : ksinv s -> kbase s -> kcinv s c -> party u ->
  ok4 s (kh_st (knote f s c n sid u what seq)) (kh_ca (knote f s c n sid u what seq)).
Proof.
  intros SI KB CI PU. pose proof CI as [EX [LS EN]]. unfold knote.
  destruct (k_lastid c <? seq) eqn:LT; [cbn [kh_st kh_ca]; now apply ok4_refl|]. apply Z.ltb_ge in LT.
  destruct (N.eqb what K_kp); [destruct (negb (is_writer _)); cbn [kh_st kh_ca]; now apply ok4_refl|].
  destruct (N.eqb what K_read || N.eqb what K_recv); [|cbn [kh_st kh_ca]; now apply ok4_refl].
  destruct (alookup u (k_users c)) as [p|] eqn:AL.
  2:{ unfold kget. rewrite AL. cbn. now apply ok4_refl. }
  assert (kget c u = p) as -> by (unfold kget; rewrite AL; reflexivity).
  destruct (kp_deleted p) eqn:D; [cbn; now apply ok4_refl|].
  destruct (negb (is_reader (kp_mode p))); [cbn [kh_st kh_ca]; now apply ok4_refl|].
  pose proof (EN u p AL) as E. unfold entry_ok in E. rewrite D in E. destruct E as [A [B [srd [src [sdl [E [C D']]]]]]].
  set (is_read := N.eqb what K_read).
  destruct (is_read && (seq <=? kp_read p)) eqn:G1; [cbn [kh_st kh_ca]; now apply ok4_refl|].
  destruct (negb is_read && (seq <=? kp_recv p)) eqn:G2; [cbn [kh_st kh_ca]; now apply ok4_refl|].
  set (rd := if is_read then seq else kp_read p).
  set (rc := if is_read then (if kp_recv p <? seq then seq else kp_recv p) else (if seq <? kp_read p then kp_read p else seq)).
  destruct (call f n) as [ok1 n1]. destruct (negb ok1); [cbn [kh_st kh_ca]; now apply ok4_refl|]. cbn [kh_st kh_ca].
  assert (kp_read p <= rd /\ kp_recv p <= rc /\ rd <= k_lastid c /\ rc <= k_lastid c /\ (is_read = true -> kp_read p < seq) /\ (is_read = false -> kp_recv p < seq /\ seq <= rc)) as [R1 [R2 [R3 [R4 [R5 R6]]]]].
  { unfold rd, rc. destruct is_read; cbn [andb negb] in G1, G2.
    - apply Z.leb_gt in G1. destruct (kp_recv p <? seq) eqn:X; [apply Z.ltb_lt in X|apply Z.ltb_ge in X]; repeat split; try lia; discriminate.
    - apply Z.leb_gt in G2. destruct (seq <? kp_read p) eqn:X; [apply Z.ltb_lt in X|apply Z.ltb_ge in X]; repeat split; try lia; discriminate. }
  set (upd := if is_read then mkUpd None None (Some rd) None None else mkUpd None None None (Some rc) None).
  set (s1 := ad_subs_update s u upd).
  assert (exists ord orc, upd = mkUpd None None ord orc None /\ (forall v, ord = Some v -> v = rd /\ is_read = true) /\ (forall v, orc = Some v -> v = rc /\ is_read = false)) as [ord [orc [EU [O1 O2]]]].
  { unfold upd. destruct is_read; [exists (Some rd), None|exists None, (Some rc)]; (split; [reflexivity|]); split; intros v X; inv X; auto. }
  assert (forall u0, smk s1 u0 = if N.eqb u0 u then option_map (set3 ord orc) (smk s u0) else smk s u0) as SM1
    by (intros u0; unfold s1; rewrite EU; apply smk_update_marks; now apply party_nz).
  assert (ksinv s1) as SI1.
  { unfold s1. rewrite EU. apply ksinv_update_marks; [exact SI|now apply party_nz| |]; intros v X; [destruct (O1 v X) as [-> _]|destruct (O2 v X) as [-> _]]; lia. }
  assert (kbase s1) as KB1 by (now apply kbase_subs_update).
  split; [exact SI1|]. split; [exact KB1|]. split.
  - unfold k_set_users. apply kcinv_set with (s := s); auto; unfold s1; rewrite ?exists_subs_update, ?seqid_subs_update; auto; try lia.
    + intros u0 X. fold s1. rewrite SM1, X. reflexivity.
    + fold s1. unfold entry_ok. cbn [kp_set_marks kp_deleted kp_read kp_recv]. rewrite D. split; [exact R3|]. split; [exact R4|].
      rewrite SM1, N.eqb_refl, E. cbn [option_map set3].
      eexists _, _, _. split; [reflexivity|].
      split; [destruct ord as [v|]; [destruct (O1 v eq_refl) as [-> _]|]; lia|destruct orc as [v|]; [destruct (O2 v eq_refl) as [-> _]|]; lia].
  - intros u0 a b d a' b' d' H1. rewrite SM1. destruct (N.eqb u0 u) eqn:X; [|intros H2; rewrite H1 in H2; inv H2; lia].
    apply N.eqb_eq in X. subst u0. rewrite E in H1 |- *. inv H1. cbn [option_map set3]. intros H2. inv H2.
    split; [destruct ord as [v|]; [destruct (O1 v eq_refl) as [-> IR]; specialize (R5 IR)|]; lia
           |destruct orc as [v|]; [destruct (O2 v eq_refl) as [-> IR]; destruct (R6 IR)|]; lia].
Qed.

(* ---------- one request ---------- *)
Definition skeep (s s1 : store) : Prop := forall u m, smk s u = Some m -> smk s1 u = Some m.
Lemma load_store_keep s u1 u2 s' : (t_exists s = false -> subs s = []) -> load_store s u1 u2 s' -> skeep s s'.
Proof.
  intros NE LS. destruct LS as [|u w g HU SN EX A2|w1 g1 w2 g2 EX A2]; intros u0 m H1.
  - exact H1.
  - rewrite smk_sub_create. destruct (N.eqb u0 u) eqn:E; [|exact H1]. apply N.eqb_eq in E. subst u0. rewrite SN in H1. discriminate.
  - unfold smk in H1. rewrite (NE EX) in H1. discriminate.
Qed.
Lemma kload_keep f s n u1 u2 s' c n' ns : ksinv s -> kbase s -> party u1 -> (u2 = kpeer ua ub u1 \/ u2 = 0%N) ->
  kinit_p2p f s n u1 u2 = KOk s' c n' ns -> skeep s s'.
Proof.
  intros SI KB P1 P2 H.
  destruct (kinit_p2p_store _ _ _ _ _ _ _ _ _ (proj1 SI) (other_parties _ _ _ SI KB P1 P2) H) as [LS _].
  eapply load_store_keep; [apply SI|exact LS].
Qed.
Lemma ksmono_keep s s1 s2 : skeep s s1 -> ksmono s1 s2 -> ksmono s s2.
Proof. intros K M u rd rc dl rd' rc' dl' H1 H2. eapply M; [apply K; exact H1|exact H2]. Qed.

Lemma kget_desc_st s c n sid u : kh_st (kget_desc s c n sid u) = s /\ kh_ca (kget_desc s c n sid u) = c.
Proof. unfold kget_desc. repeat break_match; auto. Qed.
Lemma kget_sub_st f s c n sid u : kh_st (kget_sub LP2P f s c n sid u) = s /\ kh_ca (kget_sub LP2P f s c n sid u) = c.
Proof. unfold kget_sub. repeat break_match; auto. Qed.

Lemma kstep_inv f x o : kinv x -> kop_ok o ->
  kinv (fst (kstep LP2P sm roots ua ub f x o)) /\ ksmono (y_st x) (y_st (fst (kstep LP2P sm roots ua ub f x o))).
Proof.
  destruct x as [s oc n]. intros [SI [KB CI]] OK. cbn [y_st y_ca] in *.
  assert (kinv (mkKS s oc 0) /\ ksmono s s) as KEEP by (split; [split; [exact SI|split; [exact KB|exact CI]]|apply ksmono_refl]).
  assert (kinv (mkKS s None 0) /\ ksmono s s) as GONE by (split; [exact (kinv_init s SI KB)|apply ksmono_refl]).
  assert (forall s1 c1 n1, ok4 s s1 c1 -> kinv (mkKS s1 (Some c1) n1) /\ ksmono s s1) as FIN
    by (intros s1 c1 n1 [A [B [C D]]]; split; [split; [exact A|split; [exact B|exact C]]|exact D]).
  destruct o as [sid byname|sid unsub|sid content noecho|sid what seq|sid|sid| |]; cbn [kop_ok] in OK; unfold kstep; cbn [y_st y_ca].
  - (* sub *)
    destruct oc as [c|].
    + destruct (kattached c sid); cbn [fst y_st]; [exact KEEP|]. apply FIN. now apply ksub_inv.
    + unfold kload. destruct (kinit_p2p f s 0 (sess_uid sm sid) (if byname then 0%N else kpeer ua ub (sess_uid sm sid))) as [code n1|s1 c n1 ns] eqn:LD; cbn [fst y_st].
      * exact GONE.
      * assert ((if byname then 0%N else kpeer ua ub (sess_uid sm sid)) = kpeer ua ub (sess_uid sm sid) \/ (if byname then 0%N else kpeer ua ub (sess_uid sm sid)) = 0%N) as P2
          by (destruct byname; auto).
        destruct (kload_inv _ _ _ _ _ _ _ _ _ SI KB OK P2 LD) as [SI1 [KB1 [CI1 [SM1 _]]]].
        pose proof (kload_keep _ _ _ _ _ _ _ _ _ SI KB OK P2 LD) as SK.
        pose proof (ksub_inv (k_is_root roots (sess_uid sm sid)) f s1 c n1 sid (sess_uid sm sid)
                      (ns || match alookup (sess_uid sm sid) (k_users c) with Some p => kp_deleted p | None => true end) SI1 KB1 CI1 OK) as [A [B [C D]]].
        split; [split; [exact A|split; [exact B|exact C]]|]. eapply ksmono_keep; eauto.
  - (* leave *)
    destruct oc as [c|]; [|exact KEEP]. destruct (kattached c sid); [|exact KEEP]. destruct unsub.
    + destruct (kleave_unsub LP2P f s c 0 sid (sess_uid sm sid)) as [[[s1 oc1] n1] o1] eqn:LV.
      destruct (kleave_unsub_inv _ _ _ _ _ _ _ _ _ _ SI KB CI OK LV) as [A [B [C D]]]. cbn [fst y_st].
      split; [split; [exact A|split; [exact B|exact D]]|exact C].
    + cbn [fst y_st kh_st kh_ca]. apply FIN. apply ok4_sess. now apply ok4_refl.
  - (* pub *)
    destruct oc as [c|]; [|exact KEEP]. destruct (kattached c sid || false); [|exact KEEP]. cbn [fst y_st]. apply FIN. now apply kpublish_inv.
  - (* note *)
    destruct (negb _); [exact KEEP|]. destruct oc as [c|]; [|destruct (N.eqb what K_recv); exact KEEP].
    destruct (kattached c sid); [cbn [fst y_st]; apply FIN; now apply knote_inv|].
    destruct (N.eqb what K_recv); [cbn [fst y_st]; apply FIN; now apply knote_inv|exact KEEP].
  - (* get desc *)
    destruct (koffline_desc LP2P f s sid (kpeer ua ub (sess_uid sm sid))) as [n1 o1].
    assert (kinv (mkKS s oc n1) /\ ksmono s s) as OFF by (split; [split; [exact SI|split; [exact KB|exact CI]]|apply ksmono_refl]).
    destruct oc as [c|]; [|exact OFF]. destruct (kattached c sid); [|exact OFF]. cbn [fst y_st].
    destruct (kget_desc_st s c 0 sid (sess_uid sm sid)) as [-> ->]. apply FIN. now apply ok4_refl.
  - (* get sub *)
    destruct (koffline_sub f sid) as [n1 o1].
    assert (kinv (mkKS s oc n1) /\ ksmono s s) as OFF by (split; [split; [exact SI|split; [exact KB|exact CI]]|apply ksmono_refl]).
    destruct oc as [c|]; [|exact OFF]. destruct (kattached c sid); [|exact OFF]. cbn [fst y_st].
    destruct (kget_sub_st f s c 0 sid (sess_uid sm sid)) as [-> ->]. apply FIN. now apply ok4_refl.
  - (* unload *)
    destruct oc as [c|]; [|exact KEEP]. destruct (k_sess c); [exact GONE|exact KEEP].
  - (* restart *)
    exact GONE.
Qed.

Lemma kstep_f_inv x fo : kinv x -> kop_ok (snd fo) ->
  kinv (fst (kstep_f LP2P sm roots ua ub x fo)) /\ ksmono (y_st x) (y_st (fst (kstep_f LP2P sm roots ua ub x fo))).
Proof.
  intros KI OK. unfold kstep_f. pose proof (kstep_inv (fst fo) x (snd fo) KI OK) as [A B].
  destruct (kstep LP2P sm roots ua ub (fst fo) x (snd fo)) as [x1 o1]. cbn [fst] in *.
  destruct (fst fo); cbn [fst y_st]; try (split; assumption).
  destruct A as [A1 [A2 _]]. split; [split; [exact A1|split; [exact A2|exact I]]|exact B].
Qed.

Lemma krun_inv h : forall x, kinv x -> Forall (fun fo => kop_ok (snd fo)) h -> kinv (fst (krun LP2P sm roots ua ub x h)).
Proof.
  induction h as [|fo h IH]; intros x KI OK; cbn [krun]; [exact KI|]. inversion OK as [|? ? O1 O2]; subst.
  pose proof (kstep_f_inv x fo KI O1) as [A _]. destruct (kstep_f LP2P sm roots ua ub x fo) as [x1 o1]. cbn [fst] in A.
  specialize (IH x1 A O2). destruct (krun LP2P sm roots ua ub x1 h) as [x2 os]. exact IH.
Qed.

End Hist.
