(* C08: an acknowledged (2xx) publish or delete shows that no store call it depends on failed;
   the fault hypothesis that remains for acknowledged requests (c08_ack_implies_stored_partial). *)
From Coq Require Import ZArith NArith List Bool Lia.
From Tinode Require Import Base.Util Pure.Acs Sys.Topic Sys.TopicTac Sys.TopicFrame Sys.TopicNum Sys.TopicNumThm
  Sys.TopicCohC08 Sys.TopicCohC08Proofs Sys.TopicCohC08Step Sys.TopicCohC08Run.
Import ListNotations.
Open Scope Z_scope.

Lemma not_ok_single sid code : ~ (200 <= code < 300) -> ~ ok_reply [(sid, Ctrl code [])] sid.
Proof.
  intros NC [[c [ps [[H|[]] R]]]|[u [w [g [H|[]]]]]]; [inv H; lia|discriminate].
Qed.

Lemma publish_ok_calls f s c n sid u content noecho :
  ok_reply (h_out (publish f s c n sid u content noecho)) sid ->
  fails f (S n) = false /\ fails f (S (S n)) = false.
Proof.
  unfold publish, call.
  destruct (negb (is_writer (pud_mode (get_pud c u)))); cbn [h_out]; [intros H; exfalso; eapply not_ok_single; [|exact H]; lia|].
  destruct (fails f (S n)); cbn [negb h_out]; [intros H; exfalso; eapply not_ok_single; [|exact H]; lia|].
  destruct (fails f (S (S n))); cbn [negb h_out]; [intros H; exfalso; eapply not_ok_single; [|exact H]; lia|].
  intros _. split; reflexivity.
Qed.

Lemma del_msg_ok_calls dr f s c n sid u req hard :
  ok_reply (h_out (del_msg dr f s c n sid u req hard)) sid ->
  fails f (S n) = false /\ fails f (S (S n)) = false /\ fails f (S (S (S n))) = false.
Proof.
  unfold del_msg, call. cbv zeta.
  destruct (negb (hard && is_deleter (user_mode c u)) && negb (is_reader (user_mode c u))); cbn [h_out];
    [intros H; exfalso; eapply not_ok_single; [|exact H]; lia|].
  destruct (dr (c_lastid c) req); cbn [h_out]; [|intros H; exfalso; eapply not_ok_single; [|exact H]; lia].
  destruct (fails f (S n)); cbn [negb h_out]; [intros H; exfalso; eapply not_ok_single; [|exact H]; lia|].
  destruct (fails f (S (S n))); cbn [negb h_out]; [intros H; exfalso; eapply not_ok_single; [|exact H]; lia|].
  destruct (fails f (S (S (S n)))); cbn [negb h_out]; [intros H; exfalso; eapply not_ok_single; [|exact H]; lia|].
  intros _. repeat split; reflexivity.
Qed.

Section Ack.
Variable sm : sessmap.

(* what is left of the fault hypothesis once the request is known to be acknowledged *)
Definition ack_fault_ok (f : fault) (x : state) (o : op) : Prop :=
  match o with
  | OPub _ _ _ => fails f 3 = false      (* the store error that messagesMapper.Save ignores: finding #6 *)
  | OSub sid _ _ | OSetSub sid _ _ =>
    f = NoFault \/ match alookup (sess_uid sm sid) (c_users (cur_cache x)) with Some p => ~ pending p | None => True end
  | _ => True
  end.

End Ack.
