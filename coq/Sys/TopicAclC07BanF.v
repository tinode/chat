(* C07 proofs: the attachment table under bans.  Sessions are attached as
   (session id -> (user, background flag)); evictUser detaches EVERY session of the user, whatever
   its kind (foreground, background), and tells each one (except the skipped requester) that it
   was evicted.  Every handler that can take J away from a user (anotherUserSub: ban by an
   approver; thisUserSub: self-ban; replyDelSub; replyLeaveUnsub) either leaves a session
   attached or detaches all sessions of that user and notifies them. *)
From Coq Require Import ZArith NArith List Bool Lia.
From Tinode Require Import Base.Util Pure.Acs Sys.Topic Sys.TopicTac Sys.TopicFrame Sys.TopicMarks Sys.TopicAclC07
  Sys.TopicAclC07Proofs Sys.TopicAclC07Inv Sys.TopicAclC07Join.
Import ListNotations.
Open Scope Z_scope.

(* ---------- evictUser ---------- *)
Lemma evict_all_c07f c u unsub skip c' o : evict_user c u unsub skip = (c', o) ->
  no_sess c' u /\
  (forall sid b, In (sid, (u, b)) (c_sess c) -> sid <> skip -> In (sid, Evicted unsub) o) /\
  (forall sid v b, v <> u -> In (sid, (v, b)) (c_sess c) -> In (sid, (v, b)) (c_sess c')).
Proof.
  intros EV. pose proof (evict_sess _ _ _ _ _ _ EV) as ES. split; [|split].
  - intros sid b HI. rewrite ES in HI. apply filter_In in HI. destruct HI as [_ HI]. cbn in HI.
    rewrite N.eqb_refl in HI. discriminate.
  - intros sid b HI NE. unfold evict_user in EV. inv EV. apply in_flat_map. exists (sid, (u, b)). split.
    + apply filter_In. split; [exact HI|]. cbn. apply N.eqb_refl.
    + cbn. apply N.eqb_neq in NE. rewrite NE. left. reflexivity.
  - intros sid v b NE HI. rewrite ES. apply filter_In. split; [exact HI|]. cbn.
    apply N.eqb_neq in NE. rewrite NE. reflexivity.
Qed.

(* every session attached before the request is still attached, or belongs to [who], NO session
   of [who] is attached any more and the session was told {ctrl 205 evicted unsub} (unless it is
   the skipped one) *)
Definition detach_told_c07f (c : cache) (c' : cache) (o : out) (who : N) (unsub : bool) (skip : N) : Prop :=
  forall sid v b, In (sid, (v, b)) (c_sess c) ->
    In (sid, (v, b)) (c_sess c') \/
    (v = who /\ no_sess c' who /\ (sid <> skip -> In (sid, Evicted unsub) o)).

Lemma dt_evict_c07f c0 c who unsub skip c4 o4 :
  evict_user c0 who unsub skip = (c4, o4) -> c_sess c0 = c_sess c -> detach_told_c07f c c4 o4 who unsub skip.
Proof.
  intros EV ES sid v b HI. rewrite <- ES in HI. destruct (evict_all_c07f _ _ _ _ _ _ EV) as [NS [TOLD OTH]].
  destruct (N.eq_dec v who) as [->|NE].
  - right. split; [reflexivity|]. split; [exact NS|]. intros K. eapply TOLD; eauto.
  - left. apply OTH; assumption.
Qed.

Ltac dtk_c07f := let HI := fresh "HI" in intros ? ? ? HI; left; exact HI.

(* anotherUserSub: ban by an approver *)
Lemma aus_detach_told_c07f f s c n u t mode :
  detach_told_c07f c (h_ca (fst (aus f s c n u t mode))) (h_out (fst (aus f s c n u t mode))) t false 0%N.
Proof.
  assert (forall c0 c' o, settled c0 t c' o -> c_sess c0 = c_sess c -> detach_told_c07f c c' o t false 0%N) as ST.
  { intros c0 c' o [[-> _]|EV] ES; [intros ? ? ? HI; left; rewrite ES; exact HI|].
    intros ? ? ? HI. exact (dt_evict_c07f _ _ _ _ _ _ _ EV ES _ _ _ HI). }
  pose proof (aus_shape f s c n 0%N u t mode) as SP. rewrite aus_eq in SP.
  destruct (aus f s c n u t mode) as [h r]. cbn [fst snd] in *.
  destruct SP as [n' code _|w g c' n' o _ S|c' n' o S|pt g c' n' o _ S]; cbn [h_ca h_out];
    [dtk_c07f|..]; apply (ST _ _ _ S); reflexivity.
Qed.

(* replyDelSub *)
Lemma del_sub_detach_told_c07f f s c n sid u t :
  detach_told_c07f c (h_ca (del_sub f s c n sid u t)) (h_out (del_sub f s c n sid u t)) t true 0%N.
Proof.
  unfold detach_told_c07f, del_sub.
  destruct (negb (is_admin _)); [dtk_c07f|]. destruct (_ || _); [dtk_c07f|].
  destruct (alookup t (c_users c)) as [pt|]; [|dtk_c07f].
  destruct (is_owner _); [dtk_c07f|]. destruct (negb (is_joiner _)); [dtk_c07f|].
  destruct (call f n) as [ok1 n1]. destruct (negb ok1); [dtk_c07f|].
  destruct (match ad_subs_delete s t with Some s' => (s', Ctrl 200 []) | None => (s, Ctrl 304 []) end) as [s1 reply].
  destruct (evict_user c t true 0) as [c1 o1] eqn:EV.
  intros sid0 v b HI. destruct (dt_evict_c07f _ c _ _ _ _ _ EV eq_refl _ _ _ HI) as [L|[E [NS T]]]; [left; exact L|].
  right. split; [exact E|]. split; [exact NS|]. intros K. right. exact (T K).
Qed.

(* replyLeaveUnsub: the requester's own session is the skipped one *)
Lemma leave_unsub_detach_told_c07f f s c n sid u :
  detach_told_c07f c (h_ca (leave_unsub f s c n sid u)) (h_out (leave_unsub f s c n sid u)) u true sid.
Proof.
  unfold detach_told_c07f, leave_unsub.
  destruct (N.eqb (c_owner c) u); [dtk_c07f|].
  destruct (call f n) as [ok1 n1]. destruct (negb ok1); [dtk_c07f|].
  destruct (ad_subs_delete s u) as [s1|]; [|dtk_c07f].
  destruct (evict_user c u true sid) as [c1 o1] eqn:EV.
  intros sid0 v b HI. destruct (dt_evict_c07f _ c _ _ _ _ _ EV eq_refl _ _ _ HI) as [L|[E [NS T]]]; [left; exact L|].
  right. split; [exact E|]. split; [exact NS|]. intros K. right. exact (T K).
Qed.

(* thisUserSub: self-ban.  (1) sessions are detached only by the eviction, with notice;
   (2) an ACCEPTED request that leaves the user's want without J leaves no session of the user. *)
Lemma tus_finish_detach_c07f u w1 g1 ow og nb s3 c3 n3 c :
  c_sess c3 = c_sess c ->
  let r := tus_finish u w1 g1 ow og nb s3 c3 n3 in
  detach_told_c07f c (h_ca (fst r)) (h_out (fst r)) u false 0%N /\
  (forall ch, snd r = SubOk ch -> is_joiner w1 = false -> no_sess (h_ca (fst r)) u).
Proof.
  intros ES. unfold tus_finish. destruct (negb (is_joiner w1)) eqn:EW.
  - destruct (evict_user _ u false 0) as [c5 o5] eqn:EV. cbn [fst snd h_ca h_out]. split.
    + intros ? ? ? HI. exact (dt_evict_c07f _ c _ _ _ _ _ EV ES _ _ _ HI).
    + intros _ _ _. apply (evict_all_c07f _ _ _ _ _ _ EV).
  - apply negb_false_iff in EW. destruct (negb (is_joiner g1)); cbn [fst snd h_ca h_out]; split.
    + intros ? ? ? HI. left. cbn [c_sess c_set_users]. rewrite ES. exact HI.
    + intros ch H. discriminate.
    + intros ? ? ? HI. left. cbn [c_sess c_set_users]. rewrite ES. exact HI.
    + intros ch _ H. congruence.
Qed.

Lemma tus_detach_told_c07f f s c n u want nb :
  let r := tus f s c n u want nb in
  detach_told_c07f c (h_ca (fst r)) (h_out (fst r)) u false 0%N /\
  (forall ch w, snd r = SubOk ch -> cwant (h_ca (fst r)) u = Some w -> is_joiner w = false -> no_sess (h_ca (fst r)) u).
Proof.
  cbv zeta.
  assert (forall s' n' o' code, detach_told_c07f c (h_ca (fst (mkH s' c n' o', SubErr code))) (h_out (fst (mkH s' c n' o', SubErr code))) u false 0%N /\
          (forall ch w, snd (mkH s' c n' o', SubErr code) = SubOk ch ->
             cwant (h_ca (fst (mkH s' c n' o', SubErr code))) u = Some w -> is_joiner w = false -> no_sess (h_ca (fst (mkH s' c n' o', SubErr code))) u)) as ERR.
  { intros. split; [dtk_c07f|]. intros ch w H. discriminate. }
  unfold tus. destruct (tus_mw want) as [mw okw]. destruct (negb okw); [apply ERR|].
  destruct (alookup u (c_users c)) as [p0|] eqn:Eu.
  - unfold tus_exist. destruct (tus_chk _ _ _ _ _) as [[[mw1 g1] oc]|]; [|apply ERR].
    destruct (if negb _ then call f n else (true, n)) as [ok1 n1]. destruct (negb ok1); [apply ERR|].
    set (w1 := tus_w1 c u mw1 g1 (p_want p0)).
    assert (forall s3 c3 n3, c_sess c3 = c_sess c ->
      let r := tus_finish u w1 g1 (p_want p0) (p_given p0) nb s3 c3 n3 in
      detach_told_c07f c (h_ca (fst r)) (h_out (fst r)) u false 0%N /\
      (forall ch w, snd r = SubOk ch -> cwant (h_ca (fst r)) u = Some w -> is_joiner w = false -> no_sess (h_ca (fst r)) u)) as FIN.
    { intros s3 c3 n3 ES. cbv zeta. destruct (tus_finish_detach_c07f u w1 g1 (p_want p0) (p_given p0) nb s3 c3 n3 c ES) as [D B].
      split; [exact D|]. intros ch w HS HW HJ. apply (B ch HS).
      destruct (tus_finish_res u w1 g1 (p_want p0) (p_given p0) nb s3 c3 n3) as [_ [_ [W _]]].
      rewrite W, N.eqb_refl in HW. inv HW. exact HJ. }
    destruct oc; [|apply FIN; reflexivity].
    destruct (call f n1) as [ok2 n2]. destruct (negb ok2); [apply ERR|].
    destruct (call f n2) as [ok3 n3]. destruct (negb ok3); [apply ERR|].
    apply FIN. reflexivity.
  - unfold tus_new. destruct (max_subs <=? _); [apply ERR|].
    destruct (call f n) as [ok1 n1]. destruct (negb ok1); [apply ERR|].
    destruct (negb (is_joiner _)); [apply ERR|].
    destruct (if (_ : bool) then call f n1 else (true, n1)) as [ok2 n2]. destruct (negb ok2); [apply ERR|].
    destruct (negb (is_joiner _)) eqn:EW.
    + destruct (evict_user _ u false 0) as [c3 o3] eqn:EV. cbn [fst snd h_ca h_out]. split.
      * intros ? ? ? HI. exact (dt_evict_c07f _ _ _ _ _ _ _ EV eq_refl _ _ _ HI).
      * intros _ _ _ _ _. apply (evict_all_c07f _ _ _ _ _ _ EV).
    + cbn [fst snd h_ca h_out]. split; [dtk_c07f|].
      intros ch w _ HW HJ. unfold cwant in HW. cbn [c_users c_set_users] in HW. rewrite alookup_aset, N.eqb_refl in HW.
      cbn in HW. inv HW. apply negb_false_iff in EW. congruence.
Qed.

(* ---------- the requests ---------- *)
Lemma set_sub_detach_told_c07f f s c n sid u t mode :
  let h := set_sub f s c n sid u t mode in
  detach_told_c07f c (h_ca h) (h_out h) (if (t =? 0)%N || N.eqb t u then u else t) false 0%N.
Proof.
  cbv zeta. unfold set_sub. rewrite tus_eq, aus_eq.
  (* the reply is appended to what the handler sent *)
  assert (forall h who tl, detach_told_c07f c (h_ca h) (h_out h) who false 0%N ->
            detach_told_c07f c (h_ca h) (h_out h ++ tl) who false 0%N) as APP.
  { intros h who tl D sid0 v b HI. destruct (D sid0 v b HI) as [L|[E [N0 T]]]; [left; exact L|right].
    split; [exact E|]. split; [exact N0|]. intros NZ. apply in_or_app. left. exact (T NZ). }
  destruct ((t =? 0)%N || N.eqb t u).
  - destruct (tus_detach_told_c07f f s c n u mode false) as [D _]. cbv zeta in D.
    destruct (tus f s c n u mode false) as [h r]. destruct r; exact (APP h _ _ D).
  - pose proof (aus_detach_told_c07f f s c n u t mode) as D.
    destruct (aus f s c n u t mode) as [h r]. destruct r; exact (APP h _ _ D).
Qed.

(* ---------- one request of any history; every reachable state ---------- *)
Section BanF.
Variable dr : Z -> list (Z * Z) -> option (list (Z * Z)).
Variable nr : list (Z * Z) -> list (Z * Z).
Variable sm : sessmap.

(* the user a request can take J (or the whole subscription) away from, whether the eviction
   is an unsubscription, and the session that is not notified (the requester of {leave unsub}) *)
Definition ban_target_c07f (c : cache) (o : op) : option (N * bool * N) :=
  match o with
  | OSetSub sid t _ => let u := sess_uid sm sid in Some (if (t =? 0)%N || N.eqb t u then u else t, false, 0%N)
  | ODelSub sid t => Some (t, true, 0%N)
  | OLeave sid true => Some (match alookup sid (c_sess c) with Some (a, _) => a | None => sess_uid sm sid end, true, sid)
  | _ => None
  end.

Lemma ban_step_told_c07f f x c o who unsub skip :
  ca x = Some c -> ban_target_c07f c o = Some (who, unsub, skip) ->
  exists c', ca (fst (step dr nr sm f x o)) = Some c' /\ detach_told_c07f c c' (snd (step dr nr sm f x o)) who unsub skip.
Proof.
  intros EC BT.
  assert (forall o', detach_told_c07f c c o' who unsub skip) as KEEP by (intros o'; dtk_c07f).
  destruct o; try discriminate BT; unfold step; rewrite EC.
  - (* leave unsub *)
    destruct unsub0; [|discriminate BT]. cbn in BT. injection BT as E1 E2 E3. subst who unsub skip.
    destruct (attached c sid); cbn [negb fst snd].
    + eexists. split; [reflexivity|]. apply leave_unsub_detach_told_c07f.
    + eexists. split; [reflexivity|]. apply KEEP.
  - (* set sub *)
    cbn in BT. injection BT as E1 E2 E3. subst who unsub skip. destruct (attached c sid); cbn [negb fst snd].
    + eexists. split; [reflexivity|]. apply set_sub_detach_told_c07f.
    + eexists. split; [reflexivity|]. apply KEEP.
  - (* del sub *)
    cbn in BT. injection BT as E1 E2 E3. subst who unsub skip. destruct (attached c sid); cbn [negb fst snd].
    + eexists. split; [reflexivity|]. apply del_sub_detach_told_c07f.
    + eexists. split; [reflexivity|]. apply KEEP.
Qed.

End BanF.

(* the history of the examples c07_ex_ban_background_only and c07_ex_losing_join (Props/PropC07.v):
   a user attached ONLY through background sessions is banned *)
Definition bf_dr_c07f : Z -> list (Z * Z) -> option (list (Z * Z)) := fun _ _ => None.
Definition bf_nr_c07f : list (Z * Z) -> list (Z * Z) := fun x => x.
Definition bf_sm_c07f : sessmap := [(1%N, 1%N); (2%N, 2%N); (3%N, 2%N)].
Definition bf_s_c07f : store :=
  ad_sub_create (ad_sub_create (mkStore true 0 0 0 47 0 [] [] [] [(1%N, 47%N); (2%N, 47%N)]) 1%N 255%N 255%N) 2%N 47%N 47%N.
Definition bf_x_c07f : state := mkState bf_s_c07f None 0.
(* the owner attaches (foreground); user 2 attaches two sessions, both background ({hi bkg=true}) *)
Definition bf_h_c07f : list (fault * op) :=
  [(NoFault, OSub 1 [] false); (NoFault, OSub 2 [] true); (NoFault, OSub 3 [] true)].
Definition bf_ban_c07f : op := OSetSub 1 2 [82%N; 87%N; 80%N].   (* {set sub user=2 mode="RWP"} by the owner *)

