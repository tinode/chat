(* A meta-theorem: a predicate on (store, cache) that every handler of the topic model
   preserves is an invariant of [step], [step_f] and [run].  It reduces each further
   invariant to per-handler lemmas. *)
From Coq Require Import ZArith NArith List Bool Lia.
From Tinode Require Import Base.Util Pure.Acs Sys.Topic Sys.TopicTac Sys.TopicFrame Sys.TopicNum.
Import ListNotations.
Open Scope Z_scope.

Section Meta.
Variable dr : Z -> list (Z * Z) -> option (list (Z * Z)).
Variable nr : list (Z * Z) -> list (Z * Z).
Variable sm : sessmap.
Variable Q : store -> Prop.              (* holds of the store while the topic is not loaded *)
Variable P : store -> cache -> Prop.     (* holds of store and cache while it is loaded *)

Definition minv (x : state) : Prop := match ca x with Some c => P (st x) c | None => Q (st x) end.

Hypothesis H_load : forall s, Q s -> P s (load s).
Hypothesis H_unload : forall s c, P s c -> Q s.
Hypothesis H_sub : forall f s c n sid u w b, P s c -> P (h_st (sub_reply f s c n sid u w b)) (h_ca (sub_reply f s c n sid u w b)).
Hypothesis H_leave_unsub : forall f s c n sid u, P s c -> P (h_st (leave_unsub f s c n sid u)) (h_ca (leave_unsub f s c n sid u)).
Hypothesis H_leave : forall s c sid u, P s c -> P s (fst (leave c sid u)).
Hypothesis H_pub : forall f s c n sid u ct ne, P s c -> P (h_st (publish f s c n sid u ct ne)) (h_ca (publish f s c n sid u ct ne)).
Hypothesis H_note : forall f s c n sid u w q, P s c -> P (h_st (note f s c n sid u w q)) (h_ca (note f s c n sid u w q)).
Hypothesis H_del_msg : forall f s c n sid u r h, P s c -> P (h_st (del_msg dr f s c n sid u r h)) (h_ca (del_msg dr f s c n sid u r h)).
Hypothesis H_set_sub : forall f s c n sid u t m, P s c -> P (h_st (set_sub f s c n sid u t m)) (h_ca (set_sub f s c n sid u t m)).
Hypothesis H_del_sub : forall f s c n sid u t, P s c -> P (h_st (del_sub f s c n sid u t)) (h_ca (del_sub f s c n sid u t)).
Hypothesis H_off_set_Q : forall f s sid u t m, Q s -> Q (o_st (offline_set_sub f s sid u t m)).
Hypothesis H_off_set_P : forall f s c sid u t m, P s c -> P (o_st (offline_set_sub f s sid u t m)) c.

Lemma step_minv f x o : minv x -> minv (fst (step dr nr sm f x o)).
Proof.
  intros I. destruct x as [s cx n0]. unfold minv in *.
  destruct (step_shape dr nr sm f (mkState s cx n0) o) as [c h LD HD|n' o' _| |sid _|sid _|sid t m _ _];
    cbn [fst st ca] in *; auto.
  - assert (P s c) as Pc by (destruct LD as [->|[-> [-> _]]]; auto).
    destruct HD; cbn [h_st h_ca]; auto.
    destruct (queried_same _ _ _ _ _ _ _ H) as [-> ->]. exact Pc.
  - destruct cx; eauto.
  - destruct cx; auto.
Qed.

Lemma step_f_minv x fo : minv x -> minv (fst (step_f dr nr sm x fo)).
Proof. apply step_f_inv; [apply step_minv|intros s c n; apply H_unload]. Qed.

End Meta.
