(* Sys/FanoutBkgC02.v: one step of a history (any request, any fault plan), and what the invariants say
   about the recipients of a publish. *)
From Coq Require Import ZArith NArith List Bool.
From Tinode Require Import Sys.Fanout Sys.FanoutProofs Sys.FanoutBkgC02 Sys.FanoutBkgC02Proofs Sys.FanoutBkgC02Steps.
Import ListNotations.
Open Scope N_scope.

Lemma xnext_inv x o : xinv x -> xinv (xnext x (xstep x o)).
Proof.
  intros H. pose proof (xstep_ok x o) as Hok. unfold step_ok, xkeeps, xnext in *. cbn [fst snd] in Hok.
  destruct (xr_state (xstep x o)); [now apply Hok|exact H].
Qed.

Lemma xnext_joined x o : xinv x -> joined (x_st x) -> ban_bypass x o = false -> joined (x_st (xnext x (xstep x o))).
Proof.
  intros H Hj Hb. pose proof (xstep_ok x o) as Hok. unfold step_ok, xkeeps, xnext in *. cbn [fst snd] in Hok.
  destruct (xr_state (xstep x o)); [now apply Hok|exact Hj].
Qed.

(* the stored rows with which xinit starts are the cached grants *)
Lemma lookup_map_rows (users : list (uid * pud)) u :
  lookup u (map (fun up => (fst up, (pu_want (snd up), pu_given (snd up)))) users) =
  option_map (fun p => (pu_want p, pu_given p)) (lookup u users).
Proof. induction users as [|[k v] r IH]; cbn; [reflexivity|]. destruct (u =? k); [reflexivity|exact IH]. Qed.

(* ---- the recipients ---- *)
(* whoever receives a copy is an attached session - background or not - of a cached, not deleted user:
   a channel subscription, or an ordinary subscriber with R and with J in want and in given *)
Lemma recipients_joined x px s f :
  xinv x -> joined (x_st x) -> In (s, f) (fanout (x_st x) px) ->
  exists d p, In (s, d) (st_sess (x_st x)) /\ lookup (ss_uid d) (st_users (x_st x)) = Some p /\ pu_deleted p = false /\
    pu_ischan p = ss_chan d /\
    (ss_chan d = true \/ (has (eff p) bR = true /\ has (pu_want p) bJ = true /\ has (pu_given p) bJ = true)).
Proof.
  intros [_ [Ha _]] Hj H. apply delivered_set in H. destruct H as [d [H1 [He _]]].
  destruct (Ha s d H1) as [p [Hp [Hd Hc]]]. exists d, p. repeat split; try assumption.
  destruct (ss_chan d) eqn:Ec; [now left|right].
  unfold eligible in He. cbn [fst snd] in He. apply andb_true_iff in He. destruct He as [He _]. rewrite Ec, orb_false_r in He.
  unfold user_is_reader, get_pud in He. rewrite Hp in He. split; [exact He|]. exact (Hj s d p H1 Hp Hc).
Qed.

(* the grant of an attached ordinary subscriber is his STORED grant *)
Lemma attached_grant_is_stored x s d :
  xinv x -> In (s, d) (st_sess (x_st x)) -> ss_chan d = false ->
  exists p, lookup (ss_uid d) (st_users (x_st x)) = Some p /\ stored_modes x (ss_uid d) = (pu_want p, pu_given p).
Proof.
  intros [_ [Ha [_ [_ Hc]]]] Hin Hch. destruct (Ha s d Hin) as [p [Hp [Hd Hi]]]. exists p. split; [exact Hp|].
  unfold stored_modes. rewrite (Hc (ss_uid d)). unfold live_modes. rewrite Hp, Hd, Hi, Hch. reflexivity.
Qed.

Definition elig_stored (x : xstate) (px : pubctx) (sd : sid * psd) : bool :=
  (has (seff x (ss_uid (snd sd))) bR || ss_chan (snd sd)) && negb (px_noecho px && (fst sd =? px_sid px)).

Lemma elig_stored_eq x px s d : xinv x -> In (s, d) (st_sess (x_st x)) -> elig_stored x px (s, d) = eligible (x_st x) px (s, d).
Proof.
  intros Hinv Hin. unfold elig_stored, eligible. cbn [fst snd]. f_equal. destruct (ss_chan d) eqn:Ec; [now rewrite !orb_true_r|].
  rewrite !orb_false_r. destruct (attached_grant_is_stored x s d Hinv Hin Ec) as [p [Hp Hs]].
  unfold seff, user_is_reader, get_pud, eff. now rewrite Hs, Hp.
Qed.

Lemma exact_set_stored x px : xinv x ->
  (forall s, In s (map fst (fanout_all (x_st x) px)) <-> exists d, In (s, d) (st_sess (x_st x)) /\ elig_stored x px (s, d) = true) /\
  NoDup (map fst (fanout_all (x_st x) px)).
Proof.
  intros Hinv. destruct (exact_set (x_st x) px) as [_ [Hnd Hiff]]. split; [|apply Hnd; apply Hinv].
  intros s. rewrite Hiff. split; intros [d [Hin He]]; exists d; (split; [exact Hin|]).
  - now rewrite elig_stored_eq.
  - now rewrite <- (elig_stored_eq x px s d Hinv Hin).
Qed.
