(** * Lemmas about the session model (property C11). *)
From Coq Require Import NArith List Bool Lia ZifyBool ZifyN.
From Tinode Require Import Sys.SessionAuth Sys.SessionGen.
Import ListNotations.
Local Open Scope N_scope.

Lemma guard_eqb_eq a b : guard_eqb a b = true -> a = b.
Proof.
  destruct a, b; unfold guard_eqb; simpl. intro H.
  apply andb_prop in H as [H H4]. apply andb_prop in H as [H H3]. apply andb_prop in H as [H1 H2].
  apply eqb_prop in H1, H2, H3, H4. congruence.
Qed.

Lemma table_ok_guard t : table_ok t = true -> forall k, guard_for t k = spec_guard k.
Proof.
  intros H k. unfold table_ok in H. rewrite forallb_forall in H.
  assert (Hin : In k all_kinds) by (destruct k; simpl; tauto).
  specialize (H k Hin). apply andb_true_iff in H as [_ H].
  unfold guard_for. destruct (lookup t k); [|discriminate]. now apply guard_eqb_eq.
Qed.

Lemma gen_ok_table_ok g : gen_ok g = true -> table_ok (gen_table g) = true.
Proof.
  unfold gen_ok, gen_table. intro H. apply andb_true_iff in H as [_ H].
  destruct (table_of (gd_entries g)); [exact H|discriminate].
Qed.

(** ** The dispatch level: as-user resolution, then the guards of the kind *)

(** [inl]: the handler runs for that (user, level); [inr]: the request is refused with these
    replies. *)
Definition gate (t : table) (st : sstate) (m : msg) : (N * N) + list reply :=
  match resolve st (m_extra m) with
  | inr r => inr [r]
  | inl (au, al) =>
    let g := guard_for t (kind_of m) in
    if g_ver g && (ver st =? 0) then inr [ROutOfSeq409]
    else if g_user g && (au =? 0) then inr [RAuthRequired401]
    else if (g_sver g && (ver st =? 0)) || (g_suser g && (au =? 0)) then inr []
    else inl (au, al)
  end.

Lemma dispatch_refused t st m rs : gate t st m = inr rs -> dispatch t st m = refuse st rs.
Proof.
  unfold gate, dispatch. destruct (resolve st (m_extra m)) as [[au al]|r]; [|now intros [= <-]].
  cbv zeta. destruct (g_ver _ && _); [now intros [= <-]|]. destruct (g_user _ && _); [now intros [= <-]|].
  destruct (_ || _); [now intros [= <-]|discriminate].
Qed.

Lemma refused_by_gate t st m (P : list reply -> Prop) :
  (exists rs, gate t st m = inr rs /\ P rs) ->
  let r := dispatch t st m in r_state r = st /\ r_call r = None /\ r_panic r = false /\ P (r_replies r).
Proof. intros (rs & G & H). rewrite (dispatch_refused _ _ _ _ G). cbn. auto. Qed.

(** A handler that runs got the resolved (user, level), passed the version guard, and is
    handed the scrubbed sender. *)
Lemma dispatch_call t st m c : r_call (dispatch t st m) = Some c ->
  exists au al, resolve st (m_extra m) = inl (au, al) /\
    g_ver (guard_for t (kind_of m)) && (ver st =? 0) = false /\
    c = {| c_kind := kind_of m; c_user := au; c_level := al;
           c_sender := match m_body m with BTopic TPub s _ => scrub_sender (uid st) au s | _ => None end |}.
Proof.
  unfold dispatch. destruct (resolve st (m_extra m)) as [[au al]|r]; [|discriminate]. cbv zeta.
  destruct (g_ver _ && _); [discriminate|]. destruct (g_user _ && _); [discriminate|].
  destruct (_ || _); [discriminate|]. intros H. exists au, al. split; [reflexivity|]. split; [reflexivity|].
  revert H. destruct (m_body m) as [h|l|a|tk s lo]; try destruct (hello st h); try destruct (login st l);
    try destruct (acc st au al a) as [[? ?] ?]; cbn [r_call]; intros [= <-]; [reflexivity..|].
  now destruct tk.
Qed.

(** ** Shape of the handlers: who writes the state *)

Lemma hello_ver st h : ver st <> 0 -> fst (hello st h) = st.
Proof.
  intro Hv. unfold hello. destruct (ver st =? 0) eqn:E; [apply N.eqb_eq in E; contradiction|].
  destruct (hi_empty h || (hi_parsed h =? ver st)); reflexivity.
Qed.

Lemma hello_user st h : uid (fst (hello st h)) = uid st /\ lvl (fst (hello st h)) = lvl st.
Proof.
  unfold hello.
  repeat match goal with |- context [if ?c then _ else _] => destruct c end; simpl; auto.
Qed.

Lemma on_login_cases st u l nl mi :
  (fst (on_login st u l nl mi) = st) \/
  (nl = false /\ mi = false /\ fst (on_login st u l nl mi) = set_user st u l).
Proof. unfold on_login. destruct mi, nl; simpl; auto. Qed.

Lemma login_cases st l :
  fst (login st l) = st \/
  (uid st = 0 /\
   exists u v, grants {| m_extra := no_extra; m_body := BLogin l |} = Some (u, v) /\ fst (login st l) = set_user st u v).
Proof.
  unfold login, grants; simpl.
  destruct (lg_reset l); [left; reflexivity|].
  destruct (uid st =? 0) eqn:Eu; simpl; [apply N.eqb_eq in Eu|left; reflexivity].
  destruct (lg_auth l) as [| |a]; try (left; reflexivity).
  destruct (ar_state a); try (left; reflexivity).
  destruct (ar_challenge a); simpl; [left; reflexivity|].
  destruct (if ar_validated a then VSatisfied else lg_vld l); unfold on_login;
    destruct (ar_nologin a); simpl; try (left; reflexivity).
  right. split; [exact Eu|]. eauto.
Qed.

Lemma login_grant_indep e e' l :
  grants {| m_extra := e; m_body := BLogin l |} = grants {| m_extra := e'; m_body := BLogin l |}.
Proof. reflexivity. Qed.

Lemma create_cases st a :
  fst (create_user st a) = st \/
  (uid st = 0 /\ ac_login a = true /\
   exists u v, ac_create a = CrCreated u v false false /\ fst (create_user st a) = set_user st u v).
Proof.
  unfold create_user. destruct (ac_login a) eqn:El; simpl.
  - destruct (uid st =? 0) eqn:Eu; simpl; [apply N.eqb_eq in Eu|left; reflexivity].
    destruct (ac_create a) as [r|u v nl mi]; [left; reflexivity|].
    unfold on_login. destruct mi, nl; simpl; try (left; reflexivity).
    right. repeat split; auto. eauto.
  - destruct (ac_create a); left; reflexivity.
Qed.

Lemma update_tail_state st u a : fst (update_tail st u a) = st.
Proof.
  unfold update_tail.
  repeat match goal with |- context [if ?c then _ else _] => destruct c end; reflexivity.
Qed.

Lemma update_state st au al rec a : fst (update_user st au al rec a) = st.
Proof.
  unfold update_user. destruct rec as [[ru rl]|].
  - destruct (negb (au =? 0)); [reflexivity|apply update_tail_state].
  - destruct (uid st =? 0); [reflexivity|apply update_tail_state].
Qed.

Lemma acc_cases st au al a :
  fst (fst (acc st au al a)) = st \/
  (uid st = 0 /\ ac_new a = true /\ ac_login a = true /\
   exists u v, ac_create a = CrCreated u v false false /\ fst (fst (acc st au al a)) = set_user st u v).
Proof.
  unfold acc. destruct (ac_new a) eqn:En.
  - destruct (create_cases st a) as [H|(H1 & H2 & u & v & H3 & H4)]; [left; exact H|].
    right. split; [exact H1|]. split; [reflexivity|]. split; [exact H2|]. exists u, v. split; [exact H3|exact H4].
  - left. destruct (ac_tmp a); try exact (update_state _ _ _ _ _);
      destruct (negb (uid st =? 0)); try reflexivity; exact (update_state _ _ _ _ _).
Qed.

(** ** One step of dispatch: the state after *)

Definition after (t : table) (st : sstate) (m : msg) : sstate := r_state (dispatch t st m).

(** Every step either leaves the state alone, or is an accepted first {hi} (only the
    version changes, from 0), or is a granting login / creating acc on an unauthenticated
    session (only user and level change, to the granted pair), or is the log-out side
    effect (only the uid changes, to 0). *)
Lemma step_cases t st m :
  after t st m = st \/
  (ver st = 0 /\ kind_of m = KHi /\ ver (after t st m) <> 0 /\ uid (after t st m) = uid st /\ lvl (after t st m) = lvl st) \/
  (uid st = 0 /\ (kind_of m = KLogin \/ kind_of m = KAcc) /\ r_call (dispatch t st m) <> None /\
   exists u v, grants m = Some (u, v) /\ after t st m = set_user st u v) \/
  (logs_out m = true /\ after t st m = set_user st 0 (lvl st)).
Proof.
  unfold after, dispatch. destruct m as [e b]; simpl.
  destruct (resolve st e) as [[au al]|r]; [|left; reflexivity].
  set (g := guard_for t _).
  destruct (g_ver g && (ver st =? 0)); [left; reflexivity|].
  destruct (g_user g && (au =? 0)); [left; reflexivity|].
  destruct (g_sver g && (ver st =? 0) || g_suser g && (au =? 0)); [left; reflexivity|].
  destruct b as [h|l|a|tk sender lo]; simpl.
  - unfold kind_of; simpl. destruct (hello st h) as [st' rs] eqn:E; simpl.
    unfold hello in E. destruct (ver st =? 0) eqn:Ev.
    + apply N.eqb_eq in Ev. destruct (hi_parsed h =? 0) eqn:Ep; [inversion E; left; reflexivity|].
      destruct (negb (hi_supported h)); inversion E; subst; [left; reflexivity|].
      right; left. apply N.eqb_neq in Ep. simpl. auto.
    + destruct (hi_empty h || (hi_parsed h =? ver st)); inversion E; left; reflexivity.
  - unfold kind_of; simpl. destruct (login st l) as [st' rs] eqn:E; simpl.
    destruct (login_cases st l) as [H|(H1 & u & v & H3 & H4)]; rewrite E in *; simpl in *.
    + left; exact H.
    + right; right; left. repeat split; auto. discriminate. exists u, v. split; [exact H3|exact H4].
  - unfold kind_of; simpl. destruct (acc st au al a) as [[st' rs] p] eqn:E; simpl.
    destruct (acc_cases st au al a) as [H|(H1 & H2 & H3 & u & v & H4 & H5)]; rewrite E in *; simpl in *.
    + left; exact H.
    + right; right; left. repeat split; auto. discriminate. exists u, v. split; [|exact H5].
      unfold grants; simpl. rewrite H2, H3, H4. reflexivity.
  - destruct tk; try (left; reflexivity). destruct lo; [|left; reflexivity].
    right; right; right. split; reflexivity.
Qed.

Lemma identity_fixed t st m : uid st <> 0 -> logs_out m = false ->
  uid (after t st m) = uid st /\ lvl (after t st m) = lvl st.
Proof.
  intros Hu Hl.
  destruct (step_cases t st m) as [H|[(H1 & H2 & H3 & H4 & H5)|[(H1 & _)|(H1 & _)]]].
  - rewrite H; auto.
  - auto.
  - contradiction.
  - congruence.
Qed.

(** ** Acting user *)

Lemma acts_as t st m c : r_call (dispatch t st m) = Some c ->
  c_kind c = kind_of m /\
  ((ex_asuser (m_extra m) = None /\ c_user c = uid st /\ c_level c = lvl st) \/
   (lvl st = LRoot /\ exists u, ex_asuser (m_extra m) = Some u /\ u <> 0 /\ c_user c = u /\
      c_level c = (if ex_level (m_extra m) =? LNone then LAuth else ex_level (m_extra m)))).
Proof.
  intros H. destruct (dispatch_call _ _ _ _ H) as (au & al & R & _ & ->). cbn. split; [reflexivity|].
  revert R. unfold resolve. destruct (ex_asuser (m_extra m)) as [u|].
  - destruct (lvl st =? LRoot) eqn:El; cbn [negb]; [|discriminate]. destruct (u =? 0) eqn:Eu; [discriminate|].
    intros [= <- <-]. right. apply N.eqb_eq in El. apply N.eqb_neq in Eu. split; [exact El|]. exists u. auto.
  - intros [= <- <-]. left. auto.
Qed.

(** ** Histories *)

Lemma run_after t st m r : run t st (m :: r) = run t (after t st m) r.
Proof. reflexivity. Qed.

Lemma run_preserves t (P : sstate -> Prop) (Q : msg -> Prop) :
  (forall st m, Q m -> P st -> P (after t st m)) ->
  forall ms st, Forall Q ms -> P st -> P (run t st ms).
Proof.
  intros Hstep ms. induction ms as [|m r IH]; intros st HQ HP; [exact HP|].
  rewrite run_after. inversion HQ; subst. apply IH; auto.
Qed.

Lemma granting_needs_handshake t st m : table_ok t = true ->
  kind_of m = KLogin \/ kind_of m = KAcc -> r_call (dispatch t st m) <> None -> ver st <> 0.
Proof.
  intros Ht Hk Hc. destruct (r_call (dispatch t st m)) as [c|] eqn:E; [|congruence].
  destruct (dispatch_call _ _ _ _ E) as (au & al & _ & G & _). rewrite (table_ok_guard t Ht) in G.
  apply N.eqb_neq. destruct Hk as [Hk|Hk]; rewrite Hk in G; exact G.
Qed.

Definition inv_handshake (st : sstate) : Prop := uid st <> 0 -> ver st <> 0.
Definition inv_level (st : sstate) : Prop := uid st <> 0 -> lvl st <> LNone.
Definition inv_unauth (st : sstate) : Prop := uid st = 0 -> lvl st = LNone.

Lemma step_handshake t st m : table_ok t = true -> inv_handshake st -> inv_handshake (after t st m).
Proof.
  intros Ht Hi Hu.
  destruct (step_cases t st m) as [H|[(H1 & H2 & H3 & H4 & H5)|[(H1 & Hk & Hc & u & v & Hg & H)|(H1 & H)]]].
  - rewrite H in *. auto.
  - exact H3.
  - rewrite H. cbn. apply (granting_needs_handshake t st m Ht Hk Hc).
  - rewrite H in Hu. cbn in Hu. contradiction.
Qed.

Lemma step_level t st m : wf_msg m -> inv_level st -> inv_level (after t st m).
Proof.
  intros Hw Hi Hu.
  destruct (step_cases t st m) as [H|[(H1 & H2 & H3 & H4 & H5)|[(H1 & Hk & Hc & u & v & Hg & H)|(H1 & H)]]].
  - rewrite H in *. auto.
  - rewrite H5. apply Hi. congruence.
  - rewrite H. cbn. apply (Hw u v Hg).
  - rewrite H in Hu. cbn in Hu. contradiction.
Qed.

Lemma step_unauth t st m : wf_msg m -> logs_out m = false -> inv_unauth st -> inv_unauth (after t st m).
Proof.
  intros Hw Hl Hi Hu.
  destruct (step_cases t st m) as [H|[(H1 & H2 & H3 & H4 & H5)|[(H1 & Hk & Hc & u & v & Hg & H)|(H1 & H)]]].
  - rewrite H in *. auto.
  - rewrite H5. apply Hi. congruence.
  - rewrite H in Hu. cbn in Hu. destruct (Hw u v Hg) as [Hne _]. contradiction.
  - congruence.
Qed.

Lemma step_identity t st m : uid (after t st m) <> 0 ->
  (uid (after t st m) = uid st /\ lvl (after t st m) = lvl st) \/
  grants m = Some (uid (after t st m), lvl (after t st m)).
Proof.
  intro Hu.
  destruct (step_cases t st m) as [H|[(H1 & H2 & H3 & H4 & H5)|[(H1 & Hk & Hc & u & v & Hg & H)|(H1 & H)]]].
  - rewrite H. auto.
  - auto.
  - right. rewrite H. exact Hg.
  - rewrite H in Hu. cbn in Hu. contradiction.
Qed.

Lemma hist_auth_needs_grant_gen t ms : forall st,
  uid (run t st ms) <> 0 ->
  (uid (run t st ms) = uid st /\ lvl (run t st ms) = lvl st) \/
  Exists (fun m => grants m = Some (uid (run t st ms), lvl (run t st ms))) ms.
Proof.
  induction ms as [|m r IH]; intros st Hu; [left; auto|].
  rewrite run_after in *.
  destruct (IH _ Hu) as [[H1 H2]|H]; [|right; apply Exists_cons_tl; exact H].
  assert (Hu' : uid (after t st m) <> 0) by congruence.
  destruct (step_identity t st m Hu') as [[H3 H4]|H3].
  - left. split; congruence.
  - right. apply Exists_cons_hd. rewrite H1, H2. exact H3.
Qed.

Lemma auth_steps_authed t ms : forall st, uid st <> 0 -> Forall (fun m => logs_out m = false) ms ->
  auth_steps t st ms = O.
Proof.
  induction ms as [|m r IH]; intros st Hu Hl; [reflexivity|].
  inversion Hl; subst. cbn [auth_steps].
  apply N.eqb_neq in Hu as Hu'. rewrite Hu'. cbn.
  apply IH; auto. fold (after t st m). destruct (identity_fixed t st m Hu H1) as [H _]. congruence.
Qed.

(** ** Witnesses (finding obo-sub-missing-user-logs-out-session) *)

Definition w_hi : msg :=
  {| m_extra := no_extra; m_body := BHi {| hi_empty := false; hi_parsed := 5632; hi_supported := true |} |}.
Definition w_login (u l : N) : msg :=
  {| m_extra := no_extra;
     m_body := BLogin {| lg_reset := None;
                         lg_auth := ARec {| ar_uid := u; ar_lvl := l; ar_validated := false; ar_nologin := false;
                                            ar_state := USOk; ar_challenge := false |};
                         lg_vld := VSatisfied |} |}.
(** {sub topic:"me" extra:{obo: <user 99, whose account does not exist>}} *)
Definition w_sub_obo_missing : msg :=
  {| m_extra := {| ex_asuser := Some 99; ex_level := 0 |}; m_body := BTopic TSub None true |}.
Definition w_pub_obo : msg :=
  {| m_extra := {| ex_asuser := Some 2; ex_level := 0 |}; m_body := BTopic TPub None false |}.
Definition w_history : list msg := [w_hi; w_login 6 LRoot; w_sub_obo_missing].

Lemma w_history_wf : Forall wf_msg (w_history ++ [w_login 1 LAuth]).
Proof.
  unfold w_history; cbn [app].
  repeat (apply Forall_cons; [intros u l H; vm_compute in H; try discriminate; inversion H; subst; split; discriminate|]).
  apply Forall_nil.
Qed.
