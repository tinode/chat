(* C14: the failed-delete branch of Hub.topicUnreg.  Lemmas about Sys/TopicStatusC14d.v (status word)
   and about the step [HubUnregFail] of Sys/Lifecycle.v. *)
From Coq Require Import List Arith Bool NArith Lia.
Import ListNotations.
Require Import Tinode.Sys.Lifecycle Tinode.Sys.LifecycleProofs Tinode.Sys.TopicStatusC14d.

(* ---------- the status word ---------- *)

Lemma bit_of_2 : forall n : N, n <> 1%N -> N.testbit 2 n = false.
Proof. intros n Hn. change 2%N with (2 ^ 1)%N. apply N.pow2_bits_false. intros X. apply Hn. symmetry. exact X. Qed.

Lemma failed_delete_restores_status : forall st : N,
  is_paused st = false -> unreg_del_status true st = st.
Proof.
  intros st H. unfold unreg_del_status, mark_paused, status_change_bits, is_paused, topicStatusPaused in *.
  apply negb_false_iff in H. apply N.eqb_eq in H.
  apply N.bits_inj. intros n. rewrite N.ldiff_spec, N.lor_spec.
  destruct (N.eq_dec n 1) as [->|Hn].
  - assert (E : N.testbit st 1 = false).
    { assert (X : N.testbit (N.land st 2) 1 = false) by (rewrite H; apply N.bits_0).
      rewrite N.land_spec in X. change (N.testbit 2 1) with true in X. rewrite andb_true_r in X. exact X. }
    rewrite E. reflexivity.
  - rewrite (bit_of_2 n Hn). rewrite orb_false_r. simpl. rewrite andb_true_r. reflexivity.
Qed.

(* whatever the word was, the failure path leaves every flag but `paused` as it was and `paused` clear *)
Lemma failed_delete_status_bits : forall st n,
  N.testbit (unreg_del_status true st) n = if N.eqb n 1 then false else N.testbit st n.
Proof.
  intros st n. unfold unreg_del_status, mark_paused, status_change_bits, topicStatusPaused.
  rewrite N.ldiff_spec, N.lor_spec.
  destruct (N.eqb_spec n 1) as [->|Hn].
  - change (N.testbit 2 1) with true. rewrite orb_true_r. reflexivity.
  - rewrite (bit_of_2 n Hn). rewrite orb_false_r. simpl. rewrite andb_true_r. reflexivity.
Qed.

Lemma land_bit_zero : forall st k, (N.land st (2 ^ k) =? 0)%N = negb (N.testbit st k).
Proof.
  intros st k. destruct (N.testbit st k) eqn:E; simpl.
  - apply N.eqb_neq. intros H. assert (X : N.testbit (N.land st (2 ^ k)) k = false) by (rewrite H; apply N.bits_0).
    rewrite N.land_spec, E, N.pow2_bits_true in X. discriminate.
  - apply N.eqb_eq. apply N.bits_inj. intros n. rewrite N.land_spec, N.bits_0.
    destruct (N.eq_dec n k) as [->|Hn]; [rewrite E; reflexivity|].
    rewrite N.pow2_bits_false by (intros X; apply Hn; symmetry; exact X). apply andb_false_r.
Qed.

Lemma is_paused_bit : forall st, is_paused st = N.testbit st 1.
Proof. intros. unfold is_paused, topicStatusPaused. change 2%N with (2 ^ 1)%N. rewrite land_bit_zero, negb_involutive. reflexivity. Qed.
Lemma is_deleted_bit : forall st, is_deleted st = N.testbit st 4.
Proof. intros. unfold is_deleted, topicStatusMarkedDeleted. change 16%N with (2 ^ 4)%N. rewrite land_bit_zero, negb_involutive. reflexivity. Qed.

Lemma is_inactive_bits : forall st, is_inactive st = N.testbit st 1 || N.testbit st 4.
Proof.
  intros st. unfold is_inactive, topicStatusPaused, topicStatusMarkedDeleted.
  destruct (N.testbit st 1) eqn:E1; destruct (N.testbit st 4) eqn:E4; simpl.
  - apply negb_true_iff. apply N.eqb_neq. intros H.
    assert (X : N.testbit (N.land st 18) 1 = false) by (rewrite H; apply N.bits_0).
    rewrite N.land_spec, E1 in X. discriminate.
  - apply negb_true_iff. apply N.eqb_neq. intros H.
    assert (X : N.testbit (N.land st 18) 1 = false) by (rewrite H; apply N.bits_0).
    rewrite N.land_spec, E1 in X. discriminate.
  - apply negb_true_iff. apply N.eqb_neq. intros H.
    assert (X : N.testbit (N.land st 18) 4 = false) by (rewrite H; apply N.bits_0).
    rewrite N.land_spec, E4 in X. discriminate.
  - apply negb_false_iff. apply N.eqb_eq. apply N.bits_inj. intros n. rewrite N.land_spec, N.bits_0.
    change (N.lor 2 16) with 18%N.
    destruct (N.eq_dec n 1) as [->|H1]; [rewrite E1; reflexivity|].
    destruct (N.eq_dec n 4) as [->|H4]; [rewrite E4; reflexivity|].
    assert (X : N.testbit 18 n = false).
    { change 18%N with (N.lor (2 ^ 1) (2 ^ 4)). rewrite N.lor_spec.
      rewrite (N.pow2_bits_false 1 n) by (intros X; apply H1; symmetry; exact X).
      rewrite (N.pow2_bits_false 4 n) by (intros X; apply H4; symmetry; exact X). reflexivity. }
    rewrite X. apply andb_false_r.
Qed.

(* ---------- the status word of a model instance ---------- *)

(* Lifecycle.v keeps `paused` as the phase PInit (the only code that pauses a registered topic for longer than one
   handler body is the hub's join, hub.go:195; topicInit un-pauses, init_topic.go:126) and `marked deleted` as
   [i_deleted]; the other two flags do not influence any step *)
Definition abs_status (x : tinst) : N :=
  N.lor (if is_init (i_phase x) then topicStatusPaused else 0%N) (if i_deleted x then topicStatusMarkedDeleted else 0%N).

Lemma inactive_abs_status : forall x, inactive x = is_inactive (abs_status x).
Proof.
  intros x. unfold inactive, abs_status. destruct (i_phase x); destruct (i_deleted x); reflexivity.
Qed.

(* ---------- the step HubUnregFail ---------- *)

(* everything a later step can read about topics is as before; sessions differ in the outbox only *)
Record same_serving (c c' : config) : Prop := mkSameServing {
  ss_inst : c_inst c' = c_inst c;
  ss_next : c_next c' = c_next c;
  ss_table : c_table c' = c_table c;
  ss_store : c_store c' = c_store c;
  ss_hjoin : c_hjoin c' = c_hjoin c;
  ss_inits : c_inits c' = c_inits c;
  ss_treg : c_treg c' = c_treg c;
  ss_tunreg : c_tunreg c' = c_tunreg c;
  ss_texit : c_texit c' = c_texit c;
  ss_ischan : c_ischan c' = c_ischan c;
  ss_sess : forall s, s_subs (c_sess c' s) = s_subs (c_sess c s) /\ s_inflight (c_sess c' s) = s_inflight (c_sess c s) /\
                      s_term (c_sess c' s) = s_term (c_sess c s) /\ s_done (c_sess c' s) = s_done (c_sess c s) /\
                      s_detachq (c_sess c' s) = s_detachq (c_sess c s) }.

Lemma s_reply_fields : forall x p,
  s_subs (s_reply x p) = s_subs x /\ s_inflight (s_reply x p) = s_inflight x /\ s_term (s_reply x p) = s_term x /\
  s_done (s_reply x p) = s_done x /\ s_detachq (s_reply x p) = s_detachq x.
Proof. intros x p. unfold s_reply. destruct (s_term x) eqn:E; simpl; rewrite ?E; auto. Qed.

Lemma hubunregfail_inv : forall c c', exec HubUnregFail c = Some c' ->
  exists r rest, c_hunreg c = HDel r :: rest /\ c_hunreg c' = rest /\
    c' = on_sess (set_hunreg c rest) (r_sid r) (fun x => s_reply x (rep r CInternal)) /\
    match c_table c (r_topic r) with
    | Some i => is_init (i_phase (c_inst c i)) = false
    | None => c_store c (r_topic r) = true
    end.
Proof.
  intros c c' Hs. simpl in Hs.
  destruct (c_hunreg c) as [|[t|r] rest] eqn:E; try discriminate. exists r, rest. simpl in Hs.
  destruct (c_table c (r_topic r)) as [i|].
  - destruct (is_init (i_phase (c_inst c i))); [discriminate|]. injection Hs as <-. repeat split; reflexivity.
  - destruct (c_store c (r_topic r)); [|discriminate]. injection Hs as <-. repeat split; reflexivity.
Qed.

Lemma hubunregfail_same_serving : forall c c', exec HubUnregFail c = Some c' -> same_serving c c'.
Proof.
  intros c c' Hs. destruct (hubunregfail_inv _ _ Hs) as (r & rest & _ & _ & -> & _).
  constructor; try reflexivity.
  intros s. simpl. unfold upd. destruct (Nat.eqb_spec s (r_sid r)) as [->|]; [apply s_reply_fields|auto].
Qed.

(* the status word of every instance is what the code's status operations leave: for the instance the request
   addresses it went through markPaused(true); markPaused(false) *)
Lemma hubunregfail_status : forall c c' , exec HubUnregFail c = Some c' ->
  forall r rest i, c_hunreg c = HDel r :: rest -> c_table c (r_topic r) = Some i ->
  abs_status (c_inst c' i) = unreg_del_status true (abs_status (c_inst c i)) /\
  inactive (c_inst c' i) = inactive (c_inst c i).
Proof.
  intros c c' Hs r rest i E Et. destruct (hubunregfail_inv _ _ Hs) as (r' & rest' & E' & _ & -> & Hc).
  rewrite E in E'. injection E' as <- <-. rewrite Et in Hc. simpl.
  split; [|reflexivity].
  symmetry. apply failed_delete_restores_status. rewrite is_paused_bit. unfold abs_status. rewrite Hc.
  destruct (i_deleted (c_inst c i)); reflexivity.
Qed.

Lemma same_serving_lookup : forall c c' s t, same_serving c c' -> lookup t (s_subs (c_sess c' s)) = lookup t (s_subs (c_sess c s)).
Proof. intros c c' s t H. destruct (ss_sess _ _ H s) as (-> & _). reflexivity. Qed.

(* a step enabled before the failed delete that is not the hub taking the next Hub.unreg item is enabled after it:
   stated for the requests of the members *)
Lemma client_enabled_after_failed_delete : forall c c' l,
  same_serving c c' ->
  match l with ClientSub _ _ _ | ClientLeave _ _ _ _ | DiscBegin _ | DiscEnd _ | SessDetach _ => True | _ => False end ->
  exec l c <> None -> exec l c' <> None.
Proof.
  intros c c' l H Hl He. destruct l; try contradiction; simpl in *.
  - destruct (ss_sess _ _ H s) as (A & B & C & D & E). rewrite A, B, C.
    destruct (s_term (c_sess c s) || negb (s_inflight (c_sess c s) =? 0)); [exact He|].
    destruct (lookup t (s_subs (c_sess c s))); discriminate.
  - destruct (ss_sess _ _ H s) as (A & B & C & D & E). rewrite A, B, C.
    destruct (s_term (c_sess c s) || negb (s_inflight (c_sess c s) =? 0)); [exact He|].
    destruct (lookup t (s_subs (c_sess c s))); discriminate.
  - destruct (ss_sess _ _ H s) as (A & B & C & D & E). rewrite E.
    destruct (s_detachq (c_sess c s)); [exact He|discriminate].
  - destruct (ss_sess _ _ H s) as (A & B & C & D & E). rewrite C.
    destruct (s_term (c_sess c s)); [exact He|discriminate].
  - destruct (ss_sess _ _ H s) as (A & B & C & D & E). rewrite B, C, D.
    destruct (negb (s_term (c_sess c s)) || s_done (c_sess c s) || negb (s_inflight (c_sess c s) =? 0)); [exact He|discriminate].
Qed.
