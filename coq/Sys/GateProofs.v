(* Lemmas about Sys/Gate.v: the signature gate of the inter-node entry points,
   for every state (whatever multiplexing sessions exist), every request and
   every history of rehashes, sends, forged messages, deliveries and drops. *)
From Coq Require Import NArith ZArith List Bool Permutation Lia.
From Tinode Require Import Pure.Ring Pure.RingProofs Sys.Gate.
Import ListNotations.

Ltac break_step :=
  match goal with
  | |- context [if ?c then _ else _] => destruct c eqn:?
  | |- context [match ?c with Some _ => _ | None => _ end] => destruct c eqn:?
  | H : context [if ?c then _ else _] |- _ => destruct c eqn:?
  | H : context [match ?c with Some _ => _ | None => _ end] |- _ => destruct c eqn:?
  end.

Section GateProofs.
  Variable sigf : list str -> str.
  Variable getf : list str -> str -> str.

  Notation cur_sig := (cur_sig sigf).
  Notation topic_master := (topic_master sigf).
  Notation route := (route sigf).
  Notation step := (gstep sigf getf).
  Notation run := (grun sigf getf).

  (* ---------------- Cluster.TopicMaster ---------------- *)

  (* a request that is not a tear-down, from a configured node, whose signature is not the
     receiver's current one: rejected, and the state is exactly what it was - whether or
     not the multiplexing session of (topic, node) exists *)
  Lemma topic_master_refuses s m full :
    q_gone m = false -> smem (q_node m) (n_peers s) = true -> q_sig m <> cur_sig s ->
    topic_master s m full = (s, ORejectedSig).
  Proof.
    intros Hg Hn Hs. unfold Gate.topic_master. rewrite Hn, Hg. cbn [negb].
    apply seqb_neq in Hs. rewrite Hs. reflexivity.
  Qed.

  (* whatever lies behind the gate was reached with the receiver's current signature *)
  Lemma topic_master_passed_sig s m full s' o :
    topic_master s m full = (s', o) -> passed_gate o = true -> q_sig m = cur_sig s.
  Proof.
    unfold Gate.topic_master. intros H Hp.
    destruct (smem (q_node m) (n_peers s)); cbn [negb] in H; [|inversion H; subst; discriminate].
    destruct (q_gone m); [inversion H; subst; discriminate|].
    destruct (seqb (q_sig m) (cur_sig s)) eqn:E; cbn [negb] in H.
    - apply seqb_eq in E. exact E.
    - inversion H; subst; discriminate.
  Qed.

  (* behind the gate: the multiplexing session exists afterwards and the outcome is one of the handler's *)
  Lemma topic_master_behind_gate s m full :
    smem (q_node m) (n_peers s) = true -> q_gone m = false -> seqb (q_sig m) (cur_sig s) = true ->
    exists o, topic_master s m full =
                (if smem (msid_of m) (n_store s) then s else add_msess s (q_node m) (msid_of m), o) /\
              o <> ORejectedSig /\ o <> OUnknownNode.
  Proof.
    intros Hn Hg Hs. unfold Gate.topic_master. rewrite Hn, Hg, Hs. cbn [negb]. cbv zeta.
    repeat break_step; eexists; (split; [reflexivity|split; discriminate]).
  Qed.

  Lemma topic_master_rejected_sig_iff s m full :
    snd (topic_master s m full) = ORejectedSig <->
    (smem (q_node m) (n_peers s) = true /\ q_gone m = false /\ q_sig m <> cur_sig s).
  Proof.
    split.
    - destruct (smem (q_node m) (n_peers s)) eqn:Hn; [|unfold Gate.topic_master; rewrite Hn; discriminate].
      destruct (q_gone m) eqn:Hg; [unfold Gate.topic_master; rewrite Hn, Hg; discriminate|].
      destruct (seqb (q_sig m) (cur_sig s)) eqn:E.
      + destruct (topic_master_behind_gate s m full Hn Hg E) as (o & -> & Ho & _). intros H. destruct (Ho H).
      + intros _. apply seqb_neq in E. auto.
    - intros (Hn & Hg & Hs). rewrite (topic_master_refuses s m full Hg Hn Hs). reflexivity.
  Qed.

  (* the same signature is never turned away by the gate *)
  Lemma topic_master_accepts s m full :
    q_sig m = cur_sig s -> snd (topic_master s m full) <> ORejectedSig.
  Proof.
    intros E H. apply topic_master_rejected_sig_iff in H. destruct H as (_ & _ & H). auto.
  Qed.

  (* TopicMaster never touches the ring, the name or the configured nodes *)
  Lemma stop_msess_frame s p i : n_this (stop_msess s p i) = n_this s /\ n_peers (stop_msess s p i) = n_peers s
    /\ n_ring (stop_msess s p i) = n_ring s /\ n_topics (stop_msess s p i) = n_topics s.
  Proof. unfold stop_msess. destruct (smem i (n_store s)); cbn; auto. Qed.

  Lemma topic_master_frame s m full s' o :
    topic_master s m full = (s', o) ->
    n_this s' = n_this s /\ n_peers s' = n_peers s /\ n_ring s' = n_ring s /\ n_topics s' = n_topics s.
  Proof.
    intros H.
    destruct (smem (q_node m) (n_peers s)) eqn:Hn; [|unfold Gate.topic_master in H; rewrite Hn in H; inversion H; auto].
    destruct (q_gone m) eqn:Hg.
    - unfold Gate.topic_master in H. rewrite Hn, Hg in H. inversion H; subst. clear H.
      pose proof (stop_msess_frame s (q_node m) (msid_of m)) as (A & B & C & D).
      destruct (tlookup (q_rcpt m) (n_topics s)) as [ti|]; [destruct (t_chan ti)|]; auto.
      pose proof (stop_msess_frame (stop_msess s (q_node m) (msid_of m)) (q_node m)
                    (grp_to_chn (q_rcpt m) ++ dash :: q_node m)) as (A' & B' & C' & D').
      rewrite A', B', C', D'. auto.
    - destruct (seqb (q_sig m) (cur_sig s)) eqn:E;
        [|unfold Gate.topic_master in H; rewrite Hn, Hg, E in H; inversion H; auto].
      destruct (topic_master_behind_gate s m full Hn Hg E) as (o' & Eo & _). rewrite Eo in H. inversion H; subst.
      destruct (smem (msid_of m) (n_store s)); cbn; auto.
  Qed.

  (* ---------------- Cluster.Route ---------------- *)
  Lemma route_rejected_sig_iff s r full : route s r full = ORejectedSig <-> r_sig r <> cur_sig s.
  Proof.
    unfold Gate.route. destruct (seqb (r_sig r) (cur_sig s)) eqn:E; cbn [negb].
    - apply seqb_eq in E. split; [|tauto]. repeat break_step; discriminate.
    - apply seqb_neq in E. tauto.
  Qed.

  Lemma route_passed_sig s r full : passed_gate (route s r full) = true -> r_sig r = cur_sig s.
  Proof.
    unfold Gate.route. destruct (seqb (r_sig r) (cur_sig s)) eqn:E; cbn [negb].
    - intros _. apply seqb_eq in E. exact E.
    - discriminate.
  Qed.

  (* ---------------- nodes of the cluster ---------------- *)
  Lemma find_node_name i l s : find_node i l = Some s -> n_this s = i.
  Proof.
    induction l as [|a l IH]; cbn; [discriminate|].
    destruct (seqb i (n_this a)) eqn:E; [|exact IH].
    intros H; inversion H; subst. apply seqb_eq in E. auto.
  Qed.

  Lemma find_set_same s' l s : find_node (n_this s') l = Some s -> find_node (n_this s') (set_node s' l) = Some s'.
  Proof.
    induction l as [|a l IH]; cbn; [discriminate|].
    destruct (seqb (n_this s') (n_this a)) eqn:E.
    - intros _. cbn. rewrite (proj2 (seqb_eq _ _) eq_refl). reflexivity.
    - intros H. cbn. rewrite E. auto.
  Qed.

  Lemma find_set_other j s' l : j <> n_this s' -> find_node j (set_node s' l) = find_node j l.
  Proof.
    intros Hne. induction l as [|a l IH]; cbn; [reflexivity|].
    destruct (seqb (n_this s') (n_this a)) eqn:E.
    - apply seqb_eq in E. cbn. apply seqb_neq in Hne. rewrite Hne, <- E, Hne. reflexivity.
    - cbn. rewrite IH. reflexivity.
  Qed.

  (* writing back a state with the same name and ring does not change anybody's ring *)
  Lemma find_set_ring j s0 s' l s1 s2 :
    find_node (n_this s') l = Some s0 -> n_ring s' = n_ring s0 ->
    find_node j l = Some s1 -> find_node j (set_node s' l) = Some s2 -> n_ring s2 = n_ring s1.
  Proof.
    intros H0 Hr H1 H2.
    destruct (seqb j (n_this s')) eqn:E.
    - apply seqb_eq in E. subst j. rewrite (find_set_same _ _ _ H0) in H2.
      rewrite H0 in H1. inversion H1; inversion H2; subst. auto.
    - apply seqb_neq in E. rewrite (find_set_other _ _ _ E) in H2. rewrite H1 in H2. inversion H2; auto.
  Qed.

  (* ---------------- histories ---------------- *)

  (* THE GATE, for the state reached by any history: a message that carries a signature and
     got past the gate of its receiver carries the receiver's signature of that moment *)
  Lemma deliver_gate n k full f s o b sg :
    nth_error (flight n) k = Some f -> find_node (msg_to (f_msg f)) (nodes n) = Some s ->
    snd (step n (EDeliver k full)) = ObDelivered o b -> passed_gate o = true ->
    msg_sig (f_msg f) = Some sg -> sg = cur_sig s.
  Proof.
    intros Hk Hs Hst Hp Hsg. cbn [Gate.gstep] in Hst. rewrite Hk, Hs in Hst.
    destruct (f_msg f) as [to q|to r|to p]; cbn in Hsg; inversion Hsg; subst; clear Hsg.
    - destruct (topic_master s q full) as [s' o'] eqn:E. cbn in Hst. inversion Hst; subst.
      exact (topic_master_passed_sig _ _ _ _ _ E Hp).
    - cbn in Hst. inversion Hst; subst. exact (route_passed_sig _ _ _ Hp).
  Qed.

  (* ... and conversely: with another signature a request (not a tear-down, from a configured
     node) or a route message is rejected and the receiver's state is untouched *)
  Lemma deliver_refused n k full f s :
    nth_error (flight n) k = Some f -> find_node (msg_to (f_msg f)) (nodes n) = Some s ->
    match f_msg f with
    | MReq _ q => q_gone q = false /\ smem (q_node q) (n_peers s) = true /\ q_sig q <> cur_sig s
    | MRoute _ r => r_sig r <> cur_sig s
    | MResp _ _ => False
    end ->
    exists b, snd (step n (EDeliver k full)) = ObDelivered ORejectedSig b /\
              find_node (msg_to (f_msg f)) (nodes (fst (step n (EDeliver k full)))) = Some s.
  Proof.
    intros Hk Hs Hm. cbn [Gate.gstep]. rewrite Hk, Hs.
    destruct (f_msg f) as [to q|to r|to p] eqn:Em; cbn [msg_to] in *.
    - destruct Hm as (Hg & Hn & Hne). rewrite (topic_master_refuses s q full Hg Hn Hne). cbn.
      eexists; split; [reflexivity|].
      pose proof (find_node_name _ _ _ Hs) as Hnm. rewrite <- Hnm. apply find_set_same with (s := s).
      rewrite Hnm. exact Hs.
    - apply (route_rejected_sig_iff s r full) in Hm. rewrite Hm. cbn. eexists; split; [reflexivity|exact Hs].
    - contradiction.
  Qed.

  (* honest messages carry the signature of the ring their sender had when it made them *)
  Definition honest_msg (f : flying) : Prop :=
    forall L, f_origin f = Some L -> msg_sig (f_msg f) = Some (sigf L).
  Definition honest (n : net) : Prop := Forall honest_msg (flight n).

  Lemma remove_nth_Forall {A} (P : A -> Prop) k : forall l, Forall P l -> Forall P (gremove_nth k l).
  Proof.
    induction k as [|k IH]; intros [|a l] H; cbn; auto; inversion H; subst; auto.
  Qed.

  Lemma send_honest n s m : honest n -> msg_sig m = Some (cur_sig s) -> honest (send n s m).
  Proof.
    intros H Hm. unfold honest, send. cbn. apply Forall_app. split; [exact H|].
    constructor; [|constructor]. intros L HL. cbn in HL. inversion HL; subst. exact Hm.
  Qed.

  Lemma step_honest n e : honest n -> honest (fst (step n e)).
  Proof.
    intros H. destruct e; cbn [Gate.gstep].
    - destruct (find_node i (nodes n)); cbn; exact H.
    - destruct (find_node i (nodes n)); cbn; exact H.
    - destruct (find_node i (nodes n)); cbn; exact H.
    - destruct (find_node i (nodes n)) as [s|]; [|exact H].
      destruct (node_for getf s topic); [|exact H]. cbn [fst]. apply send_honest; auto.
    - destruct (find_node i (nodes n)) as [s|]; [|exact H].
      destruct (node_for getf s topic); [|exact H]. cbn [fst]. apply send_honest; auto.
    - destruct (find_node i (nodes n)) as [s|]; [|exact H].
      destruct (node_for getf s topic); [|exact H]. cbn [fst]. apply send_honest; auto.
    - cbn. unfold honest. cbn. apply Forall_app. split; [exact H|].
      constructor; [|constructor]. intros L HL. cbn in HL. discriminate.
    - destruct (nth_error (flight n) k); [|exact H].
      assert (Hr : honest (mkNet (nodes n) (gremove_nth k (flight n)))) by (apply remove_nth_Forall; exact H).
      destruct (find_node (msg_to (f_msg f)) (nodes n)); [|exact Hr].
      destruct (f_msg f); [destruct (Gate.topic_master sigf n0 q full)| |]; cbn; apply remove_nth_Forall; exact H.
    - cbn. apply remove_nth_Forall. exact H.
  Qed.

  Lemma run_fst_app n evs : forall evs', fst (run n (evs ++ evs')) = fst (run (fst (run n evs)) evs').
  Proof.
    revert n. induction evs as [|e evs IH]; intros n evs'; cbn [Gate.grun app].
    - reflexivity.
    - destruct (Gate.gstep sigf getf n e) as [n1 o] eqn:E1. specialize (IH n1 evs').
      destruct (Gate.grun sigf getf n1 (evs ++ evs')) as [n2 os] eqn:E2.
      destruct (Gate.grun sigf getf n1 evs) as [n3 os3] eqn:E3. cbn [fst] in *. exact IH.
  Qed.

  Lemma run_honest n evs : honest n -> honest (fst (run n evs)).
  Proof.
    revert n. induction evs as [|e evs IH]; intros n H; cbn [Gate.grun]; [exact H|].
    destruct (Gate.gstep sigf getf n e) as [n1 o] eqn:E1.
    specialize (IH n1). destruct (Gate.grun sigf getf n1 evs) as [n2 os] eqn:E2. cbn [fst] in *.
    apply IH. pose proof (step_honest n e H) as H1. rewrite E1 in H1. exact H1.
  Qed.

  Lemma init_honest names : honest (init_net names).
  Proof. constructor. Qed.

  (* END TO END, every history: a message an honest sender made under the ring L, delivered
     at any later time to a receiver whose ring is then R, gets past the gate only if
     Signature(L) = Signature(R) *)
  Lemma history_gate n0 evs k full f s o b L :
    honest n0 ->
    let n := fst (run n0 evs) in
    nth_error (flight n) k = Some f -> find_node (msg_to (f_msg f)) (nodes n) = Some s ->
    snd (step n (EDeliver k full)) = ObDelivered o b -> passed_gate o = true ->
    f_origin f = Some L -> sigf L = sigf (n_ring s).
  Proof.
    intros H0 n Hk Hs Hst Hp HL.
    pose proof (run_honest n0 evs H0) as Hh. fold n in Hh.
    unfold honest in Hh. rewrite Forall_forall in Hh.
    pose proof (Hh f (nth_error_In _ _ Hk) L HL) as Hsg.
    exact (deliver_gate n k full f s o b _ Hk Hs Hst Hp Hsg).
  Qed.

  (* the ring of a node is the node list of its last rehash: a rehash installs its list ... *)
  Lemma rehash_installs n i l s s' :
    find_node i (nodes n) = Some s ->
    find_node i (nodes (fst (step n (ERehash i (Some l))))) = Some s' -> n_ring s' = l.
  Proof.
    intros Hs. cbn [Gate.gstep]. rewrite Hs. cbn [fst nodes].
    pose proof (find_node_name _ _ _ Hs) as Hn.
    assert (E : n_this (rehash s (Some l)) = i) by (cbn; exact Hn).
    rewrite <- E at 1. rewrite (find_set_same (rehash s (Some l)) (nodes n) s) by (rewrite E; exact Hs).
    intros H; inversion H; subst. reflexivity.
  Qed.

  (* ... and no other event changes it (deliveries, sends, forged messages, hub changes, and
     rehashes of other nodes leave it alone) *)
  Lemma ring_changes_only_by_rehash n e j s s' :
    find_node j (nodes n) = Some s -> find_node j (nodes (fst (step n e))) = Some s' ->
    (forall ns, e <> ERehash j ns) -> n_ring s' = n_ring s.
  Proof.
    intros Hs Hs' Hne.
    assert (Same : nodes (fst (step n e)) = nodes n -> n_ring s' = n_ring s).
    { intros E. rewrite E, Hs in Hs'. inversion Hs'; auto. }
    destruct e; cbn [Gate.gstep] in *.
    - destruct (find_node i (nodes n)) as [si|] eqn:Ei; [|apply Same; reflexivity].
      cbn [fst nodes] in Hs'. pose proof (find_node_name _ _ _ Ei) as Hn.
      destruct (seqb j i) eqn:Eji.
      + apply seqb_eq in Eji. subst j. exfalso. exact (Hne ns eq_refl).
      + apply seqb_neq in Eji. rewrite find_set_other in Hs' by (destruct ns; cbn; congruence).
        rewrite Hs in Hs'. inversion Hs'; auto.
    - destruct (find_node i (nodes n)) as [si|] eqn:Ei; [|apply Same; reflexivity].
      cbn [fst nodes] in Hs'. pose proof (find_node_name _ _ _ Ei) as Hn.
      eapply find_set_ring with (s0 := si); [| |exact Hs|exact Hs']; cbn; [rewrite Hn; exact Ei|reflexivity].
    - destruct (find_node i (nodes n)) as [si|] eqn:Ei; [|apply Same; reflexivity].
      cbn [fst nodes] in Hs'. pose proof (find_node_name _ _ _ Ei) as Hn.
      eapply find_set_ring with (s0 := si); [| |exact Hs|exact Hs']; cbn; [rewrite Hn; exact Ei|reflexivity].
    - apply Same. destruct (find_node i (nodes n)); [destruct (node_for getf n0 topic)|]; reflexivity.
    - apply Same. destruct (find_node i (nodes n)); [destruct (node_for getf n0 topic)|]; reflexivity.
    - apply Same. destruct (find_node i (nodes n)); [destruct (node_for getf n0 topic)|]; reflexivity.
    - apply Same. reflexivity.
    - destruct (nth_error (flight n) k) as [f|]; [|apply Same; reflexivity].
      destruct (find_node (msg_to (f_msg f)) (nodes n)) as [sr|] eqn:Er; [|apply Same; reflexivity].
      destruct (f_msg f) as [to q|to r|to p]; [|apply Same; reflexivity|apply Same; reflexivity].
      destruct (Gate.topic_master sigf sr q full) as [sr' o] eqn:Et. cbn [fst nodes] in Hs'.
      pose proof (topic_master_frame _ _ _ _ _ Et) as (A & _ & C & _).
      pose proof (find_node_name _ _ _ Er) as Hn.
      eapply find_set_ring with (s0 := sr); [| |exact Hs|exact Hs']; [rewrite A, Hn; exact Er|exact C].
    - apply Same. reflexivity.
  Qed.
End GateProofs.

(* "every entry point is gated" as a full statement (refuted in Props/PropC17.v,
   c17_gate_all_entry_points_refuted): whatever is handed to a hub or a topic by an inter-node entry point was
   stamped with the receiver's current signature *)
Definition all_entry_points_gated_statement : Prop :=
  forall (sigf : list str -> str) (getf : list str -> str -> str) n k full f s d b,
    nth_error (flight n) k = Some f -> find_node (msg_to (f_msg f)) (nodes n) = Some s ->
    snd (gstep sigf getf n (EDeliver k full)) = ObDelivered (ODelivered d) b ->
    msg_sig (f_msg f) = Some (cur_sig sigf s).

(* witness: node "b" (ring [b]) receives a master response for its proxy topic "t" from a
   node with any other ring: Cluster.TopicProxy has no signature to look at *)
Definition w_b : str := [98]%N.
Definition w_t : str := [116]%N.
Definition w_node : nstate := mkN w_b [[97]%N] [w_b] [] [] [(w_t, mkT false false true)].
Definition w_net : net := mkNet [w_node] [mkF (MResp w_b (mkResp w_t true)) None].

(* "every request with another signature is rejected" is false as stated too: the proxy's
   tear-down notice (Gone, sent by topicProxyGone) is honoured before the signature is looked at *)
Definition every_mismatch_rejected_statement : Prop :=
  forall (sigf : list str -> str) s m full,
    smem (q_node m) (n_peers s) = true -> q_sig m <> cur_sig sigf s ->
    snd (topic_master sigf s m full) = ORejectedSig.

(* ---------------- the ring of Pure/Ring.v as [sigf] ---------------- *)
Section WithRing.
  Variable hash : str -> N.
  Variable digest : str -> str.
  Variable reps : Z.

  Definition ring_sigf (ns : list str) : str := ring_signature (ring_of hash digest reps ns).
  Definition ring_getf (ns : list str) (key : str) : str := ring_get hash (ring_of hash digest reps ns) key.
  Definition ring_pre (ns : list str) : str := sig_preimage (rkeys (ring_of hash digest reps ns)).

  Lemma ring_sigf_digest ns : ring_sigf ns = digest (ring_pre ns).
  Proof. unfold ring_sigf, ring_pre, ring_of. apply ring_add_signature. Qed.

  (* nodes whose rings differ refuse each other: an honest message made under ring L gets
     past the gate of a receiver with ring R only if the two rings have the same signature
     pre-image (as far as the digest tells these two pre-images apart) *)
  Lemma history_gate_rings n0 evs k full f s o b L :
    honest ring_sigf n0 ->
    let n := fst (grun ring_sigf ring_getf n0 evs) in
    nth_error (flight n) k = Some f -> find_node (msg_to (f_msg f)) (nodes n) = Some s ->
    snd (gstep ring_sigf ring_getf n (EDeliver k full)) = ObDelivered o b -> passed_gate o = true ->
    f_origin f = Some L ->
    (digest (ring_pre L) = digest (ring_pre (n_ring s)) -> ring_pre L = ring_pre (n_ring s)) ->
    ring_pre L = ring_pre (n_ring s).
  Proof.
    intros H0 n Hk Hs Hst Hp HL Hinj. apply Hinj. rewrite <- !ring_sigf_digest.
    exact (history_gate ring_sigf ring_getf n0 evs k full f s o b L H0 Hk Hs Hst Hp HL).
  Qed.

  (* the refusal itself, in any state (any set of multiplexing sessions): rings with different
     pre-images, no digest collision on them -> the request is rejected and nothing changes *)
  Lemma rings_differ_refused s m full L :
    q_gone m = false -> smem (q_node m) (n_peers s) = true ->
    q_sig m = ring_sigf L ->
    ring_pre L <> ring_pre (n_ring s) ->
    (digest (ring_pre L) = digest (ring_pre (n_ring s)) -> ring_pre L = ring_pre (n_ring s)) ->
    topic_master ring_sigf s m full = (s, ORejectedSig).
  Proof.
    intros Hg Hn Hq Hne Hinj. apply topic_master_refuses; auto.
    rewrite Hq. unfold cur_sig. rewrite !ring_sigf_digest. intros E. exact (Hne (Hinj E)).
  Qed.

  Lemma rings_differ_route_refused s r full L :
    r_sig r = ring_sigf L ->
    ring_pre L <> ring_pre (n_ring s) ->
    (digest (ring_pre L) = digest (ring_pre (n_ring s)) -> ring_pre L = ring_pre (n_ring s)) ->
    route ring_sigf s r full = ORejectedSig.
  Proof.
    intros Hq Hne Hinj. apply route_rejected_sig_iff.
    rewrite Hq. unfold cur_sig. rewrite !ring_sigf_digest. intros E. exact (Hne (Hinj E)).
  Qed.

End WithRing.

(* the stale-signature scenario evaluated in Props/PropC17.v (c17_gate_example): nodes a, b, c; b's proxy sends a request for topic "grpT" to its master a (first contact,
   equal rings: delivered, multiplexing session created); a rehashes without c; b's next
   request, made under the old ring, is rejected although the session exists; b rehashes to
   the same two nodes in the other order; its next request is delivered *)
Definition x_a : str := [97]%N.
Definition x_b : str := [98]%N.
Definition x_c : str := [99]%N.
Definition x_t : str := [103; 114; 112; 84]%N.
Definition x_sigf (l : list str) : str := [N.of_nat (length l)].
Definition x_getf (_ : list str) (_ : str) : str := x_a.
Definition x_meta : gevent := ESendMaster x_b ProxyReqMeta x_t (Some x_t) true.
Definition x_evs : list gevent :=
  [ETopicPut x_a x_t (mkT false true false);
   x_meta; EDeliver 0 false;
   ERehash x_a (Some [x_a; x_b]);
   x_meta; EDeliver 0 false;
   ERehash x_b (Some [x_b; x_a]);
   x_meta; EDeliver 0 false].
