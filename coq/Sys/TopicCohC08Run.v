(* C08: the coherence invariant along arbitrary histories (step, step_f, run). *)
From Coq Require Import ZArith NArith List Bool Lia.
From Tinode Require Import Base.Util Pure.Acs Sys.Topic Sys.TopicTac Sys.TopicFrame Sys.TopicNum Sys.TopicNumThm
  Sys.TopicMarks Sys.TopicCohC08 Sys.TopicCohC08Proofs Sys.TopicCohC08Step.
Import ListNotations.
Open Scope Z_scope.

Definition sub_nf (f : fault) (c : cache) (u : N) : Prop :=
  (forall k, fails f k = false) \/ match alookup u (c_users c) with Some p0 => ~ pending p0 | None => True end.

Lemma sub_reply_good f s c n sid u want bkg :
  good3 s c -> u <> 0%N -> sub_nf f c u ->
  good3 (h_st (sub_reply f s c n sid u want bkg)) (h_ca (sub_reply f s c n sid u want bkg)).
Proof.
  intros G3 NZ NF. unfold sub_reply.
  pose proof (this_user_sub_good f s c n sid u want
                (match alookup u (c_users c) with Some _ => false | None => true end) G3 NZ NF) as H.
  destruct (tus_post f s c n sid u want (match alookup u (c_users c) with Some _ => false | None => true end)) as [_ [_ K]].
  destruct (this_user_sub f s c n sid u want _) as [h r]. cbn [fst snd] in *.
  destruct r as [code|ch]; cbn [h_st h_ca]; [exact H|]. destruct K as [p [L _]].
  destruct (match ch with Some (w, g) => is_joiner (N.land g w) | None => true end); [|exact H].
  destruct H as [G S].
  assert (sess_ok (c_set_sess (aset sid (u, bkg)) (h_ca h))) as S' by (apply sess_ok_sess_aset; [exact S|rewrite L; discriminate]).
  destruct bkg; split; try (apply good_sess; exact G); try exact S'.
  - assert (get_pud (c_set_sess (aset sid (u, false)) (h_ca h)) u = p) as GP by (unfold get_pud; cbn [c_users c_set_sess]; rewrite L; reflexivity).
    rewrite GP. apply (good_online (h_st h) (c_set_sess _ (h_ca h)) u _ p); [apply good_sess; exact G|exact L].
  - apply sess_ok_users_aset. exact S'.
Qed.

Lemma set_sub_good f s c n sid u target mode :
  good3 s c -> u <> 0%N -> sub_nf f c u ->
  good3 (h_st (set_sub f s c n sid u target mode)) (h_ca (set_sub f s c n sid u target mode)).
Proof.
  intros G3 NZ NF. unfold set_sub.
  destruct ((target =? 0)%N || (target =? u)%N) eqn:SELF.
  - pose proof (this_user_sub_good f s c n sid u mode false G3 NZ NF) as H.
    destruct (this_user_sub f s c n sid u mode false) as [h r]. cbn [fst] in H. destruct r; exact H.
  - apply orb_false_iff in SELF. destruct SELF as [T0 _]. apply N.eqb_neq in T0.
    pose proof (another_user_sub_good f s c n sid u target mode G3 T0) as H.
    destruct (another_user_sub f s c n sid u target mode) as [h r]. cbn [fst] in H. destruct r; exact H.
Qed.

(* offline {set sub} on a topic that is not loaded keeps the store well-formed *)
Lemma wf_offline_set_sub f s sid u target mode :
  wf_store s -> u <> 0%N -> wf_store (o_st (offline_set_sub f s sid u target mode)).
Proof.
  intros W NZ. unfold offline_set_sub. destruct mode as [|m0 ml]; [exact W|].
  destruct (negb (target =? 0)%N && negb (target =? u)%N); [exact W|].
  destruct (call f 0) as [ok1 n1]. destruct (negb ok1); [exact W|].
  destruct (ad_sub_get s u false) as [r0|] eqn:SG; [|exact W].
  destruct (unmarshal_text 0%N (m0 :: ml)) as [mw okw]. destruct (negb okw); [exact W|].
  destruct (negb (Bool.eqb (is_owner mw) (is_owner (s_want r0)))) eqn:EO; [exact W|].
  destruct (mw =? s_want r0)%N; [exact W|].
  destruct (call f n1) as [ok2 n2]. destruct (negb ok2); [exact W|]. cbn [o_st].
  apply negb_false_iff, Bool.eqb_prop in EO.
  unfold ad_sub_get in SG. destruct (find_sub u (subs s)) as [r|] eqn:F; [|discriminate].
  destruct (s_deleted r && negb false) eqn:D; [discriminate|]. inv SG.
  apply wf_parts in W. destruct W as [SH [A [B [o [NZo [[ro [Fo Wo]] U]]]]]].
  apply wf_parts. split; [apply shape_subs_update; exact SH|].
  destruct (scal_subs_update s u (mkUpd (Some mw) None None None None)) as [_ [_ [S3 [_ S5]]]]. rewrite S3, S5.
  split; [exact A|]. split; [exact B|]. exists o. split; [exact NZo|]. split.
  - rewrite find_sub_update, (proj2 (N.eqb_neq _ _) NZ). cbn [orb]. destruct (N.eqb_spec o u) as [E|NE].
    + subst o. rewrite Fo in F. inv F. rewrite Fo. eexists. split; [reflexivity|]. cbn. congruence.
    + eauto.
  - intros v r1 F1 W1. rewrite find_sub_update, (proj2 (N.eqb_neq _ _) NZ) in F1. cbn [orb] in F1.
    destruct (N.eqb_spec v u) as [E|NE]; [|apply (U v r1 F1 W1)].
    subst v. rewrite F in F1. cbn in F1. inv F1. cbn in *. apply (U u r0 F). congruence.
Qed.

Lemma note_good3 f s c n sid u what seq :
  good3 s c -> u <> 0%N -> ~ (what = K_read /\ p_recv (get_pud c u) < seq) ->
  good3 (h_st (note f s c n sid u what seq)) (h_ca (note f s c n sid u what seq)).
Proof.
  intros [G S] NZ NT. split; [apply note_good; assumption|].
  unfold note. repeat break_match; cbn [h_ca]; try exact S; apply sess_ok_users_aset; exact S.
Qed.

Section Run.
Variable dr : Z -> list (Z * Z) -> option (list (Z * Z)).
Variable nr : list (Z * Z) -> list (Z * Z).
Variable sm : sessmap.

Lemma inv_good x c : inv x -> ca x = Some c -> good3 (st x) c.
Proof. unfold inv. intros [W H] E. rewrite E in H. split; [split; [exact W|apply H]|apply H]. Qed.
Lemma good_inv s c n : good3 s c -> inv (mkState s (Some c) n).
Proof. intros [[W C] S]. split; [exact W|]. split; assumption. Qed.
Lemma inv_wf x : inv x -> wf_store (st x).
Proof. intros [W _]. exact W. Qed.
Lemma inv_unloaded s n : wf_store s -> inv (mkState s None n).
Proof. intros W. split; [exact W|exact I]. Qed.
Lemma inv_keep x n : inv x -> inv (mkState (st x) (ca x) n).
Proof. intros H. exact H. Qed.
Lemma good_load s : wf_store s -> good3 s (load s).
Proof. intros W. split; [split; [exact W|apply coh_load; exact W]|]. intros sid su bkg []. Qed.

Lemma nofault_all f : f = NoFault -> forall k, fails f k = false.
Proof. intros -> k. reflexivity. Qed.

(* ------------------------------------------------------------------ *)
(* the cases of one request *)
Definition fin (h : hres) : state * out := (mkState (h_st h) (Some (h_ca h)) (h_n h), h_out h).

(* the handlers of the loaded topic that can change something, with what [step] has checked before calling them *)
Inductive acts (f : fault) (x : state) (c : cache) : op -> hres -> Prop :=
| a_unsub sid a b : alookup sid (c_sess c) = Some (a, b) -> acts f x c (OLeave sid true) (leave_unsub f (st x) c 0 sid a)
| a_pub sid ct ne : attached c sid = true -> acts f x c (OPub sid ct ne) (publish f (st x) c 0 sid (sess_uid sm sid) ct ne)
| a_note sid what seq : attached c sid = true \/ what = K_recv ->
    acts f x c (ONote sid what seq) (note f (st x) c 0 sid (sess_uid sm sid) what seq)
| a_del_msg sid req hard : attached c sid = true ->
    acts f x c (ODelMsg sid req hard) (del_msg dr f (st x) c 0 sid (sess_uid sm sid) req hard)
| a_set_sub sid t mode : attached c sid = true ->
    acts f x c (OSetSub sid t mode) (set_sub f (st x) c 0 sid (sess_uid sm sid) t mode)
| a_del_sub sid t : attached c sid = true -> acts f x c (ODelSub sid t) (del_sub f (st x) c 0 sid (sess_uid sm sid) t).

(* a property of the result of request [o] holds when it holds: if nothing changes (refusals by the session,
   queries); if the topic is not loaded afterwards; after each handler of [acts]; after {sub} (on the cache, or
   on what the load path builds); after {leave}; after {set sub} answered by the hub *)
Lemma step_cases (P : state * out -> Prop) f x o :
  (forall n o', P (mkState (st x) (ca x) n, o')) ->
  (forall n o', ca x = None \/ o' = [] -> P (mkState (st x) None n, o')) ->
  (forall c h, ca x = Some c -> acts f x c o h -> P (fin h)) ->
  (forall sid want bkg n, o = OSub sid want bkg -> attached_in x sid = false ->
     P (fin (sub_reply f (st x) (cur_cache x) n sid (sess_uid sm sid) want bkg))) ->
  (forall sid c a, o = OLeave sid false -> ca x = Some c -> attached c sid = true ->
     P (mkState (st x) (Some (fst (leave c sid a))) 0, snd (leave c sid a))) ->
  (forall sid t mode, o = OSetSub sid t mode -> attached_in x sid = false ->
     P (mkState (o_st (offline_set_sub f (st x) sid (sess_uid sm sid) t mode)) (ca x)
                (o_n (offline_set_sub f (st x) sid (sess_uid sm sid) t mode)),
        o_out (offline_set_sub f (st x) sid (sess_uid sm sid) t mode))) ->
  P (step dr nr sm f x o).
Proof.
  intros SAME UNL ACT SUB LV OFF. unfold attached_in, cur_cache in *.
  assert (forall c h, ca x = Some c -> h_st h = st x /\ h_ca h = c -> P (fin h)) as QRY
    by (intros c h E [E1 E2]; unfold fin; rewrite E1, E2, <- E; apply SAME).
  destruct o as [sid want bkg|sid unsub|sid ct ne|sid what seq|sid a b l|sid|sid|sid a b l|sid req hard|sid t mode|sid t| |];
    cbv beta iota zeta delta [step].
  - destruct (ca x) as [c|] eqn:EC.
    + destruct (attached c sid) eqn:AT; [apply SAME|exact (SUB sid want bkg 0%nat eq_refl AT)].
    + unfold try_load, call. destruct (negb (negb (fails f 1))); [apply UNL; auto|].
      destruct (negb (t_exists (st x))); [apply UNL; auto|]. destruct (negb (negb (fails f 2))); [apply UNL; auto|].
      exact (SUB sid want bkg 2%nat eq_refl eq_refl).
  - destruct (ca x) as [c|] eqn:EC; cbn [negb]; [|apply SAME]. unfold attached in *.
    destruct (alookup sid (c_sess c)) as [[a b]|] eqn:ES; cbn [negb]; [|apply SAME].
    destruct unsub; [apply (ACT c); [reflexivity|constructor 1 with b; exact ES]|].
    specialize (LV sid c a eq_refl eq_refl). rewrite ES in LV. specialize (LV eq_refl). destruct (leave c sid a). exact LV.
  - destruct (ca x) as [c|] eqn:EC; cbn [negb]; [|apply SAME].
    destruct (attached c sid) eqn:AT; cbn [negb]; [|apply SAME]. apply (ACT c); [reflexivity|constructor; exact AT].
  - assert (forall c, ca x = Some c -> attached c sid = true \/ what = K_recv -> P (fin (note f (st x) c 0 sid (sess_uid sm sid) what seq))) as NOTE
      by (intros c E A; apply (ACT c); [exact E|constructor; exact A]).
    destruct (ca x) as [c|] eqn:EC; cbn [negb].
    + destruct (attached c sid) eqn:AT; cbn [negb].
      * destruct (N.eqb what K_kp); [destruct (seq =? 0); [apply NOTE; auto|apply SAME]|].
        destruct (_ || _); [|apply SAME]. destruct (seq <=? 0); [apply SAME|apply NOTE; auto].
      * destruct (N.eqb what K_kp); [destruct (seq =? 0); apply SAME|]. destruct (_ || _); [|apply SAME].
        destruct (seq <=? 0); [apply SAME|]. destruct (N.eqb_spec what K_recv); [apply NOTE; auto|apply SAME].
    + destruct (N.eqb what K_kp); [destruct (seq =? 0); apply SAME|]. destruct (_ || _); [|apply SAME].
      destruct (seq <=? 0); [apply SAME|]. destruct (N.eqb what K_recv); apply SAME.
  - destruct (ca x) as [c|] eqn:EC; cbn [negb]; [|apply SAME].
    destruct (attached c sid); cbn [negb]; [|apply SAME]. apply (QRY c); [reflexivity|apply get_data_same].
  - destruct (ca x) as [c|] eqn:EC; cbn [negb]; [destruct (attached c sid); cbn [negb]|].
    + apply (QRY c); [reflexivity|apply get_desc_same].
    + rewrite offline_get_desc_frame. apply SAME.
    + rewrite offline_get_desc_frame. apply SAME.
  - destruct (ca x) as [c|] eqn:EC; cbn [negb]; [destruct (attached c sid); cbn [negb]|].
    + apply (QRY c); [reflexivity|apply get_sub_same].
    + rewrite offline_get_sub_frame. apply SAME.
    + rewrite offline_get_sub_frame. apply SAME.
  - destruct (ca x) as [c|] eqn:EC; cbn [negb]; [|apply SAME].
    destruct (attached c sid); cbn [negb]; [|apply SAME]. apply (QRY c); [reflexivity|apply get_del_same].
  - destruct (ca x) as [c|] eqn:EC; cbn [negb]; [|apply SAME].
    destruct (attached c sid) eqn:AT; cbn [negb]; [|apply SAME]. apply (ACT c); [reflexivity|constructor; exact AT].
  - destruct (ca x) as [c|] eqn:EC; cbn [negb]; [|exact (OFF sid t mode eq_refl eq_refl)].
    destruct (attached c sid) eqn:AT; cbn [negb]; [|exact (OFF sid t mode eq_refl AT)]. apply (ACT c); [reflexivity|constructor; exact AT].
  - destruct (ca x) as [c|] eqn:EC; cbn [negb]; [|apply SAME].
    destruct (attached c sid) eqn:AT; cbn [negb]; [|apply SAME]. apply (ACT c); [reflexivity|constructor; exact AT].
  - destruct (ca x) as [c|]; [destruct (c_sess c)|]; first [apply UNL; auto|apply SAME].
  - apply UNL; auto.
Qed.

Lemma step_inv f x o : inv x -> inv_num x -> safe_step sm f x o -> inv (fst (step dr nr sm f x o)).
Proof.
  intros IV IN [KN [T1 [T2 [T3 FO]]]].
  assert (forall c u, f = NoFault \/ match alookup u (c_users c) with Some p => ~ pending p | None => True end -> sub_nf f c u) as NF
    by (intros c u [E|E]; [left; apply nofault_all, E|right; exact E]).
  apply (step_cases (fun r => inv (fst r))); cbn [fst].
  - intros n _. exact IV.
  - intros n _ _. apply inv_unloaded, IV.
  - intros c h CA A. apply good_inv. pose proof (inv_good _ _ IV CA) as G.
    destruct A as [sid a b ES|sid ct ne AT|sid what seq AT|sid req hard AT|sid t mode AT|sid t AT]; cbn [known op_sid fault_ok] in *.
    + apply leave_unsub_good, G.
    + apply publish_good; [exact G|exact KN| | |exact FO].
      * destruct IN as [_ [_ IN]]. rewrite CA in IN. apply IN.
      * intros _. unfold trig_readless_pub in T2. rewrite CA in T2.
        destruct (is_reader (user_mode c (sess_uid sm sid))); [reflexivity|]. exfalso. apply T2. auto.
    + apply note_good3; [exact G|exact KN|]. intros [E1 E2]. destruct AT as [AT|AT]; [|rewrite AT in E1; discriminate].
      apply T1. unfold trig_note_read. rewrite CA. auto.
    + apply del_msg_good; [exact G|exact KN|exact FO].
    + apply set_sub_good; [exact G|exact KN|]. apply NF. unfold cur_cache in FO. rewrite CA in FO. exact FO.
    + apply del_sub_good, G.
  - intros sid want bkg n -> _. cbn [known op_sid fault_ok] in *. apply good_inv. apply sub_reply_good; [|exact KN|apply NF, FO].
    unfold cur_cache. destruct (ca x) as [c|] eqn:CA; [apply inv_good; assumption|apply good_load, IV].
  - intros sid c a -> CA _. apply good_inv, leave_good, inv_good; assumption.
  - intros sid t mode -> AT. unfold attached_in in AT. destruct (ca x) as [c|] eqn:CA.
    + exfalso. apply T3. unfold trig_offline_setsub. rewrite CA. exact AT.
    + split; [|exact I]. apply wf_offline_set_sub; [apply IV|exact KN].
Qed.

Lemma step_f_inv_coh x fo : inv x -> inv_num x -> safe_step sm (fst fo) x (snd fo) -> inv (fst (step_f dr nr sm x fo)).
Proof.
  intros IV IN SF. unfold step_f. pose proof (step_inv (fst fo) x (snd fo) IV IN SF) as H.
  destruct (step dr nr sm (fst fo) x (snd fo)) as [x1 o1]. cbn [fst] in H.
  destruct (fst fo); cbn [fst]; try exact H. apply inv_unloaded. apply H.
Qed.

Lemma run_inv_coh h : forall x, inv x -> inv_num x -> safe_run dr nr sm x h -> inv (fst (run dr nr sm x h)).
Proof.
  induction h as [|fo h IH]; intros x IV IN SR; cbn [run fst]; [exact IV|].
  destruct SR as [SF SR].
  pose proof (step_f_inv_coh x fo IV IN SF) as IV1.
  pose proof (step_f_inv_num dr nr sm x fo IN) as IN1.
  destruct (step_f dr nr sm x fo) as [x1 o1]. cbn [fst] in *.
  specialize (IH x1 IV1 IN1 SR). destruct (run dr nr sm x1 h) as [x2 os]. exact IH.
Qed.
End Run.
