(* C08: witnesses for the reject law (a rejected request changed the store). *)
From Coq Require Import ZArith NArith List Bool Lia.
From Tinode Require Import Base.Util Pure.Acs Sys.Topic Sys.TopicTac Sys.TopicFrame Sys.TopicNum Sys.TopicNumThm Sys.TopicInst
  Sys.TopicCohC08 Sys.TopicCohC08Proofs Sys.TopicCohC08Step Sys.TopicCohC08Run Sys.TopicCohC08Wit Sys.TopicCohC08Reject.
Import ListNotations.
Open Scope Z_scope.

(* a reachable state and a request that is answered with an error although the store changed *)
Record rejected_but_changed (x : state) (f : fault) (o : op) : Prop := mkRbc {
  rb_inv : inv x; rb_num : inv_num x; rb_known : known wit_sm o;
  rb_err : err_reply (snd (step del_ranges_i norm_ranges_i wit_sm f x o)) (op_sid o);
  rb_bad : st (fst (step del_ranges_i norm_ranges_i wit_sm f x o)) <> st x }.

Ltac rbc_tac W code :=
  match goal with |- rejected_but_changed (fst (wit_run ?w2 ?g2 ?pre)) ?f ?o =>
    let P := fresh "P" in
    assert (inv (fst (wit_run w2 g2 pre)) /\ inv_num (fst (wit_run w2 g2 pre))) as P by (apply (wit_pre w2 g2 pre W); safe_tac);
    destruct P as [P1 P2]; split; [exact P1|exact P2|vm_compute; discriminate| |];
    [ exists code, []; split; [vm_compute; auto|lia]
    | intros E; vm_compute in E; discriminate ]
  end.

(* #4 a banned subscriber (given without J) re-subscribes: 403, but want = given|default is stored *)
Lemma rbc_banned :
  rejected_but_changed (fst (wit_run 46 46 [(NoFault, OSub 1 [] false)])) NoFault (OSub 2 [] false).
Proof. rbc_tac (wit_wf 46 46 eq_refl) 403. Qed.
Lemma rbc_banned_is_trigger :
  trig_banned wit_sm (fst (wit_run 46 46 [(NoFault, OSub 1 [] false)])) (OSub 2 [] false).
Proof. vm_compute. reflexivity. Qed.

(* #7 the 2nd store call of a publish fails: 500, stored seqid advanced *)
Lemma rbc_pub_fail2 :
  rejected_but_changed (fst (wit_run 47 47 [(NoFault, OSub 1 [] false)])) (FailAt 2) (OPub 1 7 false).
Proof. rbc_tac (wit_wf 47 47 eq_refl) 500. Qed.

(* #8 the 2nd store call of a delete fails: 500, deletion log rows stored, message hard-deleted *)
Lemma rbc_del_fail2 :
  rejected_but_changed (fst (wit_run 47 47 [(NoFault, OSub 1 [] false); (NoFault, OPub 1 7 false)])) (FailAt 2) (ODelMsg 1 [(1, 0)] true).
Proof. rbc_tac (wit_wf 47 47 eq_refl) 500. Qed.
