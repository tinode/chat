(* C09: stored marks never decrease - publish, note, the step and the history level.
   (continues Sys/TopicCohMarks.v) *)
From Coq Require Import ZArith NArith List Bool Lia.
From Tinode Require Import Base.Util Pure.Acs Sys.Topic Sys.TopicTac Sys.TopicFrame Sys.TopicNum Sys.TopicNumThm Sys.TopicMarks Sys.TopicMono Sys.TopicCohMarks.
Import ListNotations.
Open Scope Z_scope.

(* publish: needs the bounds (every mark is at most lastID < the new id) *)
Lemma publish_good f s c n sid u content noecho :
  u <> 0%N -> coh s c -> cmarks_ok (c_lastid c) c -> good s (publish f s c n sid u content noecho).
Proof.
  intros NZ HC MC. apply N.eqb_neq in NZ. unfold good.
  destruct (publish_shape f s c n sid u content noecho) as [s' n' code _ S'|s' n' _ M _ S']; cbn [h_st h_ca].
  - apply (good_same s c); [destruct S' as [->| ->]; reflexivity|apply grows_refl|exact HC].
  - destruct (alookup u (c_users c)) as [p|] eqn:L; [clear M|contradiction].
    destruct (MC u p L) as [[_ B1] [_ B2]].
    assert (get_pud c u = p) as GP by (unfold get_pud; now rewrite L). rewrite GP.
    assert (grows c (c_set_users (aset u (p_set_marks (c_lastid c + 1) (c_lastid c + 1) p)) (c_set_lastid (c_lastid c + 1) c))) as G.
    { apply (grows_aset (c_set_lastid (c_lastid c + 1) c)); change (get_pud (c_set_lastid _ c) u) with (get_pud c u); rewrite GP; cbn; lia. }
    destruct S' as [->| ->]; [exact (good_same s c _ _ (fun _ => eq_refl) G HC)|].
    apply (good_marks s c); auto. intros rd rc MK. rewrite (mk_some _ _ _ L) in MK. inv MK.
    exists (c_lastid c + 1), (c_lastid c + 1). rewrite mk_aset, N.eqb_refl. cbn. repeat split; lia.
Qed.

Lemma note_good f s c n sid u what seq : u <> 0%N -> coh s c -> good s (note f s c n sid u what seq).
Proof.
  intros NZ HC. apply N.eqb_neq in NZ.
  destruct (note_cases f s c n sid u what seq) as [[E1 [E2 _]]|[_ [_ [_ [rd [rc [E1 [R1 [R2 [_ [_ [_ [E2 _]]]]]]]]]]]]];
    unfold good.
  - rewrite E1, E2. split; [exact HC|apply smono_refl].
  - rewrite E1. clear E1.
    assert (forall rd0 rc0, mk c u = Some (rd0, rc0) -> rd0 = p_read (get_pud c u) /\ rc0 = p_recv (get_pud c u)) as MK.
    { intros rd0 rc0 M. destruct (marks_get_pud c u) as [M'|[M' _]]; rewrite M' in M; [inv M; auto|discriminate]. }
    assert (grows c (c_set_users (aset u (p_set_marks rd rc (get_pud c u))) c)) as G by (apply grows_aset; assumption).
    destruct E2 as [[_ [L [_ ->]]]|[_ [L ->]]]; apply (good_marks s c); auto; intros rd0 rc0 M;
      destruct (MK _ _ M) as [-> ->]; exists rd, rc; rewrite mk_aset, N.eqb_refl; cbn; repeat split; lia.
Qed.

(* the hub's store-only handlers do not touch marks or the deleted flag *)
Lemma offline_set_sub_sk f s sid u t m u0 : sk (o_st (offline_set_sub f s sid u t m)) u0 = sk s u0.
Proof. unfold offline_set_sub. repeat break_match; cbn [o_st]; try apply sk_update_nomarks; reflexivity. Qed.
Lemma offline_set_sub_und f s sid u t m : und s -> und (o_st (offline_set_sub f s sid u t m)).
Proof. intros H. unfold offline_set_sub. repeat break_match; cbn [o_st]; auto using und_subs_update. Qed.

(* one row per user is kept by every handler *)
Lemma und_owner v s : und s -> und (st_owner v s). Proof. auto. Qed.
Lemma und_delid v s : und s -> und (st_delid v s). Proof. auto. Qed.
Lemma und_delete_list s d fu rs : und s -> und (ad_msg_delete_list s d fu rs).
Proof. unfold ad_msg_delete_list. break_match; auto. Qed.
Lemma tus_und f s c u want h r : tus_spec f s c u want h r -> und s -> und (h_st h).
Proof.
  assert (forall p0 w g s1, own_write s u p0 w g s1 -> und s -> und s1) as OWU
    by (intros p0 w g s1 [[-> _]|[ow [og [-> _]]]] H; [exact H|now apply und_subs_update]).
  intros [n' code _|w g s' c' n' o ch _ [->|[-> _]] _ _ _ _|p0 w g s1 c' n' o r' _ OW _ _ _
         |p0 w g s1 c' n' o r' _ OW _ _ _|p0 w g s1 s' n' _ _ OW [->| ->]] H; cbn [h_st]; eauto using und_sub_create.
  - apply und_owner, und_subs_update; eauto.
  - apply und_subs_update; eauto.
Qed.
Lemma aus_und s c t h r : aus_spec s c t h r -> und s -> und (h_st h).
Proof.
  intros [n' code _|w g c' n' o _ _ _|c' n' o _ _|pt g c' n' o _ _] H; cbn [h_st];
    auto using und_sub_create, und_subs_update.
Qed.
Lemma sub_reply_und f s c n sid u want bkg : und s -> und (h_st (sub_reply f s c n sid u want bkg)).
Proof.
  destruct (sub_reply_shape f s c n sid u want bkg) as (h & r & SP & -> & _). exact (tus_und _ _ _ _ _ _ _ SP).
Qed.
Lemma set_sub_und f s c n sid u t m : und s -> und (h_st (set_sub f s c n sid u t m)).
Proof.
  destruct (set_sub_shape f s c n sid u t m) as (h & r & SP & -> & _).
  destruct SP as [[_ SP]|[_ SP]]; [exact (tus_und _ _ _ _ _ _ _ SP)|exact (aus_und _ _ _ _ _ SP)].
Qed.
Lemma unsub_und s c sid v h : unsub_spec s c sid v h -> und s -> und (h_st h).
Proof.
  intros [n' code _|s1 c1 n' code o1 k _ [D|[_ [-> _]]] _] H; cbn [h_st]; auto. exact (und_subs_delete _ _ _ D H).
Qed.
Lemma del_sub_und f s c n sid u t : und s -> und (h_st (del_sub f s c n sid u t)).
Proof. exact (unsub_und _ _ _ _ _ (del_sub_shape f s c n sid u t)). Qed.
Lemma leave_unsub_und f s c n sid u : und s -> und (h_st (leave_unsub f s c n sid u)).
Proof. exact (unsub_und _ _ _ _ _ (leave_unsub_shape f s c n sid u)). Qed.
Lemma del_msg_und dr f s c n sid u req hard : und s -> und (h_st (del_msg dr f s c n sid u req hard)).
Proof. intros H. unfold del_msg. repeat break_match; cbn [h_st]; auto using und_subs_update, und_delid, und_delete_list. Qed.
Lemma publish_und f s c n sid u content noecho : und s -> und (h_st (publish f s c n sid u content noecho)).
Proof.
  intros H. destruct (publish_shape f s c n sid u content noecho) as [s' n' code _ S'|s' n' _ _ _ S']; cbn [h_st];
    destruct S' as [->| ->]; auto. now apply und_subs_update.
Qed.
Lemma note_und f s c n sid u what seq : und s -> und (h_st (note f s c n sid u what seq)).
Proof. intros H. unfold note. repeat break_match; cbn [h_st]; auto using und_subs_update. Qed.

(* the invariant over steps and histories *)
Definition inv_coh (x : state) : Prop :=
  und (st x) /\ match ca x with Some c => coh (st x) c | None => True end.
(* the initial state of the histories *)
Lemma fresh_inv_marks s : fresh s -> smarks_ok 0 s -> inv_marks (mkState s None 0).
Proof.
  intros F M0. split; [apply fresh_inv; exact F|]. split; [|exact I]. destruct F as [_ E]. cbn [st]. rewrite E. exact M0.
Qed.

(* sessions that publish or send notes are logged in (uid 0 is "nobody"; SubsUpdate with uid 0 means
   "every subscription" in the store contract) *)
Definition op_user_ok (sm : sessmap) (o : op) : Prop :=
  match o with
  | OPub sid _ _ | ONote sid _ _ => sess_uid sm sid <> 0%N
  | _ => True
  end.

Lemma coh_load s : und s -> coh s (load s).
Proof.
  intros U u. rewrite (mk_load s u U). unfold cohP. destruct (sk s u) as [[[[|] rd] rc]|]; auto. split; lia.
Qed.

Section StepCoh.
Variable dr : Z -> list (Z * Z) -> option (list (Z * Z)).
Variable nr : list (Z * Z) -> list (Z * Z).
Variable sm : sessmap.

Lemma step_coh f x o : op_user_ok sm o -> inv_marks x -> inv_coh x ->
  inv_coh (fst (step dr nr sm f x o)) /\ smono (st x) (st (fst (step dr nr sm f x o))).
Proof.
  intros OK IM [U HC]. destruct x as [s cx n0]. cbn [st ca] in *.
  destruct (step_shape dr nr sm f (mkState s cx n0) o) as [c h LD HD|n' o' _| |sid _|sid _|sid t m _ _];
    cbn [fst st ca] in *; try (split; [split; assumption|apply smono_refl]).
  - assert (coh s c) as HC' by (destruct LD as [->|[-> [-> _]]]; [exact HC|apply coh_load; exact U]).
    assert (forall h, und (h_st h) -> good s h ->
              inv_coh (mkState (h_st h) (Some (h_ca h)) (h_n h)) /\ smono s (h_st h)) as FIN.
    { intros h0 U' [G1 G2]. split; [split; assumption|exact G2]. }
    assert (forall h, h_st h = s /\ h_ca h = c ->
              inv_coh (mkState (h_st h) (Some (h_ca h)) (h_n h)) /\ smono s (h_st h)) as QRY.
    { intros h0 [E1 E2]. rewrite E1, E2. split; [split; assumption|apply smono_refl]. }
    destruct HD.
    + apply FIN; [now apply sub_reply_und|now apply sub_reply_good].
    + apply FIN; [now apply leave_unsub_und|now apply leave_unsub_good].
    + apply FIN; [exact U|]. split; [exact (leave_coh _ _ _ _ HC')|apply smono_refl].
    + apply FIN; [now apply publish_und|]. apply publish_good; auto.
      destruct LD as [->|[_ [_ [? [? [? D]]]]]]; [|discriminate D]. apply IM.
    + apply FIN; [now apply note_und|now apply note_good].
    + exact (QRY _ (queried_same _ _ _ _ _ _ _ H)).
    + apply FIN; [now apply del_msg_und|now apply del_msg_good].
    + apply FIN; [now apply set_sub_und|now apply set_sub_good].
    + apply FIN; [now apply del_sub_und|now apply del_sub_good].
  - split; [split; [exact U|exact I]|apply smono_refl].
  - split; [split; [apply offline_set_sub_und; exact U|]|].
    + cbn [st ca]. destruct cx as [c'|]; [|exact I]. intros u0. rewrite offline_set_sub_sk. apply HC.
    + intros u0. rewrite offline_set_sub_sk. apply smP_refl.
Qed.

Lemma step_f_coh x fo : op_user_ok sm (snd fo) -> inv_marks x -> inv_coh x ->
  inv_coh (fst (step_f dr nr sm x fo)) /\ smono (st x) (st (fst (step_f dr nr sm x fo))).
Proof.
  intros OK IM IC. unfold step_f. pose proof (step_coh (fst fo) x (snd fo) OK IM IC) as [[U1 C1] M1].
  destruct (step dr nr sm (fst fo) x (snd fo)) as [x1 o1]. cbn [fst] in *.
  destruct (fst fo); cbn [fst st]; split; try exact M1; try (split; assumption).
  split; [exact U1|exact I].
Qed.

Lemma run_coh h : forall x, Forall (fun fo => op_user_ok sm (snd fo)) h -> inv_marks x -> inv_coh x ->
  inv_coh (fst (run dr nr sm x h)).
Proof.
  induction h as [|fo h IH]; intros x OK IM IC; cbn [run fst]; [exact IC|].
  inversion OK as [|? ? O1 O2]; subst.
  pose proof (step_f_inv_marks dr nr sm x fo IM) as IM1.
  pose proof (step_f_coh x fo O1 IM IC) as [IC1 _].
  destruct (step_f dr nr sm x fo) as [x1 o1]. cbn [fst] in *.
  specialize (IH x1 O2 IM1 IC1). destruct (run dr nr sm x1 h) as [x2 os]. exact IH.
Qed.
End StepCoh.
