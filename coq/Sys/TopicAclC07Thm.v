(* C07 proofs: histories.  The three invariants together, the writer laws at every
   step of a history, re-subscription. *)
From Coq Require Import ZArith NArith List Bool Lia.
From Tinode Require Import Base.Util Pure.Acs Sys.Topic Sys.TopicTac Sys.TopicFrame Sys.TopicMarks Sys.TopicAclC07
  Sys.TopicAclC07Proofs Sys.TopicAclC07Inv Sys.TopicAclC07Join Sys.TopicAclC07Own.
Import ListNotations.
Open Scope Z_scope.

Section Hist.
Variable dr : Z -> list (Z * Z) -> option (list (Z * Z)).
Variable nr : list (Z * Z) -> list (Z * Z).
Variable sm : sessmap.

(* well-formed states *)
Definition inv_all (x : state) : Prop := inv_lim x /\ inv_sm x /\ inv_own x.

(* a property of every step of a history *)
Fixpoint all_steps (P : state -> fault * op -> state -> Prop) (x : state) (h : list (fault * op)) : Prop :=
  match h with
  | [] => True
  | fo :: r => P x fo (fst (step_f dr nr sm x fo)) /\ all_steps P (fst (step_f dr nr sm x fo)) r
  end.

(* histories of logged-in sessions without a failing owner write inside a transfer *)
Definition hist_ok : state -> list (fault * op) -> Prop :=
  all_steps (fun x fo _ => logged_in sm (snd fo) /\ ~ transfer_split sm (fst fo) x (snd fo)).
Definition hist_logged_in : state -> list (fault * op) -> Prop :=
  all_steps (fun _ fo _ => logged_in sm (snd fo)).

Lemma step_f_laws x fo :
  logged_in sm (snd fo) -> owner_sane (view x) -> sess_members (view x) ->
  step_laws sm x (snd fo) (fst (step_f dr nr sm x fo)).
Proof.
  intros LI OS SM. unfold step_f. pose proof (step_writer_laws dr nr sm (fst fo) x (snd fo) LI OS SM) as L.
  destruct (step dr nr sm (fst fo) x (snd fo)) as [x1 o1]. cbn [fst] in L.
  destruct (fst fo); cbn [fst]; try exact L.
  destruct L as [L1 [L2 _]]. unfold step_laws. cbn [st ca]. repeat split; auto; discriminate.
Qed.

Lemma own_view x : rows_nodup (st x) -> inv_own x -> owner_sane (view x).
Proof.
  intros ND [OS OC]. unfold view. destruct (ca x) as [c|]; [eapply own_c_sane; exact OC|].
  eapply own_c_sane. apply load_own; assumption.
Qed.

Lemma step_f_inv_all x fo :
  inv_all x -> logged_in sm (snd fo) -> ~ transfer_split sm (fst fo) x (snd fo) ->
  inv_all (fst (step_f dr nr sm x fo)).
Proof.
  intros [IL [IS IO]] LI NS. split; [apply step_f_inv_lim; exact IL|]. split; [apply (step_f_sess dr nr sm x fo IS)|].
  unfold step_f. pose proof (step_own dr nr sm (fst fo) x (snd fo) IL IS IO LI) as [A B].
  destruct (step dr nr sm (fst fo) x (snd fo)) as [x1 o1]. cbn [fst] in *.
  unfold nosplit in B. destruct (fst fo) eqn:EF; cbn [fst].
  - split; [exact A|apply B; exact I].
  - split; [exact A|apply B; exact NS].
  - split; [exact A|exact I].
Qed.

(* the writer laws hold at every step of every such history from every well-formed state *)
Theorem run_writer_laws h : forall x, inv_all x -> hist_ok x h ->
  all_steps (fun x fo x' => step_laws sm x (snd fo) x') x h.
Proof.
  induction h as [|fo h IH]; intros x IA HK; [exact I|]. destruct HK as [[LI NS] HK]. split.
  - destruct IA as [IL [IS IO]]. apply step_f_laws; [exact LI| |apply sm_view; exact IS].
    apply own_view; [apply IL|exact IO].
  - apply IH; [apply step_f_inv_all; assumption|exact HK].
Qed.

Lemma run_inv_all h : forall x, inv_all x -> hist_ok x h -> inv_all (fst (run dr nr sm x h)).
Proof.
  induction h as [|fo h IH]; intros x IA HK; cbn; [exact IA|]. destruct HK as [[LI NS] HK].
  pose proof (step_f_inv_all x fo IA LI NS) as S. destruct (step_f dr nr sm x fo) as [x1 o1]. cbn [fst] in *.
  specialize (IH x1 S HK). destruct (run dr nr sm x1 h) as [x2 os]. exact IH.
Qed.

Lemma all_steps_app P h1 : forall x h2, all_steps P x (h1 ++ h2) ->
  all_steps P (fst (run dr nr sm x h1)) h2.
Proof.
  induction h1 as [|fo h1 IH]; intros x h2 H; cbn; [exact H|]. destruct H as [_ H].
  specialize (IH _ _ H). destruct (step_f dr nr sm x fo) as [x1 o1]. cbn [fst] in *.
  destruct (run dr nr sm x1 h1) as [x2 os]. exact IH.
Qed.

End Hist.

(* ---------- re-subscription restores the previous grant ---------- *)
Lemma tus_new_restores f s c n u mw nb r :
  alookup u (c_users c) = None -> find_sub u (subs s) = Some r -> (s_given r =? ModeUnset)%N = false ->
  let h := fst (tus_new f s c n u mw nb) in
  sgiven (h_st h) u = Some (s_given r) /\ (forall g, cgiven (h_ca h) u = Some g -> g = s_given r).
Proof.
  intros Hnone EF EU. cbv zeta.
  assert (sgiven s u = Some (s_given r)) as SG by (unfold sgiven; rewrite EF; reflexivity).
  assert (forall g, cgiven c u = Some g -> g = s_given r) as CG by (unfold cgiven; rewrite Hnone; discriminate).
  unfold tus_new, ad_sub_get. rewrite EF. cbn [negb]. rewrite andb_false_r, EU.
  destruct (max_subs <=? _); [auto|].
  destruct (call f n) as [ok1 n1]. destruct (negb ok1); [auto|].
  destruct (negb (is_joiner _)); [auto|].
  destruct (if s_deleted r then call f n1 else (true, n1)) as [ok2 n2]. destruct (negb ok2); [auto|].
  set (s2 := if s_deleted r then _ else s).
  assert (sgiven s2 u = Some (s_given r)) as SG2.
  { subst s2. destruct (s_deleted r); [|exact SG]. rewrite sgiven_create, N.eqb_refl. reflexivity. }
  destruct (negb (is_joiner _)).
  - destruct (evict_user _ u false 0) as [c3 o3] eqn:EV. cbn [fst h_st h_ca]. split; [exact SG2|].
    intros g. rewrite (evict_cgiven _ _ _ _ _ _ u EV), andb_false_r, cg_aset, N.eqb_refl. cbn. congruence.
  - cbn [fst h_st h_ca]. split; [exact SG2|]. intros g. rewrite cg_aset, N.eqb_refl. cbn. congruence.
Qed.

Section Resub.
Variable dr : Z -> list (Z * Z) -> option (list (Z * Z)).
Variable nr : list (Z * Z) -> list (Z * Z).
Variable sm : sessmap.

Theorem resubscribe_restores f x o r :
  inv_all x -> own_request (actor sm o) o -> actor sm o <> 0%N ->
  find_sub (actor sm o) (subs (st x)) = Some r -> s_deleted r = true -> (s_given r =? ModeUnset)%N = false ->
  let x' := fst (step_f dr nr sm x (f, o)) in
  sgiven (st x') (actor sm o) = Some (s_given r) /\
  (forall c', ca x' = Some c' -> forall g, cgiven c' (actor sm o) = Some g -> g = s_given r).
Proof.
  intros [[[ND _] _] [_ [OS OC]]] OR NZ EF ED EU. cbv zeta.
  set (u := actor sm o) in *.
  assert (sgiven (st x) u = Some (s_given r)) as SG by (unfold sgiven; rewrite EF; reflexivity).
  (* a user with a soft-deleted row is not cached *)
  assert (forall c, ca x = Some c -> alookup u (c_users c) = None) as NC.
  { intros c E. rewrite E in OC. destruct OC as [_ [_ [_ [_ C5]]]].
    destruct (alookup u (c_users c)) as [p|] eqn:EL; [|reflexivity].
    assert (cgiven c u = Some (p_given p)) as G by (unfold cgiven; rewrite EL; reflexivity).
    pose proof (C5 _ _ G) as L. unfold arow in L. rewrite EF in L. cbn in L. rewrite ED in L. discriminate. }
  assert (alookup u (c_users (load (st x))) = None) as NL.
  { unfold rows_nodup in ND. unfold load, load_users. cbn [c_users]. rewrite (load_users_lookup_acc u _ ND), EF, ED. reflexivity. }
  assert (forall c n nb, alookup u (c_users c) = None -> forall want,
            sgiven (h_st (fst (tus f (st x) c n u want nb))) u = Some (s_given r) /\
            (forall g, cgiven (h_ca (fst (tus f (st x) c n u want nb))) u = Some g -> g = s_given r)) as TUS.
  { intros c n nb E want. unfold tus. destruct (tus_mw want) as [mw okw].
    destruct (negb okw); [cbn [fst h_st h_ca]; split; [exact SG|unfold cgiven; rewrite E; discriminate]|].
    rewrite E. apply tus_new_restores; auto. }
  assert (forall c n sid want bkg, alookup u (c_users c) = None ->
            sgiven (h_st (sub_reply f (st x) c n sid u want bkg)) u = Some (s_given r) /\
            (forall g, cgiven (h_ca (sub_reply f (st x) c n sid u want bkg)) u = Some g -> g = s_given r)) as SR.
  { intros c n sid want bkg E. destruct (sub_reply_res f (st x) c n sid u want bkg) as [ES [EC _]]. cbv zeta in ES, EC.
    rewrite ES. destruct (TUS c n (match alookup u (c_users c) with Some _ => false | None => true end) E want) as [T1 T2].
    split; [exact T1|]. intros g. rewrite (proj1 (EC u)). apply T2. }
  assert (alookup u (c_users (view x)) = None) as NV by (unfold view; destruct (ca x) eqn:E; [apply NC; reflexivity|exact NL]).
  assert (forall sid, (exists w b, o = OSub sid w b) \/ (exists t m, o = OSetSub sid t m) -> sess_uid sm sid = u) as EUu
    by (intros sid [[w [b E]]|[t [m E]]]; subst u; rewrite E; reflexivity).
  assert (sgiven (st (fst (step dr nr sm f x o))) u = Some (s_given r) /\
          (forall c', ca (fst (step dr nr sm f x o)) = Some c' -> forall g, cgiven c' u = Some g -> g = s_given r)) as STEP.
  { apply (step_cases dr nr sm (fun x' => sgiven (st x') u = Some (s_given r) /\
             (forall c', ca x' = Some c' -> forall g, cgiven c' u = Some g -> g = s_given r))); cbn [st ca].
    - intros n. split; [exact SG|]. intros c' E g. unfold cgiven. rewrite (NC _ E). discriminate.
    - intros n. split; [exact SG|discriminate].
    - intros c h E Q. destruct (quiet_same _ _ _ _ _ _ Q) as [A [_ S]]. split; [rewrite (proj1 (A u)); exact SG|].
      intros c' E' g. inv E'. destruct (S u) as [[G _]|[G _]]; rewrite G; [|discriminate].
      unfold cgiven. rewrite (NC _ E). discriminate.
    - intros sid want bkg EO. cbv zeta. rewrite (EUu sid) by eauto.
      destruct (SR (view x) (match ca x with Some _ => 0 | None => 2 end)%nat sid want bkg NV) as [A B].
      split; [exact A|]. intros c' E. inv E. exact B.
    - intros sid c a b EO. exfalso. destruct OR as [[? [? [? E]]]|[? [? [? [E _]]]]]; rewrite E in EO; discriminate.
    - intros sid c a EO. exfalso. destruct OR as [[? [? [? E]]]|[? [? [? [E _]]]]]; rewrite E in EO; discriminate.
    - intros sid t mode c n EO E _. cbv zeta. rewrite (EUu sid) by eauto.
      destruct (TUS c 0%nat false (NC c E) mode) as [A B]. split; [exact A|]. intros c' E'. inv E'. exact B.
    - intros sid t mode c n EO _ E1 E2. exfalso.
      destruct OR as [[? [? [? E]]]|[sid' [t' [m' [E HT]]]]]; rewrite E in EO; [discriminate|]. inv EO.
      fold u in HT. rewrite <- (EUu sid) in HT by eauto. destruct HT; contradiction.
    - intros sid t mode n EO. rewrite (EUu sid) by eauto.
      destruct (offline_set_sub_laws f (st x) sid u t mode NZ) as [G _]. rewrite G. split; [exact SG|].
      intros c' E g. unfold cgiven. rewrite (NC _ E). discriminate.
    - intros sid t c EO. exfalso. destruct OR as [[? [? [? E]]]|[? [? [? [E _]]]]]; rewrite E in EO; discriminate. }
  unfold step_f. cbn [fst snd]. destruct (step dr nr sm f x o) as [x1 o1]. cbn [fst] in STEP.
  destruct f; cbn [fst st ca]; auto. split; [apply STEP|discriminate].
Qed.
End Resub.

(* ---------- projections of the writer laws ---------- *)
Section Laws.
Variable dr : Z -> list (Z * Z) -> option (list (Z * Z)).
Variable nr : list (Z * Z) -> list (Z * Z).
Variable sm : sessmap.

Definition given_law (x : state) (fo : fault * op) (x' : state) : Prop :=
  let c := view x in let s := st x in let a := actor sm (snd fo) in let o := snd fo in
  (forall v, sgiven (st x') v = sgiven s v \/ exists g', sgiven (st x') v = Some g' /\ given_just c s a o v g') /\
  (forall c', ca x' = Some c' -> forall v g', cgiven c' v = Some g' -> cgiven c v = Some g' \/ given_just c s a o v g').
Definition want_law (x : state) (fo : fault * op) (x' : state) : Prop :=
  let c := view x in let s := st x in let a := actor sm (snd fo) in let o := snd fo in
  (forall v, swant (st x') v = swant s v \/ exists w', swant (st x') v = Some w' /\ want_just c s a o v w') /\
  (forall c', ca x' = Some c' -> forall v w', cwant c' v = Some w' -> cwant c v = Some w' \/ want_just c s a o v w').

Lemma all_steps_impl (P Q : state -> fault * op -> state -> Prop) h :
  (forall x fo x', P x fo x' -> Q x fo x') -> forall x, all_steps dr nr sm P x h -> all_steps dr nr sm Q x h.
Proof. intros HI. induction h as [|fo h IH]; intros x H; [exact I|]. destruct H as [A B]. split; auto. Qed.

End Laws.

