(* C16  Lemmas about the full-field download gate of Sys/FilesServeC16c.v. *)
From Coq Require Import NArith ZArith List Bool.
From Tinode Require Import Pure.Url Sys.Files Sys.FilesGateProofs Sys.FilesStoreProofs Sys.FilesServeC16c.
Import ListNotations.

(* the full-field gate IS the gate of Sys/Files.v on the projected request: every theorem about
   [serve_gate] carries over *)
Lemma serve_gate_c16c_eq : forall r, serve_gate_c16c r = serve_gate (sreq_of_c16c r).
Proof. intros r. reflexivity. Qed.

Lemma serve_request_c16c_eq : forall s r serve url,
  serve_request_c16c s r serve url = serve_request s (sreq_of_c16c r) serve url.
Proof. intros s r serve url. reflexivity. Qed.

(* the `topic` parameter - query or form, "newacc" or anything else - is not part of the decision *)
Lemma serve_c16c_ignores_topic : forall r tq tf,
  serve_gate_c16c (dq_with_topic_c16c r tq tf) = serve_gate_c16c r.
Proof. intros r tq tf. reflexivity. Qed.

Lemma serve_request_c16c_ignores_topic : forall s r tq tf serve url,
  serve_request_c16c s (dq_with_topic_c16c r tq tf) serve url = serve_request_c16c s r serve url.
Proof. intros s r tq tf serve url. reflexivity. Qed.

(* GET / HEAD with a valid key whose credentials yield the zero uid: 401, nothing served, whatever
   the other fields are *)
Lemma serve_c16c_unauthenticated : forall r,
  dq_meth r = MGet \/ dq_meth r = MHead ->
  key_check (dq_keys_c16c r) = true ->
  auth_of (dq_creds_c16c r) (dq_sid_c16c r) = AuthUid 0 ->
  serve_gate_c16c r = Reply 401 ENone.
Proof.
  intros r Hm Hk Ha. unfold serve_gate_c16c. rewrite Hk, Ha. cbn [negb N.eqb].
  destruct Hm as [Hm|Hm]; rewrite Hm; reflexivity.
Qed.

(* the zero uid comes out of authHttpRequest exactly when: no placement names a method and the sid
   is absent / unknown / of a session that has not logged in; or the first placement holds an unknown
   scheme or a token for the zero uid *)
Lemma auth_zero_cases : forall creds sid,
  auth_of creds sid = AuthUid 0 <->
  first_some creds = Some (CGood 0) \/ first_some creds = Some CUnknownScheme \/
  (first_some creds = None /\ (sid = None \/ sid = Some 0%N)).
Proof.
  intros creds sid. unfold auth_of. destruct (first_some creds) as [[v|c| |]|].
  - split.
    + intros H. inversion H; subst. left; reflexivity.
    + intros [H|[H|[H _]]]; [inversion H; reflexivity|discriminate|discriminate].
  - split; [discriminate|]. intros [H|[H|[H _]]]; discriminate.
  - split; [discriminate|]. intros [H|[H|[H _]]]; discriminate.
  - split; [intros _; right; left; reflexivity|reflexivity].
  - destruct sid as [u|].
    + split.
      * intros H. inversion H; subst. right; right. split; [reflexivity|right; reflexivity].
      * intros [H|[H|[_ [H|H]]]]; [discriminate|discriminate|discriminate|inversion H; reflexivity].
    + split; [intros _; right; right; split; [reflexivity|left; reflexivity]|reflexivity].
Qed.

Lemma serve_c16c_methods : forall r,
  dq_meth r <> MGet -> dq_meth r <> MHead -> dq_meth r <> MOptions ->
  serve_gate_c16c r = Reply 405 ENone.
Proof.
  intros r H1 H2 H3. unfold serve_gate_c16c. destruct (dq_meth r); try reflexivity; congruence.
Qed.

Lemma serve_c16c_refused_no_effect : forall r c e,
  serve_gate_c16c r = Reply c e -> c <> 200%Z -> e = ENone.
Proof. intros r c e. rewrite serve_gate_c16c_eq. apply serve_refused_no_effect. Qed.

Lemma serve_request_c16c_served : forall s r serve url o f,
  serve_request_c16c s r serve url = (o, Some f) ->
  o = Reply 200 EServed /\ dq_meth r = MGet /\ first_some (dq_keys_c16c r) = Some KValid /\
  (exists u, auth_of (dq_creds_c16c r) (dq_sid_c16c r) = AuthUid u /\ u <> 0%N) /\
  download s serve url = Some f /\
  f_done f = true /\ In f (files s) /\ get_id_from_url serve url = f_id f /\ In (f_id f) (disk s).
Proof.
  intros s r serve url o f H. rewrite serve_request_c16c_eq in H.
  exact (serve_request_served s (sreq_of_c16c r) serve url o f H).
Qed.

Lemma serve_request_c16c_nothing : forall s r serve url o,
  serve_request_c16c s r serve url = (o, None) -> effect_of o = ENone.
Proof.
  intros s r serve url o H. rewrite serve_request_c16c_eq in H.
  exact (serve_request_nothing s (sreq_of_c16c r) serve url o H).
Qed.

(* a gate with the upload side's exemption serves a request without credentials *)
Definition exempt_witness_c16c : dreq_c16c :=
  {| dq_meth := MGet;
     dq_key_hdr := Some KValid; dq_key_query := None; dq_key_form := None; dq_key_cookie := None;
     dq_cred_xauth := None; dq_cred_authz := None; dq_cred_query := None; dq_cred_form := None; dq_cred_cookie := None;
     dq_sid_query := None; dq_sid_form := None;
     dq_topic_query := Some true; dq_topic_form := None;
     dq_body_form := false; dq_handler := true; dq_hdr := HdrStatus 0; dq_found := true |}.

Lemma exempt_witness_served : serve_gate_exempt_c16c exempt_witness_c16c = Reply 200 EServed.
Proof. vm_compute. reflexivity. Qed.

Lemma exempt_witness_refused : serve_gate_c16c exempt_witness_c16c = Reply 401 ENone.
Proof. vm_compute. reflexivity. Qed.

Lemma exempt_witness_no_credentials :
  auth_of (dq_creds_c16c exempt_witness_c16c) (dq_sid_c16c exempt_witness_c16c) = AuthUid 0.
Proof. vm_compute. reflexivity. Qed.

