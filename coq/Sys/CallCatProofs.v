(* Lemmas about Sys/CallCat.v (C15: a call can be started only in a peer-to-peer topic). *)
From Coq Require Import ZArith NArith List Bool Lia.
From Tinode Require Import Sys.Call Sys.CallProofs Sys.CallCat.
Import ListNotations.
Open Scope Z_scope.

(* for the p2p category the functions with a category parameter are the ones of Sys/Call.v *)
Lemma sab_cat_p2p cfg st ms hid u r w c :
  save_and_broadcast_cat cfg CatP2P st ms hid u r w c = save_and_broadcast cfg st ms hid u r w c.
Proof.
  unfold save_and_broadcast_cat, save_and_broadcast, do_save. cbn [is_sys negb andb].
  destruct (writer st u); reflexivity.
Qed.

Lemma pub_p2p_is_invite cfg st s content w :
  mem s (attached st) = true ->
  step_raw cfg st (OInvite s content w) = pub_broadcast cfg CatP2P false false st s (Some w) None content.
Proof.
  intros Ha. cbn [step_raw]. rewrite Ha. cbn [negb]. unfold pub_broadcast. cbn [is_p2p negb].
  destruct (configured cfg); cbn [negb]; [|reflexivity].
  destruct (current st); [reflexivity|]. rewrite sab_cat_p2p. reflexivity.
Qed.

Lemma pub_p2p_is_pub cfg st s content :
  mem s (attached st) = true ->
  step_raw cfg st (OPub s content) = pub_broadcast cfg CatP2P false false st s None None content.
Proof.
  intros Ha. cbn [step_raw]. rewrite Ha. cbn [negb]. unfold pub_broadcast. rewrite sab_cat_p2p. reflexivity.
Qed.

Lemma note_p2p_is_event cfg st s e q p :
  step_raw cfg st (OEvent s e q p) =
    match session_note_call true q (mem s (attached st)) e with
    | NDrop => (st, [])
    | NAttachFirst => (st, [(s, FCtrl 409 None)])
    | NTopic => note_broadcast_call cfg false st s e q p
    | NHub => if loaded st then note_broadcast_call cfg false st s e q p else (st, [])
    end.
Proof.
  cbn [step_raw]. unfold session_note_call, note_broadcast_call. cbn [negb].
  destruct (q <=? 0); [reflexivity|].
  destruct (mem s (attached st)); cbn [orb]; [reflexivity|].
  destruct (hub_routed e); cbn [andb]; [|reflexivity].
  destruct (loaded st); reflexivity.
Qed.

(* the invitation gate outside p2p topics: from EVERY state, whatever the head says *)
Lemma pub_non_p2p_call_refused cfg c ina ro st s w repl content :
  is_p2p c = false ->
  pub_broadcast cfg c ina ro st s (Some w) repl content = (st, [(s, FCtrl (non_p2p_code cfg ina ro) None)]).
Proof.
  intros Hc. unfold pub_broadcast, non_p2p_code. rewrite Hc.
  destruct ina; [reflexivity|]. destruct ro; [reflexivity|].
  destruct (configured cfg); reflexivity.
Qed.

Lemma non_p2p_code_values cfg ina ro : In (non_p2p_code cfg ina ro) [503; 403; 501].
Proof.
  unfold non_p2p_code. destruct ina; [left; reflexivity|]. destruct ro; [right; left; reflexivity|].
  destruct (configured cfg); cbn [negb]; [right; left; reflexivity|right; right; left; reflexivity].
Qed.

Lemma cat_not_p2p c : c <> CatP2P -> is_p2p c = false.
Proof. destruct c; try reflexivity. intros H. contradiction H. reflexivity. Qed.

(* an ordinary publication (no head.webrtc) never touches the call state, in any category, and what it
   stores carries no head.webrtc *)
Definition plain (m : msg) : Prop := m_webrtc m = None.

Lemma sab_cat_cases cfg c st ms hid u r w ct :
  save_and_broadcast_cat cfg c st ms hid u r w ct = (st, [(ms, FCtrl 403 None)], false) \/
  save_and_broadcast_cat cfg c st ms hid u r w ct =
    (add_msg (new_msg cfg st ms u r w ct) st,
     (if hid then [(ms, FCtrl 202 (Some (lastid st + 1)))] else []) ++
       bcast_data cfg (add_msg (new_msg cfg st ms u r w ct) st) (new_msg cfg st ms u r w ct), true).
Proof.
  unfold save_and_broadcast_cat, do_save. destruct (negb (is_sys c) && negb (writer st u)); [left|right]; reflexivity.
Qed.

Lemma pub_plain_effect cfg c ina ro st s repl content st' os :
  pub_broadcast cfg c ina ro st s None repl content = (st', os) ->
  current st' = current st /\ timer st' = timer st /\ attached st' = attached st /\ users st' = users st /\
  loaded st' = loaded st /\
  (store st' = store st \/ exists m, plain m /\ store st' = m :: store st) /\
  (forall x f, In (x, f) os -> (exists code q, f = FCtrl code q /\ x = s) \/ exists m t, f = FData m t /\ plain m).
Proof.
  unfold pub_broadcast. intros H.
  destruct ina; [inv H; repeat split; auto; intros x f [E|[]]; inv E; left; eauto|].
  destruct ro; [inv H; repeat split; auto; intros x f [E|[]]; inv E; left; eauto|].
  destruct (sab_cat_cases cfg c st s true (user_of cfg s) repl None content) as [E|E]; rewrite E in H; inv H.
  - repeat split; auto. intros x f [E1|[]]; inv E1; left; eauto.
  - repeat split; auto.
    + right. eexists. split; [|reflexivity]. reflexivity.
    + intros x f [E1|Hin]; [inv E1; left; eauto|]. right.
      unfold bcast_data in Hin. apply in_map_iff in Hin. destruct Hin as [y [E1 _]]. inv E1.
      eexists. eexists. split; [reflexivity|reflexivity].
Qed.

Definition clean (st : state) : Prop := current st = None /\ timer st = false /\ Forall plain (store st).

Definition others_clean (w : world) : Prop :=
  forall k t, In (k, t) (w_others w) -> is_p2p (o_cat t) = false -> clean (o_st t).

Lemma in_update {A} k (f : A -> A) l k' v' :
  In (k', v') (update k f l) -> In (k', v') l \/ (k' = k /\ exists v0, lookup k l = Some v0 /\ v' = f v0).
Proof.
  induction l as [|[k0 v0] l IH]; cbn; [intros []|].
  destruct (N.eqb k k0) eqn:E.
  - apply N.eqb_eq in E. subst k0. intros [H|H].
    + inv H. right. split; [reflexivity|]. exists v0. auto.
    + left. right. assumption.
  - intros [H|H].
    + inv H. left. left. reflexivity.
    + destruct (IH H) as [H1|H1]; [left; right; assumption|right; assumption].
Qed.

Lemma lookup_in {A} k (l : list (N * A)) v : lookup k l = Some v -> In (k, v) l.
Proof.
  induction l as [|[k0 v0] l IH]; cbn; [discriminate|].
  destruct (N.eqb k k0) eqn:E.
  - apply N.eqb_eq in E. subst k0. intros H. inv H. left. reflexivity.
  - intros H. right. apply IH. assumption.
Qed.

Lemma clean_detach s st : clean st -> clean (set_attached (remove s (attached st)) st).
Proof. intros H. exact H. Qed.

Lemma others_clean_detach s w : others_clean w -> others_clean (mkWorld (w_p2p w) (detach_all s (w_others w))).
Proof.
  intros H k t Hin Hp. cbn [w_others] in Hin. unfold detach_all in Hin. apply in_map_iff in Hin.
  destruct Hin as [[k0 t0] [E Hin]]. cbn [fst snd] in E. injection E as E1 E2. subst k t.
  cbn [o_cat o_st] in *. apply clean_detach. exact (H k0 t0 Hin Hp).
Qed.

Lemma set_other_clean k st' w :
  others_clean w ->
  (forall t, lookup k (w_others w) = Some t -> is_p2p (o_cat t) = false -> clean st') ->
  others_clean (set_other k st' w).
Proof.
  intros H Hk k' t' Hin Hp. cbn [set_other w_others] in Hin.
  destruct (in_update _ _ _ _ _ Hin) as [H1|[E1 [t0 [H1 E2]]]]; [exact (H _ _ H1 Hp)|].
  subst k' t'. cbn [o_cat o_st] in *. exact (Hk t0 H1 Hp).
Qed.

(* a request addressed to a topic that is not p2p: answers and effect, from every world whose
   other topics carry no call *)
Definition other_out_ok (s : sid) (so : out) : Prop :=
  (fst so = s /\ exists code q, snd so = FCtrl code q) \/ exists m t, snd so = FData m t /\ plain m.

Lemma undead_incl w os so : In so (undead w os) -> In so os.
Proof. unfold undead. intros H. apply filter_In in H. tauto. Qed.

Lemma undead_single w s f : undead w [(s, f)] = [(s, f)] \/ undead w [(s, f)] = [].
Proof. unfold undead. cbn. destruct (negb (mem s (dead (w_p2p w)))); auto. Qed.

Lemma update_same k (l : list (N * otopic)) t :
  lookup k l = Some t -> update k (fun t0 => mkOT (o_cat t0) (o_owner t0) (o_st t)) l = l.
Proof.
  induction l as [|[k0 t0] l IH]; cbn; [discriminate|].
  destruct (N.eqb k k0) eqn:E.
  - intros H. injection H as H. subst t0. destruct t; reflexivity.
  - intros H. rewrite (IH H). reflexivity.
Qed.

Lemma set_other_same k w t : lookup k (w_others w) = Some t -> set_other k (o_st t) w = w.
Proof. intros H. unfold set_other. rewrite (update_same _ _ _ H). destruct w; reflexivity. Qed.

Local Opaque undead.

Definition xpub_other_statement (cfg : config) (w : world) (s : sid) (k : N) (wt : option N) (w' : world) (os : list out) : Prop :=
  w_p2p w' = w_p2p w /\
  Forall (other_out_ok s) os /\
  (wt <> None -> w' = w) /\
  (wt <> None -> os = [] \/ exists code, os = [(s, FCtrl code None)] /\ In code [409; 503; 403; 501]).

Lemma xpub_other cfg w s k content wt repl w' os t :
  lookup k (w_others w) = Some t -> is_p2p (o_cat t) = false ->
  wstep cfg w (XPub s k content wt repl) = (w', os) ->
  xpub_other_statement cfg w s k wt w' os.
Proof.
  intros Hl Hp H. cbn [wstep] in H. unfold xpub_other_statement.
  destruct (negb (alive cfg w s)).
  { injection H as E1 E2. subst w' os. repeat split; auto. }
  rewrite Hl in H.
  assert (H409 : (w, [(s, FCtrl 409 None)]) = (w', os) -> xpub_other_statement cfg w s k wt w' os).
  { intros E. injection E as E1 E2. subst w' os. repeat split; auto.
    - constructor; [|constructor]. left. cbn. split; [reflexivity|eauto].
    - intros _. right. exists 409. split; [reflexivity|left; reflexivity]. }
  assert (Htopic : (let '(st', os0) := pub_broadcast cfg (o_cat t) false false (o_st t) s wt repl content in
                    (set_other k st' w, undead w os0)) = (w', os) -> xpub_other_statement cfg w s k wt w' os).
  { destruct wt as [wv|].
    - rewrite (pub_non_p2p_call_refused cfg (o_cat t) false false (o_st t) s wv repl content Hp).
      intros E. injection E as E1 E2. subst w' os. rewrite (set_other_same _ _ _ Hl). repeat split; auto.
      + apply Forall_forall. intros so Hin. apply undead_incl in Hin. destruct Hin as [E|[]]. subst so.
        left. cbn. split; [reflexivity|eauto].
      + intros _.
        match goal with |- context [undead w [(s, ?f)]] => destruct (undead_single w s f) as [E|E]; rewrite E end; [|left; reflexivity].
        right. eexists. split; [reflexivity|]. right. pose proof (non_p2p_code_values cfg false false) as X. exact X.
    - destruct (pub_broadcast cfg (o_cat t) false false (o_st t) s None repl content) as [st' os0] eqn:Hpb.
      intros E. injection E as E1 E2. subst w' os.
      destruct (pub_plain_effect _ _ _ _ _ _ _ _ _ _ Hpb) as [_ [_ [_ [_ [_ [_ Hos]]]]]].
      repeat split; auto; try (intros X; contradiction X; reflexivity).
      apply Forall_forall. intros [x f] Hin. apply undead_incl in Hin. destruct (Hos x f Hin) as [[code [q [E1 E2]]]|[m [tt [E1 E2]]]].
      + left. cbn. subst. split; [reflexivity|eauto].
      + right. cbn. eauto. }
  unfold xpub_other_statement in *.
  destruct (publish_route (att_other cfg w t s) (is_sys (o_cat t))); auto.
Qed.

Local Transparent undead.

Lemma xnote_unknown cfg w s k e q p :
  lookup k (w_others w) = None -> wstep cfg w (XNote s k e q p) = (w, []).
Proof. intros Hl. cbn [wstep]. destruct (negb (alive cfg w s)); [reflexivity|]. rewrite Hl. reflexivity. Qed.

(* the invariant: no topic other than a p2p topic ever has a call, an armed timer or a stored
   message with head.webrtc *)
Lemma pub_keeps_clean cfg c st s wt r ct st' os :
  is_p2p c = false -> clean st -> pub_broadcast cfg c false false st s wt r ct = (st', os) -> clean st'.
Proof.
  intros Hp Hc H. destruct wt as [wv|].
  - rewrite (pub_non_p2p_call_refused cfg c false false st s wv r ct Hp) in H. inv H. exact Hc.
  - destruct (pub_plain_effect _ _ _ _ _ _ _ _ _ _ H) as [E1 [E2 [_ [_ [_ [E3 _]]]]]].
    destruct Hc as [C1 [C2 C3]]. unfold clean. rewrite E1, E2. repeat split; auto.
    destruct E3 as [E3|[m [Hm E3]]]; rewrite E3; [assumption|constructor; assumption].
Qed.

Lemma wstep_clean cfg w x : others_clean w -> others_clean (fst (wstep cfg w x)).
Proof.
  intros H. destruct x as [o|s k c wt r|s k e q p]; cbn [wstep].
  - destruct (step cfg (w_p2p w) o) as [st' os]. cbn [fst].
    assert (D : others_clean (mkWorld st' (w_others w))) by (intros k t Hin Hp; exact (H k t Hin Hp)).
    destruct o; try exact D.
    destruct (alive cfg w s); [|exact D].
    intros k t Hin Hp. exact (others_clean_detach s w H k t Hin Hp).
  - destruct (negb (alive cfg w s)); [exact H|]. destruct (lookup k (w_others w)) as [t|] eqn:Hl; [|exact H].
    assert (Htopic : others_clean (fst (let '(st', os0) := pub_broadcast cfg (o_cat t) false false (o_st t) s wt r c in
                                        (set_other k st' w, undead w os0)))).
    { destruct (pub_broadcast cfg (o_cat t) false false (o_st t) s wt r c) as [st' os0] eqn:Hpb. cbn [fst].
      apply set_other_clean; [exact H|]. intros t0 Hl0 Hp0. rewrite Hl in Hl0. inv Hl0.
      exact (pub_keeps_clean _ _ _ _ _ _ _ _ _ Hp0 (H k t0 (lookup_in _ _ _ Hl) Hp0) Hpb). }
    destruct (publish_route (att_other cfg w t s) (is_sys (o_cat t))); [exact Htopic|exact Htopic|exact H].
  - destruct (negb (alive cfg w s)); [exact H|]. destruct (lookup k (w_others w)) as [t|] eqn:Hl; [|exact H].
    destruct (is_p2p (o_cat t)) eqn:Hp; [|exact H].
    assert (Htopic : others_clean (fst (let '(st', os0) := note_broadcast_call cfg false (o_st t) s e q p in
                                        (set_other k st' w, undead w os0)))).
    { destruct (note_broadcast_call cfg false (o_st t) s e q p) as [st' os0]. cbn [fst].
      apply set_other_clean; [exact H|]. intros t0 Hl0 Hp0. rewrite Hl in Hl0. inv Hl0. rewrite Hp in Hp0. discriminate. }
    destruct (session_note_call true q (att_other cfg w t s) e); [exact H|exact Htopic| |exact H].
    destruct (loaded (o_st t)); [exact Htopic|exact H].
Qed.

Lemma wrun_clean cfg xs : forall w, others_clean w -> others_clean (wfinal cfg w xs).
Proof.
  unfold wfinal. induction xs as [|x r IH]; intros w H; cbn [wrun]; [exact H|].
  destruct (wstep cfg w x) as [w1 os] eqn:E. specialize (IH w1).
  destruct (wrun cfg w1 r) as [w2 oss]. cbn [fst] in *. apply IH.
  replace w1 with (fst (wstep cfg w x)) by (rewrite E; reflexivity). apply wstep_clean. exact H.
Qed.

(* the initial worlds of the runner are clean *)
Lemma init_other_clean c owner ws atts ld : clean (o_st (init_other c owner ws atts ld)).
Proof. unfold clean. cbn. repeat split; constructor. Qed.
