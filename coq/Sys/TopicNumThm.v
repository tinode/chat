(* C01 consequences of the numbering invariant: what is shown never exceeds the
   persisted high-water mark, which never decreases - for every history with
   any faults, crashes, unloads and restarts. *)
From Coq Require Import ZArith NArith List Bool Lia.
From Tinode Require Import Base.Util Pure.Acs Sys.Topic Sys.TopicTac Sys.TopicFrame Sys.TopicNum Sys.TopicOut.
Import ListNotations.
Open Scope Z_scope.

Lemma publish_shown f s c n sid u content noecho n0 :
  inv_num (mkState s (Some c) n0) ->
  shown_le (t_seqid (h_st (publish f s c n sid u content noecho))) (h_out (publish f s c n sid u content noecho)) /\
  t_seqid s <= t_seqid (h_st (publish f s c n sid u content noecho)).
Proof.
  intros [A [B [C0 [C1 C2]]]]. cbn [st ca] in *.
  destruct (publish_cases f s c n sid u content noecho) as [[E1 [E2 [_ [E3 [_ [code [E4 E5]]]]]]]|[E1 [E2 [E3 [E4 E5]]]]].
  - split.
    + rewrite E4. apply all_plain_shown. apply code_plain. lia.
    + destruct E3 as [E3|E3]; rewrite E3; lia.
  - rewrite E2. split; [|lia]. rewrite E5.
    intros k Hk. unfold out_seqs in Hk. cbn [flat_map snd frame_seqs filter map fst N.eqb P_seq] in Hk.
    cbn in Hk. destruct Hk as [<-|Hk]; [lia|].
    fold (out_seqs (fanout_data (h_ca (publish f s c n sid u content noecho)) (if noecho then sid else 0%N) (Data (c_lastid c + 1) u content)
                    ++ push_out (h_ca (publish f s c n sid u content noecho)) (c_lastid c + 1) u)) in Hk.
    revert k Hk. apply (shown_le_app (c_lastid c + 1)); [apply fanout_data_shown; lia|].
    unfold push_out. destruct (push_rcpt _); intros k Hk; cbn in Hk; intuition; subst; lia.
Qed.

Section StepShown.
Variable dr : Z -> list (Z * Z) -> option (list (Z * Z)).
Variable nr : list (Z * Z) -> list (Z * Z).
Variable sm : sessmap.

Lemma hframe_seqid s c h : hframe s c h -> t_seqid (h_st h) = t_seqid s.
Proof. intros [[_ [H _]] _]. exact H. Qed.

(* every number shown by a step is at most the persisted mark after it, and the mark does not decrease *)
Lemma step_shown f x o : inv_num x ->
  shown_le (t_seqid (st (fst (step dr nr sm f x o)))) (snd (step dr nr sm f x o)) /\
  t_seqid (st x) <= t_seqid (st (fst (step dr nr sm f x o))).
Proof.
  intros I. destruct x as [s cx n0].
  assert (forall k, In k (map m_seq (msgs s)) -> k <= t_seqid s) as IA.
  { destruct I as [A _]. intros k Hk. apply A in Hk. cbn in *. lia. }
  assert (0 <= t_seqid s) as I0.
  { destruct I as [A [B C]]. destruct cx; cbn [st ca] in *; lia. }
  destruct (step_shape dr nr sm f (mkState s cx n0) o) as [c h LD HD|n' o' RF| |sid _|sid _|sid t m _ _];
    cbn [fst snd st ca] in *.
  - assert (inv_num (mkState s (Some c) n0)) as IC.
    { destruct LD as [->|[-> [-> _]]]; [exact I|]. destruct I as [A [B C]]. apply load_inv; auto. }
    assert (0 <= c_lastid c <= t_seqid s) as [C0 C1] by (destruct IC as [_ [_ C]]; cbn [st ca] in C; lia).
    assert (forall h, hframe s c h -> all_out plain (h_out h) ->
              shown_le (t_seqid (h_st h)) (h_out h) /\ t_seqid s <= t_seqid (h_st h)) as PL.
    { intros h0 HF HO. rewrite (hframe_seqid _ _ _ HF). split; [now apply all_plain_shown|lia]. }
    destruct HD.
    + apply PL; [apply sub_reply_frame|apply sub_reply_out].
    + apply PL; [apply leave_unsub_frame|apply leave_unsub_out].
    + split; [apply all_plain_shown, leave_out|cbn [h_st]; lia].
    + exact (publish_shown _ _ _ _ _ _ _ _ _ IC).
    + rewrite (hframe_seqid _ _ _ (note_frame f s c 0 sid (sess_uid sm sid) what seq)).
      split; [|lia]. eapply shown_le_mono; [exact C1|]. apply note_shown. exact C0.
    + rewrite (proj1 (queried_same _ _ _ _ _ _ _ H)). split; [|lia]. destruct H.
      * apply get_data_shown. exact IA.
      * eapply shown_le_mono; [exact C1|]. apply get_desc_shown. exact C0.
      * apply all_plain_shown, get_sub_out.
      * apply all_plain_shown, get_del_out.
    + destruct (del_msg_num dr f s c 0 sid (sess_uid sm sid) req hard) as [E1 _]. rewrite E1.
      split; [apply all_plain_shown; apply del_msg_out|lia].
    + apply PL; [apply set_sub_frame|apply set_sub_out].
    + apply PL; [apply del_sub_frame|apply del_sub_out].
  - split; [|lia]. apply all_plain_shown.
    destruct RF as [->|(sid & code & -> & H)]; [apply all_out_nil|exact (code_plain _ _ H)].
  - split; [apply all_plain_shown; apply all_out_nil|lia].
  - split; [|lia]. apply offline_get_desc_shown. exact I0.
  - split; [apply all_plain_shown; apply offline_get_sub_out|lia].
  - destruct (sframe_seqs _ _ (offline_set_sub_frame f s sid (sess_uid sm sid) t m)) as [E1 _]. rewrite E1.
    split; [apply all_plain_shown; apply offline_set_sub_out|lia].
Qed.
End StepShown.

Section RunNum.
Variable dr : Z -> list (Z * Z) -> option (list (Z * Z)).
Variable nr : list (Z * Z) -> list (Z * Z).
Variable sm : sessmap.

Lemma step_f_inv_num x fo : inv_num x -> inv_num (fst (step_f dr nr sm x fo)).
Proof. apply step_f_inv; [apply step_inv_num|intros s c n; apply inv_num_unload]. Qed.

Lemma step_f_shown x fo : inv_num x ->
  shown_le (t_seqid (st (fst (step_f dr nr sm x fo)))) (snd (step_f dr nr sm x fo)) /\
  t_seqid (st x) <= t_seqid (st (fst (step_f dr nr sm x fo))).
Proof.
  intros I. unfold step_f. pose proof (step_shown dr nr sm (fst fo) x (snd fo) I) as S.
  destruct (step dr nr sm (fst fo) x (snd fo)) as [x1 o1]. cbn [fst snd] in *.
  destruct (fst fo); cbn [fst snd st]; auto.
Qed.

Lemma run_inv_num h : forall x, inv_num x -> inv_num (fst (run dr nr sm x h)).
Proof. apply run_inv, step_f_inv_num. Qed.

(* every number shown anywhere in the history is at most the persisted mark at its end *)
Lemma run_shown h : forall x, inv_num x ->
  Forall (shown_le (t_seqid (st (fst (run dr nr sm x h))))) (snd (run dr nr sm x h)) /\
  t_seqid (st x) <= t_seqid (st (fst (run dr nr sm x h))).
Proof.
  induction h as [|fo h IH]; intros x I; cbn [run fst snd].
  - split; [constructor|lia].
  - pose proof (step_f_inv_num x fo I) as I1. pose proof (step_f_shown x fo I) as [S1 S2].
    destruct (step_f dr nr sm x fo) as [x1 o1]. cbn [fst snd] in *.
    destruct (IH x1 I1) as [R1 R2]. destruct (run dr nr sm x1 h) as [x2 os]. cbn [fst snd] in *.
    split; [|lia]. constructor; [|exact R1]. eapply shown_le_mono; [exact R2|exact S1].
Qed.
End RunNum.

(* the initial store: no messages, the persisted high-water mark is 0; the histories start with nothing loaded *)
Definition fresh (s : store) : Prop := msgs s = [] /\ t_seqid s = 0.
Lemma fresh_inv s n : fresh s -> inv_num (mkState s None n).
Proof. intros [E1 E2]. unfold inv_num, seqs. cbn. rewrite E1, E2. cbn. repeat split; try lia; try constructor; intros k []. Qed.

(* only an accepted publish acknowledges a number or advances lastID *)
Definition nonack (fr : frame) : bool := negb (is_ack fr).
Lemma plain_nonack fr : plain fr = true -> nonack fr = true.
Proof.
  destruct fr; cbn; try discriminate; auto.
  all: intros H; apply andb_true_iff in H; destruct H as [H _]; apply negb_true_iff in H; apply Z.eqb_neq in H;
    unfold nonack, is_ack; destruct code as [|p|p]; auto; repeat (destruct p; auto); lia.
Qed.
Lemma all_plain_nonack o : all_out plain o -> all_out nonack o.
Proof. intros H e He. apply plain_nonack. auto. Qed.
Lemma all_info_nonack o : all_out is_info o -> all_out nonack o.
Proof. intros H e He. specialize (H e He). destruct (snd e); try discriminate; reflexivity. Qed.
Lemma get_data_nonack f s c n sid u a b l : all_out nonack (h_out (get_data f s c n sid u a b l)).
Proof.
  unfold get_data. repeat break_match; cbn [h_out]; try solve [apply all_plain_nonack; out_solve].
  apply all_out_app; [|apply all_plain_nonack; out_solve].
  intros e He. apply in_map_iff in He. destruct He as [m0 [<- _]]. reflexivity.
Qed.
Lemma get_desc_nonack s c n sid u : all_out nonack (h_out (get_desc s c n sid u)).
Proof. unfold get_desc. repeat break_match; cbn [h_out]; intros e [<-|[]]; reflexivity. Qed.
Lemma offline_get_desc_nonack f s sid u : all_out nonack (o_out (offline_get_desc f s sid u)).
Proof. unfold offline_get_desc. repeat break_match; cbn [o_out]; intros e [<-|[]]; reflexivity. Qed.

Section StepLast.
Variable dr : Z -> list (Z * Z) -> option (list (Z * Z)).
Variable nr : list (Z * Z) -> list (Z * Z).
Variable sm : sessmap.

Definition lastid_of (x : state) : option Z := option_map c_lastid (ca x).

(* A step that is not a publish by an attached session acknowledges nothing and,
   if the topic stays loaded, leaves lastID alone. *)
Lemma step_nonpub f x o c :
  ca x = Some c ->
  (forall sid content noecho, o = OPub sid content noecho -> attached c sid = false) ->
  all_out nonack (snd (step dr nr sm f x o)) /\
  (forall c', ca (fst (step dr nr sm f x o)) = Some c' -> c_lastid c' = c_lastid c).
Proof.
  intros Hc NP.
  destruct (step_shape dr nr sm f x o) as [c0 h LD HD|n' o' RF| |sid _|sid _|sid t m _ _]; cbn [fst snd ca];
    rewrite ?Hc; try (split; [|intros c' H; now inv H]).
  - destruct LD as [LD|[LD _]]; rewrite Hc in LD; [|discriminate]. injection LD as <-.
    assert (forall h, hframe (st x) c h -> forall c', Some (h_ca h) = Some c' -> c_lastid c' = c_lastid c) as HF
      by (intros h0 [_ [E _]] c' H; inv H; exact E).
    assert (forall h, hframe (st x) c h -> all_out plain (h_out h) ->
              all_out nonack (h_out h) /\ (forall c', Some (h_ca h) = Some c' -> c_lastid c' = c_lastid c)) as PL
      by (intros h0 F O; split; [apply all_plain_nonack, O|apply HF, F]).
    destruct HD.
    + apply PL; [apply sub_reply_frame|apply sub_reply_out].
    + apply PL; [apply leave_unsub_frame|apply leave_unsub_out].
    + apply PL; [split; [apply sframe_refl|apply leave_frame]|apply leave_out].
    + rewrite (NP _ _ _ eq_refl) in H. discriminate.
    + split; [apply all_info_nonack; apply note_out|apply HF; apply note_frame].
    + split; [|apply HF, hframe_same, (queried_same _ _ _ _ _ _ _ H)]. destruct H.
      * apply get_data_nonack.
      * apply get_desc_nonack.
      * apply all_plain_nonack, get_sub_out.
      * apply all_plain_nonack, get_del_out.
    + split; [apply all_plain_nonack; apply del_msg_out|]. intros c' H. inv H. apply del_msg_num.
    + apply PL; [apply set_sub_frame|apply set_sub_out].
    + apply PL; [apply del_sub_frame|apply del_sub_out].
  - apply all_plain_nonack. destruct RF as [->|(sid & code & -> & H)]; [apply all_out_nil|exact (code_plain _ _ H)].
  - apply all_out_nil.
  - apply offline_get_desc_nonack.
  - apply all_plain_nonack; apply offline_get_sub_out.
  - apply all_plain_nonack; apply offline_set_sub_out.
Qed.

(* a publish by an attached session: the characterisation of [publish] applies *)
Lemma step_pub f s c n0 sid content noecho :
  attached c sid = true ->
  step dr nr sm f (mkState s (Some c) n0) (OPub sid content noecho) =
  (let h := publish f s c 0 sid (sess_uid sm sid) content noecho in
   (mkState (h_st h) (Some (h_ca h)) (h_n h), h_out h)).
Proof. intros AT. unfold step. cbn [st ca]. rewrite AT. reflexivity. Qed.
End StepLast.
