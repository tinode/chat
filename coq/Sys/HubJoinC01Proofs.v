(* C01: proofs about concurrent joins to a topic that is not loaded (model Sys/HubJoinC01.v). *)
From Coq Require Import ZArith NArith List Bool Lia.
From Tinode Require Import Base.Util Sys.HubJoinC01.
Import ListNotations.
Open Scope Z_scope.

(* the stored side: only an accepted publish touches it *)
Definition jstore_ok (x : jstate) : Prop :=
  (forall n, In n (j_rows x) -> n <= j_seqid x) /\
  (forall p, In p (j_saves x) -> fst p <= j_seqid x /\ snd p = true) /\
  NoDup (map fst (j_saves x)).
Definition jinv (x : jstate) : Prop :=
  jstore_ok x /\
  match j_insts x with
  | [] => j_reg x = None /\ j_att x = []
  | [t] => j_reg x = Some 0%nat /\ (forall s i, In (s, i) (j_att x) -> i = 0%nat) /\
           if i_live t then (forall n, In n (j_rows x) -> n <= i_lastid t) /\
                            (forall p, In p (j_saves x) -> fst p <= i_lastid t)
           else j_att x = []
  | _ => False
  end.

Lemma jlookup_in sid l i : jlookup sid l = Some i -> In (sid, i) l.
Proof.
  induction l as [|[k v] r IH]; cbn; [discriminate|].
  destruct (N.eqb sid k) eqn:E; intros H.
  - apply N.eqb_eq in E. inversion H. subst. now left.
  - right. now apply IH.
Qed.

Lemma jinit_inv seqid rows : (forall n, In n rows -> n <= seqid) -> jinv (jinit seqid rows).
Proof.
  intros H. unfold jinv, jstore_ok, jinit. cbn. split; [split; [exact H|split; [intros p []|constructor]]|]. split; reflexivity.
Qed.

Lemma jstep_inv x e : jinv x -> jinv (fst (jstep true x e)).
Proof.
  intros [S D]. destruct x as [seqid rows reg insts att saves]. cbn [j_seqid j_rows j_reg j_insts j_att j_saves] in D.
  pose proof S as (A & B & C). cbn [j_seqid j_rows j_saves] in A, B, C.
  destruct insts as [|t [|t2 r]]; [| |contradiction].
  - (* no instance yet *)
    destruct D as [D1 D2]. subst reg att.
    destruct e as [sid|i|sid]; cbn.
    + unfold jinv. cbn. split; [exact S|]. split; [reflexivity|]. split; [intros s i []|reflexivity].
    + destruct i; cbn; unfold jinv; cbn; (split; [exact S|]); split; reflexivity.
    + unfold jinv. cbn. split; [exact S|]. split; reflexivity.
  - destruct D as (D1 & D2 & D3). subst reg.
    destruct e as [sid|i|sid]; cbn [jstep j_seqid j_rows j_reg j_insts j_att j_saves nth_error].
    + (* join: the registered instance *)
      destruct (i_live t) eqn:L; cbn [fst]; unfold jinv; cbn [j_seqid j_rows j_reg j_insts j_att j_saves].
      * rewrite L. split; [exact S|]. split; [reflexivity|]. split; [|exact D3].
        intros s i [H|H]; [inversion H; reflexivity|eauto].
      * rewrite L. split; [exact S|]. split; [reflexivity|]. split; [exact D2|exact D3].
    + destruct i as [|i]; cbn [nth_error].
      * destruct (i_live t) eqn:L; cbn [fst].
        { unfold jinv; cbn [j_seqid j_rows j_reg j_insts j_att j_saves]. rewrite L. split; [exact S|]. split; [reflexivity|]. split; [exact D2|exact D3]. }
        unfold jinv; cbn [j_seqid j_rows j_reg j_insts j_att j_saves jset i_live i_lastid].
        subst att. split; [exact S|]. split; [reflexivity|]. split.
        -- intros s i [H|[]]. inversion H. reflexivity.
        -- split; [exact A|]. intros p Hp. apply B. exact Hp.
      * replace (nth_error (@nil inst_c01j) i) with (@None inst_c01j) by (destruct i; reflexivity).
        cbn [fst]. unfold jinv; cbn [j_seqid j_rows j_reg j_insts j_att j_saves]. split; [exact S|]. split; [reflexivity|]. split; assumption.
    + destruct (jlookup sid att) as [i|] eqn:LK; cbn [fst].
      2:{ unfold jinv; cbn [j_seqid j_rows j_reg j_insts j_att j_saves]. split; [exact S|]. split; [reflexivity|]. split; assumption. }
      pose proof (D2 _ _ (jlookup_in _ _ _ LK)) as Ei. subst i. cbn [nth_error].
      destruct (i_live t) eqn:L.
      2:{ subst att. discriminate. }
      destruct D3 as [R SV].
      destruct (existsb (Z.eqb (i_lastid t + 1)) rows) eqn:EX.
      { exfalso. apply existsb_exists in EX. destruct EX as [n [Hn En]]. apply Z.eqb_eq in En. specialize (R _ Hn). lia. }
      cbn [fst]. unfold jinv, jstore_ok; cbn [j_seqid j_rows j_reg j_insts j_att j_saves jset i_live i_lastid].
      split; [split; [|split]|split; [reflexivity|split; [exact D2|split]]].
      * intros n Hn. apply in_app_or in Hn. destruct Hn as [Hn|[Hn|[]]]; [specialize (R _ Hn); lia|lia].
      * intros p H. apply in_app_or in H. destruct H as [H|[H|[]]].
        -- split; [specialize (SV _ H); lia|apply B; exact H].
        -- subst p; cbn; split; [lia|reflexivity].
      * rewrite map_app. cbn [map fst].
        assert (~ In (i_lastid t + 1) (map fst saves)) as NI.
        { intros Hin. apply in_map_iff in Hin. destruct Hin as [p [Hp1 Hp2]]. specialize (SV _ Hp2). lia. }
        apply (NoDup_Add (Add_app _ _ [])). rewrite app_nil_r. split; assumption.
      * intros n Hn. apply in_app_or in Hn. destruct Hn as [Hn|[Hn|[]]]; [specialize (R _ Hn); lia|lia].
      * intros p Hp. apply in_app_or in Hp. destruct Hp as [Hp|[Hp|[]]]; [specialize (SV _ Hp); lia|subst p; cbn; lia].
Qed.

Lemma jrun_inv h : forall x, jinv x -> jinv (fst (jrun true x h)).
Proof.
  induction h as [|e r IH]; intros x I; [exact I|].
  cbn [jrun]. pose proof (jstep_inv x e I) as I1.
  destruct (jstep true x e) as [x1 o1]. cbn [fst] in I1.
  specialize (IH x1 I1). destruct (jrun true x1 r) as [x2 os]. exact IH.
Qed.

Lemma jinv_one_instance x : jinv x -> (length (j_insts x) <= 1)%nat.
Proof. intros [_ D]. destruct (j_insts x) as [|t [|t2 r]]; cbn; [lia|lia|contradiction]. Qed.

(* the witness for the late registration: both joins are taken by the hub before either load completes *)
Definition join_wit : list jev := [JJoin 1; JJoin 2; JInit 0; JInit 1; JPub 1; JPub 2].
Lemma join_wit_late :
  let r := jrun false (jinit 0 []) join_wit in
  length (j_insts (fst r)) = 2%nat /\ j_saves (fst r) = [(1, true); (1, false)] /\
  snd r = [[]; []; [JCtrl 1 200]; [JCtrl 2 200]; [JAck 1 1]; [JCtrl 2 500]].
Proof. vm_compute. repeat split; reflexivity. Qed.
Lemma join_wit_early :
  let r := jrun true (jinit 0 []) (join_wit ++ [JJoin 2; JPub 2]) in
  length (j_insts (fst r)) = 1%nat /\ j_saves (fst r) = [(1, true); (2, true)] /\
  snd r = [[]; [JCtrl 2 503]; [JCtrl 1 200]; []; [JAck 1 1]; [JCtrl 2 409]; [JCtrl 2 200]; [JAck 2 2]].
Proof. vm_compute. repeat split; reflexivity. Qed.
