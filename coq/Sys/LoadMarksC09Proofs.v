(* Proofs about Sys/LoadMarksC09.v: after ANY load (every topic kind, every branch of initTopicP2P,
   any failing store call) every cached mark is the STORED mark of that same user's row;
   subscriptionReply keeps that; what {get desc} reports right after a (re)load. *)
From Coq Require Import ZArith NArith List Bool Lia.
From Tinode Require Import Base.Util Pure.Acs Sys.Topic Sys.TopicTac Sys.TopicMarks Sys.TopicCohMarks Sys.TopicLoad Sys.LoadMarksC09.
Import ListNotations.
Open Scope Z_scope.

(* ------------------------------------------------------------------ *)
(* the marks of a user: in the store (live row, as SubscriptionGet finds it) and in the cache     *)
Definition smk (s : store) (u : N) : option (Z * Z * Z) :=
  match find_sub u (subs s) with
  | Some r => if s_deleted r then None else Some (s_read r, s_recv r, s_delid r)
  | None => None
  end.
Definition kmk (c : kcache) (u : N) : option (Z * Z * Z) :=
  match alookup u (k_users c) with
  | Some p => if kp_deleted p then None else Some (kp_read p, kp_recv p, kp_delid p)
  | None => None
  end.
(* every live cache entry carries exactly the marks of its user's live stored row *)
Definition keq (s : store) (c : kcache) : Prop := forall u m, kmk c u = Some m -> smk s u = Some m.

(* a P2P topic has rows of its two parties only (the topic name is made of the two user ids) *)
Definition p2p_parties (s : store) (u1 u2 : N) : Prop := forall r, In r (subs s) -> s_user r = u1 \/ s_user r = u2.

(* ------------------------------------------------------------------ *)
(* store primitives and smk                                             *)

Lemma smk_sub_create s u w g u0 : smk (ad_sub_create s u w g) u0 = if N.eqb u0 u then Some (0, 0, 0) else smk s u0.
Proof. unfold smk. rewrite find_sub_create. destruct (N.eqb u0 u); reflexivity. Qed.
Lemma smk_update_nomarks s u w g u0 : smk (ad_subs_update s u (mkUpd w g None None None)) u0 = smk s u0.
Proof.
  unfold smk. rewrite find_sub_update. destruct (_ || _); [|reflexivity]. destruct (find_sub u0 (subs s)); reflexivity.
Qed.
Lemma smk_p2p_row s u : t_exists s = false -> subs s = [] -> smk (p2p_row s) u = None.
Proof. intros _ E. unfold smk, p2p_row. cbn [subs]. rewrite E. reflexivity. Qed.

(* ------------------------------------------------------------------ *)
(* rows selected by a query                                             *)
Lemma find_sub_in u l r : NoDup (map s_user l) -> In r l -> s_user r = u -> find_sub u l = Some r.
Proof. intros ND Hin <-. exact (find_sub_nodup l r ND Hin). Qed.
Lemma users_filter (P : subrow -> bool) l : NoDup (map s_user l) -> NoDup (map s_user (filter P l)).
Proof. exact (nodup_map_filter s_user P l). Qed.
Lemma find_sub_filter (P : subrow -> bool) u l r :
  NoDup (map s_user l) -> find_sub u (filter P l) = Some r -> find_sub u l = Some r /\ P r = true.
Proof.
  intros ND H. pose proof (find_sub_user _ _ _ H) as E. unfold find_sub in H. apply find_some in H.
  destruct H as [Hin _]. apply filter_In in Hin. destruct Hin as [Hin HP]. split; [|exact HP].
  apply find_sub_in; auto.
Qed.

(* loadSubscribers / case 4: the entry of u is built from u's own row *)
Lemma kload_users_lookup u0 rows : NoDup (map s_user rows) -> forall acc,
  alookup u0 (fold_left (fun acc r => aset (s_user r) (kp_of_row r) acc) rows acc) =
  match find_sub u0 rows with Some r => Some (kp_of_row r) | None => alookup u0 acc end.
Proof.
  unfold find_sub. induction rows as [|a rows IH]; intros ND acc; cbn; [reflexivity|].
  inversion ND as [|? ? Hn ND']; subst. rewrite (IH ND'). destruct (N.eqb (s_user a) u0) eqn:E.
  - apply N.eqb_eq in E. subst u0.
    assert (find (fun r => N.eqb (s_user r) (s_user a)) rows = None) as F.
    { destruct (find (fun r => N.eqb (s_user r) (s_user a)) rows) eqn:F; [|reflexivity].
      apply find_some in F. destruct F as [Hin E]. apply N.eqb_eq in E. exfalso. apply Hn. rewrite <- E. apply in_map. exact Hin. }
    rewrite F, alookup_aset, N.eqb_refl. reflexivity.
  - destruct (find (fun r => N.eqb (s_user r) u0) rows); [reflexivity|].
    rewrite alookup_aset, (N.eqb_sym u0), E. reflexivity.
Qed.

Lemma kload_users_keq (P : subrow -> bool) s lastid delid :
  und s -> (forall r, P r = true -> s_deleted r = false) ->
  keq s (mkKC lastid delid (kload_users (filter P (subs s))) []).
Proof.
  intros U HP u m. unfold kmk, kload_users. cbn [k_users].
  rewrite kload_users_lookup by (apply users_filter; exact U). cbn [alookup].
  destruct (find_sub u (filter P (subs s))) as [r|] eqn:F; [|discriminate].
  apply find_sub_filter in F; [|exact U]. destruct F as [F PR]. cbn [kp_of_row kp_deleted kp_read kp_recv kp_delid].
  intros H. inv H. unfold smk. rewrite F, (HP r PR). reflexivity.
Qed.

(* ------------------------------------------------------------------ *)
(* the loaders                                                          *)
Lemma live_rows_keq s lastid delid : und s -> keq s (mkKC lastid delid (kload_users (live_rows s)) []).
Proof.
  intros U. apply kload_users_keq; [exact U|]. intros r H. now apply negb_true_iff in H.
Qed.

Lemma kinit_grp_keq f s n s' c n' ns : und s -> kinit_grp f s n = KOk s' c n' ns -> s' = s /\ keq s c.
Proof.
  unfold kinit_grp. intros U H. repeat (break_match_hyp; try discriminate); inv H.
  split; [reflexivity|]. now apply live_rows_keq.
Qed.
Lemma kinit_me_fnd_keq f s n s' c n' ns : und s -> kinit_me_fnd f s n = KOk s' c n' ns -> s' = s /\ keq s c.
Proof.
  unfold kinit_me_fnd. intros U H. repeat (break_match_hyp; try discriminate); inv H.
  split; [reflexivity|]. now apply live_rows_keq.
Qed.

(* the two-entry table of cases 1 and 2 *)
Lemma kmk_two u1 u2 v1 v2 lastid delid u :
  kmk (mkKC lastid delid [(u1, v1); (u2, v2)] []) u =
  if N.eqb u u1 then (if kp_deleted v1 then None else Some (kp_read v1, kp_recv v1, kp_delid v1))
  else if N.eqb u u2 then (if kp_deleted v2 then None else Some (kp_read v2, kp_recv v2, kp_delid v2)) else None.
Proof. unfold kmk. cbn [k_users alookup]. destruct (N.eqb u u1); [reflexivity|]. destruct (N.eqb u u2); reflexivity. Qed.

Lemma p2p_rows_in s r : In r (p2p_rows s) -> In r (subs s) /\ s_deleted r = false.
Proof. unfold p2p_rows. intros H. apply filter_In in H. destruct H as [H1 H2]. apply andb_true_iff in H2. destruct H2 as [H2 _]. apply negb_true_iff in H2. auto. Qed.

Lemma smk_of_row s r : und s -> In r (subs s) -> s_deleted r = false -> smk s (s_user r) = Some (s_read r, s_recv r, s_delid r).
Proof. intros U Hin D. unfold smk. rewrite (find_sub_in (s_user r) (subs s) r U Hin eq_refl), D. reflexivity. Qed.

(* one row per user and rows of two parties only: at most two live rows *)
Lemma p2p_rows_three s u1 u2 r r2 r3 rest :
  und s -> p2p_parties s u1 u2 -> p2p_rows s <> r :: r2 :: r3 :: rest.
Proof.
  intros U PP RS.
  pose proof (users_filter (fun r => negb (s_deleted r) && known s (s_user r)) (subs s) U) as ND.
  fold (p2p_rows s) in ND.
  assert (forall x, In x (p2p_rows s) -> s_user x = u1 \/ s_user x = u2) as P by (intros x Hx; apply PP, p2p_rows_in, Hx).
  rewrite RS in ND, P. cbn [map] in ND.
  inversion ND as [|? ? N1 ND1]; subst. inversion ND1 as [|? ? N2 ND2]; subst. cbn [In] in N1, N2, P.
  (* three users among two values: two of them are equal *)
  destruct (P r) as [A|A], (P r2) as [B|B], (P r3) as [C|C]; auto;
    first [apply N1; left; congruence | apply N1; right; left; congruence | apply N2; left; congruence].
Qed.

(* initTopicP2P, every branch that loads the topic: the store it leaves and the entries it builds *)
Definition p2p_loaded (s : store) (u1 u2 : N) (r : kres) : Prop :=
  match r with
  | KErr _ _ => True
  | KOk s' c _ _ =>
    (* case 4: both subscriptions exist *)
    (t_exists s = true /\ s' = s /\ c = mkKC (t_seqid s) (t_delid s) (kload_users (p2p_rows s)) []) \/
    (* cases 1 and 2: two entries, each built from a stored row or from a new subscription *)
    N.eqb u1 u2 = false /\ alookup u1 (users s) <> None /\ alookup u2 (users s) <> None /\ exists w1 g1 o1 w2 g2 o2,
      c = mkKC (if t_exists s then t_seqid s else 0) (if t_exists s then t_delid s else 0)
               [(u1, kp_of_sub w1 g1 o1); (u2, kp_of_sub w2 g2 o2)] [] /\
      ((* the requester's exists, the other party's is recreated *)
       (exists r, t_exists s = true /\ p2p_rows s = [r] /\ s_user r = u1 /\ o1 = Some r /\ o2 = None /\
                  s' = ad_sub_create s u2 w2 g2) \/
       (* the other party's exists, the requester's is recreated *)
       (exists r, t_exists s = true /\ p2p_rows s = [r] /\ s_user r <> u1 /\ o1 = None /\ o2 = Some r /\
                  s' = ad_sub_create s u1 w1 g1) \/
       (* new topic *)
       (t_exists s = false /\ o1 = None /\ o2 = None /\ s' = ad_sub_create (ad_sub_create (p2p_row s) u1 w1 g1) u2 w2 g2) \/
       (* more than two live rows: no store with one row per user and rows of the two parties only *)
       (exists r r2 r3 rest, p2p_rows s = r :: r2 :: r3 :: rest))
  end.

Lemma kinit_p2p_cases f s n u1 u2 : p2p_loaded s u1 u2 (kinit_p2p f s n u1 u2).
Proof.
  unfold kinit_p2p.
  destruct (call f n) as [ok1 n1]. destruct (negb ok1); [exact I|].
  destruct (t_exists s) eqn:EX.
  - destruct (call f n1) as [ok2 n2]. destruct (negb ok2); [exact I|]. cbn [andb].
    destruct (length (p2p_rows s) =? 0)%nat eqn:L0; [exact I|].
    destruct (length (p2p_rows s) =? 2)%nat eqn:L2; [left; auto|].
    destruct (call f n2) as [ok3 n3]. destruct (negb ok3); [exact I|].
    destruct (N.eqb u1 u2) eqn:NEQ; [exact I|].
    destruct (alookup u1 (users s)) as [acc1|] eqn:A1; [|exact I].
    destruct (alookup u2 (users s)) as [acc2|] eqn:A2; [|exact I].
    destruct (call f n3) as [ok4 n4]. destruct (negb ok4); [exact I|].
    cbn [aset]. rewrite (N.eqb_sym u2 u1), NEQ. right. rewrite EX, A1, A2.
    split; [exact NEQ|]. split; [discriminate|]. split; [discriminate|]. do 6 eexists. split; [reflexivity|].
    destruct (p2p_rows s) as [|r [|r2 [|r3 rest]]]; cbn in L0, L2; try discriminate; [|eauto 8].
    destruct (N.eqb (s_user r) u1) eqn:E1.
    + apply N.eqb_eq in E1. left. exists r. auto 8.
    + apply N.eqb_neq in E1. right; left. exists r. auto 8.
  - cbn [andb]. destruct (call f n1) as [ok3 n3]. destruct (negb ok3); [exact I|].
    destruct (N.eqb u1 u2) eqn:NEQ; [exact I|].
    destruct (alookup u1 (users s)) as [acc1|] eqn:A1; [|exact I].
    destruct (alookup u2 (users s)) as [acc2|] eqn:A2; [|exact I].
    destruct (call f n3) as [ok4 n4]. destruct (negb ok4); [exact I|].
    cbn [aset]. rewrite (N.eqb_sym u2 u1), NEQ. right. rewrite EX, A1, A2.
    split; [exact NEQ|]. split; [discriminate|]. split; [discriminate|]. do 6 eexists. split; [reflexivity|].
    right; right; left. auto.
Qed.

Lemma kinit_p2p_keq_gen f s n u1 u2 s' c n' ns :
  und s -> (alookup u2 (users s) <> None -> p2p_parties s u1 u2) ->
  kinit_p2p f s n u1 u2 = KOk s' c n' ns -> keq s' c.
Proof.
  intros U PP0 H. pose proof (kinit_p2p_cases f s n u1 u2) as S. rewrite H in S.
  destruct S as [(_ & -> & ->) | (NEQ & _ & A2 & w1 & g1 & o1 & w2 & g2 & o2 & -> &
         [(r & _ & RS & E & -> & -> & ->) | [(r & _ & RS & E & -> & -> & ->) | [(_ & -> & -> & ->) | (r & r2 & r3 & rest & RS)]]])].
  - unfold p2p_rows. apply kload_users_keq; [exact U|].
    intros r Hr. apply andb_true_iff in Hr. destruct Hr as [Hr _]. now apply negb_true_iff in Hr.
  - assert (In r (subs s) /\ s_deleted r = false) as [Hin D] by (apply p2p_rows_in; rewrite RS; now left).
    intros u m. rewrite kmk_two, smk_sub_create. cbn [kp_of_sub kp_deleted kp_read kp_recv kp_delid].
    destruct (N.eqb u u1) eqn:EU.
    + apply N.eqb_eq in EU. subst u. rewrite NEQ, <- E. intros X. injection X as <-. now apply smk_of_row.
    + destruct (N.eqb u u2); [auto|discriminate].
  - assert (In r (subs s) /\ s_deleted r = false) as [Hin D] by (apply p2p_rows_in; rewrite RS; now left).
    assert (s_user r = u2) as E2 by (destruct (PP0 A2 r Hin); [contradiction | assumption]).
    intros u m. rewrite kmk_two, smk_sub_create. cbn [kp_of_sub kp_deleted kp_read kp_recv kp_delid].
    destruct (N.eqb u u1) eqn:EU; [auto|]. destruct (N.eqb u u2) eqn:E3; [|discriminate].
    apply N.eqb_eq in E3. subst u. rewrite <- E2. intros X. injection X as <-. now apply smk_of_row.
  - intros u m. rewrite kmk_two, !smk_sub_create. cbn [kp_of_sub kp_deleted kp_read kp_recv kp_delid].
    destruct (N.eqb u u2); [destruct (N.eqb u u1); auto|]. destruct (N.eqb u u1); [auto|discriminate].
  - destruct (p2p_rows_three s u1 u2 r r2 r3 rest U (PP0 A2) RS).
Qed.

Lemma kinit_p2p_keq f s n u1 u2 s' c n' ns :
  und s -> p2p_parties s u1 u2 -> (t_exists s = false -> subs s = []) ->
  kinit_p2p f s n u1 u2 = KOk s' c n' ns -> keq s' c.
Proof. intros U PP _. apply kinit_p2p_keq_gen; auto. Qed.

(* AFTER ANY LOAD every cached mark (read, recv, delID) is the stored mark of that same user's row
   (0 for a row the load has just created): every topic kind, every branch, any failing store call *)
Lemma kinit_topic_keq k f s n u1 u2 s' c n' ns :
  und s -> (k = KP2P -> p2p_parties s u1 u2 /\ (t_exists s = false -> subs s = [])) ->
  kinit_topic k f s n u1 u2 = KOk s' c n' ns -> keq s' c.
Proof.
  intros U HP H. destruct k; cbn [kinit_topic] in H.
  - apply kinit_me_fnd_keq in H; [|exact U]. destruct H as [-> H]. exact H.
  - apply kinit_me_fnd_keq in H; [|exact U]. destruct H as [-> H]. exact H.
  - destruct (HP eq_refl) as [PP NE]. eapply kinit_p2p_keq; eauto.
  - apply kinit_grp_keq in H; [|exact U]. destruct H as [-> H]. exact H.
  - apply kinit_grp_keq in H; [|exact U]. destruct H as [-> H]. exact H.
Qed.

(* no entry is marked deleted right after a load *)
Lemma kload_users_live u rows p : alookup u (kload_users rows) = Some p -> kp_deleted p = false.
Proof.
  unfold kload_users.
  assert (forall acc, (forall u p, alookup u acc = Some p -> kp_deleted p = false) ->
            alookup u (fold_left (fun acc r => aset (s_user r) (kp_of_row r) acc) rows acc) = Some p -> kp_deleted p = false) as G.
  { induction rows as [|a rows IH]; cbn; intros acc HA; [apply HA|]. apply IH. intros u0 p0. rewrite alookup_aset.
    destruct (N.eqb u0 (s_user a)); [intros H; inv H; reflexivity|apply HA]. }
  apply G. intros u0 p0. cbn. discriminate.
Qed.
Lemma kinit_p2p_live f s n u1 u2 s' c n' ns u p :
  kinit_p2p f s n u1 u2 = KOk s' c n' ns -> alookup u (k_users c) = Some p -> kp_deleted p = false.
Proof.
  intros H. pose proof (kinit_p2p_cases f s n u1 u2) as S. rewrite H in S.
  destruct S as [(_ & _ & ->) | (_ & _ & _ & w1 & g1 & o1 & w2 & g2 & o2 & -> & _)]; [apply kload_users_live|].
  cbn [k_users alookup]. destruct (N.eqb u u1); [|destruct (N.eqb u u2)]; intros A; inv A; reflexivity.
Qed.

Lemma kinit_topic_live k f s n u1 u2 s' c n' ns u p :
  kinit_topic k f s n u1 u2 = KOk s' c n' ns -> alookup u (k_users c) = Some p -> kp_deleted p = false.
Proof.
  assert (forall f s n, kinit_grp f s n = KOk s' c n' ns -> alookup u (k_users c) = Some p -> kp_deleted p = false) as G.
  { intros f0 s0 n0 H. unfold kinit_grp in H. repeat (break_match_hyp; try discriminate); inv H. apply kload_users_live. }
  assert (forall f s n, kinit_me_fnd f s n = KOk s' c n' ns -> alookup u (k_users c) = Some p -> kp_deleted p = false) as M.
  { intros f0 s0 n0 H. unfold kinit_me_fnd in H. repeat (break_match_hyp; try discriminate); inv H. apply kload_users_live. }
  destruct k; cbn [kinit_topic]; [apply M|apply M|apply kinit_p2p_live|apply G|apply G].
Qed.

(* ------------------------------------------------------------------ *)
(* subscriptionReply keeps it: the request that loads a topic ends with cache marks = stored marks    *)
Lemma keq_sess f0 s c : keq s c -> keq s (k_set_sess f0 c).
Proof. intros H u m. exact (H u m). Qed.
Lemma keq_evict s c u : keq s c -> keq s (k_evict c u).
Proof. apply keq_sess. Qed.
Lemma kmk_set_users c u v u0 :
  kmk (k_set_users (aset u v) c) u0 =
  if N.eqb u0 u then (if kp_deleted v then None else Some (kp_read v, kp_recv v, kp_delid v)) else kmk c u0.
Proof. unfold kmk, k_set_users. cbn [k_users]. rewrite alookup_aset. destruct (N.eqb u0 u); reflexivity. Qed.

(* the session table plays no part in any of this: the attach / evict at the end of a handler is dropped *)
Lemma users_if (b : bool) c1 c2 c :
  k_lastid c1 = k_lastid c /\ k_users c1 = k_users c -> k_lastid c2 = k_lastid c /\ k_users c2 = k_users c ->
  k_lastid (if b then c1 else c2) = k_lastid c /\ k_users (if b then c1 else c2) = k_users c.
Proof. destruct b; auto. Qed.

(* subscriptionReply + thisUserSub, up to the session table [kh_ca h ~ c1]: refused, or a row and a fresh entry are
   created for a user without a live entry, or the modes of a live entry change (want written to the row, or not) *)
Lemma ksub_cases k root f s c n sid u ns :
  let h := ksub k root f s c n sid u ns in
  exists c1, (k_lastid (kh_ca h) = k_lastid c1 /\ k_users (kh_ca h) = k_users c1) /\
    ((kh_st h = s /\ c1 = c) \/
     (exists w g, match alookup u (k_users c) with Some p => kp_deleted p = true | None => k = LSys end /\
        kh_st h = ad_sub_create s u w g /\ c1 = k_set_users (aset u (mkKP w g false 0 0 0)) c) \/
     (exists p w, alookup u (k_users c) = Some p /\ kp_deleted p = false /\
        (kh_st h = s \/ exists w', kh_st h = ad_subs_update s u (mkUpd (Some w') None None None None)) /\
        c1 = k_set_users (aset u (kp_set_modes w (kp_given p) p)) c)).
Proof.
  intros h. subst h. remember (ksub k root f s c n sid u ns) as h eqn:E. unfold ksub in E. cbv zeta in E.
  destruct (alookup u (k_users c)) as [p|] eqn:AL.
  - destruct (kp_deleted p) eqn:D.
    + destruct (negb (is_joiner (kp_given p))); [subst h; exists c; auto|].
      destruct (call f n) as [ok1 n1]. destruct (negb ok1); [subst h; exists c; auto|].
      exists (k_set_users (aset u (mkKP (p2p_sane (kp_want p)) (kp_given p) false 0 0 0)) c).
      destruct (negb (is_joiner _)); subst h; cbn [kh_ca kh_st];
        (split; [apply users_if; split; reflexivity | right; left; do 2 eexists; repeat split]).
    + set (w := if negb (is_joiner (kp_want p)) then _ else kp_want p) in E.
      destruct (if negb (w =? kp_want p)%N then call f n else (true, n)) as [ok1 n1].
      destruct (negb ok1); [subst h; exists c; auto|].
      exists (k_set_users (aset u (kp_set_modes w (kp_given p) p)) c).
      assert (kh_st h = s \/ exists w', kh_st h = ad_subs_update s u (mkUpd (Some w') None None None None)) as ES
        by (destruct (negb (w =? kp_want p)%N), (negb (is_joiner w)), (negb (is_joiner (kp_given p))); subst h; cbn [kh_st]; eauto).
      split; [|right; right; exists p, w; auto].
      destruct (negb (is_joiner w)); [|destruct (negb (is_joiner (kp_given p)))]; subst h; cbn [kh_ca];
        first [apply users_if; split; reflexivity | split; reflexivity].
  - destruct k; [subst h; exists c; auto|]. destruct (negb root); [subst h; exists c; auto|].
    destruct (call f n) as [ok1 n1]. destruct (negb ok1); [subst h; exists c; auto|]. subst h.
    exists (k_set_users (aset u (mkKP ModeCSys ModeCSys false 0 0 0)) c).
    split; [split; reflexivity | right; left; do 2 eexists; repeat split].
Qed.

Lemma keq_users s c c' : k_users c' = k_users c -> keq s c -> keq s c'.
Proof. intros E K u m. unfold kmk. rewrite E. apply K. Qed.

Lemma ksub_keq k root f s c n sid u ns : keq s c -> keq (kh_st (ksub k root f s c n sid u ns)) (kh_ca (ksub k root f s c n sid u ns)).
Proof.
  intros K.
  destruct (ksub_cases k root f s c n sid u ns) as (c1 & [_ EU] & [(-> & ->) | [(w & g & _ & -> & ->) | (p & w & AL & D & ES & ->)]]);
    apply (keq_users _ _ _ EU).
  - exact K.
  - intros u0 m. rewrite kmk_set_users, smk_sub_create. cbn [kp_deleted kp_read kp_recv kp_delid].
    destruct (N.eqb u0 u); [auto|apply K].
  - assert (forall u0, smk (kh_st (ksub k root f s c n sid u ns)) u0 = smk s u0) as SM
      by (intros u0; destruct ES as [-> | [w' ->]]; [reflexivity | apply smk_update_nomarks]).
    intros u0 m. rewrite kmk_set_users, SM. cbn [kp_set_modes kp_deleted kp_read kp_recv kp_delid]. rewrite D.
    destruct (N.eqb u0 u) eqn:E; [|apply K]. apply N.eqb_eq in E. subst u0. intros H. apply K. unfold kmk. rewrite AL, D. exact H.
Qed.

(* ------------------------------------------------------------------ *)
(* what {get desc} reports when the cache marks are the stored ones     *)
Lemma kget_desc_reports s c n sid u p rd rc dl :
  keq s c -> alookup u (k_users c) = Some p -> kp_deleted p = false -> is_reader (kp_mode p) = true ->
  smk s u = Some (rd, rc, dl) ->
  kh_out (kget_desc s c n sid u) =
    [(sid, MetaDesc (kp_want p) (kp_given p) (k_lastid c) rd (Z.max rc rd) (Z.max dl (k_delid c)) true)].
Proof.
  intros K AL D R S. unfold kget_desc. rewrite AL, R. cbn [kh_out].
  assert (kmk c u = Some (kp_read p, kp_recv p, kp_delid p)) as M by (unfold kmk; rewrite AL, D; reflexivity).
  apply K in M. rewrite S in M. inv M. reflexivity.
Qed.

(* the whole request that loads a topic: initTopic* followed by subscriptionReply *)
Lemma load_request_keq (k : lkind) root f s n u1 u2 sid s1 c n1 ns ns' :
  und s -> (k = LP2P -> p2p_parties s u1 u2 /\ (t_exists s = false -> subs s = [])) ->
  kload k f s n u1 u2 = KOk s1 c n1 ns ->
  keq (kh_st (ksub k root f s1 c n1 sid u1 ns')) (kh_ca (ksub k root f s1 c n1 sid u1 ns')).
Proof.
  intros U HP H. apply ksub_keq. destruct k; cbn [kload] in H.
  - destruct (HP eq_refl) as [PP NE]. eapply kinit_p2p_keq; eauto.
  - apply kinit_grp_keq in H; [|exact U]. destruct H as [-> H]. exact H.
Qed.
(* a restarted process: newHub() loads 'sys' from the store *)
Lemma kboot_keq k s c : und s -> kboot k s = Some c -> keq s c.
Proof.
  intros U. unfold kboot. destruct k; [discriminate|]. destruct (kinit_sys NoFault s 0) eqn:E; [discriminate|].
  intros H. inv H. apply kinit_grp_keq in E; [|exact U]. destruct E as [-> E]. exact E.
Qed.

(* ------------------------------------------------------------------ *)
(* a note not above the sender's cached mark changes nothing and is relayed to nobody *)
Lemma knote_stale f s c n sid u what seq :
  (what = K_read /\ seq <= kp_read (kget c u)) \/ (what = K_recv /\ seq <= kp_recv (kget c u)) ->
  knote f s c n sid u what seq = mkKH s c n [].
Proof.
  intros H. unfold knote. destruct (k_lastid c <? seq); [reflexivity|].
  destruct H as [[-> H]|[-> H]]; cbn [N.eqb K_read K_recv K_kp Pos.eqb orb andb negb];
    (destruct (negb (is_reader _)); [reflexivity|]); apply Z.leb_le in H; rewrite H; reflexivity.
Qed.
(* ------------------------------------------------------------------ *)
(* forgetting the marks gives the loaders of Sys/TopicLoad.v (C01): same store calls, same branches, same errors,
   same store, same lastID / delID, same want / given of both parties *)
Definition forget_p (p : kpud) : lpud := mkLP (kp_want p) (kp_given p) (kp_deleted p).
Definition forget_e (e : N * kpud) : N * lpud := (fst e, forget_p (snd e)).
Definition forget_c (c : kcache) : lcache := mkLC (k_lastid c) (k_delid c) (map forget_e (k_users c)) (k_sess c).
Definition forget_r (r : kres) : lres :=
  match r with KErr code n => LErr code n | KOk s c n ns => LOk s (forget_c c) n ns end.

Lemma map_forget_aset k v l : map forget_e (aset k v l) = aset k (forget_p v) (map forget_e l).
Proof.
  induction l as [|[k0 v0] l IH]; cbn; [reflexivity|]. destruct (N.eqb k k0); cbn; [reflexivity|]. rewrite IH. reflexivity.
Qed.
Lemma map_forget_load rows : map forget_e (kload_users rows) = load_lusers rows.
Proof.
  unfold kload_users, load_lusers.
  assert (forall acc, map forget_e (fold_left (fun acc r => aset (s_user r) (kp_of_row r) acc) rows acc) =
                      fold_left (fun acc r => aset (s_user r) (mkLP (s_want r) (s_given r) false) acc) rows (map forget_e acc)) as G.
  { induction rows as [|a rows IH]; intros acc; cbn; [reflexivity|]. rewrite IH, map_forget_aset. reflexivity. }
  apply (G []).
Qed.
