(* C04, layer 2, for the instance of Sys/TopicInst.v (the range algebra of Pure/Ranges.v): the
   states reached by histories of a new topic, [step] on the three requests of the property, and
   the definitions the statements of Props/PropC04.v are written with (gates, refuted
   statements, witnesses). *)
From Coq Require Import ZArith NArith List Bool Lia Sorted.
From Tinode Require Import Base.Util Pure.Acs Pure.Ranges Pure.RangesProofs Sys.Topic Sys.TopicTac Sys.TopicFrame
  Sys.TopicNum Sys.TopicNumThm Sys.TopicInst Sys.TopicHist Sys.TopicHistProofs Sys.TopicHistInst.
Import ListNotations.
Open Scope Z_scope.

(* a new topic: no messages, no deletions *)
Definition hist_init (s : store) : Prop := msgs s = [] /\ t_seqid s = 0 /\ dellog s = [] /\ t_delid s = 0.

Lemma hist_init_fresh s : hist_init s -> fresh_hist s.
Proof. intros [A [B [C D]]]. split; [split; assumption|lia]. Qed.
Lemma hist_init_wf s : hist_init s -> dellog_wf s.
Proof. intros [A [B [C D]]]. split; [rewrite C; constructor|lia]. Qed.

Section Thm.
Variable sm : sessmap.

Definition reach (s0 : store) (h : list (fault * op)) : state := fst (run_i sm (mkState s0 None 0) h).

(* ---- the refinement ---- *)
Lemma reach_refines s0 h : hist_init s0 -> hist_ok sm h ->
  heq (abs (st (reach s0 h))) (hs_run del_ranges_i norm_ranges_i sm (mkState s0 None 0) h (abs s0)) /\
  inv_hist (reach s0 h).
Proof.
  intros HI HO.
  apply (run_refines del_ranges_i norm_ranges_i sm dr_exact_i h (mkState s0 None 0) (abs s0));
    [apply fresh_inv_hist, hist_init_fresh; exact HI|exact HO|apply heq_refl].
Qed.

(* with ANY faults and crashes: message numbers stay unique, log rows stay well formed *)
Lemma reach_nodup s0 h : hist_init s0 -> NoDup (seqs (st (reach s0 h))).
Proof.
  intros HI. unfold reach, run_i.
  pose proof (run_inv_num del_ranges_i norm_ranges_i sm h (mkState s0 None 0)) as R.
  destruct R as [_ [R _]]; [|exact R]. apply fresh_inv. apply hist_init_fresh in HI. apply HI.
Qed.
Lemma reach_wf s0 h : hist_init s0 -> dellog_wf (st (reach s0 h)).
Proof.
  intros HI. apply log_minv_wf. apply (run_log_minv del_ranges_i norm_ranges_i sm dr_wf_i).
  apply hist_init_wf. exact HI.
Qed.

(* ---- {get data} ---- *)
Lemma step_get_data f s c n0 sid since before limit : attached c sid = true ->
  step_i sm f (mkState s (Some c) n0) (OGetData sid since before limit) =
  (let h := get_data f s c 0 sid (sess_uid sm sid) since before limit in
   (mkState (h_st h) (Some (h_ca h)) (h_n h), h_out h)).
Proof. intros AT. unfold step_i, step. cbn [st ca]. rewrite AT. reflexivity. Qed.

(* ---- the specification says what the property says ---- *)
Lemma spec_soft_other a u v ids x : u <> v -> hs_visible (hs_step a (HDel v false ids)) u x = hs_visible a u x.
Proof. intros H. unfold hs_visible. cbn. replace (N.eqb u v) with false by (symmetry; apply N.eqb_neq; exact H). reflexivity. Qed.
Lemma spec_soft_self a u ids x :
  hs_visible (hs_step a (HDel u false ids)) u x = if ids x then None else hs_visible a u x.
Proof. unfold hs_visible. cbn. rewrite N.eqb_refl. cbn. destruct (ids x); reflexivity. Qed.
Lemma spec_pub a n au ct u : hs_soft a u n = false -> hs_visible (hs_step a (HPub n au ct)) u n = Some (au, ct).
Proof. intros H. unfold hs_visible. cbn. rewrite H, Z.eqb_refl. reflexivity. Qed.

(* ---- the delete request ---- *)

Lemma step_del_msg f s c n0 sid req hard : attached c sid = true ->
  step_i sm f (mkState s (Some c) n0) (ODelMsg sid req hard) =
  (let h := del_msg del_ranges_i f s c 0 sid (sess_uid sm sid) req hard in
   (mkState (h_st h) (Some (h_ca h)) (h_n h), h_out h)).
Proof. intros AT. unfold step_i, step. cbn [st ca]. rewrite AT. reflexivity. Qed.

(* ---- {get del} ---- *)
Lemma step_get_del f s c n0 sid since before limit : attached c sid = true ->
  step_i sm f (mkState s (Some c) n0) (OGetDel sid since before limit) =
  (let h := get_del norm_ranges_i f s c 0 sid (sess_uid sm sid) since before limit in
   (mkState (h_st h) (Some (h_ca h)) (h_n h), h_out h)).
Proof. intros AT. unfold step_i, step. cbn [st ca]. rewrite AT. reflexivity. Qed.

End Thm.

(* ------------------------------------------------------------------ *)
(* "soft deletion requires read permission": the hard flag is decided first (asked for AND D
   in the effective mode); every accepted deletion that is not hard-effective - asked soft, or
   silently degraded for lack of D - was made by a requester with R, whatever the faults *)

Lemma soft_needs_read f s c sid u req hard d :
  hard && is_deleter (user_mode c u) = false ->
  h_out (del_msg del_ranges_i f s c 0 sid u req hard) = [(sid, Ctrl 200 [(P_del, d)])] ->
  is_reader (user_mode c u) = true.
Proof.
  intros D. unfold del_msg. rewrite D. cbn [negb andb]. destruct (is_reader (user_mode c u)); [reflexivity|].
  cbn. intros H. inv H.
Qed.

(* the gate as a function of the request flag and the effective mode: true = refused *)
Definition del_gate (hard0 : bool) (mode : N) : bool := negb (hard0 && is_deleter mode) && negb (is_reader mode).
(* the gate of the code BEFORE the repair 2721db4: R was asked for only when D was missing *)
Definition del_gate_unrepaired (hard0 : bool) (mode : N) : bool := negb (is_deleter mode) && negb (is_reader mode).

Definition gate_soft_needs_read_statement (gate : bool -> N -> bool) : Prop :=
  forall hard0 mode, hard0 && is_deleter mode = false -> gate hard0 mode = false -> is_reader mode = true.

Definition wit_cache : cache :=
  mkCache 1 0 1%N 47%N 0%N [(1%N, mkPud 255 255 0 0 0 1); (2%N, mkPud 69 69 0 0 0 1)] [(1%N, (1%N, false)); (2%N, (2%N, false))].
Definition wit_store : store :=
  mkStore true 1 0 1%N 47%N 0%N [mkSub 1 255 255 0 0 0 false; mkSub 2 69 69 0 0 0 false] [mkMsg 1 1%N 7%N 0] [] [(1%N, 47%N); (2%N, 47%N)].

(* ------------------------------------------------------------------ *)
(* the refinement does not survive a store fault in the middle of a delete request: the
   log rows and the erased message rows of the failed request stay *)

Definition refines_any_fault_statement : Prop :=
  forall sm s0 h, hist_init s0 -> Forall (fun fo => op_ok sm (snd fo)) h ->
    heq (abs (st (reach sm s0 h))) (hs_run del_ranges_i norm_ranges_i sm (mkState s0 None 0) h (abs s0)).

Definition wit_s0 : store := ad_sub_create (mkStore true 0 0 0%N 47%N 0%N [] [] [] [(1%N, 47%N)]) 1%N 255%N 255%N.
Definition wit_hist : list (fault * op) :=
  [(NoFault, OSub 1 [] false); (NoFault, OPub 1 7 false); (FailAt 2, ODelMsg 1 [(1, 0)] true)].

(* non-vacuity: a history with publishes, a soft delete by a member without D who asked for a
   hard one, a hard delete by the owner, history and deletion log read by both *)
Definition ex_s0 : store :=
  ad_sub_create (ad_sub_create (mkStore true 0 0 0%N 47%N 0%N [] [] [] [(1%N, 47%N); (2%N, 47%N)]) 1%N 255%N 255%N) 2%N 47%N 47%N.
Definition ex_hist : list (fault * op) :=
  map (fun o => (NoFault, o))
    [OSub 1 [] false; OSub 2 [] false; OPub 1 7 false; OPub 2 8 false; OPub 1 9 false;
     ODelMsg 2 [(1, 3)] true;             (* user 2 has no D: soft, for user 2 only *)
     OGetData 2 0 0 0; OGetData 1 0 0 0;
     ODelMsg 1 [(3, 0); (2, 0)] true;     (* owner: hard *)
     OGetData 1 0 0 0; OGetDel 2 0 0 0; OGetDel 1 0 0 0].
