(* C14: a reachable configuration in which the server can take no step by itself is quiescent
   ([stuck_quiescent]), and the refutations of the full statements by the two witness schedules. *)
From Coq Require Import List Arith Bool Lia.
Import ListNotations.
Require Import Tinode.Sys.Lifecycle Tinode.Sys.LifecycleProofs Tinode.Sys.LifecycleAttach Tinode.Sys.LifecycleTerm.

(* the steps the server takes by itself (a goroutine that can run): everything except new client
   requests, a socket closing, a send queue overflowing, the idle timer firing and a store call failing
   ([HubUnregFail]: the environment decides) *)
Definition internal (l : label) : bool :=
  match l with
  | HubJoin | InitDone _ _ | TopicReg _ _ | TopicUnreg _ | HubUnreg _ | TopicExit _ | SessDetach _ | DiscEnd _ => true
  | _ => false
  end.

Definition stuck (c : config) : Prop := forall l c', internal l = true -> ~ step c l c'.

(* nothing is left to do: queues empty, no session holds its in-flight semaphore, every closing session has
   finished cleanUp *)
Definition settled (c : config) : Prop :=
  quiescent c /\ (forall s, s_inflight (c_sess c s) = 0) /\
  (forall s, s_term (c_sess c s) = true -> s_done (c_sess c s) = true).

Lemma stuck_quiescent : forall st ow us c,
  reach st ow us c -> no_dead_items c -> stuck c -> quiescent c.
Proof.
  intros st ow us c Hr (D1 & D2 & D3 & D4) Hstuck.
  pose proof (init_has_goroutine_reach _ _ _ _ Hr) as Hg.
  assert (Hno : forall P : Prop, (exists lb c', internal lb = true /\ step c lb c') -> P).
  { intros P (lb & c' & Hi & Hs). exfalso. eapply Hstuck; eauto. }
  assert (Hinit : forall i, i_phase (c_inst c i) = PInit -> exists lb c', internal lb = true /\ step c lb c').
  { intros i Ep. destruct (initdone_enabled c i Ep (Hg _ Ep)) as [c' Hc]. exists (InitDone i false), c'. auto. }
  unfold quiescent. repeat split.
  - destruct (c_hjoin c) eqn:E; auto. apply Hno.
    destruct (hubjoin_enabled c) as [c' Hc]; [congruence|]. exists HubJoin, c'. auto.
  - destruct (c_hunreg c) eqn:E; auto. apply Hno.
    destruct (hubunreg_enabled c) as [c' Hc]; [congruence|]. exists (HubUnreg true), c'. auto.
  - destruct (nil_or_in _ (c_inits c)) as [E|[x Hin]]; auto. apply Hno. apply (Hinit (fst x)). apply D1. exact Hin.
  - destruct (nil_or_in _ (c_treg c)) as [E|[x Hin]]; auto. apply Hno.
    destruct (i_phase (c_inst c (fst x))) eqn:Ep.
    + apply (Hinit _ Ep).
    + destruct (topicreg_enabled c _ Ep (in_has_tag _ _ _ Hin)) as [c' Hc]. exists (TopicReg (fst x) true), c'. auto.
    + exfalso. apply (D2 _ Hin). exact Ep.
  - destruct (nil_or_in _ (c_tunreg c)) as [E|[x Hin]]; auto. apply Hno.
    destruct (i_phase (c_inst c (fst x))) eqn:Ep.
    + apply (Hinit _ Ep).
    + destruct (topicunreg_enabled c _ Ep (in_has_tag _ _ _ Hin)) as [c' Hc]. exists (TopicUnreg (fst x)), c'. auto.
    + exfalso. apply (D3 _ Hin). exact Ep.
  - destruct (nil_or_in _ (c_texit c)) as [E|[x Hin]]; auto. apply Hno.
    destruct (i_phase (c_inst c (fst x))) eqn:Ep.
    + apply (Hinit _ Ep).
    + destruct (topicexit_enabled c _ Ep (in_has_tag _ _ _ Hin)) as [c' Hc]. exists (TopicExit (fst x)), c'. auto.
    + exfalso. apply (D4 _ Hin). exact Ep.
  - intros s. destruct (s_detachq (c_sess c s)) eqn:E; auto. apply Hno.
    destruct (sessdetach_enabled c s) as [c' Hc]; [congruence|]. exists (SessDetach s), c'. auto.
Qed.

Lemma quiescent_pending0 : forall c s, quiescent c -> pending s c = 0.
Proof.
  intros c s (A & _ & B & C & D & _). unfold pending. rewrite A, B, C, D. reflexivity.
Qed.

Lemma discend_enabled : forall c s, s_term (c_sess c s) = true -> s_done (c_sess c s) = false ->
  s_inflight (c_sess c s) = 0 -> exists c', step c (DiscEnd s) c'.
Proof. intros c s A B C. unfold step. simpl. rewrite A, B, C. simpl. eauto. Qed.

(* ---------- the witnesses ---------- *)

Definition lost_leave_cfg : option config := run lost_leave_trace (init_config ex_stored ex_owner ex_user ex_chan).
Definition stale_unload_cfg : option config := run stale_unload_trace (init_config ex_stored ex_owner ex_user ex_chan).

(* no internal step from a computed configuration with at most 3 instances and 4 sessions *)
Ltac stuck_tac :=
  let l := fresh "l" in let c' := fresh "c'" in let Hint := fresh "Hint" in let Hs := fresh "Hs" in
  intros l c' Hint Hs; unfold step in Hs;
  destruct l as [? ?|? ? ?|? ?| |i ?|i ?|i|i ?|i|?|i|s|s|s|]; simpl in Hint; try discriminate Hint;
  try (simpl in Hs; discriminate Hs);
  try (destruct i as [|[|[|i]]]; simpl in Hs; discriminate Hs);
  try (destruct s as [|[|[|[|s]]]]; simpl in Hs; discriminate Hs).

Lemma lost_leave_refutes : exists c,
  run lost_leave_trace (init_config ex_stored ex_owner ex_user ex_chan) = Some c /\
  stuck c /\ c_tunreg c <> [] /\ s_inflight (c_sess c 1) = 1 /\ s_term (c_sess c 1) = false.
Proof.
  eexists. split; [vm_compute; reflexivity|]. split; [|simpl; repeat split; discriminate].
  stuck_tac.
Qed.

(* the stale-unload schedule, continued until nothing can move (the old instance takes its termination request) *)
Definition stale_unload_end_trace : list label := stale_unload_trace ++ [TopicExit 0].

Lemma stale_unload_refutes : exists c,
  run stale_unload_end_trace (init_config ex_stored ex_owner ex_user ex_chan) = Some c /\
  stuck c /\ quiescent c /\ s_inflight (c_sess c 1) = 1 /\ s_term (c_sess c 1) = false.
Proof.
  eexists. split; [vm_compute; reflexivity|]. split; [|simpl; unfold quiescent; simpl; repeat split].
  - stuck_tac.
  - intros s. destruct s as [|[|[|s]]]; reflexivity.
Qed.
