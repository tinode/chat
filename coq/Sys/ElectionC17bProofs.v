(* C17, part D: lemmas about the partition guard of Session.dispatch, the
   failCount / activeNodes bookkeeping of sendHealthChecks over ALL executions,
   and what an accepted health check means for later vote requests. *)
From Coq Require Import List Bool Arith Lia.
From Tinode Require Import Sys.Election Sys.ElectionProofs Sys.ElectionC17b.
Import ListNotations.

(* ------------------------------------------------------------------ *)
(* the guard of Session.dispatch *)

(* a well-formed request reaches the guard; any other is answered before it, whatever the partition *)
Lemma dispatch_well_formed_c17b root r : well_formed_c17b root r = true ->
  exists k, rq_kind r = Some k /\ forall p, dispatch_c17b p root r = if p then RepliedD 502 else HandlerD k.
Proof.
  destruct r as [[k|] obo]; [|discriminate]. intros H. exists k. split; [reflexivity|]. intros p.
  destruct obo, root; try discriminate H; reflexivity.
Qed.

Lemma dispatch_ill_formed_c17b root r : well_formed_c17b root r = false ->
  exists c, forall p, dispatch_c17b p root r = RepliedD c.
Proof.
  destruct r as [[k|] []], root; try discriminate; intros _; eexists; intros p; reflexivity.
Qed.

Lemma dispatch_partitioned_never_handles_c17b root r k : dispatch_c17b true root r <> HandlerD k.
Proof.
  destruct (well_formed_c17b root r) eqn:W.
  - destruct (dispatch_well_formed_c17b root r W) as (k' & _ & E). rewrite E. discriminate.
  - destruct (dispatch_ill_formed_c17b root r W) as (c & E). rewrite E. discriminate.
Qed.

Lemma dispatch_partitioned_502_c17b root r :
  well_formed_c17b root r = true -> dispatch_c17b true root r = RepliedD 502.
Proof. intros W. destruct (dispatch_well_formed_c17b root r W) as (k & _ & E). exact (E true). Qed.

Lemma dispatch_healthy_handles_c17b root r k :
  well_formed_c17b root r = true -> rq_kind r = Some k -> dispatch_c17b false root r = HandlerD k.
Proof.
  intros W Hk. destruct (dispatch_well_formed_c17b root r W) as (k' & Hk' & E).
  rewrite Hk in Hk'. injection Hk' as <-. exact (E false).
Qed.

Lemma dispatch_all_kinds_c17b :
  forallb (fun k => match dispatch_c17b true false (mkReqD (Some k) OboNoneD) with RepliedD 502 => true | _ => false end)
          all_kinds_c17b = true.
Proof. reflexivity. Qed.

(* ------------------------------------------------------------------ *)
(* sendHealthChecks: failCount per peer and the rehash flag *)

Lemma health_results_nocross limit ok ps : 1 <= limit -> forall fc rh,
  snd (health_results limit ok ps fc rh) = false ->
  rh = false /\ forall p, (fst (health_results limit ok ps fc rh) p <? limit) = (fc p <? limit).
Proof.
  intros Hl. induction ps as [|q ps IH]; intros fc rh; cbn [health_results].
  - cbn. auto.
  - destruct (mem q ok).
    + intros H. destruct (IH _ _ H) as [Hrh Hp]. apply orb_false_iff in Hrh as [-> Hq].
      split; [reflexivity|]. intros p. rewrite Hp. unfold upd.
      destruct (Nat.eqb_spec p q) as [->|]; [|reflexivity].
      apply Nat.leb_gt in Hq. symmetry. transitivity true; [now apply Nat.ltb_lt|].
      symmetry. apply Nat.ltb_lt. lia.
    + intros H. destruct (IH _ _ H) as [Hrh Hp]. apply orb_false_iff in Hrh as [-> Hq].
      split; [reflexivity|]. intros p. rewrite Hp. unfold upd.
      destruct (Nat.eqb_spec p q) as [->|]; [|reflexivity].
      apply Nat.eqb_neq in Hq.
      destruct (Nat.ltb_spec (S (fc q)) limit); destruct (Nat.ltb_spec (fc q) limit); try reflexivity; lia.
Qed.

Lemma health_results_fst limit ok ps : NoDup ps -> forall fc rh p,
  fst (health_results limit ok ps fc rh) p =
  if mem p ps then (if mem p ok then 0 else S (fc p)) else fc p.
Proof.
  induction 1 as [|q ps Hq ND IH]; intros fc rh p; cbn [health_results]; [reflexivity|].
  cbn [mem existsb]. fold (mem p ps).
  destruct (mem q ok) eqn:Eq; rewrite IH; unfold upd;
    (destruct (Nat.eqb_spec p q) as [->|Hne]; cbn [orb];
     [ assert (Hm : mem q ps = false) by (destruct (mem q ps) eqn:E; [apply mem_In in E; contradiction|reflexivity]);
       rewrite Hm, ?Eq; reflexivity
     | reflexivity ]).
Qed.

(* ------------------------------------------------------------------ *)
(* the failover fields (activeNodes, failCount) change only in the leader branch of the ticker case
   ([step_loc_frame]); the leader branch: exactly sendHealthChecks *)
Lemma step_leader_tick cfg s e n :
  leader_tick cfg s e n = true ->
  exists d ok, e = Tick n d ok /\ In n (cfg_nodes cfg) /\ electing (loc s n) = None /\ leader (loc s n) = Some n /\
    let '(fc, rh) := health_results (cfg_fail_limit cfg) ok (peers cfg n) (fail_count (loc s n)) false in
    failover_fields (loc (step cfg s e) n) =
      if rh then (n :: filter (fun p => fc p <? cfg_fail_limit cfg) (peers cfg n), fc)
      else (active_nodes (loc s n), fc).
Proof.
  destruct e; cbn [leader_tick]; try discriminate.
  intros H. apply andb_true_iff in H as [H H3]. apply andb_true_iff in H as [H1 H2].
  apply Nat.eqb_eq in H1. subst n0. exists delivered, ok.
  destruct (electing (loc s n)) eqn:El; [discriminate|].
  split; [reflexivity|]. split; [now apply mem_In|]. split; [reflexivity|].
  split.
  { unfold is_leader in H3. destruct (leader (loc s n)) as [x|]; [|discriminate].
    apply Nat.eqb_eq in H3. now subst. }
  cbn [step]. unfold tick. rewrite H2, El, H3. cbn [negb]. unfold send_health.
  destruct (health_results _ _ _ _ _) as [fc rh]. cbn. unfold upd. rewrite Nat.eqb_refl.
  destruct rh; reflexivity.
Qed.

(* ------------------------------------------------------------------ *)
(* INVARIANT of every execution: on every node the active list has as many
   entries as the node itself plus its peers with failCount below the limit *)

Lemma filter_all_c17b {A} (f : A -> bool) l : (forall x, In x l -> f x = true) -> filter f l = l.
Proof.
  induction l as [|x l IH]; intros H; cbn; [reflexivity|].
  rewrite (H x (or_introl eq_refl)). f_equal. apply IH. intros y Hy. apply H. now right.
Qed.

Section ActInv.
  Variable cfg : config.
  Hypothesis limit_pos : 1 <= cfg_fail_limit cfg.

  Definition act_inv (s : state) : Prop :=
    forall n, length (active_nodes (loc s n)) = S (length (below_limit_c17b cfg (loc s n) n)).

  Lemma act_inv_init : act_inv (init cfg).
  Proof.
    intros n. unfold below_limit_c17b, init, init_local. cbn [loc active_nodes fail_count].
    rewrite app_length. cbn [length].
    replace (filter _ (peers cfg n)) with (peers cfg n); [lia|].
    symmetry. apply filter_all_c17b. intros x _. apply Nat.ltb_lt. lia.
  Qed.

  Lemma act_inv_step s e : act_inv s -> act_inv (step cfg s e).
  Proof.
    intros Hinv n. destruct (leader_tick cfg s e n) eqn:Hlt.
    - destruct (step_leader_tick _ _ _ _ Hlt) as (d & ok & -> & Hin & El & Ld & Hff).
      remember (health_results (cfg_fail_limit cfg) ok (peers cfg n) (fail_count (loc s n)) false) as hr eqn:Ehr.
      destruct hr as [fc rh]. unfold failover_fields in Hff. cbn [step] in Hff |- *.
      unfold below_limit_c17b. destruct rh.
      + injection Hff as H1 H2. rewrite H1, H2. reflexivity.
      + injection Hff as H1 H2. rewrite H1, H2. rewrite (Hinv n). f_equal. unfold below_limit_c17b.
        assert (Hs : snd (health_results (cfg_fail_limit cfg) ok (peers cfg n) (fail_count (loc s n)) false) = false)
          by (rewrite <- Ehr; reflexivity).
        destruct (health_results_nocross _ ok (peers cfg n) limit_pos _ _ Hs) as [_ Hp].
        rewrite <- Ehr in Hp. cbn [fst] in Hp.
        f_equal. apply filter_ext. intros p. symmetry. apply Hp.
    - pose proof (proj2 (step_loc_frame cfg s e n) Hlt) as H. unfold failover_fields in H.
      injection H as H1 H2. unfold below_limit_c17b. rewrite H1, H2. apply Hinv.
  Qed.

  Lemma act_inv_fold evs : forall s, act_inv s -> act_inv (fold_left (step cfg) evs s).
  Proof. induction evs as [|e evs IH]; cbn; auto using act_inv_step. Qed.

  Lemma active_tracks_failcount evs n :
    length (active_nodes (loc (run cfg evs) n)) = S (length (below_limit_c17b cfg (loc (run cfg evs) n) n)).
  Proof. apply act_inv_fold, act_inv_init. Qed.

  Hypothesis nodup : NoDup (cfg_nodes cfg).

  (* isPartitioned, in every reachable state: this node + the peers below the limit are
     no more than half of the configured nodes *)
  Lemma partitioned_iff_reach evs n : In n (cfg_nodes cfg) ->
    (is_partitioned cfg (run cfg evs) n = true <->
     2 * S (length (below_limit_c17b cfg (loc (run cfg evs) n) n)) <= length (cfg_nodes cfg)).
  Proof.
    intros Hin. rewrite (is_partitioned_iff cfg nodup _ n Hin), active_tracks_failcount. reflexivity.
  Qed.

  Lemma partitioned_stops_serving evs n root r : In n (cfg_nodes cfg) ->
    2 * S (length (below_limit_c17b cfg (loc (run cfg evs) n) n)) <= length (cfg_nodes cfg) ->
    (forall k, client_request_c17b cfg (run cfg evs) n root r <> HandlerD k) /\
    (well_formed_c17b root r = true -> client_request_c17b cfg (run cfg evs) n root r = RepliedD 502).
  Proof.
    intros Hin Hhalf. apply (partitioned_iff_reach evs n Hin) in Hhalf.
    unfold client_request_c17b. rewrite Hhalf. split.
    - intros k. apply dispatch_partitioned_never_handles_c17b.
    - apply dispatch_partitioned_502_c17b.
  Qed.

  (* one heartbeat of a leader: failCount of every peer *)
  Lemma leader_tick_failcount s n d ok p :
    In n (cfg_nodes cfg) -> electing (loc s n) = None -> leader (loc s n) = Some n ->
    fail_count (loc (tick cfg s n d ok) n) p =
    if mem p (peers cfg n) then (if mem p ok then 0 else S (fail_count (loc s n) p)) else fail_count (loc s n) p.
  Proof.
    intros Hin El Ld.
    assert (Hlt : leader_tick cfg s (Tick n d ok) n = true).
    { cbn. rewrite Nat.eqb_refl, El. apply mem_In in Hin. rewrite Hin. cbn. unfold is_leader. rewrite Ld. apply Nat.eqb_refl. }
    destruct (step_leader_tick _ _ _ _ Hlt) as (d' & ok' & E & _ & _ & _ & Hff).
    injection E as <- <-.
    pose proof (health_results_fst (cfg_fail_limit cfg) ok (peers cfg n) (peers_nodup cfg nodup n)
                  (fail_count (loc s n)) false p) as Hfst.
    destruct (health_results _ _ _ _ _) as [fc rh]. cbn [fst] in Hfst.
    cbn [step] in Hff. unfold failover_fields in Hff.
    destruct rh; injection Hff as _ ->; exact Hfst.
  Qed.

  (* a leader stays the (non-electing) leader of the same term across its own heartbeat *)
  Lemma leader_tick_keeps s n d ok :
    In n (cfg_nodes cfg) -> electing (loc s n) = None -> leader (loc s n) = Some n ->
    electing (loc (tick cfg s n d ok) n) = None /\ leader (loc (tick cfg s n d ok) n) = Some n /\
    term (loc (tick cfg s n d ok) n) = term (loc s n).
  Proof.
    intros Hin El Ld. unfold tick. apply mem_In in Hin. rewrite Hin, El. cbn [negb].
    unfold is_leader. rewrite Ld, Nat.eqb_refl. unfold send_health.
    destruct (health_results _ _ _ _ _) as [fc rh]. cbn. unfold upd. rewrite Nat.eqb_refl.
    destruct rh; cbn; auto.
  Qed.

  (* [k] consecutive heartbeats of leader n on which NO peer answers *)
  Fixpoint silent_ticks (n : node) (ds : list (list node)) (s : state) : state :=
    match ds with
    | [] => s
    | d :: ds' => silent_ticks n ds' (tick cfg s n d [])
    end.

  Lemma silent_ticks_spec n ds : forall s,
    In n (cfg_nodes cfg) -> electing (loc s n) = None -> leader (loc s n) = Some n ->
    let s' := silent_ticks n ds s in
    electing (loc s' n) = None /\ leader (loc s' n) = Some n /\
    forall p, In p (peers cfg n) -> fail_count (loc s' n) p = length ds + fail_count (loc s n) p.
  Proof.
    induction ds as [|d ds IH]; intros s Hin El Ld; cbn [silent_ticks length].
    - auto.
    - destruct (leader_tick_keeps s n d [] Hin El Ld) as (El' & Ld' & _).
      destruct (IH _ Hin El' Ld') as (E1 & E2 & E3). split; [exact E1|]. split; [exact E2|].
      intros p Hp. rewrite (E3 p Hp), (leader_tick_failcount s n d [] p Hin El Ld).
      apply mem_In in Hp. rewrite Hp. cbn. lia.
  Qed.
End ActInv.

(* ------------------------------------------------------------------ *)
(* the health-check branch: every guard, for every local state *)

Lemma handle_health_stale l h : accepts_c17b l h = false -> handle_health l h = l.
Proof. unfold accepts_c17b, handle_health. destruct (h_term h <? term l); [reflexivity|discriminate]. Qed.

Lemma handle_health_accepts l h : accepts_c17b l h = true ->
  let l' := handle_health l h in
  term l' = h_term h /\ leader l' = Some (h_leader h) /\ missed l' = 0 /\ electing l' = electing l /\
  active_nodes l' = active_nodes l /\ fail_count l' = fail_count l /\
  (if list_eqb (h_sig h) (sig_of (ring_nodes l)) then
     ring_nodes l' = ring_nodes l /\ rehash_skipped l' = rehash_skipped l
   else if rehash_skipped l then ring_nodes l' = h_nodes h /\ rehash_skipped l' = false
   else ring_nodes l' = ring_nodes l /\ rehash_skipped l' = true).
Proof. intros A. apply handle_health_adopts, Nat.ltb_ge, negb_true_iff, A. Qed.

(* ------------------------------------------------------------------ *)
(* after an accepted health check of term T the node never again grants a vote of a term <= T,
   whatever happens in between *)

Lemma deliver_health_term s idx h :
  nth_error (hnet s) idx = Some h -> electing (loc s (h_to h)) = None ->
  accepts_c17b (loc s (h_to h)) h = true ->
  term (loc (deliver_health s idx) (h_to h)) = h_term h /\
  leader (loc (deliver_health s idx) (h_to h)) = Some (h_leader h).
Proof.
  intros Hn El A. unfold deliver_health. rewrite Hn, El. cbn. unfold upd. rewrite Nat.eqb_refl.
  destruct (handle_health_accepts _ _ A) as (T & L & _). auto.
Qed.

Lemma deliver_req_refuses cfg s c t m :
  t <= term (loc s m) -> rpcs s c t m = ReqFlying ->
  let s' := deliver_req cfg s c t m in
  (forall rt, rpcs s' c t m <> RepFlying (Granted rt)) /\
  (forall n, loc s' n = loc s n) /\ (forall t' m', votes s' t' m' = votes s t' m').
Proof.
  intros Ht R. unfold deliver_req. rewrite R.
  destruct (negb _); [rewrite R; repeat split; auto; discriminate|].
  destruct (electing _); [rewrite R; repeat split; auto; discriminate|].
  destruct (Nat.ltb_spec (term (loc s m)) t); [lia|].
  cbn. rewrite !Nat.eqb_refl. cbn. repeat split; auto. discriminate.
Qed.

(* the scenario of Props/PropC17.v (c17_el_same_leader_later_term): a follower of
   leader L that missed an election accepts L's check of the later term, and the delayed
   request of the election it missed is refused *)
Definition cfg5_c17b : config := mkConfig [0; 1; 2; 3; 4] 1 2.
Definition evs_same_leader_c17b : list event :=
  [ Tick 0 [] [];                                   (* 0 stands in term 1 *)
    DeliverReq 0 1 1; DeliverRep 0 1 1; DeliverReq 0 1 2; DeliverRep 0 1 2;   (* 0 leads term 1 *)
    Tick 0 [1; 2; 3; 4] [1; 2; 3; 4];
    DeliverHealth 0; DeliverHealth 0; DeliverHealth 0; DeliverHealth 0;      (* all follow 0 in term 1 *)
    Tick 4 [] [];                                   (* 4 stands in term 2 *)
    DeliverReq 4 2 0;                               (* only 0 hears it: 0 steps down, term 2 *)
    Tick 0 [] [];                                   (* 0 stands in term 3 *)
    DeliverReq 0 3 2; DeliverRep 0 3 2; DeliverReq 0 3 3; DeliverRep 0 3 3;   (* 0 leads term 3; 1 heard nothing *)
    Tick 0 [1] [1; 2; 3; 4] ].                      (* check (leader 0, term 3) on its way to 1, which is at (term 1, leader 0) *)
