(* Proofs about Sys/TopicDesc.v: the coherence invariant cache = load(store) on the
   description fields, reload invisibility, ack => stored, reject => no change.
   Depends on Sys/Topic.v only for the shared definitions (alookup/aset, fault, call); the
   association-list and O-bit facts are those of Sys/TopicMarks.v and Sys/TopicOwner.v. *)
From Coq Require Import ZArith NArith List Bool Lia.
From Coq Require Import ZifyBool ZifyNat ZifyN.
From Tinode Require Import Base.Util Pure.Acs Sys.Topic Sys.TopicDesc Sys.TopicTac Sys.TopicMarks Sys.TopicOwner.
Import ListNotations.
Open Scope Z_scope.

(* ------------------------------------------------------------------ *)
(* rows                                                                 *)
Lemma dfind_some u l r : dfind u l = Some r -> In r l /\ r_user r = u.
Proof.
  unfold dfind. intros H. apply find_some in H. destruct H as [H1 H2].
  apply N.eqb_eq in H2. auto.
Qed.

Lemma dfind_none u l : dfind u l = None -> ~ In u (map r_user l).
Proof.
  unfold dfind. intros H Hin. apply in_map_iff in Hin. destruct Hin as [r [Hr Hin]].
  pose proof (find_none _ _ H r Hin) as Hn. cbn in Hn. rewrite Hr, N.eqb_refl in Hn. discriminate.
Qed.

Lemma dfind_notin u l : ~ In u (map r_user l) -> dfind u l = None.
Proof.
  intros H. destruct (dfind u l) eqn:E; [|reflexivity].
  apply dfind_some in E. destruct E as [E1 E2]. exfalso. apply H. rewrite <- E2. apply in_map, E1.
Qed.

Lemma dupd_users u f l : (forall r, r_user (f r) = r_user r) -> map r_user (dupd u f l) = map r_user l.
Proof.
  intros Hf. unfold dupd. rewrite map_map. apply map_ext. intros r.
  destruct (N.eqb (r_user r) u); [apply Hf|reflexivity].
Qed.

Lemma dupd_notin u f l : ~ In u (map r_user l) -> dupd u f l = l.
Proof.
  induction l as [|r l IH]; cbn [dupd map In]; intros H; [reflexivity|].
  destruct (N.eqb (r_user r) u) eqn:E.
  - apply N.eqb_eq in E. exfalso. apply H. left. exact E.
  - f_equal. apply IH. intros Hin. apply H. right. exact Hin.
Qed.

Lemma dfind_dupd u v f l : (forall r, r_user (f r) = r_user r) ->
  dfind v (dupd u f l) = if N.eqb v u then option_map f (dfind v l) else dfind v l.
Proof.
  intros Hf. induction l as [|r l IH]; cbn [dupd map dfind find option_map].
  - destruct (N.eqb v u); reflexivity.
  - unfold dfind in *. cbn [find map].
    destruct (N.eqb (r_user r) u) eqn:E1.
    + rewrite Hf. destruct (N.eqb (r_user r) v) eqn:E2.
      * apply N.eqb_eq in E1, E2. subst. rewrite N.eqb_refl. reflexivity.
      * exact IH.
    + destruct (N.eqb (r_user r) v) eqn:E2; [|exact IH].
      apply N.eqb_eq in E2. subst v. rewrite E1. reflexivity.
Qed.

(* the cache entries built by the load path *)
Lemma dload_users_lookup u rows : NoDup (map r_user rows) ->
  alookup u (dload_users rows) =
  match dfind u rows with Some r => if r_deleted r then None else Some (pud_of_row r) | None => None end.
Proof.
  induction rows as [|r l IH]; cbn [dload_users flat_map map]; intros H; [reflexivity|].
  inversion H as [|? ? Hn Hr]; subst. fold (dload_users l).
  unfold dfind. cbn [find]. fold (dfind u l).
  destruct (N.eqb (r_user r) u) eqn:E.
  - apply N.eqb_eq in E. subst u.
    destruct (r_deleted r); cbn [app alookup].
    + rewrite IH by exact Hr. rewrite dfind_notin by exact Hn. reflexivity.
    + rewrite N.eqb_refl. reflexivity.
  - destruct (r_deleted r); cbn [app alookup]; [apply IH, Hr|].
    rewrite N.eqb_sym, E. apply IH, Hr.
Qed.

Lemma load_users_keys rows x : In x (map fst (dload_users rows)) -> In x (map r_user rows).
Proof.
  induction rows as [|r l IH]; cbn [dload_users flat_map map]; [auto|]. fold (dload_users l).
  rewrite map_app, in_app_iff. intros [H|H].
  - destruct (r_deleted r); cbn in H; [contradiction|]. destruct H as [H|[]]. left. exact H.
  - right. apply IH, H.
Qed.

Lemma load_users_nodup rows : NoDup (map r_user rows) -> NoDup (map fst (dload_users rows)).
Proof.
  induction rows as [|r l IH]; cbn [dload_users flat_map map]; intros H; [constructor|]. fold (dload_users l).
  inversion H as [|? ? Hn Hr]; subst.
  destruct (r_deleted r); cbn [app map fst]; [apply IH, Hr|].
  constructor; [|apply IH, Hr]. intros Hin. apply Hn, load_users_keys, Hin.
Qed.

Lemma load_users_app a b : dload_users (a ++ b) = dload_users a ++ dload_users b.
Proof. unfold dload_users. apply flat_map_app. Qed.

Definition live_count (rows : list drow) : nat := length (filter (fun r => negb (r_deleted r)) rows).

Lemma live_count_app a b : live_count (a ++ b) = (live_count a + live_count b)%nat.
Proof. unfold live_count. rewrite filter_app, app_length. reflexivity. Qed.

Lemma live_count_dupd_same u f l :
  (forall r, r_deleted (f r) = r_deleted r) -> live_count (dupd u f l) = live_count l.
Proof.
  intros Hf. unfold live_count. induction l as [|r l IH]; cbn [dupd map filter]; [reflexivity|].
  fold (dupd u f l).
  destruct (N.eqb (r_user r) u); [rewrite Hf|]; destruct (r_deleted r); cbn [negb length]; rewrite IH; reflexivity.
Qed.

(* ------------------------------------------------------------------ *)
(* the owner computed by loadSubscribers: the last live row with O      *)
Lemma last_cons_ne {A} (a : A) l d : l <> [] -> last (a :: l) d = last l d.
Proof. destruct l; [congruence|reflexivity]. Qed.

Lemma last_in_all (u d : N) l : l <> [] -> (forall x, In x l -> x = u) -> last l d = u.
Proof.
  induction l as [|a l IH]; [congruence|]. intros _ H. destruct l as [|b l'].
  - apply H. left. reflexivity.
  - rewrite last_cons_ne by discriminate. apply IH; [discriminate|]. intros x Hx. apply H. right. exact Hx.
Qed.

Lemma last_filter_ne (u d : N) (l : list N) :
  last l d <> u -> last (filter (fun x => negb (N.eqb x u)) l) d = last l d.
Proof.
  induction l as [|a l IH]; [reflexivity|].
  intros H. destruct l as [|b l'].
  - cbn [last filter] in *. destruct (N.eqb a u) eqn:E; [apply N.eqb_eq in E; contradiction|reflexivity].
  - remember (b :: l') as l0 eqn:El0.
    assert (Hl : l0 <> []) by (subst l0; discriminate).
    rewrite last_cons_ne in H by exact Hl. rewrite (last_cons_ne a l0) by exact Hl.
    cbn [filter]. destruct (negb (N.eqb a u)); [|apply IH, H].
    destruct (filter (fun x => negb (N.eqb x u)) l0) as [|c fl] eqn:Ef.
    + exfalso. apply H, last_in_all; [exact Hl|]. intros x Hx.
      destruct (N.eqb x u) eqn:Ex; [apply N.eqb_eq, Ex|].
      assert (Hf : In x (filter (fun x => negb (N.eqb x u)) l0)) by (apply filter_In; rewrite Ex; auto).
      rewrite Ef in Hf. destruct Hf.
    + rewrite last_cons_ne by discriminate. apply IH, H.
Qed.

Lemma downers_dupd_keep u f l :
  (forall r, r_user (f r) = r_user r) ->
  (forall r, In r l -> r_user r = u -> live_owner (f r) = live_owner r) ->
  downers (dupd u f l) = downers l.
Proof.
  intros Hu Hl. unfold downers. induction l as [|r l IH]; [reflexivity|].
  cbn [dupd map filter]. fold (dupd u f l).
  assert (IH' : map r_user (filter live_owner (dupd u f l)) = map r_user (filter live_owner l)).
  { apply IH. intros r' Hin. apply Hl. right. exact Hin. }
  destruct (N.eqb (r_user r) u) eqn:E.
  - rewrite Hl by (try (left; reflexivity); apply N.eqb_eq, E).
    destruct (live_owner r); cbn [map]; [rewrite Hu|]; rewrite IH'; reflexivity.
  - destruct (live_owner r); cbn [map]; rewrite IH'; reflexivity.
Qed.

Lemma downers_in u l : In u (downers l) -> In u (map r_user l).
Proof.
  unfold downers. intros H. apply in_map_iff in H. destruct H as [r [Hr Hin]].
  apply filter_In in Hin. rewrite <- Hr. apply in_map, Hin.
Qed.

Lemma filter_all_id {A} (p : A -> bool) l : (forall x, In x l -> p x = true) -> filter p l = l.
Proof.
  induction l as [|a l IH]; intros H; [reflexivity|]. cbn [filter].
  rewrite (H a) by (left; reflexivity). f_equal. apply IH. intros x Hx. apply H. right. exact Hx.
Qed.

Lemma downers_dupd_drop u f l :
  NoDup (map r_user l) ->
  (forall r, r_user (f r) = r_user r) ->
  (forall r, In r l -> r_user r = u -> live_owner (f r) = false) ->
  downers (dupd u f l) = filter (fun x => negb (N.eqb x u)) (downers l).
Proof.
  intros Hnd Hu Hl. unfold downers. induction l as [|r l IH]; [reflexivity|].
  inversion Hnd as [|? ? Hn Hr]; subst.
  cbn [dupd map filter]. fold (dupd u f l).
  destruct (N.eqb (r_user r) u) eqn:E.
  - rewrite Hl by (try (left; reflexivity); apply N.eqb_eq, E). apply N.eqb_eq in E.
    rewrite dupd_notin by (rewrite <- E; exact Hn).
    assert (Hid : filter (fun x => negb (N.eqb x u)) (map r_user (filter live_owner l)) = map r_user (filter live_owner l)).
    { apply filter_all_id. intros x Hx.
      destruct (N.eqb x u) eqn:Ex; [|reflexivity]. apply N.eqb_eq in Ex. subst x.
      exfalso. apply Hn. rewrite E. apply (downers_in u l Hx). }
    destruct (live_owner r); cbn [map filter].
    + rewrite E, N.eqb_refl. cbn [negb]. symmetry. exact Hid.
    + symmetry. exact Hid.
  - assert (IH' : map r_user (filter live_owner (dupd u f l)) =
                  filter (fun x => negb (N.eqb x u)) (map r_user (filter live_owner l))).
    { apply IH; [exact Hr|]. intros r' Hin. apply Hl. right. exact Hin. }
    destruct (live_owner r); cbn [map filter]; [rewrite E; cbn [negb]|]; rewrite IH'; reflexivity.
Qed.

Lemma nodup_row_unique u l r0 r :
  NoDup (map r_user l) -> dfind u l = Some r0 -> In r l -> r_user r = u -> r = r0.
Proof.
  induction l as [|a l IH]; intros Hnd Hf Hin Hu; [destruct Hin|].
  inversion Hnd as [|? ? Hn Hr]; subst.
  unfold dfind in Hf. cbn [find] in Hf.
  destruct (N.eqb (r_user a) (r_user r)) eqn:E.
  - inversion Hf; subst r0. destruct Hin as [->|Hin]; [reflexivity|].
    exfalso. apply Hn. apply N.eqb_eq in E. rewrite E. apply in_map, Hin.
  - destruct Hin as [->|Hin]; [rewrite N.eqb_refl in E; discriminate|].
    apply IH; auto.
Qed.

Lemma last_in {A} (l : list A) d : l <> [] -> In (last l d) l.
Proof.
  induction l as [|a l IH]; [congruence|]. intros _. destruct l as [|b l'].
  - left. reflexivity.
  - rewrite last_cons_ne by discriminate. right. apply IH. discriminate.
Qed.

(* a non-zero computed owner has a live row with O *)
Lemma load_owner_row u rows : u <> 0%N -> dload_owner rows = u ->
  exists r, In r rows /\ r_user r = u /\ live_owner r = true.
Proof.
  unfold dload_owner. intros Hu H.
  destruct (downers rows) as [|a l] eqn:E; [cbn in H; congruence|].
  assert (Hin : In u (downers rows)) by (rewrite E, <- H; apply last_in; discriminate).
  unfold downers in Hin. apply in_map_iff in Hin. destruct Hin as [r [Hr Hin]].
  apply filter_In in Hin. exists r. tauto.
Qed.

Lemma downers_app_nonowner l r : live_owner r = false -> downers (l ++ [r]) = downers l.
Proof.
  intros H. unfold downers. rewrite filter_app. cbn [filter]. rewrite H, app_nil_r. reflexivity.
Qed.

(* ------------------------------------------------------------------ *)
(* sorted tag lists                                                     *)
Fixpoint ssorted (l : list N) : Prop :=
  match l with [] => True | a :: r => Forall (N.le a) r /\ ssorted r end.

Lemma forall_ninsert (P : N -> Prop) x l : P x -> Forall P l -> Forall P (ninsert x l).
Proof.
  intros Hx H. induction H as [|y r Hy Hr IH]; cbn [ninsert]; [repeat constructor; exact Hx|].
  destruct (N.leb x y); repeat (constructor; auto).
Qed.

Lemma ninsert_ssorted x l : ssorted l -> ssorted (ninsert x l).
Proof.
  induction l as [|y r IH]; cbn [ninsert ssorted]; [auto|].
  intros [Hy Hr]. destruct (N.leb x y) eqn:E; cbn [ssorted].
  - apply N.leb_le in E. repeat split; auto. constructor; [exact E|].
    eapply Forall_impl; [|exact Hy]. intros z Hz. lia.
  - apply N.leb_gt in E. split; [|apply IH, Hr]. apply forall_ninsert; [lia|exact Hy].
Qed.

Lemma nsort_ssorted l : ssorted (nsort l).
Proof. induction l as [|a l IH]; cbn [nsort fold_right ssorted]; [exact I|]. apply ninsert_ssorted, IH. Qed.

Lemma ssorted_nsort_id l : ssorted l -> nsort l = l.
Proof.
  induction l as [|a r IH]; [reflexivity|]. cbn [ssorted]. intros [Ha Hr].
  change (nsort (a :: r)) with (ninsert a (nsort r)). rewrite IH by exact Hr.
  destruct r as [|b r']; [reflexivity|]. cbn [ninsert].
  inversion Ha as [|? ? Hab _]; subst. apply N.leb_le in Hab. rewrite Hab. reflexivity.
Qed.

Lemma ssorted_remove a c b : ssorted (a ++ c :: b) -> ssorted (a ++ b).
Proof.
  induction a as [|x a IH]; cbn [app ssorted].
  - intros [_ H]. exact H.
  - intros [Hf Hs]. split; [|apply IH, Hs].
    apply Forall_app in Hf. destruct Hf as [H1 H2]. inversion H2; subst. apply Forall_app. auto.
Qed.

Lemma norm_loop_ssorted l : forall prev dst, ssorted (dst ++ l) -> ssorted (fst (norm_loop l prev dst)).
Proof.
  induction l as [|c r IH]; intros prev dst H; cbn [norm_loop].
  - rewrite app_nil_r in H. exact H.
  - destruct (c =? 0)%N; [exact I|].
    destruct (negb (tag_valid c) || (c =? prev)%N).
    + apply IH. eapply ssorted_remove, H.
    + apply IH. rewrite <- app_assoc. exact H.
Qed.

Lemma normalize_tags_ssorted src t : normalize_tags src = Some t -> ssorted t.
Proof.
  unfold normalize_tags.
  pose proof (norm_loop_ssorted (nsort (map tag_norm (firstn d_max_tags src))) 0%N [] (nsort_ssorted _)) as H.
  destruct (norm_loop _ 0%N []) as [d b]. cbn [fst] in H.
  destruct b; destruct d; intros E; inversion E; subst; try exact I; exact H.
Qed.

(* ------------------------------------------------------------------ *)
(* the invariant                                                        *)
Definition load_desc : dstore -> dcache := dload.

Definition wf_store (s : dstore) : Prop :=
  NoDup (map r_user (d_subs s)) /\ is_owner (d_auth s) = false /\ ssorted (d_tags s).

Definition users_agree (cu : list (N * dpud)) (rows : list drow) : Prop :=
  (forall u, alookup u cu = alookup u (dload_users rows)) /\
  length cu = length (dload_users rows) /\ NoDup (map fst cu).

(* the cached fields equal what the load path builds from the stored rows *)
Definition coherent_cache (s : dstore) (c : dcache) : Prop :=
  k_auth c = k_auth (load_desc s) /\ k_anon c = k_anon (load_desc s) /\ k_pub c = k_pub (load_desc s) /\
  k_tru c = k_tru (load_desc s) /\ k_tags c = k_tags (load_desc s) /\ k_owner c = k_owner (load_desc s) /\
  users_agree (k_users c) (d_subs s).

Definition coherent_desc (x : dstate) : Prop :=
  wf_store (dst x) /\ match dca x with None => True | Some c => coherent_cache (dst x) c end.

Lemma users_agree_load rows : NoDup (map r_user rows) -> users_agree (dload_users rows) rows.
Proof. intros H. repeat split. apply load_users_nodup, H. Qed.

Lemma coherent_load s : wf_store s -> coherent_cache s (dload s).
Proof. intros [H _]. unfold coherent_cache, load_desc. repeat split. apply load_users_nodup, H. Qed.

Lemma coherent_cache_sess s c g : coherent_cache s c -> coherent_cache s (kc_sess g c).
Proof. exact (fun H => H). Qed.

(* cached entry = stored live row *)
Lemma ua_lookup cu rows u : NoDup (map r_user rows) -> users_agree cu rows ->
  alookup u cu = match dfind u rows with Some r => if r_deleted r then None else Some (pud_of_row r) | None => None end.
Proof. intros Hn [H _]. rewrite H. apply dload_users_lookup, Hn. Qed.

Lemma ua_same cu rows rows' :
  users_agree cu rows ->
  (forall v, alookup v (dload_users rows') = alookup v (dload_users rows)) ->
  length (dload_users rows') = length (dload_users rows) ->
  users_agree cu rows'.
Proof. intros [H1 [H2 H3]] Hl Hn. repeat split; [intros v; rewrite Hl; apply H1|congruence|exact H3]. Qed.

(* with one row per user the sizes agree as soon as the lookups do *)
Lemma ua_intro cu rows : NoDup (map r_user rows) -> NoDup (map fst cu) ->
  (forall u, alookup u cu = alookup u (dload_users rows)) -> users_agree cu rows.
Proof.
  intros Hn Hc Hl. split; [exact Hl|]. split; [|exact Hc].
  apply alookup_ext_length; [exact Hc|apply load_users_nodup, Hn|exact Hl].
Qed.

Lemma ua_aset_same cu rows u p : NoDup (map r_user rows) ->
  users_agree cu rows -> alookup u cu = Some p -> users_agree (aset u p cu) rows.
Proof.
  intros Hn [H1 [_ H3]] Hl. apply ua_intro; [exact Hn|apply keys_aset, H3|].
  intros v. rewrite alookup_aset, <- H1. destruct (N.eqb_spec v u) as [->|]; congruence.
Qed.

(* the row of u is rewritten, its user kept: the entry of u follows the new row *)
Lemma load_lookup_dupd u f rows r0 v :
  NoDup (map r_user rows) -> dfind u rows = Some r0 -> (forall r, r_user (f r) = r_user r) ->
  alookup v (dload_users (dupd u f rows)) =
  if N.eqb v u then (if r_deleted (f r0) then None else Some (pud_of_row (f r0))) else alookup v (dload_users rows).
Proof.
  intros Hn Hf Hu.
  rewrite dload_users_lookup by (rewrite dupd_users by exact Hu; exact Hn).
  rewrite dfind_dupd by exact Hu.
  destruct (N.eqb v u) eqn:E.
  - apply N.eqb_eq in E. subst v. rewrite Hf. reflexivity.
  - symmetry. apply dload_users_lookup, Hn.
Qed.

Lemma ua_dupd cu rows u f r0 :
  NoDup (map r_user rows) -> users_agree cu rows -> dfind u rows = Some r0 -> (forall r, r_user (f r) = r_user r) ->
  users_agree ((if r_deleted (f r0) then aremove u else aset u (pud_of_row (f r0))) cu) (dupd u f rows).
Proof.
  intros Hn [H1 [_ H3]] Hf Hu. apply ua_intro.
  - rewrite dupd_users by exact Hu. exact Hn.
  - destruct (r_deleted (f r0)); [apply keys_aremove|apply keys_aset]; exact H3.
  - intros v. rewrite (load_lookup_dupd u f rows r0 v Hn Hf Hu).
    destruct (r_deleted (f r0)); [rewrite alookup_aremove_eq|rewrite alookup_aset]; rewrite H1; reflexivity.
Qed.

Lemma alookup_app {A} k (a b : list (N * A)) :
  alookup k (a ++ b) = match alookup k a with Some x => Some x | None => alookup k b end.
Proof.
  induction a as [|[x y] a IH]; [reflexivity|]. cbn [app alookup]. destruct (N.eqb k x); [reflexivity|apply IH].
Qed.

Lemma ua_append cu rows r :
  NoDup (map r_user rows) -> users_agree cu rows -> ~ In (r_user r) (map r_user rows) -> r_deleted r = false ->
  users_agree (aset (r_user r) (pud_of_row r) cu) (rows ++ [r]).
Proof.
  intros Hn [H1 [_ H3]] Hnin Hd. apply ua_intro.
  - rewrite map_app. apply NoDup_app_single; assumption.
  - apply keys_aset, H3.
  - intros v. rewrite alookup_aset, load_users_app, alookup_app, H1.
    cbn [dload_users flat_map app]. rewrite Hd. cbn [app alookup].
    destruct (N.eqb_spec v (r_user r)) as [->|]; [|destruct (alookup v (dload_users rows)); reflexivity].
    destruct (alookup (r_user r) (dload_users rows)) eqn:E; [|reflexivity].
    exfalso. apply Hnin, load_users_keys, in_keys_alookup. congruence.
Qed.

Lemma owner_dupd_keep u f rows r0 :
  NoDup (map r_user rows) -> dfind u rows = Some r0 -> (forall r, r_user (f r) = r_user r) ->
  live_owner (f r0) = live_owner r0 -> dload_owner (dupd u f rows) = dload_owner rows.
Proof.
  intros Hn Hf Hu Hl. unfold dload_owner. rewrite downers_dupd_keep; [reflexivity|exact Hu|].
  intros r Hin Hr. rewrite (nodup_row_unique u rows r0 r Hn Hf Hin Hr). exact Hl.
Qed.

Lemma owner_dupd_drop u f rows r0 :
  NoDup (map r_user rows) -> dfind u rows = Some r0 -> (forall r, r_user (f r) = r_user r) ->
  live_owner (f r0) = false -> dload_owner rows <> u -> dload_owner (dupd u f rows) = dload_owner rows.
Proof.
  intros Hn Hf Hu Hl Hne. unfold dload_owner in *. rewrite downers_dupd_drop; [apply last_filter_ne, Hne|exact Hn|exact Hu|].
  intros r Hin Hr. rewrite (nodup_row_unique u rows r0 r Hn Hf Hin Hr). exact Hl.
Qed.

(* the rows and the cached users change together, the other fields stay *)
Lemma coherent_subs s c h g :
  coherent_cache s c -> dload_owner (h (d_subs s)) = dload_owner (d_subs s) ->
  users_agree (g (k_users c)) (h (d_subs s)) -> coherent_cache (ds_subs h s) (kc_users g c).
Proof.
  intros [C1 [C2 [C3 [C4 [C5 [C6 _]]]]]] Ho Hu.
  exact (conj C1 (conj C2 (conj C3 (conj C4 (conj C5 (conj (eq_trans C6 (eq_sym Ho)) Hu)))))).
Qed.

Lemma wf_dupd s u f : (forall r, r_user (f r) = r_user r) -> wf_store s -> wf_store (ds_subs (dupd u f) s).
Proof. intros Hf [W1 W]. split; [|exact W]. cbn [ds_subs d_subs]. rewrite dupd_users by exact Hf. exact W1. Qed.

(* ------------------------------------------------------------------ *)
(* attached sessions belong to cached users                             *)
Definition sess_ok (sm : dsessmap) (c : dcache) : Prop :=
  Forall (fun e => snd e = dsess_uid sm (fst e) /\ alookup (snd e) (k_users c) <> None) (k_sess c).

(* fewer sessions, and the users they belong to stay cached *)
Lemma sess_ok_sub sm c c' : sess_ok sm c ->
  (forall e, In e (k_sess c') -> In e (k_sess c) /\
             (alookup (snd e) (k_users c) <> None -> alookup (snd e) (k_users c') <> None)) ->
  sess_ok sm c'.
Proof.
  unfold sess_ok. rewrite !Forall_forall. intros H Hs e He.
  destruct (Hs e He) as [Hin Hl]. destruct (H e Hin) as [H1 H2]. split; [exact H1|apply Hl, H2].
Qed.

Lemma sess_ok_aset sm c u p : sess_ok sm c -> sess_ok sm (kc_users (aset u p) c).
Proof.
  intros H. apply (sess_ok_sub sm c); [exact H|]. cbn [kc_users k_sess k_users]. intros e He. split; [exact He|].
  rewrite alookup_aset. destruct (N.eqb (snd e) u); [discriminate|auto].
Qed.

Lemma sess_ok_filter sm c p : sess_ok sm c -> sess_ok sm (kc_sess (filter p) c).
Proof.
  intros H. apply (sess_ok_sub sm c); [exact H|]. cbn [kc_sess k_sess k_users]. intros e He.
  apply filter_In in He. split; [apply He|auto].
Qed.

Lemma sess_ok_attached sm c sid : sess_ok sm c -> dattached c sid = true ->
  alookup (dsess_uid sm sid) (k_users c) <> None.
Proof.
  unfold sess_ok, dattached. intros H Ha.
  destruct (alookup sid (k_sess c)) as [a|] eqn:E; [|discriminate].
  apply alookup_in in E. rewrite Forall_forall in H. specialize (H _ E). cbn [fst snd] in H.
  destruct H as [H1 H2]. rewrite <- H1. exact H2.
Qed.

(* the loaded-state invariant *)
Definition dinv_loaded (sm : dsessmap) (s : dstore) (c : dcache) : Prop := coherent_cache s c /\ sess_ok sm c.
Definition dinv (sm : dsessmap) (x : dstate) : Prop :=
  wf_store (dst x) /\ match dca x with None => True | Some c => dinv_loaded sm (dst x) c end.

Lemma dinv_init sm s : wf_store s -> dinv sm (mkDState s None 0).
Proof. intros H. split; [exact H|exact I]. Qed.

Lemma dinv_coherent sm x : dinv sm x -> coherent_desc x.
Proof. intros [H1 H2]. split; [exact H1|]. destruct (dca x); [apply H2|exact I]. Qed.

Lemma dinv_load sm s : wf_store s -> dinv_loaded sm s (dload s).
Proof. intros H. split; [apply coherent_load, H|constructor]. Qed.

(* ------------------------------------------------------------------ *)
(* replySetTags                                                          *)
Lemma kc_tags_id c : kc_tags (k_tags c) c = c.
Proof. destruct c; reflexivity. Qed.

Ltac dsame := cbn [dh_st dh_ca]; first [ split; [assumption | assumption] | split; [assumption | split; assumption] ].

(* stringSliceDelta sorts the cached tags in place: they are sorted already *)
Lemma cached_tags_sorted s c (t : list N) : wf_store s -> coherent_cache s c ->
  match k_tags c, t with [], _ | _, [] => c | _, _ => kc_tags (nsort (k_tags c)) c end = c.
Proof.
  intros Hwf [_ [_ [_ [_ [Ht _]]]]].
  assert (Hsort : nsort (k_tags c) = k_tags c) by (rewrite Ht; apply ssorted_nsort_id; apply Hwf).
  rewrite Hsort, kc_tags_id. destruct (k_tags c), t; reflexivity.
Qed.

Lemma set_tags_inv sm f s c n sid u tags :
  wf_store s -> dinv_loaded sm s c ->
  let h := d_set_tags f s c n sid u tags in wf_store (dh_st h) /\ dinv_loaded sm (dh_st h) (dh_ca h).
Proof.
  intros Hwf [Hc Hs]. cbv zeta. unfold d_set_tags.
  destruct (negb (N.eqb (k_owner c) u)); [dsame|].
  destruct (normalize_tags tags) as [t|] eqn:Et; [|dsame].
  destruct (negb (restricted_eq (k_tags c) t)); [dsame|].
  rewrite (cached_tags_sorted s c t Hwf Hc).
  destruct (tags_differ (k_tags c) t); [|dsame].
  destruct (call f n) as [ok n1]. destruct ok; cbn [negb]; [|dsame].
  cbn [dh_st dh_ca].
  destruct Hwf as [W1 [W2 W3]]. destruct Hc as [C1 [C2 [C3 [C4 [C5 [C6 C7]]]]]].
  split; [repeat split; try assumption; apply (normalize_tags_ssorted _ _ Et)|].
  split; [repeat split; try assumption; apply C7|exact Hs].
Qed.

(* ------------------------------------------------------------------ *)
(* replySetDesc                                                          *)
Lemma topic_update_none s : dad_topic_update s None None None = s.
Proof. destruct s; reflexivity. Qed.
Lemma kc_core_none c : kc_core None None None c = c.
Proof. destruct c; reflexivity. Qed.

(* what the merge of a request value into a stored value leaves *)
Definition val_after (old arg : N) : N := if (arg =? 0)%N then old else if (arg =? 1)%N then 0%N else arg.
Definition acs_after (old : N) (arg : option N) : N :=
  let v := acs_arg_val arg in if (v =? ModeUnset)%N then old else v.

Lemma merge_val_after old arg : (if snd (merge_val old arg) then fst (merge_val old arg) else old) = val_after old arg.
Proof.
  unfold merge_val, val_after. destruct (arg =? 0)%N; [reflexivity|].
  destruct (arg =? 1)%N; cbn [fst snd]; [|reflexivity].
  destruct (old =? 0)%N eqn:E; cbn [negb]; [apply N.eqb_eq in E; exact E|reflexivity].
Qed.

(* assignAccess: the new default access, without O *)
Lemma assign_access_spec c defacs acc :
  is_owner (k_auth c) = false -> assign_access c defacs = Some acc ->
  (match acc with Some (a, _) => a | None => k_auth c end) = acs_after (k_auth c) (match defacs with Some (a, _) => a | None => None end) /\
  (match acc with Some (_, n) => n | None => k_anon c end) = acs_after (k_anon c) (match defacs with Some (_, n) => n | None => None end) /\
  (forall a n, acc = Some (a, n) -> is_owner a = false).
Proof.
  unfold assign_access, acs_after. intros Hc.
  destruct defacs as [[a n]|]; [|intros H; inversion H; subst; cbn; repeat split; discriminate].
  destruct (match n with Some _ => acs_arg_invalid n | None => acs_arg_invalid a end); [discriminate|].
  destruct (is_owner (acs_arg_val a) || is_owner (acs_arg_val n)) eqn:EO; [discriminate|].
  apply orb_false_elim in EO. destruct EO as [EO _].
  assert (HO : is_owner (if (acs_arg_val a =? ModeUnset)%N then k_auth c else acs_arg_val a) = false)
    by (destruct (acs_arg_val a =? ModeUnset)%N; assumption).
  destruct (acs_arg_val a =? ModeUnset)%N eqn:Ea; destruct (acs_arg_val n =? ModeUnset)%N eqn:En;
    rewrite ?N.eqb_refl; cbn [negb orb].
  - intros H; inversion H; subst. repeat split; discriminate.
  - destruct (negb (acs_arg_val n =? k_anon c)%N) eqn:E; intros H; inversion H; subst;
      (split; [|split]); auto; try discriminate; try (intros ? ? E'; inversion E'; subst; exact HO).
    apply negb_false_iff, N.eqb_eq in E. auto.
  - destruct (negb (acs_arg_val a =? k_auth c)%N) eqn:E; cbn [orb]; intros H; inversion H; subst;
      (split; [|split]); auto; try discriminate; try (intros ? ? E'; inversion E'; subst; exact HO).
    apply negb_false_iff, N.eqb_eq in E. auto.
  - destruct (negb (acs_arg_val a =? k_auth c)%N || negb (acs_arg_val n =? k_anon c)%N) eqn:E; intros H; inversion H; subst;
      (split; [|split]); auto; try discriminate; try (intros ? ? E'; inversion E'; subst; exact HO).
    + apply orb_false_elim in E. destruct E as [E _]. apply negb_false_iff, N.eqb_eq in E. auto.
    + apply orb_false_elim in E. destruct E as [_ E]. apply negb_false_iff, N.eqb_eq in E. auto.
Qed.

(* the first part of replySetDesc: a refusal carries a code other than 200; a plan holds the merged
   values, and its default access has no O *)
Lemma plan_spec c u root defacs pub tru priv : is_owner (k_auth c) = false ->
  match d_set_desc_plan c u root defacs pub tru priv with
  | inl code => code <> 200
  | inr p =>
    (match pl_acc p with Some (a, _) => a | None => k_auth c end) = acs_after (k_auth c) (match defacs with Some (a, _) => a | None => None end) /\
    (match pl_acc p with Some (_, n) => n | None => k_anon c end) = acs_after (k_anon c) (match defacs with Some (_, n) => n | None => None end) /\
    (match pl_pub p with Some v => v | None => k_pub c end) = val_after (k_pub c) pub /\
    (match pl_tru p with Some v => v | None => k_tru c end) = val_after (k_tru c) tru /\
    pl_prv p = fst (merge_val (q_priv (dget_pud c u)) priv) /\ pl_prch p = snd (merge_val (q_priv (dget_pud c u)) priv) /\
    (forall a n, pl_acc p = Some (a, n) -> is_owner a = false)
  end.
Proof.
  intros Hc. unfold d_set_desc_plan.
  destruct (negb (tru =? 0)%N && negb root); [discriminate|].
  destruct (N.eqb (k_owner c) u) eqn:Eo; cbn [negb andb].
  - destruct (assign_access c defacs) as [acc|] eqn:Ea; [|discriminate].
    pose proof (merge_val_after (k_pub c) pub) as Hp. pose proof (merge_val_after (k_tru c) tru) as Htr.
    destruct (merge_val (k_pub c) pub) as [pv pch]. destruct (merge_val (k_tru c) tru) as [tv tch].
    destruct (merge_val (q_priv (dget_pud c u)) priv) as [prv prch]. cbn [fst snd] in *.
    match goal with |- match (if ?b then _ else _) with _ => _ end => destruct b end; [discriminate|].
    cbn [pl_acc pl_pub pl_tru pl_prv pl_prch].
    destruct (assign_access_spec c defacs acc Hc Ea) as [A1 [A2 A3]].
    repeat split; try assumption.
    + destruct pch; exact Hp.
    + destruct tch; exact Htr.
  - destruct (match defacs with Some _ => true | None => false end || negb (pub =? 0)%N || negb (tru =? 0)%N) eqn:Ed; [discriminate|].
    apply orb_false_elim in Ed. destruct Ed as [Ed Et]. apply orb_false_elim in Ed. destruct Ed as [Ed Ep].
    destruct defacs; [discriminate|].
    apply negb_false_iff in Ep, Et.
    destruct (merge_val (q_priv (dget_pud c u)) priv) as [prv prch]. cbn [fst snd].
    match goal with |- match (if ?b then _ else _) with _ => _ end => destruct b end; [discriminate|].
    cbn [pl_acc pl_pub pl_tru pl_prv pl_prch].
    unfold val_after, acs_after. rewrite Ep, Et. cbn. repeat split. discriminate.
Qed.

(* the row of u is rewritten (user kept); the cache entry of u is set to its image, or removed
   when the image is a deleted row; the computed owner stays because the row keeps its O status,
   or loses it while somebody else is the owner *)
Lemma row_dupd_inv s c u f r0 :
  wf_store s -> coherent_cache s c -> dfind u (d_subs s) = Some r0 -> (forall r, r_user (f r) = r_user r) ->
  (live_owner (f r0) = live_owner r0 \/ (live_owner (f r0) = false /\ k_owner c <> u)) ->
  wf_store (ds_subs (dupd u f) s) /\
  coherent_cache (ds_subs (dupd u f) s) (kc_users (if r_deleted (f r0) then aremove u else aset u (pud_of_row (f r0))) c).
Proof.
  intros Hwf Hc Ef Hfu Hown. split; [apply wf_dupd; assumption|].
  pose proof Hc as [_ [_ [_ [_ [_ [C6 C7]]]]]]. destruct Hwf as [W1 _].
  apply coherent_subs; [exact Hc| |apply (ua_dupd _ _ u f r0); assumption].
  destruct Hown as [Hk|[Hk Hne]].
  - apply (owner_dupd_keep u f _ r0); assumption.
  - apply (owner_dupd_drop u f _ r0); try assumption. intros E. apply Hne. rewrite C6. exact E.
Qed.

Lemma row_set_inv sm s c u f r0 :
  wf_store s -> dinv_loaded sm s c -> dfind u (d_subs s) = Some r0 -> (forall r, r_user (f r) = r_user r) ->
  r_deleted (f r0) = false ->
  (live_owner (f r0) = live_owner r0 \/ (live_owner (f r0) = false /\ k_owner c <> u)) ->
  wf_store (ds_subs (dupd u f) s) /\ dinv_loaded sm (ds_subs (dupd u f) s) (kc_users (aset u (pud_of_row (f r0))) c).
Proof.
  intros Hwf [Hc Hs] Ef Hfu Hd Hown.
  destruct (row_dupd_inv s c u f r0 Hwf Hc Ef Hfu Hown) as [H1 H2]. rewrite Hd in H2.
  split; [exact H1|]. split; [exact H2|apply sess_ok_aset, Hs].
Qed.

Lemma row_delete_inv sm s c u f r0 :
  wf_store s -> dinv_loaded sm s c -> dfind u (d_subs s) = Some r0 -> (forall r, r_user (f r) = r_user r) ->
  r_deleted (f r0) = true -> k_owner c <> u ->
  wf_store (ds_subs (dupd u f) s) /\
  dinv_loaded sm (ds_subs (dupd u f) s) (kc_users (aremove u) (kc_sess (filter (fun e => negb (N.eqb (snd e) u))) c)).
Proof.
  intros Hwf [Hc Hs] Ef Hfu Hd Hne.
  destruct (row_dupd_inv s c u f r0 Hwf Hc Ef Hfu) as [H1 H2].
  { right. split; [|exact Hne]. unfold live_owner. rewrite Hd. reflexivity. }
  rewrite Hd in H2. split; [exact H1|]. split; [exact H2|].
  apply (sess_ok_sub sm c); [exact Hs|]. cbn [kc_users kc_sess k_sess k_users]. intros e He.
  apply filter_In in He. destruct He as [He Hn]. split; [exact He|].
  rewrite alookup_aremove_eq. destruct (N.eqb (snd e) u); [discriminate Hn|auto].
Qed.

Lemma row_append_inv sm s c u want given pv :
  wf_store s -> dinv_loaded sm s c -> dfind u (d_subs s) = None -> is_owner (N.land given want) = false ->
  let r := mkDRow u want given pv false in
  wf_store (ds_subs (fun l => l ++ [r]) s) /\
  dinv_loaded sm (ds_subs (fun l => l ++ [r]) s) (kc_users (aset u (mkDPud want given pv)) c).
Proof.
  intros [W1 W] [Hc Hs] Ef Ho r. pose proof (dfind_none _ _ Ef) as Hnin.
  pose proof Hc as [_ [_ [_ [_ [_ [_ C7]]]]]].
  split; [split; [|exact W]; cbn [ds_subs d_subs]; rewrite map_app; apply NoDup_app_single; assumption|].
  split; [|apply sess_ok_aset, Hs].
  apply coherent_subs; [exact Hc| |exact (ua_append _ _ r W1 C7 Hnin eq_refl)].
  unfold dload_owner. rewrite downers_app_nonowner; [reflexivity|].
  unfold live_owner. cbn [r r_deleted r_given r_want]. rewrite Ho. reflexivity.
Qed.

Lemma evict_keep_inv sm s c u skip :
  dinv_loaded sm s c -> dinv_loaded sm s (fst (d_evict c u false skip)).
Proof. intros [Hc Hs]. unfold d_evict. cbn [fst]. split; [exact Hc|apply sess_ok_filter, Hs]. Qed.

(* the state reached when both writes of {set desc} went through (or were not needed) *)
Lemma set_desc_final sm s c u acc upub utru (prch : bool) prv :
  wf_store s -> dinv_loaded sm s c -> alookup u (k_users c) <> None ->
  (forall a n, acc = Some (a, n) -> is_owner a = false) ->
  let s1 := dad_topic_update s acc upub utru in
  let s2 := if prch then dad_subs_update s1 u None (Some prv) else s1 in
  let c1 := kc_core acc upub utru c in
  let c2 := if prch then let p := dget_pud c1 u in kc_users (aset u (mkDPud (q_want p) (q_given p) prv)) c1 else c1 in
  wf_store s2 /\ dinv_loaded sm s2 c2.
Proof.
  intros [W1 [W2 W3]] [[C1 [C2 [C3 [C4 [C5 [C6 C7]]]]]] Hs] Hu Hacc. cbv zeta.
  cbn [load_desc dload k_auth k_anon k_pub k_tru k_tags k_owner] in *.
  assert (Wa : is_owner (d_auth (dad_topic_update s acc upub utru)) = false).
  { destruct acc as [[a n]|]; cbn; [apply (Hacc a n eq_refl)|exact W2]. }
  assert (F1 : coherent_cache (dad_topic_update s acc upub utru) (kc_core acc upub utru c)).
  { unfold coherent_cache. cbn [load_desc dload dad_topic_update kc_core k_auth k_anon k_pub k_tru k_tags k_owner k_users d_auth d_anon d_pub d_tru d_tags d_subs].
    repeat split; try assumption; try apply C7.
    - destruct acc as [[a n]|]; [reflexivity|exact C1].
    - destruct acc as [[a n]|]; [reflexivity|exact C2].
    - destruct upub; [reflexivity|exact C3].
    - destruct utru; [reflexivity|exact C4]. }
  assert (Wf1 : wf_store (dad_topic_update s acc upub utru)) by (repeat split; assumption).
  assert (I1 : dinv_loaded sm (dad_topic_update s acc upub utru) (kc_core acc upub utru c)) by (split; [exact F1|exact Hs]).
  destruct prch; [|split; assumption].
  pose proof (ua_lookup _ _ u W1 C7) as Hl.
  destruct (dfind u (d_subs s)) as [r0|] eqn:Ef; [|congruence].
  destruct (r_deleted r0) eqn:Ed; [congruence|].
  assert (Hp : dget_pud (kc_core acc upub utru c) u = pud_of_row r0).
  { unfold dget_pud. cbn [kc_core k_users]. rewrite Hl. reflexivity. }
  rewrite Hp.
  set (f := fun r => mkDRow (r_user r) (r_want r) (r_given r) prv (r_deleted r)).
  apply (row_set_inv sm _ _ u f r0 Wf1 I1 Ef (fun r => eq_refl) Ed). left. reflexivity.
Qed.

Lemma wf_subs_update s u w p : wf_store s -> wf_store (dad_subs_update s u w p).
Proof.
  apply wf_dupd. reflexivity.
Qed.

Lemma wf_topic_update s acc pub tru :
  wf_store s -> (forall a n, acc = Some (a, n) -> is_owner a = false) -> wf_store (dad_topic_update s acc pub tru).
Proof.
  intros [W1 [W2 W3]] H. repeat split; cbn [dad_topic_update d_subs d_auth d_tags]; try assumption.
  destruct acc as [[a n]|]; [apply (H a n eq_refl)|exact W2].
Qed.

Lemma exec_wf f s c n sid u p :
  wf_store s -> (forall a m, pl_acc p = Some (a, m) -> is_owner a = false) ->
  wf_store (dh_st (d_set_desc_exec f s c n sid u p)).
Proof.
  intros Hwf Hacc. unfold d_set_desc_exec.
  assert (W1 : wf_store (if pl_ncore p then dad_topic_update s (pl_acc p) (pl_pub p) (pl_tru p) else s)).
  { destruct (pl_ncore p); [apply wf_topic_update; assumption|exact Hwf]. }
  destruct (if pl_ncore p then call f n else (true, n)) as [ok1 n1].
  destruct ok1; cbn [negb]; [|exact Hwf].
  destruct (if pl_prch p then call f n1 else (true, n1)) as [ok2 n2].
  destruct ok2; cbn [negb dh_st]; [|exact W1].
  destruct (pl_prch p); [apply wf_subs_update|]; exact W1.
Qed.

Lemma exec_inv sm f s c sid u p :
  wf_store s -> dinv_loaded sm s c -> alookup u (k_users c) <> None ->
  (forall a m, pl_acc p = Some (a, m) -> is_owner a = false) ->
  fails f 2 = false ->
  let h := d_set_desc_exec f s c 0 sid u p in wf_store (dh_st h) /\ dinv_loaded sm (dh_st h) (dh_ca h).
Proof.
  intros Hwf Hinv Hu Hacc Hf. cbv zeta. unfold d_set_desc_exec.
  pose proof (set_desc_final sm s c u (pl_acc p) (pl_pub p) (pl_tru p) (pl_prch p) (pl_prv p) Hwf Hinv Hu Hacc) as Hfin.
  cbv zeta in Hfin.
  destruct (pl_ncore p) eqn:Enc.
  - unfold call. cbv beta iota. rewrite Hf. destruct (fails f 1); cbn [negb]; [dsame|].
    destruct (pl_prch p); cbn [negb]; exact Hfin.
  - (* no core update: acc, pub, tru are all None *)
    assert (Hn : pl_acc p = None /\ pl_pub p = None /\ pl_tru p = None).
    { unfold pl_ncore in Enc. destruct (pl_acc p), (pl_pub p), (pl_tru p); try discriminate. auto. }
    destruct Hn as [H1 [H2 H3]]. rewrite H1, H2, H3 in *. rewrite topic_update_none, kc_core_none in Hfin.
    cbn [negb]. rewrite kc_core_none.
    destruct (pl_prch p).
    + unfold call. cbv beta iota. destruct (fails f 1); cbn [negb]; [dsame|exact Hfin].
    + cbn [negb]. exact Hfin.
Qed.

Lemma set_desc_wf f s c n sid u root defacs pub tru priv :
  wf_store s -> coherent_cache s c -> wf_store (dh_st (d_set_desc f s c n sid u root defacs pub tru priv)).
Proof.
  intros Hwf Hc. unfold d_set_desc.
  destruct (d_set_desc_plan c u root defacs pub tru priv) as [code|p] eqn:Ep; [exact Hwf|].
  apply exec_wf; [exact Hwf|].
  assert (Hk : is_owner (k_auth c) = false) by (destruct Hc as [C1 _]; rewrite C1; apply Hwf).
  pose proof (plan_spec c u root defacs pub tru priv Hk) as Hp. rewrite Ep in Hp. apply Hp.
Qed.

Lemma set_desc_inv sm f s c sid u root defacs pub tru priv :
  wf_store s -> dinv_loaded sm s c -> alookup u (k_users c) <> None -> fails f 2 = false ->
  let h := d_set_desc f s c 0 sid u root defacs pub tru priv in
  wf_store (dh_st h) /\ dinv_loaded sm (dh_st h) (dh_ca h).
Proof.
  intros Hwf Hinv Hu Hf. cbv zeta. unfold d_set_desc.
  destruct (d_set_desc_plan c u root defacs pub tru priv) as [code|p] eqn:Ep; [dsame|].
  apply exec_inv; try assumption.
  assert (Hk : is_owner (k_auth c) = false) by (destruct Hinv as [[C1 _] _]; rewrite C1; apply Hwf).
  pose proof (plan_spec c u root defacs pub tru priv Hk) as Hp. rewrite Ep in Hp. apply Hp.
Qed.

Lemma access_noO s c root : wf_store s -> coherent_cache s c -> is_owner (access_for c root) = false.
Proof.
  intros [_ [W _]] [C _]. unfold access_for. destruct root; [reflexivity|]. rewrite C. exact W.
Qed.

(* ------------------------------------------------------------------ *)
(* thisUserSub                                                           *)
Definition norm_priv (priv : N) : N := if (priv =? 1)%N then 0%N else priv.
(* the trigger of resubscribe-stale-private: the user's row is soft-deleted and holds another private value *)
Definition resub_trigger (s : dstore) (u priv : N) : bool :=
  match dfind u (d_subs s) with
  | Some r => r_deleted r && negb (r_priv r =? norm_priv priv)%N
  | None => false
  end.

Lemma sub_get_keep s u : dad_sub_get s u true = dfind u (d_subs s).
Proof. unfold dad_sub_get. destruct (dfind u (d_subs s)); [rewrite andb_false_r|]; reflexivity. Qed.

Lemma wf_sub_create s u w g p : wf_store s -> wf_store (dad_sub_create s u w g p).
Proof.
  intros [W1 [W2 W3]]. unfold dad_sub_create.
  assert (H : wf_store (match dfind u (d_subs s) with
                        | Some _ => ds_subs (dupd u (fun r => mkDRow (r_user r) w g (r_priv r) false)) s
                        | None => ds_subs (fun l => l ++ [mkDRow u w g p false]) s end)).
  { destruct (dfind u (d_subs s)) eqn:Ef; repeat split; cbn [ds_subs d_subs d_auth d_tags]; try assumption.
    - rewrite dupd_users by reflexivity. exact W1.
    - rewrite map_app. cbn [map r_user]. apply NoDup_app_single; [exact W1|apply dfind_none, Ef]. }
  destruct (is_owner (N.land g w)); [|exact H].
  destruct H as [H1 [H2 H3]]. repeat split; assumption.
Qed.

(* the outcomes of thisUserSub.  [resub_want]: a subscriber who dropped J from want gets given | default
   back, without O unless he is the owner; [priv_upd]: the private value to write *)
Definition resub_want (c : dcache) (u : N) (root : bool) (p0 : dpud) : N :=
  if negb (is_joiner (q_want p0)) then
    (if N.eqb (k_owner c) u then N.lor (q_given p0) (access_for c root)
     else N.ldiff (N.lor (q_given p0) (access_for c root)) mO)
  else q_want p0.
Definition priv_upd (priv : N) : option N :=
  if (priv =? 1)%N then Some 0%N else if (priv =? 0)%N then None else Some priv.
(* the entry of [u] is in place; a user left without J loses his sessions *)
Definition dsettled (c : dcache) (u : N) (c' : dcache) : Prop := c' = c \/ c' = fst (d_evict c u false 0%N).

Inductive dtus_spec (s : dstore) (c : dcache) (u : N) (root : bool) (priv : N) : dhres -> dsub_res -> Prop :=
| dtus_rejected n' code : dtus_spec s c u root priv (mkDH s c n' []) (DSubErr code)
(* a live row that the cache does not know is left as it is *)
| dtus_created given s' c' n' o r :
    alookup u (k_users c) = None ->
    s' = dad_sub_create s u (access_for c root) given (norm_priv priv) \/
    (s' = s /\ exists r0, dfind u (d_subs s) = Some r0 /\ r_deleted r0 = false) ->
    dsettled (kc_users (aset u (mkDPud (access_for c root) given (norm_priv priv))) c) u c' ->
    dtus_spec s c u root priv (mkDH s' c' n' o) r
| dtus_updated p0 upw s1 c' n' o r :
    alookup u (k_users c) = Some p0 ->
    upw = (if (resub_want c u root p0 =? q_want p0)%N then None else Some (resub_want c u root p0)) ->
    s1 = dad_subs_update s u upw (priv_upd priv) \/ (s1 = s /\ upw = None /\ priv_upd priv = None) ->
    dsettled (kc_users (aset u (mkDPud (resub_want c u root p0) (q_given p0)
                                       (match priv_upd priv with Some v => v | None => q_priv p0 end))) c) u c' ->
    dtus_spec s c u root priv (mkDH s1 c' n' o) r.

Lemma dtus_shape f s c n u root priv :
  dtus_spec s c u root priv (fst (d_this_user_sub f s c n u root priv)) (snd (d_this_user_sub f s c n u root priv)).
Proof.
  unfold d_this_user_sub. destruct (alookup u (k_users c)) as [p0|] eqn:El.
  - fold (resub_want c u root p0). fold (priv_upd priv).
    match goal with |- context [if ?b then call f n else (true, n)] => destruct b eqn:Eneed end.
    + destruct (call f n) as [[|] n1]; cbn [negb]; [|constructor].
      destruct (negb (is_joiner (resub_want c u root p0))); [|destruct (negb (is_joiner (q_given p0)))];
        unfold d_evict; cbn [fst snd];
        (eapply dtus_updated; [exact El|reflexivity|left; reflexivity|]); (left; reflexivity) || (right; reflexivity).
    + cbn [negb].
      assert (Hn : (if (resub_want c u root p0 =? q_want p0)%N then None else Some (resub_want c u root p0)) = None /\
                   priv_upd priv = None).
      { destruct (priv_upd priv); [discriminate|]. destruct (resub_want c u root p0 =? q_want p0)%N; [auto|discriminate]. }
      destruct (negb (is_joiner (resub_want c u root p0))); [|destruct (negb (is_joiner (q_given p0)))];
        unfold d_evict; cbn [fst snd];
        (eapply dtus_updated; [exact El|reflexivity|right; split; [reflexivity|exact Hn]|]);
        (left; reflexivity) || (right; reflexivity).
  - destruct (max_subs <=? Z.of_nat (length (k_users c))); [constructor|].
    destruct (call f n) as [[|] n1]; cbn [negb]; [|constructor].
    rewrite sub_get_keep. fold (norm_priv priv).
    match goal with |- context [if negb (is_joiner ?g) then _ else _] => set (given := g) end.
    destruct (negb (is_joiner given)); [constructor|].
    destruct (dfind u (d_subs s)) as [r0|] eqn:Ef; [destruct (r_deleted r0) eqn:Ed|]; cbn [negb].
    1, 3: destruct (call f n1) as [[|] n2]; cbn [negb]; [|constructor].
    all: destruct (negb (is_joiner (access_for c root))); unfold d_evict; cbn [fst snd];
      (eapply (dtus_created _ _ _ _ _ given); [exact El|first [left; reflexivity|right; eauto]|]);
      (left; reflexivity) || (right; reflexivity).
Qed.

Lemma dtus_wf s c u root priv h r : dtus_spec s c u root priv h r -> wf_store s -> wf_store (dh_st h).
Proof.
  intros [n' code|given s' c' n' o r' _ ST _|p0 upw s1 c' n' o r' _ _ ST _] Hwf; cbn [dh_st]; [exact Hwf| |].
  - destruct ST as [->|[-> _]]; [apply wf_sub_create|]; exact Hwf.
  - destruct ST as [->|[-> _]]; [apply wf_subs_update|]; exact Hwf.
Qed.

Lemma dsettled_inv sm s c u c' : dinv_loaded sm s c -> dsettled c u c' -> dinv_loaded sm s c' /\ k_users c' = k_users c.
Proof. intros H [->| ->]; [auto|]. split; [apply evict_keep_inv, H|reflexivity]. Qed.

Lemma dtus_inv sm s c u root priv h r :
  dtus_spec s c u root priv h r ->
  wf_store s -> dinv_loaded sm s c -> u <> 0%N -> resub_trigger s u priv = false ->
  wf_store (dh_st h) /\ dinv_loaded sm (dh_st h) (dh_ca h) /\
  (forall ch, r = DSubOk ch -> alookup u (k_users (dh_ca h)) <> None).
Proof.
  intros SP Hwf Hinv Hu0 Ht.
  pose proof (ua_lookup _ _ u (proj1 Hwf) (proj2 (proj2 (proj2 (proj2 (proj2 (proj2 (proj1 Hinv)))))))) as Hl.
  pose proof (access_noO s c root Hwf (proj1 Hinv)) as Hacc.
  (* once store s1 / cache c1 with the entry of u satisfy the invariant, so does the settled cache *)
  assert (Hfin : forall s1 c1 c', wf_store s1 /\ dinv_loaded sm s1 c1 -> alookup u (k_users c1) <> None -> dsettled c1 u c' ->
            wf_store s1 /\ dinv_loaded sm s1 c' /\ (forall ch : option (N * N), r = DSubOk ch -> alookup u (k_users c') <> None)).
  { intros s1 c1 c' [Hw1 Hi1] Hu1 ST. destruct (dsettled_inv sm s1 c1 u c' Hi1 ST) as [Hi2 E].
    split; [exact Hw1|]. split; [exact Hi2|]. intros _ _. rewrite E. exact Hu1. }
  destruct SP as [n' code|given s' c' n' o r' El ST SE|p0 upw s1 c' n' o r' El EW ST SE]; cbn [dh_st dh_ca].
  - split; [exact Hwf|]. split; [exact Hinv|discriminate].
  - rewrite El in Hl.
    destruct ST as [->|[-> [r0 [Ef Ed]]]]; [|rewrite Ef, Ed in Hl; discriminate].
    assert (Ho : is_owner (N.land given (access_for c root)) = false) by (rewrite is_owner_land, Hacc; apply andb_false_r).
    refine (Hfin _ _ _ _ _ SE); [|cbn [kc_users k_users]; rewrite alookup_aset, N.eqb_refl; discriminate].
    unfold dad_sub_create. rewrite Ho. destruct (dfind u (d_subs s)) as [r0|] eqn:Ef.
    + destruct (r_deleted r0) eqn:Ed; [|discriminate].
      assert (Hp : norm_priv priv = r_priv r0).
      { unfold resub_trigger in Ht. rewrite Ef, Ed in Ht. cbn [andb] in Ht.
        destruct (r_priv r0 =? norm_priv priv)%N eqn:E; [|discriminate]. apply N.eqb_eq in E. symmetry. exact E. }
      rewrite Hp.
      assert (Hlo : live_owner (mkDRow (r_user r0) (access_for c root) given (r_priv r0) false) = live_owner r0).
      { unfold live_owner. cbn [r_deleted r_given r_want]. rewrite Ed, Ho. reflexivity. }
      exact (row_set_inv sm s c u (fun r => mkDRow (r_user r) (access_for c root) given (r_priv r) false) r0
               Hwf Hinv Ef (fun _ => eq_refl) eq_refl (or_introl Hlo)).
    + exact (row_append_inv sm s c u (access_for c root) given (norm_priv priv) Hwf Hinv Ef Ho).
  - rewrite El in Hl.
    destruct (dfind u (d_subs s)) as [r0|] eqn:Ef; [|discriminate].
    destruct (r_deleted r0) eqn:Ed; [discriminate|].
    assert (Hp0 : p0 = pud_of_row r0) by congruence. clear Hl.
    set (w1 := resub_want c u root p0) in *.
    set (p1 := mkDPud w1 (q_given p0) (match priv_upd priv with Some v => v | None => q_priv p0 end)) in *.
    refine (Hfin _ _ _ _ _ SE); [|cbn [kc_users k_users]; rewrite alookup_aset, N.eqb_refl; discriminate].
    destruct ST as [->|[-> [EW' EP]]].
    + (* the row is rewritten *)
      set (fr := fun r => mkDRow (r_user r) (match upw with Some w => w | None => r_want r end) (r_given r)
                                 (match priv_upd priv with Some p => p | None => r_priv r end) (r_deleted r)).
      assert (Hpud : pud_of_row (fr r0) = p1).
      { unfold pud_of_row, fr, p1. cbn [r_want r_given r_priv]. subst p0 upw. cbn [pud_of_row q_priv q_want q_given] in *.
        f_equal. destruct (w1 =? r_want r0)%N eqn:E; [apply N.eqb_eq in E; rewrite E|]; reflexivity. }
      assert (Hown : live_owner (fr r0) = live_owner r0 \/ (live_owner (fr r0) = false /\ k_owner c <> u)).
      { unfold live_owner, fr. cbn [r_deleted r_given r_want]. rewrite Ed. cbn [negb andb].
        subst upw. destruct (w1 =? q_want p0)%N eqn:E; [left; reflexivity|].
        assert (Hnj : negb (is_joiner (q_want p0)) = true).
        { destruct (negb (is_joiner (q_want p0))) eqn:Hc; [reflexivity|].
          unfold w1, resub_want in E. rewrite Hc, N.eqb_refl in E. discriminate. }
        unfold w1, resub_want. rewrite Hnj.
        destruct (N.eqb (k_owner c) u) eqn:Eo.
        - left. apply N.eqb_eq in Eo.
          destruct Hinv as [[_ [_ [_ [_ [_ [C6 _]]]]]] _]. cbn [load_desc dload k_owner] in C6.
          destruct (load_owner_row u (d_subs s) Hu0) as [r [Hin [Hru Hlo]]]; [congruence|].
          rewrite (nodup_row_unique u _ r0 r (proj1 Hwf) Ef Hin Hru) in Hlo.
          unfold live_owner in Hlo. rewrite Ed in Hlo. cbn [negb andb] in Hlo.
          rewrite Hlo. rewrite is_owner_land in *. apply andb_prop in Hlo. destruct Hlo as [Hg _].
          rewrite Hg, is_owner_lor. subst p0. cbn [pud_of_row q_given]. rewrite Hg. reflexivity.
        - right. split; [|apply N.eqb_neq, Eo]. rewrite is_owner_land, is_owner_ldiff_mO. apply andb_false_r. }
      pose proof (row_set_inv sm s c u fr r0 Hwf Hinv Ef (fun r => eq_refl) Ed Hown) as Hr.
      rewrite Hpud in Hr. exact Hr.
    + (* nothing to write: the cache entry is rewritten with the same value *)
      assert (Hp1 : p1 = p0).
      { unfold p1. rewrite EP. rewrite EW' in EW.
        destruct (w1 =? q_want p0)%N eqn:E; [|discriminate]. apply N.eqb_eq in E. rewrite E. destruct p0; reflexivity. }
      rewrite Hp1. split; [exact Hwf|]. destruct Hinv as [[C1 [C2 [C3 [C4 [C5 [C6 C7]]]]]] Hs]. split.
      * unfold coherent_cache. cbn [kc_users k_auth k_anon k_pub k_tru k_tags k_owner k_users].
        repeat split; try assumption; apply (ua_aset_same _ _ u p0 (proj1 Hwf) C7 El).
      * apply sess_ok_aset, Hs.
Qed.

Lemma sub_reply_inv sm f s c n sid u root priv :
  wf_store s -> dinv_loaded sm s c -> u <> 0%N -> u = dsess_uid sm sid -> resub_trigger s u priv = false ->
  let h := d_sub_reply f s c n sid u root priv in wf_store (dh_st h) /\ dinv_loaded sm (dh_st h) (dh_ca h).
Proof.
  intros Hwf Hinv Hu Hsm Ht. cbv zeta. unfold d_sub_reply.
  pose proof (dtus_inv sm s c u root priv _ _ (dtus_shape f s c n u root priv) Hwf Hinv Hu Ht) as H.
  destruct (d_this_user_sub f s c n u root priv) as [h r]. cbn [fst snd] in H.
  destruct H as [H1 [H2 H3]].
  destruct r as [code|ch]; cbn [dh_st dh_ca]; [split; assumption|].
  split; [exact H1|].
  destruct (match ch with Some (w, g) => is_joiner (N.land g w) | None => true end); [|exact H2].
  destruct H2 as [Hc Hs]. split; [exact Hc|].
  unfold sess_ok in *. cbn [kc_sess k_sess k_users]. rewrite Forall_forall in *. intros e He.
  apply in_aset in He. destruct He as [->|He]; [|exact (Hs e He)].
  cbn [fst snd]. split; [exact Hsm|]. apply (H3 ch eq_refl).
Qed.

(* ------------------------------------------------------------------ *)
(* replyLeaveUnsub                                                       *)
Lemma leave_unsub_inv sm f s c n sid u :
  wf_store s -> dinv_loaded sm s c ->
  let h := d_leave_unsub f s c n sid u in wf_store (dh_st h) /\ dinv_loaded sm (dh_st h) (dh_ca h).
Proof.
  intros Hwf Hinv. cbv zeta. unfold d_leave_unsub.
  destruct (N.eqb (k_owner c) u) eqn:Eo; [dsame|]. apply N.eqb_neq in Eo.
  destruct (call f n) as [ok1 n1]. destruct ok1; cbn [negb]; [|dsame].
  unfold dad_subs_delete, dad_sub_get.
  destruct (dfind u (d_subs s)) as [r0|] eqn:Ef; [|dsame].
  destruct (r_deleted r0) eqn:Ed; cbn [andb negb]; [dsame|].
  pose proof (row_delete_inv sm s c u (fun r => mkDRow (r_user r) (r_want r) (r_given r) (r_priv r) true) r0
                Hwf Hinv Ef (fun _ => eq_refl) eq_refl Eo) as Hr.
  unfold d_evict. cbn [dh_st dh_ca]. exact Hr.
Qed.

(* replyOfflineTopicSetSub: the store only *)
Lemma offline_set_desc_wf f s sid u priv : wf_store s -> wf_store (do_st (d_offline_set_desc f s sid u priv)).
Proof.
  intros Hwf. unfold d_offline_set_desc.
  destruct (priv =? 0)%N; [exact Hwf|].
  destruct (call f 0) as [ok1 n1]. destruct ok1; cbn [negb]; [|exact Hwf].
  destruct (dad_sub_get s u false); [|exact Hwf].
  destruct (call f n1) as [ok2 n2]. destruct ok2; cbn [negb do_st]; [|exact Hwf].
  apply wf_subs_update, Hwf.
Qed.

Lemma offline_get_desc_st f s sid u : do_st (d_offline_get_desc f s sid u) = s.
Proof.
  unfold d_offline_get_desc.
  destruct (call f 0) as [ok1 n1]. destruct ok1; cbn [negb]; [|reflexivity].
  destruct (call f n1) as [ok2 n2]. destruct ok2; cbn [negb]; [|reflexivity].
  destruct (dad_sub_get s u false); reflexivity.
Qed.

(* ------------------------------------------------------------------ *)
(* the triggers of the three reproduced divergences (findings/C08_desc.md):
   T1 offline-setdesc-stale-cache: {set desc private} from a session that is not attached while the
      topic is loaded and the requester has a live subscription;
   T2 setdesc-partly-stored: the second adapter call of an attached {set desc} fails (FailAt 2);
   T3 resubscribe-stale-private: {sub} of a user whose soft-deleted row holds another private value. *)
Definition dtrigger (sm : dsessmap) (f : fault) (x : dstate) (o : dop) : bool :=
  match o with
  | DSub sid priv =>
    match dca x with
    | Some c => negb (dattached c sid) && resub_trigger (dst x) (dsess_uid sm sid) priv
    | None => resub_trigger (dst x) (dsess_uid sm sid) priv
    end
  | DSetDesc sid _ _ _ priv =>
    match dca x with
    | Some c =>
      if dattached c sid then match f with FailAt 2 => true | _ => false end
      else negb (priv =? 0)%N && match dad_sub_get (dst x) (dsess_uid sm sid) false with Some _ => true | None => false end
    | None => false
    end
  | _ => false
  end.

Lemma sub_reply_wf f s c n sid u root priv : wf_store s -> wf_store (dh_st (d_sub_reply f s c n sid u root priv)).
Proof.
  intros Hwf. unfold d_sub_reply. pose proof (dtus_wf s c u root priv _ _ (dtus_shape f s c n u root priv) Hwf) as H.
  destruct (d_this_user_sub f s c n u root priv) as [h r]. cbn [fst] in H. destruct r; exact H.
Qed.

Lemma d_try_load_cases f s n : (exists n1, d_try_load f s n = (n1, None)) \/ (exists n1, d_try_load f s n = (n1, Some (dload s))).
Proof.
  unfold d_try_load. destruct (call f n) as [ok1 n1]. destruct ok1; cbn [negb]; [|left; eexists; reflexivity].
  destruct (call f n1) as [ok2 n2]. destruct ok2; cbn [negb]; [right|left]; eexists; reflexivity.
Qed.

Lemma fails_no_second f : f <> FailAt 2 -> (forall k, f <> CrashAt k) -> fails f 2 = false.
Proof.
  intros H1 H2. destruct f as [|k|k]; [reflexivity| |exfalso; apply (H2 k); reflexivity].
  cbn [fails]. destruct (Nat.eqb 2 k) eqn:E; [|reflexivity]. apply Nat.eqb_eq in E. subst k. contradiction.
Qed.

(* the handler-level step: the store stays well-formed under every request and every fault plan,
   triggers included; outside the triggers the loaded invariant is kept unless the fault plan is a
   crash (then the cache is dropped by dstep_f) *)
Lemma dstep_inv sm f x o : dinv sm x ->
  wf_store (dst (fst (dstep sm f x o))) /\
  (dtrigger sm f x o = false -> (forall k, f <> CrashAt k) -> dinv sm (fst (dstep sm f x o))).
Proof.
  intros [Hwf Hca].
  assert (Hmk : forall (T : Prop) s' c' n (o' : dout),
            wf_store s' -> match c' with None => True | Some c => dinv_loaded sm s' c end ->
            wf_store (dst (fst (mkDState s' c' n, o'))) /\
            (T -> (forall k, f <> CrashAt k) -> dinv sm (fst (mkDState s' c' n, o')))).
  { intros T s' c' n o' H1 H2. split; [exact H1|]. intros _ _. split; assumption. }
  assert (Hfin : forall (T : Prop) h, wf_store (dh_st h) /\ dinv_loaded sm (dh_st h) (dh_ca h) ->
            wf_store (dst (fst (mkDState (dh_st h) (Some (dh_ca h)) (dh_n h), dh_out h))) /\
            (T -> (forall k, f <> CrashAt k) -> dinv sm (fst (mkDState (dh_st h) (Some (dh_ca h)) (dh_n h), dh_out h)))).
  { intros T h [H1 H2]. apply Hmk; assumption. }
  destruct o as [sid priv|sid unsub|sid defacs pub tru priv|sid tags|sid|sid| |]; unfold dstep; cbn [dop_sid].
  - (* DSub *)
    destruct (dsess_uid sm sid =? 0)%N eqn:Eu; [apply Hmk; assumption|]. apply N.eqb_neq in Eu.
    unfold dtrigger. destruct (dca x) as [c|].
    + destruct (dattached c sid) eqn:Ea; [apply Hmk; assumption|]. cbn [negb andb].
      split; [apply sub_reply_wf, Hwf|]. intros Ht _. apply sub_reply_inv; auto.
    + destruct (d_try_load_cases f (dst x) 0) as [[n1 E]|[n1 E]]; rewrite E; [apply Hmk; assumption|].
      split; [apply sub_reply_wf, Hwf|]. intros Ht _. apply sub_reply_inv; auto. apply dinv_load, Hwf.
  - (* DLeave *)
    destruct (dsess_uid sm sid =? 0)%N eqn:Eu; [apply Hmk; assumption|].
    destruct (dca x) as [c|]; [|apply Hmk; assumption].
    destruct (dattached c sid) eqn:Ea; [|apply Hmk; assumption].
    destruct unsub; apply Hfin.
    + apply leave_unsub_inv; assumption.
    + cbn [dh_st dh_ca]. split; [exact Hwf|]. destruct Hca as [Hc Hs]. split; [exact Hc|].
      apply (sess_ok_sub sm c); [exact Hs|]. cbn [kc_sess k_sess k_users]. intros e He.
      apply in_aremove in He. auto.
  - (* DSetDesc *)
    destruct (dsess_uid sm sid =? 0)%N eqn:Eu; [apply Hmk; assumption|].
    unfold dtrigger. destruct (dca x) as [c|].
    + destruct (dattached c sid) eqn:Ea.
      * cbn [fst dst dca dh_st dh_ca].
        split; [apply set_desc_wf; [exact Hwf|apply Hca]|].
        intros Ht Hnc.
        assert (Hf2 : fails f 2 = false).
        { apply fails_no_second; [|exact Hnc]. intros ->. discriminate. }
        apply set_desc_inv; try assumption. apply (sess_ok_attached sm c sid (proj2 Hca) Ea).
      * cbn [fst dst dca]. split; [apply offline_set_desc_wf, Hwf|]. intros Ht _.
        (* the trigger is off: nothing is written *)
        assert (Hst : do_st (d_offline_set_desc f (dst x) sid (dsess_uid sm sid) priv) = dst x).
        { unfold d_offline_set_desc. destruct (priv =? 0)%N eqn:Ep; [reflexivity|].
          cbn [negb andb] in Ht.
          destruct (call f 0) as [ok1 n1]. destruct ok1; cbn [negb]; [|reflexivity].
          destruct (dad_sub_get (dst x) (dsess_uid sm sid) false); [discriminate|reflexivity]. }
        split; cbn [dst dca]; rewrite Hst; assumption.
    + apply Hmk; [apply offline_set_desc_wf, Hwf|exact I].
  - (* DSetTags *)
    destruct (dsess_uid sm sid =? 0)%N eqn:Eu; [apply Hmk; assumption|].
    destruct (dca x) as [c|]; [|apply Hmk; assumption].
    destruct (dattached c sid) eqn:Ea; [|apply Hmk; assumption].
    apply Hfin. apply set_tags_inv; assumption.
  - (* DGetDesc *)
    destruct (dsess_uid sm sid =? 0)%N eqn:Eu; [apply Hmk; assumption|].
    destruct (dca x) as [c|]; [destruct (dattached c sid)|]; try (apply Hmk; assumption);
      cbn [fst dst dca]; rewrite offline_get_desc_st; apply (Hmk _ _ _ 0%nat []); assumption.
  - (* DGetTags *)
    destruct (dsess_uid sm sid =? 0)%N eqn:Eu; [apply Hmk; assumption|].
    destruct (dca x) as [c|]; [|apply Hmk; assumption].
    destruct (dattached c sid); apply Hmk; assumption.
  - (* DUnload *)
    destruct (dca x) as [c|]; [|apply Hmk; assumption].
    destruct (k_sess c); apply Hmk; try assumption. exact I.
  - apply Hmk; [exact Hwf|exact I].
Qed.

Theorem dstep_f_inv sm f x o : dinv sm x -> dtrigger sm f x o = false -> dinv sm (fst (dstep_f sm x (f, o))).
Proof.
  intros Hi Ht. destruct (dstep_inv sm f x o Hi) as [H1 H2]. specialize (H2 Ht). unfold dstep_f. cbn [fst snd].
  destruct (dstep sm f x o) as [x1 o1]. cbn [fst] in *.
  destruct f as [|k|k]; cbn [fst].
  - apply H2. discriminate.
  - apply H2. discriminate.
  - split; [exact H1|exact I].
Qed.

(* ------------------------------------------------------------------ *)
(* histories                                                            *)
Fixpoint dbenign (sm : dsessmap) (x : dstate) (h : list (fault * dop)) : Prop :=
  match h with
  | [] => True
  | fo :: r => dtrigger sm (fst fo) x (snd fo) = false /\ dbenign sm (fst (dstep_f sm x fo)) r
  end.

Theorem drun_inv sm h : forall x, dinv sm x -> dbenign sm x h -> dinv sm (fst (drun sm x h)).
Proof.
  induction h as [|[f o] r IH]; intros x Hi Hb; [exact Hi|].
  cbn [drun]. destruct Hb as [Ht Hb]. cbn [fst snd] in Ht.
  pose proof (dstep_f_inv sm f x o Hi Ht) as H1.
  destruct (dstep_f sm x (f, o)) as [x1 o1] eqn:E. cbn [fst] in *.
  specialize (IH x1 H1 Hb). destruct (drun sm x1 r) as [x2 os]. exact IH.
Qed.

(* ------------------------------------------------------------------ *)
(* reload: the cache rebuilt by the load path, the same sessions attached *)
Definition dreload (x : dstate) : dstate :=
  mkDState (dst x) (match dca x with Some c => Some (kc_sess (fun _ => k_sess c) (dload (dst x))) | None => None end) (dncalls x).

Definition is_query (o : dop) : bool := match o with DGetDesc _ | DGetTags _ => true | _ => false end.

Theorem reload_invisible_query sm f x q :
  coherent_desc x -> is_query q = true -> snd (dstep sm f x q) = snd (dstep sm f (dreload x) q).
Proof.
  intros [Hwf Hc] Hq. destruct q; try discriminate Hq; unfold dstep, dreload; cbn [dop_sid dst dca].
  - destruct (dsess_uid sm sid =? 0)%N; [reflexivity|].
    destruct (dca x) as [c|]; [|reflexivity].
    unfold dattached. cbn [kc_sess k_sess].
    destruct (alookup sid (k_sess c)); [|reflexivity].
    cbn [snd dh_out]. unfold d_get_desc.
    destruct Hc as [C1 [C2 [C3 [C4 [C5 [C6 [C7 _]]]]]]].
    cbn [kc_sess k_users k_pub k_tru k_auth k_anon dload load_desc] in *.
    rewrite C7, C1, C2, C3, C4. reflexivity.
  - destruct (dsess_uid sm sid =? 0)%N; [reflexivity|].
    destruct (dca x) as [c|]; [|reflexivity].
    unfold dattached. cbn [kc_sess k_sess].
    destruct (alookup sid (k_sess c)); [|reflexivity].
    cbn [snd dh_out]. unfold d_get_tags.
    destruct Hc as [C1 [C2 [C3 [C4 [C5 [C6 _]]]]]].
    cbn [kc_sess k_tags k_owner dload load_desc] in *.
    rewrite C5, C6. reflexivity.
Qed.

(* ------------------------------------------------------------------ *)
(* ack => stored                                                        *)
Definition acked (sid : N) (o : dout) : Prop := In (sid, DCtrl 200) o.

(* what an acknowledged {set desc} must have left in the store *)
Definition desc_stored (s s' : dstore) (u : N) (defacs : option (option N * option N)) (pub tru priv : N) : Prop :=
  d_auth s' = acs_after (d_auth s) (match defacs with Some (a, _) => a | None => None end) /\
  d_anon s' = acs_after (d_anon s) (match defacs with Some (_, n) => n | None => None end) /\
  d_pub s' = val_after (d_pub s) pub /\ d_tru s' = val_after (d_tru s) tru /\
  (priv <> 0%N -> forall r, dfind u (d_subs s) = Some r ->
     exists r', dfind u (d_subs s') = Some r' /\ r_priv r' = val_after (r_priv r) priv).

Lemma acked_single sid code : acked sid [(sid, DCtrl code)] -> code = 200.
Proof. intros [H|[]]. inversion H. reflexivity. Qed.

(* an acknowledged {set desc} of an attached session has written both rows *)
Lemma set_desc_acked sm f s c sid u root defacs pub tru priv :
  wf_store s -> dinv_loaded sm s c -> alookup u (k_users c) <> None ->
  let h := d_set_desc f s c 0 sid u root defacs pub tru priv in
  acked sid (dh_out h) -> desc_stored s (dh_st h) u defacs pub tru priv.
Proof.
  intros Hwf [[C1 [C2 [C3 [C4 [C5 [C6 C7]]]]]] Hs] Hcached. cbv zeta. unfold d_set_desc.
  assert (Hk : is_owner (k_auth c) = false) by (rewrite C1; apply Hwf).
  pose proof (plan_spec c u root defacs pub tru priv Hk) as Hp.
  destruct (d_set_desc_plan c u root defacs pub tru priv) as [code|p].
  - cbn [dh_out]. intros H. apply acked_single in H. contradiction.
  - destruct Hp as [P1 [P2 [P3 [P4 [P5 [P6 _]]]]]].
    cbn [load_desc dload k_auth k_anon k_pub k_tru] in C1, C2, C3, C4.
    unfold d_set_desc_exec.
    assert (Hnc : pl_ncore p = false -> pl_acc p = None /\ pl_pub p = None /\ pl_tru p = None).
    { unfold pl_ncore. destruct (pl_acc p), (pl_pub p), (pl_tru p); try discriminate; auto. }
    destruct (if pl_ncore p then call f 0 else (true, 0%nat)) as [ok1 n1].
    destruct ok1; cbn [negb dh_out]; [|intros H; apply acked_single in H; discriminate].
    destruct (if pl_prch p then call f n1 else (true, n1)) as [ok2 n2].
    destruct ok2; cbn [negb dh_out]; [|intros H; apply acked_single in H; discriminate].
    intros _. cbn [dh_st].
    set (s1 := if pl_ncore p then dad_topic_update s (pl_acc p) (pl_pub p) (pl_tru p) else s).
    assert (S1 : d_auth s1 = (match pl_acc p with Some (a, _) => a | None => d_auth s end) /\
                 d_anon s1 = (match pl_acc p with Some (_, n) => n | None => d_anon s end) /\
                 d_pub s1 = (match pl_pub p with Some v => v | None => d_pub s end) /\
                 d_tru s1 = (match pl_tru p with Some v => v | None => d_tru s end) /\
                 d_subs s1 = d_subs s).
    { unfold s1. destruct (pl_ncore p) eqn:En; [cbn; repeat split; destruct (pl_acc p) as [[? ?]|]; reflexivity|].
      destruct (Hnc eq_refl) as [-> [-> ->]]. repeat split. }
    destruct S1 as [S1 [S2 [S3 [S4 S5]]]].
    assert (Hf : forall s2, d_auth s2 = d_auth s1 -> d_anon s2 = d_anon s1 -> d_pub s2 = d_pub s1 -> d_tru s2 = d_tru s1 ->
       (priv <> 0%N -> forall r, dfind u (d_subs s) = Some r ->
            exists r', dfind u (d_subs s2) = Some r' /\ r_priv r' = val_after (r_priv r) priv) ->
       desc_stored s s2 u defacs pub tru priv).
    { intros s2 E1 E2 E3 E4 E5. unfold desc_stored.
      rewrite E1, E2, E3, E4, S1, S2, S3, S4, <- C1, <- C2, <- C3, <- C4. repeat split; assumption. }
    (* the requester's row *)
    pose proof (ua_lookup _ _ u (proj1 Hwf) C7) as Hl.
    pose proof (merge_val_after (q_priv (dget_pud c u)) priv) as Hm. rewrite <- P5, <- P6 in Hm.
    destruct (pl_prch p) eqn:Epr.
    + apply Hf; try reflexivity. intros _ r Hr. rewrite Hr in Hl.
      destruct (r_deleted r); [congruence|].
      cbn [dad_subs_update ds_subs d_subs]. rewrite S5, dfind_dupd by reflexivity. rewrite N.eqb_refl, Hr. cbn [option_map].
      eexists. split; [reflexivity|]. cbn [r_priv]. rewrite Hm.
      unfold dget_pud. rewrite Hl. reflexivity.
    + apply Hf; try reflexivity. intros _ r Hr. rewrite Hr in Hl.
      destruct (r_deleted r); [congruence|].
      rewrite S5. exists r. split; [exact Hr|]. unfold dget_pud in Hm. rewrite Hl in Hm. exact Hm.
Qed.

(* ------------------------------------------------------------------ *)
(* reject => no change                                                  *)
Definition rejected (sid : N) (o : dout) : Prop := exists code, In (sid, DCtrl code) o /\ 400 <= code.
Definition is_set_or_query (o : dop) : bool :=
  match o with DSetDesc _ _ _ _ _ | DSetTags _ _ | DGetDesc _ | DGetTags _ => true | _ => false end.

Lemma rejected_single sid code : rejected sid [(sid, DCtrl code)] -> 400 <= code.
Proof. intros [c [[H|[]] Hc]]. inversion H; subst. exact Hc. Qed.

(* the rejecting returns of each handler are taken before anything is written *)
Lemma offline_set_desc_rejected f s sid u priv :
  rejected sid (do_out (d_offline_set_desc f s sid u priv)) -> do_st (d_offline_set_desc f s sid u priv) = s.
Proof.
  unfold d_offline_set_desc.
  destruct (priv =? 0)%N; [reflexivity|].
  destruct (call f 0) as [ok1 n1]. destruct ok1; cbn [negb]; [|reflexivity].
  destruct (dad_sub_get s u false); [|reflexivity].
  destruct (call f n1) as [ok2 n2]. destruct ok2; cbn [negb]; [|reflexivity].
  cbn [do_out]. intros Hr. apply rejected_single in Hr. lia.
Qed.

Lemma set_desc_rejected f s c sid u root defacs pub tru priv : fails f 2 = false ->
  let h := d_set_desc f s c 0 sid u root defacs pub tru priv in
  rejected sid (dh_out h) -> dh_st h = s /\ dh_ca h = c.
Proof.
  intros Hf. cbv zeta. unfold d_set_desc.
  destruct (d_set_desc_plan c u root defacs pub tru priv) as [code|p]; [auto|].
  unfold d_set_desc_exec.
  destruct (pl_ncore p).
  - unfold call. cbv beta iota. rewrite Hf. destruct (fails f 1); cbn [negb]; [cbn; auto|].
    destruct (pl_prch p); cbn [negb dh_out]; intros Hr; apply rejected_single in Hr; lia.
  - destruct (pl_prch p); cbn [negb].
    + unfold call. cbv beta iota. destruct (fails f 1); cbn [negb]; [cbn; auto|].
      cbn [dh_out]. intros Hr; apply rejected_single in Hr; lia.
    + cbn [dh_out]. intros Hr; apply rejected_single in Hr; lia.
Qed.

Lemma set_tags_rejected f s c sid u tags : wf_store s -> coherent_cache s c ->
  let h := d_set_tags f s c 0 sid u tags in
  rejected sid (dh_out h) -> dh_st h = s /\ dh_ca h = c.
Proof.
  intros Hwf Hc. cbv zeta. unfold d_set_tags.
  destruct (negb (N.eqb (k_owner c) u)); [auto|].
  destruct (normalize_tags tags) as [t|]; [|auto].
  destruct (negb (restricted_eq (k_tags c) t)); [auto|].
  rewrite (cached_tags_sorted s c t Hwf Hc).
  destruct (tags_differ (k_tags c) t); [|auto].
  destruct (call f 0) as [ok n1]. destruct ok; cbn [negb]; [|auto].
  cbn [dh_out]. intros Hr. apply rejected_single in Hr. lia.
Qed.

(* ------------------------------------------------------------------ *)
(* full-strength statements (refuted in Props/PropC08Desc.v), the witness topic *)
Definition step_coherent_statement : Prop :=
  forall sm f x o, dinv sm x -> coherent_desc (fst (dstep_f sm x (f, o))).
Definition ack_implies_stored_statement : Prop :=
  forall sm f x sid defacs pub tru priv, dinv sm x -> dsess_uid sm sid <> 0%N ->
    acked sid (snd (dstep sm f x (DSetDesc sid defacs pub tru priv))) ->
    desc_stored (dst x) (dst (fst (dstep sm f x (DSetDesc sid defacs pub tru priv)))) (dsess_uid sm sid) defacs pub tru priv.
Definition reject_no_change_statement : Prop :=
  forall sm f x o, dinv sm x -> is_set_or_query o = true ->
    rejected (dop_sid o) (snd (dstep sm f x o)) ->
    dst (fst (dstep sm f x o)) = dst x /\ dca (fst (dstep sm f x o)) = dca x.

(* one group topic: owner 1, subscriber 2 (private 7), user 3 unsubscribed earlier (soft-deleted row, private 23) *)
Definition w_store : dstore :=
  mkDStore 47 0 5 0 [12%N] 1 [mkDRow 1 255 255 20 false; mkDRow 2 47 47 7 false; mkDRow 3 47 47 23 true].
Definition w_sm : dsessmap := [(1%N, (1%N, false)); (2%N, (2%N, false)); (3%N, (3%N, false)); (4%N, (1%N, true))].
Definition w_init : dstate := mkDState w_store None 0.

Lemma w_store_wf : wf_store w_store.
Proof.
  unfold wf_store, w_store. cbn [d_subs d_auth d_tags map r_user]. split; [|split; [reflexivity|cbn; auto]].
  repeat constructor; cbn; intuition discriminate.
Qed.
Lemma w_init_inv : dinv w_sm w_init.
Proof. exact (dinv_init w_sm w_store w_store_wf). Qed.

Lemma coherent_users_lookup x c u : coherent_desc x -> dca x = Some c ->
  alookup u (k_users c) = alookup u (dload_users (d_subs (dst x))).
Proof. intros [_ H] E. rewrite E in H. apply H. Qed.
Lemma coherent_pub x c : coherent_desc x -> dca x = Some c -> k_pub c = d_pub (dst x).
Proof. intros [_ H] E. rewrite E in H. apply H. Qed.

(* where the refutations start: the owner is attached *)
Definition w_h1 : list (fault * dop) := [(NoFault, DSub 1 0)].
Lemma w_x1_inv : dinv w_sm (fst (drun w_sm w_init w_h1)).
Proof. apply drun_inv; [exact w_init_inv|]. cbn. auto. Qed.

(* a non-trivial history outside the triggers: subscribe, change the description, tags, faults, unsubscribe,
   reload; the invariant holds at the end and the stored values are the acknowledged ones *)
Definition w_h2 : list (fault * dop) :=
  [(NoFault, DSub 1 0); (NoFault, DSub 2 0); (NoFault, DSetDesc 1 (Some (Some 15%N, None)) 8 0 9);
   (FailAt 1, DSetDesc 1 None 3 0 0); (NoFault, DSetTags 1 [113%N; 10%N; 13%N; 1%N]); (NoFault, DSetDesc 2 None 0 0 1);
   (NoFault, DSetDesc 4 None 0 6 0); (CrashAt 1, DSetTags 1 [11%N]); (NoFault, DSub 4 0); (NoFault, DGetDesc 4);
   (NoFault, DSub 2 5); (NoFault, DLeave 2 true); (NoFault, DLeave 4 false); (NoFault, DUnload); (NoFault, DSub 3 23)].
Lemma w_h2_benign : dbenign w_sm w_init w_h2.
Proof. vm_compute. repeat split. Qed.

