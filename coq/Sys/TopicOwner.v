(* C06: ownership of a group topic.  Mode views of the store and of the cache,
   the ownership invariant, and what every store/cache primitive of the topic
   model does to the views.  The handlers are analysed in TopicOwnerProofs.v. *)
From Coq Require Import ZArith NArith List Bool Lia.
From Tinode Require Import Base.Util Pure.Acs Sys.Topic Sys.TopicTac Sys.TopicFrame Sys.TopicNum Sys.TopicMarks.
Import ListNotations.
Local Open Scope N_scope.

(* ------------------------------------------------------------------ *)
(* mode bits                                                            *)
Lemma has_pow2 m k : has m (2 ^ k) = N.testbit m k.
Proof.
  unfold has. destruct (N.testbit m k) eqn:B.
  - apply negb_true_iff, N.eqb_neq. intros E.
    assert (N.testbit (N.land m (2 ^ k)) k = true) as X by (rewrite N.land_spec, B; apply N.pow2_bits_true).
    rewrite E, N.bits_0 in X. discriminate.
  - apply negb_false_iff, N.eqb_eq, N.bits_inj. intros i. rewrite N.land_spec, N.bits_0, N.pow2_bits_eqb.
    destruct (N.eqb_spec k i) as [<-|NE]; [rewrite B; reflexivity|apply andb_false_r].
Qed.
Lemma is_owner_bit m : is_owner m = N.testbit m 7. Proof. exact (has_pow2 m 7). Qed.
Lemma is_joiner_bit m : is_joiner m = N.testbit m 0. Proof. exact (has_pow2 m 0). Qed.
Lemma is_owner_land a b : is_owner (N.land a b) = is_owner a && is_owner b.
Proof. rewrite !is_owner_bit. apply N.land_spec. Qed.
Lemma is_owner_lor a b : is_owner (N.lor a b) = is_owner a || is_owner b.
Proof. rewrite !is_owner_bit. apply N.lor_spec. Qed.
Lemma is_owner_ldiff_mO a : is_owner (N.ldiff a mO) = false.
Proof. rewrite !is_owner_bit. rewrite N.ldiff_spec. unfold mO. change 128 with (2^7). rewrite N.pow2_bits_true. apply andb_false_r. Qed.
Lemma is_owner_ldiff_mD a : is_owner (N.ldiff a mD) = is_owner a.
Proof. rewrite !is_owner_bit. rewrite N.ldiff_spec. unfold mD. change 64 with (2^6). rewrite N.pow2_bits_false by discriminate. apply andb_true_r. Qed.
Lemma is_owner_unset : is_owner ModeUnset = false. Proof. reflexivity. Qed.
Lemma pud_mode_owner p : is_owner (pud_mode p) = is_owner (p_given p) && is_owner (p_want p).
Proof. unfold pud_mode. apply is_owner_land. Qed.

(* the mode a {sub}/{set sub} request names (ModeUnset when none) *)
Definition req_mode (want : list N) : N :=
  fst (match want with [] => (ModeUnset, true) | _ => unmarshal_text ModeUnset want end).

(* ------------------------------------------------------------------ *)
(* views: what the store and the cache say about one user's modes       *)
Definition smode (s : store) (u : N) : option (N * N * bool) :=
  match find_sub u (subs s) with Some r => Some (s_want r, s_given r, s_deleted r) | None => None end.
Definition cmode (c : cache) (u : N) : option (N * N) :=
  match alookup u (c_users c) with Some p => Some (p_want p, p_given p) | None => None end.
Definition sub_users (s : store) : list N := map s_user (subs s).

(* ---------- store primitives ---------- *)
Lemma smode_sub_create s u w g v :
  smode (ad_sub_create s u w g) v = if N.eqb v u then Some (w, g, false) else smode s v.
Proof. unfold smode. rewrite find_sub_create. destruct (N.eqb v u); reflexivity. Qed.
Lemma owner_sub_create s u w g : t_owner (ad_sub_create s u w g) = if is_owner (N.land w g) then u else t_owner s.
Proof. unfold ad_sub_create. destruct (is_owner _), (find_sub u (subs s)); reflexivity. Qed.

Definition upd_modes (up : subupd) (m : N * N * bool) : N * N * bool :=
  (match u_want up with Some x => x | None => fst (fst m) end,
   match u_given up with Some x => x | None => snd (fst m) end, snd m).
Lemma smode_subs_update s u up v : u <> 0 ->
  smode (ad_subs_update s u up) v = if N.eqb v u then option_map (upd_modes up) (smode s v) else smode s v.
Proof.
  intros NZ. unfold smode. rewrite find_sub_update. destruct (N.eqb_spec u 0) as [E|_]; [contradiction|]. cbn [orb].
  destruct (N.eqb v u); [|reflexivity]. destruct (find_sub v (subs s)); reflexivity.
Qed.
Lemma smode_subs_update_marks s u up v : u_want up = None -> u_given up = None ->
  smode (ad_subs_update s u up) v = smode s v.
Proof.
  intros E1 E2. unfold smode. rewrite find_sub_update. destruct (_ || _); [|reflexivity].
  destruct (find_sub v (subs s)) as [r|]; [|reflexivity]. cbn. unfold apply_upd. rewrite E1, E2. reflexivity.
Qed.
Lemma owner_subs_update s u up : t_owner (ad_subs_update s u up) = t_owner s.
Proof. unfold ad_subs_update. now destruct (u =? 0). Qed.
Lemma users_subs_update s u up : sub_users (ad_subs_update s u up) = sub_users s.
Proof.
  unfold sub_users, ad_subs_update. destruct (u =? 0); cbn [subs st_subs].
  - rewrite map_map. reflexivity.
  - apply users_upd_sub. intros ? HH; exact HH.
Qed.

Definition del_mode (m : N * N * bool) : N * N * bool := (fst (fst m), snd (fst m), true).
Lemma subs_delete_some s u s' : ad_subs_delete s u = Some s' ->
  (exists w g, smode s u = Some (w, g, false)) /\
  (forall v, smode s' v = if N.eqb v u then option_map del_mode (smode s v) else smode s v) /\
  t_owner s' = t_owner s /\ sub_users s' = sub_users s.
Proof.
  unfold ad_subs_delete, ad_sub_get, smode. destruct (find_sub u (subs s)) as [r|] eqn:F; [|discriminate].
  destruct (s_deleted r) eqn:D; cbn; [discriminate|]. intros H. inv H. split; [|split; [|split]].
  - eexists _, _. reflexivity.
  - intros v. cbn [subs st_subs st_dellog]. rewrite find_sub_upd by (intros ? HH; exact HH).
    destruct (N.eqb v u); [|reflexivity]. destruct (find_sub v (subs s)); reflexivity.
  - reflexivity.
  - unfold sub_users. cbn [subs st_subs st_dellog]. apply users_upd_sub. intros ? HH; exact HH.
Qed.
Lemma subs_delete_none s u : ad_subs_delete s u = None ->
  match smode s u with Some (_, _, false) => False | _ => True end.
Proof.
  unfold ad_subs_delete, ad_sub_get, smode. destruct (find_sub u (subs s)) as [r|]; [|trivial].
  destruct (s_deleted r); cbn; [trivial|discriminate].
Qed.

Lemma subs_delete_list s d fu rs : subs (ad_msg_delete_list s d fu rs) = subs s.
Proof. exact (delete_list_subs s d fu rs). Qed.
Lemma owner_delete_list s d fu rs : t_owner (ad_msg_delete_list s d fu rs) = t_owner s.
Proof. unfold ad_msg_delete_list. destruct (fu =? 0); reflexivity. Qed.
Lemma msg_save_subs s seq u ct s' : ad_msg_save s seq u ct = Some s' -> subs s' = subs s /\ t_owner s' = t_owner s.
Proof. unfold ad_msg_save. destruct (existsb _ _); intros H; inv H. split; reflexivity. Qed.

(* ---------- cache primitives ---------- *)
(* two tables with unique keys that answer every lookup alike have the same size *)
Lemma alookup_ext_length {A} (a b : list (N * A)) :
  NoDup (map fst a) -> NoDup (map fst b) -> (forall k, alookup k a = alookup k b) -> length a = length b.
Proof.
  intros Na Nb E. rewrite <- (map_length fst a), <- (map_length fst b).
  apply Nat.le_antisymm; apply NoDup_incl_length; try assumption;
    intros k Hk; apply in_keys_alookup; apply in_keys_alookup in Hk; congruence.
Qed.

Lemma cmode_aset c u p v :
  cmode (c_set_users (aset u p) c) v = if N.eqb v u then Some (p_want p, p_given p) else cmode c v.
Proof. unfold cmode. cbn [c_users c_set_users]. rewrite alookup_aset. now destruct (N.eqb v u). Qed.
Lemma cmode_aremove c u v :
  cmode (c_set_users (aremove u) c) v = if N.eqb v u then None else cmode c v.
Proof. unfold cmode. cbn [c_users c_set_users]. rewrite alookup_aremove_eq. now destruct (N.eqb v u). Qed.
Lemma cmode_map_delid c d v :
  cmode (c_set_users (map (fun e => (fst e, p_set_delid d (snd e)))) c) v = cmode c v.
Proof. unfold cmode. cbn [c_users c_set_users]. rewrite alookup_map. now destruct (alookup v (c_users c)). Qed.
Lemma cmode_cached c u : cmode c u <> None <-> alookup u (c_users c) <> None.
Proof. unfold cmode. destruct (alookup u (c_users c)); split; congruence. Qed.

Lemma evict_cmode c u unsub k c' o v : evict_user c u unsub k = (c', o) ->
  cmode c' v = if unsub && N.eqb v u then None else cmode c v.
Proof.
  unfold evict_user. intros H. inv H. destruct unsub; cbn [andb].
  - rewrite cmode_aremove. reflexivity.
  - cbn [c_users c_set_sess]. destruct (alookup u (c_users c)) as [p|] eqn:E; [|reflexivity].
    rewrite cmode_aset. unfold cmode at 2. cbn [c_users c_set_sess]. destruct (N.eqb_spec v u) as [->|]; [|reflexivity].
    unfold cmode. cbn [c_users c_set_sess]. rewrite E. reflexivity.
Qed.
Lemma evict_misc c u unsub k c' o : evict_user c u unsub k = (c', o) ->
  c_owner c' = c_owner c /\ (NoDup (map fst (c_users c)) -> NoDup (map fst (c_users c'))) /\
  (forall e, In e (c_sess c') -> In e (c_sess c) /\ fst (snd e) <> u).
Proof.
  unfold evict_user. intros H. inv H.
  assert (forall e, In e (filter (fun e => negb (N.eqb (fst (snd e)) u)) (c_sess c)) -> In e (c_sess c) /\ fst (snd e) <> u) as S.
  { intros e Hin. apply filter_In in Hin. destruct Hin as [H1 H2]. split; [exact H1|].
    apply negb_true_iff in H2. now apply N.eqb_neq in H2. }
  destruct unsub.
  - split; [reflexivity|]. split; [|exact S]. cbn [c_users c_set_users c_set_sess]. apply keys_aremove.
  - cbn [c_users c_set_sess]. destruct (alookup u (c_users c)); (split; [reflexivity|]); (split; [|exact S]); cbn [c_users c_set_users c_set_sess]; auto.
    apply keys_aset.
Qed.

(* loadSubscribers *)
Lemma load_cmode s v : NoDup (sub_users s) ->
  cmode (load s) v = match smode s v with Some (w, g, false) => Some (w, g) | _ => None end.
Proof.
  intros ND. unfold cmode, smode, load, load_users. cbn [c_users]. rewrite (load_users_lookup_acc v _ ND).
  destruct (find_sub v (subs s)) as [r|]; [|reflexivity]. destruct (s_deleted r); reflexivity.
Qed.
Lemma load_keys s : NoDup (map fst (c_users (load s))).
Proof.
  unfold load, load_users. cbn [c_users]. generalize (NoDup_nil N). change (@nil N) with (map fst (@nil (N * pud))).
  generalize (@nil (N * pud)). induction (subs s) as [|r rows IH]; intros acc ND; cbn [fold_left]; [exact ND|].
  apply IH. destruct (s_deleted r); [exact ND|now apply keys_aset].
Qed.

(* ------------------------------------------------------------------ *)
(* the ownership invariant                                              *)
(* the stored row m of user v when the topic's owner is o: the owner's row is live with O in want and
   given; no other row has O in want *)
Definition spoint (o v : N) (m : option (N * N * bool)) : Prop :=
  match m with
  | Some (w, g, d) => if N.eqb v o then d = false /\ is_owner w = true /\ is_owner g = true else is_owner w = false
  | None => v <> o
  end.
(* the cached modes cm of a user against his stored row m: he is cached exactly when the row is live;
   then the given modes are equal and the want modes agree on the O bit (the invariant compares
   nothing else of want) *)
Definition cpoint (m : option (N * N * bool)) (cm : option (N * N)) : Prop :=
  match cm with
  | Some (w, g) => exists w', m = Some (w', g, false) /\ is_owner w' = is_owner w
  | None => match m with Some (_, _, false) => False | _ => True end
  end.

Record sinv (s : store) : Prop := mkSinv {
  si_owner0 : t_owner s <> 0;
  si_auth : is_owner (t_auth s) = false;
  si_users : forall u acc, alookup u (users s) = Some acc -> is_owner acc = false;
  si_nodup : NoDup (sub_users s);
  si_point : forall v, spoint (t_owner s) v (smode s v) }.

Record cinv (sm : sessmap) (s : store) (c : cache) : Prop := mkCinv {
  ci_owner : c_owner c = t_owner s;
  ci_auth : c_auth c = t_auth s;
  ci_nodup : NoDup (map fst (c_users c));
  ci_point : forall v, cpoint (smode s v) (cmode c v);
  ci_sess : forall sid su b, In (sid, (su, b)) (c_sess c) -> su = sess_uid sm sid /\ cmode c su <> None }.

Definition oinv (sm : sessmap) (s : store) (c : cache) : Prop := sinv s /\ cinv sm s c.
Definition oinv_state (sm : sessmap) (x : state) : Prop :=
  match ca x with Some c => oinv sm (st x) c | None => sinv (st x) end.

(* the user an attached session acts for (the step function reads it from the session table) is the
   session's own user *)
Lemma cinv_acting sm s c sid : cinv sm s c ->
  match alookup sid (c_sess c) with Some (a, _) => a | None => sess_uid sm sid end = sess_uid sm sid.
Proof.
  intros [_ _ _ _ SE]. destruct (alookup sid (c_sess c)) as [[a b]|] eqn:ES; [|reflexivity].
  exact (proj1 (SE sid a b (alookup_in _ _ _ ES))).
Qed.

(* the effective owners, as lists *)
Definition eff_owner_row (r : subrow) : bool := negb (s_deleted r) && is_owner (N.land (s_want r) (s_given r)).
Definition store_owners (s : store) : list N := map s_user (filter eff_owner_row (subs s)).
Definition cache_owners (c : cache) : list N := map fst (filter (fun e => is_owner (pud_mode (snd e))) (c_users c)).

Lemma filter_none {A} (p : A -> bool) l : (forall b, In b l -> p b = false) -> filter p l = [].
Proof.
  induction l as [|b l IH]; intros H; [reflexivity|]. cbn [filter]. rewrite (H b (or_introl eq_refl)).
  apply IH. intros b0 Hb0. apply H. now right.
Qed.
Lemma one_owner_list {A} (key : A -> N) (p : A -> bool) (l : list A) (o : N) :
  NoDup (map key l) -> (forall a, In a l -> p a = true -> key a = o) -> (exists a, In a l /\ key a = o /\ p a = true) ->
  map key (filter p l) = [o].
Proof.
  induction l as [|a l IH]; intros ND H1 [x [Hin [Hk Hp]]]; [destruct Hin|].
  inversion ND as [|? ? Ha Hl]. cbn [filter].
  destruct Hin as [E|Hin].
  - rewrite E, Hp. cbn [map]. rewrite Hk. f_equal.
    rewrite filter_none; [reflexivity|]. intros b Hb. destruct (p b) eqn:Pb; [|reflexivity].
    exfalso. apply Ha. rewrite E, Hk, <- (H1 b (or_intror Hb) Pb). now apply in_map.
  - destruct (p a) eqn:Pa.
    + exfalso. apply Ha. rewrite (H1 a (or_introl eq_refl) Pa), <- Hk. now apply in_map.
    + apply IH; [exact Hl|intros b Hb; apply H1; now right|]. exists x. auto.
Qed.

(* the owner's row exists and is an effective owner row *)
Lemma sinv_owner_row s : sinv s ->
  exists r, In r (subs s) /\ s_user r = t_owner s /\ eff_owner_row r = true.
Proof.
  intros [_ _ _ _ P]. specialize (P (t_owner s)). unfold smode in P.
  destruct (find_sub (t_owner s) (subs s)) as [r|] eqn:F; cbn in P; [|congruence].
  rewrite N.eqb_refl in P. destruct P as [D [W G]]. exists r. split; [now apply find_sub_in in F|].
  split; [now apply find_sub_user in F|]. unfold eff_owner_row. rewrite D, is_owner_land, W, G. reflexivity.
Qed.

Lemma sinv_store_owners s : sinv s -> store_owners s = [t_owner s].
Proof.
  intros SI. pose proof SI as [_ _ _ ND P]. unfold store_owners. apply one_owner_list; [exact ND| |exact (sinv_owner_row s SI)].
  intros r Hin E. unfold eff_owner_row in E. apply andb_true_iff in E. destruct E as [E1 E2].
  rewrite is_owner_land in E2. apply andb_true_iff in E2. destruct E2 as [E2 _].
  specialize (P (s_user r)). unfold smode in P. rewrite (find_sub_nodup _ _ ND Hin) in P. cbn in P.
  destruct (N.eqb_spec (s_user r) (t_owner s)); [assumption|congruence].
Qed.

Lemma oinv_cache_owners sm s c : oinv sm s c -> cache_owners c = [c_owner c].
Proof.
  intros [[_ _ _ _ P] [O _ ND CP _]]. unfold cache_owners. apply one_owner_list; [exact ND| |].
  - intros [u p] Hin E. cbn [fst snd] in *. rewrite pud_mode_owner in E. apply andb_true_iff in E. destruct E as [E1 E2].
    specialize (CP u). unfold cmode in CP. rewrite (in_alookup _ _ _ ND Hin) in CP. destruct CP as [w' [M EW]].
    specialize (P u). rewrite M in P. cbn in P. rewrite O. destruct (N.eqb_spec u (t_owner s)); [assumption|congruence].
  - specialize (P (t_owner s)). specialize (CP (t_owner s)).
    destruct (smode s (t_owner s)) as [[[w g] d]|] eqn:M; cbn in P; [|congruence].
    rewrite N.eqb_refl in P. destruct P as [-> [W G]]. unfold cmode in CP.
    destruct (alookup (t_owner s) (c_users c)) as [p|] eqn:A; [|destruct CP].
    destruct CP as [w' [M' EW]]. inv M'. exists (t_owner s, p). split; [now apply alookup_in|].
    split; [now rewrite O|]. cbn [snd]. rewrite pud_mode_owner, <- EW, W, G. reflexivity.
Qed.

(* the store part alone supports unload / restart / crash, and loading *)
Lemma load_owner_spec rows o : NoDup (map s_user rows) ->
  (forall r, In r rows -> eff_owner_row r = true -> s_user r = o) ->
  forall o0, (o0 = o \/ exists r, In r rows /\ s_user r = o /\ eff_owner_row r = true) ->
  fold_left (fun o r => if negb (s_deleted r) && is_owner (N.land (s_given r) (s_want r)) then s_user r else o) rows o0 = o.
Proof.
  induction rows as [|a rows IH]; intros ND H1 o0 H0; cbn [fold_left].
  - destruct H0 as [H0|[r [[] _]]]. exact H0.
  - inversion ND as [|? ? Ha Hl]; subst. apply IH; [exact Hl|intros r Hr; apply H1; now right|].
    assert (eff_owner_row a = negb (s_deleted a) && is_owner (N.land (s_given a) (s_want a))) as EA
      by (unfold eff_owner_row; now rewrite N.land_comm).
    rewrite <- EA. destruct (eff_owner_row a) eqn:PA.
    + left. apply H1; [now left|exact PA].
    + destruct H0 as [H0|[r [[->|Hin] [Hk Hp]]]]; [now left|congruence|].
      right. exists r. auto.
Qed.

Lemma sinv_load sm s : sinv s -> oinv sm s (load s).
Proof.
  intros SI. split; [exact SI|]. pose proof SI as [O0 AU US ND P]. constructor.
  - unfold load, load_owner. cbn [c_owner]. apply load_owner_spec; [exact ND| |right; exact (sinv_owner_row s SI)].
    intros r Hin E. pose proof (sinv_store_owners s SI) as SO. unfold store_owners in SO.
    assert (In (s_user r) (map s_user (filter eff_owner_row (subs s)))) as X by (apply in_map; apply filter_In; auto).
    rewrite SO in X. destruct X as [X|[]]. now symmetry.
  - reflexivity.
  - apply load_keys.
  - intros v. rewrite load_cmode by exact ND. destruct (smode s v) as [[[w g] [|]]|]; cbn; auto.
    exists w. auto.
  - intros sid su b [].
Qed.
