(* Lemmas about the SEARCH layer of C19 (model Sys/FndSearchC19.v): what a {get what=sub}
   that reaches the store has gone through ([get_sub_call_c19]), the store contract read off
   a result, and the lifting of a per-request property to histories of any length
   ([run_inv_c19]).  All queries, topic states, sessions, configurations, rewriters, rows. *)
From Coq Require Import NArith ZArith List Bool Lia Arith Permutation.
From Coq Require Import ZifyBool ZifyNat ZifyN.
Require Import Tinode.Base.Util Tinode.Pure.Query Tinode.Pure.QuerySpec Tinode.Pure.QueryProofs.
Require Import Tinode.Pure.Tags Tinode.Pure.TagsProofs Tinode.Sys.FndSearchC19.
Import ListNotations.
Open Scope N_scope.

Lemma first_rewrite_nil_c19 (fs : list (tag -> tag)) (orig : tag) :
  first_rewrite_c19 fs orig = [] <-> forall f, In f fs -> f orig = [].
Proof.
  induction fs as [|f fs IH]; cbn [first_rewrite_c19].
  - split; [intros _ f []|reflexivity].
  - destruct (f orig) eqn:E.
    + rewrite IH. split.
      * intros H g [<-|Hg]; auto.
      * intros H g Hg. apply H. now right.
    + split; [discriminate|]. intros H. specialize (H f (or_introl eq_refl)). congruence.
Qed.

(* the first rewriter of the list that answers decides *)
Lemma first_rewrite_split_c19 (fs1 : list (tag -> tag)) (f : tag -> tag) (fs2 : list (tag -> tag)) (orig : tag) :
  (forall g, In g fs1 -> g orig = []) -> f orig <> [] ->
  first_rewrite_c19 (fs1 ++ f :: fs2) orig = f orig.
Proof.
  intros H1 Hf. induction fs1 as [|g fs1 IH]; cbn [app first_rewrite_c19].
  - destruct (f orig); [congruence|reflexivity].
  - rewrite (H1 g (or_introl eq_refl)). apply IH. intros h Hh. apply H1. now right.
Qed.

(* two facts about lists *)
Lemma nodup_map_inj_c19 {A B} (f : A -> B) (l : list A) x y :
  NoDup (map f l) -> In x l -> In y l -> f x = f y -> x = y.
Proof.
  induction l as [|a l IH]; cbn [map]; intros N Hx Hy E; [contradiction|].
  inversion N as [|? ? Na Nl]; subst.
  destruct Hx as [<-|Hx], Hy as [<-|Hy]; auto.
  - exfalso. apply Na. rewrite E. now apply in_map.
  - exfalso. apply Na. rewrite <- E. now apply in_map.
Qed.

Lemma Forall2_right_c19 {A B} (Q : B -> Prop) (l : list A) l' :
  Forall2 (fun _ b => Q b) l l' -> Forall Q l'.
Proof. induction 1; constructor; assumption. Qed.

Section FndSearchLaws.
  Variable lower : N -> N.
  Variable is_letter : N -> bool.
  Variable is_number : N -> bool.
  Variable vals : list (tag -> tag -> tag).
  Variable auths : list (tag -> tag).

  Notation restricted := (restricted is_letter is_number).
  Notation masked_gate := (masked_gate is_letter is_number).
  Notation prefixed := (prefixed is_letter is_number).
  Notation tag_ok := (tag_ok is_letter is_number).
  Notation rewrite_tag := (rewrite_tag_c19 is_letter is_number vals auths).
  Notation get_sub := (get_sub_c19 lower is_letter is_number vals auths).
  Notation step := (step_c19 lower is_letter is_number vals auths).
  Notation run := (run_c19 lower is_letter is_number vals auths).
  Notation active_query := active_query_c19.

  (* no validator indexes the term *)
  Lemma vals_silent_c19 cc orig : (forall u, In u vals -> u cc orig = []) ->
    first_rewrite_c19 (map (fun v => v cc) vals) orig = [].
  Proof.
    intros Hv. apply first_rewrite_nil_c19. intros f Hf. apply in_map_iff in Hf as [u [<- Hu]]. auto.
  Qed.

  Variable c : fcfg_c19.

  (* ---------- one {get what=sub} ---------- *)
  (* everything that happens when the store is called *)
  Lemma get_sub_call_c19 t s r k :
    get_sub c t s = (r, Some k) ->
    exists q wl, active_query t s = Some (q, wl) /\
      parse lower (rewrite_tag (s_cc s) wl) q = Ok (k_req k, k_opt k) /\
      masked_gate (f_tags t) (call_terms_c19 k) (fc_masked c) = true /\
      k_active k = negb (s_root s) /\
      r = match find_subs_c19 (fc_self c) (k_req k) (k_opt k) (k_active k) (fc_world c) with
          | [] => FCtrl 204
          | l => FMeta (map cd_id l)
          end.
  Proof.
    unfold get_sub_c19, parse_query_c19. intros H.
    destruct (active_query t s) as [[q wl]|]; [|discriminate].
    destruct (is_nil q); [discriminate|].
    destruct (parse lower (rewrite_tag (s_cc s) wl) q) as [[req opt]|] eqn:P; [|discriminate].
    destruct (is_nil req && is_nil opt); [discriminate|].
    destruct (masked_gate (f_tags t) (concat req ++ opt) (fc_masked c)) eqn:G; cbn [negb] in H; [|discriminate].
    inversion H; subst. exists q, wl. cbn [k_req k_opt k_active call_terms_c19]. repeat split; auto.
    destruct (find_subs_c19 _ _ _ _ _); reflexivity.
  Qed.

  Lemma s_root_false_iff_c19 s : s_root s = false <-> s_lvl s <> level_root_c19.
  Proof. unfold s_root. apply Z.eqb_neq. Qed.

  (* the store contract of FindSubs, read off a result *)
  Lemma find_subs_in_c19 self req opt active w x :
    In x (find_subs_c19 self req opt active w) ->
    In x w /\ cand_matches_c19 req opt x = true /\ (active = true -> cd_ok x = true) /\
    (cd_user x = true -> cd_id x <> self).
  Proof.
    unfold find_subs_c19, find_users_c19, find_topics_c19. rewrite in_app_iff, !filter_In.
    intros [[Hw Hf]|[Hw Hf]]; split; auto.
    - apply andb_prop in Hf. destruct Hf as [Hf Hs]. apply andb_prop in Hf. destruct Hf as [Hf Ha].
      apply andb_prop in Hf. destruct Hf as [Hu Hm]. repeat split; auto.
      + intros ->. now destruct (cd_ok x).
      + intros _ E. rewrite E, N.eqb_refl in Hs. discriminate.
    - apply andb_prop in Hf. destruct Hf as [Hf Ha]. apply andb_prop in Hf. destruct Hf as [Hu Hm].
      repeat split; auto.
      + intros ->. now destruct (cd_ok x).
      + intros E. rewrite E in Hu. discriminate.
  Qed.

  (* ---------- histories ---------- *)
  (* a property of (request, answer) pairs that every step establishes under an invariant of
     the topic holds along every run *)
  Lemma run_inv_c19 (I : fnd_c19 -> Prop) (P : freq_c19 -> fresp_c19 * option fcall_c19 -> Prop) :
    (forall t r, I t -> I (fst (step c t r)) /\ P r (snd (step c t r))) ->
    forall rs t, I t -> Forall2 P rs (snd (run c t rs)).
  Proof.
    intros Hstep. induction rs as [|r rs IH]; intros t H; cbn [run_c19]; [constructor|].
    destruct (Hstep t r H) as [H1 H2]. destruct (step c t r) as [t1 a]. cbn [fst snd] in *.
    specialize (IH t1 H1). destruct (run c t1 rs) as [t2 l]. now constructor.
  Qed.

  (* Topic.tags is empty after initTopicFnd and otherwise the user's row *)
  Lemma step_tags_own_c19 t r : incl (f_tags t) (fc_own c) -> incl (f_tags (fst (step c t r))) (fc_own c).
  Proof.
    intros H. destruct r as [s pub priv|s| |]; cbn [step_c19 fst].
    - destruct (set_desc_c19 t s pub priv) as [t' a] eqn:E.
      unfold set_desc_c19 in E.
      destruct (merge_str_c19 (lookup_pub_c19 (s_id s) (f_public t)) pub),
               (merge_str_c19 (f_private t) priv); inversion E; subst; exact H.
    - exact H.
    - intros x [].
    - intros x Hx. exact Hx.
  Qed.

  (* the level does not matter otherwise: two sessions that differ in nothing but their levels, none
     of them root, get the same answer and make the same store call - an anonymous or level-less
     session sees exactly what a fully authenticated one sees *)
  Definition sess_sim_c19 (s1 s2 : sess_c19) : Prop :=
    s_id s1 = s_id s2 /\ s_cc s1 = s_cc s2 /\ s_lvl s1 <> level_root_c19 /\ s_lvl s2 <> level_root_c19.

  Lemma get_sub_level_irrelevant_c19 t s1 s2 :
    sess_sim_c19 s1 s2 -> get_sub c t s1 = get_sub c t s2.
  Proof.
    intros [Hi [Hc [L1 L2]]]. unfold get_sub_c19, active_query_c19. rewrite Hi, Hc.
    apply Z.eqb_neq in L1. apply Z.eqb_neq in L2. now rewrite L1, L2.
  Qed.

  Definition req_sim_c19 (r1 r2 : freq_c19) : Prop :=
    match r1, r2 with
    | FSetDesc s1 p1 v1, FSetDesc s2 p2 v2 => s_id s1 = s_id s2 /\ p1 = p2 /\ v1 = v2
    | FGetSub s1, FGetSub s2 => sess_sim_c19 s1 s2
    | FUnload, FUnload => True
    | FUserTags, FUserTags => True
    | _, _ => False
    end.

  Lemma step_level_irrelevant_c19 t r1 r2 : req_sim_c19 r1 r2 -> step c t r1 = step c t r2.
  Proof.
    destruct r1 as [s1 p1 v1|s1| |], r2 as [s2 p2 v2|s2| |]; cbn [req_sim_c19]; try contradiction; auto.
    - intros [Hi [-> ->]]. cbn [step_c19]. unfold set_desc_c19. now rewrite Hi.
    - intros H. cbn [step_c19]. now rewrite (get_sub_level_irrelevant_c19 t s1 s2 H).
  Qed.
End FndSearchLaws.
