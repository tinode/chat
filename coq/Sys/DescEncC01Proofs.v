(* C01: the number shown by a frame is the same in both wire encodings (model Sys/DescEncC01.v).
   What the theorems of Props/PropC01.v about the encodings share. *)
From Coq Require Import ZArith Lia.
From Tinode Require Import Sys.DescEncC01.
Open Scope Z_scope.

Lemma int32_id z : -2147483648 <= z < 2147483648 -> int32_c01e z = z.
Proof. intros H. unfold int32_c01e. rewrite Z.mod_small; lia. Qed.
