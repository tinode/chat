(* C04, layer 2, acting on behalf of another user: proofs about Sys/TopicOboC04.v.

   1. who a request is executed as (Session.dispatch)
   2. one obo request = one specification transition attributed to the ACTING user; every history
   3. the answers of {get data} / {get del} and the effect of {del msg} depend on the acting
      user only: not on the session, not on the session's own user
   4. the states reached by obo histories
   5. the wrapper is conservative
   6. the handler that filters by the session's user, for the refutation
   7. a worked history *)
From Coq Require Import ZArith NArith List Bool Lia Sorted.
From Tinode Require Import Base.Util Pure.Acs Pure.Ranges Pure.RangesProofs Sys.Topic Sys.TopicTac Sys.TopicFrame
  Sys.TopicNum Sys.TopicNumThm Sys.TopicMeta Sys.TopicInst Sys.TopicHist Sys.TopicHistProofs Sys.TopicHistInst Sys.TopicHistThm
  Sys.TopicOboC04.
Import ListNotations.
Open Scope Z_scope.

(* ------------------------------------------------------------------ *)
(* 1. dispatch                                                          *)

Lemma sess_uid_as sm sid u : sess_uid (sm_as_c04 sm sid u) sid = u.
Proof. unfold sess_uid, sm_as_c04. cbn [alookup]. rewrite N.eqb_refl. reflexivity. Qed.

Lemma sess_uid_as_other sm sid u sid' : sid' <> sid -> sess_uid (sm_as_c04 sm sid u) sid' = sess_uid sm sid'.
Proof.
  intros H. unfold sess_uid, sm_as_c04. cbn [alookup].
  replace (N.eqb sid' sid) with false by (symmetry; apply N.eqb_neq; exact H). reflexivity.
Qed.

(* only a root session can name another user; without extra.obo a request runs as the session's user *)
Lemma dispatch_own sm roots sid : dispatch_as_c04 sm roots sid OboNone = inl (sess_uid sm sid).
Proof. reflexivity. Qed.

Lemma dispatch_needs_root sm roots sid ob : has_obo_c04 ob = true -> is_root_c04 roots sid = false ->
  dispatch_as_c04 sm roots sid ob = inr 403.
Proof. intros H R. destruct ob; [discriminate| |]; cbn; rewrite R; reflexivity. Qed.

Lemma dispatch_root_user sm roots sid u : is_root_c04 roots sid = true -> u <> 0%N ->
  dispatch_as_c04 sm roots sid (OboUser u) = inl u.
Proof.
  intros R U. cbn. rewrite R. cbn. replace (u =? 0)%N with false by (symmetry; apply N.eqb_neq; exact U). reflexivity.
Qed.

(* a refused request: the reply, no store call, nothing changed *)
Lemma ostep_refused sm roots f x ob o sid code : op_sid o = Some sid ->
  dispatch_as_c04 sm roots sid ob = inr code ->
  ostep_c04 sm roots f x (QReq ob o) = Some (mkState (st x) (ca x) 0, [(sid, Ctrl code [])]).
Proof. intros S D. unfold ostep_c04. rewrite S, D. reflexivity. Qed.

(* {sub get=...}: the subscription step, then frames only - store and cache are those of the
   subscription step *)
Lemma sub_get_shape sm' f x sid u want bkg gd gl :
  let r := sub_get_c04 sm' f x sid u want bkg gd gl in
  let s1 := step_i sm' f x (OSub sid want bkg) in
  st (fst r) = st (fst s1) /\ ca (fst r) = ca (fst s1) /\ exists o', snd r = snd s1 ++ o'.
Proof.
  cbn zeta. unfold sub_get_c04. destruct (step_i sm' f x (OSub sid want bkg)) as [x1 o1]. cbn [fst snd].
  destruct (sub_accepted_c04 sid o1); [|repeat split; exists []; rewrite app_nil_r; reflexivity].
  destruct (ca x1) as [c|] eqn:CA; [|cbn [fst snd]; repeat split; try congruence; exists []; rewrite app_nil_r; reflexivity].
  cbn [fst snd st ca].
  assert (forall h1, h_st h1 = st x1 -> h_ca h1 = c ->
          h_st (match gl with
                | Some (a, b, l) => get_del norm_ranges_i f (h_st h1) (h_ca h1) (h_n h1) sid u a b l
                | None => mkH (h_st h1) (h_ca h1) (h_n h1) []
                end) = st x1 /\
          h_ca (match gl with
                | Some (a, b, l) => get_del norm_ranges_i f (h_st h1) (h_ca h1) (h_n h1) sid u a b l
                | None => mkH (h_st h1) (h_ca h1) (h_n h1) []
                end) = c) as K.
  { intros h1 E1 E2. destruct gl as [[[a b] l]|]; cbn [h_st h_ca]; [|auto].
    destruct (get_del_same norm_ranges_i f (h_st h1) (h_ca h1) (h_n h1) sid u a b l) as [-> ->]. auto. }
  destruct gd as [[[a b] l]|].
  - destruct (get_data_same f (st x1) c (ncalls x1) sid u a b l) as [E1 E2].
    destruct (K _ E1 E2) as [K1 K2]. rewrite K1, K2. repeat split. eexists. reflexivity.
  - destruct (K (mkH (st x1) c (ncalls x1) []) eq_refl eq_refl) as [K1 K2]. cbn [h_st h_ca h_n] in *. rewrite K1, K2.
    repeat split. eexists. reflexivity.
Qed.

(* a request that is executed is one [step] of the product model in which the session stands
   for the acting user (for {sub get=...}: that step, then frames only) *)
Lemma ostep_some sm roots f x q r : ostep_c04 sm roots f x q = Some r ->
  (op_sid (q_op q) = None /\ q_obo q = OboNone /\ r = step_i sm f x (q_op q)) \/
  (exists sid code, op_sid (q_op q) = Some sid /\ dispatch_as_c04 sm roots sid (q_obo q) = inr code /\
                    r = (mkState (st x) (ca x) 0, [(sid, Ctrl code [])])) \/
  (exists sid u, op_sid (q_op q) = Some sid /\ dispatch_as_c04 sm roots sid (q_obo q) = inl u /\
     let s1 := step_i (sm_as_c04 sm sid u) f x (q_op q) in
     st (fst r) = st (fst s1) /\ ca (fst r) = ca (fst s1) /\
     (r = s1 \/ exists w b, q_op q = OSub sid w b)).
Proof.
  destruct q as [ob o|ob sid want bkg gd gl]; cbn [ostep_c04 q_op q_obo].
  - destruct (op_sid o) as [sid|] eqn:S.
    + destruct (dispatch_as_c04 sm roots sid ob) as [u|code] eqn:D.
      * destruct (is_root_c04 roots sid && negb (root_req_ok_c04 x sid u ob o)); [discriminate|].
        intros H. inv H. right. right. exists sid, u. cbn zeta. cbn [fst]. repeat split; auto.
      * intros H. inv H. right. left. exists sid, code. auto.
    + destruct ob; cbn [has_obo_c04]; try discriminate. intros H. inv H. left. auto.
  - cbn [op_sid]. destruct (dispatch_as_c04 sm roots sid ob) as [u|code] eqn:D.
    + destruct (is_root_c04 roots sid && negb (has_obo_c04 ob)); [discriminate|].
      intros H. inv H. right. right. exists sid, u. split; [reflexivity|]. split; [exact D|]. cbn zeta.
      destruct (sub_get_shape (sm_as_c04 sm sid u) f x sid u want bkg gd gl) as [A [B _]]. cbn zeta in A, B.
      split; [exact A|]. split; [exact B|]. right. eauto.
    + intros H. inv H. right. left. exists sid, code. auto.
Qed.

(* an ordinary session without extra.obo, a root session inside the modelled fragment *)
Lemma ostep_acting sm roots f x ob o sid u : op_sid o = Some sid ->
  dispatch_as_c04 sm roots sid ob = inl u ->
  (is_root_c04 roots sid = true -> root_req_ok_c04 x sid u ob o = true) ->
  ostep_c04 sm roots f x (QReq ob o) = Some (step_i (sm_as_c04 sm sid u) f x o).
Proof.
  intros S D R. unfold ostep_c04. rewrite S, D.
  destruct (is_root_c04 roots sid); cbn [andb]; [rewrite (R eq_refl)|]; reflexivity.
Qed.

(* ------------------------------------------------------------------ *)
(* 2. the refinement                                                    *)

Lemma event_no_session sm x o ou : op_sid o = None -> event_of sm x o ou = HNone.
Proof. intros S. unfold event_of. destruct (ca x); [|reflexivity]. destruct o; try discriminate; reflexivity. Qed.

Lemma inv_hist_ncalls s cx n n' : inv_hist (mkState s cx n) -> inv_hist (mkState s cx n').
Proof. intros H. exact H. Qed.

Section Sim.
Variable sm : sessmap.
Variable roots : list N.

(* the invariants do not read the call counter *)
Lemma same_state (P : state -> Prop) x y : (forall s c n n', P (mkState s c n) -> P (mkState s c n')) ->
  st x = st y -> ca x = ca y -> P y -> P x.
Proof. intros HP. destruct x as [s1 c1 n1], y as [s2 c2 n2]. cbn [st ca]. intros -> ->. apply HP. Qed.

Lemma ostep_f_sim x fq x1 o1 : inv_hist x -> oreq_ok_c04 sm roots fq ->
  ostep_f_c04 sm roots x fq = Some (x1, o1) ->
  heq (abs (st x1)) (hs_step (abs (st x)) (oevent_c04 sm roots x (snd fq) o1)) /\ inv_hist x1.
Proof.
  intros I [OK FO] E. destruct fq as [f q]. cbn [fst snd] in *.
  unfold ostep_f_c04 in E. cbn [fst snd] in E.
  destruct (ostep_c04 sm roots f x q) as [[y oy]|] eqn:ES; [|discriminate].
  (* the state after a crash keeps the store only *)
  assert (forall ev, heq (abs (st y)) (hs_step (abs (st x)) ev) /\ inv_hist y ->
          ev = oevent_c04 sm roots x q oy ->
          heq (abs (st x1)) (hs_step (abs (st x)) (oevent_c04 sm roots x q o1)) /\ inv_hist x1) as FIN.
  { intros ev [HS IY] ->. destruct f; inv E; try (split; assumption). cbn [st]. split; [exact HS|].
    destruct IY as [[A [B C]] [I0 _]]. split; [|split; [exact I0|exact Logic.I]].
    split; [exact A|]. split; [exact B|]. cbn [ca st]. destruct (ca y) as [c|]; [destruct C as [? [? ?]]; lia|exact C]. }
  destruct (ostep_some sm roots f x q (y, oy) ES) as [[S [OB R]]|[[sid [code [S [D R]]]]|[sid [u [S [D R]]]]]].
  - (* a request that belongs to no session: unload, restart *)
    assert (oevent_c04 sm roots x q oy = HNone) as EV.
    { unfold oevent_c04, acting_c04. rewrite S. reflexivity. }
    assert (op_ok sm (q_op q)) as OK' by (unfold op_ok; rewrite S; exact Logic.I).
    pose proof (step_sim del_ranges_i norm_ranges_i sm dr_exact_i f x (q_op q) (proj2 I) OK' FO) as [HS I1].
    fold (step_i sm f x (q_op q)) in HS, I1. rewrite <- R in HS, I1. cbn [fst snd] in HS, I1.
    rewrite (event_no_session sm x (q_op q) _ S) in HS.
    apply (FIN HNone); [|symmetry; exact EV]. split; [exact HS|]. split; [|exact I1].
    pose proof (step_inv_num del_ranges_i norm_ranges_i sm f x (q_op q) (proj1 I)) as IN'.
    fold (step_i sm f x (q_op q)) in IN'. rewrite <- R in IN'. exact IN'.
  - (* refused by Session.dispatch *)
    assert (oevent_c04 sm roots x q oy = HNone) as EV.
    { unfold oevent_c04, acting_c04. rewrite S, D. reflexivity. }
    apply (FIN HNone); [|symmetry; exact EV]. inv R. cbn [hs_step st]. split; [apply heq_refl|].
    exact (same_state inv_hist _ x inv_hist_ncalls eq_refl eq_refl I).
  - (* executed as user u *)
    cbn zeta in R. destruct R as [RS [RC RR]]. cbn [fst] in RS, RC.
    assert (op_ok (sm_as_c04 sm sid u) (q_op q)) as OK'.
    { unfold op_ok. rewrite S. rewrite sess_uid_as. unfold acting_c04 in OK. rewrite S, D in OK. exact OK. }
    pose proof (step_sim del_ranges_i norm_ranges_i (sm_as_c04 sm sid u) dr_exact_i f x (q_op q) (proj2 I) OK' FO) as [HS I1].
    pose proof (step_inv_num del_ranges_i norm_ranges_i (sm_as_c04 sm sid u) f x (q_op q) (proj1 I)) as IN'.
    fold (step_i (sm_as_c04 sm sid u) f x (q_op q)) in HS, I1, IN'.
    destruct (step_i (sm_as_c04 sm sid u) f x (q_op q)) as [z oz] eqn:EZ. cbn [fst snd] in *.
    assert (oevent_c04 sm roots x q oy = event_of (sm_as_c04 sm sid u) x (q_op q) oz) as EV.
    { unfold oevent_c04, acting_c04. rewrite S, D. destruct RR as [RR|[w [b EQ]]]; [inv RR; reflexivity|].
      rewrite EQ, !event_eventless by reflexivity. reflexivity. }
    apply (FIN (event_of (sm_as_c04 sm sid u) x (q_op q) oz)); [|symmetry; exact EV]. rewrite RS. split; [exact HS|].
    exact (same_state inv_hist _ z inv_hist_ncalls RS RC (conj IN' I1)).
Qed.

(* what the stored rows show after a history with obo requests is what the specification computes
   from the accepted requests, each attributed to the user it was executed as *)
Lemma orun_refines h : forall x a xf outs, inv_hist x -> ohist_ok_c04 sm roots h -> heq (abs (st x)) a ->
  orun_c04 sm roots x h = Some (xf, outs) ->
  heq (abs (st xf)) (ohs_run_c04 sm roots x h a) /\ inv_hist xf.
Proof.
  induction h as [|fq h IH]; intros x a xf outs I HO E R; cbn [orun_c04 ohs_run_c04] in *.
  - inv R. split; assumption.
  - inversion HO as [|? ? OK HO']; subst.
    destruct (ostep_f_c04 sm roots x fq) as [[x1 o1]|] eqn:ES; [|discriminate].
    destruct (ostep_f_sim x fq x1 o1 I OK ES) as [HS I1].
    destruct (orun_c04 sm roots x1 h) as [[x2 os]|] eqn:ER; [|discriminate]. inv R.
    apply (IH x1 (hs_step a (oevent_c04 sm roots x (snd fq) o1)) xf os I1 HO'); [|exact ER].
    eapply heq_trans; [exact HS|]. apply hs_step_heq. exact E.
Qed.

(* with ANY faults: message numbers stay unique, log rows stay well formed *)
Lemma ostep_f_rows x fq x1 o1 : inv_num x -> log_minv x ->
  ostep_f_c04 sm roots x fq = Some (x1, o1) -> inv_num x1 /\ log_minv x1.
Proof.
  intros IN W E. destruct fq as [f q]. unfold ostep_f_c04 in E. cbn [fst snd] in E.
  destruct (ostep_c04 sm roots f x q) as [[y oy]|] eqn:ES; [|discriminate].
  assert (inv_num y /\ log_minv y -> inv_num x1 /\ log_minv x1) as FIN.
  { intros [IY WY]. destruct f; inv E; try (split; assumption). split.
    - destruct IY as [A [B C]]. split; [exact A|]. split; [exact B|]. cbn [ca st].
      destruct (ca y) as [c|]; [destruct C as [? [? ?]]; lia|exact C].
    - apply log_minv_wf in WY. exact WY. }
  assert (forall sm', inv_num (fst (step_i sm' f x (q_op q))) /\ log_minv (fst (step_i sm' f x (q_op q)))) as K.
  { intros sm'. split.
    - apply (step_inv_num del_ranges_i norm_ranges_i sm' f x (q_op q) IN).
    - apply (step_log_minv del_ranges_i norm_ranges_i sm' dr_wf_i). exact W. }
  apply FIN.
  destruct (ostep_some sm roots f x q (y, oy) ES) as [[S [OB R]]|[[sid [code [S [D R]]]]|[sid [u [S [D R]]]]]].
  - destruct (K sm) as [K1 K2]. rewrite <- R in K1, K2. split; assumption.
  - inv R. split; [exact (same_state inv_num _ x inv_num_ncalls eq_refl eq_refl IN)|exact (same_state log_minv _ x (fun _ _ _ _ H => H) eq_refl eq_refl W)].
  - cbn zeta in R. destruct R as [RS [RC _]]. cbn [fst] in RS, RC. destruct (K (sm_as_c04 sm sid u)) as [K1 K2].
    split; [exact (same_state inv_num _ _ inv_num_ncalls RS RC K1)|exact (same_state log_minv _ _ (fun _ _ _ _ H => H) RS RC K2)].
Qed.

Lemma orun_rows h : forall x xf outs, inv_num x -> log_minv x ->
  orun_c04 sm roots x h = Some (xf, outs) ->
  NoDup (seqs (st xf)) /\ dellog_wf (st xf).
Proof.
  induction h as [|fq h IH]; intros x xf outs IN W R; cbn [orun_c04] in R.
  - inv R. split; [apply IN|apply log_minv_wf; exact W].
  - destruct (ostep_f_c04 sm roots x fq) as [[x1 o1]|] eqn:ES; [|discriminate].
    destruct (ostep_f_rows x fq x1 o1 IN W ES) as [I1 W1].
    destruct (orun_c04 sm roots x1 h) as [[x2 os]|] eqn:ER; [|discriminate]. inv R.
    exact (IH x1 xf os I1 W1 ER).
Qed.
End Sim.

(* ------------------------------------------------------------------ *)
(* 3. the answers depend on the acting user only                         *)

(* the three requests of the property, without the session they come from *)
Inductive query_c04 :=
| QData (since before limit : Z)
| QDel (since before limit : Z)
| QDelMsg (req : list (Z * Z)) (hard : bool).

Definition op_of_query_c04 (sid : N) (q : query_c04) : op :=
  match q with
  | QData a b l => OGetData sid a b l
  | QDel a b l => OGetDel sid a b l
  | QDelMsg req hard => ODelMsg sid req hard
  end.

(* the handler of the topic (replyGetData / replyGetDel / replyDelMsg) applied to (sess, asUid) *)
Definition handle_query_c04 (f : fault) (s : store) (c : cache) (sid u : N) (q : query_c04) : hres :=
  match q with
  | QData a b l => get_data f s c 0 sid u a b l
  | QDel a b l => get_del norm_ranges_i f s c 0 sid u a b l
  | QDelMsg req hard => del_msg del_ranges_i f s c 0 sid u req hard
  end.

Definition retag (sid : N) (o : out) : out := map (fun e => (sid, snd e)) o.

Lemma op_sid_query sid q : op_sid (op_of_query_c04 sid q) = Some sid.
Proof. destruct q; reflexivity. Qed.

Lemma root_ok_query x sid u ob q : root_req_ok_c04 x sid u ob (op_of_query_c04 sid q) = true.
Proof. destruct q; reflexivity. Qed.

(* an attached session: the request goes to the topic's handler with the ACTING user as asUid,
   whoever owns the session and whoever the session is attached as *)
Lemma ostep_query sm roots f s c n0 sid ob u q : attached c sid = true ->
  dispatch_as_c04 sm roots sid ob = inl u ->
  ostep_c04 sm roots f (mkState s (Some c) n0) (QReq ob (op_of_query_c04 sid q)) =
  Some (let h := handle_query_c04 f s c sid u q in (mkState (h_st h) (Some (h_ca h)) (h_n h), h_out h)).
Proof.
  intros AT D.
  rewrite (ostep_acting sm roots f _ ob _ sid u (op_sid_query sid q) D (fun _ => root_ok_query _ sid u ob q)).
  f_equal. destruct q; cbn [op_of_query_c04 handle_query_c04];
    [rewrite step_get_data by exact AT|rewrite step_get_del by exact AT|rewrite step_del_msg by exact AT];
    rewrite sess_uid_as; reflexivity.
Qed.

(* the handlers use the session only to address their frames *)
Lemma get_data_session f s c n sid sid' u a b l :
  get_data f s c n sid' u a b l =
  (let h := get_data f s c n sid u a b l in mkH (h_st h) (h_ca h) (h_n h) (retag sid' (h_out h))).
Proof.
  unfold get_data, retag. destruct (is_reader (user_mode c u)); [|reflexivity].
  destruct (call f n) as [ok1 n1]. destruct ok1; cbn [negb]; [|reflexivity].
  destruct (ad_msg_get_all s u a b l) as [|m ms]; [reflexivity|]. cbn [h_st h_ca h_n h_out]. f_equal.
  rewrite map_app, map_map. reflexivity.
Qed.

Lemma get_del_session f s c n sid sid' u a b l :
  get_del norm_ranges_i f s c n sid' u a b l =
  (let h := get_del norm_ranges_i f s c n sid u a b l in mkH (h_st h) (h_ca h) (h_n h) (retag sid' (h_out h))).
Proof.
  unfold get_del, retag. destruct (is_reader (user_mode c u)); [|reflexivity].
  destruct (call f n) as [ok1 n1]. destruct ok1; cbn [negb]; [|reflexivity].
  destruct (ad_msg_get_deleted s u a b l) as [|m ms]; reflexivity.
Qed.

Lemma del_msg_session f s c n sid sid' u req hard :
  del_msg del_ranges_i f s c n sid' u req hard =
  (let h := del_msg del_ranges_i f s c n sid u req hard in mkH (h_st h) (h_ca h) (h_n h) (retag sid' (h_out h))).
Proof.
  unfold del_msg, retag.
  destruct (negb (hard && is_deleter (user_mode c u)) && negb (is_reader (user_mode c u))); [reflexivity|].
  destruct (del_ranges_i (c_lastid c) req) as [rs|]; [|reflexivity].
  destruct (call f n) as [ok1 n1]. destruct ok1; cbn [negb]; [|reflexivity].
  destruct (call f n1) as [ok2 n2]. destruct ok2; cbn [negb]; [|reflexivity].
  destruct (call f n2) as [ok3 n3]. destruct ok3; cbn [negb]; reflexivity.
Qed.

Lemma handle_query_session f s c sid sid' u q :
  handle_query_c04 f s c sid' u q =
  (let h := handle_query_c04 f s c sid u q in mkH (h_st h) (h_ca h) (h_n h) (retag sid' (h_out h))).
Proof.
  destruct q; cbn [handle_query_c04]; [apply get_data_session|apply get_del_session|apply del_msg_session].
Qed.

(* without store faults the answers do not depend on how many store calls went before *)
Lemma get_data_nofault_n s c n n' sid u a b l :
  h_out (get_data NoFault s c n sid u a b l) = h_out (get_data NoFault s c n' sid u a b l).
Proof. unfold get_data, call. cbn [fails negb]. destruct (is_reader (user_mode c u)); [|reflexivity].
  destruct (ad_msg_get_all s u a b l); reflexivity. Qed.
Lemma get_del_nofault_n s c n n' sid u a b l :
  h_out (get_del norm_ranges_i NoFault s c n sid u a b l) = h_out (get_del norm_ranges_i NoFault s c n' sid u a b l).
Proof. unfold get_del, call. cbn [fails negb]. destruct (is_reader (user_mode c u)); [|reflexivity].
  destruct (ad_msg_get_deleted s u a b l); reflexivity. Qed.

(* ------------------------------------------------------------------ *)
(* 4. the states reached by histories with obo requests                  *)

Section After.
Variable sm : sessmap.
Variable roots : list N.

Definition oreach_c04 (s0 : store) (h : list (fault * oreq_c04)) : option state :=
  option_map fst (orun_c04 sm roots (mkState s0 None 0) h).

Lemma oreach_rows s0 h x : hist_init s0 -> oreach_c04 s0 h = Some x -> NoDup (seqs (st x)) /\ dellog_wf (st x).
Proof.
  intros HI R. unfold oreach_c04 in R.
  destruct (orun_c04 sm roots (mkState s0 None 0) h) as [[xf outs]|] eqn:ER; [|discriminate]. inv R.
  apply (orun_rows sm roots h (mkState s0 None 0) x outs); [| |exact ER].
  - apply fresh_inv. apply hist_init_fresh in HI. apply HI.
  - unfold log_minv, minv. cbn [ca st]. apply hist_init_wf. exact HI.
Qed.

End After.

(* ------------------------------------------------------------------ *)
(* 5. the wrapper is conservative: an ordinary session without extra.obo *)

(* [step] reads the session map at the requesting session only *)

Lemma step_sess_ext sm1 sm2 f x o :
  (forall sid, op_sid o = Some sid -> sess_uid sm1 sid = sess_uid sm2 sid) ->
  step_i sm1 f x o = step_i sm2 f x o.
Proof.
  intros H. destruct o; [..|reflexivity|reflexivity]; unfold step_i, step; rewrite (H _ eq_refl); reflexivity.
Qed.

Lemma ostep_plain sm roots f x o sid : op_sid o = Some sid -> is_root_c04 roots sid = false ->
  ostep_c04 sm roots f x (QReq OboNone o) = Some (step_i sm f x o).
Proof.
  intros S R.
  rewrite (ostep_acting sm roots f x OboNone o sid (sess_uid sm sid) S eq_refl) by (rewrite R; discriminate).
  f_equal. apply step_sess_ext. intros sid' S'. rewrite S in S'. inv S'. apply sess_uid_as.
Qed.

(* ------------------------------------------------------------------ *)
(* 6. the regression this development is about, as a refuted statement: a history answered
   with the soft deletions of the SESSION's user (store.Messages.GetAll(t.name, sess.uid, ...))
   instead of the acting user's *)

Definition get_data_sessuid_c04 (f : fault) (s : store) (c : cache) (n : nat) (sid su u : N) (since before limit : Z) : hres :=
  if is_reader (user_mode c u) then
    let '(ok1, n1) := call f n in
    if negb ok1 then mkH s c n1 [(sid, Ctrl 500 [])] else
    let ms := ad_msg_get_all s su since before limit in
    match ms with
    | [] => mkH s c n1 [(sid, Ctrl 204 [(P_what, 1)])]
    | _ => mkH s c n1 (map (fun m => (sid, Data (m_seq m) (m_from m) (m_content m))) ms
                        ++ [(sid, Ctrl 208 [(P_what, 1); (P_count, Z.of_nat (length ms))])])
    end
  else mkH s c n [(sid, Ctrl 204 [(P_what, 1)])].

(* "every message sent is visible to the acting user", for a handler that is told both users *)
Definition shows_only_visible_statement
  (gd : fault -> store -> cache -> nat -> N -> N -> N -> Z -> Z -> Z -> hres) : Prop :=
  forall s c sid su u since before limit y a ct, NoDup (seqs s) ->
    In (y, a, ct) (data_of (h_out (gd NoFault s c 0%nat sid su u since before limit))) ->
    hs_visible (abs s) u y = Some (a, ct).

(* one message, soft-deleted by user 2; the root session of user 1 reads on behalf of user 2 *)
Definition wit_obo_store : store :=
  mkStore true 1 1 1%N 47%N 0%N [mkSub 1 255 255 0 0 0 false; mkSub 2 47 47 0 0 1 false] [mkMsg 1 1%N 7%N 0]
          [mkDel 1 2%N 1 2] [(1%N, 47%N); (2%N, 47%N)].
Definition wit_obo_cache : cache :=
  mkCache 1 1 1%N 47%N 0%N [(1%N, mkPud 255 255 0 0 0 1); (2%N, mkPud 47 47 0 0 1 0)] [(1%N, (1%N, false))].

(* ------------------------------------------------------------------ *)
(* 7. non-vacuity: three users; session 1 is a root session of user 1, sessions 2 and 3 are the
   ordinary sessions of users 2 and 3.  The root session attaches (as user 1, with extra.obo),
   publishes for itself and for user 3, soft-deletes message 2 for itself and messages 4, 5 on
   behalf of user 2; user 2 soft-deletes message 1 himself.  History and deletion log read by the
   root session on behalf of 2 equal what user 2's own session gets; the root session's own
   view and its view on behalf of 3 differ; a non-root session naming another user is refused. *)
Definition ex_obo_s0 : store :=
  ad_sub_create (ad_sub_create (ad_sub_create (mkStore true 0 0 0%N 47%N 0%N [] [] [] [(1%N, 47%N); (2%N, 47%N); (3%N, 47%N)])
     1%N 255%N 255%N) 2%N 47%N 47%N) 3%N 47%N 47%N.
Definition ex_obo_hist : list (fault * oreq_c04) :=
  map (fun q => (NoFault, QReq (fst q) (snd q)))
    [(OboUser 1, OSub 1 [] false); (OboNone, OSub 2 [] false); (OboNone, OSub 3 [] false);
     (OboNone, OPub 1 7 false); (OboNone, OPub 2 8 false); (OboUser 3, OPub 1 9 false); (OboNone, OPub 1 10 false);
     (OboNone, OPub 3 11 false);
     (OboNone, ODelMsg 1 [(2, 0)] false);
     (OboUser 2, ODelMsg 1 [(4, 6)] false);
     (OboNone, ODelMsg 2 [(1, 0)] false);
     (OboUser 2, OGetData 1 0 0 0); (OboNone, OGetData 2 0 0 0); (OboNone, OGetData 1 0 0 0); (OboUser 3, OGetData 1 0 0 0);
     (OboUser 2, OGetDel 1 0 0 0); (OboNone, OGetDel 2 0 0 0); (OboNone, OGetDel 1 0 0 0);
     (OboUser 2, OGetData 2 0 0 0); (OboJunk, OGetData 1 0 0 0); (OboUser 0, OGetData 1 0 0 0)].
Definition ex_obo_sm : sessmap := [(1%N, 1%N); (2%N, 2%N); (3%N, 3%N)].

(* the same history continued: the root session leaves and comes back with {sub get="data del"}
   on behalf of user 2 - the subscription reply, then user 2's view of the history and of the
   deletion log; a second {sub get} while attached: 304 and nothing else; from a non-root session
   naming a user: 403 *)
Definition ex_obo_hist2 : list (fault * oreq_c04) :=
  ex_obo_hist ++ map (fun q => (NoFault, q))
   [QReq (OboUser 1) (OLeave 1 false); QSubGet (OboUser 2) 1 [] false (Some (0, 0, 0)) (Some (0, 0, 0));
    QSubGet (OboUser 3) 1 [] false (Some (0, 0, 0)) None;
    QSubGet (OboUser 3) 2 [] false (Some (0, 0, 0)) None].

