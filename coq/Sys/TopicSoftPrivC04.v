(* C04, "for the requester only when soft": a delete request that is not hard-effective (asked
   soft, or asked hard by a requester without D and silently made soft) - whatever its outcome
   and under ANY faults - leaves the cached record of every OTHER user as it was (in particular
   their deletion mark p_delid, which is what makes the topic tell a user "something was deleted
   for you"), and sends frames to the requesting session only. *)
From Coq Require Import ZArith NArith List Bool Lia.
From Tinode Require Import Base.Util Pure.Acs Sys.Topic Sys.TopicMarks.
Import ListNotations.

Section SoftPriv.
Variable dr : Z -> list (Z * Z) -> option (list (Z * Z)).

Lemma del_msg_soft_private f s c n sid u req hard0 v :
  hard0 && is_deleter (user_mode c u) = false -> v <> u ->
  let h := del_msg dr f s c n sid u req hard0 in
  alookup v (c_users (h_ca h)) = alookup v (c_users c) /\
  forall fr, In fr (h_out h) -> fst fr = sid.
Proof.
  intros HS NE. unfold del_msg. rewrite HS. cbn [negb andb].
  (* every refusal: the cache as it was, one {ctrl} to the requester *)
  assert (forall s' n' code, alookup v (c_users (h_ca (mkH s' c n' [(sid, Ctrl code [])]))) = alookup v (c_users c) /\
            forall fr, In fr (h_out (mkH s' c n' [(sid, Ctrl code [])])) -> fst fr = sid) as REF.
  { intros s' n' code. split; [reflexivity|]. intros fr [<-|[]]. reflexivity. }
  destruct (negb (is_reader (user_mode c u))); [apply REF|].
  destruct (dr (c_lastid c) req) as [ranges|]; [|apply REF].
  unfold call.
  destruct (negb (fails f (S n))); cbn [negb]; [|apply REF].
  destruct (negb (fails f (S (S n)))); cbn [negb]; [|apply REF].
  destruct (negb (fails f (S (S (S n))))); cbn [negb]; [|apply REF].
  cbn [h_ca h_out c_set_users c_users c_set_delid]. split.
  - rewrite alookup_aset. destruct (N.eqb v u) eqn:E; [apply N.eqb_eq in E; contradiction|reflexivity].
  - intros fr [<-|[]]. reflexivity.
Qed.

(* and the hard-effective case really is different: every cached record gets the new mark *)
Lemma del_msg_hard_marks_everyone s c sid u req ranges v p :
  is_deleter (user_mode c u) = true -> dr (c_lastid c) req = Some ranges ->
  alookup v (c_users c) = Some p ->
  let h := del_msg dr NoFault s c 0 sid u req true in
  exists p', alookup v (c_users (h_ca h)) = Some p' /\ p_delid p' = c_delid c + 1.
Proof.
  intros HD HR HV. cbv zeta. unfold del_msg, call. rewrite HD, HR. cbn [andb negb fails].
  cbn [h_ca c_set_users c_users c_set_delid].
  exists (p_set_delid (c_delid c + 1) p). split; [|reflexivity].
  rewrite alookup_map, HV. reflexivity.
Qed.
End SoftPriv.
