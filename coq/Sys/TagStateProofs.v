(* Lemmas about the stateful tag layer (TagState.v), for every configuration of
   reserved namespaces and maxTagCount and every world.  A request addresses one
   holder: [step_factored] splits [step] into what happens to that holder
   ([on_holder]) or, when there is none, which holder is created ([on_absent]);
   the laws are proved on these and lifted to worlds:
     - the cached tags of a loaded topic are a permutation of the row (equal to
       it when the row is normalised);
     - an accepted {set tags} stores exactly the normalised request, and rows
       stay normalised;
     - client requests never change the reserved-namespace tags of a row, and a
       holder created by a client has none except those of the authenticator;
     - a request that is not accepted leaves its holder as it can be seen, and
       what can be seen determines every later answer. *)
From Coq Require Import NArith List Bool Lia Arith Permutation.
From Coq Require Import ZifyBool ZifyNat ZifyN.
Require Tinode.Pure.RingProofs.
Require Import Tinode.Pure.Query Tinode.Pure.Tags Tinode.Pure.TagsProofs Tinode.Sys.TagState.
Import ListNotations.
Open Scope N_scope.

(* ---------- worlds ---------- *)
Lemma lookup_put h k v w : lookup k (put h v w) = if h =? k then Some v else lookup k w.
Proof. reflexivity. Qed.

Lemma lookup_put_other h k v w : k <> h -> lookup k (put h v w) = lookup k w.
Proof. intros Hne. rewrite lookup_put. destruct (N.eqb_spec h k); congruence. Qed.

(* ---------- small list facts ---------- *)
Lemma mem_in x l : mem x l = true <-> In x l.
Proof.
  induction l as [|y l IH]; cbn; [split; [discriminate|intros []]|].
  rewrite orb_true_iff, IH, list_eqb_eq. split; intros [H|H]; auto.
Qed.

Lemma add_missing_in add : forall cur t, In t (add_missing add cur) -> In t cur \/ In t add.
Proof.
  induction add as [|a add IH]; intros cur t H; cbn [add_missing] in H; [now left|].
  apply IH in H as [H|H]; [|right; now right].
  destruct (mem a cur); [now left|]. apply in_app_or in H as [H|[<-|[]]]; [now left|right; now left].
Qed.

Lemma add_missing_present add : forall cur, (forall t, In t add -> In t cur) -> add_missing add cur = cur.
Proof.
  induction add as [|a add IH]; intros cur H; cbn [add_missing]; [reflexivity|].
  assert (E : mem a cur = true) by (apply mem_in, H; now left). rewrite E.
  apply IH. intros t Ht. apply H. now right.
Qed.

Lemma in_update_tags cur add rm t : In t (update_tags cur add rm) -> In t cur \/ In t add.
Proof.
  unfold update_tags. intros H. apply (Permutation_in _ (sort_perm _)) in H.
  apply filter_In in H as [H _]. now apply add_missing_in.
Qed.

Lemma filter_true {A} (f : A -> bool) l : (forall x, In x l -> f x = true) -> filter f l = l.
Proof.
  induction l as [|x l IH]; intros H; cbn; [reflexivity|].
  rewrite (H x (or_introl eq_refl)), IH; [reflexivity|]. intros y Hy. apply H. now right.
Qed.

Lemma update_tags_same cur : ssorted cur -> update_tags cur cur [] = cur.
Proof.
  intros Hs. unfold update_tags. rewrite add_missing_present by auto.
  rewrite filter_true by reflexivity. now apply sort_ssorted_id.
Qed.

Lemma delta_args_perm old new :
  Permutation (fst (delta_args_after old new)) old /\ Permutation (snd (delta_args_after old new)) new.
Proof.
  unfold delta_args_after. destruct old as [|o os], new as [|n ns]; cbn [fst snd]; split; try reflexivity; apply sort_perm.
Qed.

Lemma delta_args_ssorted old new :
  (ssorted old -> fst (delta_args_after old new) = old) /\ (ssorted new -> snd (delta_args_after old new) = new).
Proof.
  unfold delta_args_after. destruct old as [|o os], new as [|n ns]; cbn [fst snd]; split; intros H; try reflexivity;
    now apply sort_ssorted_id.
Qed.

Section TagStateLaws.
  Variable lower : N -> N.
  Variable is_letter : N -> bool.
  Variable is_digit : N -> bool.
  Variable is_number : N -> bool.
  Hypothesis lower_idem : forall r, lower (lower r) = lower r.
  Hypothesis lower_space : forall r, is_space (lower r) = is_space r.
  Variable c : cfg.

  Notation normalize := (normalize_tags lower is_letter is_digit (c_max c)).
  Notation requal := (restricted_tags_equal is_letter is_number).
  Notation fr l := (filter_restricted is_letter is_number l (c_ns c)).
  Notation restricted := (restricted is_letter is_number (c_ns c)).
  Notation step := (step lower is_letter is_digit is_number c).
  Notation run := (run lower is_letter is_digit is_number c).
  Notation set_core := (set_core lower is_letter is_digit is_number c).
  Notation set_tags := (set_tags lower is_letter is_digit is_number c).
  Notation new_grp := (new_grp lower is_letter is_digit is_number c).
  Notation new_user := (new_user lower is_letter is_digit is_number c).
  Notation tag_valid := (tag_valid lower is_letter is_digit).

  Lemma fr_perm a b : Permutation a b -> Permutation (fr a) (fr b).
  Proof.
    intros H. unfold filter_restricted. destruct (is_nil (c_ns c)); [constructor|]. now apply RingProofs.filter_perm.
  Qed.

  Lemma requal_nil_no_restricted l : requal l [] (c_ns c) = true -> forall t, In t l -> restricted t = false.
  Proof.
    intros H t Ht. destruct (Tags.restricted is_letter is_number (c_ns c) t) eqn:E; [|reflexivity].
    exfalso. apply restricted_equal_sound in H.
    assert (X : In t (fr l)) by (apply in_filter_restricted; auto).
    apply (Permutation_in _ H) in X. apply in_filter_restricted in X as [[] _].
  Qed.

  (* ---------- "normalised" ---------- *)
  Definition norm_list (l : list tag) : Prop :=
    ssorted l /\ (length l <= c_max c)%nat /\ forall t, In t l -> tag_valid t.

  Lemma norm_list_nil : norm_list [].
  Proof. split; [exact I|]. split; [cbn; lia|intros t []]. Qed.

  Lemma norm_list_normalize tags : norm_list (TagState.content (normalize tags)).
  Proof.
    change (TagState.content (normalize tags)) with (TagsProofs.content (normalize tags)).
    split; [apply norm_sorted|]. split; [apply norm_count|].
    apply norm_each_tag_valid; assumption.
  Qed.

  Lemma norm_list_nodup l : norm_list l -> NoDup l.
  Proof. intros [H _]. now apply ssorted_nodup. Qed.

  (* ---------- the {set tags} handler: the four outcomes ---------- *)
  Lemma set_core_cases grp owner store cache who fail tags s' c' a :
    set_core grp owner store cache who fail tags = (s', c', a) ->
    (a = RCtrl 403 0 0 /\ s' = store /\ c' = cache) \/
    (a = RCtrl 304 0 0 /\ s' = store /\ Permutation c' cache /\ (ssorted cache -> c' = cache)) \/
    (a = RCtrl 500 0 0 /\ fail = true /\ s' = store /\ Permutation c' cache /\ (ssorted cache -> c' = cache)) \/
    (exists added removed, a = RCtrl 200 added removed /\ fail = false /\
       normalize tags = Some s' /\ c' = s' /\ requal cache s' (c_ns c) = true).
  Proof.
    unfold TagState.set_core.
    destruct (grp && negb (owner =? who)); [intros H; inversion H; now left|].
    destruct (normalize tags) as [t|] eqn:En.
    2:{ intros H; inversion H; subst. right; left. repeat split; auto. }
    destruct (negb (requal cache t (c_ns c))) eqn:Er; [intros H; inversion H; now left|].
    destruct (string_slice_delta cache t) as [[added removed] inter].
    destruct (delta_args_after cache t) as [c1 t1] eqn:Ed.
    destruct (delta_args_perm cache t) as [P1 P2]. destruct (delta_args_ssorted cache t) as [S1 S2].
    rewrite Ed in *. cbn [fst snd] in *.
    destruct (is_nil added && is_nil removed).
    { intros H; inversion H; subst. right; left. repeat split; auto. }
    destruct fail.
    { intros H; inversion H; subst. right; right; left. repeat split; auto. }
    intros H; inversion H; subst. right; right; right.
    assert (Hs : ssorted t).
    { pose proof (norm_sorted lower is_letter is_digit (c_max c) tags) as X. rewrite En in X. exact X. }
    rewrite (S2 Hs). exists (length added), (length removed). repeat split; auto.
    now apply negb_false_iff in Er.
  Qed.

  (* ---------- one request, factored: the holder it addresses and what happens to it ---------- *)
  Definition target (r : req) : N :=
    match r with
    | SetTags h _ _ _ | GetTags h _ | Unload h | NewGrp h _ _ | NewUser h _ _ | SrvTags h _ _ => h
    end.

  (* the request finds its holder *)
  Definition on_holder (r : req) (hd : holder) : holder * resp :=
    match r with
    | SetTags _ who fail tags => set_tags hd who fail tags
    | GetTags _ who => get_tags hd who
    | Unload _ => (mkH (h_kind hd) (h_owner hd) (h_store hd) None, RNone)
    | SrvTags _ add rm =>
      (if is_grp hd then hd else mkH KMe (h_owner hd) (update_tags (h_store hd) add rm) None, RNone)
    | _ => (hd, RNone)
    end.

  (* there is no such holder *)
  Definition on_absent (r : req) : option holder * resp :=
    match r with
    | NewGrp _ who tags => new_grp who tags
    | NewUser h tags au => new_user h tags au
    | _ => (None, RNone)
    end.

  Lemma step_factored w r :
    snd (step w r) = match lookup (target r) w with
                     | Some hd => snd (on_holder r hd)
                     | None => snd (on_absent r)
                     end /\
    forall k, lookup k (fst (step w r)) =
              if target r =? k
              then match lookup (target r) w with
                   | Some hd => Some (fst (on_holder r hd))
                   | None => fst (on_absent r)
                   end
              else lookup k w.
  Proof.
    destruct r as [h who fail tags|h who|h|h who tags|h tags au|h ad rm];
      cbn [TagState.step target on_holder on_absent]; unfold get_tags; destruct (lookup h w) as [hd|] eqn:E;
      try destruct (set_tags hd who fail tags); try destruct (new_grp who tags) as [[?|] ?];
      try destruct (new_user h tags au) as [[?|] ?]; try destruct (is_grp hd);
      (split; [reflexivity|]); intros k; cbn [fst]; rewrite ?lookup_put;
      (destruct (N.eqb_spec h k) as [<-|]; [rewrite ?E|]; reflexivity).
  Qed.

  (* a property of holders that every outcome of the request keeps holds of the whole new world *)
  Lemma step_all (P : holder -> Prop) w r :
    (forall hd, P hd -> P (fst (on_holder r hd))) ->
    (forall hd, fst (on_absent r) = Some hd -> P hd) ->
    (forall k x, lookup k w = Some x -> P x) -> forall k x, lookup k (fst (step w r)) = Some x -> P x.
  Proof.
    intros H1 H2 Hw k x. rewrite (proj2 (step_factored w r)).
    destruct (target r =? k); [|apply Hw]. destruct (lookup (target r) w) as [hd|] eqn:E.
    - intros [= <-]. eapply H1, Hw, E.
    - apply H2.
  Qed.

  Lemma run_cons w r rs :
    run w (r :: rs) = (fst (run (fst (step w r)) rs), snd (step w r) :: snd (run (fst (step w r)) rs)).
  Proof.
    cbn [TagState.run]. destruct (step w r) as [w1 a]. cbn [fst snd].
    destruct (run w1 rs) as [w2 l]. reflexivity.
  Qed.

  (* ---------- coherence: the loaded topic holds the tags of the row ---------- *)
  Definition hd_coherent (hd : holder) : Prop :=
    match h_cache hd with None => True | Some c0 => Permutation c0 (h_store hd) end.
  Definition w_coherent (w : world) : Prop := forall h hd, lookup h w = Some hd -> hd_coherent hd.

  Lemma eff_coherent hd : hd_coherent hd -> Permutation (eff hd) (h_store hd).
  Proof. unfold hd_coherent, eff. destruct (h_cache hd); auto. Qed.

  Lemma set_tags_coherent hd who fail tags hd' a :
    hd_coherent hd -> set_tags hd who fail tags = (hd', a) -> hd_coherent hd'.
  Proof.
    intros Hc. unfold TagState.set_tags.
    destruct (set_core (is_grp hd) (h_owner hd) (h_store hd) (eff hd) who fail tags) as [[s' c'] a'] eqn:E.
    intros H; inversion H; subst. unfold hd_coherent; cbn.
    pose proof (eff_coherent _ Hc) as P.
    destruct (set_core_cases _ _ _ _ _ _ _ _ _ _ E) as [(_ & -> & ->) | [(_ & -> & P' & _) | [(_ & _ & -> & P' & _) | (ad & rm & _ & _ & _ & -> & _)]]].
    - exact P.
    - now rewrite P'.
    - now rewrite P'.
    - reflexivity.
  Qed.

  Theorem step_coherent w r : w_coherent w -> w_coherent (fst (step w r)).
  Proof.
    intros Hw. refine (step_all hd_coherent w r _ _ Hw).
    - intros hd Hc. destruct r as [h who fail tags|h who|h|h who tags|h tags au|h ad rm]; cbn [on_holder fst]; try exact Hc.
      + destruct (set_tags hd who fail tags) as [hd' a] eqn:Es. exact (set_tags_coherent _ _ _ _ _ _ Hc Es).
      + exact (eff_coherent _ Hc).
      + exact I.
      + destruct (is_grp hd); [exact Hc|exact I].
    - destruct r as [h who fail tags|h who|h|h who tags|h tags au|h ad rm]; cbn [on_absent fst]; try discriminate.
      + unfold TagState.new_grp. destruct (negb _ && negb _); cbn [fst]; [discriminate|].
        intros hd [= <-]. unfold hd_coherent. cbn. reflexivity.
      + unfold TagState.new_user. destruct (normalize tags) as [t|]; [destruct (negb _)|]; cbn [fst];
          try discriminate; intros hd [= <-]; exact I.
  Qed.

  (* ---------- reserved namespaces: client requests change nothing ---------- *)
  Definition is_srv (r : req) : bool := match r with SrvTags _ _ _ => true | _ => false end.

  Lemma set_tags_reserved hd who fail tags hd' a :
    hd_coherent hd -> set_tags hd who fail tags = (hd', a) ->
    h_kind hd' = h_kind hd /\ h_owner hd' = h_owner hd /\ Permutation (fr (h_store hd')) (fr (h_store hd)).
  Proof.
    intros Hc. unfold TagState.set_tags.
    destruct (set_core (is_grp hd) (h_owner hd) (h_store hd) (eff hd) who fail tags) as [[s' c'] a'] eqn:E.
    intros H; inversion H; subst. cbn. repeat split.
    pose proof (eff_coherent _ Hc) as P.
    destruct (set_core_cases _ _ _ _ _ _ _ _ _ _ E) as [(_ & -> & _) | [(_ & -> & _) | [(_ & _ & -> & _) | (ad & rm & _ & _ & _ & _ & R)]]];
      try reflexivity.
    apply restricted_equal_sound in R. rewrite <- R. apply fr_perm. now symmetry.
  Qed.

  Theorem step_reserved_unchanged w r h hd :
    w_coherent w -> is_srv r = false -> lookup h w = Some hd ->
    exists hd', lookup h (fst (step w r)) = Some hd' /\ h_kind hd' = h_kind hd /\ h_owner hd' = h_owner hd /\
                Permutation (fr (h_store hd')) (fr (h_store hd)).
  Proof.
    intros Hw Hs Hl. rewrite (proj2 (step_factored w r)).
    destruct (target r =? h) eqn:Ek; [apply N.eqb_eq in Ek; rewrite Ek, Hl|exists hd; auto].
    eexists. split; [reflexivity|]. pose proof (Hw _ _ Hl) as Hc.
    destruct r as [h0 who fail tags|h0 who|h0|h0 who tags|h0 tags au|h0 ad rm]; try discriminate; cbn [on_holder fst]; auto.
    destruct (set_tags hd who fail tags) as [hd' a] eqn:Es. exact (set_tags_reserved _ _ _ _ _ _ Hc Es).
  Qed.

  (* a holder created by a client request has no reserved-namespace tag of the
     client's: none for a group topic, only the authenticator's for an account *)
  Lemma on_absent_reserved r hd' :
    fst (on_absent r) = Some hd' ->
    forall t, restricted t = true -> In t (h_store hd') ->
      match r with NewUser _ _ au => In t au | _ => False end.
  Proof.
    intros Hl t Hr Ht.
    destruct r as [h0 who fail tags|h0 who|h0|h0 who tags|h0 tags au|h0 ad rm]; cbn [on_absent fst] in Hl; try discriminate.
    - unfold TagState.new_grp in Hl.
      destruct (negb (is_nil (TagState.content (normalize tags))) && negb (requal (TagState.content (normalize tags)) [] (c_ns c))) eqn:Eg;
        cbn [fst] in Hl; [discriminate|]. injection Hl as <-. cbn in Ht.
      apply andb_false_iff in Eg as [Eg|Eg]; apply negb_false_iff in Eg.
      + destruct (TagState.content (normalize tags)); [contradiction|discriminate].
      + rewrite (requal_nil_no_restricted _ Eg t Ht) in Hr. discriminate.
    - unfold TagState.new_user in Hl. destruct (normalize tags) as [l|].
      + destruct (negb (requal l [] (c_ns c))) eqn:Eg; cbn [fst] in Hl; [discriminate|].
        apply negb_false_iff in Eg. injection Hl as <-. cbn in Ht.
        assert (Hnot : ~ In t l) by (intros X; rewrite (requal_nil_no_restricted _ Eg t X) in Hr; discriminate).
        destruct (l ++ au) eqn:Ea; [contradiction|]. rewrite <- Ea in Ht.
        apply in_update_tags in Ht as [Ht|Ht]; [contradiction|]. apply in_app_or in Ht as [Ht|Ht]; [contradiction|exact Ht].
      + cbn [fst] in Hl. injection Hl as <-. cbn in Ht.
        destruct au as [|x au]; [contradiction|]. apply in_update_tags in Ht as [[]|Ht]. exact Ht.
  Qed.

  (* ---------- stored tags are always normalised ---------- *)
  Definition hd_norm (hd : holder) : Prop :=
    norm_list (h_store hd) /\ (h_cache hd = None \/ h_cache hd = Some (h_store hd)).
  Definition w_norm (w : world) : Prop := forall h hd, lookup h w = Some hd -> hd_norm hd.

  (* requests through which clients set tags (an account created with an
     authenticator that adds no tag); SrvTags is the authenticator's side *)
  Definition tag_request (r : req) : bool :=
    match r with SrvTags _ _ _ => false | NewUser _ _ au => is_nil au | _ => true end.

  Lemma eff_norm hd : hd_norm hd -> eff hd = h_store hd.
  Proof. intros [_ [H|H]]; unfold eff; now rewrite H. Qed.

  Lemma set_tags_norm hd who fail tags hd' a :
    hd_norm hd -> set_tags hd who fail tags = (hd', a) -> hd_norm hd'.
  Proof.
    intros Hn. unfold TagState.set_tags. rewrite (eff_norm _ Hn).
    destruct (set_core (is_grp hd) (h_owner hd) (h_store hd) (h_store hd) who fail tags) as [[s' c'] a'] eqn:E.
    intros H; inversion H; subst. unfold hd_norm; cbn. destruct Hn as [Hl _]. pose proof Hl as (Hs & _).
    destruct (set_core_cases _ _ _ _ _ _ _ _ _ _ E) as [(_ & -> & ->) | [(_ & -> & _ & X) | [(_ & _ & -> & _ & X) | (ad & rm & _ & _ & En & -> & _)]]].
    - auto.
    - rewrite (X Hs). auto.
    - rewrite (X Hs). auto.
    - split; [|auto]. pose proof (norm_list_normalize tags) as Y. rewrite En in Y. exact Y.
  Qed.

  Theorem step_norm w r : w_norm w -> tag_request r = true -> w_norm (fst (step w r)).
  Proof.
    intros Hw Hr. refine (step_all hd_norm w r _ _ Hw).
    - intros hd Hn. destruct r as [h who fail tags|h who|h|h who tags|h tags au|h ad rm]; try discriminate;
        cbn [on_holder fst]; try exact Hn.
      + destruct (set_tags hd who fail tags) as [hd' a] eqn:Es. exact (set_tags_norm _ _ _ _ _ _ Hn Es).
      + unfold hd_norm, load, set_cache. cbn. rewrite (eff_norm _ Hn). destruct Hn. auto.
      + destruct Hn. split; cbn; auto.
    - destruct r as [h who fail tags|h who|h|h who tags|h tags au|h ad rm]; cbn [on_absent fst]; try discriminate.
      + unfold TagState.new_grp. destruct (negb _ && negb _); cbn [fst]; [discriminate|].
        intros hd [= <-]. split; cbn; [apply norm_list_normalize|auto].
      + cbn in Hr. destruct au; [|discriminate]. unfold TagState.new_user.
        pose proof (norm_list_normalize tags) as Y.
        destruct (normalize tags) as [t|].
        * cbv zeta. rewrite app_nil_r. destruct (negb _); cbn [fst]; [discriminate|].
          intros hd [= <-]. cbn in Y. split; cbn; [|auto].
          destruct t as [|x t]; [exact Y|]. destruct Y as (Ys & Y2). rewrite (update_tags_same _ Ys). split; assumption.
        * cbn [fst]. intros hd [= <-]. split; cbn; [apply norm_list_nil|auto].
  Qed.

  (* ---------- a rejected request is invisible ---------- *)
  (* what later requests can see of a holder: the row and what the loaded topic holds
     (a topic that is not loaded is loaded from the row on demand) *)
  Definition hd_obs (a b : holder) : Prop :=
    h_kind a = h_kind b /\ h_owner a = h_owner b /\ h_store a = h_store b /\ eff a = eff b.
  Definition obs_eq (w1 w2 : world) : Prop :=
    forall h, match lookup h w1, lookup h w2 with
              | Some a, Some b => hd_obs a b
              | None, None => True
              | _, _ => False
              end.

  Lemma hd_obs_refl a : hd_obs a a.
  Proof. repeat split. Qed.

  Lemma obs_eq_sym w1 w2 : obs_eq w1 w2 -> obs_eq w2 w1.
  Proof.
    intros H h. specialize (H h). destruct (lookup h w1), (lookup h w2); try contradiction; [|exact I].
    destruct H as (A & B & C & D). repeat split; congruence.
  Qed.
  Lemma obs_eq_trans w1 w2 w3 : obs_eq w1 w2 -> obs_eq w2 w3 -> obs_eq w1 w3.
  Proof.
    intros H1 H2 h. specialize (H1 h). specialize (H2 h).
    destruct (lookup h w1), (lookup h w2), (lookup h w3); try contradiction; [|exact I].
    destruct H1 as (A & B & C & D), H2 as (A' & B' & C' & D'). repeat split; congruence.
  Qed.

  Lemma is_grp_obs a b : hd_obs a b -> is_grp a = is_grp b.
  Proof. intros (K & _). unfold is_grp. now rewrite K. Qed.

  Lemma set_tags_obs a b who fail tags : hd_obs a b -> set_tags a who fail tags = set_tags b who fail tags.
  Proof.
    intros H. pose proof (is_grp_obs _ _ H) as G. destruct H as (K & O & S & E).
    unfold TagState.set_tags. rewrite G, K, O, S, E. reflexivity.
  Qed.

  Lemma load_obs a : hd_obs a (load a).
  Proof. repeat split. Qed.

  (* the answer to a request and everything later requests can see depend only on what can be seen *)
  Lemma on_holder_obs r a b : hd_obs a b ->
    snd (on_holder r a) = snd (on_holder r b) /\ hd_obs (fst (on_holder r a)) (fst (on_holder r b)).
  Proof.
    intros H. pose proof (is_grp_obs _ _ H) as G.
    destruct r as [h who fail tags|h who|h|h who tags|h tags au|h ad rm]; cbn [on_holder fst snd]; auto.
    - rewrite (set_tags_obs _ _ who fail tags H). split; [reflexivity|apply hd_obs_refl].
    - destruct H as (K & O & S & E). unfold get_tags. cbn [fst snd]. rewrite G, O, E.
      split; [reflexivity|]. repeat split; assumption.
    - destruct H as (K & O & S & E). repeat split; assumption.
    - rewrite G. destruct H as (K & O & S & E). destruct (is_grp b); (split; [reflexivity|]).
      + repeat split; assumption.
      + rewrite O, S. apply hd_obs_refl.
  Qed.

  Theorem step_obs w1 w2 r : obs_eq w1 w2 ->
    snd (step w1 r) = snd (step w2 r) /\ obs_eq (fst (step w1 r)) (fst (step w2 r)).
  Proof.
    intros H. destruct (step_factored w1 r) as [A1 L1], (step_factored w2 r) as [A2 L2].
    pose proof (H (target r)) as Ht. split.
    - rewrite A1, A2. destruct (lookup (target r) w1), (lookup (target r) w2); try contradiction;
        [apply on_holder_obs, Ht|reflexivity].
    - intros k. rewrite L1, L2. destruct (target r =? k); [|apply H].
      destruct (lookup (target r) w1), (lookup (target r) w2); try contradiction.
      + apply on_holder_obs, Ht.
      + destruct (fst (on_absent r)); [apply hd_obs_refl|exact I].
  Qed.

  Theorem run_obs rs : forall w1 w2, obs_eq w1 w2 ->
    snd (run w1 rs) = snd (run w2 rs) /\ obs_eq (fst (run w1 rs)) (fst (run w2 rs)).
  Proof.
    induction rs as [|r rs IH]; intros w1 w2 H; [split; [reflexivity|exact H]|].
    rewrite !run_cons. cbn [fst snd]. destruct (step_obs w1 w2 r H) as [A B]. destruct (IH _ _ B) as [C D].
    split; [now rewrite A, C|exact D].
  Qed.

  (* a request that leaves its holder as it can be seen, and creates none, leaves the world so *)
  Lemma step_invisible w r :
    (forall hd, lookup (target r) w = Some hd -> hd_obs hd (fst (on_holder r hd))) ->
    (lookup (target r) w = None -> fst (on_absent r) = None) ->
    obs_eq w (fst (step w r)).
  Proof.
    intros H1 H2 k. rewrite (proj2 (step_factored w r)).
    destruct (target r =? k) eqn:Ek; [apply N.eqb_eq in Ek; subst k|destruct (lookup k w); [apply hd_obs_refl|exact I]].
    destruct (lookup (target r) w) as [hd|]; [now apply H1|now rewrite H2].
  Qed.

  (* a request answered 403 (reserved tags touched, or not the owner) leaves its holder as it was
     and creates none *)
  Lemma on_holder_rejected r hd a b : snd (on_holder r hd) = RCtrl 403 a b -> hd_obs hd (fst (on_holder r hd)).
  Proof.
    intros Ha. destruct r as [h who fail tags|h who|h|h who tags|h tags au|h ad rm]; cbn [on_holder fst snd] in *;
      try discriminate; [|exact (load_obs hd)].
    unfold TagState.set_tags in *.
    destruct (set_core (is_grp hd) (h_owner hd) (h_store hd) (eff hd) who fail tags) as [[s' c'] a'] eqn:Ec.
    cbn [fst snd] in *. subst a'.
    destruct (set_core_cases _ _ _ _ _ _ _ _ _ _ Ec) as [(_ & -> & ->) | [(X & _) | [(X & _) | (ad & rm & X & _)]]]; try discriminate.
    repeat split.
  Qed.

  (* so does, on a normalised row, every request that is not accepted (403, 304 not modified,
     500 store failure, 204) *)
  Lemma on_holder_unaccepted r hd code a b :
    hd_norm hd -> snd (on_holder r hd) = RCtrl code a b -> code <> 200 -> code <> 201 ->
    hd_obs hd (fst (on_holder r hd)).
  Proof.
    intros Hn Ha N1 N2.
    destruct r as [h who fail tags|h who|h|h who tags|h tags au|h ad rm]; cbn [on_holder fst snd] in *;
      try discriminate; [|exact (load_obs hd)].
    pose proof (eff_norm _ Hn) as Ee. destruct Hn as [(Hs & _) _].
    unfold TagState.set_tags in *. rewrite Ee in *.
    destruct (set_core (is_grp hd) (h_owner hd) (h_store hd) (h_store hd) who fail tags) as [[s' c'] a'] eqn:Ec.
    cbn [fst snd] in *. subst a'.
    destruct (set_core_cases _ _ _ _ _ _ _ _ _ _ Ec) as [(_ & -> & ->) | [(_ & -> & _ & X) | [(_ & _ & -> & _ & X) | (ad & rm & X & _)]]];
      [| rewrite (X Hs) | rewrite (X Hs) | inversion X; congruence];
      repeat split; cbn; now rewrite Ee.
  Qed.

  Lemma on_absent_unaccepted r code a b :
    snd (on_absent r) = RCtrl code a b -> code <> 200 -> code <> 201 -> fst (on_absent r) = None.
  Proof.
    intros Ha N1 N2.
    destruct r as [h who fail tags|h who|h|h who tags|h tags au|h ad rm]; cbn [on_absent fst snd] in *; try reflexivity.
    - unfold TagState.new_grp in *. destruct (negb _ && negb _); [reflexivity|]. inversion Ha; congruence.
    - unfold TagState.new_user in *. destruct (normalize tags); [destruct (negb _)|]; cbn [fst snd] in *;
        try (inversion Ha; congruence); reflexivity.
  Qed.

  (* ---------- an accepted update stores exactly the normalised request ---------- *)
  Lemma set_tags_accepted hd who fail tags hd' a b :
    set_tags hd who fail tags = (hd', RCtrl 200 a b) ->
    normalize tags = Some (h_store hd') /\ h_cache hd' = Some (h_store hd') /\ norm_list (h_store hd').
  Proof.
    unfold TagState.set_tags.
    destruct (set_core (is_grp hd) (h_owner hd) (h_store hd) (eff hd) who fail tags) as [[s' c'] a'] eqn:Ec.
    intros [= <- ->].
    destruct (set_core_cases _ _ _ _ _ _ _ _ _ _ Ec) as [(X & _) | [(X & _) | [(X & _) | (ad & rm & _ & _ & En & -> & _)]]]; try discriminate.
    pose proof (norm_list_normalize tags) as Y. rewrite En in Y. auto.
  Qed.
End TagStateLaws.
