(* C08: what the coherence proofs (TopicCohC08Step.v) need, beyond Sys/TopicMarks.v and
   Sys/TopicOwner.v, of the store primitives and the load path. *)
From Coq Require Import ZArith NArith List Bool Lia.
From Tinode Require Import Base.Util Pure.Acs Sys.Topic Sys.TopicTac Sys.TopicMarks Sys.TopicOwner Sys.TopicCohC08.
Import ListNotations.
Open Scope Z_scope.

Lemma alookup_aset_same {A} (k : N) (v : A) l : alookup k (aset k v l) = Some v.
Proof. rewrite alookup_aset, N.eqb_refl. reflexivity. Qed.
Lemma keys_map_snd {A} (g : A -> A) (l : list (N * A)) : map fst (map (fun e => (fst e, g (snd e))) l) = map fst l.
Proof. rewrite map_map. reflexivity. Qed.

Lemma is_joiner_lor a b : is_joiner (N.lor a b) = is_joiner a || is_joiner b.
Proof. rewrite !is_joiner_bit. apply N.lor_spec. Qed.
Lemma is_joiner_ldiff_D m : is_joiner (N.ldiff m mD) = is_joiner m.
Proof. rewrite !is_joiner_bit, N.ldiff_spec. apply andb_true_r. Qed.

Lemma find_sub_user u l r : find_sub u l = Some r -> s_user r = u.
Proof. exact (TopicMarks.find_sub_user u l r). Qed.

Lemma apply_upd_user up r : s_user (apply_upd up r) = s_user r.
Proof. reflexivity. Qed.

(* ------------------------------------------------------------------ *)
(* the store primitives, seen through find_sub *)
Definition del_row (r : subrow) : subrow := mkSub (s_user r) (s_want r) (s_given r) (s_read r) (s_recv r) (s_delid r) true.

Lemma row_subs_delete s u s' v :
  ad_subs_delete s u = Some s' ->
  find_sub v (subs s') = if N.eqb v u then option_map del_row (find_sub v (subs s)) else find_sub v (subs s).
Proof. exact (find_sub_delete s u s' v). Qed.

Lemma users_subs_update s u up : map s_user (subs (ad_subs_update s u up)) = map s_user (subs s).
Proof.
  unfold ad_subs_update. destruct (u =? 0)%N; cbn [subs st_subs].
  - rewrite map_map. reflexivity.
  - apply users_upd_sub. intros r E. exact E.
Qed.
Lemma users_subs_delete s u s' : ad_subs_delete s u = Some s' -> map s_user (subs s') = map s_user (subs s).
Proof.
  unfold ad_subs_delete. destruct (ad_sub_get s u false); [|discriminate]. intros H. inv H.
  cbn [subs st_subs st_dellog]. apply users_upd_sub. intros r E. exact E.
Qed.
Lemma users_sub_create s u w g :
  map s_user (subs (ad_sub_create s u w g)) =
  match find_sub u (subs s) with Some _ => map s_user (subs s) | None => map s_user (subs s) ++ [u] end.
Proof.
  unfold ad_sub_create.
  assert (forall s', subs (if is_owner (N.land w g) then st_owner u s' else s') = subs s') as E by (intros; destruct (is_owner _); reflexivity).
  rewrite E. destruct (find_sub u (subs s)) eqn:F; cbn [subs st_subs].
  - apply users_upd_sub. reflexivity.
  - rewrite map_app. reflexivity.
Qed.

(* scalar columns *)
Lemma scal_subs_update s u up :
  t_seqid (ad_subs_update s u up) = t_seqid s /\ t_delid (ad_subs_update s u up) = t_delid s /\
  t_auth (ad_subs_update s u up) = t_auth s /\ t_anon (ad_subs_update s u up) = t_anon s /\
  users (ad_subs_update s u up) = users s.
Proof. unfold ad_subs_update. destruct (u =? 0)%N; repeat split. Qed.

(* ------------------------------------------------------------------ *)
(* the load path *)
Definition row_pud (r : subrow) : pud := mkPud (s_want r) (s_given r) (s_read r) (s_recv r) (s_delid r) 0.

Lemma load_users_lookup rows v :
  NoDup (map s_user rows) ->
  alookup v (load_users rows) =
  match find_sub v rows with
  | Some r => if s_deleted r then None else Some (row_pud r)
  | None => None
  end.
Proof.
  intros ND. unfold load_users. rewrite (load_users_lookup_acc v rows ND). reflexivity.
Qed.

Lemma load_users_core s v :
  NoDup (map s_user (subs s)) -> option_map core (alookup v (load_users (subs s))) = row_core s v.
Proof.
  intros ND. rewrite load_users_lookup by exact ND. unfold row_core.
  destruct (find_sub v (subs s)) as [r|]; [|reflexivity]. destruct (s_deleted r); reflexivity.
Qed.

Definition eff_owner (r : subrow) : bool := negb (s_deleted r) && is_owner (N.land (s_given r) (s_want r)).

Lemma load_owner_fold l acc o :
  (forall r, In r l -> eff_owner r = true -> s_user r = o) ->
  fold_left (fun o1 r => if negb (s_deleted r) && is_owner (N.land (s_given r) (s_want r)) then s_user r else o1) l acc =
  if existsb eff_owner l then o else acc.
Proof.
  revert acc. induction l as [|x l IH]; intros acc A; cbn; [reflexivity|].
  fold (eff_owner x). destruct (eff_owner x) eqn:E; cbn.
  - rewrite IH by (intros r Hr; apply A; now right).
    assert (s_user x = o) as -> by (apply A; [now left|exact E]). destruct (existsb eff_owner l); reflexivity.
  - apply IH. intros r Hr. apply A. now right.
Qed.

Lemma load_owner_wf s o :
  NoDup (map s_user (subs s)) -> owner_row s o -> load_owner (subs s) = o.
Proof.
  intros ND [NZ [[r0 [F0 O0]] U]]. unfold load_owner.
  rewrite (load_owner_fold _ _ o).
  - assert (existsb eff_owner (subs s) = true) as E.
    { apply existsb_exists. exists r0. split; [eapply find_sub_in; exact F0|].
      destruct (U _ _ F0 O0) as [D0 [G0 _]]. unfold eff_owner. rewrite D0, is_owner_land, G0, O0. reflexivity. }
    rewrite E. reflexivity.
  - intros r Hr E. unfold eff_owner in E. apply andb_true_iff in E. destruct E as [_ E].
    rewrite is_owner_land in E. apply andb_true_iff in E. destruct E as [_ E].
    pose proof (find_sub_nodup _ _ ND Hr) as F. destruct (U _ _ F E) as [_ [_ X]]. exact X.
Qed.
