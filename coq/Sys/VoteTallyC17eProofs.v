(* Proofs about Sys/VoteTallyC17e.v (one run of electLeader over the replies that
   arrive): for every node count, every reply list in every order. *)
From Coq Require Import List Bool Arith Lia Permutation.
From Tinode Require Import Sys.Election Sys.ElectionProofs Sys.VoteTallyC17e.
Import ListNotations.

Lemma count_yes_cons_c17e r arr :
  count_yes_c17e (r :: arr) = (if is_yes_c17e r then 1 else 0) + count_yes_c17e arr.
Proof. unfold count_yes_c17e. cbn [filter]. destruct (is_yes_c17e r); reflexivity. Qed.

Lemma count_yes_app_c17e a b : count_yes_c17e (a ++ b) = count_yes_c17e a + count_yes_c17e b.
Proof. unfold count_yes_c17e. rewrite filter_app, app_length. reflexivity. Qed.

Lemma count_yes_perm_c17e a b : Permutation a b -> count_yes_c17e a = count_yes_c17e b.
Proof.
  intros H. induction H.
  - reflexivity.
  - rewrite !count_yes_cons_c17e. lia.
  - rewrite !count_yes_cons_c17e. lia.
  - lia.
Qed.

Lemma count_yes_le_length_c17e arr : count_yes_c17e arr <= length arr.
Proof. unfold count_yes_c17e. apply (count_le_length is_yes_c17e arr). Qed.

(* NO and error replies never add a vote, whatever the order: the final voteCount
   is at most the initial one plus the YES replies in the list *)
Lemma loop_votes_le_c17e nc ev term arr : forall i vc k,
  tl_votes (loop_c17e nc ev term arr i vc k) <= vc + count_yes_c17e arr.
Proof.
  induction arr as [|r arr IH]; intros i vc k; cbn [loop_c17e].
  - destruct ((i <? nc) && (vc <? ev)); cbn [tl_votes]; lia.
  - destruct ((i <? nc) && (vc <? ev)); [|cbn [tl_votes]; lia].
    rewrite count_yes_cons_c17e. destruct r as [t|rt|]; cbn [is_yes_c17e].
    + specialize (IH (S i) (S vc) (S k)). lia.
    + destruct (term <? rt).
      * specialize (IH (S nc) 0 (S k)). lia.
      * specialize (IH (S i) vc (S k)). lia.
    + specialize (IH (S i) vc (S k)). lia.
Qed.

(* exact: when no NO reply carries a term above the candidate's (the abandon branch)
   and there is at most one reply per request, the threshold is reached iff the YES
   replies given reach it *)
Lemma loop_elected_iff_c17e nc ev term arr :
  (forall rt, In (RNo rt) arr -> rt <= term) ->
  forall i vc k, i + length arr <= nc ->
  (ev <= tl_votes (loop_c17e nc ev term arr i vc k) <-> ev <= vc + count_yes_c17e arr).
Proof.
  induction arr as [|r arr IH]; intros Hno i vc k Hlen; cbn [loop_c17e].
  - unfold count_yes_c17e. cbn [filter length]. destruct ((i <? nc) && (vc <? ev)); cbn [tl_votes]; lia.
  - cbn [length] in Hlen.
    destruct (Nat.ltb_spec i nc) as [Hi|Hi]; [|lia]. cbn [andb].
    destruct (Nat.ltb_spec vc ev) as [Hv|Hv]; [|cbn [tl_votes]; lia].
    assert (Hno' : forall rt, In (RNo rt) arr -> rt <= term) by (intros rt H; apply Hno; now right).
    rewrite count_yes_cons_c17e. destruct r as [t|rt|]; cbn [is_yes_c17e].
    + rewrite (IH Hno' (S i) (S vc) (S k)) by lia. lia.
    + assert (rt <= term) by (apply Hno; now left).
      destruct (Nat.ltb_spec term rt) as [Hlt|_]; [lia|].
      rewrite (IH Hno' (S i) vc (S k)) by lia. lia.
    + rewrite (IH Hno' (S i) vc (S k)) by lia. lia.
Qed.

(* a NO reply with a term above the candidate's, taken before the threshold is
   reached, ends the election without a leader *)
Lemma loop_abandon_c17e nc ev term pre rt post :
  term < rt -> 0 < ev ->
  (forall rt', In (RNo rt') pre -> rt' <= term) ->
  forall i vc k, i + length pre < nc -> vc + count_yes_c17e pre < ev ->
  tl_votes (loop_c17e nc ev term (pre ++ RNo rt :: post) i vc k) = 0.
Proof.
  intros Hrt Hev. induction pre as [|r pre IH]; intros Hno i vc k Hlen Hv; cbn [app loop_c17e].
  - cbn [length] in Hlen. unfold count_yes_c17e in Hv. cbn [filter length] in Hv.
    destruct (Nat.ltb_spec i nc) as [_|]; [|lia]. destruct (Nat.ltb_spec vc ev) as [_|]; [|lia]. cbn [andb].
    destruct (Nat.ltb_spec term rt) as [_|]; [|lia].
    destruct post; cbn [loop_c17e]; destruct (Nat.ltb_spec (S nc) nc); try lia; reflexivity.
  - cbn [length] in Hlen. rewrite count_yes_cons_c17e in Hv.
    destruct (Nat.ltb_spec i nc) as [_|]; [|lia]. destruct (Nat.ltb_spec vc ev) as [_|]; [|lia]. cbn [andb].
    assert (Hno' : forall rt', In (RNo rt') pre -> rt' <= term) by (intros x H; apply Hno; now right).
    destruct r as [t|rt'|]; cbn [is_yes_c17e] in Hv.
    + apply IH; auto; lia.
    + assert (rt' <= term) by (apply Hno; now left).
      destruct (Nat.ltb_spec term rt'); [lia|]. apply IH; auto; lia.
    + apply IH; auto; lia.
Qed.

(* ------------------------------------------------------------------ *)
(* electLeader as a whole *)

Lemma tally_eq_c17e c arr :
  oc_tally (elect_c17e c arr) =
  loop_c17e (length (cd_peers c)) (expect_c17e (length (cd_peers c))) (S (cd_term c))
            (unconnected_c17e (cd_peers c) ++ arr) 0 1 0.
Proof. reflexivity. Qed.

Lemma term_eq_c17e c arr : oc_term (elect_c17e c arr) = S (cd_term c).
Proof. reflexivity. Qed.

Lemma leader_cases_c17e c arr :
  oc_leader (elect_c17e c arr) = Some (cd_self c) \/ oc_leader (elect_c17e c arr) = None.
Proof. unfold elect_c17e. cbn [oc_leader]. destruct (_ <=? _); auto. Qed.

Lemma leader_iff_votes_c17e c arr :
  oc_leader (elect_c17e c arr) = Some (cd_self c) <->
  expect_c17e (length (cd_peers c)) <= tl_votes (oc_tally (elect_c17e c arr)).
Proof.
  rewrite tally_eq_c17e. unfold elect_c17e. cbn [oc_leader].
  destruct (Nat.leb_spec (expect_c17e (length (cd_peers c)))
     (tl_votes (loop_c17e (length (cd_peers c)) (expect_c17e (length (cd_peers c))) (S (cd_term c))
                          (unconnected_c17e (cd_peers c) ++ arr) 0 1 0))); split; intros; try lia; try discriminate; auto.
Qed.

Lemma unconnected_in_c17e ps r : In r (unconnected_c17e ps) -> r = RErr.
Proof. unfold unconnected_c17e. rewrite in_map_iff. intros (x & E & _). now symmetry. Qed.

Lemma unconnected_no_yes_c17e ps : count_yes_c17e (unconnected_c17e ps) = 0.
Proof.
  unfold unconnected_c17e, count_yes_c17e. induction (filter (fun p => negb (snd p)) ps) as [|x l IH]; [reflexivity|].
  cbn [map filter is_yes_c17e]. exact IH.
Qed.

Lemma expect_majority_c17e nc : S nc < 2 * expect_c17e nc /\ 2 * (expect_c17e nc - 1) <= S nc.
Proof. unfold expect_c17e. rewrite <- (Nat.add_1_r nc). apply div2_majority. Qed.

(* safety, no hypothesis on the replies at all *)
Lemma leader_real_majority_c17e c arr :
  oc_leader (elect_c17e c arr) = Some (cd_self c) ->
  expect_c17e (length (cd_peers c)) <= 1 + count_yes_c17e arr /\
  S (length (cd_peers c)) < 2 * (1 + count_yes_c17e arr).
Proof.
  intros H. apply leader_iff_votes_c17e in H. rewrite tally_eq_c17e in H.
  pose proof (loop_votes_le_c17e (length (cd_peers c)) (expect_c17e (length (cd_peers c))) (S (cd_term c))
                (unconnected_c17e (cd_peers c) ++ arr) 0 1 0) as L.
  rewrite count_yes_app_c17e, unconnected_no_yes_c17e in L.
  pose proof (expect_majority_c17e (length (cd_peers c))). lia.
Qed.

(* exact condition *)
Lemma leader_iff_real_majority_c17e c arr :
  length (unconnected_c17e (cd_peers c) ++ arr) <= length (cd_peers c) ->
  (forall rt, In (RNo rt) arr -> rt <= S (cd_term c)) ->
  (oc_leader (elect_c17e c arr) = Some (cd_self c) <->
   expect_c17e (length (cd_peers c)) <= 1 + count_yes_c17e arr).
Proof.
  intros Hlen Hno. rewrite leader_iff_votes_c17e, tally_eq_c17e.
  rewrite loop_elected_iff_c17e.
  - rewrite count_yes_app_c17e, unconnected_no_yes_c17e. reflexivity.
  - intros rt H. apply in_app_or in H as [H|H]; [apply unconnected_in_c17e in H; discriminate|auto].
  - cbn [plus]. exact Hlen.
Qed.

(* the request side *)
Lemma requests_ok_c17e c arr p nm t :
  In (p, (nm, t)) (oc_requests (elect_c17e c arr)) ->
  nm = cd_self c /\ t = oc_term (elect_c17e c arr) /\ t = S (cd_term c) /\ In (p, true) (cd_peers c).
Proof.
  unfold elect_c17e. cbn [oc_requests oc_term]. rewrite in_map_iff. intros ([a b] & E & Hin).
  apply filter_In in Hin as [Hin Hb]. cbn [fst snd] in *. subst b. inversion E; subst. auto.
Qed.

Lemma requests_all_c17e c arr p :
  In (p, true) (cd_peers c) -> In (p, (cd_self c, S (cd_term c))) (oc_requests (elect_c17e c arr)).
Proof.
  intros H. unfold elect_c17e. cbn [oc_requests]. apply in_map_iff. exists (p, true). split; [reflexivity|].
  apply filter_In. auto.
Qed.

Lemma requests_receivers_c17e c arr :
  map fst (oc_requests (elect_c17e c arr)) = map fst (filter snd (cd_peers c)).
Proof. unfold elect_c17e. cbn [oc_requests]. rewrite map_map. reflexivity. Qed.

(* ------------------------------------------------------------------ *)
(* two candidates whose YES replies come from voters that vote once *)

Lemma filter_map_length_c17e {A B} (f : B -> bool) (g : A -> B) l :
  length (filter f (map g l)) = length (filter (fun x => f (g x)) l).
Proof. induction l as [|x l IH]; [reflexivity|]. cbn [map filter]. destruct (f (g x)); cbn [length]; lia. Qed.

Lemma yes_le_supporters_c17e nodes ballot c ord rep :
  view_ok_c17e nodes ballot c ord rep ->
  1 + count_yes_c17e (map rep ord) <= count (supports_c17e ballot (cd_self c)) nodes.
Proof.
  intros V.
  set (L := cd_self c :: filter (fun m => is_yes_c17e (rep m)) ord).
  assert (ND : NoDup L).
  { constructor.
    - intros Hin. apply filter_In in Hin as [Hin _]. apply (vo_peers _ _ _ _ _ V) in Hin. tauto.
    - apply NoDup_filter. exact (vo_nodup _ _ _ _ _ V). }
  assert (I : incl L (filter (supports_c17e ballot (cd_self c)) nodes)).
  { intros m [<-|Hm]; apply filter_In.
    - split; [exact (vo_in _ _ _ _ _ V)|]. unfold supports_c17e. rewrite (vo_self _ _ _ _ _ V). apply Nat.eqb_refl.
    - apply filter_In in Hm as [Hin Hy]. destruct (rep m) as [t| |] eqn:E; try discriminate.
      split; [apply (vo_peers _ _ _ _ _ V), Hin|]. unfold supports_c17e.
      rewrite (vo_yes _ _ _ _ _ V m t Hin E). apply Nat.eqb_refl. }
  pose proof (NoDup_incl_length ND I) as Len. unfold L in Len. cbn [length] in Len.
  unfold count, count_yes_c17e. rewrite filter_map_length_c17e. lia.
Qed.

Lemma no_two_leaders_c17e nodes ballot c1 c2 ord1 ord2 rep1 rep2 :
  view_ok_c17e nodes ballot c1 ord1 rep1 -> view_ok_c17e nodes ballot c2 ord2 rep2 ->
  oc_leader (elect_c17e c1 (map rep1 ord1)) = Some (cd_self c1) ->
  oc_leader (elect_c17e c2 (map rep2 ord2)) = Some (cd_self c2) ->
  cd_self c1 = cd_self c2.
Proof.
  intros V1 V2 L1 L2. destruct (Nat.eq_dec (cd_self c1) (cd_self c2)) as [|Ne]; [assumption|exfalso].
  apply leader_real_majority_c17e in L1 as [_ M1]. apply leader_real_majority_c17e in L2 as [_ M2].
  rewrite (vo_nc _ _ _ _ _ V1) in M1. rewrite (vo_nc _ _ _ _ _ V2) in M2.
  pose proof (yes_le_supporters_c17e _ _ _ _ _ V1) as S1. pose proof (yes_le_supporters_c17e _ _ _ _ _ V2) as S2.
  assert (D : count (supports_c17e ballot (cd_self c1)) nodes + count (supports_c17e ballot (cd_self c2)) nodes <= length nodes).
  { apply count_disjoint. intros x. unfold supports_c17e. destruct (ballot x); [|discriminate].
    rewrite !Nat.eqb_eq. congruence. }
  lia.
Qed.

Lemma view_el_ok_c17e cfg s T c ord rep :
  NoDup (cfg_nodes cfg) -> view_el_c17e cfg s T c ord rep -> view_ok_c17e (cfg_nodes cfg) (votes s T) c ord rep.
Proof.
  intros ND V. constructor.
  - exact (ve_in _ _ _ _ _ _ V).
  - rewrite <- (map_length fst), (ve_peers _ _ _ _ _ _ V). apply (peers_length cfg (cd_self c) ND (ve_in _ _ _ _ _ _ V)).
  - exact (ve_nodup _ _ _ _ _ _ V).
  - intros m H. apply (ve_ord _ _ _ _ _ _ V) in H. apply peers_In in H. exact H.
  - exact (ve_self _ _ _ _ _ _ V).
  - exact (ve_yes _ _ _ _ _ _ V).
Qed.

(* the candidate of Props/PropC17.v (c17_elect_split_vote): 5 nodes, candidate 0 of
   term 1; node 1 says YES, nodes 2, 3, 4 (which voted for somebody else in term 1) say NO *)
Definition demo_cand_c17e : cand_c17e := mkCandC17e 0 0 None [(1, true); (2, true); (3, true); (4, true)].
