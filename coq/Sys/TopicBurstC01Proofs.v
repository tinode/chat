(* C01, several requests in flight: lemmas about Sys/TopicBurstC01.v. *)
From Coq Require Import ZArith NArith List Bool Lia.
From Tinode Require Import Base.Util Pure.Acs Sys.Topic Sys.TopicTac Sys.TopicFrame Sys.TopicNum Sys.TopicOut
  Sys.TopicNumThm Sys.TopicBurstC01.
Import ListNotations.
Open Scope Z_scope.

(* ------------------------------------------------------------------ *)
(* the highest number the current registered state knows to be issued: lastID while loaded, the
   persisted mark otherwise *)
Definition hwm (x : state) : Z :=
  match ca x with Some c => c_lastid c | None => t_seqid (st x) end.

(* a number whose Save succeeded is never passed to Save again *)
Definition issue_ok (l : list (Z * bool)) : Prop :=
  forall l1 n b l2, l = l1 ++ (n, b) :: l2 -> ~ In (n, true) l1.

Lemma issue_ok_nil : issue_ok [].
Proof. intros l1 n b l2 H. destruct l1; discriminate. Qed.

Lemma issue_ok_snoc l n b : issue_ok l -> ~ In (n, true) l -> issue_ok (l ++ [(n, b)]).
Proof.
  intros OK NI l1 m b' l2 E.
  destruct l2 as [|e l2].
  - apply app_inj_tail in E. destruct E as [E1 E2]. inv E2. exact NI.
  - destruct (@exists_last _ (e :: l2)) as [l2' [a E2]]; [discriminate|]. rewrite E2 in E.
    assert (l = l1 ++ (m, b') :: l2') as E'.
    { change (l1 ++ (m, b') :: l2' ++ [a]) with (l1 ++ ((m, b') :: l2') ++ [a]) in E.
      rewrite app_assoc in E. apply app_inj_tail in E. destruct E as [E _]. exact E. }
    eapply OK. exact E'.
Qed.

Section RaceProofs.
Variable dr : Z -> list (Z * Z) -> option (list (Z * Z)).
Variable nr : list (Z * Z) -> list (Z * Z).
Variable sm : sessmap.

Definition rinv (r : rstate) : Prop :=
  inv_num (r_x r) /\
  Forall (fun z => z_deleted z = true /\ z_inflight z = None) (r_zomb r) /\
  (forall n, In (n, true) (r_issued r) -> n <= hwm (r_x r)) /\
  issue_ok (r_issued r).

(* a request that finds the topic unloaded leaves it unloaded, or loads it with lastID = the mark *)
Lemma step_from_unloaded f s n0 o :
  let r := step dr nr sm f (mkState s None n0) o in
  match ca (fst r) with
  | Some c' => c_lastid c' = t_seqid s
  | None => True
  end.
Proof.
  cbn zeta. destruct o; unfold step; cbn [st ca negb]; try exact I.
  - destruct (try_load f s 0) as [n1 [c|code]] eqn:TL; cbn [fst ca]; [|exact I].
    apply try_load_cases in TL. subst c.
    destruct (sub_reply_frame f s (load s) n1 sid (sess_uid sm sid) want bkg) as [_ [E _]]. exact E.
  - repeat match goal with |- context [if ?b then _ else _] => destruct b end; exact I.
Qed.

Lemma hwm_step f x o : inv_num x -> hwm x <= hwm (fst (step dr nr sm f x o)).
Proof.
  intros I. pose proof (step_inv_num dr nr sm f x o I) as I1.
  pose proof (step_shown dr nr sm f x o I) as [_ M].
  destruct x as [s [c|] n0]; unfold hwm at 1; cbn [ca st] in *.
  - assert (c_lastid c <= t_seqid s) as B by (destruct I as [_ [_ [_ [B _]]]]; cbn [st ca] in B; lia).
    destruct (match o with OPub sid _ _ => attached c sid | _ => false end) eqn:P.
    + destruct o; try discriminate. rewrite step_pub by exact P. cbn zeta. unfold hwm. cbn [fst ca].
      destruct (publish_cases f s c 0 sid (sess_uid sm sid) content noecho) as [[E _]|[E _]]; rewrite E; lia.
    + destruct (step_nonpub dr nr sm f (mkState s (Some c) n0) o c eq_refl) as [_ L].
      { intros sid content noecho ->. exact P. }
      unfold hwm. destruct (ca (fst (step dr nr sm f (mkState s (Some c) n0) o))) as [c'|] eqn:C'.
      * rewrite (L c' eq_refl). lia.
      * lia.
  - pose proof (step_from_unloaded f s n0 o) as L. cbn zeta in L. unfold hwm.
    destruct (ca (fst (step dr nr sm f (mkState s None n0) o))) as [c'|]; [rewrite L; lia|exact M].
Qed.

(* step_f differs from step only after a crash, which keeps the mark above lastID *)
Lemma hwm_after_crash x fo : inv_num x ->
  hwm (fst (step dr nr sm (fst fo) x (snd fo))) <= hwm (fst (step_f dr nr sm x fo)).
Proof.
  intros I. pose proof (step_inv_num dr nr sm (fst fo) x (snd fo) I) as I1.
  unfold step_f. destruct (step dr nr sm (fst fo) x (snd fo)) as [x1 o1]. cbn [fst] in *.
  destruct (fst fo); cbn [fst]; try lia.
  destruct x1 as [s1 [c1|] n1]; unfold hwm; cbn [ca st] in *; [|lia].
  destruct I1 as [_ [_ [_ [B _]]]]. cbn [st ca] in B. lia.
Qed.

Lemma hwm_step_f x fo : inv_num x -> hwm x <= hwm (fst (step_f dr nr sm x fo)).
Proof. intros I. pose proof (hwm_step (fst fo) x (snd fo) I). pose proof (hwm_after_crash x fo I). lia. Qed.

(* the entries a request adds to the issue log: at most one, lastID+1, and if its Save
   succeeded lastID has advanced to it *)
Lemma req_issue_spec f x o : inv_num x ->
  req_issue sm x f o = [] \/
  exists b, req_issue sm x f o = [(hwm x + 1, b)] /\ ca x <> None /\
            (b = true -> hwm x + 1 <= hwm (fst (step dr nr sm f x o))).
Proof.
  intros I. unfold req_issue. destruct o; auto. destruct x as [s [c|] n0]; cbn [ca st]; auto.
  destruct (attached c sid) eqn:AT; auto. unfold pub_issue.
  destruct (is_writer (user_mode c (sess_uid sm sid))); auto.
  right. eexists. split; [reflexivity|]. split; [discriminate|].
  rewrite step_pub by exact AT. cbn zeta. unfold hwm. cbn [fst ca].
  intros Hb. apply negb_true_iff in Hb. apply Z.eqb_neq in Hb.
  destruct (publish_cases f s c 0 sid (sess_uid sm sid) content noecho) as [[E _]|[E _]]; rewrite E in *; lia.
Qed.

Lemma Forall_zdrop {P : zinst -> Prop} i zs : Forall P zs -> Forall P (zdrop i zs).
Proof.
  revert i. induction zs as [|y zs IH]; intros i F; destruct i; cbn [zdrop]; try constructor;
    inversion F; subst; auto.
Qed.

(* with the instance marked deleted by topicUnreg: a queued {pub} is refused, nothing changes *)
Lemma zpub_deleted r f i z sid content noecho :
  z_deleted z = true -> zpub sm r f i z sid content noecho = (r, [(sid, Ctrl 503 [])]).
Proof. intros D. unfold zpub. rewrite D. reflexivity. Qed.

Lemma zomb_get r i z : Forall (fun z => z_deleted z = true /\ z_inflight z = None) (r_zomb r) ->
  nth_error (r_zomb r) i = Some z -> z_deleted z = true /\ z_inflight z = None.
Proof. intros Z NE. rewrite Forall_forall in Z. apply Z. eapply nth_error_In. exact NE. Qed.

Lemma rstep_inv r a r' o : rinv r -> mid_free a = true -> rstep dr nr sm true r a = Some (r', o) -> rinv r'.
Proof.
  intros R MF H. pose proof R as [I [Z [B K]]]. destruct a; cbn [rstep] in H; try discriminate MF.
  - (* RReq *)
    destruct (zfind (op_sid o0) 0 (r_zomb r)) as [i|] eqn:ZF.
    + destruct (nth_error (r_zomb r) i) as [z|] eqn:NE; destruct o0; try discriminate;
        try (inv H; exact R).
      destruct (zomb_get r i z Z NE) as [ZD ZI]. rewrite ZI in H.
      rewrite zpub_deleted in H by exact ZD.
      inv H. exact R.
    + pose proof (step_f_inv_num dr nr sm (r_x r) (f, o0) I) as I1.
      pose proof (hwm_step_f (r_x r) (f, o0) I) as M.
      destruct (step_f dr nr sm (r_x r) (f, o0)) as [x1 o1] eqn:SF. cbn [fst] in *.
      inv H. unfold rinv. cbn [r_x r_zomb r_issued].
      split; [exact I1|]. split; [destruct (is_crash f || is_restart o0); [constructor|exact Z]|].
      destruct (req_issue_spec f (r_x r) o0 I) as [E|[b [E [NN Hb]]]]; rewrite E.
      * rewrite app_nil_r. split; [|exact K]. intros n Hn. specialize (B n Hn). lia.
      * assert (b = true -> hwm (r_x r) + 1 <= hwm x1) as Hb'.
        { intros ->. specialize (Hb eq_refl). pose proof (hwm_after_crash (r_x r) (f, o0) I) as AC.
          rewrite SF in AC. cbn [fst snd] in AC. lia. }
        split.
        -- intros n Hn. apply in_app_or in Hn. destruct Hn as [Hn|[Hn|[]]].
           ++ specialize (B n Hn). lia.
           ++ inv Hn. apply Hb'. reflexivity.
        -- apply issue_ok_snoc; [exact K|]. intros Hn. specialize (B _ Hn). lia.
  - (* RTimeout *)
    destruct (ca (r_x r)) as [c|]; [destruct (c_sess c)|]; inv H; exact R.
  - (* RHubUnreg *)
    destruct (r_pend r); [inv H; exact R|].
    destruct (r_x r) as [s [c|] n0] eqn:X; cbn [ca st] in H; inv H; unfold rinv; cbn [r_x r_zomb r_issued].
    + split; [apply (inv_num_unload s c n0 0); exact I|].
      split; [apply Forall_app; split; [exact Z|constructor; [split; reflexivity|constructor]]|].
      split; [|exact K]. intros m Hm. specialize (B m Hm). unfold hwm in *. cbn [ca st] in *.
      destruct I as [_ [_ [_ [B2 _]]]]. cbn [st ca] in B2. lia.
    + split; [exact I|]. split; [exact Z|]. split; [exact B|exact K].
  - (* RZPub *)
    destruct (nth_error (r_zomb r) i) as [z|] eqn:NE; [|discriminate].
    destruct (zomb_get r i z Z NE) as [ZD ZI]. rewrite ZI in H.
    destruct (attached (z_ca z) sid); [|discriminate].
    rewrite zpub_deleted in H by exact ZD.
    inv H. exact R.
  - (* RZExit *)
    destruct (nth_error (r_zomb r) i) as [z|] eqn:NE; [|discriminate].
    destruct (zomb_get r i z Z NE) as [ZD ZI]. rewrite ZI in H.
    inv H. unfold rinv. cbn [r_x r_zomb r_issued].
    split; [exact I|]. split; [apply Forall_zdrop; exact Z|]. split; [exact B|exact K].
  - (* RZFinish: no instance was unregistered inside a handler *)
    destruct (nth_error (r_zomb r) i) as [z|] eqn:NE; [|discriminate].
    destruct (zomb_get r i z Z NE) as [ZD ZI]. rewrite ZI in H. discriminate.
Qed.

Lemma rrun_inv l : forall r r' os, rinv r -> forallb mid_free l = true ->
  rrun dr nr sm true r l = Some (r', os) -> rinv r'.
Proof.
  induction l as [|a l IH]; intros r r' os I MF H; cbn [rrun] in H.
  - inv H. exact I.
  - cbn [forallb] in MF. apply andb_true_iff in MF. destruct MF as [MF1 MF2].
    destruct (rstep dr nr sm true r a) as [[r1 o1]|] eqn:S; [|discriminate].
    destruct (rrun dr nr sm true r1 l) as [[r2 os2]|] eqn:R; [|discriminate].
    inv H. eapply IH; [|exact MF2|exact R]. eapply rstep_inv; eauto.
Qed.

Lemma rinv_init s : fresh s -> rinv (mkR (mkState s None 0) 0 [] []).
Proof.
  intros F. unfold rinv. cbn [r_x r_zomb r_issued].
  split; [apply fresh_inv; exact F|]. split; [constructor|]. split; [intros n []|apply issue_ok_nil].
Qed.

(* an unregistered instance refuses every queued publish: one 503 to the publisher, nothing else *)
Lemma zombie_refuses r i z sid content noecho :
  rinv r -> nth_error (r_zomb r) i = Some z -> attached (z_ca z) sid = true ->
  rstep dr nr sm true r (RZPub i sid content noecho) = Some (r, [(sid, Ctrl 503 [])]).
Proof.
  intros [_ [Z _]] NE AT. cbn [rstep]. rewrite NE. destruct (zomb_get r i z Z NE) as [ZD ZI].
  rewrite ZI, AT. rewrite zpub_deleted by exact ZD. reflexivity.
Qed.

(* ------------------------------------------------------------------ *)
(* write loops *)
Lemma for_sid_app sid a b : for_sid sid (a ++ b) = for_sid sid a ++ for_sid sid b.
Proof. unfold for_sid. rewrite filter_app, map_app. reflexivity. Qed.

Lemma take_first_spec sid q : forall fr q', take_first sid q = Some (fr, q') ->
  for_sid sid q = fr :: for_sid sid q' /\ forall s, s <> sid -> for_sid s q = for_sid s q'.
Proof.
  induction q as [|[s0 f0] q IH]; intros fr q' H; cbn [take_first] in H; [discriminate|].
  destruct (N.eqb s0 sid) eqn:E.
  - inv H. apply N.eqb_eq in E. subst s0. split.
    + unfold for_sid. cbn [filter fst]. rewrite N.eqb_refl. reflexivity.
    + intros s Hs. unfold for_sid. cbn [filter fst]. destruct (N.eqb sid s) eqn:E2; [|reflexivity].
      apply N.eqb_eq in E2. congruence.
  - destruct (take_first sid q) as [[fr' q'']|]; [|discriminate]. inv H.
    destruct (IH fr q'' eq_refl) as [A B]. split.
    + unfold for_sid in *. cbn [filter fst]. rewrite E. exact A.
    + intros s Hs. specialize (B s Hs). unfold for_sid in *. cbn [filter fst].
      destruct (N.eqb s0 s); cbn [map]; [f_equal|]; exact B.
Qed.

(* ------------------------------------------------------------------ *)
(* bursts: k publishes handled back to back by one instance.  [burst_spec last ms ps outs last' ms']:
   the i-th ACCEPTED publish is acknowledged with last+i, every copy broadcast (and the push
   receipt) carries that number with the publisher and the content of that publish, and the row
   (last+i, publisher, content) is appended to the stored messages; a refused publish gets one
   error frame and changes nothing. *)
Fixpoint burst_spec (last : Z) (ms : list msgrow) (ps : list (N * N * bool)) (outs : list out)
                    (last' : Z) (ms' : list msgrow) : Prop :=
  match ps, outs with
  | [], [] => last' = last /\ ms' = ms
  | p :: ps', o :: outs' =>
    let sid := fst (fst p) in let content := snd (fst p) in let u := sess_uid sm sid in
    ((exists code, o = [(sid, Ctrl code [])] /\ 400 <= code) /\ burst_spec last ms ps' outs' last' ms')
    \/
    (exists rest, o = (sid, Ctrl 202 [(P_seq, last + 1)]) :: rest /\
       (forall e, In e rest -> snd e = Data (last + 1) u content \/ exists rc, snd e = Push (last + 1) u rc) /\
       burst_spec (last + 1) (ms ++ [mkMsg (last + 1) u content 0]) ps' outs' last' ms')
  | _, _ => False
  end.

End RaceProofs.

(* the topicUnreg that does not mark the instance (mark = false) lets a number be passed to Save
   again after its Save succeeded: witness *)
Definition race_witness_store : store :=
  ad_sub_create (mkStore true 0 0 0 47 0 [] [] [] [(1%N, 47%N)]) 1%N 255%N 255%N.
Definition race_witness : list rop :=
  [RReq NoFault (OSub 1 [] false); RReq NoFault (OLeave 1 false); RTimeout;
   RReq NoFault (OSub 1 [] false);                (* attaches to the instance whose timer has fired *)
   RHubUnreg;                                     (* the hub unregisters it *)
   RReq NoFault (OSub 2 [] false);                (* a second instance is loaded from the store *)
   RZPub 0 1 7 false;                             (* the old instance handles a {pub} queued before its exit message *)
   RReq NoFault (OPub 2 8 false)].                (* the new instance handles a {pub} *)

(* an unregistration that lands inside the publish handler of the registered instance: the
   second instance and the first one both pass lastID+1 to Save, in either order *)
Definition race_witness_mid (late_first : bool) : list rop :=
  [RReq NoFault (OSub 1 [] false); RReq NoFault (OLeave 1 false); RTimeout;
   RReq NoFault (OSub 1 [] false);
   RHubUnregMid 1 7 false;                        (* unregistered between its isInactive check and its Save *)
   RReq NoFault (OSub 2 [] false)]                (* a second instance is loaded: lastID 0 *)
  ++ (if late_first then [RZFinish 0; RReq NoFault (OPub 2 8 false)]
      else [RReq NoFault (OPub 2 8 false); RZFinish 0]).

Lemma race_witness_mid_issued late_first :
  option_map (fun r => r_issued (fst r))
    (rrun (fun _ _ => None) (fun x => x) [(1%N, 1%N); (2%N, 1%N)] true
          (mkR (mkState race_witness_store None 0) 0 [] []) (race_witness_mid late_first))
  = Some [(1, true); (1, false)].
Proof. destruct late_first; vm_compute; reflexivity. Qed.

Lemma race_witness_issued mark :
  option_map (fun r => r_issued (fst r))
    (rrun (fun _ _ => None) (fun x => x) [(1%N, 1%N); (2%N, 1%N)] mark
          (mkR (mkState race_witness_store None 0) 0 [] []) race_witness)
  = Some (if mark then [(1, true)] else [(1, true); (1, false)]).
Proof. destruct mark; vm_compute; reflexivity. Qed.
