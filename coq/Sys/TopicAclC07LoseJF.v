(* C07 proofs: ONE request of any kind, any state, any fault: a user whose effective mode
   (want & given of the cache entry) had J before the request and lacks it afterwards (or whose
   entry is gone) has no attached session afterwards, of any kind. *)
From Coq Require Import ZArith NArith List Bool Lia.
From Tinode Require Import Base.Util Pure.Acs Sys.Topic Sys.TopicTac Sys.TopicFrame Sys.TopicMarks Sys.TopicOwner Sys.TopicAclC07
  Sys.TopicAclC07Proofs Sys.TopicAclC07Inv Sys.TopicAclC07Join Sys.TopicAclC07BanF.
Import ListNotations.
Open Scope Z_scope.

Definition effj_c07f (c : cache) (v : N) : bool :=
  match cwant c v, cgiven c v with Some w, Some g => is_joiner (N.land w g) | _, _ => false end.
Definition losej_c07f (c c' : cache) : Prop :=
  forall v, effj_c07f c v = true -> effj_c07f c' v = false -> no_sess c' v.

Lemma losej_refl_c07f c : losej_c07f c c.
Proof. intros v A B. congruence. Qed.
Lemma losej_eq_c07f c c' : (forall v, effj_c07f c' v = effj_c07f c v) -> losej_c07f c c'.
Proof. intros H v A B. rewrite H in B. congruence. Qed.
Lemma losej_shrink_c07f c c' : cacl_shrink c c' -> losej_c07f c c'.
Proof.
  intros [_ H] v A B. destruct (H v) as [[G W]|[_ [_ NS]]]; [|exact NS].
  unfold effj_c07f in *. rewrite G, W in B. congruence.
Qed.
Lemma is_joiner_land2_c07f a b : is_joiner (N.land a b) = is_joiner a && is_joiner b.
Proof. rewrite !is_joiner_bit, N.land_spec. reflexivity. Qed.

Lemma effj_aset_other_c07f c u p v : v <> u -> effj_c07f (c_set_users (aset u p) c) v = effj_c07f c v.
Proof.
  intros NE. apply N.eqb_neq in NE. unfold effj_c07f, cwant, cgiven. cbn [c_users c_set_users].
  rewrite alookup_aset, NE. reflexivity.
Qed.
Lemma effj_evict_c07f c u k c' o v : evict_user c u false k = (c', o) -> effj_c07f c' v = effj_c07f c v.
Proof.
  intros EV. unfold effj_c07f. rewrite (evict_cgiven _ _ _ _ _ _ v EV), (evict_cwant _ _ _ _ _ _ v EV), andb_false_r. reflexivity.
Qed.
Lemma effj_ostrip_c07f c u v :
  effj_c07f (c_set_owner u (c_set_users (aset (c_owner c)
     (p_set_modes (N.ldiff (p_want (get_pud c (c_owner c))) mO) (N.ldiff (p_given (get_pud c (c_owner c))) mO) (get_pud c (c_owner c)))) c)) v
  = effj_c07f c v.
Proof.
  unfold effj_c07f, cwant, cgiven. cbn [c_users c_set_users c_set_owner]. rewrite alookup_aset.
  destruct (N.eqb v (c_owner c)) eqn:E; [|reflexivity]. apply N.eqb_eq in E. subst v. cbn.
  unfold get_pud. destruct (alookup (c_owner c) (c_users c)) as [p|]; cbn.
  - rewrite !is_joiner_land2_c07f, !is_joiner_strip. reflexivity.
  - reflexivity.
Qed.

(* thisUserSub *)
Lemma tus_finish_nosess_c07f u w1 g1 ow og nb s3 c3 n3 :
  is_joiner w1 = false -> no_sess (h_ca (fst (tus_finish u w1 g1 ow og nb s3 c3 n3))) u.
Proof.
  intros EW. unfold tus_finish. rewrite EW. cbn [negb].
  destruct (evict_user _ u false 0) as [c5 o5] eqn:EV. cbn [fst h_ca]. apply (evict_all_c07f _ _ _ _ _ _ EV).
Qed.
Lemma tus_finish_losej_c07f c u w1 g1 ow og nb s3 c3 n3 :
  (forall v, effj_c07f c3 v = effj_c07f c v) -> (effj_c07f c u = true -> is_joiner g1 = true) ->
  losej_c07f c (h_ca (fst (tus_finish u w1 g1 ow og nb s3 c3 n3))).
Proof.
  intros E3 JG v A B. destruct (tus_finish_res u w1 g1 ow og nb s3 c3 n3) as [_ [RG [RW _]]]. cbv zeta in RG, RW.
  unfold effj_c07f in B. rewrite RG, RW in B. destruct (N.eq_dec v u) as [->|NE].
  - rewrite N.eqb_refl in B. rewrite is_joiner_land2_c07f, (JG A), andb_true_r in B.
    apply tus_finish_nosess_c07f. exact B.
  - apply N.eqb_neq in NE. rewrite NE in B. change (effj_c07f c3 v = false) in B. rewrite E3 in B. congruence.
Qed.

Lemma tus_losej_c07f f s c n u want nb : losej_c07f c (h_ca (fst (tus f s c n u want nb))).
Proof.
  unfold tus. destruct (tus_mw want) as [mw okw]. destruct (negb okw); [apply losej_refl_c07f|].
  destruct (alookup u (c_users c)) as [p0|] eqn:Eu.
  - unfold tus_exist. destruct (tus_chk _ _ _ _ _) as [[[mw1 g1] oc]|] eqn:EC; [|apply losej_refl_c07f].
    apply tus_chk_spec in EC. destruct EC as [-> [HGS _]].
    assert (is_joiner (p_given p0) = true -> is_joiner g1 = true) as JG0.
    { destruct HGS as [->|[[_ [_ ->]]|[_ [_ [_ ->]]]]]; auto; apply is_joiner_lor. }
    assert (effj_c07f c u = true -> is_joiner g1 = true) as JG.
    { intros A. apply JG0. unfold effj_c07f, cwant, cgiven in A. rewrite Eu in A. cbn in A.
      rewrite is_joiner_land2_c07f in A. apply andb_prop in A. apply A. }
    destruct (if negb _ then call f n else (true, n)) as [ok1 n1]. destruct (negb ok1); [apply losej_refl_c07f|].
    destruct oc.
    + destruct (call f n1) as [ok2 n2]. destruct (negb ok2); [apply losej_refl_c07f|].
      destruct (call f n2) as [ok3 n3]. destruct (negb ok3); [apply losej_refl_c07f|].
      apply tus_finish_losej_c07f; [|exact JG]. intros v. apply effj_ostrip_c07f.
    + apply tus_finish_losej_c07f; [reflexivity|exact JG].
  - assert (effj_c07f c u = false) as NU by (unfold effj_c07f, cwant; rewrite Eu; reflexivity).
    unfold tus_new. destruct (max_subs <=? _); [apply losej_refl_c07f|].
    destruct (call f n) as [ok1 n1]. destruct (negb ok1); [apply losej_refl_c07f|].
    destruct (negb (is_joiner _)); [apply losej_refl_c07f|].
    destruct (if (_ : bool) then call f n1 else (true, n1)) as [ok2 n2]. destruct (negb ok2); [apply losej_refl_c07f|].
    destruct (negb (is_joiner _)).
    + destruct (evict_user _ u false 0) as [c3 o3] eqn:EV. cbn [fst h_ca].
      intros v A B. destruct (N.eq_dec v u) as [->|NE]; [congruence|].
      rewrite (effj_evict_c07f _ _ _ _ _ v EV), effj_aset_other_c07f in B by exact NE. congruence.
    + cbn [fst h_ca]. intros v A B. destruct (N.eq_dec v u) as [->|NE]; [congruence|].
      rewrite effj_aset_other_c07f in B by exact NE. congruence.
Qed.

(* anotherUserSub *)
Lemma aus_losej_c07f f s c n u t mode : losej_c07f c (h_ca (fst (aus f s c n u t mode))).
Proof.
  pose proof (losej_refl_c07f c) as JR.
  unfold aus. destruct (alookup u (c_users c)) as [hp|]; [|exact JR].
  destruct (negb (is_sharer _)); [exact JR|]. destruct (tus_mw mode) as [mg okg]. destruct (negb okg); [exact JR|].
  destruct (_ && _); [exact JR|]. destruct (_ && _); [exact JR|].
  destruct (alookup t (c_users c)) as [pt|] eqn:Et.
  - unfold aus_exist. destruct (_ || _).
    + destruct (negb (is_joiner (p_given pt))) eqn:EJ; [|exact JR].
      destruct (evict_user c t false 0) as [c4 o4] eqn:EV. cbn [fst h_ca].
      apply losej_eq_c07f. intros v. apply (effj_evict_c07f _ _ _ _ _ v EV).
    + destruct (_ && _); [exact JR|]. destruct (call f n) as [ok1 n1]. destruct (negb ok1); [exact JR|].
      destruct (negb (is_joiner mg)) eqn:EJ.
      * destruct (evict_user _ t false 0) as [c4 o4] eqn:EV. cbn [fst h_ca].
        intros v A B. destruct (N.eq_dec v t) as [->|NE]; [apply (evict_all_c07f _ _ _ _ _ _ EV)|].
        rewrite (effj_evict_c07f _ _ _ _ _ v EV), effj_aset_other_c07f in B by exact NE. congruence.
      * cbn [fst h_ca]. apply negb_false_iff in EJ. intros v A B. destruct (N.eq_dec v t) as [->|NE].
        -- exfalso. unfold effj_c07f, cwant, cgiven in A, B. rewrite Et in A. cbn in A.
           cbn [c_users c_set_users] in B. rewrite alookup_aset, N.eqb_refl in B. cbn in B.
           rewrite is_joiner_land2_c07f in A, B. apply andb_prop in A. destruct A as [A1 _].
           rewrite A1, EJ in B. discriminate.
        -- rewrite effj_aset_other_c07f in B by exact NE. congruence.
  - assert (effj_c07f c t = false) as NT by (unfold effj_c07f, cwant; rewrite Et; reflexivity).
    unfold aus_new. destruct (max_subs <=? _); [exact JR|].
    destruct (call f n) as [ok1 n1]. destruct (negb ok1); [exact JR|].
    match goal with |- context [match ?w with (_, _) => _ end] => destruct w as [n2 [[code|wantm]|]] end; try exact JR.
    destruct (negb (is_joiner wantm)); [exact JR|].
    destruct (call f n2) as [ok3 n3]. destruct (negb ok3); [exact JR|].
    destruct (negb (is_joiner _)) eqn:EJ.
    + destruct (evict_user _ t false 0) as [c4 o4] eqn:EV. cbn [fst h_ca].
      intros v A B. destruct (N.eq_dec v t) as [->|NE]; [congruence|].
      rewrite (effj_evict_c07f _ _ _ _ _ v EV), effj_aset_other_c07f in B by exact NE. congruence.
    + cbn [fst h_ca]. intros v A B. destruct (N.eq_dec v t) as [->|NE]; [congruence|].
      rewrite effj_aset_other_c07f in B by exact NE. congruence.
Qed.

(* ---------- {sub}: what the reply of thisUserSub says about the cache ---------- *)
Lemma tus_finish_ch_c07f u w1 g1 ow og nb s3 c3 n3 ch :
  snd (tus_finish u w1 g1 ow og nb s3 c3 n3) = SubOk ch ->
  match ch with Some (w, g) => w = w1 /\ g = g1 | None => w1 = ow /\ g1 = og end.
Proof.
  assert (forall ch0, ch0 = (if nb || negb ((w1 =? ow)%N && (g1 =? og)%N) then Some (w1, g1) else None) ->
          match ch0 with Some (w, g) => w = w1 /\ g = g1 | None => w1 = ow /\ g1 = og end) as K.
  { intros ch0 ->. destruct (nb || negb ((w1 =? ow)%N && (g1 =? og)%N)) eqn:EC; [split; reflexivity|].
    apply orb_false_iff in EC. destruct EC as [_ EC]. apply negb_false_iff in EC. apply andb_prop in EC.
    destruct EC as [E1 E2]. apply N.eqb_eq in E1, E2. auto. }
  unfold tus_finish. destruct (negb (is_joiner w1)).
  - destruct (evict_user _ u false 0) as [c5 o5]. cbn [snd]. intros H. inv H. apply K. reflexivity.
  - destruct (negb (is_joiner g1)); cbn [snd]; [discriminate|]. intros H. inv H. apply K. reflexivity.
Qed.

Lemma tus_ch_c07f f s c n u want nb ch :
  snd (tus f s c n u want nb) = SubOk ch ->
  match ch with
  | Some (w, g) => cwant (h_ca (fst (tus f s c n u want nb))) u = Some w /\ cgiven (h_ca (fst (tus f s c n u want nb))) u = Some g
  | None => effj_c07f (h_ca (fst (tus f s c n u want nb))) u = effj_c07f c u
  end.
Proof.
  unfold tus. destruct (tus_mw want) as [mw okw]. destruct (negb okw); [discriminate|].
  destruct (alookup u (c_users c)) as [p0|] eqn:Eu.
  - unfold tus_exist. destruct (tus_chk _ _ _ _ _) as [[[mw1 g1] oc]|]; [|discriminate].
    destruct (if negb _ then call f n else (true, n)) as [ok1 n1]. destruct (negb ok1); [discriminate|].
    set (w1 := tus_w1 c u mw1 g1 (p_want p0)).
    assert (forall s3 c3 n3, snd (tus_finish u w1 g1 (p_want p0) (p_given p0) nb s3 c3 n3) = SubOk ch ->
      match ch with
      | Some (w, g) => cwant (h_ca (fst (tus_finish u w1 g1 (p_want p0) (p_given p0) nb s3 c3 n3))) u = Some w /\
                       cgiven (h_ca (fst (tus_finish u w1 g1 (p_want p0) (p_given p0) nb s3 c3 n3))) u = Some g
      | None => effj_c07f (h_ca (fst (tus_finish u w1 g1 (p_want p0) (p_given p0) nb s3 c3 n3))) u = effj_c07f c u
      end) as FIN.
    { intros s3 c3 n3 HS. pose proof (tus_finish_ch_c07f _ _ _ _ _ _ _ _ _ _ HS) as CH.
      destruct (tus_finish_res u w1 g1 (p_want p0) (p_given p0) nb s3 c3 n3) as [_ [RG [RW _]]]. cbv zeta in RG, RW.
      specialize (RG u). specialize (RW u). rewrite N.eqb_refl in RG, RW.
      destruct ch as [[w g]|].
      - destruct CH as [-> ->]. split; assumption.
      - destruct CH as [E1 E2]. unfold effj_c07f. rewrite RG, RW. unfold cwant, cgiven. rewrite Eu. cbn. rewrite E1, E2. reflexivity. }
    destruct oc; [|apply FIN].
    destruct (call f n1) as [ok2 n2]. destruct (negb ok2); [discriminate|].
    destruct (call f n2) as [ok3 n3]. destruct (negb ok3); [discriminate|]. apply FIN.
  - assert (effj_c07f c u = false) as NU by (unfold effj_c07f, cwant; rewrite Eu; reflexivity).
    unfold tus_new. destruct (max_subs <=? _); [discriminate|].
    destruct (call f n) as [ok1 n1]. destruct (negb ok1); [discriminate|].
    destruct (negb (is_joiner _)); [discriminate|].
    destruct (if (_ : bool) then call f n1 else (true, n1)) as [ok2 n2]. destruct (negb ok2); [discriminate|].
    match goal with |- context [mkPud ?wm ?gv 0 0 0 0] => set (wantm := wm); set (given := gv) end.
    assert (forall c1, cwant c1 u = Some wantm -> cgiven c1 u = Some given ->
      forall ch0, ch0 = (if nb || negb ((wantm =? 0)%N && (given =? 0)%N) then Some (wantm, given) else None) ->
      match ch0 with Some (w, g) => cwant c1 u = Some w /\ cgiven c1 u = Some g | None => effj_c07f c1 u = effj_c07f c u end) as K.
    { intros c1 W G ch0 ->. destruct (nb || negb ((wantm =? 0)%N && (given =? 0)%N)) eqn:EC; [split; assumption|].
      apply orb_false_iff in EC. destruct EC as [_ EC]. apply negb_false_iff in EC. apply andb_prop in EC.
      destruct EC as [E1 E2]. apply N.eqb_eq in E1, E2. unfold effj_c07f at 1. rewrite W, G, E1, E2, NU. reflexivity. }
    destruct (negb (is_joiner wantm)).
    + destruct (evict_user _ u false 0) as [c3 o3] eqn:EV. cbn [fst snd h_ca]. intros HS. inv HS. apply K; [| |reflexivity].
      * rewrite (evict_cwant _ _ _ _ _ _ u EV), andb_false_r. rewrite cw_aset, N.eqb_refl. reflexivity.
      * rewrite (evict_cgiven _ _ _ _ _ _ u EV), andb_false_r. rewrite cg_aset, N.eqb_refl. reflexivity.
    + cbn [fst snd h_ca]. intros HS. inv HS. apply K; [| |reflexivity].
      * rewrite cw_aset, N.eqb_refl. reflexivity.
      * rewrite cg_aset, N.eqb_refl. reflexivity.
Qed.

(* the reply path of {sub}: thisUserSub, then the requester's session is attached when want & given has J *)
Lemma sub_reply_losej_c07f f s c n sid u want bkg : losej_c07f c (h_ca (sub_reply f s c n sid u want bkg)).
Proof.
  destruct (sub_reply_res f s c n sid u want bkg) as [_ [EC [_ ES]]]. cbv zeta in EC, ES.
  set (nb := match alookup u (c_users c) with Some _ => false | None => true end) in *.
  pose proof (tus_losej_c07f f s c n u want nb) as L. pose proof (tus_ch_c07f f s c n u want nb) as CH.
  intros v A B. unfold effj_c07f in B. rewrite (proj1 (EC v)), (proj2 (EC v)) in B. fold (effj_c07f (h_ca (fst (tus f s c n u want nb))) v) in B.
  pose proof (L v A B) as NS. destruct ES as [ES|[ch [ER [EJ ES]]]]; intros sid0 b HI; rewrite ES in HI; [exact (NS sid0 b HI)|].
  apply in_aset in HI. destruct HI as [HI|HI]; [|exact (NS sid0 b HI)]. inv HI.
  (* the requester has joined: his effective mode has J, or is what it was *)
  specialize (CH ch ER). destruct ch as [[w g]|].
  - destruct CH as [W G]. unfold effj_c07f in B. rewrite W, G, N.land_comm in B. congruence.
  - congruence.
Qed.

(* ---------- one request ---------- *)
Section LoseJ.
Variable dr : Z -> list (Z * Z) -> option (list (Z * Z)).
Variable nr : list (Z * Z) -> list (Z * Z).
Variable sm : sessmap.

Lemma step_losej_c07f f x o c :
  inv_sm x -> ca x = Some c ->
  forall c', ca (fst (step dr nr sm f x o)) = Some c' -> losej_c07f c c'.
Proof.
  intros SM EC. unfold inv_sm in SM. rewrite EC in SM.
  assert (forall c0 c1 c', ca x = Some c0 -> Some c1 = Some c' -> losej_c07f c0 c1 -> losej_c07f c c') as FIN
    by (intros c0 c1 c' E0 E1 L; rewrite EC in E0; inv E0; inv E1; exact L).
  apply (step_cases dr nr sm (fun x' => forall c', ca x' = Some c' -> losej_c07f c c')); cbn [ca].
  - intros n c' E. rewrite EC in E. inv E. apply losej_refl_c07f.
  - discriminate.
  - intros c0 h E Q c' E'. apply (FIN _ _ _ E E'), losej_shrink_c07f, (quiet_same _ _ _ _ _ _ Q).
  - intros sid want bkg _ c' E. unfold view in E. rewrite EC in E. apply (FIN _ _ _ EC E), sub_reply_losej_c07f.
  - intros sid c0 a b _ E _ c' E'. apply (FIN _ _ _ E E'), losej_shrink_c07f. eapply unsub_same, leave_unsub_shape.
  - intros sid c0 a _ E c' E'. apply (FIN _ _ _ E E'), losej_shrink_c07f, leave_same. rewrite EC in E. inv E. exact SM.
  - intros sid t mode c0 n _ E _ c' E'. apply (FIN _ _ _ E E'), tus_losej_c07f.
  - intros sid t mode c0 n _ E _ _ c' E'. apply (FIN _ _ _ E E'), aus_losej_c07f.
  - intros sid t mode n _ c' E. rewrite EC in E. inv E. apply losej_refl_c07f.
  - intros sid t c0 _ E c' E'. apply (FIN _ _ _ E E'), losej_shrink_c07f. eapply unsub_same, del_sub_shape.
Qed.

End LoseJ.

