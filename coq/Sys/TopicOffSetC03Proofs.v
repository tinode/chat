(* C03, strengthening s03c: lemmas about Sys/TopicOffSetC03.v (the complete not-attached {set}; evictUser's
   loop over the sessions by the user they are attached as). *)
From Coq Require Import ZArith NArith List Bool Lia.
From Tinode Require Import Base.Util Pure.Acs Sys.Topic Sys.TopicTac Sys.TopicMarks Sys.TopicCoh Sys.TopicPub Sys.TopicLife Sys.TopicOboC04 Sys.TopicOffSetC03.
Import ListNotations.
Open Scope Z_scope.

(* ---------- replyOfflineTopicSetSub ---------- *)

Lemma off_decide_err p2p r pv q code : off_decide_c03 p2p r pv q = inl code -> code = 500 \/ code = 403.
Proof.
  unfold off_decide_c03. destruct (or_mode q); [discriminate|]. unfold off_want_c03.
  destruct (unmarshal_text 0%N (n :: l)) as [m ok]. destruct (negb ok); [intros H; inv H; now left|].
  destruct (negb (Bool.eqb (is_owner m) (is_owner (s_want r)))); intros H; inv H. now right.
Qed.

(* either nothing is written, or the row exists, the request passes [off_decide_c03] and exactly its update map is applied *)
Lemma off_cases f p2p s pv sid u q :
  (of_st (offline_set_c03 f p2p s pv sid u q) = s /\ of_priv (offline_set_c03 f p2p s pv sid u q) = pv /\
   (off_acked_c03 (offline_set_c03 f p2p s pv sid u q) = false \/
    (or_mode q = [] /\ or_priv q = PrNil) \/
    exists r0 up, ad_sub_get s u false = Some r0 /\ off_decide_c03 p2p r0 pv q = inr up /\ offupd_empty_c03 up = true)) \/
  (off_acked_c03 (offline_set_c03 f p2p s pv sid u q) = true /\
   exists r0 up, ad_sub_get s u false = Some r0 /\ off_decide_c03 p2p r0 pv q = inr up /\ offupd_empty_c03 up = false /\
     of_st (offline_set_c03 f p2p s pv sid u q) =
       match ou_want up with Some mw => ad_subs_update s u (mkUpd (Some mw) None None None None) | None => s end /\
     of_priv (offline_set_c03 f p2p s pv sid u q) = match ou_priv up with Some v => v | None => pv end).
Proof.
  unfold offline_set_c03.
  destruct (_ && _) eqn:E0.
  { left. repeat split. right. left. apply andb_prop in E0 as [A B].
    destruct (or_mode q); [|discriminate]. destruct (or_priv q); try discriminate. split; reflexivity. }
  destruct (negb (or_target q =? 0)%N && negb (N.eqb (or_target q) u)); [left; repeat split; left; reflexivity|].
  destruct (call f 0) as [ok1 n1]. destruct (negb ok1); [left; repeat split; left; reflexivity|].
  destruct (ad_sub_get s u false) as [r0|] eqn:G; [|left; repeat split; left; reflexivity].
  destruct (off_decide_c03 p2p r0 pv q) as [code|up] eqn:D.
  { left; repeat split; left. destruct (off_decide_err _ _ _ _ _ D) as [->| ->]; reflexivity. }
  destruct (offupd_empty_c03 up) eqn:E; [left; repeat split; right; right; exists r0, up; repeat split; assumption|].
  destruct (call f n1) as [ok2 n2]. destruct (negb ok2); [left; repeat split; left; reflexivity|].
  right. split; [unfold off_acked_c03; cbn [of_out]; destruct (ou_want up); reflexivity|].
  exists r0, up. repeat split; assumption.
Qed.

Lemma sub_get_smodes s u r : ad_sub_get s u false = Some r -> smodes s u = Some (s_want r, s_given r).
Proof.
  unfold ad_sub_get, smodes. destruct (find_sub u (subs s)) as [r1|]; [|discriminate].
  destruct (s_deleted r1) eqn:E; cbn [negb andb]; intros H; inv H. reflexivity.
Qed.

(* the mode part of the update map: Some mw only when mw differs from the stored want; in both cases the want that
   the row ends up with is the sanitised request *)
Lemma off_decide_want p2p r pv q up c l : or_mode q = c :: l -> off_decide_c03 p2p r pv q = inr up ->
  exists mw, off_want_c03 p2p (s_want r) (c :: l) = inr mw /\
    (match ou_want up with Some v => v | None => s_want r end) = mw /\ ou_priv up = off_private_c03 pv (or_priv q).
Proof.
  intros EM D. unfold off_decide_c03 in D. rewrite EM in D.
  destruct (off_want_c03 p2p (s_want r) (c :: l)) as [code|mw]; [discriminate|]. inv D. exists mw. cbn [ou_want ou_priv].
  repeat split. destruct (mw =? s_want r)%N eqn:E; [apply N.eqb_eq in E; now subst|reflexivity].
Qed.

(* THE CLAUSE: an acknowledged not-attached {set} carrying sub.mode stores exactly the sanitised mode as the user's
   requested mode and leaves his granted mode alone - whatever desc.private the same request carries, whatever the
   fault plan *)
Lemma off_ack_stores_want f p2p s pv sid u q c l : u <> 0%N -> or_mode q = c :: l ->
  off_acked_c03 (offline_set_c03 f p2p s pv sid u q) = true ->
  exists r0 mw, ad_sub_get s u false = Some r0 /\ off_want_c03 p2p (s_want r0) (c :: l) = inr mw /\
    smodes (of_st (offline_set_c03 f p2p s pv sid u q)) u = Some (mw, s_given r0).
Proof.
  intros Hu EM A. destruct (off_cases f p2p s pv sid u q) as [[Hs [Hp [H|[[H _]|[r0 [up [G [D E]]]]]]]]|[_ [r0 [up [G [D [E [Hs Hp]]]]]]]].
  - rewrite H in A. discriminate.
  - rewrite EM in H. discriminate.
  - destruct (off_decide_want _ _ _ _ _ _ _ EM D) as [mw [W [M _]]]. exists r0, mw. repeat split; [assumption..|].
    rewrite Hs. rewrite (sub_get_smodes _ _ _ G). unfold offupd_empty_c03 in E.
    destruct (ou_want up); [destruct (ou_priv up); discriminate|]. now subst.
  - destruct (off_decide_want _ _ _ _ _ _ _ EM D) as [mw [W [M _]]]. exists r0, mw. repeat split; [assumption..|].
    rewrite Hs. destruct (ou_want up) as [v|].
    + subst v. rewrite smodes_subs_update by assumption. rewrite N.eqb_refl. rewrite (sub_get_smodes _ _ _ G). reflexivity.
    + rewrite (sub_get_smodes _ _ _ G). now subst.
Qed.

Lemma off_wf f p2p s pv sid u q : wf_store s -> wf_store (of_st (offline_set_c03 f p2p s pv sid u q)).
Proof.
  intros W. destruct (off_cases f p2p s pv sid u q) as [[Hs _]|[_ [r0 [up [_ [_ [_ [Hs _]]]]]]]]; rewrite Hs; [assumption|].
  destruct (ou_want up); [apply wf_subs_update|]; assumption.
Qed.

Lemma has_w_testbit m : has m mW = N.testbit m 2.
Proof.
  unfold has, mW. destruct (N.testbit m 2) eqn:T.
  - destruct (N.eqb_spec (N.land m 4) 0) as [E|E]; [|reflexivity]. exfalso.
    assert (X : N.testbit (N.land m 4) 2 = true) by (rewrite N.land_spec, T; reflexivity).
    rewrite E in X. rewrite N.bits_0 in X. discriminate.
  - replace (N.land m 4) with 0%N; [reflexivity|]. symmetry. apply N.bits_inj. intros n. rewrite N.land_spec, N.bits_0.
    destruct (N.eqb_spec n 2); [subst; rewrite T; reflexivity|].
    change 4%N with (2 ^ 2)%N. rewrite N.pow2_bits_false by congruence. apply andb_false_r.
Qed.
(* bits outside both masks stay clear *)
Lemma land_masked m a b k : N.land a k = 0%N -> N.land b k = 0%N -> N.land (N.lor (N.land m a) b) k = 0%N.
Proof. intros Ha Hb. rewrite N.land_lor_distr_l, <- N.land_assoc, Ha, Hb, N.land_0_r. reflexivity. Qed.
Lemma is_writer_land g w : is_writer (N.land g w) = is_writer g && is_writer w.
Proof. unfold is_writer. rewrite !has_w_testbit. apply N.land_spec. Qed.

(* ---------- evictUser: the loop over the attached sessions ---------- *)

Lemma forallb_filter_neg {A} (p : A -> bool) (l : list A) : forallb (fun e => negb (p e)) (filter (fun e => negb (p e)) l) = true.
Proof. induction l as [|a l IH]; cbn; [reflexivity|]. destruct (p a) eqn:E; cbn; [exact IH|]. rewrite E. exact IH. Qed.

Lemma evict_user_sess c u unsub skip :
  c_sess (fst (evict_user c u unsub skip)) = filter (fun e => negb (N.eqb (fst (snd e)) u)) (c_sess c).
Proof. unfold evict_user. cbn [fst]. destruct unsub; [reflexivity|]. break_match; reflexivity. Qed.

(* after evictUser(u) no session attached AS u remains - the test reads perSessionData.uid, not the session's owner *)
Lemma evict_none_attached c u unsub skip : none_attached_as_c03 (fst (evict_user c u unsub skip)) u = true.
Proof. unfold none_attached_as_c03. rewrite evict_user_sess. apply (forallb_filter_neg (fun e => N.eqb (fst (snd e)) u)). Qed.

Lemma evict_none_attached_pair c u unsub skip c1 o1 : evict_user c u unsub skip = (c1, o1) -> none_attached_as_c03 c1 u = true.
Proof. intros E. change c1 with (fst (c1, o1)). rewrite <- E. apply evict_none_attached. Qed.

Lemma alookup_filter_nodup {A} (p : N * A -> bool) (l : list (N * A)) k v : NoDup (map fst l) ->
  alookup k l = Some v -> alookup k (filter p l) = if p (k, v) then Some v else None.
Proof.
  induction l as [|[k0 v0] l IH]; cbn; [discriminate|]. intros ND H. inversion ND as [|? ? Hn Hr]; subst.
  destruct (N.eqb k k0) eqn:E.
  - apply N.eqb_eq in E. subst k0. inv H. destruct (p (k, v)) eqn:P; cbn; [now rewrite N.eqb_refl|].
    destruct (alookup k (filter p l)) eqn:L; [|reflexivity]. exfalso. apply Hn.
    apply alookup_in in L. apply filter_In in L. destruct L as [L _]. now apply (in_map fst) in L.
  - destruct (p (k0, v0)); cbn; [rewrite E|]; apply IH; assumption.
Qed.

(* the loop as written (for s := range t.sessions { remSession(s, uid) ... }) is that filter *)
Lemma rem_session_spec l sid u : u <> 0%N ->
  snd (rem_session_c03 l sid u) =
    match alookup sid l with Some pssd => if N.eqb (fst pssd) u then aremove sid l else l | None => l end.
Proof.
  intros Hu. unfold rem_session_c03. destruct (alookup sid l) as [pssd|]; [|reflexivity].
  destruct (N.eqb_spec u 0); [contradiction|]. rewrite orb_false_r. destruct (N.eqb (fst pssd) u); reflexivity.
Qed.

Lemma aremove_notin {A} k (l : list (N * A)) : ~ In k (map fst l) -> aremove k l = l.
Proof.
  induction l as [|[k0 v0] l IH]; cbn; [reflexivity|]. intros H. destruct (N.eqb_spec k k0); [exfalso; apply H; now left|].
  f_equal. apply IH. tauto.
Qed.

Lemma evict_loop_spec u skip unsub : u <> 0%N -> forall keys done l,
  NoDup (map fst (done ++ l)) -> keys = map fst l ->
  Forall (fun e => fst (snd e) <> u) done ->
  fst (evict_loop_c03 keys (done ++ l) u skip unsub) = done ++ filter (fun e => negb (N.eqb (fst (snd e)) u)) l.
Proof.
  intros Hu keys. induction keys as [|sid keys IH]; intros done l ND K FD.
  - destruct l; [|discriminate]. reflexivity.
  - destruct l as [|[k0 [a b]] l]; [discriminate|]. cbn in K. inv K.
    cbn [evict_loop_c03]. unfold rem_session_c03.
    assert (L : alookup k0 (done ++ (k0, (a, b)) :: l) = Some (a, b)).
    { clear - ND. induction done as [|[k1 v1] done IH]; cbn; [now rewrite N.eqb_refl|].
      cbn in ND. inversion ND as [|? ? Hn Hr]; subst. destruct (N.eqb_spec k0 k1).
      - subst. exfalso. apply Hn. rewrite map_app. apply in_or_app. right. now left.
      - apply IH. assumption. }
    rewrite L. cbn [fst]. destruct (N.eqb_spec u 0); [contradiction|]. rewrite orb_false_r.
    cbn [filter snd fst]. destruct (N.eqb_spec a u) as [Ea|Ea]; cbn [negb].
    + assert (R : aremove k0 (done ++ (k0, (a, b)) :: l) = done ++ l).
      { clear - ND. induction done as [|[k1 v1] done IH]; cbn.
        - rewrite N.eqb_refl. cbn in ND. inversion ND; subst. now apply aremove_notin.
        - cbn in ND. inversion ND as [|? ? Hn Hr]; subst. destruct (N.eqb_spec k0 k1).
          + subst. exfalso. apply Hn. rewrite map_app. apply in_or_app. right. now left.
          + f_equal. now apply IH. }
      rewrite R. destruct (evict_loop_c03 (map fst l) (done ++ l) u skip unsub) as [l2 o2] eqn:EL. cbn [fst].
      change l2 with (fst (l2, o2)). rewrite <- EL. apply IH; [|reflexivity|assumption].
      rewrite map_app in *. cbn in ND. apply NoDup_remove_1 in ND. assumption.
    + replace (done ++ (k0, (a, b)) :: l) with ((done ++ [(k0, (a, b))]) ++ l) by (rewrite <- app_assoc; reflexivity).
      rewrite IH; [rewrite <- app_assoc; reflexivity| |reflexivity|].
      * rewrite <- app_assoc. assumption.
      * apply Forall_app. split; [assumption|]. constructor; [assumption|constructor].
Qed.
