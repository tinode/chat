(* Lemmas about Sys/PresStuckC10.v: the slow-consumer drop inside broadcastToSessions and the online counters. *)
From Coq Require Import List NArith ZArith Bool Lia.
From Tinode Require Import Sys.Pres Sys.PresProofs Sys.PresStuckC10.
Import ListNotations.
Open Scope N_scope.

(* ------------------------------------------------------------------ the invariant *)

(* a session is attached to a topic at most once (t.sessions is a map keyed by the session) *)
Definition sess_nodup_c10x (s : state) : Prop :=
  (forall u m, get_me s u = Some m -> NoDup (me_sess m)) /\
  (forall t x, get_top s t = Some x -> NoDup (map fst (t_sess x))).

(* online(u, t) = number of attached foreground sessions of u in t, for every topic and user *)
Definition xinv_c10x (s : state) : Prop := online_ok s /\ sess_nodup_c10x s.

(* ------------------------------------------------------------------ counting *)

Lemma adel_notin {V} k (l : list (N * V)) : ~ In k (map fst l) -> adel N.eqb k l = l.
Proof.
  induction l as [|[k' v'] r IH]; simpl; [reflexivity|]. intros H.
  destruct (k =? k') eqn:E; [apply N.eqb_eq in E; subst; exfalso; apply H; now left|].
  f_equal. apply IH. intros X. apply H. now right.
Qed.

Lemma adel_nodup {V} k (l : list (N * V)) : NoDup (map fst l) -> NoDup (map fst (adel N.eqb k l)).
Proof.
  induction l as [|[k' v'] r IH]; simpl; intros H; [constructor|]. inversion H; subst.
  destruct (k =? k'); simpl; [auto|]. constructor; [|auto]. intros X. apply H2.
  apply in_map_iff in X as [e [<- X]]. apply in_map. eapply adel_subset, X.
Qed.

Lemma count_adel (g : N * N -> bool) sid l uid :
  NoDup (map fst l) -> aget N.eqb sid l = Some uid ->
  Z.of_nat (length (filter g (adel N.eqb sid l))) = (Z.of_nat (length (filter g l)) - b2z (g (sid, uid)))%Z.
Proof.
  induction l as [|[k' v'] r IH]; simpl; [discriminate|]. intros ND HG. inversion ND; subst.
  destruct (sid =? k') eqn:E.
  - apply N.eqb_eq in E. subst k'. injection HG as ->. rewrite (adel_notin _ _ H1).
    destruct (g (sid, uid)); cbn [length b2z]; clear IH; generalize (length (filter g r)); intros n; lia.
  - specialize (IH H2 HG). cbn [filter]. destruct (g (k', v')); cbn [length]; revert IH;
      generalize (length (filter g r)) (length (filter g (adel N.eqb sid r))) (b2z (g (sid, uid))); intros; lia.
Qed.

Lemma count_filter_sid (f : N -> bool) sid l :
  NoDup l -> In sid l ->
  Z.of_nat (length (filter f (filter (fun k => negb (k =? sid)) l))) = (Z.of_nat (length (filter f l)) - b2z (f sid))%Z.
Proof.
  induction l as [|a r IH]; simpl; [tauto|]. intros ND HI. inversion ND; subst.
  destruct (a =? sid) eqn:E; simpl.
  - apply N.eqb_eq in E. subst a.
    assert (R : filter (fun k => negb (k =? sid)) r = r).
    { clear - H1. induction r as [|b r IH]; simpl; [reflexivity|].
      destruct (b =? sid) eqn:E; [apply N.eqb_eq in E; subst; exfalso; apply H1; now left|].
      simpl. f_equal. apply IH. intros X. apply H1. now right. }
    rewrite R. destruct (f sid); cbn [length b2z]; generalize (length (filter f r)); intros n; lia.
  - destruct HI as [->|HI]; [rewrite N.eqb_refl in E; discriminate|].
    specialize (IH H2 HI). destruct (f a); cbn [length]; revert IH;
      generalize (length (filter f r)) (length (filter f (filter (fun k => negb (k =? sid)) r))) (b2z (f sid)); intros; lia.
Qed.

(* ------------------------------------------------------------------ states with the same accounting *)

(* s' has the session table of s, and every topic of s' is a topic of s with the same attached sessions and
   the same online counters (anything else may differ: marks and modes are not covered) *)
Definition acct_same_c10x (s s' : state) : Prop :=
  s_sess s' = s_sess s /\
  (forall u m', get_me s' u = Some m' -> exists m, get_me s u = Some m /\ me_online m' = me_online m /\ me_sess m' = me_sess m) /\
  (forall t x', get_top s' t = Some x' -> exists x, get_top s t = Some x /\ t_sess x' = t_sess x /\
                                                 forall u, p_online (get_pud x' u) = p_online (get_pud x u)).

Lemma acct_refl s : acct_same_c10x s s.
Proof. split; [reflexivity|]. split; intros; eexists; repeat split; eauto. Qed.

Lemma acct_trans a b c : acct_same_c10x a b -> acct_same_c10x b c -> acct_same_c10x a c.
Proof.
  intros [A1 [A2 A3]] [B1 [B2 B3]]. split; [congruence|]. split.
  - intros u m' H. destruct (B2 _ _ H) as [m [G [E1 E2]]]. destruct (A2 _ _ G) as [m0 [G0 [F1 F2]]].
    exists m0. repeat split; congruence.
  - intros t x' H. destruct (B3 _ _ H) as [x [G [E1 E2]]]. destruct (A3 _ _ G) as [x0 [G0 [F1 F2]]].
    exists x0. split; [exact G0|]. split; [congruence|]. intros u. rewrite E2. apply F2.
Qed.

Lemma sess_bkg_same s s' sid : s_sess s' = s_sess s -> sess_bkg s' sid = sess_bkg s sid.
Proof. unfold sess_bkg, get_sess. now intros ->. Qed.

Lemma xinv_acct s s' : acct_same_c10x s s' -> xinv_c10x s -> xinv_c10x s'.
Proof.
  intros [A1 [A2 A3]] [[O1 O2] [N1 N2]]. split; split.
  - intros u m' H. destruct (A2 _ _ H) as [m [G [E1 E2]]]. rewrite E1, (O1 _ _ G). unfold fg_count_me. rewrite E2.
    f_equal. f_equal. apply filter_ext. intros a. now rewrite (sess_bkg_same _ _ _ A1).
  - intros t x' u H. destruct (A3 _ _ H) as [x [G [E1 E2]]]. rewrite E2, (O2 _ _ u G). unfold fg_count_top. rewrite E1.
    f_equal. f_equal. apply filter_ext. intros a. now rewrite (sess_bkg_same _ _ _ A1).
  - intros u m' H. destruct (A2 _ _ H) as [m [G [E1 E2]]]. rewrite E2. eauto.
  - intros t x' H. destruct (A3 _ _ H) as [x [G [E1 E2]]]. rewrite E1. eauto.
Qed.

Lemma acct_send ms s : acct_same_c10x s (send ms s).
Proof. exact (acct_refl s). Qed.

Lemma acct_set_net f s : acct_same_c10x s (set_net f s).
Proof. exact (acct_refl s). Qed.

Lemma acct_put_top t x x' s :
  get_top s t = Some x -> t_sess x' = t_sess x -> (forall u, p_online (get_pud x' u) = p_online (get_pud x u)) ->
  acct_same_c10x s (put_top t x' s).
Proof.
  intros G E1 E2. split; [reflexivity|]. split.
  - intros u m' H. exists m'. auto.
  - intros t' y H. rewrite get_top_put_top in H. destruct (tname_eqb t' t) eqn:E.
    + apply tname_eqb_eq in E. subst t'. injection H as <-. exists x. auto.
    + exists y. auto.
Qed.

Lemma acct_put_me u m m' s :
  get_me s u = Some m -> me_online m' = me_online m -> me_sess m' = me_sess m -> acct_same_c10x s (put_me u m' s).
Proof.
  intros G E1 E2. split; [reflexivity|]. split.
  - intros u' y H. rewrite get_me_put_me in H. destruct (u' =? u) eqn:E.
    + apply N.eqb_eq in E. subst u'. injection H as <-. exists m. auto.
    + exists y. auto.
  - intros t x' H. exists x'. auto.
Qed.

(* ------------------------------------------------------------------ the drop preserves the invariant *)

Lemma existsb_in_me sid l : existsb (N.eqb sid) l = true -> In sid l.
Proof. rewrite existsb_exists. intros [x [H E]]. apply N.eqb_eq in E. now subst. Qed.

Lemma leave_me_xinv s sid u : xinv_c10x s -> xinv_c10x (leave_me s sid u (sess_bkg s sid)).
Proof.
  intros I. unfold leave_me. destruct (get_me s u) as [m|] eqn:G; [|exact I].
  destruct (existsb (N.eqb sid) (me_sess m)) eqn:EX; simpl; [|exact I].
  apply existsb_in_me in EX. destruct I as [[O1 O2] [N1 N2]]. split; split.
  - intros u' y H. rewrite get_me_put_me in H. destruct (u' =? u) eqn:E.
    + injection H as <-. unfold fg_count_me. cbn [me_online me_sess].
      rewrite (filter_ext _ (fun k => negb (sess_bkg s k))) by reflexivity.
      rewrite (count_filter_sid (fun k => negb (sess_bkg s k)) sid _ (N1 _ _ G) EX).
      rewrite (O1 _ _ G). unfold fg_count_me. reflexivity.
    + apply (O1 _ _ H).
  - intros t x u' H. apply (O2 _ _ u' H).
  - intros u' y H. rewrite get_me_put_me in H. destruct (u' =? u) eqn:E.
    + injection H as <-. cbn [me_sess]. apply NoDup_filter. eauto.
    + eauto.
  - intros t x H. apply (N2 _ _ H).
Qed.

Lemma leave_top_xinv s sid t : xinv_c10x s -> xinv_c10x (leave_top s sid t (sess_bkg s sid)).
Proof.
  intros I. unfold leave_top. destruct (get_top s t) as [x|] eqn:G; [|exact I].
  destruct (aget N.eqb sid (t_sess x)) as [uid|] eqn:A; [|exact I].
  apply (xinv_acct _ _ (acct_send _ _)).
  destruct I as [[O1 O2] [N1 N2]]. split; split.
  - intros u' y H. apply (O1 _ _ H).
  - intros t' y u' H. rewrite get_top_put_top in H. destruct (tname_eqb t' t) eqn:E; [|apply (O2 _ _ u' H)].
    injection H as <-. rewrite get_pud_set_pud. unfold fg_count_top. cbn [t_sess set_pud set_tsess].
    rewrite (filter_ext _ (fun e : N * N => (snd e =? u') && negb (sess_bkg s (fst e)))) by reflexivity.
    rewrite (count_adel _ sid _ uid (N2 _ _ G) A). cbn [fst snd].
    pose proof (O2 _ _ u' G) as OU. unfold fg_count_top in OU.
    destruct (u' =? uid) eqn:EU.
    + apply N.eqb_eq in EU. subst u'. cbn [p_online p_set_online]. rewrite N.eqb_refl, <- OU. reflexivity.
    + rewrite N.eqb_sym in EU. rewrite EU, <- OU. cbn [andb b2z]. now rewrite Z.sub_0_r.
  - intros u' y H. apply (N1 _ _ H).
  - intros t' y H. rewrite get_top_put_top in H. destruct (tname_eqb t' t) eqn:E; [|apply (N2 _ _ H)].
    injection H as <-. cbn [t_sess set_pud set_tsess]. apply adel_nodup. eauto.
Qed.

Lemma drop_xinv s sid u t : xinv_c10x s -> xinv_c10x (drop_c10x s sid u t).
Proof.
  intros I. unfold drop_c10x. destruct (sess_on s sid t); [|exact I].
  unfold leave. destruct t; [apply leave_me_xinv | apply leave_top_xinv | apply leave_top_xinv]; exact I.
Qed.

Lemma drops_xinv k outs : forall s, xinv_c10x s -> xinv_c10x (drops_c10x k s outs).
Proof.
  unfold drops_c10x. induction outs as [|o r IH]; simpl; intros s I; [exact I|].
  apply IH. destruct o; try exact I. destruct (stuck_c10x k sid); [apply drop_xinv|]; exact I.
Qed.

(* ------------------------------------------------------------------ the handlers that fan out keep the accounting *)

Lemma acct_deliver s g : acct_same_c10x s (fst (deliver_msg s g)).
Proof.
  destruct (deliver_state s g) as (s1 & Q & R).
  assert (A : acct_same_c10x s s1).
  { destruct Q as [-> | (u & m & subs & G & ->)]; [apply acct_refl | apply (acct_put_me _ m); auto]. }
  destruct R as [-> | (? & ? & ? & ? & _ & ->)]; [exact A | eapply acct_trans; [exact A | apply acct_send]].
Qed.

Lemma acct_note s sid u t w seq : acct_same_c10x s (fst (note_op s sid u t w seq)).
Proof.
  destruct (note_op_cases s sid u t w seq) as [-> | [-> | (x & G & _ & _ & _ & _ & _ & ->)]]; [apply acct_refl..|].
  unfold note_effect. cbn [fst]. eapply acct_trans; [|apply acct_send].
  apply (acct_put_top _ x); [exact G | apply note_top_sess | intros u'; apply note_top_pud].
Qed.

Lemma acct_pub s sid u t : acct_same_c10x s (fst (pub_op s sid u t)).
Proof.
  unfold pub_op. destruct (get_top s t) as [x|] eqn:G; [|apply acct_refl].
  destruct (negb (sess_on s sid t)); [apply acct_refl|].
  destruct (negb (is_writer _)); [apply acct_refl|]. cbn [fst].
  eapply acct_trans; [|apply acct_send].
  apply (acct_put_top _ x); auto.
  - destruct (found t x u); reflexivity.
  - intros u'. destruct (found t x u); [|reflexivity].
    rewrite get_pud_set_pud. destruct (u' =? u) eqn:E; [|reflexivity].
    apply N.eqb_eq in E. subst u'. destruct (is_reader _); reflexivity.
Qed.

(* the operations whose handler calls broadcastToSessions *)
Definition fanout_op_c10x (o : op) : Prop :=
  match o with Note _ _ _ _ _ | Pub _ _ | Deliver _ => True | _ => False end.

Lemma acct_step_fanout s o : fanout_op_c10x o -> acct_same_c10x s (fst (step s o)).
Proof.
  destruct o; simpl; try tauto; intros _; unfold step, step_gen.
  - destruct (sess_user s sid); [|apply acct_refl]. destruct r; [apply acct_refl | apply acct_pub | apply acct_pub].
  - destruct (match sess_user s sid with Some u' => negb (u' =? u) | None => false end); [apply acct_refl|].
    destruct r; [apply acct_refl | apply acct_note | apply acct_note].
  - destruct (take_nth i [] (s_net s)) as [[g rest]|]; [|apply acct_refl].
    eapply acct_trans; [apply (acct_set_net (fun _ => rest)) | apply acct_deliver].
Qed.

Definition fanout_xop_c10x (o : xop_c10x) : Prop :=
  match o with XClog _ | XUnclog _ => True | XOp o => fanout_op_c10x o end.

Lemma xstep_fanout_xinv xs o : fanout_xop_c10x o -> xinv_c10x (fst xs) -> xinv_c10x (fst (fst (xstep_c10x xs o))).
Proof.
  destruct xs as [s k]. cbn [fst]. intros F I. destruct o as [sid|sid|o]; simpl.
  - destruct (_ || _); exact I.
  - destruct (stuck_c10x k sid); exact I.
  - pose proof (acct_step_fanout s o F) as A.
    destruct o; simpl in F; try tauto;
      (destruct (match actor_c10x _ with Some _ => _ | None => _ end); [exact I|]);
      destruct (step s _) as [s1 outs] eqn:ST; cbn [fst] in *; apply drops_xinv; eapply xinv_acct; eauto.
Qed.

(* ------------------------------------------------------------------ without stuck sessions nothing changes *)

Lemma filter_nostuck outs : filter (fun f => negb (frame_stuck_c10x [] f)) outs = outs.
Proof. induction outs as [|o r IH]; simpl; [reflexivity|]. destruct o; simpl; now rewrite IH. Qed.

Lemma drops_nostuck outs : forall s, drops_c10x [] s outs = s.
Proof. unfold drops_c10x. induction outs as [|o r IH]; simpl; intros s; [reflexivity|]. destruct o; apply IH. Qed.

(* ------------------------------------------------------------------ the stale write-back breaks the invariant *)

(* user 1 has two foreground sessions (1: will be stuck, 2) on group 1 owned by user 2 (session 3); user 2
   publishes; session 1 clogs; session 2 reads message 1: the {info} cannot be queued on session 1, which is
   dropped (online 2 -> 1). *)
Definition h_stuck_c10x : list xop_c10x :=
  [XOp (New 3 2 1 false); XOp (Deliver 0); XOp (Given 3 (RGrp 1) 1 47); XOp (Deliver 0); XOp (Deliver 0);
   XOp (Att 1 1 (RGrp 1) false); XOp (Deliver 0); XOp (Att 2 1 (RGrp 1) false); XOp (Pub 3 (RGrp 1));
   XOp (Deliver 0); XOp (Deliver 0); XClog 1].

Definition online_of_c10x (s : state) (t : tname) (u : N) : Z :=
  match get_top s t with Some x => p_online (get_pud x u) | None => (-1)%Z end.
Definition attached_of_c10x (s : state) (t : tname) (u : N) : Z :=
  match get_top s t with Some x => fg_count_top s x u | None => (-1)%Z end.

(* the same handler with the write-back moved behind the fan-out: 2 sessions counted, 1 attached *)
Lemma stale_writeback_example :
  let xs := fst (xrun_c10x xinit_c10x h_stuck_c10x) in
  let xs1 := fst (xstep_late_c10x xs (XOp (Note 2 1 (RGrp 1) WIRead 1))) in
  (online_of_c10x (fst xs1) (TGrp 1) 1 = 2 /\ attached_of_c10x (fst xs1) (TGrp 1) 1 = 1)%Z.
Proof. vm_compute. split; reflexivity. Qed.

Definition xreach_c10x (xs : xstate_c10x) : Prop := exists h, xs = fst (xrun_c10x xinit_c10x h).

(* "the handlers that fan out establish online_ok" - for the variant with the late write-back *)
Definition late_writeback_statement_c10x : Prop :=
  forall xs o, xreach_c10x xs -> fanout_xop_c10x o -> online_ok (fst (fst (xstep_late_c10x xs o))).

Lemma stale_writeback_breaks_online_count : ~ late_writeback_statement_c10x.
Proof.
  intros ST.
  specialize (ST _ (XOp (Note 2 1 (RGrp 1) WIRead 1)) (ex_intro _ h_stuck_c10x eq_refl) I).
  destruct ST as [_ O2]. specialize (O2 (TGrp 1)). revert O2. vm_compute. intros O2.
  specialize (O2 _ 1 eq_refl). discriminate O2.
Qed.
