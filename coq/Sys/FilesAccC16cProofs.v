(* C16  Lemmas about replyCreateUser above the store slice (Sys/FilesAccC16c.v). *)
From Coq Require Import NArith ZArith List Bool.
From Tinode Require Import Pure.Url Sys.Files Sys.FilesStoreProofs Sys.FilesAccC16c.
Import ListNotations.

(* creating an account with a fresh id and deleting it again leaves the slice as it was *)
Lemma add_del_user_id : forall s u,
  inv s -> memN u (users s) = false -> step (step s (OAddUser u)) (ODelUser u) = s.
Proof.
  intros s u [_ [_ [_ [HL HA]]]] Hu.
  cbn [step]. rewrite Hu. cbn [step files links msgs next_mid topics users disk att].
  assert (Hl : drop_target (fun tg => match tg with TUser x => (x =? u)%N | _ => false end) (links s) = links s).
  { unfold drop_target. apply filter_all. intros [f t] Hin. cbn [snd].
    destruct t as [m|t|x]; try reflexivity.
    destruct (x =? u)%N eqn:E; [|reflexivity]. apply N.eqb_eq in E. subst x.
    destruct (HL f (TUser u) Hin) as [_ Hlive]. cbn [target_live] in Hlive. congruence. }
  assert (Ha : drop_target (fun tg => match tg with TUser x => (x =? u)%N | _ => false end) (att s) = att s).
  { unfold drop_target. apply filter_all. intros [f t] Hin. cbn [snd].
    destruct t as [m|t|x]; try reflexivity.
    destruct (x =? u)%N eqn:E; [|reflexivity]. apply N.eqb_eq in E. subst x.
    destruct (HA f (TUser u) Hin) as [Hin' _].
    destruct (HL f (TUser u) Hin') as [_ Hlive]. cbn [target_live] in Hlive. congruence. }
  assert (Hus : filter (fun x => negb (x =? u)%N) (u :: users s) = users s).
  { cbn [filter]. rewrite N.eqb_refl. cbn [negb]. apply filter_all. intros x Hx.
    destruct (x =? u)%N eqn:E; [|reflexivity]. apply N.eqb_eq in E. subst x.
    apply memN_false in Hu. contradiction. }
  rewrite Hl, Ha, Hus. destruct s; reflexivity.
Qed.

(* ---- closed form ---- *)
(* the request is refused *)
Definition acc_refused_c16c (ft : acc_faults_c16c) (creds_ok : bool) : bool :=
  af_unique ft || af_create ft || af_share ft || af_auth ft || negb creds_ok.

(* the code of the reply *)
Definition acc_code_c16c (ft : acc_faults_c16c) (creds_ok : bool) : Z :=
  if af_unique ft || af_create ft || af_share ft then 500%Z
  else if af_auth ft then 200%Z
  else if negb creds_ok then 403%Z else 201%Z.

(* the link call is made *)
Definition acc_link_due_c16c (handler : bool) (serve : list N) (urls : list (list N)) : bool :=
  negb (length urls =? 0)%nat && handler && negb (length (resolve serve urls) =? 0)%nat.

(* the adapter calls of the request in the order they are made *)
Definition acc_calls_c16c (ft : acc_faults_c16c) (handler : bool) (serve : list N) (creds_ok : bool)
    (urls : list (list N)) : list (acall_c16c * bool) :=
  (AUniqueC16c, af_unique ft) ::
  if af_unique ft then []
  else (AUserCreateC16c, af_create ft) ::
    if af_create ft then []
    else (ATopicShareC16c, af_share ft) ::
      if af_share ft then [(AUserDeleteC16c, false)]
      else (AAuthAddC16c, af_auth ft) ::
        if af_auth ft then [(AUserDeleteC16c, false)]
        else if negb creds_ok then [(AUserDeleteC16c, false)]
        else if acc_link_due_c16c handler serve urls then [(AFileLinkC16c, af_link ft)] else [].

(* the optional link call of replyCreateUser as one decision *)
Lemma acc_link_char : forall fault handler serve s uid urls,
  (if negb (length urls =? 0)%nat then acc_link_c16c fault handler serve s uid urls else s) =
  if acc_link_due_c16c handler serve urls
  then awith_fs_c16c (alog_c16c s AFileLinkC16c fault)
         (if fault then aa_fs s else step (aa_fs s) (OUserAvatar uid (resolve serve urls)))
  else s.
Proof.
  intros fault handler serve s uid urls. unfold acc_link_c16c, acc_link_due_c16c.
  destruct (length urls =? 0)%nat, handler; try reflexivity. cbn [negb andb].
  destruct (length (resolve serve urls) =? 0)%nat; [reflexivity|]. destruct fault; reflexivity.
Qed.

Ltac fin_c16c := repeat split; try reflexivity; try discriminate.

(* every path of create_user_c16c is decided by the fault plan, [creds_ok] and [acc_link_due_c16c]; on each
   path the four components are closed terms *)
Lemma create_user_char : forall ft handler serve s uid creds_ok urls,
  let r := create_user_c16c ft handler serve s uid creds_ok urls in
  (ao_created (snd r) = false <-> acc_refused_c16c ft creds_ok = true) /\
  ao_code (snd r) = acc_code_c16c ft creds_ok /\
  rev (aa_calls (fst r)) = rev (aa_calls s) ++ acc_calls_c16c ft handler serve creds_ok urls /\
  aa_fs (fst r) =
    (if af_unique ft || af_create ft then aa_fs s
     else if af_share ft || af_auth ft || negb creds_ok then step (step (aa_fs s) (OAddUser uid)) (ODelUser uid)
     else if acc_link_due_c16c handler serve urls && negb (af_link ft)
          then step (step (aa_fs s) (OAddUser uid)) (OUserAvatar uid (resolve serve urls))
          else step (aa_fs s) (OAddUser uid)).
Proof.
  intros ft handler serve s uid creds_ok urls. cbv zeta.
  rewrite <- (rev_involutive (acc_calls_c16c ft handler serve creds_ok urls)), <- rev_app_distr.
  unfold create_user_c16c, acc_refused_c16c, acc_code_c16c, acc_calls_c16c.
  destruct ft as [f1 f2 f3 f4 f5]. cbn [af_unique af_create af_share af_auth af_link].
  destruct f1; [fin_c16c|]. destruct f2; [fin_c16c|]. destruct f3; [fin_c16c|]. destruct f4; [fin_c16c|].
  destruct creds_ok; [|fin_c16c].
  cbv zeta. rewrite acc_link_char. destruct (acc_link_due_c16c handler serve urls); [|fin_c16c].
  destruct f5; fin_c16c.
Qed.

(* a created account whose avatar list resolves has the first id linked (when it names an upload record
   and the link call does not fail), and that is the account creation + avatar operation of the history model *)
Lemma create_user_created : forall ft handler serve s uid creds_ok urls,
  ao_created (snd (create_user_c16c ft handler serve s uid creds_ok urls)) = true ->
  aa_fs (fst (create_user_c16c ft handler serve s uid creds_ok urls)) =
    (if acc_link_due_c16c handler serve urls && negb (af_link ft)
     then step (step (aa_fs s) (OAddUser uid)) (OUserAvatar uid (resolve serve urls))
     else step (aa_fs s) (OAddUser uid)).
Proof.
  intros ft handler serve s uid creds_ok urls Hc.
  destruct (create_user_char ft handler serve s uid creds_ok urls) as [[_ O] [_ [_ F]]]. cbv zeta in O, F.
  rewrite F. destruct (acc_refused_c16c ft creds_ok) eqn:R; [|clear O].
  - rewrite (O eq_refl) in Hc. discriminate Hc.
  - unfold acc_refused_c16c in R. rewrite !orb_false_iff in R. destruct R as [[[[R1 R2] R3] R4] R5].
    rewrite R1, R2, R3, R4, R5. reflexivity.
Qed.
