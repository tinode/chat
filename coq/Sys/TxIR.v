(* C18  Transaction skeleton IR of the SQL adapters' transactional functions.

   The translator harness/translators/txir renders every function of
   server/db/{mysql,postgres}/adapter.go that opens a transaction into a [prog]
   (coq/Gen/GenTx.v, regenerated on every run).  This file holds DEFINITIONS
   only:

   - the IR (error variables, conditions on them, statements, programs);
   - [exec]: a deterministic executable semantics against a decision oracle
     [nat -> nat] (the n-th consultation decides: outcome of a tx statement
     (ok / SQL fault / code-level error such as duplicate key or no rows),
     failure of Begin / Commit, value of a data-dependent condition, number of
     iterations of a loop, whether the tx context has a cancel function); it
     yields the driver-level event list and the returned error;
   - [wf_tx]: a decidable check = exhaustive exploration of the finite quotient
     of the semantics (error variables x monitor phase x fault/code flags x
     pending defers), all oracle decisions at once, loops closed by a checked
     fixpoint.  Its soundness w.r.t. [exec] is TxIRProofs.aexec_sound;
   - [explore]: enumeration of concrete decision sequences (loop counts <= 2)
     through [exec], used by the per-run obligations to produce replays.

   Go semantics rendered: named results ([return X] assigns the named result
   before the deferred calls run), [:=] shadowing (resolved by the translator:
   every declared error variable has its own index), [defer] (LIFO, closures
   read variables at the time they run), database/sql's "a finished Tx ignores
   Rollback" (no driver event), context cancel rolling an open database/sql
   transaction back (not pgx). *)
From Coq Require Import List Bool Arith String.
Import ListNotations.

Definition var := nat.

Inductive errval := VNil | VFault | VCode.

Inductive rexpr :=
| ENil                 (* nil *)
| EVar (v : var)
| ENew                 (* t.ErrXxx, errors.New(..): an error made by the code *)
| EOpaque.             (* an expression without tx objects: nil or a code error *)

Inductive cond :=
| CTrue
| CNonNil (v : var)            (* v != nil *)
| CIsCode (v : var)            (* v == sentinel, isDupe(v): never true of nil or of an SQL fault *)
| COpaque                      (* data-dependent condition *)
| CNot (c : cond)
| CAnd (c1 c2 : cond)
| COr (c1 c2 : cond).

Inductive stmt :=
| SSkip
| SSeq (s1 s2 : stmt)
| SBegin (v : var)                         (* tx, v = db.Begin..() *)
| SExec (b : option var)                   (* statement on tx / prepared stmt / row fetch; error bound to b or dropped *)
| SPure (b : option var)                   (* fallible call that does not touch the tx (rows.Scan, RowsAffected) *)
| SCommit (b : option var)                 (* tx.Commit() *)
| SRollback                                (* tx.Rollback() *)
| SCancel                                  (* cancel() of the transaction's context *)
| SSet (v : var) (e : rexpr)               (* v = e, var v error *)
| SCall (locals : list var) (nm : option var) (body : stmt) (b : option var)
                                           (* helper receiving tx, inlined; nm = its named error result *)
| SIf (c : cond) (s1 s2 : stmt)
| SLoop (body : stmt)                      (* 0..n iterations *)
| SBreak
| SContinue
| SReturn (e : rexpr)
| SDefer (d : nat)                         (* defer <d-th closure of the program> *)
| SUnknown (src : string).                 (* not recognised by the translator: rejected *)

Record prog := {
  p_name : string;
  p_named : option var;      (* named error result *)
  p_ctxrb : bool;            (* cancelling the tx context rolls an open tx back (database/sql BeginTx) *)
  p_sticky : bool;           (* PostgreSQL: after a failed statement the transaction is aborted: every later
                                statement fails and COMMIT is turned into ROLLBACK (pgx.ErrTxCommitRollback) *)
  p_defers : list stmt;
  p_body : stmt }.

(* ---------- driver-level events and the transaction monitor ---------- *)
Inductive event :=
| EvBegin | EvBeginFail
| EvExec (k : nat) | EvExecFail (k : nat) | EvExecCode (k : nat)
| EvCommit | EvCommitFail
| EvRollback
| EvCancel (rolled : bool)
| EvCodeErr        (* ghost: the code produced an error of its own *)
| EvMisuse.        (* ghost: statement/commit on a finished or nil tx, unknown construct *)

Inductive phase := P0 | POpen | PCommitted | PAborted | PBad.

Definition mon_step (ph : phase) (e : event) : phase :=
  match e, ph with
  | EvBegin, P0 => POpen
  | EvBeginFail, P0 => P0
  | EvExec _, POpen | EvExecFail _, POpen | EvExecCode _, POpen => POpen
  | EvCommit, POpen => PCommitted
  | EvCommitFail, POpen => PAborted
  | EvRollback, POpen => PAborted
  | EvCancel true, POpen => PAborted
  | EvCancel false, _ => ph
  | EvCodeErr, _ => ph
  | _, _ => PBad
  end.

(* traces are kept newest-first while running *)
Fixpoint mon (tr : list event) : phase :=
  match tr with [] => P0 | e :: l => mon_step (mon l) e end.

Definition is_fault (e : event) : bool :=
  match e with EvBeginFail | EvExecFail _ | EvCommitFail => true | _ => false end.
Definition is_code (e : event) : bool :=
  match e with EvExecCode _ | EvCodeErr => true | _ => false end.
Definition faulted (tr : list event) : bool := existsb is_fault tr.
Definition coded (tr : list event) : bool := existsb is_code tr.

(* ---------- environments ---------- *)
Fixpoint upd (v : nat) (x : errval) (env : list errval) : list errval :=
  match v, env with
  | 0, [] => [x]
  | 0, _ :: t => x :: t
  | S v', [] => VNil :: upd v' x []
  | S v', h :: t => h :: upd v' x t
  end.
Definition look (v : nat) (env : list errval) : errval := nth v env VNil.
Definition bind (b : option var) (x : errval) (env : list errval) :=
  match b with Some v => upd v x env | None => env end.
Definition clear (vs : list var) (env : list errval) := fold_left (fun e v => upd v VNil e) vs env.
Definition is_nil (x : errval) : bool := match x with VNil => true | _ => false end.
Definition is_codev (x : errval) : bool := match x with VCode => true | _ => false end.

Inductive sig := SgNormal | SgBreak | SgCont | SgRet (x : errval) | SgStuck.

(* ---------- concrete semantics ---------- *)
Record cstate := {
  c_env : list errval;
  c_tr : list event;             (* newest first *)
  c_k : nat;                     (* tx statements executed so far *)
  c_n : nat;                     (* oracle consultations so far *)
  c_log : list (nat * nat);      (* decisions taken (value, arity), newest first *)
  c_defers : list nat }.

Definition cinit : cstate := {| c_env := []; c_tr := []; c_k := 0; c_n := 0; c_log := []; c_defers := [] |}.

Definition emit (e : event) (st : cstate) : cstate :=
  {| c_env := c_env st; c_tr := e :: c_tr st; c_k := c_k st; c_n := c_n st; c_log := c_log st; c_defers := c_defers st |}.
Definition cset (f : list errval -> list errval) (st : cstate) : cstate :=
  {| c_env := f (c_env st); c_tr := c_tr st; c_k := c_k st; c_n := c_n st; c_log := c_log st; c_defers := c_defers st |}.
Definition cpush (d : nat) (st : cstate) : cstate :=
  {| c_env := c_env st; c_tr := c_tr st; c_k := c_k st; c_n := c_n st; c_log := c_log st; c_defers := d :: c_defers st |}.
Definition cnodefers (st : cstate) : cstate :=
  {| c_env := c_env st; c_tr := c_tr st; c_k := c_k st; c_n := c_n st; c_log := c_log st; c_defers := [] |}.
Definition ckinc (st : cstate) : cstate :=
  {| c_env := c_env st; c_tr := c_tr st; c_k := S (c_k st); c_n := c_n st; c_log := c_log st; c_defers := c_defers st |}.
(* consult the oracle: arity 0 = any natural number (loop count) *)
Definition ask (o : nat -> nat) (arity : nat) (st : cstate) : nat * cstate :=
  let d := o (c_n st) in
  (d, {| c_env := c_env st; c_tr := c_tr st; c_k := c_k st; c_n := S (c_n st);
         c_log := (d, arity) :: c_log st; c_defers := c_defers st |}).

Definition outcome_of (d : nat) : errval :=
  match d with 0 => VNil | 1 => VFault | _ => VCode end.
Definition bool_of (d : nat) : bool := match d with 0 => false | _ => true end.

Definition ev_exec (x : errval) (k : nat) : event :=
  match x with VNil => EvExec k | VFault => EvExecFail k | VCode => EvExecCode k end.

Definition code_ev (x : errval) (st : cstate) : cstate :=
  match x with VCode => emit EvCodeErr st | _ => st end.

Section Exec.
Variable ctxrb : bool.
Variable sticky : bool.
Variable o : nat -> nat.

Definition ceval (e : rexpr) (st : cstate) : errval * cstate :=
  match e with
  | ENil => (VNil, st)
  | EVar v => (look v (c_env st), st)
  | ENew => (VCode, emit EvCodeErr st)
  | EOpaque => let '(d, st1) := ask o 2 st in
               if bool_of d then (VCode, emit EvCodeErr st1) else (VNil, st1)
  end.

Fixpoint ccond (c : cond) (st : cstate) : bool * cstate :=
  match c with
  | CTrue => (true, st)
  | CNonNil v => (negb (is_nil (look v (c_env st))), st)
  | CIsCode v => if is_codev (look v (c_env st)) then let '(d, st1) := ask o 2 st in (bool_of d, st1)
                 else (false, st)
  | COpaque => let '(d, st1) := ask o 2 st in (bool_of d, st1)
  | CNot c1 => let '(b, st1) := ccond c1 st in (negb b, st1)
  | CAnd c1 c2 => let '(b, st1) := ccond c1 st in if b then ccond c2 st1 else (false, st1)
  | COr c1 c2 => let '(b, st1) := ccond c1 st in if b then (true, st1) else ccond c2 st1
  end.

Definition is_open (ph : phase) : bool := match ph with POpen => true | _ => false end.
Definition is_p0 (ph : phase) : bool := match ph with P0 => true | _ => false end.

Definition c_begin (v : var) (st : cstate) : cstate :=
  if is_p0 (mon (c_tr st)) then
    let '(d, st1) := ask o 2 st in
    if bool_of d then cset (upd v VFault) (emit EvBeginFail st1)
    else cset (upd v VNil) (emit EvBegin st1)
  else cset (upd v VCode) (emit EvMisuse st).

Definition c_exec (b : option var) (st : cstate) : cstate :=
  if is_open (mon (c_tr st)) then
    let '(d, st1) := ask o 3 st in
    let x := if sticky && faulted (c_tr st) then VFault else outcome_of d in
    ckinc (cset (bind b x) (emit (ev_exec x (c_k st1)) st1))
  else cset (bind b VCode) (emit EvMisuse st).

Definition c_pure (b : option var) (st : cstate) : cstate :=
  let '(d, st1) := ask o 2 st in
  if bool_of d then cset (bind b VCode) (emit EvCodeErr st1) else cset (bind b VNil) st1.

Definition c_commit (b : option var) (st : cstate) : cstate :=
  if is_open (mon (c_tr st)) then
    let '(d, st1) := ask o 2 st in
    if (sticky && faulted (c_tr st)) || bool_of d then cset (bind b VFault) (emit EvCommitFail st1)
    else cset (bind b VNil) (emit EvCommit st1)
  else cset (bind b VCode) (emit EvMisuse st).

Definition c_rollback (st : cstate) : cstate :=
  match mon (c_tr st) with
  | POpen => emit EvRollback st
  | P0 => emit EvMisuse st          (* tx is nil *)
  | _ => st                         (* sql.ErrTxDone, nothing reaches the driver *)
  end.

Definition c_cancel (st : cstate) : cstate :=
  let '(d, st1) := ask o 2 st in    (* is a timeout configured (cancel != nil) *)
  if bool_of d then emit (EvCancel (ctxrb && is_open (mon (c_tr st1)))) st1 else st1.

Fixpoint citer (f : cstate -> cstate * sig) (n : nat) (st : cstate) : cstate * sig :=
  match n with
  | 0 => (st, SgNormal)
  | S n' => match f st with
            | (st1, SgNormal) | (st1, SgCont) => citer f n' st1
            | (st1, SgBreak) => (st1, SgNormal)
            | r => r
            end
  end.

Fixpoint cexec (nm : option var) (s : stmt) (st : cstate) {struct s} : cstate * sig :=
  match s with
  | SSkip => (st, SgNormal)
  | SSeq s1 s2 => match cexec nm s1 st with
                  | (st1, SgNormal) => cexec nm s2 st1
                  | r => r
                  end
  | SBegin v => (c_begin v st, SgNormal)
  | SExec b => (c_exec b st, SgNormal)
  | SPure b => (c_pure b st, SgNormal)
  | SCommit b => (c_commit b st, SgNormal)
  | SRollback => (c_rollback st, SgNormal)
  | SCancel => (c_cancel st, SgNormal)
  | SSet v e => let '(x, st1) := ceval e st in (cset (upd v x) st1, SgNormal)
  | SCall locals nm' body b =>
      match cexec nm' body st with
      | (st1, SgRet x) => (cset (clear locals) (cset (bind b x) st1), SgNormal)
      | (st1, SgStuck) => (st1, SgStuck)
      | (st1, _) => (cset (clear locals) (cset (bind b VNil) st1), SgNormal)
      end
  | SIf c s1 s2 => let '(bv, st1) := ccond c st in if bv then cexec nm s1 st1 else cexec nm s2 st1
  | SLoop body => let '(n, st1) := ask o 0 st in citer (cexec nm body) n st1
  | SBreak => (st, SgBreak)
  | SContinue => (st, SgCont)
  | SReturn e => let '(x, st1) := ceval e st in (cset (bind nm x) st1, SgRet x)
  | SDefer d => (cpush d st, SgNormal)
  | SUnknown _ => (emit EvMisuse st, SgStuck)
  end.

Fixpoint crun_defers (defers : list stmt) (ds : list nat) (st : cstate) : cstate :=
  match ds with
  | [] => st
  | d :: ds' => crun_defers defers ds' (fst (cexec None (nth d defers SSkip) st))
  end.
End Exec.

Record outcome := { r_trace : list event; r_res : option errval; r_log : list (nat * nat); r_n : nat }.

(* result None = the body ended without a return statement (or got stuck) *)
Definition exec (p : prog) (o : nat -> nat) : outcome :=
  let '(st1, sg) := cexec (p_ctxrb p) (p_sticky p) o (p_named p) (p_body p) cinit in
  let st2 := crun_defers (p_ctxrb p) (p_sticky p) o (p_defers p) (c_defers st1) (cnodefers st1) in
  let res := match sg with
             | SgRet x => Some (match p_named p with Some v => look v (c_env st2) | None => x end)
             | _ => None
             end in
  {| r_trace := rev (c_tr st2); r_res := res; r_log := rev (c_log st2); r_n := c_n st2 |}.

(* ---------- the property on one run ---------- *)
Definition final_ok (ph : phase) (flt cod : bool) (res : errval) : bool :=
  match ph with
  | P0 => implb (is_nil res) (negb flt)                  (* no transaction was started; a failed Begin is reported *)
  | PCommitted => is_nil res && negb flt           (* committed: nothing failed, nil returned *)
  | PAborted => negb (is_nil res)                  (* rolled back: the error is reported *)
  | POpen | PBad => false                          (* left open / misuse *)
  end
  && (flt || cod || match ph with PCommitted | P0 => true | _ => false end).
                                                   (* nothing went wrong -> committed *)
Definition atomic_run (r : outcome) : bool :=
  match r_res r with
  | Some x => let tr := rev (r_trace r) in final_ok (mon tr) (faulted tr) (coded tr) x
  | None => false
  end.

(* ---------- abstract (collecting) semantics over the finite quotient ---------- *)
Record apoint := { a_env : list errval; a_ph : phase; a_flt : bool; a_cod : bool; a_defers : list nat }.

Definition abs (st : cstate) : apoint :=
  {| a_env := c_env st; a_ph := mon (c_tr st); a_flt := faulted (c_tr st); a_cod := coded (c_tr st);
     a_defers := c_defers st |}.

Definition aemit (e : event) (pt : apoint) : apoint :=
  {| a_env := a_env pt; a_ph := mon_step (a_ph pt) e; a_flt := is_fault e || a_flt pt;
     a_cod := is_code e || a_cod pt; a_defers := a_defers pt |}.
Definition aset (f : list errval -> list errval) (pt : apoint) : apoint :=
  {| a_env := f (a_env pt); a_ph := a_ph pt; a_flt := a_flt pt; a_cod := a_cod pt; a_defers := a_defers pt |}.
Definition apush (d : nat) (pt : apoint) : apoint :=
  {| a_env := a_env pt; a_ph := a_ph pt; a_flt := a_flt pt; a_cod := a_cod pt; a_defers := d :: a_defers pt |}.
Definition anodefers (pt : apoint) : apoint :=
  {| a_env := a_env pt; a_ph := a_ph pt; a_flt := a_flt pt; a_cod := a_cod pt; a_defers := [] |}.

Definition errval_eq_dec (x y : errval) : {x = y} + {x <> y}.
Proof. decide equality. Defined.
Definition phase_eq_dec (x y : phase) : {x = y} + {x <> y}.
Proof. decide equality. Defined.
Definition sig_eq_dec (x y : sig) : {x = y} + {x <> y}.
Proof. decide equality. apply errval_eq_dec. Defined.
Definition apoint_eq_dec (x y : apoint) : {x = y} + {x <> y}.
Proof.
  decide equality.
  - apply (list_eq_dec Nat.eq_dec).
  - apply bool_dec.
  - apply bool_dec.
  - apply phase_eq_dec.
  - apply (list_eq_dec errval_eq_dec).
Defined.
Definition res_eq_dec (x y : apoint * sig) : {x = y} + {x <> y}.
Proof. decide equality. apply sig_eq_dec. apply apoint_eq_dec. Defined.

Definition dedup (l : list (apoint * sig)) := nodup res_eq_dec l.
Definition memp (x : apoint) (l : list apoint) : bool := if in_dec apoint_eq_dec x l then true else false.

Section AExec.
Variable ctxrb : bool.
Variable sticky : bool.
Variable fuel : nat.

Definition aeval (e : rexpr) (pt : apoint) : list (errval * apoint) :=
  match e with
  | ENil => [(VNil, pt)]
  | EVar v => [(look v (a_env pt), pt)]
  | ENew => [(VCode, aemit EvCodeErr pt)]
  | EOpaque => [(VNil, pt); (VCode, aemit EvCodeErr pt)]
  end.

(* conditions do not change the abstract point *)
Fixpoint acond (c : cond) (pt : apoint) : list bool :=
  match c with
  | CTrue => [true]
  | CNonNil v => [negb (is_nil (look v (a_env pt)))]
  | CIsCode v => if is_codev (look v (a_env pt)) then [false; true] else [false]
  | COpaque => [false; true]
  | CNot c1 => map negb (acond c1 pt)
  | CAnd c1 c2 => flat_map (fun b : bool => if b then acond c2 pt else [false]) (acond c1 pt)
  | COr c1 c2 => flat_map (fun b : bool => if b then [true] else acond c2 pt) (acond c1 pt)
  end.

Definition a_begin (v : var) (pt : apoint) : list apoint :=
  if is_p0 (a_ph pt) then [aset (upd v VNil) (aemit EvBegin pt); aset (upd v VFault) (aemit EvBeginFail pt)]
  else [aset (upd v VCode) (aemit EvMisuse pt)].
(* the statement index carried by Exec events is irrelevant to the monitor *)
Definition a_exec (b : option var) (pt : apoint) : list apoint :=
  if is_open (a_ph pt) then
    map (fun x => aset (bind b x) (aemit (ev_exec x 0) pt))
        (if sticky && a_flt pt then [VFault] else [VNil; VFault; VCode])
  else [aset (bind b VCode) (aemit EvMisuse pt)].
Definition a_pure (b : option var) (pt : apoint) : list apoint :=
  [aset (bind b VNil) pt; aset (bind b VCode) (aemit EvCodeErr pt)].
Definition a_commit (b : option var) (pt : apoint) : list apoint :=
  if is_open (a_ph pt) then
    (if sticky && a_flt pt then [] else [aset (bind b VNil) (aemit EvCommit pt)])
    ++ [aset (bind b VFault) (aemit EvCommitFail pt)]
  else [aset (bind b VCode) (aemit EvMisuse pt)].
Definition a_rollback (pt : apoint) : apoint :=
  match a_ph pt with POpen => aemit EvRollback pt | P0 => aemit EvMisuse pt | _ => pt end.
Definition a_cancel (pt : apoint) : list apoint :=
  [pt; aemit (EvCancel (ctxrb && is_open (a_ph pt))) pt].

Definition normals (l : list (apoint * sig)) : list apoint :=
  flat_map (fun r => match snd r with SgNormal | SgCont => [fst r] | _ => [] end) l.
Definition exits (l : list (apoint * sig)) : list (apoint * sig) :=
  flat_map (fun r => match snd r with
                     | SgBreak => [(fst r, SgNormal)]
                     | SgRet x => [(fst r, SgRet x)]
                     | SgStuck => [(fst r, SgStuck)]
                     | _ => [] end) l.

(* heads: set of points at the loop head, closed under one iteration *)
Fixpoint agrow (f : apoint -> list (apoint * sig)) (n : nat) (heads frontier : list apoint) : list apoint :=
  match n with
  | 0 => heads
  | S n' =>
      let new := nodup apoint_eq_dec (filter (fun x => negb (memp x heads)) (flat_map (fun h => normals (f h)) frontier)) in
      match new with
      | [] => heads
      | _ => agrow f n' (heads ++ new) new
      end
  end.
Definition closedb (f : apoint -> list (apoint * sig)) (heads : list apoint) : bool :=
  forallb (fun h => forallb (fun x => memp x heads) (normals (f h))) heads.

Definition aloop (f : apoint -> list (apoint * sig)) (pt : apoint) : list (apoint * sig) :=
  let heads := agrow f fuel [pt] [pt] in
  if closedb f heads then
    map (fun h => (h, SgNormal)) heads ++ flat_map (fun h => exits (f h)) heads
  else [(pt, SgStuck)].

Fixpoint aexec (nm : option var) (s : stmt) (pt : apoint) {struct s} : list (apoint * sig) :=
  match s with
  | SSkip => [(pt, SgNormal)]
  | SSeq s1 s2 =>
      dedup (flat_map (fun r => match snd r with SgNormal => aexec nm s2 (fst r) | _ => [r] end) (aexec nm s1 pt))
  | SBegin v => map (fun q => (q, SgNormal)) (a_begin v pt)
  | SExec b => map (fun q => (q, SgNormal)) (a_exec b pt)
  | SPure b => map (fun q => (q, SgNormal)) (a_pure b pt)
  | SCommit b => map (fun q => (q, SgNormal)) (a_commit b pt)
  | SRollback => [(a_rollback pt, SgNormal)]
  | SCancel => map (fun q => (q, SgNormal)) (a_cancel pt)
  | SSet v e => map (fun r => (aset (upd v (fst r)) (snd r), SgNormal)) (aeval e pt)
  | SCall locals nm' body b =>
      dedup (map (fun r => match snd r with
                           | SgRet x => (aset (clear locals) (aset (bind b x) (fst r)), SgNormal)
                           | SgStuck => (fst r, SgStuck)
                           | _ => (aset (clear locals) (aset (bind b VNil) (fst r)), SgNormal)
                           end) (aexec nm' body pt))
  | SIf c s1 s2 =>
      dedup (flat_map (fun bv : bool => if bv then aexec nm s1 pt else aexec nm s2 pt) (acond c pt))
  | SLoop body => dedup (aloop (aexec nm body) pt)
  | SBreak => [(pt, SgBreak)]
  | SContinue => [(pt, SgCont)]
  | SReturn e => map (fun r => (aset (bind nm (fst r)) (snd r), SgRet (fst r))) (aeval e pt)
  | SDefer d => [(apush d pt, SgNormal)]
  | SUnknown _ => [(aemit EvMisuse pt, SgStuck)]
  end.

(* deferred closures, LIFO; None when a closure gets stuck *)
Definition is_stuck (r : apoint * sig) : bool := match snd r with SgStuck => true | _ => false end.
Definition astep_defer (s : stmt) (pts : list apoint) : option (list apoint) :=
  let rs := flat_map (aexec None s) pts in
  if existsb is_stuck rs then None else Some (nodup apoint_eq_dec (map fst rs)).
Fixpoint arun_defers (defers : list stmt) (ds : list nat) (pts : list apoint) : option (list apoint) :=
  match ds with
  | [] => Some pts
  | d :: ds' => match astep_defer (nth d defers SSkip) pts with
                | Some pts' => arun_defers defers ds' pts'
                | None => None
                end
  end.
End AExec.

Definition ainit : apoint := {| a_env := []; a_ph := P0; a_flt := false; a_cod := false; a_defers := [] |}.

Definition afinal_ok (named : option var) (x : errval) (pt : apoint) : bool :=
  final_ok (a_ph pt) (a_flt pt) (a_cod pt) (match named with Some v => look v (a_env pt) | None => x end).

Definition check_result (p : prog) (fuel : nat) (r : apoint * sig) : bool :=
  match snd r with
  | SgRet x => match arun_defers (p_ctxrb p) (p_sticky p) fuel (p_defers p) (a_defers (fst r)) [anodefers (fst r)] with
               | Some pts => forallb (afinal_ok (p_named p) x) pts
               | None => false
               end
  | SgNormal | SgBreak | SgCont | SgStuck => false
  end.

(* rounds allowed for growing the set of loop heads ([agrow]): if they do not suffice the set
   is not closed, [aloop] answers [SgStuck] and the check below is false *)
Definition loop_fuel : nat := 200.

(* THE decidable discipline: every reachable way of leaving the function,
   for every combination of oracle decisions, ends in a state that satisfies
   [final_ok] after the deferred calls have run. *)
Definition wf_tx (p : prog) : bool :=
  forallb (check_result p loop_fuel) (aexec (p_ctxrb p) (p_sticky p) loop_fuel (p_named p) (p_body p) ainit).

(* ---------- syntactic hygiene (fail closed even on unreachable code) ---------- *)
Fixpoint no_unknown (s : stmt) : bool :=
  match s with
  | SUnknown _ => false
  | SSeq a b | SIf _ a b => no_unknown a && no_unknown b
  | SCall _ _ a _ | SLoop a => no_unknown a
  | _ => true
  end.
Fixpoint unknowns (s : stmt) : list string :=
  match s with
  | SUnknown t => [t]
  | SSeq a b | SIf _ a b => unknowns a ++ unknowns b
  | SCall _ _ a _ | SLoop a => unknowns a
  | _ => []
  end.
Definition prog_known (p : prog) : bool := no_unknown (p_body p) && forallb no_unknown (p_defers p).
Definition wf_prog (p : prog) : bool := prog_known p && wf_tx p.

(* ---------- enumeration of concrete decision sequences ---------- *)
(* oracle from a finite decision list, 0 (ok / false / no iteration) beyond it *)
Definition oracle_of (ds : list nat) : nat -> nat := fun n => nth n ds 0.

Definition alts (arity : nat) : list nat :=
  match arity with
  | 0 => [1; 2]        (* loop counts 1, 2 (0 is the default) *)
  | 2 => [1]
  | 3 => [1; 2]
  | _ => []
  end.

(* Depth-first enumeration of decision lists through [exec]: run [ds] padded
   with defaults, then every list that first differs from that run at a
   position >= length ds.  Every decision sequence with loop counts <= 2 is
   visited exactly once unless the budget runs out ([x_complete] = false). *)
Record xstats := { x_runs : nat; x_faulted : nat; x_committed : nat; x_complete : bool;
                   x_bad : option (list nat * outcome) }.

Definition children (ds : list nat) (r : outcome) : list (list nat) :=
  let full := map fst (r_log r) in
  let ars := map snd (r_log r) in
  flat_map (fun i => map (fun d => firstn i full ++ [d]) (alts (nth i ars 1)))
           (seq (List.length ds) (List.length full - List.length ds)).

Definition committed (r : outcome) : bool :=
  match mon (rev (r_trace r)) with PCommitted => true | _ => false end.

Fixpoint explore (p : prog) (budget : nat) (work : list (list nat)) (n nf nc : nat) : xstats :=
  match work with
  | [] => {| x_runs := n; x_faulted := nf; x_committed := nc; x_complete := true; x_bad := None |}
  | ds :: rest =>
      match budget with
      | 0 => {| x_runs := n; x_faulted := nf; x_committed := nc; x_complete := false; x_bad := None |}
      | S budget' =>
          let r := exec p (oracle_of ds) in
          if atomic_run r then
            explore p budget' (children ds r ++ rest) (S n)
                    (if faulted (r_trace r) then S nf else nf) (if committed r then S nc else nc)
          else {| x_runs := S n; x_faulted := nf; x_committed := nc; x_complete := false; x_bad := Some (ds, r) |}
      end
  end.

Definition explore_budget : nat := 200 * 100.
Definition explore_n (budget : nat) (p : prog) : xstats := explore p budget [[]] 0 0 0.
Definition explore_all (p : prog) : xstats := explore_n explore_budget p.
Definition runs_ok (p : prog) : bool :=
  match x_bad (explore_all p) with None => true | Some _ => false end.
