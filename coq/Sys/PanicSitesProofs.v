(* Lemmas about Sys/PanicSites.v (C13).  Session.dispatch hands a request that passes its checks to the handler of
   its kind (dispatch_route); the code as it is answers every request once, with its id (dispatch_outcome), hence
   reaches no panic site; the code before the repairs panics only on the model's triggers (handle_trigger). *)
From Coq Require Import List NArith ZArith Bool.
Import ListNotations.
Require Import Tinode.Sys.PanicSites.
Open Scope N_scope.

Lemma eqs_eq a : forall b, eqs a b = true -> a = b.
Proof.
  induction a as [|x a IH]; destruct b as [|y b]; simpl; try discriminate; auto.
  intros H. apply andb_prop in H as [H1 H2]. apply N.eqb_eq in H1. f_equal; auto.
Qed.

Lemma eqs_refl a : eqs a a = true.
Proof. induction a; simpl; auto. rewrite N.eqb_refl. auto. Qed.

(* GetTopicCat is defined exactly on the valid names *)
Lemma cat_panics_iff n : cat_panics n = negb (topic_name_valid n).
Proof.
  unfold cat_panics, topic_name_valid, get_topic_cat.
  destruct n as [|a [|b [|c r]]]; try reflexivity.
  destruct (eqs [a; b; c] s_usr); [reflexivity|]. destruct (eqs [a; b; c] s_p2p); [reflexivity|].
  destruct (eqs [a; b; c] s_grp); [reflexivity|]. destruct (eqs [a; b; c] s_chn); [reflexivity|].
  destruct (eqs [a; b; c] s_fnd); [reflexivity|]. destruct (eqs [a; b; c] s_sys); reflexivity.
Qed.

Lemma valid_cat_ok n : topic_name_valid n = true -> exists c, get_topic_cat n = CatOk c.
Proof.
  intros H. pose proof (cat_panics_iff n) as P. rewrite H in P. unfold cat_panics in P.
  destruct (get_topic_cat n); [eauto|discriminate P].
Qed.

Lemma has_prefix_app p : forall s, has_prefix p s = true -> exists r, s = p ++ r.
Proof.
  induction p as [|x p IH]; intros s; cbn [has_prefix app]; [eauto|].
  destruct s as [|y s]; [discriminate|].
  intros H. apply andb_prop in H as [H1 H2]. apply N.eqb_eq in H1. subst y.
  destruct (IH s H2) as [r ->]. eauto.
Qed.

Lemma has_prefix_chn n : has_prefix s_chn n = true -> exists r, n = 99 :: 104 :: 110 :: r.
Proof. intros H. apply has_prefix_app in H as [r ->]. exists r. reflexivity. Qed.

Lemma is_channel_valid n : is_channel n = true -> topic_name_valid n = true.
Proof. intros H. apply has_prefix_chn in H as [r ->]. reflexivity. Qed.

Lemma expand_channel u m n :
  is_channel (m_topic m) = true -> expand u m = ExpOk n -> topic_name_valid n = true.
Proof.
  intros H. apply has_prefix_chn in H as [r Hr]. unfold expand. rewrite Hr. simpl.
  intros E. injection E as <-. reflexivity.
Qed.

Lemma has_row_valid rows : forall name u,
  forallb (fun r => topic_name_valid (fst r)) rows = true -> has_row name u rows = true -> topic_name_valid name = true.
Proof.
  induction rows as [|[n v] rows IH]; simpl; intros name u Hall H; [discriminate|].
  apply andb_prop in Hall as [Hv Hall].
  apply orb_prop in H as [H|H].
  - apply andb_prop in H as [H _]. apply eqs_eq in H. now subst.
  - eauto.
Qed.

Lemma wf_rows st : state_wf st = true -> forallb (fun r => topic_name_valid (fst r)) (w_rows st) = true.
Proof. unfold state_wf. intros H. apply andb_prop in H as [H _]. apply andb_prop in H as [H _]. exact H. Qed.

(* the name handed to GetTopicCat after a subscription row was found is valid *)
Lemma row_found_valid st u m name :
  state_wf st = true -> expand u m = ExpOk name ->
  has_row (row_name m name) u (w_rows st) = true -> topic_name_valid name = true.
Proof.
  intros Hwf He Hr. unfold row_name in Hr.
  destruct (is_channel (m_topic m)) eqn:Hc.
  - eapply expand_channel; eauto.
  - eapply has_row_valid; eauto using wf_rows.
Qed.

Lemma row_name_valid m name : topic_name_valid name = true -> topic_name_valid (row_name m name) = true.
Proof. unfold row_name. destruct (is_channel (m_topic m)) eqn:Hc; auto using is_channel_valid. Qed.

#[local] Arguments has_prefix : simpl never.
#[local] Arguments eqs : simpl never.
#[local] Arguments mem_str : simpl never.
#[local] Arguments mem_n : simpl never.
#[local] Arguments N.eqb : simpl never.
#[local] Arguments N.ltb : simpl never.
#[local] Arguments Z.eqb : simpl never.
#[local] Arguments Z.leb : simpl never.
#[local] Arguments find_topic : simpl never.
#[local] Arguments has_row : simpl never.
#[local] Arguments get_topic_cat : simpl never.
#[local] Arguments topic_name_valid : simpl never.
#[local] Arguments expand : simpl never.

Lemma rep_not_panic code id : is_panic (rep code id) = false.
Proof. reflexivity. Qed.

Definition handler (rp : repairs) (c : cfg) (st : state) (m : msg) : outcome :=
  let u := acting_user st m in
  match m_kind m with
  | KHi => h_hello st m
  | KAcc => h_acc rp c st m
  | KLogin => h_login c st m
  | KSub => h_subscribe rp c st u m
  | KLeave => h_leave st u m
  | KPub => h_publish rp c st u m
  | KGet => h_get rp st u m
  | KSet => h_set rp c st u m
  | KDel => h_del rp st u m
  | KNote => h_note rp st u m
  end.

(* Session.dispatch, whatever the repairs: a request that passes extra.obo is refused by the
   cluster / version / login checks with one error code, or handed to the handler of its kind *)
Lemma dispatch_route rp c st m :
  obo_check st (m_obo m) (m_obo_uid m) = None ->
  (exists code, (code = 502 \/ code = 409 \/ code = 401) /\ dispatch rp c st m = rep code (m_id m)) \/
  passes_front st m = true /\
  match m_kind m with KHi | KNote => True | _ => passes_checks st m = true end /\
  dispatch rp c st m = handler rp c st m.
Proof.
  intros O. unfold dispatch, handler, passes_checks, passes_front, acting_user. rewrite O.
  destruct (w_partitioned st); [left; exists 502; auto|].
  destruct (m_kind m); cbn [andb negb needs_user]; try (right; repeat split; reflexivity).
  all: (destruct (s_ver st =? 0); [left; exists 409; auto|]); cbn [andb negb]; try (right; repeat split; reflexivity).
  all: destruct (_ =? 0); [left; exists 401; auto|right; repeat split; reflexivity].
Qed.

(* exactly one reply, carrying [id] *)
Inductive answers (id : str) : outcome -> Prop := answers_rep code : answers id (rep code id).

Lemma answers_not_panic id o : answers id o -> is_panic o = false.
Proof. intros []. reflexivity. Qed.

(* a chain of tests each of whose branches ends in a reply or in a hypothesis of the context *)
Ltac leaves := repeat (simpl; match goal with |- context [if ?c then _ else _] => destruct c end); simpl; auto using answers.

(* the default-access table has a case for each of the five categories *)
Lemma after_access_for_repaired c k : after_access_for all_repairs c k = k.
Proof. destruct c; reflexivity. Qed.

Lemma offline_get_sub_answers st u m name :
  state_wf st = true -> expand u m = ExpOk name -> answers (m_id m) (offline_get_sub st u name m).
Proof.
  intros Hwf He. unfold offline_get_sub.
  destruct (o_reject st); [constructor|]. destruct (o_store_err st); [constructor|].
  destruct (has_row (row_name m name) u (w_rows st)) eqn:Hr; [|constructor]. simpl.
  destruct (valid_cat_ok name (row_found_valid st u m name Hwf He Hr)) as [c ->]. constructor.
Qed.

Lemma offline_set_sub_answers st u m name :
  state_wf st = true -> expand u m = ExpOk name -> answers (m_id m) (offline_set_sub st u name m).
Proof.
  intros Hwf He. unfold offline_set_sub.
  destruct (negb (m_set_private m) && negb (m_set_mode m)); [constructor|].
  destruct (o_reject st); [constructor|]. destruct (o_store_err st); [constructor|].
  destruct (has_row (row_name m name) u (w_rows st)) eqn:Hr; [|constructor]. simpl.
  destruct (m_set_mode m); [|constructor].
  destruct (valid_cat_ok name (row_found_valid st u m name Hwf He Hr)) as [c ->]. constructor.
Qed.

Lemma topic_unreg_answers st u m name : answers (m_id m) (topic_unreg all_repairs st u name m).
Proof.
  unfold topic_unreg. destruct (find_topic name (w_loaded st)); [leaves|]. simpl.
  destruct (topic_name_valid name) eqn:Hv; simpl; [|constructor].
  destruct (o_store_err st); [constructor|].
  destruct (valid_cat_ok _ (row_name_valid m name Hv)) as [c ->]. constructor.
Qed.

Lemma this_user_sub_answers st ti u m : answers (m_id m) (this_user_sub all_repairs st ti u m).
Proof.
  unfold this_user_sub. rewrite !after_access_for_repaired.
  destruct (o_reject st); [constructor|]. destruct (o_store_err st); [constructor|].
  destruct (find_pud u (t_peruser ti)) as [p|]; [destruct (pu_deleted p)|]; simpl.
  - destruct (t_cat ti); leaves.
  - leaves.
  - destruct (t_cat ti); leaves.
Qed.

Lemma another_user_sub_answers st ti u tg m : answers (m_id m) (another_user_sub all_repairs st ti u tg m).
Proof.
  unfold another_user_sub. rewrite !after_access_for_repaired.
  destruct (find_pud u (t_peruser ti)) as [h|]; [|constructor].
  destruct (negb (pu_sharer h)); [constructor|]. destruct (is_channel (m_topic m)); [constructor|].
  destruct (o_reject st); [constructor|].
  destruct (_ && _); destruct (o_store_err st); constructor.
Qed.

Lemma reply_set_sub_answers st ti u m : answers (m_id m) (reply_set_sub all_repairs st ti u m).
Proof.
  unfold reply_set_sub. destruct (_ && _); [constructor|].
  destruct (_ =? u); [apply this_user_sub_answers|apply another_user_sub_answers].
Qed.

(* the media handler is tested before it is used *)
Lemma topic_set_answers c st ti u m : answers (m_id m) (topic_set all_repairs c st ti u m).
Proof.
  unfold topic_set. simpl. rewrite !andb_false_r. destruct (m_set_sub m); [|constructor].
  destruct (reply_set_sub_answers st ti u m). destruct (m_set_desc m); constructor.
Qed.

Lemma topic_init_answers c st m : answers (m_id m) (topic_init all_repairs c st m).
Proof. unfold topic_init. simpl. rewrite !andb_false_r. leaves. Qed.

Lemma hub_join_answers c st u name m : answers (m_id m) (hub_join all_repairs c st u name m).
Proof.
  unfold hub_join. destruct (find_topic name (w_loaded st)) as [ti|]; [|apply topic_init_answers].
  destruct (t_inactive ti); [constructor|]. destruct (o_queue_full st); [constructor|apply this_user_sub_answers].
Qed.

Lemma h_subscribe_answers c st u m : answers (m_id m) (h_subscribe all_repairs c st u m).
Proof.
  assert (J : forall r, answers (m_id m) match r with ExpErr code => rep code (m_id m) | ExpOk name =>
                if attached st name then rep 304 (m_id m) else if o_queue_full st then rep 503 (m_id m)
                else hub_join all_repairs c st u name m end).
  { intros [code|name]; [constructor|]. destruct (attached st name); [constructor|].
    destruct (o_queue_full st); [constructor|apply hub_join_answers]. }
  apply J.
Qed.

(* an accepted {pub} without an id is not acknowledged; Topic.original answers a non-member *)
Lemma h_publish_answers c st u m :
  answers (m_id m) (h_publish all_repairs c st u m) \/
  is_empty (m_id m) = true /\ h_publish all_repairs c st u m = Silent.
Proof.
  assert (T : forall ti, answers (m_id m) (topic_pub all_repairs c st ti u m) \/
                         is_empty (m_id m) = true /\ topic_pub all_repairs c st ti u m = Silent).
  { intros ti. unfold topic_pub. simpl. rewrite !andb_false_r.
    destruct (_ && _); [left; constructor|]. destruct (o_reject st); [left; constructor|].
    destruct (o_store_err st); [left; constructor|]. destruct (is_empty (m_id m)); [right; auto|left; constructor]. }
  unfold h_publish. destruct (expand u m); [left; constructor|].
  destruct (attached st name); [|destruct (eqs name s_sys); [|left; constructor]];
    (destruct (o_queue_full st); [left; constructor|]);
    (destruct (find_topic name (w_loaded st)); [apply T|left; constructor]).
Qed.

Lemma h_get_answers st u m : state_wf st = true -> answers (m_id m) (h_get all_repairs st u m).
Proof.
  intros Hwf. unfold h_get. destruct (expand u m) eqn:He; [constructor|].
  destruct (negb _); [constructor|]. destruct (attached st name).
  - destruct (o_queue_full st); [constructor|]. destruct (find_topic name (w_loaded st)); [|constructor].
    unfold topic_get, original_panics. simpl. rewrite !andb_false_r. constructor.
  - destruct (m_get_desc m || m_get_sub m); [|constructor]. destruct (o_queue_full st); [constructor|].
    destruct (_ && _); [unfold offline_get_desc; leaves|now apply offline_get_sub_answers].
Qed.

Lemma h_set_answers c st u m : state_wf st = true -> answers (m_id m) (h_set all_repairs c st u m).
Proof.
  intros Hwf. unfold h_set. destruct (expand u m) eqn:He; [constructor|].
  destruct (negb _); [constructor|]. destruct (attached st name).
  - destruct (o_queue_full st); [constructor|]. destruct (find_topic name (w_loaded st)); [apply topic_set_answers|constructor].
  - destruct (m_set_tags m || m_set_cred m); [constructor|]. destruct (o_queue_full st); [constructor|].
    now apply offline_set_sub_answers.
Qed.

Lemma h_del_answers st u m : answers (m_id m) (h_del all_repairs st u m).
Proof.
  unfold h_del. destruct (eqs (m_what m) s_user); [constructor|]. destruct (expand u m); [constructor|].
  destruct (negb _); [constructor|]. destruct (_ && _); [leaves|].
  destruct (eqs (m_what m) s_topic); [|constructor].
  destruct (o_queue_full st); [constructor|apply topic_unreg_answers].
Qed.

Lemma h_hello_answers st m : answers (m_id m) (h_hello st m).
Proof. unfold h_hello. leaves. Qed.

Lemma h_login_answers c st m : answers (m_id m) (h_login c st m).
Proof. unfold h_login. leaves. Qed.

Lemma h_leave_answers st u m : answers (m_id m) (h_leave st u m).
Proof. unfold h_leave. destruct (expand u m); leaves. Qed.

(* a {note} is never acknowledged; a full queue or a missing attachment is reported without an id *)
Lemma h_note_quiet st u m : h_note all_repairs st u m = Silent \/ answers [] (h_note all_repairs st u m).
Proof.
  unfold h_note. destruct (_ || _); [auto|]. destruct (expand u m); [auto|]. simpl.
  set (go := if attached st name then _ else _).
  assert (G : go = Silent \/ answers [] go) by (unfold go; leaves).
  clearbody go. leaves.
Qed.

(* every request is answered once, with its id; only a {note} and an accepted {pub} without an id may pass in silence *)
Lemma dispatch_outcome c st m :
  state_wf st = true -> obo_check st (m_obo m) (m_obo_uid m) = None ->
  answers (m_id m) (dispatch all_repairs c st m) \/
  (m_kind m = KNote \/ m_kind m = KPub /\ is_empty (m_id m) = true) /\
  (dispatch all_repairs c st m = Silent \/ answers [] (dispatch all_repairs c st m)).
Proof.
  intros Hwf O. destruct (dispatch_route all_repairs c st m O) as [[code [_ ->]]|[_ [_ ->]]]; [left; constructor|].
  unfold handler. destruct (m_kind m).
  - left. apply h_hello_answers.
  - left. unfold h_acc. simpl. rewrite !andb_false_r. leaves.
  - left. apply h_login_answers.
  - left. apply h_subscribe_answers.
  - left. apply h_leave_answers.
  - destruct (h_publish_answers c st (acting_user st m) m) as [A|[E ->]]; auto.
  - left. now apply h_get_answers.
  - left. now apply h_set_answers.
  - left. apply h_del_answers.
  - right. split; [auto|apply h_note_quiet].
Qed.

Lemma handle_safe c st f : state_wf st = true -> is_panic (handle all_repairs c st f) = false.
Proof.
  intros Hwf.
  assert (D : forall m, is_panic (dispatch all_repairs c st m) = false).
  { intros m. destruct (obo_check st (m_obo m) (m_obo_uid m)) eqn:O; [unfold dispatch; rewrite O; reflexivity|].
    destruct (dispatch_outcome c st m Hwf O) as [A|[_ [-> |A]]]; [|reflexivity|]; exact (answers_not_panic _ _ A). }
  destruct f; simpl; rewrite ?andb_false_r; try apply D; destruct (s_terminating st); try reflexivity; [|apply D].
  destruct (obo_check st obo obo_uid); reflexivity.
Qed.

Definition is_answered (o : outcome) : bool := match o with Replies (_ :: _) => true | _ => false end.
Definition all_ids (id : str) (o : outcome) : bool :=
  match o with Replies l => forallb (fun r => eqs (r_id r) id) l | _ => true end.

Lemma dispatch_answers c st m :
  state_wf st = true -> obo_check st (m_obo m) (m_obo_uid m) = None ->
  m_kind m <> KNote -> (m_kind m = KPub -> is_empty (m_id m) = false) ->
  answers (m_id m) (dispatch all_repairs c st m).
Proof.
  intros Hwf O Hn Hp. destruct (dispatch_outcome c st m Hwf O) as [A|[[K|[K E]] _]]; [exact A|contradiction|].
  rewrite (Hp K) in E. discriminate E.
Qed.

Lemma answered c st m :
  s_terminating st = false -> state_wf st = true -> m_kind m <> KNote ->
  (m_kind m = KPub -> is_empty (m_id m) = false) ->
  is_answered (handle all_repairs c st (Decoded m)) = true.
Proof.
  intros Ht Hwf Hn Hp. simpl. rewrite Ht.
  destruct (obo_check st (m_obo m) (m_obo_uid m)) eqn:O.
  - unfold dispatch. rewrite O. reflexivity.
  - destruct (dispatch_answers c st m Hwf O Hn Hp). reflexivity.
Qed.

Lemma obo_check_code st obo u code : obo_check st obo u = Some code -> code = 403 \/ code = 400.
Proof. unfold obo_check. destruct (is_empty obo); [discriminate|]. destruct (negb (s_root st)); [intros [= <-]; auto|].
  destruct (u =? 0); [intros [= <-]; auto|discriminate]. Qed.

Lemma error_not_silence c st m :
  s_terminating st = false -> bad_request st m = true ->
  exists code id, handle all_repairs c st (Decoded m) = rep code id /\ 400 <= code.
Proof.
  intros Ht Hb. simpl. rewrite Ht.
  destruct (obo_check st (m_obo m) (m_obo_uid m)) eqn:O.
  { unfold dispatch. rewrite O. exists n, []. split; [reflexivity|]. apply obo_check_code in O as [-> | ->]; discriminate. }
  destruct (dispatch_route all_repairs c st m O) as [[code [Hc ->]]|[_ [P ->]]].
  { exists code, (m_id m). split; [reflexivity|]. destruct Hc as [-> |[-> | ->]]; discriminate. }
  exists 400, (m_id m). split; [|discriminate].
  unfold bad_request, passes_checks, takes_topic, handler in *.
  destruct (m_kind m); try discriminate Hb;
    apply andb_prop in P as [P P2]; apply andb_prop in P as [_ P1];
    apply negb_true_iff in P1, P2; rewrite P1, P2 in Hb; simpl in Hb; try discriminate Hb.
  - unfold h_subscribe, expand. rewrite Hb. destruct (m_topic m); [reflexivity|discriminate Hb].
  - unfold h_leave, expand. rewrite Hb. reflexivity.
  - unfold h_publish, expand. rewrite Hb. reflexivity.
  - unfold h_get, expand. rewrite Hb. reflexivity.
  - unfold h_set, expand. rewrite Hb. reflexivity.
  - unfold h_del, expand. apply andb_prop in Hb as [Hb1 Hb2]. apply negb_true_iff in Hb1. rewrite Hb1, Hb2. reflexivity.
Qed.

(* the code before the repairs: every modelled panic is one of the listed triggers.  Each goal reads "the handler
   panics -> the trigger holds"; both sides are decision trees over the same tests, so a proof settles the handler's
   tests in order: a branch that replies refutes the premise, a branch that panics has made the trigger true. *)
Ltac test c := destruct c; simpl; try discriminate; try (intros _; reflexivity).

Lemma acc_trigger c st m :
  m_kind m = KAcc -> passes_checks st m = true -> is_panic (h_acc no_repairs c st m) = true ->
  trig_acc c st m || trig_media c st m = true.
Proof.
  intros K P. unfold trig_acc, trig_media, h_acc. rewrite K, P. simpl.
  test (has_prefix s_new (m_user m)).
  - test (o_reject st). test (m_attachments m). test (media_configured c).
  - test (is_empty (m_tmpscheme m)). test (s_uid st =? 0). test (mem_str (m_tmpscheme m) (auth_schemes c)). test (o_store_err st).
Qed.

Lemma note_trigger st m :
  m_kind m = KNote -> passes_front st m = true -> is_panic (h_note no_repairs st (acting_user st m) m) = true ->
  trig_note st m = true.
Proof.
  intros K F. unfold trig_note, expanded, h_note, cat_panics. rewrite K, F. simpl.
  test (s_ver st =? 0). test (acting_user st m =? 0). destruct (expand (acting_user st m) m) as [code|name]; [discriminate|].
  (* where the note goes does not matter: no route panics *)
  set (go := if attached st name then _ else _).
  assert (G : is_panic go = false) by (unfold go; leaves). clearbody go.
  test (eqs (m_what m) s_data); [test (m_payload m); congruence|].
  test (eqs (m_what m) s_kp || eqs (m_what m) s_kpa || eqs (m_what m) s_kpv); [test (m_seq m =? 0)%Z; congruence|].
  test (eqs (m_what m) s_call).
  - destruct (get_topic_cat name) as [[]|]; simpl; try discriminate; try (intros _; reflexivity). test (m_seq m <=? 0)%Z. congruence.
  - test (eqs (m_what m) s_read || eqs (m_what m) s_recv). test (m_seq m <=? 0)%Z. congruence.
Qed.

Lemma del_trigger st m :
  m_kind m = KDel -> passes_checks st m = true -> is_panic (h_del no_repairs st (acting_user st m) m) = true ->
  trig_unreg st m = true.
Proof.
  intros K P. unfold trig_unreg, expanded, h_del, topic_unreg, cat_panics. rewrite K, P. simpl.
  test (eqs (m_what m) s_user). destruct (expand (acting_user st m) m) as [code|name]; [discriminate|].
  test (del_what_known (m_what m)). test (eqs (m_what m) s_topic); [|test (attached st name); test (o_queue_full st)].
  rewrite andb_false_r. test (o_queue_full st). destruct (find_topic name (w_loaded st)) as [ti|]; simpl.
  - destruct (_ || _); test (o_store_err st).
  - test (o_store_err st). destruct (get_topic_cat (row_name m name)); [discriminate|intros _; reflexivity].
Qed.

(* the default-access site of the code before /repo f52b053 *)
Lemma after_access_for_panics c k : is_panic k = false ->
  is_panic (after_access_for no_repairs c k) = defacs_missing c.
Proof. intros Hk. unfold after_access_for, defacs_missing. destruct (access_for no_repairs c); [exact Hk|reflexivity]. Qed.

Lemma this_trigger st ti u m :
  is_panic (this_user_sub no_repairs st ti u m) = true -> this_reaches st ti u m = true.
Proof.
  unfold this_user_sub, this_reaches. test (o_reject st). test (o_store_err st).
  destruct (find_pud u (t_peruser ti)) as [p|]; [test (pu_deleted p)|]; simpl.
  - destruct (t_cat ti); simpl; try discriminate; test (is_channel (m_topic m)).
  - test (m_set_mode m). test (pu_want_joiner p). now rewrite after_access_for_panics.
  - destruct (t_cat ti); simpl; try discriminate; test (is_channel (m_topic m)).
Qed.

Lemma another_trigger st ti u tg m :
  is_panic (another_user_sub no_repairs st ti u tg m) = true -> another_reaches st ti u tg m = true.
Proof.
  unfold another_user_sub, another_reaches.
  destruct (find_pud u (t_peruser ti)) as [h|]; [|discriminate]. test (pu_sharer h). test (is_channel (m_topic m)).
  test (o_reject st). test (match find_pud tg (t_peruser ti) with Some p => pu_deleted p | None => true end).
  - test (m_set_mode m); [test (o_store_err st)|]. rewrite after_access_for_panics by (destruct (o_store_err st); reflexivity). auto.
  - test (o_store_err st).
Qed.

Lemma set_sub_trigger st ti u m :
  is_panic (reply_set_sub no_repairs st ti u m) = true -> set_sub_reaches st ti u m = true.
Proof.
  unfold reply_set_sub, set_sub_reaches. test (negb (is_empty (m_set_user m)) && (m_set_user_uid m =? 0)).
  destruct (_ =? u) eqn:E; [apply this_trigger|].
  destruct (m_set_user_uid m =? 0); [now rewrite N.eqb_refl in E|apply another_trigger].
Qed.

(* Hub.run's join: a loaded topic registers the session (thisUserSub), else topicInit creates one *)
Lemma hub_join_trigger c st u name m :
  is_panic (hub_join no_repairs c st u name m) = true ->
  match find_topic name (w_loaded st) with
  | Some ti => negb (t_inactive ti) && this_reaches st ti u m
  | None => (has_prefix s_new (m_topic m) || has_prefix s_nch (m_topic m)) && m_attachments m
            && negb (media_configured c) && negb (o_reject st)
  end = true.
Proof.
  unfold hub_join. destruct (find_topic name (w_loaded st)) as [ti|].
  - test (t_inactive ti). test (o_queue_full st). apply this_trigger.
  - unfold topic_init. simpl. test (eqs (m_topic m) s_fnd); destruct (_ || _); simpl; try discriminate.
    all: test (has_prefix s_new (m_topic m) || has_prefix s_nch (m_topic m)); destruct (has_prefix s_nch (m_topic m)); simpl;
      test (o_reject st); test (m_attachments m); test (media_configured c).
Qed.

Lemma sub_trigger c st m :
  m_kind m = KSub -> passes_checks st m = true -> is_panic (h_subscribe no_repairs c st (acting_user st m) m) = true ->
  trig_media c st m || trig_defacs st m = true.
Proof.
  intros K P. unfold trig_media, trig_defacs, sub_name, expanded, h_subscribe. rewrite K, P. simpl.
  destruct (has_prefix s_new (m_topic m) || has_prefix s_nch (m_topic m)) eqn:N; simpl;
    [|destruct (expand (acting_user st m) m) as [code|name]; [discriminate|]];
    (destruct (attached st _); simpl; [discriminate|]); test (o_queue_full st);
    intros H; apply hub_join_trigger in H; rewrite N in H; (destruct (find_topic _ (w_loaded st)); simpl in H |- *);
    try discriminate H; try (rewrite H, ?orb_true_r; reflexivity).
  destruct (m_attachments m), (media_configured c), (o_reject st); try discriminate H; reflexivity.
Qed.

Lemma set_trigger c st m :
  state_wf st = true -> m_kind m = KSet -> passes_checks st m = true ->
  is_panic (h_set no_repairs c st (acting_user st m) m) = true ->
  trig_media c st m || trig_defacs st m = true.
Proof.
  intros Hwf K P. unfold trig_media, trig_defacs, expanded, h_set. rewrite K, P. simpl.
  destruct (expand (acting_user st m) m) as [code|name] eqn:He; [discriminate|]. destruct (negb _); [discriminate|].
  test (attached st name).
  - test (o_queue_full st). destruct (find_topic name (w_loaded st)) as [ti|]; simpl; [|discriminate].
    unfold topic_set. simpl. rewrite andb_true_r.
    destruct (m_set_desc m && negb (o_reject st) && m_attachments m && negb (media_configured c)) eqn:M; simpl.
    + intros _. destruct (m_set_desc m), (o_reject st), (m_attachments m), (media_configured c); try discriminate M. reflexivity.
    + test (m_set_sub m). intros H. rewrite (set_sub_trigger st ti _ m), ?orb_true_r; [reflexivity|].
      destruct (reply_set_sub no_repairs st ti (acting_user st m) m); [destruct (m_set_desc m); discriminate H..|reflexivity].
  - test (m_set_tags m || m_set_cred m). test (o_queue_full st).
    now rewrite (answers_not_panic _ _ (offline_set_sub_answers st _ m name Hwf He)).
Qed.

Lemma pub_trigger c st m :
  m_kind m = KPub -> passes_checks st m = true -> is_panic (h_publish no_repairs c st (acting_user st m) m) = true ->
  trig_media c st m || trig_original st m = true.
Proof.
  intros K P. unfold trig_media, trig_original, expanded, h_publish. rewrite K, P. simpl.
  destruct (expand (acting_user st m) m) as [code|name]; [discriminate|].
  test (attached st name); [|test (eqs name s_sys)]; test (o_queue_full st);
    (destruct (find_topic name (w_loaded st)) as [ti|]; simpl; [|discriminate]); unfold topic_pub; simpl;
    (destruct (t_p2p ti && negb (mem_n _ _)); simpl; [intros _; rewrite ?andb_false_r; reflexivity|]);
    test (o_reject st); test (m_attachments m); test (media_configured c); test (o_store_err st); test (is_empty (m_id m)).
Qed.

Lemma get_trigger st m :
  state_wf st = true -> m_kind m = KGet -> passes_checks st m = true ->
  is_panic (h_get no_repairs st (acting_user st m) m) = true -> trig_original st m = true.
Proof.
  intros Hwf K P. unfold trig_original, expanded, h_get. rewrite K, P. simpl.
  destruct (expand (acting_user st m) m) as [code|name] eqn:He; [discriminate|]. destruct (negb _); [discriminate|].
  test (attached st name).
  - test (o_queue_full st). destruct (find_topic name (w_loaded st)) as [ti|]; simpl; [|discriminate].
    unfold topic_get, original_panics. simpl. rewrite andb_true_r. test (m_get_data m). destruct (_ && _); [intros _; reflexivity|discriminate].
  - test (m_get_desc m || m_get_sub m). test (o_queue_full st). destruct (_ && _).
    + unfold offline_get_desc. test (has_prefix s_grp name || eqs name s_sys). test (has_prefix s_usr name || has_prefix s_p2p name).
    + now rewrite (answers_not_panic _ _ (offline_get_sub_answers st _ m name Hwf He)).
Qed.

Lemma dispatch_trigger c st m :
  state_wf st = true -> is_panic (dispatch no_repairs c st m) = true -> dtrigger c st m = true.
Proof.
  intros Hwf H. destruct (obo_check st (m_obo m) (m_obo_uid m)) eqn:O; [unfold dispatch in H; rewrite O in H; discriminate H|].
  destruct (dispatch_route no_repairs c st m O) as [[code [_ E]]|[F [P E]]]; rewrite E in H; [discriminate H|].
  unfold dtrigger. unfold handler in H. destruct (m_kind m) eqn:K.
  - now rewrite (answers_not_panic _ _ (h_hello_answers st m)) in H.
  - destruct (orb_prop _ _ (acc_trigger c st m K P H)) as [-> | ->]; rewrite ?orb_true_r; reflexivity.
  - now rewrite (answers_not_panic _ _ (h_login_answers c st m)) in H.
  - destruct (orb_prop _ _ (sub_trigger c st m K P H)) as [-> | ->]; rewrite ?orb_true_r; reflexivity.
  - now rewrite (answers_not_panic _ _ (h_leave_answers st _ m)) in H.
  - destruct (orb_prop _ _ (pub_trigger c st m K P H)) as [-> | ->]; rewrite ?orb_true_r; reflexivity.
  - rewrite (get_trigger st m Hwf K P H), ?orb_true_r. reflexivity.
  - destruct (orb_prop _ _ (set_trigger c st m Hwf K P H)) as [-> | ->]; rewrite ?orb_true_r; reflexivity.
  - rewrite (del_trigger st m K P H), ?orb_true_r. reflexivity.
  - rewrite (note_trigger st m K F H), ?orb_true_r. reflexivity.
Qed.

Lemma handle_trigger c st f :
  state_wf st = true -> is_panic (handle no_repairs c st f) = true -> trigger c st f = true.
Proof.
  intros Hwf. destruct f; simpl.
  - destruct (s_terminating st); discriminate.
  - destruct (s_terminating st); discriminate.
  - destruct (s_terminating st); [discriminate|]. destruct (obo_check st obo obo_uid); discriminate.
  - destruct (s_terminating st); [discriminate|]. simpl. now apply dispatch_trigger.
  - rewrite andb_true_r. destruct (query_present && query_empty); [reflexivity|]. simpl. now apply dispatch_trigger.
Qed.
(* histories: the state changes tracked for the default-access site keep the state well-formed *)
Lemma find_topic_valid name l ti :
  forallb (fun t => topic_name_valid (t_name t)) l = true -> find_topic name l = Some ti -> topic_name_valid name = true.
Proof.
  unfold find_topic. induction l as [|t r IH]; intros Hl Hf; [discriminate Hf|]. fold find_topic in *.
  cbn [forallb] in Hl. apply andb_prop in Hl as [Ht Hr].
  destruct (eqs name (t_name t)) eqn:E.
  - apply eqs_eq in E. subst name. exact Ht.
  - apply IH; assumption.
Qed.

Lemma update_topic_valid name f l :
  (forall t, t_name (f t) = t_name t) ->
  forallb (fun t => topic_name_valid (t_name t)) l = true -> forallb (fun t => topic_name_valid (t_name t)) (update_topic name f l) = true.
Proof.
  intros Hf. induction l as [|t r IH]; intros Hl; [reflexivity|]. cbn [update_topic].
  cbn [forallb] in Hl. apply andb_prop in Hl as [Ht Hr].
  destruct (eqs name (t_name t)); cbn [forallb]; [rewrite Hf, Ht; exact Hr|rewrite Ht; exact (IH Hr)].
Qed.

Lemma remove_str_valid x l : forallb topic_name_valid l = true -> forallb topic_name_valid (remove_str x l) = true.
Proof.
  induction l as [|y r IH]; intros Hl; [reflexivity|]. cbn [remove_str]. cbn [forallb] in Hl. apply andb_prop in Hl as [Hy Hr].
  destruct (eqs x y); [exact (IH Hr)|]. cbn [forallb]. rewrite Hy. exact (IH Hr).
Qed.

Lemma after_wf st m : state_wf st = true -> state_wf (after st m) = true.
Proof.
  intros Hwf. unfold after. destruct (expanded st m) as [n|]; [|exact Hwf].
  destruct (find_topic n (w_loaded st)) as [ti|] eqn:F; [|exact Hwf].
  pose proof Hwf as Hwf0. unfold state_wf in Hwf. apply andb_prop in Hwf as [Hwf Hs]. apply andb_prop in Hwf as [Hr Hl].
  pose proof (find_topic_valid n _ ti Hl F) as Hn.
  assert (Hupd : forall f, (forall t, t_name (f t) = t_name t) ->
                 forallb (fun t => topic_name_valid (t_name t)) (update_topic n f (w_loaded st)) = true)
    by (intros f Hf; apply update_topic_valid; assumption).
  destruct (m_kind m); try exact Hwf0.
  - destruct (attached st n); [exact Hwf0|]. unfold state_wf, with_subs_loaded. cbn [w_rows w_loaded s_subs].
    rewrite Hr, Hupd by reflexivity. cbn [andb].
    match goal with |- context [if ?c then _ else _] => destruct c end; [cbn [forallb]; rewrite Hn|]; exact Hs.
  - destruct (attached st n); [|exact Hwf0]. cbn [andb]. destruct (m_unsub m);
      unfold state_wf, with_subs_loaded; cbn [w_rows w_loaded s_subs]; rewrite Hr, ?Hl, ?Hupd by reflexivity; cbn [andb]; apply remove_str_valid; exact Hs.
  - match goal with |- context [if ?c then _ else _] => destruct c end; [|exact Hwf0].
    unfold state_wf, with_subs_loaded. cbn [w_rows w_loaded s_subs]. rewrite Hr, Hupd by reflexivity. cbn [andb].
    destruct (m_set_joiner m); [exact Hs|apply remove_str_valid; exact Hs].
Qed.
