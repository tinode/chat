(* C06: what the permission handlers of the topic model do to the modes, and the
   ownership invariant under each of them; then the vocabulary of requests and histories (op_user,
   fault_safe, hist_ok, one_owner) and the creation of a topic (sinv_new_topic, sinv_add_row).
   The step and history theorems are in TopicOwnerC06x.v. *)
From Coq Require Import ZArith NArith List Bool Lia.
From Tinode Require Import Base.Util Pure.Acs Sys.Topic Sys.TopicTac Sys.TopicFrame Sys.TopicNum Sys.TopicMarks Sys.TopicOwner.
Import ListNotations.
Local Open Scope N_scope.

(* the cache after the optional eviction of a user who lost J: TopicFrame.settled without the frames sent *)
Definition evicted (c : cache) (u : N) (c' : cache) : Prop := exists o, settled c u c' o.

(* ------------------------------------------------------------------ *)
(* thisUserSub: the shapes of its result, with what the computed modes satisfy
   (TopicFrame.tus_spec leaves the modes open) *)
Inductive tus_modes (f : fault) (s : store) (c : cache) (u : N) (want : list N) (hr : hres * sub_res) : Prop :=
| TusSame : h_st (fst hr) = s -> h_ca (fst hr) = c -> (exists code, snd hr = SubErr code) -> tus_modes f s c u want hr
| TusNew (wantm given : N) :
    alookup u (c_users c) = None ->
    is_owner wantm = false ->
    (given = c_auth c \/ exists r, find_sub u (subs s) = Some r /\ s_given r = given) ->
    (h_st (fst hr) = ad_sub_create s u wantm given /\ (forall r, find_sub u (subs s) = Some r -> s_deleted r = true)
     \/ h_st (fst hr) = s /\ exists r, find_sub u (subs s) = Some r /\ s_deleted r = false) ->
    evicted (c_set_users (aset u (mkPud wantm given 0 0 0 0)) c) u (h_ca (fst hr)) ->
    tus_modes f s c u want hr
| TusUpd (p0 : pud) (w1 g1 : N) (ow og : option N) :
    alookup u (c_users c) = Some p0 ->
    (ow = Some w1 \/ ow = None /\ w1 = p_want p0) ->
    (og = Some g1 \/ og = None /\ g1 = p_given p0) ->
    (h_st (fst hr) = s /\ ow = None /\ og = None \/ h_st (fst hr) = ad_subs_update s u (mkUpd ow og None None None)) ->
    evicted (c_set_users (aset u (p_set_modes w1 g1 p0)) c) u (h_ca (fst hr)) ->
    is_owner g1 = is_owner (p_given p0) ->
    (is_owner w1 = true -> is_owner (p_want p0) = true \/ c_owner c = u /\ is_owner (p_given p0) = true) ->
    (c_owner c = u -> is_owner (p_want p0) = true -> is_owner (p_given p0) = true -> is_owner w1 = true) ->
    tus_modes f s c u want hr
| TusTransfer (p0 : pud) (w1 g1 : N) (og : option N) :
    alookup u (c_users c) = Some p0 ->
    is_owner (p_want p0) = false -> is_owner (p_given p0) = true ->
    is_owner w1 = true -> is_owner g1 = true -> w1 = req_mode want ->
    (og = Some g1 \/ og = None /\ g1 = p_given p0) ->
    let prev := c_owner c in let pp := get_pud c prev in
    let pw := N.ldiff (p_want pp) mO in let pg := N.ldiff (p_given pp) mO in
    let cT := c_set_owner u (c_set_users (aset prev (p_set_modes pw pg pp)) c) in
    h_st (fst hr) = st_owner u (ad_subs_update (ad_subs_update s u (mkUpd (Some w1) og None None None)) prev
                                               (mkUpd (Some pw) (Some pg) None None None)) ->
    evicted (c_set_users (aset u (p_set_modes w1 g1 (get_pud cT u))) cT) u (h_ca (fst hr)) ->
    tus_modes f s c u want hr
| TusPartial : f <> NoFault -> is_owner (req_mode want) = true -> h_ca (fst hr) = c -> snd hr = SubErr 0 -> tus_modes f s c u want hr.

Ltac solve_evicted :=
  first [ exists []; left; split; reflexivity | eexists; right; eassumption ].
Ltac tus_same := apply TusSame; cbn [fst snd h_st h_ca]; [reflexivity|reflexivity|eexists; reflexivity].

(* tus_finish, tus_rest and w1_of below are the body of Topic.this_user_sub for an existing subscription,
   cut at its let-bindings: tus_cases replaces the handler's subterms by them with `change`, so they are
   convertible to the handler by construction.  TopicFrame.tus_spec describes the same outcomes with the
   computed modes left open; here the modes are the point, hence the separate cut.
   The end of thisUserSub: the cache entry, the eviction of a user who dropped J, the reply *)
Definition tus_finish (u : N) (p0 : pud) (w1 g1 : N) (newsub_pkt : bool) (s3 : store) (c3 : cache) (n3 : nat)
  : hres * sub_res :=
  let mk s c n o r := (mkH s c n o, r) in
  let oldw := p_want p0 in let oldg := p_given p0 in
  let p1 := p_set_modes w1 g1 (get_pud c3 u) in
  let c4 := c_set_users (aset u p1) c3 in
  let changed := newsub_pkt || negb ((w1 =? oldw)%N && (g1 =? oldg)%N) in
  let ch := if changed then Some (w1, g1) else None in
  if negb (is_joiner w1) then
    let '(c5, o5) := evict_user c4 u false 0%N in mk s3 c5 n3 o5 (SubOk ch)
  else if negb (is_joiner g1) then mk s3 c4 n3 [] (SubErr 403)
  else mk s3 c4 n3 [] (SubOk ch).

Lemma tus_finish_shape u p0 w1 g1 nb s3 c3 n3 :
  h_st (fst (tus_finish u p0 w1 g1 nb s3 c3 n3)) = s3 /\
  evicted (c_set_users (aset u (p_set_modes w1 g1 (get_pud c3 u))) c3) u (h_ca (fst (tus_finish u p0 w1 g1 nb s3 c3 n3))).
Proof.
  unfold tus_finish. cbv zeta. destruct (negb (is_joiner w1)).
  - destruct (evict_user _ u false 0) as [c5 o5] eqn:EV. cbn [fst h_st h_ca]. split; [reflexivity|].
    exists o5. right. exact EV.
  - destruct (negb (is_joiner g1)); cbn [fst h_st h_ca]; (split; [reflexivity|exists []; left; split; reflexivity]).
Qed.

(* the tail of thisUserSub for an existing subscription, once the new modes are decided *)
Definition tus_rest (f : fault) (s : store) (c : cache) (n : nat) (u : N) (p0 : pud) (w1 g1 : N)
           (owner_change newsub_pkt : bool) : hres * sub_res :=
  let mk s c n o r := (mkH s c n o, r) in
  let oldw := p_want p0 in let oldg := p_given p0 in
  let upd := mkUpd (if (w1 =? oldw)%N then None else Some w1) (if (g1 =? oldg)%N then None else Some g1) None None None in
  let need_upd := negb ((w1 =? oldw)%N && (g1 =? oldg)%N) in
  let '(ok1, n1) := if need_upd then call f n else (true, n) in
  if negb ok1 then mk s c n1 [] (SubErr 500) else
  let s1 := if need_upd then ad_subs_update s u upd else s in
  let finish := tus_finish u p0 w1 g1 newsub_pkt in
  if owner_change then
    let prev := c_owner c in
    let pp := get_pud c prev in
    let pw := N.ldiff (p_want pp) mO in let pg := N.ldiff (p_given pp) mO in
    let '(ok2, n2) := call f n1 in
    if negb ok2 then mk s1 c n2 [] (SubErr 0) else
    let s2 := ad_subs_update s1 prev (mkUpd (Some pw) (Some pg) None None None) in
    let '(ok3, n3) := call f n2 in
    if negb ok3 then mk s2 c n3 [] (SubErr 0) else
    let s3 := st_owner u s2 in
    finish s3 (c_set_owner u (c_set_users (aset prev (p_set_modes pw pg pp)) c)) n3
  else finish s1 c n1.

Lemma tus_rest_cases f s c n u p0 w1 g1 oc nb want :
  alookup u (c_users c) = Some p0 ->
  is_owner g1 = is_owner (p_given p0) ->
  (oc = false ->
     (is_owner w1 = true -> is_owner (p_want p0) = true \/ c_owner c = u /\ is_owner (p_given p0) = true) /\
     (c_owner c = u -> is_owner (p_want p0) = true -> is_owner (p_given p0) = true -> is_owner w1 = true)) ->
  (oc = true -> is_owner (p_want p0) = false /\ is_owner (p_given p0) = true /\ is_owner w1 = true /\ w1 = req_mode want) ->
  tus_modes f s c u want (tus_rest f s c n u p0 w1 g1 oc nb).
Proof.
  intros EU HG HF HT. unfold tus_rest. cbv zeta.
  set (ow := if w1 =? p_want p0 then None else Some w1).
  set (og := if g1 =? p_given p0 then None else Some g1).
  assert (ow = Some w1 \/ ow = None /\ w1 = p_want p0) as HOW.
  { unfold ow. destruct (N.eqb_spec w1 (p_want p0)); [right; auto|now left]. }
  assert (og = Some g1 \/ og = None /\ g1 = p_given p0) as HOG.
  { unfold og. destruct (N.eqb_spec g1 (p_given p0)); [right; auto|now left]. }
  assert (get_pud c u = p0) as GP by (unfold get_pud; now rewrite EU).
  destruct oc.
  - (* ownership transfer *)
    destruct (HT eq_refl) as [T1 [T2 [T3 T4]]]. clear HF HT.
    assert (ow = Some w1) as EOW.
    { unfold ow. destruct (N.eqb_spec w1 (p_want p0)) as [E|]; [|reflexivity]. rewrite E in T3. congruence. }
    assert ((w1 =? p_want p0) = false) as EWF.
    { destruct (N.eqb_spec w1 (p_want p0)) as [E|]; [|reflexivity]. rewrite E in T3. congruence. }
    rewrite EWF. cbn [andb negb].
    destruct (call f n) as [ok1 n1] eqn:C1. destruct ok1; cbn [negb]; [|tus_same].
    destruct (call f n1) as [ok2 n2] eqn:C2. destruct ok2; cbn [negb].
    2:{ apply TusPartial; cbn [fst snd h_ca]; auto. exact (call_failed _ _ _ C2). congruence. }
    destruct (call f n2) as [ok3 n3] eqn:C3. destruct ok3; cbn [negb].
    2:{ apply TusPartial; cbn [fst snd h_ca]; auto. exact (call_failed _ _ _ C3). congruence. }
    apply (TusTransfer _ _ _ _ _ _ p0 w1 g1 og); auto; try congruence.
    + cbv zeta. fold ow. rewrite EOW. apply tus_finish_shape.
    + cbv zeta. apply tus_finish_shape.
  - destruct (HF eq_refl) as [F1 F2]. clear HF HT.
    destruct (negb ((w1 =? p_want p0) && (g1 =? p_given p0))) eqn:NU.
    + destruct (call f n) as [ok1 n1]. destruct ok1; cbn [negb]; [|tus_same].
      apply (TusUpd _ _ _ _ _ _ p0 w1 g1 ow og); auto.
      * right. apply tus_finish_shape.
      * rewrite <- GP. apply tus_finish_shape.
    + cbn [negb]. apply negb_false_iff in NU. apply andb_true_iff in NU. destruct NU as [NU1 NU2].
      apply (TusUpd _ _ _ _ _ _ p0 w1 g1 ow og); auto.
      * left. unfold ow, og. rewrite NU1, NU2. split; [apply tus_finish_shape|auto].
      * rewrite <- GP. apply tus_finish_shape.
Qed.

Definition w1_of (c : cache) (u : N) (p0 : pud) (mw g1 : N) : N :=
  if mw =? ModeUnset then
    (if negb (is_joiner (p_want p0)) then
       (if N.eqb (c_owner c) u then N.lor g1 (c_auth c) else N.ldiff (N.lor g1 (c_auth c)) mO)
     else p_want p0)
  else mw.

Lemma tus_cases f s c n sid u want nb : is_owner (c_auth c) = false ->
  tus_modes f s c u want (this_user_sub f s c n sid u want nb).
Proof.
  intros AU. unfold this_user_sub. cbv zeta.
  assert (req_mode want = fst (match want with [] => (ModeUnset, true) | _ :: _ => unmarshal_text ModeUnset want end)) as RM by reflexivity.
  destruct (match want with [] => (ModeUnset, true) | _ :: _ => unmarshal_text ModeUnset want end) as [mw okw].
  cbn [fst] in RM.
  destruct okw; cbn [negb]; [|tus_same].
  destruct (alookup u (c_users c)) as [p0|] eqn:EU.
  2:{ (* new subscription *)
    destruct (max_subs <=? Z.of_nat (length (c_users c)))%Z; [tus_same|].
    destruct (call f n) as [ok1 n1]. destruct ok1; cbn [negb]; [|tus_same].
    set (given := if (match ad_sub_get s u true with Some r => s_given r | None => ModeUnset end =? ModeUnset) then c_auth c
                  else match ad_sub_get s u true with Some r => s_given r | None => ModeUnset end).
    set (wantm := if mw =? ModeUnset then c_auth c else N.ldiff mw mO).
    assert (is_owner wantm = false) as WO by (unfold wantm; destruct (mw =? ModeUnset); [exact AU|apply is_owner_ldiff_mO]).
    assert (given = c_auth c \/ exists r, find_sub u (subs s) = Some r /\ s_given r = given) as GP.
    { unfold given, ad_sub_get. destruct (find_sub u (subs s)) as [r|]; [|now left]. cbn [andb negb].
      rewrite andb_false_r. destruct (s_given r =? ModeUnset); [now left|right; eauto]. }
    destruct (negb (is_joiner given)); [tus_same|].
    assert (ad_sub_get s u true = find_sub u (subs s)) as EG.
    { unfold ad_sub_get. destruct (find_sub u (subs s)); [|reflexivity]. cbn [negb]. now rewrite andb_false_r. }
    rewrite EG. destruct (find_sub u (subs s)) as [r|] eqn:FS; rewrite <- FS in GP.
    - destruct (s_deleted r) eqn:DR.
      + destruct (call f n1) as [ok2 n2]. destruct ok2; cbn [negb]; [|tus_same].
        apply (TusNew _ _ _ _ _ _ wantm given); auto.
        * left. repeat break_match; cbn [fst h_st]; (split; [reflexivity|]); intros r0 E0; rewrite FS in E0; inv E0; exact DR.
        * repeat break_match; cbn [fst h_ca]; solve_evicted.
      + cbn [negb]. apply (TusNew _ _ _ _ _ _ wantm given); auto.
        * right. repeat break_match; cbn [fst h_st]; (split; [reflexivity|]); eauto.
        * repeat break_match; cbn [fst h_ca]; solve_evicted.
    - destruct (call f n1) as [ok2 n2]. destruct ok2; cbn [negb]; [|tus_same].
      apply (TusNew _ _ _ _ _ _ wantm given); auto.
      * left. repeat break_match; cbn [fst h_st]; (split; [reflexivity|]); intros r0 E0; rewrite FS in E0; discriminate.
      * repeat break_match; cbn [fst h_ca]; solve_evicted. }
  (* existing subscription *)
  destruct (mw =? ModeUnset) eqn:EM.
  - (* no explicit mode: un-self-ban or no change *)
    match goal with |- tus_modes _ _ _ _ _ ?X =>
      change X with (tus_rest f s c n u p0 (w1_of c u p0 mw (p_given p0)) (p_given p0) false nb) end.
    unfold w1_of. rewrite EM.
    apply tus_rest_cases; auto; [|discriminate]. intros _. split.
    + destruct (negb (is_joiner (p_want p0))); [|now left]. destruct (N.eqb_spec (c_owner c) u) as [E|NE].
      * rewrite is_owner_lor, AU, orb_false_r. intros H. right. auto.
      * rewrite is_owner_ldiff_mO. discriminate.
    + intros E W G. destruct (negb (is_joiner (p_want p0))); [|exact W]. rewrite E, N.eqb_refl, is_owner_lor, G. reflexivity.
  - destruct (N.eqb (c_owner c) u && (negb (is_owner mw) || negb (is_joiner mw))) eqn:EO; [tus_same|].
    destruct (is_owner (p_given p0)) eqn:OG.
    + (* the grant has O: the owner's own settings, or acceptance of a transfer *)
      match goal with |- tus_modes _ _ _ _ _ ?X =>
        change X with (tus_rest f s c n u p0
          (w1_of c u p0 mw (if is_owner mw && negb (better_equal (p_given p0) mw) then N.lor (p_given p0) mw else p_given p0))
          (if is_owner mw && negb (better_equal (p_given p0) mw) then N.lor (p_given p0) mw else p_given p0)
          (is_owner mw && negb (is_owner (p_want p0))) nb) end.
      unfold w1_of. rewrite EM.
      apply tus_rest_cases; auto.
      * rewrite OG. destruct (is_owner mw && negb (better_equal (p_given p0) mw)); [|exact OG]. now rewrite is_owner_lor, OG.
      * intros OC. split.
        -- intros W. rewrite W in OC. cbn [andb] in OC. apply negb_false_iff in OC. now left.
        -- intros E _ _. rewrite E, N.eqb_refl in EO. cbn [andb] in EO. apply orb_false_iff in EO. destruct EO as [EO _].
           now apply negb_false_iff in EO.
      * intros OC. apply andb_true_iff in OC. destruct OC as [W NW]. apply negb_true_iff in NW. auto.
    + destruct (is_owner mw) eqn:OM; [tus_same|].
      destruct (is_admin (p_given p0) && is_admin mw).
      * match goal with |- tus_modes _ _ _ _ _ ?X =>
          change X with (tus_rest f s c n u p0
            (w1_of c u p0 mw (if negb (better_equal (p_given p0) (N.ldiff mw mD)) then N.lor (p_given p0) (N.ldiff mw mD) else p_given p0))
            (if negb (better_equal (p_given p0) (N.ldiff mw mD)) then N.lor (p_given p0) (N.ldiff mw mD) else p_given p0) false nb) end.
        unfold w1_of. rewrite EM.
        apply tus_rest_cases; auto; [| |discriminate].
        -- rewrite OG. destruct (negb (better_equal (p_given p0) (N.ldiff mw mD))); [|exact OG].
           now rewrite is_owner_lor, OG, is_owner_ldiff_mD, OM.
        -- intros _. split; [congruence|]. intros E _ _. rewrite E, N.eqb_refl in EO. cbn [negb orb andb] in EO. discriminate.
      * match goal with |- tus_modes _ _ _ _ _ ?X => change X with (tus_rest f s c n u p0 (w1_of c u p0 mw (p_given p0)) (p_given p0) false nb) end.
        unfold w1_of. rewrite EM.
        apply tus_rest_cases; auto; [|discriminate].
        intros _. split; [congruence|]. intros E _ _. rewrite E, N.eqb_refl in EO. cbn [negb orb andb] in EO. discriminate.
Qed.

(* ------------------------------------------------------------------ *)
(* anotherUserSub                                                       *)
Inductive aus_modes (s : store) (c : cache) (u target : N) (hr : hres * sub_res) : Prop :=
| AusSame : h_st (fst hr) = s -> evicted c target (h_ca (fst hr)) -> aus_modes s c u target hr
| AusNew (wantm given : N) :
    alookup target (c_users c) = None ->
    (is_owner given = true -> c_owner c = u) ->
    ((exists r, find_sub target (subs s) = Some r /\ wantm = s_want r) \/
     (exists acc, alookup target (users s) = Some acc /\ wantm = N.land acc given)) ->
    h_st (fst hr) = ad_sub_create s target wantm given ->
    evicted (c_set_users (aset target (mkPud wantm given 0 0 0 0)) c) target (h_ca (fst hr)) ->
    aus_modes s c u target hr
| AusUpd (pt : pud) (mg : N) :
    alookup target (c_users c) = Some pt ->
    (is_owner mg = true -> c_owner c = u) ->
    (c_owner c = target -> is_owner mg = true) ->
    h_st (fst hr) = ad_subs_update s target (mkUpd None (Some mg) None None None) ->
    evicted (c_set_users (aset target (p_set_modes (p_want pt) mg pt)) c) target (h_ca (fst hr)) ->
    aus_modes s c u target hr.

Ltac aus_same := apply AusSame; cbn [fst snd h_st h_ca]; [reflexivity|solve_evicted].

Lemma aus_cases f s c n sid u target mode : is_owner (c_auth c) = false ->
  aus_modes s c u target (another_user_sub f s c n sid u target mode).
Proof.
  intros AU. unfold another_user_sub. cbv zeta.
  destruct (alookup u (c_users c)) as [ph|] eqn:EH; [|aus_same].
  destruct (negb (is_sharer (pud_mode ph))); [aus_same|].
  destruct (match mode with [] => (ModeUnset, true) | _ :: _ => unmarshal_text ModeUnset mode end) as [mg okg].
  destruct okg; cbn [negb]; [|aus_same].
  destruct (negb (mg =? ModeUnset) && negb (is_admin (pud_mode ph))); [aus_same|].
  destruct (is_owner mg && negb (N.eqb (c_owner c) u)) eqn:EO; [aus_same|].
  assert (is_owner mg = true -> c_owner c = u) as HO.
  { intros H. rewrite H in EO. cbn [andb] in EO. apply negb_false_iff in EO. now apply N.eqb_eq in EO. }
  destruct (alookup target (c_users c)) as [pt|] eqn:ET.
  - (* existing subscriber *)
    destruct ((mg =? ModeUnset) || (mg =? p_given pt)).
    + repeat break_match; aus_same.
    + destruct (N.eqb (c_owner c) target && (negb (is_owner mg) || negb (is_joiner mg))) eqn:EOT; [aus_same|].
      destruct (call f n) as [ok1 n1]. destruct ok1; cbn [negb]; [|aus_same].
      apply (AusUpd _ _ _ _ _ pt mg); auto.
      * intros E. rewrite E, N.eqb_refl in EOT. cbn [andb] in EOT. apply orb_false_iff in EOT. destruct EOT as [EOT _].
        now apply negb_false_iff in EOT.
      * repeat break_match; reflexivity.
      * repeat break_match; cbn [fst h_ca]; solve_evicted.
  - (* invitation *)
    destruct (max_subs <=? Z.of_nat (length (c_users c)))%Z; [aus_same|].
    set (given := if mg =? ModeUnset then N.lor (c_auth c) mJ else mg).
    assert (is_owner given = true -> c_owner c = u) as HG.
    { unfold given. destruct (mg =? ModeUnset); [|exact HO]. rewrite is_owner_lor, AU. cbn. discriminate. }
    destruct (call f n) as [ok1 n1]. destruct ok1; cbn [negb]; [|aus_same].
    assert (ad_sub_get s target true = find_sub target (subs s)) as EG.
    { unfold ad_sub_get. destruct (find_sub target (subs s)); [|reflexivity]. cbn [negb]. now rewrite andb_false_r. }
    rewrite EG. destruct (find_sub target (subs s)) as [r|] eqn:FS.
    + destruct (negb (is_joiner (s_want r))); [aus_same|].
      destruct (call f n1) as [ok3 n3]. destruct ok3; cbn [negb]; [|aus_same].
      apply (AusNew _ _ _ _ _ (s_want r) given); auto.
      * left. eauto.
      * repeat break_match; reflexivity.
      * repeat break_match; cbn [fst h_ca]; solve_evicted.
    + destruct (call f n1) as [ok2 n2]. destruct ok2; cbn [negb]; [|aus_same].
      destruct (alookup target (users s)) as [acc|] eqn:EA; [|aus_same].
      destruct (negb (is_joiner (N.land acc given))); [aus_same|].
      destruct (call f n2) as [ok3 n3]. destruct ok3; cbn [negb]; [|aus_same].
      apply (AusNew _ _ _ _ _ (N.land acc given) given); auto.
      * right. eauto.
      * repeat break_match; reflexivity.
      * repeat break_match; cbn [fst h_ca]; solve_evicted.
Qed.

(* ------------------------------------------------------------------ *)
(* the other handlers                                                   *)
Lemma del_sub_cases f s c n sid u target :
  let h := del_sub f s c n sid u target in
  (h_st h = s /\ h_ca h = c) \/
  (exists pt, target <> u /\ alookup target (c_users c) = Some pt /\ is_owner (pud_mode pt) = false /\
     (ad_subs_delete s target = Some (h_st h) \/ ad_subs_delete s target = None /\ h_st h = s) /\
     h_ca h = fst (evict_user c target true 0)).
Proof.
  cbn zeta. unfold del_sub.
  destruct (negb (is_admin (user_mode c u))); [now left|].
  destruct ((target =? 0) || N.eqb target u) eqn:ET; [now left|].
  apply orb_false_iff in ET. destruct ET as [_ ET]. apply N.eqb_neq in ET.
  destruct (alookup target (c_users c)) as [pt|] eqn:EP; [|now left].
  destruct (is_owner (pud_mode pt)) eqn:EO; [now left|].
  destruct (negb (is_joiner (p_want pt))); [now left|].
  destruct (call f n) as [ok1 n1]. destruct ok1; cbn [negb]; [|now left].
  right. exists pt. repeat split; auto.
  - destruct (ad_subs_delete s target) as [s'|]; destruct (evict_user c target true 0); cbn [h_st]; auto.
  - destruct (ad_subs_delete s target) as [s'|]; destruct (evict_user c target true 0); reflexivity.
Qed.

Lemma leave_unsub_cases f s c n sid u :
  let h := leave_unsub f s c n sid u in
  (h_st h = s /\ h_ca h = c) \/
  (c_owner c <> u /\ ad_subs_delete s u = Some (h_st h) /\ h_ca h = fst (evict_user c u true sid)).
Proof.
  cbn zeta. unfold leave_unsub.
  destruct (N.eqb_spec (c_owner c) u) as [E|NE]; [now left|].
  destruct (call f n) as [ok1 n1]. destruct ok1; cbn [negb]; [|now left].
  destruct (ad_subs_delete s u) as [s1|]; [|now left].
  right. destruct (evict_user c u true sid). auto.
Qed.

Lemma offline_set_sub_cases f s sid u target mode :
  let r := offline_set_sub f s sid u target mode in
  o_st r = s \/
  (exists w g mw, smode s u = Some (w, g, false) /\ is_owner mw = is_owner w /\ mode <> [] /\
     o_st r = ad_subs_update s u (mkUpd (Some mw) None None None None)).
Proof.
  cbn zeta. unfold offline_set_sub. destruct mode as [|b mode]; [now left|].
  destruct (negb (target =? 0) && negb (N.eqb target u)); [now left|].
  destruct (call f 0) as [ok1 n1]. destruct ok1; cbn [negb]; [|now left].
  unfold ad_sub_get, smode. destruct (find_sub u (subs s)) as [r|]; [|now left].
  destruct (s_deleted r) eqn:D; cbn [andb negb]; [now left|].
  destruct (unmarshal_text 0 (b :: mode)) as [mw okw]. destruct okw; cbn [negb]; [|now left].
  destruct (Bool.eqb (is_owner mw) (is_owner (s_want r))) eqn:EO; cbn [negb]; [|now left].
  apply eqb_prop in EO.
  destruct (mw =? s_want r); [now left|].
  destruct (call f n1) as [ok2 n2]. destruct ok2; cbn [negb]; [|now left].
  right. exists (s_want r), (s_given r), mw. repeat split; auto. discriminate.
Qed.

Lemma leave_cases c sid u :
  let c' := fst (leave c sid u) in
  c' = c \/
  (exists su bkg, alookup sid (c_sess c) = Some (su, bkg) /\
     (c' = c_set_sess (aremove sid) c \/
      exists p, c' = c_set_users (aset su p) (c_set_sess (aremove sid) c) /\
        (match alookup su (c_users c) with Some p0 => p_want p = p_want p0 /\ p_given p = p_given p0 | None => False end \/
         alookup su (c_users c) = None))).
Proof.
  cbn zeta. unfold leave. destruct (alookup sid (c_sess c)) as [[su bkg]|] eqn:ES; [|now left].
  right. exists su, bkg. split; [reflexivity|]. cbn [c_users c_set_sess].
  destruct (alookup su (c_users c)) as [p0|] eqn:EP; destruct bkg; cbn [fst]; auto.
  - right. eexists. split; [reflexivity|]. left. cbn. auto.
  - right. eexists. split; [reflexivity|]. now right.
Qed.

(* ------------------------------------------------------------------ *)
(* handlers that do not touch modes                                     *)
Definition sneutral (s s' : store) : Prop :=
  (forall v, smode s' v = smode s v) /\ t_owner s' = t_owner s /\ sub_users s' = sub_users s /\
  t_auth s' = t_auth s /\ users s' = users s.
Definition cneutral (c c' : cache) : Prop :=
  (forall v, cmode c' v = cmode c v) /\ c_owner c' = c_owner c /\
  (NoDup (map fst (c_users c)) -> NoDup (map fst (c_users c'))) /\ c_sess c' = c_sess c /\ c_auth c' = c_auth c.

Lemma sneutral_refl s : sneutral s s. Proof. repeat split. Qed.
Lemma cneutral_refl c : cneutral c c. Proof. repeat split; auto. Qed.
Lemma sneutral_trans a b c : sneutral a b -> sneutral b c -> sneutral a c.
Proof. intros [A1 [A2 [A3 [A4 A5]]]] [B1 [B2 [B3 [B4 B5]]]]. repeat split; intros; congruence. Qed.
Lemma cneutral_trans a b c : cneutral a b -> cneutral b c -> cneutral a c.
Proof. intros [A1 [A2 [A3 [A4 A5]]]] [B1 [B2 [B3 [B4 B5]]]]. repeat split; intros; try congruence. auto. Qed.
Lemma sneutral_subs s s' : subs s' = subs s -> t_owner s' = t_owner s -> t_auth s' = t_auth s -> users s' = users s -> sneutral s s'.
Proof. intros E1 E2 E3 E4. unfold sneutral, smode, sub_users. rewrite E1. auto. Qed.
Lemma sneutral_marks s u up : u_want up = None -> u_given up = None -> sneutral s (ad_subs_update s u up).
Proof.
  intros E1 E2. destruct (sframe_subs_update s u up) as [_ [_ [_ [F1 [_ [_ F2]]]]]].
  split; [intros v; now apply smode_subs_update_marks|].
  split; [apply owner_subs_update|]. split; [apply users_subs_update|]. auto.
Qed.
Lemma cneutral_aset c u p p0 : alookup u (c_users c) = Some p0 -> p_want p = p_want p0 -> p_given p = p_given p0 ->
  cneutral c (c_set_users (aset u p) c).
Proof.
  intros E W G. split; [|split; [reflexivity|split; [apply keys_aset|split; reflexivity]]].
  intros v. rewrite cmode_aset. destruct (N.eqb_spec v u) as [-> | ]; [|reflexivity].
  unfold cmode. rewrite E, W, G. reflexivity.
Qed.
Lemma cneutral_map_delid c d : cneutral c (c_set_users (map (fun e => (fst e, p_set_delid d (snd e)))) c).
Proof.
  split; [intros v; apply cmode_map_delid|]. split; [reflexivity|]. split; [|split; reflexivity].
  cbn [c_users c_set_users]. rewrite map_map. cbn [fst]. rewrite <- (map_map (fun e => e) fst) at 1. now rewrite map_id.
Qed.

Lemma sneutral_seqid v s : sneutral s (st_seqid v s). Proof. now apply sneutral_subs. Qed.
Lemma sneutral_delid v s : sneutral s (st_delid v s). Proof. now apply sneutral_subs. Qed.
Lemma sneutral_msg_save s seq u ct s' : ad_msg_save s seq u ct = Some s' -> sneutral s s'.
Proof. unfold ad_msg_save. destruct (existsb _ _); intros H; inv H. now apply sneutral_subs. Qed.
Lemma sneutral_delete_list s d fu rs : sneutral s (ad_msg_delete_list s d fu rs).
Proof. unfold ad_msg_delete_list. destruct (fu =? 0); now apply sneutral_subs. Qed.
Lemma cneutral_lastid v c : cneutral c (c_set_lastid v c). Proof. repeat split; auto. Qed.
Lemma cneutral_delid v c : cneutral c (c_set_delid v c). Proof. repeat split; auto. Qed.

Lemma publish_neutral f s c n sid u content noecho :
  let h := publish f s c n sid u content noecho in sneutral s (h_st h) /\ cneutral c (h_ca h).
Proof.
  cbn zeta. destruct (publish_shape f s c n sid u content noecho) as [s' n' code _ [-> | ->]|s' n' _ L _ SV]; cbn [h_st h_ca].
  - split; [apply sneutral_refl|apply cneutral_refl].
  - split; [apply sneutral_seqid|apply cneutral_refl].
  - assert (sneutral s (st_msgs (fun l => l ++ [mkMsg (c_lastid c + 1) u content 0]) (st_seqid (c_lastid c + 1) s))) as N2
      by now apply sneutral_subs.
    split.
    + destruct SV as [-> | ->]; [exact N2|]. eapply sneutral_trans; [exact N2|]. now apply sneutral_marks.
    + unfold get_pud. destruct (alookup u (c_users c)) as [p0|] eqn:EP; [|congruence].
      apply (cneutral_trans _ (c_set_lastid (c_lastid c + 1)%Z c)); [apply cneutral_lastid|].
      apply (cneutral_aset _ _ _ p0); auto.
Qed.

Lemma note_neutral f s c n sid u what seq :
  let h := note f s c n sid u what seq in sneutral s (h_st h) /\ cneutral c (h_ca h).
Proof.
  cbn zeta.
  destruct (note_cases f s c n sid u what seq) as [[E1 [E2 _]]|[_ [RD [_ [rd [rc [E1 [_ [_ [_ [_ [_ [E2 _]]]]]]]]]]]]].
  - rewrite E1, E2. split; [apply sneutral_refl|apply cneutral_refl].
  - rewrite E1. split.
    + destruct E2 as [[_ [_ [_ ->]]]|[_ [_ ->]]]; now apply sneutral_marks.
    + unfold get_pud in *. destruct (alookup u (c_users c)) as [p0|] eqn:EP; [|discriminate RD].
      apply (cneutral_aset _ _ _ p0); auto.
Qed.

Lemma del_msg_neutral dr f s c n sid u req hard :
  let h := del_msg dr f s c n sid u req hard in sneutral s (h_st h) /\ cneutral c (h_ca h).
Proof.
  cbn zeta. unfold del_msg.
  destruct (negb (hard && is_deleter (user_mode c u)) && negb (is_reader (user_mode c u))) eqn:EM;
    [split; [apply sneutral_refl|apply cneutral_refl]|].
  destruct (dr (c_lastid c) req) as [ranges|]; [|split; [apply sneutral_refl|apply cneutral_refl]].
  destruct (call f n) as [ok1 n1]. destruct ok1; cbn [negb]; [|split; [apply sneutral_refl|apply cneutral_refl]].
  set (s1 := ad_msg_delete_list s (c_delid c + 1)%Z _ ranges).
  assert (sneutral s s1) as N1 by apply sneutral_delete_list.
  destruct (call f n1) as [ok2 n2]. destruct ok2; cbn [negb]; [|split; [exact N1|apply cneutral_refl]].
  destruct (call f n2) as [ok3 n3]. destruct ok3; cbn [negb h_st h_ca].
  2:{ split; [|apply cneutral_refl]. eapply sneutral_trans; [exact N1|]. apply sneutral_delid. }
  split.
  - eapply sneutral_trans; [exact N1|]. eapply sneutral_trans; [apply sneutral_delid|now apply sneutral_marks].
  - destruct (hard && is_deleter (user_mode c u)); cbn [negb andb] in EM.
    + apply (cneutral_trans _ (c_set_delid (c_delid c + 1)%Z c)); [apply cneutral_delid|]. apply cneutral_map_delid.
    + apply (cneutral_trans _ (c_set_delid (c_delid c + 1)%Z c)); [apply cneutral_delid|].
      unfold user_mode, get_pud in *. cbn [c_users c_set_delid].
      destruct (alookup u (c_users c)) as [p0|] eqn:EP; [|discriminate EM].
      apply (cneutral_aset _ _ _ p0); auto.
Qed.

(* ------------------------------------------------------------------ *)
(* what one accepted request may do to the stored modes                 *)
Definition had_given_O (m : option (N * N * bool)) : Prop := exists w g d, m = Some (w, g, d) /\ is_owner g = true.

(* [u]: the acting user; [is_set t]: the request is {set sub} by [u] naming user [t];
   [asks]: the request is [u]'s own {sub}/{set sub} with an explicit mode containing O *)
Inductive ssum (u : N) (is_set : N -> Prop) (asks : Prop) (s s' : store) : Prop :=
| SumSame : (forall v, smode s' v = smode s v) -> t_owner s' = t_owner s -> ssum u is_set asks s s'
| SumSelf : (forall v, v <> u -> smode s' v = smode s v) -> t_owner s' = t_owner s ->
    (forall w' g' d', smode s' u = Some (w', g', d') -> is_owner g' = true -> had_given_O (smode s u)) ->
    ssum u is_set asks s s'
| SumOther (t : N) : t <> u -> t <> t_owner s -> (forall v, v <> t -> smode s' v = smode s v) -> t_owner s' = t_owner s ->
    (forall w' g' d', smode s' t = Some (w', g', d') -> is_owner g' = true ->
       had_given_O (smode s t) \/ (u = t_owner s /\ is_set t)) ->
    ssum u is_set asks s s'
| SumTransfer : u <> t_owner s -> t_owner s' = u -> asks ->
    (exists w g, smode s u = Some (w, g, false) /\ is_owner g = true /\ is_owner w = false) ->
    (exists w' g', smode s' (t_owner s) = Some (w', g', false) /\ is_owner w' = false /\ is_owner g' = false) ->
    (forall v, v <> u -> v <> t_owner s -> smode s' v = smode s v) ->
    ssum u is_set asks s s'.

Lemma sneutral_sum u is_set asks s s' : sneutral s s' -> ssum u is_set asks s s'.
Proof. intros [A [B _]]. now apply SumSame. Qed.

Section Inv.
Variable sm : sessmap.

Lemma oinv_owner_cached s c : oinv sm s c ->
  exists w' w g, smode s (t_owner s) = Some (w', g, false) /\ cmode c (t_owner s) = Some (w, g) /\
                 is_owner w' = true /\ is_owner w = true /\ is_owner g = true.
Proof.
  intros [[_ _ _ _ P] [_ _ _ CP _]]. specialize (P (t_owner s)). specialize (CP (t_owner s)).
  destruct (smode s (t_owner s)) as [[[w' g] d]|]; cbn in P; [|congruence]. rewrite N.eqb_refl in P.
  destruct P as [-> [W G]]. destruct (cmode c (t_owner s)) as [[w g0]|]; cbn in CP; [|destruct CP].
  destruct CP as [w2 [E EW]]. inv E. exists w2, w, g0. rewrite <- EW. auto.
Qed.
Lemma oinv_uncached s c u : oinv sm s c -> cmode c u = None -> u <> t_owner s.
Proof.
  intros I E ->. destruct (oinv_owner_cached s c I) as [w' [w [g [_ [C _]]]]]. congruence.
Qed.
Lemma oinv_cached s c u w g : oinv sm s c -> cmode c u = Some (w, g) ->
  exists w', smode s u = Some (w', g, false) /\ is_owner w' = is_owner w /\
             (if N.eqb u (t_owner s) then is_owner w = true /\ is_owner g = true else is_owner w = false).
Proof.
  intros [[_ _ _ _ P] [_ _ _ CP _]] E. specialize (P u). specialize (CP u). rewrite E in CP.
  destruct CP as [w' [M EW]]. rewrite M in P. cbn in P. exists w'. split; [exact M|]. split; [exact EW|].
  rewrite <- EW. destruct (N.eqb u (t_owner s)); tauto.
Qed.

(* assembling the invariant for a new state *)
Lemma oinv_build' s c s' c' : oinv sm s c -> t_auth s' = t_auth s -> users s' = users s -> c_auth c' = c_auth c ->
  t_owner s' <> 0 -> NoDup (sub_users s') -> c_owner c' = t_owner s' -> NoDup (map fst (c_users c')) ->
  (forall v, spoint (t_owner s') v (smode s' v) /\ cpoint (smode s' v) (cmode c' v)) ->
  (forall sid su b, In (sid, (su, b)) (c_sess c') -> su = sess_uid sm sid /\ cmode c' su <> None) ->
  oinv sm s' c'.
Proof.
  intros [[_ AU US _ _] [_ CA _ _ _]] E1 E2 E3 O0 ND CO NK PT SE.
  split; constructor; auto; try (intros v; apply PT).
  - now rewrite E1.
  - now rewrite E2.
  - now rewrite E3, E1.
Qed.
Lemma oinv_build s c s' c' : oinv sm s c -> sframe s s' -> cframe c c' ->
  t_owner s' <> 0 -> NoDup (sub_users s') -> c_owner c' = t_owner s' -> NoDup (map fst (c_users c')) ->
  (forall v, spoint (t_owner s') v (smode s' v) /\ cpoint (smode s' v) (cmode c' v)) ->
  (forall sid su b, In (sid, (su, b)) (c_sess c') -> su = sess_uid sm sid /\ cmode c' su <> None) ->
  oinv sm s' c'.
Proof.
  intros I [_ [_ [_ [E1 [_ [_ E2]]]]]] [_ [_ [E3 _]]]. now apply (oinv_build' s c).
Qed.

(* one user's stored modes and cache entry are rewritten together *)
Lemma oinv_point s c s' u m p :
  oinv sm s c -> sframe s s' -> t_owner s' = t_owner s -> NoDup (sub_users s') ->
  (forall v, smode s' v = if N.eqb v u then m else smode s v) ->
  spoint (t_owner s) u m -> cpoint m (Some (p_want p, p_given p)) ->
  oinv sm s' (c_set_users (aset u p) c).
Proof.
  intros I SF EO ND SM PU CU. pose proof I as [[O0 _ _ _ P] [CO _ NK CP SE]].
  apply (oinv_build s c); [exact I|exact SF|apply cframe_users|congruence|exact ND|
                           cbn [c_owner c_set_users]; congruence|now apply keys_aset| |].
  - intros v. rewrite SM, cmode_aset, EO. destruct (N.eqb_spec v u) as [->|NE]; [split; assumption|auto].
  - intros sid su b Hin. cbn [c_sess c_set_users] in Hin. destruct (SE sid su b Hin) as [E1 E2]. split; [exact E1|].
    rewrite cmode_aset. destruct (N.eqb su u); [discriminate|exact E2].
Qed.

Lemma oinv_neutral s c s' c' : oinv sm s c -> sneutral s s' -> cneutral c c' -> oinv sm s' c'.
Proof.
  intros I [A1 [A2 [A3 [A4 A5]]]] [B1 [B2 [B3 [B4 B5]]]]. pose proof I as [[O0 _ _ ND P] [CO _ NK CP SE]].
  apply (oinv_build' s c); [exact I|exact A4|exact A5|exact B5|congruence|now rewrite A3|congruence|now apply B3| |].
  - intros v. rewrite A1, A2, B1. auto.
  - intros sid su b. rewrite B4, B1. apply (SE sid su b).
Qed.

(* eviction of a user who stays subscribed changes no mode *)
Lemma oinv_evicted s c c1 u : oinv sm s c -> evicted c u c1 -> oinv sm s c1.
Proof.
  intros I [o [[-> _]|EV]]; [exact I|].
  assert (forall v, cmode c1 v = cmode c v) as CM by (intros v; now rewrite (evict_cmode _ _ _ _ _ _ v EV)).
  destruct (evict_misc _ _ _ _ _ _ EV) as [EO [EK ES]]. pose proof (evict_frame _ _ _ _ _ _ EV) as CF.
  pose proof I as [[O0 _ _ ND P] [CO _ NK CP SE]].
  apply (oinv_build s c); [exact I|apply sframe_refl|exact CF|exact O0|exact ND|congruence|now apply EK| |].
  - intros v. rewrite CM. auto.
  - intros sid su b Hin. rewrite CM. apply (SE sid su b). apply ES in Hin. tauto.
Qed.
End Inv.

Section Shapes.
Variable sm : sessmap.
Variable is_set : N -> Prop.
Variable asks : Prop.

Lemma oinv_tus_new s c u wantm given s' :
  oinv sm s c -> u <> 0 -> alookup u (c_users c) = None -> is_owner wantm = false ->
  (given = c_auth c \/ exists r, find_sub u (subs s) = Some r /\ s_given r = given) ->
  (s' = ad_sub_create s u wantm given /\ (forall r, find_sub u (subs s) = Some r -> s_deleted r = true)
   \/ s' = s /\ exists r, find_sub u (subs s) = Some r /\ s_deleted r = false) ->
  oinv sm s' (c_set_users (aset u (mkPud wantm given 0 0 0 0)) c) /\ ssum u is_set asks s s'.
Proof.
  intros I U0 EU WO GP ST.
  assert (cmode c u = None) as CU by (unfold cmode; now rewrite EU).
  pose proof (oinv_uncached sm s c u I CU) as NO.
  pose proof I as [[O0 AU US ND P] [CO CA NK CP SE]].
  destruct ST as [[-> DEL]|[-> [r [F D]]]].
  2:{ exfalso. specialize (CP u). rewrite CU in CP. unfold smode in CP. rewrite F, D in CP. exact CP. }
  assert (t_owner (ad_sub_create s u wantm given) = t_owner s) as EO.
  { rewrite owner_sub_create, is_owner_land, WO. reflexivity. }
  split.
  - apply (oinv_point sm s c _ u (Some (wantm, given, false))); [exact I|apply sframe_sub_create|exact EO|
                                 now apply nodup_sub_create|apply smode_sub_create| |cbn; eauto].
    cbn. rewrite (proj2 (N.eqb_neq _ _) NO). exact WO.
  - apply SumSelf; [|exact EO|].
    + intros v NE. rewrite smode_sub_create, (proj2 (N.eqb_neq _ _) NE). reflexivity.
    + intros w' g' d'. rewrite smode_sub_create, N.eqb_refl. intros E OG. inv E.
      destruct GP as [-> | [r [F G]]]; [congruence|]. exists (s_want r), (s_given r), (s_deleted r).
      unfold smode. rewrite F. split; congruence.
Qed.

Lemma oinv_tus_upd s c u p0 w1 g1 ow og s' :
  oinv sm s c -> u <> 0 -> alookup u (c_users c) = Some p0 ->
  (ow = Some w1 \/ ow = None /\ w1 = p_want p0) ->
  (og = Some g1 \/ og = None /\ g1 = p_given p0) ->
  (s' = s /\ ow = None /\ og = None \/ s' = ad_subs_update s u (mkUpd ow og None None None)) ->
  is_owner g1 = is_owner (p_given p0) ->
  (is_owner w1 = true -> is_owner (p_want p0) = true \/ c_owner c = u /\ is_owner (p_given p0) = true) ->
  (c_owner c = u -> is_owner (p_want p0) = true -> is_owner (p_given p0) = true -> is_owner w1 = true) ->
  oinv sm s' (c_set_users (aset u (p_set_modes w1 g1 p0)) c) /\ ssum u is_set asks s s'.
Proof.
  intros I U0 EU HW HG ST OG F1 F2.
  assert (cmode c u = Some (p_want p0, p_given p0)) as CU by (unfold cmode; now rewrite EU).
  destruct (oinv_cached sm s c u _ _ I CU) as [w' [SU [EW OC]]].
  pose proof I as [[O0 AU US ND P] [CO CA NK CP SE]].
  set (w2 := match ow with Some x => x | None => w' end).
  assert (is_owner w2 = is_owner w1) as EW2.
  { unfold w2. destruct HW as [-> | [-> ->]]; [reflexivity|exact EW]. }
  assert ((forall v, smode s' v = if N.eqb v u then Some (w2, g1, false) else smode s v) /\
          t_owner s' = t_owner s /\ sub_users s' = sub_users s /\ sframe s s') as [SM [EO [EU' SF]]].
  { destruct ST as [[-> [-> ->]]| ->].
    - split; [|split; [reflexivity|split; [reflexivity|apply sframe_refl]]].
      intros v. destruct (N.eqb_spec v u) as [-> | ]; [|reflexivity]. rewrite SU. unfold w2.
      destruct HG as [HG|[_ ->]]; [discriminate|reflexivity].
    - split; [|split; [apply owner_subs_update|split; [apply users_subs_update|apply sframe_subs_update]]].
      intros v. rewrite smode_subs_update by exact U0. destruct (N.eqb_spec v u) as [-> | ]; [|reflexivity].
      rewrite SU. cbn. unfold upd_modes, w2. cbn. destruct HG as [-> | [-> ->]]; reflexivity. }
  assert (spoint (t_owner s) u (Some (w2, g1, false))) as PU.
  { cbn. rewrite EW2, OG. destruct (N.eqb_spec u (t_owner s)) as [E|NE].
    - destruct OC as [OW OGv]. split; [reflexivity|]. split; [|exact OGv]. apply F2; auto. congruence.
    - destruct (is_owner w1) eqn:W1; [|reflexivity]. destruct (F1 eq_refl) as [H|[H _]]; congruence. }
  split.
  - apply (oinv_point sm s c _ u (Some (w2, g1, false))); [exact I|exact SF|exact EO|now rewrite EU'|exact SM|exact PU|].
    cbn. exists w2. auto.
  - apply SumSelf; [|exact EO|].
    + intros v NE. rewrite SM, (proj2 (N.eqb_neq _ _) NE). reflexivity.
    + intros w3 g3 d3. rewrite SM, N.eqb_refl. intros E OG3. inv E.
      exists w', (p_given p0), false. split; [exact SU|congruence].
Qed.

Lemma oinv_tus_transfer s c u p0 w1 g1 og s' c' :
  oinv sm s c -> u <> 0 -> alookup u (c_users c) = Some p0 ->
  is_owner (p_want p0) = false -> is_owner (p_given p0) = true -> is_owner w1 = true -> is_owner g1 = true ->
  (og = Some g1 \/ og = None /\ g1 = p_given p0) -> asks ->
  let prev := c_owner c in let pp := get_pud c prev in
  let pw := N.ldiff (p_want pp) mO in let pg := N.ldiff (p_given pp) mO in
  let cT := c_set_owner u (c_set_users (aset prev (p_set_modes pw pg pp)) c) in
  s' = st_owner u (ad_subs_update (ad_subs_update s u (mkUpd (Some w1) og None None None)) prev
                                  (mkUpd (Some pw) (Some pg) None None None)) ->
  c' = c_set_users (aset u (p_set_modes w1 g1 (get_pud cT u))) cT ->
  oinv sm s' c' /\ ssum u is_set asks s s'.
Proof.
  intros I U0 EU OW OG W1 G1 HG AS prev pp pw pg cT -> ->.
  assert (cmode c u = Some (p_want p0, p_given p0)) as CU by (unfold cmode; now rewrite EU).
  destruct (oinv_cached sm s c u _ _ I CU) as [w' [SU [EW OC]]].
  assert (u <> t_owner s) as NO.
  { intros E. rewrite E, N.eqb_refl in OC. destruct OC. congruence. }
  destruct (oinv_owner_cached sm s c I) as [ow' [owc [og0 [SO [CO' [_ [_ _]]]]]]].
  pose proof I as [[O0 AU US ND P] [CO CA NK CP SE]].
  assert (prev = t_owner s) as EP by exact CO.
  assert (is_owner pw = false /\ is_owner pg = false) as [PW PG] by (split; apply is_owner_ldiff_mO).
  set (s1 := ad_subs_update (ad_subs_update s u (mkUpd (Some w1) og None None None)) prev (mkUpd (Some pw) (Some pg) None None None)).
  assert (forall v, smode (st_owner u s1) v =
            if N.eqb v (t_owner s) then Some (pw, pg, false) else if N.eqb v u then Some (w1, g1, false) else smode s v) as SM.
  { intros v. change (smode (st_owner u s1) v) with (smode s1 v). unfold s1.
    rewrite smode_subs_update by congruence. rewrite smode_subs_update by exact U0. rewrite EP.
    destruct (N.eqb_spec v (t_owner s)) as [->|NE1].
    - rewrite (proj2 (N.eqb_neq _ _) (not_eq_sym NO)), SO. reflexivity.
    - destruct (N.eqb_spec v u) as [->|NE2]; [|reflexivity]. rewrite SU. cbn. unfold upd_modes. cbn.
      destruct HG as [->|[-> ->]]; reflexivity. }
  assert (forall v, cmode (c_set_users (aset u (p_set_modes w1 g1 (get_pud cT u))) cT) v =
            if N.eqb v u then Some (w1, g1) else if N.eqb v (t_owner s) then Some (pw, pg) else cmode c v) as CM.
  { intros v. rewrite cmode_aset. cbn [p_want p_given p_set_modes]. destruct (N.eqb v u); [reflexivity|].
    unfold cT. change (cmode (c_set_owner u (c_set_users (aset prev (p_set_modes pw pg pp)) c)) v)
      with (cmode (c_set_users (aset prev (p_set_modes pw pg pp)) c) v).
    rewrite cmode_aset, EP. reflexivity. }
  split.
  - apply (oinv_build sm s c); [exact I| | |exact U0| |reflexivity| | |].
    + eapply sframe_trans; [|apply sframe_owner]. eapply sframe_trans; [|apply sframe_subs_update]. apply sframe_subs_update.
    + eapply cframe_trans; [|apply cframe_users]. eapply cframe_trans; [|apply cframe_owner]. apply cframe_users.
    + change (sub_users (st_owner u s1)) with (sub_users s1). unfold s1. now rewrite !users_subs_update.
    + cbn [c_users c_set_users]. apply keys_aset. unfold cT. cbn [c_users c_set_users c_set_owner]. now apply keys_aset.
    + intros v. rewrite SM, CM. cbn [t_owner st_owner]. specialize (P v). specialize (CP v).
      destruct (N.eqb_spec v (t_owner s)) as [->|NE1].
      * rewrite (proj2 (N.eqb_neq _ _) (not_eq_sym NO)). split; cbn.
        -- rewrite (proj2 (N.eqb_neq _ _) (not_eq_sym NO)). exact PW.
        -- eauto.
      * destruct (N.eqb_spec v u) as [->|NE2].
        -- split; cbn; [rewrite N.eqb_refl; auto|eauto].
        -- split; [|exact CP]. unfold spoint in *. rewrite (proj2 (N.eqb_neq _ _) NE1) in P. rewrite (proj2 (N.eqb_neq _ _) NE2).
           destruct (smode s v) as [[[? ?] ?]|]; auto.
    + intros sid su b Hin. destruct (SE sid su b Hin) as [E1 E2]. split; [exact E1|]. rewrite CM.
      destruct (N.eqb su u); [discriminate|]. destruct (N.eqb su (t_owner s)); [discriminate|exact E2].
  - apply SumTransfer; auto.
    + exists w', (p_given p0). rewrite <- EW in OW. auto.
    + exists pw, pg. rewrite SM, N.eqb_refl. auto.
    + intros v N1 N2. rewrite SM, (proj2 (N.eqb_neq _ _) N1), (proj2 (N.eqb_neq _ _) N2). reflexivity.
Qed.

Lemma oinv_aus_new s c u t wantm given :
  oinv sm s c -> t <> u -> alookup t (c_users c) = None ->
  (is_owner given = true -> c_owner c = u) -> (is_owner given = true -> is_set t) ->
  ((exists r, find_sub t (subs s) = Some r /\ wantm = s_want r) \/
   (exists acc, alookup t (users s) = Some acc /\ wantm = N.land acc given)) ->
  oinv sm (ad_sub_create s t wantm given) (c_set_users (aset t (mkPud wantm given 0 0 0 0)) c) /\
  ssum u is_set asks s (ad_sub_create s t wantm given).
Proof.
  intros I TU ET HO HS WP.
  assert (cmode c t = None) as CT by (unfold cmode; now rewrite ET).
  pose proof (oinv_uncached sm s c t I CT) as NO.
  pose proof I as [[O0 AU US ND P] [CO CA NK CP SE]].
  assert (is_owner wantm = false) as WO.
  { destruct WP as [[r [F ->]]|[acc [F ->]]].
    - specialize (P t). unfold smode in P. rewrite F in P. cbn in P. now rewrite (proj2 (N.eqb_neq _ _) NO) in P.
    - rewrite is_owner_land, (US _ _ F). reflexivity. }
  assert (t_owner (ad_sub_create s t wantm given) = t_owner s) as EO.
  { rewrite owner_sub_create, is_owner_land, WO. reflexivity. }
  split.
  - apply (oinv_point sm s c _ t (Some (wantm, given, false))); [exact I|apply sframe_sub_create|exact EO|
                                 now apply nodup_sub_create|apply smode_sub_create| |cbn; eauto].
    cbn. rewrite (proj2 (N.eqb_neq _ _) NO). exact WO.
  - apply (SumOther _ _ _ _ _ t); [exact TU|exact NO| |exact EO|].
    + intros v NE. rewrite smode_sub_create, (proj2 (N.eqb_neq _ _) NE). reflexivity.
    + intros w' g' d'. rewrite smode_sub_create, N.eqb_refl. intros E OG. inv E. right. split; [|auto].
      rewrite <- CO. symmetry. auto.
Qed.

Lemma oinv_aus_upd s c u t pt mg :
  oinv sm s c -> t <> u -> t <> 0 -> alookup t (c_users c) = Some pt ->
  (is_owner mg = true -> c_owner c = u) -> (c_owner c = t -> is_owner mg = true) -> is_set t ->
  oinv sm (ad_subs_update s t (mkUpd None (Some mg) None None None)) (c_set_users (aset t (p_set_modes (p_want pt) mg pt)) c) /\
  ssum u is_set asks s (ad_subs_update s t (mkUpd None (Some mg) None None None)).
Proof.
  intros I TU T0 ET HO HT HS.
  assert (cmode c t = Some (p_want pt, p_given pt)) as CT by (unfold cmode; now rewrite ET).
  destruct (oinv_cached sm s c t _ _ I CT) as [w' [ST [EW OC]]].
  pose proof I as [[O0 AU US ND P] [CO CA NK CP SE]].
  assert (t <> t_owner s) as NO.
  { intros E. apply TU. rewrite <- (HO (HT (eq_trans CO (eq_sym E)))). congruence. }
  rewrite (proj2 (N.eqb_neq _ _) NO) in OC.
  assert (forall v, smode (ad_subs_update s t (mkUpd None (Some mg) None None None)) v =
            if N.eqb v t then Some (w', mg, false) else smode s v) as SM.
  { intros v. rewrite smode_subs_update by exact T0. destruct (N.eqb_spec v t) as [->|]; [|reflexivity]. now rewrite ST. }
  split.
  - apply (oinv_point sm s c _ t (Some (w', mg, false))); [exact I|apply sframe_subs_update|apply owner_subs_update|
                                 now rewrite users_subs_update|exact SM| |cbn; eauto].
    cbn. rewrite (proj2 (N.eqb_neq _ _) NO). congruence.
  - apply (SumOther _ _ _ _ _ t); [exact TU|exact NO| |apply owner_subs_update|].
    + intros v NE. rewrite SM, (proj2 (N.eqb_neq _ _) NE). reflexivity.
    + intros w2 g2 d2. rewrite SM, N.eqb_refl. intros E OG. inv E. right. split; [|exact HS].
      rewrite <- CO. symmetry. auto.
Qed.

(* unsubscribing a user who is not the owner: by himself or by a manager *)
Lemma oinv_unsub s c t k s' :
  oinv sm s c -> t <> t_owner s -> (ad_subs_delete s t = Some s' \/ ad_subs_delete s t = None /\ s' = s /\ cmode c t <> None) ->
  oinv sm s' (fst (evict_user c t true k)) /\
  (forall v, v <> t -> smode s' v = smode s v) /\ t_owner s' = t_owner s /\
  (forall w' g' d', smode s' t = Some (w', g', d') -> is_owner g' = true -> had_given_O (smode s t)).
Proof.
  intros I NO ST. pose proof I as [[O0 AU US ND P] [CO CA NK CP SE]].
  destruct ST as [ST|[ST [-> CT]]].
  2:{ exfalso. apply subs_delete_none in ST. specialize (CP t). destruct (cmode c t) as [[w g]|]; [|congruence].
      destruct CP as [w' [E _]]. rewrite E in ST. exact ST. }
  destruct (subs_delete_some _ _ _ ST) as [[w [g SU]] [SM [EO EU]]].
  destruct (evict_user c t true k) as [c' o] eqn:EV. cbn [fst].
  assert (forall v, cmode c' v = if N.eqb v t then None else cmode c v) as CM by (intros v; now rewrite (evict_cmode _ _ _ _ _ _ v EV)).
  destruct (evict_misc _ _ _ _ _ _ EV) as [EOc [EK ES]]. pose proof (evict_frame _ _ _ _ _ _ EV) as CF.
  split; [|split; [|split]].
  - apply (oinv_build sm s c); [exact I|now apply sframe_subs_delete in ST|exact CF|congruence|congruence|congruence|now apply EK| |].
    + intros v. rewrite SM, CM, EO. destruct (N.eqb_spec v t) as [->|NE]; [|auto].
      specialize (P t). rewrite SU in *. cbn in *. rewrite (proj2 (N.eqb_neq _ _) NO) in *. auto.
    + intros sid su b Hin. destruct (ES _ Hin) as [H1 H2]. cbn [fst snd] in H2. destruct (SE sid su b H1) as [E1 E2].
      split; [exact E1|]. rewrite CM, (proj2 (N.eqb_neq _ _) H2). exact E2.
  - intros v NE. rewrite SM, (proj2 (N.eqb_neq _ _) NE). reflexivity.
  - exact EO.
  - intros w' g' d'. rewrite SM, N.eqb_refl, SU. cbn. intros E OG. inv E. eexists _, _, _. split; [first [exact SU|reflexivity]|exact OG].
Qed.

(* the offline {set sub}: only the requester's own want, never its O bit; any cache stays coherent *)
Lemma sinv_offline s u w g mw :
  sinv s -> u <> 0 -> smode s u = Some (w, g, false) -> is_owner mw = is_owner w ->
  let s' := ad_subs_update s u (mkUpd (Some mw) None None None None) in
  sinv s' /\ (forall c, cinv sm s c -> cinv sm s' c) /\ ssum u is_set asks s s'.
Proof.
  intros SI U0 SU EW s'. pose proof SI as [O0 AU US ND P].
  assert (forall v, smode s' v = if N.eqb v u then Some (mw, g, false) else smode s v) as SM.
  { intros v. unfold s'. rewrite smode_subs_update by exact U0. destruct (N.eqb_spec v u) as [->|]; [|reflexivity]. now rewrite SU. }
  assert (t_owner s' = t_owner s) as EO by apply owner_subs_update.
  split; [|split].
  - destruct (sframe_subs_update s u (mkUpd (Some mw) None None None None)) as [_ [_ [_ [F1 [_ [_ F2]]]]]]. fold s' in F1, F2.
    constructor.
    + congruence.
    + now rewrite F1.
    + now rewrite F2.
    + unfold s'. now rewrite users_subs_update.
    + intros v. rewrite SM, EO. destruct (N.eqb_spec v u) as [->|NE]; [|auto].
      specialize (P u). rewrite SU in P. cbn in *. rewrite EW. exact P.
  - intros c [CO CA NK CP SE].
    destruct (sframe_subs_update s u (mkUpd (Some mw) None None None None)) as [_ [_ [_ [F1 _]]]]. fold s' in F1.
    constructor; [congruence|congruence|exact NK| |exact SE].
    intros v. rewrite SM. destruct (N.eqb_spec v u) as [->|NE]; [|auto].
    specialize (CP u). rewrite SU in CP. destruct (cmode c u) as [[cw cg]|]; cbn in *; [|exact CP].
    destruct CP as [w' [E E2]]. inv E. exists mw. split; [reflexivity|congruence].
  - apply SumSelf; [|exact EO|].
    + intros v NE. rewrite SM, (proj2 (N.eqb_neq _ _) NE). reflexivity.
    + intros w' g' d'. rewrite SM, N.eqb_refl. intros E OG. inv E. eexists _, _, _. split; [first [exact SU|reflexivity]|exact OG].
Qed.

Lemma evicted_cmode c u c' : evicted c u c' -> forall v, cmode c' v = cmode c v.
Proof.
  intros [o [[-> _]|EV]] v; [reflexivity|]. now rewrite (evict_cmode _ _ _ _ _ _ v EV).
Qed.

Lemma oinv_add_sess s c sid u bkg : oinv sm s c -> cmode c u <> None -> u = sess_uid sm sid ->
  oinv sm s (c_set_sess (aset sid (u, bkg)) c).
Proof.
  intros I CU EU. pose proof I as [SI [CO CA NK CP SE]]. split; [exact SI|]. constructor; auto.
  intros sid' su b Hin. cbn [c_sess c_set_sess] in Hin. apply in_aset in Hin. destruct Hin as [E|Hin].
  - inv E. auto.
  - apply (SE sid' su b Hin).
Qed.
Lemma oinv_online s c u v : oinv sm s c -> oinv sm s (c_set_users (aset u (p_set_online v (get_pud c u))) c) \/ cmode c u = None.
Proof.
  intros I. unfold get_pud, cmode. destruct (alookup u (c_users c)) as [p|] eqn:E; [left|now right].
  apply (oinv_neutral sm s c); auto; [apply sneutral_refl|].
  now apply (cneutral_aset _ _ _ p).
Qed.

(* thisUserSub and anotherUserSub under the invariant *)
Lemma tus_inv f s c n sid u want nb : oinv sm s c -> u <> 0 ->
  (f = NoFault \/ is_owner (req_mode want) = false) -> (is_owner (req_mode want) = true -> asks) ->
  let hr := this_user_sub f s c n sid u want nb in
  oinv sm (h_st (fst hr)) (h_ca (fst hr)) /\ ssum u is_set asks s (h_st (fst hr)) /\
  (forall ch, snd hr = SubOk ch -> cmode (h_ca (fst hr)) u <> None).
Proof.
  intros I U0 FS AS. cbn zeta. pose proof I as [[_ AU _ _ _] [_ CA _ _ _]].
  assert (is_owner (c_auth c) = false) as AC by congruence.
  pose proof (tus_cases f s c n sid u want nb AC) as TC.
  remember (this_user_sub f s c n sid u want nb) as hr eqn:Ehr. clear Ehr.
  destruct TC as [E1 E2 [code E3]|wantm given EU WO GP ST EV|p0 w1 g1 ow og EU HW HG ST EV OG F1 F2
                                                   |p0 w1 g1 og EU OW OG W1 G1 EW HG prev pp pw pg cT ST EV|NF OR _ _].
  - rewrite E1, E2. split; [exact I|]. split; [apply SumSame; reflexivity|]. intros ch. rewrite E3. discriminate.
  - destruct (oinv_tus_new s c u wantm given (h_st (fst hr)) I U0 EU WO GP) as [I2 SS].
    { exact ST. }
    split; [eapply oinv_evicted; eauto|]. split; [exact SS|]. intros _ _.
    rewrite (evicted_cmode _ _ _ EV), cmode_aset, N.eqb_refl. discriminate.
  - destruct (oinv_tus_upd s c u p0 w1 g1 ow og (h_st (fst hr)) I U0 EU HW HG) as [I2 SS]; auto.
    split; [eapply oinv_evicted; eauto|]. split; [exact SS|]. intros _ _.
    rewrite (evicted_cmode _ _ _ EV), cmode_aset, N.eqb_refl. discriminate.
  - assert asks as A by (apply AS; congruence).
    destruct (oinv_tus_transfer s c u p0 w1 g1 og (h_st (fst hr)) _ I U0 EU OW OG W1 G1 HG A ST eq_refl) as [I2 SS].
    split; [eapply oinv_evicted; eauto|]. split; [exact SS|]. intros _ _.
    rewrite (evicted_cmode _ _ _ EV), cmode_aset, N.eqb_refl. discriminate.
  - exfalso. destruct FS; congruence.
Qed.

Lemma aus_inv f s c n sid u t mode : oinv sm s c -> t <> u -> t <> 0 -> is_set t ->
  let hr := another_user_sub f s c n sid u t mode in
  oinv sm (h_st (fst hr)) (h_ca (fst hr)) /\ ssum u is_set asks s (h_st (fst hr)).
Proof.
  intros I TU T0 HS. cbn zeta. pose proof I as [[_ AU _ _ _] [_ CA _ _ _]].
  assert (is_owner (c_auth c) = false) as AC by congruence.
  pose proof (aus_cases f s c n sid u t mode AC) as TC.
  remember (another_user_sub f s c n sid u t mode) as hr eqn:Ehr. clear Ehr.
  destruct TC as [E1 EV|wantm given ET HO WP ST EV|pt mg ET HO HT ST EV].
  - rewrite E1. split; [eapply oinv_evicted; eauto|apply SumSame; reflexivity].
  - destruct (oinv_aus_new s c u t wantm given I TU ET HO (fun _ => HS) WP) as [I2 SS]. rewrite ST.
    split; [eapply oinv_evicted; eauto|exact SS].
  - destruct (oinv_aus_upd s c u t pt mg I TU T0 ET HO HT HS) as [I2 SS]. rewrite ST.
    split; [eapply oinv_evicted; eauto|exact SS].
Qed.

Lemma sub_reply_inv f s c n sid u want bkg : oinv sm s c -> u <> 0 -> u = sess_uid sm sid ->
  (f = NoFault \/ is_owner (req_mode want) = false) -> (is_owner (req_mode want) = true -> asks) ->
  let h := sub_reply f s c n sid u want bkg in
  oinv sm (h_st h) (h_ca h) /\ ssum u is_set asks s (h_st h).
Proof.
  intros I U0 EU FS AS. cbn zeta. unfold sub_reply.
  pose proof (tus_inv f s c n sid u want (match alookup u (c_users c) with Some _ => false | None => true end) I U0 FS AS) as TI.
  cbn zeta in TI. destruct (this_user_sub f s c n sid u want _) as [h r]. cbn [fst snd] in TI. destruct TI as [I2 [SS CU]].
  destruct r as [code|ch]; cbn [h_st h_ca]; [auto|]. split; [|exact SS].
  specialize (CU ch eq_refl).
  destruct (match ch with Some (w, g) => is_joiner (N.land g w) | None => true end); [|exact I2].
  assert (oinv sm (h_st h) (c_set_sess (aset sid (u, bkg)) (h_ca h))) as I3 by (apply oinv_add_sess; auto).
  destruct bkg; [exact I3|].
  destruct (oinv_online (h_st h) (c_set_sess (aset sid (u, false)) (h_ca h)) u
              (p_online (get_pud (c_set_sess (aset sid (u, false)) (h_ca h)) u) + 1)%Z I3) as [I4|E]; [exact I4|].
  exfalso. apply CU. exact E.
Qed.

(* a store fault matters only when the request is the actor's own: anotherUserSub has one write *)
Lemma set_sub_inv f s c n sid u target mode : oinv sm s c -> u <> 0 ->
  (target = 0 \/ target = u -> f = NoFault \/ is_owner (req_mode mode) = false) ->
  (target = 0 \/ target = u -> is_owner (req_mode mode) = true -> asks) ->
  (target <> 0 -> target <> u -> is_set target) ->
  let h := set_sub f s c n sid u target mode in
  oinv sm (h_st h) (h_ca h) /\ ssum u is_set asks s (h_st h).
Proof.
  intros I U0 FS AS HS. cbn zeta. unfold set_sub.
  destruct ((target =? 0) || N.eqb target u) eqn:SELF.
  - assert (target = 0 \/ target = u) as ST.
    { apply orb_true_iff in SELF. destruct SELF as [E|E]; apply N.eqb_eq in E; auto. }
    pose proof (tus_inv f s c n sid u mode false I U0 (FS ST) (AS ST)) as TI. cbn zeta in TI.
    destruct (this_user_sub f s c n sid u mode false) as [h r]. cbn [fst snd] in TI. destruct TI as [I2 [SS _]].
    destruct r; cbn [h_st h_ca]; auto.
  - apply orb_false_iff in SELF. destruct SELF as [E1 E2]. apply N.eqb_neq in E1, E2.
    pose proof (aus_inv f s c n sid u target mode I E2 E1 (HS E1 E2)) as TI. cbn zeta in TI.
    destruct (another_user_sub f s c n sid u target mode) as [h r]. cbn [fst snd] in TI. destruct TI as [I2 SS].
    destruct r; cbn [h_st h_ca]; auto.
Qed.

Lemma del_sub_inv f s c n sid u target : oinv sm s c ->
  let h := del_sub f s c n sid u target in
  oinv sm (h_st h) (h_ca h) /\ ssum u is_set asks s (h_st h).
Proof.
  intros I. cbn zeta.
  destruct (del_sub_cases f s c n sid u target) as [[E1 E2]|[pt [TU [ET [OP [ST EC]]]]]].
  - rewrite E1, E2. split; [exact I|apply SumSame; reflexivity].
  - assert (cmode c target = Some (p_want pt, p_given pt)) as CT by (unfold cmode; now rewrite ET).
    destruct (oinv_cached sm s c target _ _ I CT) as [w' [SU [EW OC]]].
    assert (target <> t_owner s) as NO.
    { intros E. rewrite E, N.eqb_refl in OC. destruct OC as [A B]. rewrite pud_mode_owner, A, B in OP. discriminate. }
    destruct (oinv_unsub s c target 0 (h_st (del_sub f s c n sid u target)) I NO) as [I2 [SM [EO HG]]].
    { destruct ST as [ST|[ST1 ST2]]; [now left|right]. split; [exact ST1|]. split; [exact ST2|]. congruence. }
    rewrite EC. split; [exact I2|]. apply (SumOther _ _ _ _ _ target); auto.
    intros w2 g2 d2 E OG. left. eapply HG; eauto.
Qed.

Lemma leave_unsub_inv f s c n sid u : oinv sm s c ->
  let h := leave_unsub f s c n sid u in
  oinv sm (h_st h) (h_ca h) /\ ssum u is_set asks s (h_st h).
Proof.
  intros I. cbn zeta.
  destruct (leave_unsub_cases f s c n sid u) as [[E1 E2]|[NO [ST EC]]].
  - rewrite E1, E2. split; [exact I|apply SumSame; reflexivity].
  - pose proof I as [_ [CO _ _ _ _]]. assert (u <> t_owner s) as NO2 by congruence.
    destruct (oinv_unsub s c u sid (h_st (leave_unsub f s c n sid u)) I NO2 (or_introl ST)) as [I2 [SM [EO HG]]].
    rewrite EC. split; [exact I2|]. apply SumSelf; auto.
Qed.

Lemma leave_inv s c sid u : oinv sm s c -> oinv sm s (fst (leave c sid u)).
Proof.
  intros I. destruct (leave_cases c sid u) as [->|[su [bkg [ES [->|[p [-> HP]]]]]]]; [exact I| |].
  - pose proof I as [SI [CO CA NK CP SE]]. split; [exact SI|]. constructor; auto.
    intros sid' su' b Hin. cbn [c_sess c_set_sess] in Hin. apply in_aremove in Hin. apply (SE sid' su' b Hin).
  - pose proof I as [SI [CO CA NK CP SE]].
    destruct (SE sid su bkg (alookup_in _ _ _ ES)) as [_ CS]. apply cmode_cached in CS.
    destruct (alookup su (c_users c)) as [p0|] eqn:EP; [|congruence]. destruct HP as [[W G]|HP]; [|discriminate].
    assert (oinv sm s (c_set_sess (aremove sid) c)) as I1.
    { split; [exact SI|]. constructor; auto.
      intros sid' su' b Hin. cbn [c_sess c_set_sess] in Hin. apply in_aremove in Hin. apply (SE sid' su' b Hin). }
    apply (oinv_neutral sm s (c_set_sess (aremove sid) c)); auto; [apply sneutral_refl|].
    apply (cneutral_aset _ _ _ p0); auto.
Qed.
End Shapes.

(* ------------------------------------------------------------------ *)
(* requests and histories: vocabulary                                  *)
Section StepOwner.
Variable sm : sessmap.

Definition op_sid (o : op) : option N :=
  match o with
  | OSub a _ _ | OLeave a _ | OPub a _ _ | ONote a _ _ | OGetData a _ _ _ | OGetDesc a | OGetSub a
  | OGetDel a _ _ _ | ODelMsg a _ _ | OSetSub a _ _ | ODelSub a _ => Some a
  | OUnload | ORestart => None
  end.
(* the acting user of a request (0 for the two administrative events) *)
Definition op_user (o : op) : N := match op_sid o with Some sid => sess_uid sm sid | None => 0 end.
(* every request comes from a logged-in session *)
Definition actor_ok (o : op) : Prop := match op_sid o with Some sid => sess_uid sm sid <> 0 | None => True end.
(* the request names a mode containing O *)
Definition asks_owner (o : op) : bool :=
  match o with OSub _ w _ => is_owner (req_mode w) | OSetSub _ _ m => is_owner (req_mode m) | _ => false end.
(* {set sub} naming another user [t] *)
Definition is_set_op (o : op) (t : N) : Prop :=
  exists sid mode, o = OSetSub sid t mode /\ t <> 0 /\ t <> sess_uid sm sid.
(* the actor's own {sub} / {set sub} with an explicit mode containing O *)
Definition asks_op (o : op) : Prop :=
  (exists sid want bkg, o = OSub sid want bkg /\ is_owner (req_mode want) = true) \/
  (exists sid t mode, o = OSetSub sid t mode /\ (t = 0 \/ t = sess_uid sm sid) /\ is_owner (req_mode mode) = true).

Definition step_sum (o : op) (s s' : store) : Prop := ssum (op_user o) (is_set_op o) (asks_op o) s s'.

Lemma oinv_sinv s c : oinv sm s c -> sinv s. Proof. now intros [H _]. Qed.

Lemma oinv_state_sinv x : oinv_state sm x -> sinv (st x).
Proof. unfold oinv_state. destruct (ca x); [apply oinv_sinv|auto]. Qed.

(* the faulted requests under which the invariant is proved in any case: those that do not name O *)
Definition fault_safe (fo : fault * op) : Prop := fst fo = NoFault \/ asks_owner (snd fo) = false.
Definition hist_ok (h : list (fault * op)) : Prop := Forall (fun fo => actor_ok (snd fo) /\ fault_safe fo) h.

Lemma hist_ok_nofault h : Forall (fun fo => actor_ok (snd fo)) h -> Forall (fun fo => fst fo = NoFault) h -> hist_ok h.
Proof.
  intros A B. unfold hist_ok. rewrite Forall_forall in *. intros fo Hin. split; [now apply A|left; now apply B].
Qed.

(* exactly one effective owner, equal to the owner fields, in the store and in the cache *)
Definition one_owner (x : state) : Prop :=
  store_owners (st x) = [t_owner (st x)] /\
  match ca x with Some c => cache_owners c = [c_owner c] /\ c_owner c = t_owner (st x) | None => True end.

Lemma oinv_state_one_owner x : oinv_state sm x -> one_owner x.
Proof.
  unfold oinv_state, one_owner. destruct (ca x) as [c|].
  - intros I. split; [apply sinv_store_owners; now apply oinv_sinv in I|].
    split; [now apply (oinv_cache_owners sm (st x))|]. now destruct I as [_ [CO _ _ _ _]].
  - intros I. split; [now apply sinv_store_owners|exact Logic.I].
Qed.
End StepOwner.

(* ------------------------------------------------------------------ *)
(* the two readings of "is the owner" used by the owner-only gates agree with the one owner *)
Lemma sinv_eff_owner_iff s u : sinv s ->
  ((exists w g, smode s u = Some (w, g, false) /\ is_owner (N.land w g) = true) <-> u = t_owner s).
Proof.
  intros [_ _ _ _ P]. specialize (P u). split.
  - intros [w [g [E O]]]. rewrite E in P. cbn in P. rewrite is_owner_land in O. apply andb_true_iff in O.
    destruct (N.eqb_spec u (t_owner s)); [assumption|]. destruct O. congruence.
  - intros ->. destruct (smode s (t_owner s)) as [[[w g] d]|]; cbn in P; [|congruence].
    rewrite N.eqb_refl in P. destruct P as [-> [W G]]. exists w, g. rewrite is_owner_land, W, G. auto.
Qed.
Lemma oinv_cached_owner_iff sm s c u : oinv sm s c -> (c_owner c = u <-> u = t_owner s).
Proof. intros [_ [CO _ _ _ _]]. rewrite CO. split; congruence. Qed.

(* stores left behind by the topic-creation code satisfy the stored part of the invariant *)
Lemma sinv_new_topic auth anon usrs o w g : o <> 0 -> is_owner auth = false ->
  (forall u acc, alookup u usrs = Some acc -> is_owner acc = false) -> is_owner w = true -> is_owner g = true ->
  sinv (ad_sub_create (mkStore true 0 0 0 auth anon [] [] [] usrs) o w g).
Proof.
  intros O0 AU US W G. set (s0 := mkStore true 0 0 0 auth anon [] [] [] usrs).
  assert (t_owner (ad_sub_create s0 o w g) = o) as EO by (rewrite owner_sub_create, is_owner_land, W, G; reflexivity).
  destruct (sframe_sub_create s0 o w g) as [_ [_ [_ [F1 [_ [_ F2]]]]]].
  constructor.
  - congruence.
  - now rewrite F1.
  - now rewrite F2.
  - apply nodup_sub_create. constructor.
  - intros v. rewrite smode_sub_create, EO. destruct (N.eqb_spec v o) as [->|NE]; cbn.
    + rewrite N.eqb_refl. auto.
    + exact NE.
Qed.
Lemma sinv_add_row s u w g : sinv s -> u <> t_owner s -> is_owner w = false -> sinv (ad_sub_create s u w g).
Proof.
  intros [O0 AU US ND P] NO W.
  assert (t_owner (ad_sub_create s u w g) = t_owner s) as EO by (rewrite owner_sub_create, is_owner_land, W; reflexivity).
  destruct (sframe_sub_create s u w g) as [_ [_ [_ [F1 [_ [_ F2]]]]]].
  constructor.
  - congruence.
  - now rewrite F1.
  - now rewrite F2.
  - now apply nodup_sub_create.
  - intros v. rewrite smode_sub_create, EO. destruct (N.eqb_spec v u) as [->|NE]; [|apply P].
    cbn. now rewrite (proj2 (N.eqb_neq _ _) NO).
Qed.
