(* C07 proofs for the kinds model Sys/TopicKindsC07.v: routing, and the world invariant
   "every stored subscription, cached entry and attached session of a topic belongs to a
   legitimate participant (me/fnd: the owner; sys: a root user; p2p: one of the two named
   users), p2p modes are within JRWPA and contain A", for every history whose requests avoid
   the reproduced defect patterns (three for p2p, one for me/fnd; findings/C07.md). *)
From Coq Require Import ZArith NArith List Bool Lia.
From Tinode Require Import Base.Util Pure.Acs Sys.Topic Sys.TopicTac Sys.TopicMarks Sys.TopicAclC07Proofs Sys.TopicKindsC07.
Import ListNotations.
Open Scope N_scope.

(* ---------- routing (expandTopicName) ---------- *)
Lemma expand_me uid o u : expand uid o = inl (KMe u) -> o = OMe /\ u = uid.
Proof.
  destruct o; cbn; intros H; try discriminate; try (inv H; auto; fail).
  repeat break_match_hyp; discriminate.
Qed.
Lemma expand_sys uid o : expand uid o = inl KSys -> o = OSys.
Proof. destruct o; cbn; intros H; try discriminate; auto. repeat break_match_hyp; discriminate. Qed.
Lemma expand_p2p uid o a b : expand uid o = inl (KP2P a b) ->
  o = ORawP2P a b \/ (exists v, o = OUsr v /\ v <> 0 /\ v <> uid /\ ((a = uid /\ b = v) \/ (a = v /\ b = uid))).
Proof.
  destruct o as [| | |v|v|a0 b0]; cbn; intros H; try discriminate.
  - destruct (v =? 0) eqn:E0; [discriminate|]. destruct (v =? uid) eqn:E1; [discriminate|].
    apply N.eqb_neq in E0, E1. right. exists v. destruct (uid <? v); inv H; repeat split; auto.
  - inv H. left. reflexivity.
Qed.

(* ---------- topics table ---------- *)
Lemma tkey_eqb_eq x y : tkey_eqb x y = true <-> x = y.
Proof.
  destruct x, y; cbn; split; intros H; try discriminate; try reflexivity;
    try (apply N.eqb_eq in H; subst; reflexivity); try (inv H; apply N.eqb_refl).
  - apply andb_prop in H. destruct H as [A B]. apply N.eqb_eq in A, B. subst. reflexivity.
  - inv H. rewrite !N.eqb_refl. reflexivity.
Qed.
Lemma tget_tset k' k t l : tget k' (tset k t l) = if tkey_eqb k' k then t else tget k' l.
Proof.
  induction l as [|[k0 t0] l IH]; cbn.
  - destruct (tkey_eqb k' k); reflexivity.
  - destruct (tkey_eqb k k0) eqn:E; cbn.
    + apply tkey_eqb_eq in E. subst. destruct (tkey_eqb k' k0); reflexivity.
    + destruct (tkey_eqb k' k0) eqn:E2; [|exact IH].
      apply tkey_eqb_eq in E2. subst. destruct (tkey_eqb k0 k) eqn:E3; [|reflexivity].
      apply tkey_eqb_eq in E3. subst. rewrite (proj2 (tkey_eqb_eq k k) eq_refl) in E. discriminate.
Qed.

(* ---------- p2p modes ---------- *)
Definition okmode (m : N) : Prop := N.land m 31 = m /\ N.testbit m 4 = true.
Definition okmodeb (m : N) : bool := (N.land m 31 =? m) && N.testbit m 4.
Lemma okmode_b m : okmode m <-> okmodeb m = true.
Proof.
  unfold okmode, okmodeb. split.
  - intros [A B]. rewrite A, N.eqb_refl, B. reflexivity.
  - intros H. apply andb_prop in H. destruct H as [A B]. apply N.eqb_eq in A. auto.
Qed.
Lemma land31_lt m : N.land m 31 < 32.
Proof. change 31 with (N.ones 5). rewrite N.land_ones. apply N.mod_lt. discriminate. Qed.
Lemma okmode_lt m : okmode m -> m < 32.
Proof. intros [A _]. rewrite <- A. apply land31_lt. Qed.

Lemma okmode_mask x : okmode (p2p_mask x).
Proof.
  unfold p2p_mask, ModeCP2P, mA. apply okmode_b.
  assert (forallb (fun y => okmodeb (N.lor y 16)) (nrange 32) = true) as S by (vm_compute; reflexivity).
  exact (sweep1 _ _ S _ (land31_lt x)).
Qed.
Lemma okmode_31 : okmode 31. Proof. split; reflexivity. Qed.
Lemma okmode_lorJ m : okmode m -> okmode (N.lor m mJ).
Proof.
  intros H. pose proof (okmode_lt _ H) as L. apply okmode_b in H. apply okmode_b. revert H.
  assert (forallb (fun y => implb (okmodeb y) (okmodeb (N.lor y 1))) (nrange 32) = true) as S by (vm_compute; reflexivity).
  pose proof (sweep1 _ _ S _ L) as T. cbv beta in T. intros H. rewrite H in T. exact T.
Qed.
Lemma okmode_land a g : okmode a -> okmode g -> okmode (N.land a g).
Proof.
  intros HA HG. pose proof (okmode_lt _ HA) as LA. pose proof (okmode_lt _ HG) as LG.
  apply okmode_b in HA, HG. apply okmode_b.
  assert (forallb (fun x => forallb (fun y => implb (okmodeb x && okmodeb y) (okmodeb (N.land x y))) (nrange 32)) (nrange 32) = true) as S
    by (vm_compute; reflexivity).
  pose proof (sweep2 _ _ _ S _ _ LA LG) as T. cbv beta in T. rewrite HA, HG in T. exact T.
Qed.
Lemma okmode_unban g df : okmode g -> df = 0 \/ df = 31 -> okmode (N.ldiff (N.lor g df) mO).
Proof.
  intros HG D. pose proof (okmode_lt _ HG) as LG. apply okmode_b in HG. apply okmode_b.
  assert (forallb (fun x => implb (okmodeb x) (okmodeb (N.ldiff (N.lor x 0) 128) && okmodeb (N.ldiff (N.lor x 31) 128))) (nrange 32) = true) as S
    by (vm_compute; reflexivity).
  pose proof (sweep1 _ _ S _ LG) as T. cbv beta in T. rewrite HG in T. cbn [implb] in T.
  apply andb_prop in T. destruct D as [-> | ->]; apply T.
Qed.
(* the system topic's grant has none of the sharer bits *)
Lemma sys_not_sharer w : is_sharer (N.land ModeCSys w) = false.
Proof.
  unfold is_sharer, is_admin, has, ModeCSys, mO, mA, mS.
  assert (forall bit, N.land 79 bit = 0 -> negb (N.land (N.land 79 w) bit =? 0) = false) as Z.
  { intros bit H. apply negb_false_iff. apply N.eqb_eq.
    rewrite <- N.land_assoc, (N.land_comm w), N.land_assoc, H. apply N.land_0_l. }
  rewrite !Z by reflexivity. reflexivity.
Qed.

(* ---------- what the handlers do to a topic ---------- *)
(* the stored rows change by upserts only *)
Inductive upserted (rows : list (N * krow)) : list (N * krow) -> Prop :=
| ups_same : upserted rows rows
| ups_set rows' u r : upserted rows rows' -> upserted rows (aset u r rows').
Lemma upserted_if rows (b : bool) r1 r2 : upserted rows r1 -> upserted rows r2 -> upserted rows (if b then r1 else r2).
Proof. destruct b; auto. Qed.
Lemma upserted_modes rows u w g : upserted rows (row_modes rows u w g).
Proof. unfold row_modes. destruct (alookup u rows); [apply ups_set|]; apply ups_same. Qed.

(* an initialiser returns a cache without sessions *)
Lemma init_shape acc k t u root orig mode defacs t1 ns :
  init_topic acc k t u root orig mode defacs = inl (t1, ns) ->
  upserted (kt_rows t) (kt_rows t1) /\ exists us a, kt_cache t1 = Some (mkKc us [] a).
Proof.
  assert (forall e a, upserted (kt_rows t) (kt_rows (mkKt e (kt_rows t) (Some (mkKc (map undel (live (kt_rows t))) [] a)))) /\
            exists us a', kt_cache (mkKt e (kt_rows t) (Some (mkKc (map undel (live (kt_rows t))) [] a))) = Some (mkKc us [] a')) as LD
    by (intros e a; split; [apply ups_same|eexists; eexists; reflexivity]).
  assert (init_p2p acc t u root orig mode defacs = inl (t1, ns) ->
          upserted (kt_rows t) (kt_rows t1) /\ exists us a, kt_cache t1 = Some (mkKc us [] a)) as P2P.
  { unfold init_p2p. destruct (kt_exists t && Nat.eqb _ 0); [discriminate|].
    destruct (kt_exists t && Nat.eqb _ 2); [intros H; inv H; apply LD|].
    destruct (alookup u acc); [|discriminate]. destruct (if _ =? 0 then None else _); [|discriminate].
    intros H. inv H. cbn [kt_rows kt_cache]. split; [|eexists; eexists; reflexivity]. unfold row_upsert.
    repeat apply upserted_if; repeat apply ups_set; apply ups_same. }
  unfold init_topic. destruct orig; try exact P2P; try discriminate.
  - destruct (alookup u acc); [|discriminate]. intros H. inv H. apply LD.
  - intros H. inv H. apply LD.
  - destruct (kt_exists t); [|discriminate]. intros H. inv H. apply LD.
Qed.

(* thisUserSub / anotherUserSub: the rows are upserted and no session is added *)
Definition sub_frame (rows : list (N * krow)) (c : kcache) (x : list (N * krow) * kcache * kout * kres) : Prop :=
  upserted rows (fst (fst (fst x))) /\ incl (kc_sess (snd (fst (fst x)))) (kc_sess c).
(* their common tail: one entry replaced, then an eviction when J is missing *)
Lemma sub_frame_tail cat rows c v r rows' (b : bool) res res' : upserted rows rows' ->
  sub_frame rows c
    (let c1 := mkKc (aset v r (kc_users c)) (kc_sess c) (kc_auth c) in
     if b then let '(c2, o2) := k_evict cat c1 v false 0 in (rows', c2, o2, res) else (rows', c1, [], res')).
Proof. intros U. destruct b; (split; [exact U|]); [apply incl_filter|apply incl_refl]. Qed.

Lemma tus_frame cat rows c u root mode nb : sub_frame rows c (k_this_user_sub cat rows c u root mode nb).
Proof.
  assert (forall res, sub_frame rows c (rows, c, [], res)) as L by (intros; split; [apply ups_same|apply incl_refl]).
  unfold k_this_user_sub. destruct (match mode with [] => _ | _ => _ end) as [mw okw]. destruct (negb okw); [apply L|].
  cbv zeta. destruct (match alookup u (kc_users c) with Some r => kr_del r | None => true end).
  - destruct (match cat with CP2P => _ | CSys => _ | _ => _ end) as [[[want given]|]|code]; try apply L.
    destruct (negb (is_joiner given)); [apply L|].
    apply (sub_frame_tail cat rows c u). apply upserted_if; [apply ups_same|apply ups_set, ups_same].
  - destruct (alookup u (kc_users c)) as [r0|]; [|apply L].
    destruct (if mw =? ModeUnset then _ else _) as [[mw1|]|]; try apply L.
    destruct (if mw1 =? ModeUnset then _ else _) as [w1|]; [|apply L].
    assert (upserted rows (if w1 =? kr_want r0 then rows else row_modes rows u (Some w1) None)) as U
      by (apply upserted_if; [apply ups_same|apply upserted_modes]).
    destruct (negb (is_joiner w1)); [exact (sub_frame_tail cat rows c u _ _ true _ (KErr 0) U)|].
    destruct (negb (is_joiner (kr_given r0))); (split; [exact U|apply incl_refl]).
Qed.

Lemma aus_frame cat acc rows c u target mode : sub_frame rows c (k_another_user_sub cat acc rows c u target mode).
Proof.
  assert (forall res, sub_frame rows c (rows, c, [], res)) as L by (intros; split; [apply ups_same|apply incl_refl]).
  unfold k_another_user_sub. destruct (alookup u (kc_users c)) as [h|]; [|apply L].
  destruct (negb (is_sharer _)); [apply L|].
  destruct (match mode with [] => _ | _ => _ end) as [mg0 okg]. destruct (negb okg); [apply L|].
  cbv zeta. destruct (_ && _); [apply L|]. destruct (is_owner _); [apply L|].
  destruct (match alookup target (kc_users c) with Some r => kr_del r | None => true end).
  - destruct (if _ =? ModeUnset then _ else _) as [given|]; [|apply L].
    destruct (match alookup target rows with Some r => _ | None => _ end) as [want|code]; [|apply L].
    destruct (negb (is_joiner want)); [apply L|].
    apply (sub_frame_tail cat rows c target). apply ups_set, ups_same.
  - destruct (alookup target (kc_users c)) as [r0|]; [|apply L].
    destruct (_ || _).
    + destruct (negb (is_joiner (kr_given r0))); [|apply L]. split; [apply ups_same|apply incl_filter].
    + apply (sub_frame_tail cat rows c target). apply upserted_modes.
Qed.

(* ---------- one request: the topic it replaces ----------
   tstep over-approximates kstep: the offline {set sub} leaves the parsed mode mw free, {sub} leaves
   the new-subscription flag nb and the outcome of the attach free; the invariant is kept by all of them *)
Inductive tstep (w : world) : kop -> tkey -> ktopic -> Prop :=
| ts_unload k c :
    kt_cache (tget k (w_topics w)) = Some c ->
    tstep w (KUnload k) k (mkKt (kt_exists (tget k (w_topics w))) (kt_rows (tget k (w_topics w))) None)
| ts_sub sid uid root orig mode defacs k t1 c nb rows' c1 ev res c2 :
    expand uid orig = inl k ->
    (kt_cache (tget k (w_topics w)) <> None /\ t1 = tget k (w_topics w) \/
     kt_cache (tget k (w_topics w)) = None /\
     exists ns, init_topic (w_acc w) k (tget k (w_topics w)) uid root orig mode defacs = inl (t1, ns)) ->
    kt_cache t1 = Some c ->
    k_this_user_sub (key_cat k) (kt_rows t1) c uid root mode nb = (rows', c1, ev, res) ->
    (c2 = c1 \/ (exists ch, res = KOk ch) /\ c2 = mkKc (kc_users c1) (aset sid uid (kc_sess c1)) (kc_auth c1)) ->
    tstep w (KSub sid uid root orig mode defacs) k (mkKt (kt_exists t1) rows' (Some c2))
| ts_set sid uid root orig target mode k c rows' c1 ev res :
    expand uid orig = inl k -> kt_cache (tget k (w_topics w)) = Some c ->
    (k_this_user_sub (key_cat k) (kt_rows (tget k (w_topics w))) c uid root mode false = (rows', c1, ev, res) \/
     target <> 0 /\ target <> uid /\
     k_another_user_sub (key_cat k) (w_acc w) (kt_rows (tget k (w_topics w))) c uid target mode = (rows', c1, ev, res)) ->
    tstep w (KSetSub sid uid root orig target mode) k (mkKt (kt_exists (tget k (w_topics w))) rows' (Some c1))
| ts_set_offline sid uid root orig target mode k mw :
    expand uid orig = inl k ->
    tstep w (KSetSub sid uid root orig target mode) k
      (mkKt (kt_exists (tget k (w_topics w)))
            (row_modes (kt_rows (tget k (w_topics w))) uid (Some (match key_cat k with CP2P => p2p_mask mw | _ => mw end)) None)
            (kt_cache (tget k (w_topics w))))
| ts_unsub sid uid orig k c v r c1 ev :
    expand uid orig = inl k -> kt_cache (tget k (w_topics w)) = Some c -> alookup sid (kc_sess c) = Some v ->
    alookup uid (kt_rows (tget k (w_topics w))) = Some r -> k_evict (key_cat k) c uid true sid = (c1, ev) ->
    tstep w (KLeave sid uid orig true) k
      (p2p_gc (key_cat k) (mkKt (kt_exists (tget k (w_topics w)))
                                (aset uid (mkKrow (kr_want r) (kr_given r) true) (kt_rows (tget k (w_topics w)))) (Some c1)))
| ts_leave sid uid orig k c :
    expand uid orig = inl k -> kt_cache (tget k (w_topics w)) = Some c ->
    tstep w (KLeave sid uid orig false) k
      (mkKt (kt_exists (tget k (w_topics w))) (kt_rows (tget k (w_topics w)))
            (Some (mkKc (kc_users c) (aremove sid (kc_sess c)) (kc_auth c)))).

Lemma kstep_tstep w o :
  fst (kstep w o) = w \/
  exists k t', tstep w o k t' /\ fst (kstep w o) = mkWorld (w_acc w) (tset k t' (w_topics w)).
Proof.
  unfold kstep. destruct o as [sid uid root orig mode defacs|sid uid root orig target mode|sid uid orig unsub|k].
  - destruct (expand uid orig) as [k|code] eqn:EX; [|left; reflexivity].
    destruct (k_attached (tget k (w_topics w)) sid); [left; reflexivity|].
    destruct (match kt_cache (tget k (w_topics w)) with Some _ => inl (tget k (w_topics w), false) | None => _ end)
      as [[t1 ns]|code] eqn:ELD; [|left; reflexivity].
    assert (kt_cache (tget k (w_topics w)) <> None /\ t1 = tget k (w_topics w) \/
            kt_cache (tget k (w_topics w)) = None /\
            exists ns, init_topic (w_acc w) k (tget k (w_topics w)) uid root orig mode defacs = inl (t1, ns)) as LD.
    { destruct (kt_cache (tget k (w_topics w))); [left; inv ELD; split; [discriminate|reflexivity]|right; eauto]. }
    destruct (kt_cache t1) as [c|] eqn:EC1; [|left; reflexivity].
    destruct (k_this_user_sub (key_cat k) (kt_rows t1) c uid root mode _) as [[[rows' c1] ev] res] eqn:ET.
    right. exists k. destruct res as [code|ch| |]; cbn [fst];
      [|destruct (match ch with Some (wt, g) => is_joiner (N.land g wt) | None => true end)| |];
      (eexists; split; [|reflexivity]; eapply ts_sub; eauto).
  - destruct (expand uid orig) as [k|code] eqn:EX; [|left; reflexivity].
    destruct (k_attached (tget k (w_topics w)) sid).
    + destruct (kt_cache (tget k (w_topics w))) as [c|] eqn:EC; [|left; reflexivity].
      destruct (if (target =? 0) || (target =? uid) then _ else _) as [[[rows' c1] ev] res] eqn:ET.
      right. exists k, (mkKt (kt_exists (tget k (w_topics w))) rows' (Some c1)). split.
      * eapply ts_set; [exact EX|exact EC|]. destruct ((target =? 0) || (target =? uid)) eqn:ES; [left; exact ET|right].
        apply orb_false_iff in ES. destruct ES as [E1 E2]. apply N.eqb_neq in E1, E2. auto.
      * destruct res as [code|[[wt g]|]| |]; reflexivity.
    + destruct mode as [|m0 mode']; [left; reflexivity|].
      destruct (negb (target =? 0) && negb (target =? uid)); [left; reflexivity|].
      destruct (alookup uid (kt_rows (tget k (w_topics w)))) as [r|]; [|left; reflexivity].
      destruct (kr_del r); [left; reflexivity|].
      destruct (unmarshal_text 0 (m0 :: mode')) as [mw okw]. destruct (negb okw); [left; reflexivity|].
      destruct (negb (Bool.eqb _ _)); [left; reflexivity|]. destruct (_ =? kr_want r); [left; reflexivity|].
      right. eexists. eexists. split; [apply ts_set_offline; exact EX|reflexivity].
  - destruct (expand uid orig) as [k|code] eqn:EX; [|left; reflexivity].
    destruct (negb (k_attached (tget k (w_topics w)) sid)) eqn:EA; [left; reflexivity|].
    destruct (kt_cache (tget k (w_topics w))) as [c|] eqn:EC; [|left; reflexivity].
    destruct unsub.
    + unfold k_attached in EA. rewrite EC in EA. destruct (alookup sid (kc_sess c)) as [v|] eqn:ES; [|discriminate EA].
      destruct (alookup uid (kt_rows (tget k (w_topics w)))) as [r|] eqn:ER; [|destruct orig; left; reflexivity].
      destruct (kr_del r); [destruct orig; left; reflexivity|].
      destruct (k_evict (key_cat k) c uid true sid) as [c1 ev] eqn:EV.
      destruct orig; try (left; reflexivity);
        (right; eexists; eexists; split; [eapply ts_unsub; eauto|reflexivity]).
    + right. eexists. eexists. split; [eapply ts_leave; eauto|reflexivity].
  - destruct (kt_cache (tget k (w_topics w))) as [c|] eqn:EC; [|left; reflexivity].
    destruct (kc_sess c); [|left; reflexivity]. right. eexists. eexists. split; [eapply ts_unload; exact EC|reflexivity].
Qed.

(* an invariant of every topic is kept when the replaced topic satisfies it *)
Lemma kstep_topics (P : tkey -> ktopic -> Prop) w o :
  (forall k t', tstep w o k t' -> P k t') -> (forall k, P k (tget k (w_topics w))) ->
  forall k, P k (tget k (w_topics (fst (kstep w o)))).
Proof.
  intros HT HW k. destruct (kstep_tstep w o) as [->|[k0 [t' [T ->]]]]; [apply HW|].
  cbn [w_topics]. rewrite tget_tset. destruct (tkey_eqb k k0) eqn:E; [|apply HW].
  apply tkey_eqb_eq in E. subst k0. apply HT. exact T.
Qed.
Lemma kstep_acc w o : w_acc (fst (kstep w o)) = w_acc w.
Proof. destruct (kstep_tstep w o) as [->|[k [t' [_ ->]]]]; reflexivity. Qed.

(* histories whose requests all satisfy [A] *)
Lemma krun_inv (Inv : world -> Prop) (A : kop -> Prop) :
  (forall w o, Inv w -> A o -> Inv (fst (kstep w o))) -> forall h w, Inv w -> Forall A h -> Inv (fst (krun w h)).
Proof.
  intros ST. induction h as [|o h IH]; intros w HI HA; cbn; [exact HI|]. inversion HA as [|? ? A1 A2]; subst.
  pose proof (ST w o HI A1) as S. destruct (kstep w o) as [w1 o1]. cbn [fst] in S.
  specialize (IH w1 S A2). destruct (krun w1 h) as [w2 os]. exact IH.
Qed.

(* ---------- the invariant ---------- *)
Section KInv.
Variable isroot : N -> bool.
Variable strictf : tkey -> bool.   (* the p2p topics whose mode shape is claimed *)
Variable scope : tkey -> bool.     (* the topics whose participants are claimed *)

Definition okuser (k : tkey) (v : N) : Prop :=
  scope k = true ->
  match k with KMe u | KFnd u => v = u | KSys => isroot v = true | KP2P a b => v = a \/ v = b end.
Definition okrow (k : tkey) (r : krow) : Prop :=
  match k with
  | KP2P _ _ => strictf k = true -> okmode (kr_want r) /\ okmode (kr_given r)
  | KSys => kr_given r = ModeCSys
  | _ => True
  end.
Definition okent (k : tkey) (e : N * krow) : Prop := okuser k (fst e) /\ okrow k (snd e).
Definition oksess (k : tkey) (e : N * N) : Prop := okuser k (snd e).
Definition auth_ok (k : tkey) (c : kcache) : Prop :=
  match k with KFnd _ | KP2P _ _ => kc_auth c = 0 | _ => True end.
Definition has_entry (c : kcache) (e : N * N) : Prop := exists r, alookup (snd e) (kc_users c) = Some r.
Definition cache_ok (k : tkey) (c : kcache) : Prop :=
  Forall (okent k) (kc_users c) /\ Forall (oksess k) (kc_sess c) /\ auth_ok k c /\ Forall (has_entry c) (kc_sess c).
Definition tinv (k : tkey) (t : ktopic) : Prop :=
  Forall (okent k) (kt_rows t) /\ match kt_cache t with Some c => cache_ok k c | None => True end.
Definition acc_ok (acc : list (N * N)) : Prop := (exists k0, strictf k0 = true) -> Forall (fun e => okmode (snd e)) acc.
Definition winv (w : world) : Prop := (forall k, tinv k (tget k (w_topics w))) /\ acc_ok (w_acc w).

(* association lists under Forall *)
Lemma Forall_aset {A} (P : N * A -> Prop) k v l : P (k, v) -> Forall P l -> Forall P (aset k v l).
Proof.
  intros HP H. induction l as [|[k0 v0] l IH]; cbn; [constructor; auto|].
  inversion H; subst. destruct (N.eqb k k0); constructor; auto.
Qed.
Lemma Forall_aremove {A} (P : N * A -> Prop) k l : Forall P l -> Forall P (aremove k l).
Proof.
  intros H. induction l as [|[k0 v0] l IH]; cbn; [constructor|].
  inversion H; subst. destruct (N.eqb k k0); [auto|constructor; auto].
Qed.
Lemma Forall_filter {A} (P : A -> Prop) f l : Forall P l -> Forall P (filter f l).
Proof. intros H. apply Forall_forall. intros x HI. apply filter_In in HI. rewrite Forall_forall in H. apply H. apply HI. Qed.
Lemma alookup_Forall {A} (P : N * A -> Prop) k l v : alookup k l = Some v -> Forall P l -> P (k, v).
Proof. intros E H. apply alookup_in in E. rewrite Forall_forall in H. auto. Qed.

Lemma okent_modes k u r r' : okent k (u, r) -> kr_want r' = kr_want r -> kr_given r' = kr_given r -> okent k (u, r').
Proof. intros [A B] W G. split; [exact A|]. destruct k; cbn in *; auto; rewrite ?W, ?G; auto. Qed.

(* users after an update of one entry: every session still has an entry *)
Lemma has_entry_aset c u r : forall e, has_entry c e -> has_entry (mkKc (aset u r (kc_users c)) (kc_sess c) (kc_auth c)) e.
Proof.
  intros e [r0 E]. unfold has_entry. cbn [kc_users]. rewrite alookup_aset.
  destruct (N.eqb (snd e) u); eauto.
Qed.

Lemma cache_ok_aset k c u r : okent k (u, r) -> cache_ok k c -> cache_ok k (mkKc (aset u r (kc_users c)) (kc_sess c) (kc_auth c)).
Proof.
  intros HE [CU [CS [CA CH]]]. split; [apply Forall_aset; assumption|]. split; [exact CS|]. split; [destruct k; exact CA|].
  cbn [kc_sess]. eapply Forall_impl; [|exact CH]. apply has_entry_aset.
Qed.

Lemma evict_ok k c u unsub skip c' o :
  k_evict (key_cat k) c u unsub skip = (c', o) -> (unsub = true -> exists r, alookup u (kc_users c) = Some r) ->
  cache_ok k c -> cache_ok k c'.
Proof.
  unfold k_evict. intros H HEN [CU [CS [CA CH]]]. inv H.
  set (sess' := filter (fun e => negb (snd e =? u)) (kc_sess c)).
  assert (Forall (oksess k) sess') as CS' by (apply Forall_filter; exact CS).
  assert (forall users', (forall v, v <> u -> alookup v users' = alookup v (kc_users c)) ->
            Forall (has_entry (mkKc users' sess' (kc_auth c))) sess') as HH.
  { intros users' HU. apply Forall_forall. intros e HI. apply filter_In in HI. destruct HI as [HI NE].
    apply negb_true_iff in NE. apply N.eqb_neq in NE. rewrite Forall_forall in CH. destruct (CH e HI) as [r E].
    exists r. cbn [kc_users]. rewrite (HU _ NE). exact E. }
  destruct unsub.
  - destruct (key_cat k) eqn:EC.
    1,2,4: (split; [apply Forall_aremove; exact CU|]; split; [exact CS'|]; split; [destruct k; exact CA|];
            apply HH; intros v NE; rewrite alookup_aremove_eq; apply N.eqb_neq in NE; rewrite NE; reflexivity).
    destruct (alookup u (kc_users c)) as [r|] eqn:E.
    + split; [apply Forall_aset; [|exact CU]; eapply okent_modes; [eapply alookup_Forall; eauto| |]; reflexivity|].
      split; [exact CS'|]. split; [destruct k; exact CA|].
      apply HH. intros v NE. rewrite alookup_aset. apply N.eqb_neq in NE. rewrite NE. reflexivity.
    + destruct (HEN eq_refl) as [r E']. congruence.
  - split; [exact CU|]. split; [exact CS'|]. split; [destruct k; exact CA|]. apply HH. reflexivity.
Qed.

(* what a {sub} must satisfy to create a subscription of u on topic k: guaranteed by routing
   ('me') and by the level of the session ('sys') *)
Definition sub_pre (k : tkey) (u : N) (root : bool) : Prop :=
  match k with KMe x => u = x | KSys => scope KSys = true -> isroot u = root | _ => True end.

Lemma mk_ok k u w g d : okuser k u ->
  match k with KP2P _ _ => strictf k = true -> okmode w /\ okmode g | KSys => g = ModeCSys | _ => True end ->
  okent k (u, mkKrow w g d).
Proof. intros A B. split; [exact A|]. destruct k; exact B. Qed.

Lemma rows_modes_ok k rows u w :
  Forall (okent k) rows -> (forall r, alookup u rows = Some r -> okent k (u, mkKrow w (kr_given r) (kr_del r))) ->
  Forall (okent k) (row_modes rows u (Some w) None).
Proof.
  intros H HW. unfold row_modes. destruct (alookup u rows) as [r|] eqn:E; [|exact H].
  apply Forall_aset; [apply HW; reflexivity|exact H].
Qed.

Lemma tus_ok k rows c u root mode newsub :
  Forall (okent k) rows -> cache_ok k c -> sub_pre k u root ->
  let '(rows', c1, ev, res) := k_this_user_sub (key_cat k) rows c u root mode newsub in
  Forall (okent k) rows' /\ cache_ok k c1 /\
  (forall ch, res = KOk ch -> okuser k u /\ exists r, alookup u (kc_users c1) = Some r).
Proof.
  intros RO CO PRE. pose proof CO as [CU [CS [CA CH]]]. unfold k_this_user_sub.
  destruct (match mode with [] => (ModeUnset, true) | _ :: _ => unmarshal_text ModeUnset mode end) as [mw okw].
  destruct (negb okw); [repeat split; auto; discriminate|].
  assert (forall c1 c2 o2, k_evict (key_cat k) c1 u false 0 = (c2, o2) -> cache_ok k c1 -> cache_ok k c2) as EV.
  { intros c1 c2 o2 E H. eapply evict_ok; [exact E|discriminate|exact H]. }
  assert (forall c1 c2 o2 r, k_evict (key_cat k) c1 u false 0 = (c2, o2) ->
            alookup u (kc_users c1) = Some r -> alookup u (kc_users c2) = Some r) as EVL.
  { intros c1 c2 o2 r E H. unfold k_evict in E. inv E. exact H. }
  destruct (match alookup u (kc_users c) with Some r => kr_del r | None => true end) eqn:EF.
  - (* a new subscription, or a p2p participant coming back *)
    set (branch := match key_cat k with
                   | CP2P => _ | CSys => _ | _ => _ end).
    assert (forall want given, branch = inl (Some (want, given)) -> is_joiner given = true ->
              okuser k u /\
              match k with KP2P _ _ => strictf k = true -> okmode want /\ okmode given | KSys => given = ModeCSys | _ => True end) as BR.
    { intros want given HB HJ. subst branch. destruct (alookup u (kc_users c)) as [r0|] eqn:Ecur.
      - (* a deleted entry: its user is a participant *)
        pose proof (alookup_Forall _ _ _ _ Ecur CU) as [OU OR]. cbn [fst snd] in OU, OR. split; [exact OU|].
        destruct k; cbn [key_cat] in HB; auto.
        + destruct (negb root); [discriminate|]. inv HB. reflexivity.
        + inv HB. intros S. split; [apply okmode_mask|]. apply (OR S).
      - destruct k; cbn [key_cat] in HB.
        + split; [intros _; exact PRE|exact I].
        + (* fnd: the owner, or somebody whose row is stored (hence the owner); the default grant is N *)
          cbn [access_for] in HB.
          destruct (alookup u rows) as [r|] eqn:ER.
          * pose proof (alookup_Forall _ _ _ _ ER RO) as [OU _]. split; [exact OU|exact I].
          * cbn in CA. rewrite CA in HB. inv HB. destruct root; discriminate.
        + destruct root; cbn [negb] in HB; [|discriminate]. injection HB as _ <-.
          split; [exact PRE|reflexivity].
        + inv HB. discriminate. }
    destruct branch as [[[want given]|]|code] eqn:EB; [|repeat split; auto; discriminate|repeat split; auto; discriminate].
    destruct (negb (is_joiner given)) eqn:EJ; [repeat split; auto; discriminate|]. apply negb_false_iff in EJ.
    destruct (BR _ _ eq_refl EJ) as [OU OR].
    set (c1 := mkKc (aset u (mkKrow want given false) (kc_users c)) (kc_sess c) (kc_auth c)).
    assert (okent k (u, mkKrow want given false)) as NE by (apply mk_ok; auto).
    assert (cache_ok k c1) as C1 by (apply cache_ok_aset; auto).
    assert (alookup u (kc_users c1) = Some (mkKrow want given false)) as L1
      by (subst c1; cbn [kc_users]; rewrite alookup_aset, N.eqb_refl; reflexivity).
    match goal with |- context [if ?b then rows else row_upsert rows u want given] =>
      assert (Forall (okent k) (if b then rows else row_upsert rows u want given)) as R1
        by (destruct b; [exact RO|apply Forall_aset; auto]) end.
    destruct (negb (is_joiner want)).
    + destruct (k_evict (key_cat k) c1 u false 0) as [c2 o2] eqn:E2.
      split; [exact R1|]. split; [eapply EV; eauto|]. intros ch _. split; [exact OU|]. eexists. eapply EVL; eauto.
    + split; [exact R1|]. split; [exact C1|]. intros ch _. split; [exact OU|]. eauto.
  - (* existing subscription *)
    destruct (alookup u (kc_users c)) as [r0|] eqn:Ecur; [|repeat split; auto; discriminate].
    pose proof (alookup_Forall _ _ _ _ Ecur CU) as [OU OR]. cbn [fst snd] in OU, OR.
    set (chk := if (mw =? ModeUnset) then _ else _).
    destruct chk as [[mw1|]|b] eqn:ECHK; [|repeat split; auto; discriminate|repeat split; auto; discriminate].
    assert (mw1 = ModeUnset \/ match k with KP2P _ _ => okmode mw1 | _ => True end) as HM.
    { subst chk. destruct (mw =? ModeUnset) eqn:EU; [inv ECHK; left; apply N.eqb_eq; exact EU|].
      destruct (is_owner (kr_given r0)); [discriminate|]. destruct (is_owner mw); [discriminate|].
      inv ECHK. right. destruct k; cbn [key_cat]; auto. apply okmode_mask. }
    set (w1o := if (mw1 =? ModeUnset) then _ else Some mw1).
    destruct w1o as [w1|] eqn:EW; [|repeat split; auto; discriminate].
    assert (match k with KP2P _ _ => strictf k = true -> okmode w1 | _ => True end) as HW.
    { destruct k; auto. intros S. specialize (OR S). destruct OR as [OW OG]. subst w1o.
      destruct (mw1 =? ModeUnset) eqn:EU.
      - destruct (negb (is_joiner (kr_want r0))); [|inv EW; exact OW].
        cbn [key_cat access_for] in EW. inv EW. apply okmode_unban; [exact OG|].
        destruct root; [right; reflexivity|left; exact CA].
      - inv EW. destruct HM as [E|H]; [rewrite E in EU; discriminate|exact H]. }
    assert (forall g d, (match k with KSys => g = ModeCSys | KP2P _ _ => strictf k = true -> okmode g | _ => True end) ->
              okent k (u, mkKrow w1 g d)) as MK.
    { intros g d HG. apply mk_ok; [exact OU|]. destruct k; auto. }
    assert (okent k (u, mkKrow w1 (kr_given r0) false)) as NE.
    { apply MK. destruct k; auto. intros S. apply (OR S). }
    set (c1 := mkKc (aset u (mkKrow w1 (kr_given r0) false) (kc_users c)) (kc_sess c) (kc_auth c)).
    assert (cache_ok k c1) as C1 by (apply cache_ok_aset; auto).
    assert (alookup u (kc_users c1) = Some (mkKrow w1 (kr_given r0) false)) as L1
      by (subst c1; cbn [kc_users]; rewrite alookup_aset, N.eqb_refl; reflexivity).
    assert (Forall (okent k) (if (w1 =? kr_want r0) then rows else row_modes rows u (Some w1) None)) as R1.
    { destruct (w1 =? kr_want r0); [exact RO|]. apply rows_modes_ok; [exact RO|].
      intros r E. pose proof (alookup_Forall _ _ _ _ E RO) as [_ OR']. cbn [snd] in OR'. apply MK.
      destruct k; auto. intros S. apply (OR' S). }
    destruct (negb (is_joiner w1)).
    + destruct (k_evict (key_cat k) c1 u false 0) as [c2 o2] eqn:E2.
      split; [exact R1|]. split; [eapply EV; eauto|]. intros ch _. split; [exact OU|]. eexists. eapply EVL; eauto.
    + destruct (negb (is_joiner (kr_given r0))); (split; [exact R1|]; split; [exact C1|]); [discriminate|].
      intros ch _. split; [exact OU|]. eauto.
Qed.

Lemma rows_given_ok k rows u g :
  Forall (okent k) rows -> (forall r, alookup u rows = Some r -> okent k (u, mkKrow (kr_want r) g (kr_del r))) ->
  Forall (okent k) (row_modes rows u None (Some g)).
Proof.
  intros H HW. unfold row_modes. destruct (alookup u rows) as [r|] eqn:E; [|exact H].
  apply Forall_aset; [apply HW; reflexivity|exact H].
Qed.

Definition is_fresh (c : kcache) (v : N) : Prop :=
  match alookup v (kc_users c) with Some r => kr_del r = true | None => True end.

Lemma aus_ok k acc rows c u target mode :
  Forall (okent k) rows -> cache_ok k c -> acc_ok acc ->
  (k <> KSys -> is_fresh c target -> okuser k target /\ (strictf k = true -> key_cat k = CP2P -> mode <> [])) ->
  let '(rows', c1, ev, res) := k_another_user_sub (key_cat k) acc rows c u target mode in
  Forall (okent k) rows' /\ cache_ok k c1.
Proof.
  intros RO CO AO PRE. pose proof CO as [CU [CS [CA CH]]]. unfold k_another_user_sub.
  destruct (alookup u (kc_users c)) as [h|] eqn:Eh; [|auto].
  destruct (negb (is_sharer (N.land (kr_given h) (kr_want h)))) eqn:ESH; [auto|]. apply negb_false_iff in ESH.
  (* the system topic has no sharers *)
  assert (k <> KSys) as NSYS.
  { intros ->. pose proof (alookup_Forall _ _ _ _ Eh CU) as [_ OR]. cbn in OR. rewrite OR, sys_not_sharer in ESH. discriminate. }
  destruct (match mode with [] => (ModeUnset, true) | _ :: _ => unmarshal_text ModeUnset mode end) as [mg0 okg] eqn:EP.
  destruct (negb okg); [auto|].
  set (mg := match mode, key_cat k with [], _ => mg0 | _, CP2P => p2p_mask mg0 | _, _ => mg0 end).
  destruct (negb (mg =? ModeUnset) && negb (is_admin _)); [auto|].
  destruct (is_owner mg); [auto|].
  assert (forall c1 c2 o2, k_evict (key_cat k) c1 target false 0 = (c2, o2) -> cache_ok k c1 -> cache_ok k c2) as EV.
  { intros c1 c2 o2 E H. eapply evict_ok; [exact E|discriminate|exact H]. }
  assert (mode <> [] -> match k with KP2P _ _ => okmode mg | _ => True end) as MGOK.
  { intros NE. destruct k; auto. subst mg. destruct mode; [contradiction|]. cbn [key_cat]. apply okmode_mask. }
  destruct (match alookup target (kc_users c) with Some r => kr_del r | None => true end) eqn:EF.
  - (* invitation of a user without an entry, or re-invitation of a p2p participant who left *)
    assert (is_fresh c target) as FR by (unfold is_fresh; destruct (alookup target (kc_users c)); [exact EF|exact I]).
    destruct (PRE NSYS FR) as [OU H3].
    destruct (if (mg =? ModeUnset) then _ else Some mg) as [given|] eqn:EG; [|auto].
    assert (match k with KP2P _ _ => strictf k = true -> okmode given | _ => True end) as GOK.
    { destruct k; auto. intros S. specialize (H3 S eq_refl). specialize (MGOK H3).
      destruct (mg =? ModeUnset) eqn:EU; [|inv EG; exact MGOK].
      apply N.eqb_eq in EU. rewrite EU in MGOK. destruct MGOK as [_ B]. discriminate B. }
    set (wres := match alookup target rows with Some r => inl (kr_want r) | None => _ end).
    assert (forall want, wres = inl want -> match k with KP2P _ _ => strictf k = true -> okmode want | _ => True end) as WOK.
    { intros want HW. destruct k; auto. intros S. subst wres. destruct (alookup target rows) as [r|] eqn:ER.
      - inv HW. pose proof (alookup_Forall _ _ _ _ ER RO) as [_ OR]. apply (OR S).
      - destruct (alookup target acc) as [ac|] eqn:EA; [|discriminate]. inv HW.
        apply okmode_land; [|apply GOK; exact S].
        pose proof (alookup_Forall _ _ _ _ EA (AO (ex_intro _ _ S))) as H. exact H. }
    destruct wres as [want|code] eqn:EWR; [|auto]. specialize (WOK _ eq_refl).
    destruct (negb (is_joiner want)); [auto|].
    assert (okent k (target, mkKrow want given false)) as NE.
    { apply mk_ok; [exact OU|]. destruct k as [x|x| |x y]; [exact I|exact I|exfalso; apply NSYS; reflexivity|]. intros S. split; [apply WOK|apply GOK]; exact S. }
    set (c1 := mkKc (aset target (mkKrow want given false) (kc_users c)) (kc_sess c) (kc_auth c)).
    assert (cache_ok k c1) as C1 by (apply cache_ok_aset; auto).
    assert (Forall (okent k) (row_upsert rows target want given)) as R1 by (apply Forall_aset; auto).
    destruct (negb (is_joiner given)); [|auto].
    destruct (k_evict (key_cat k) c1 target false 0) as [c2 o2] eqn:E2. split; [exact R1|eapply EV; eauto].
  - (* existing subscription *)
    destruct (alookup target (kc_users c)) as [r0|] eqn:Et; [|auto].
    pose proof (alookup_Forall _ _ _ _ Et CU) as [OU OR]. cbn [fst snd] in OU, OR.
    destruct ((mg =? ModeUnset) || (mg =? kr_given r0)) eqn:ESame.
    + destruct (negb (is_joiner (kr_given r0))); [|auto].
      destruct (k_evict (key_cat k) c target false 0) as [c2 o2] eqn:E2. split; [exact RO|eapply EV; eauto].
    + apply orb_false_iff in ESame. destruct ESame as [EU _].
      assert (mode <> []) as NE0.
      { intros ->. subst mg. cbn in EP. inv EP. discriminate EU. }
      specialize (MGOK NE0).
      assert (forall w d, (match k with KP2P _ _ => strictf k = true -> okmode w | _ => True end) -> okent k (target, mkKrow w mg d)) as MK.
      { intros w d HW. apply mk_ok; [exact OU|]. destruct k as [x|x| |x y]; [exact I|exact I|exfalso; apply NSYS; reflexivity|]. intros S. split; [apply HW; exact S|exact MGOK]. }
      set (c1 := mkKc (aset target (mkKrow (kr_want r0) mg false) (kc_users c)) (kc_sess c) (kc_auth c)).
      assert (cache_ok k c1) as C1.
      { apply cache_ok_aset; [|exact CO]. apply MK. destruct k; auto. intros S. apply (OR S). }
      assert (Forall (okent k) (row_modes rows target None (Some mg))) as R1.
      { apply rows_given_ok; [exact RO|]. intros r E. pose proof (alookup_Forall _ _ _ _ E RO) as [_ OR']. cbn [snd] in OR'.
        apply MK. destruct k; auto. intros S. apply (OR' S). }
      destruct (negb (is_joiner mg)); [|auto].
      destruct (k_evict (key_cat k) c1 target false 0) as [c2 o2] eqn:E2. split; [exact R1|eapply EV; eauto].
Qed.

(* ---------- initialisers ---------- *)
Lemma undel_ok k l : Forall (okent k) l -> Forall (okent k) (map undel (live l)).
Proof.
  intros H. apply Forall_forall. intros e HI. apply in_map_iff in HI. destruct HI as [[u r] [E HI]]. subst e.
  unfold live in HI. apply filter_In in HI. destruct HI as [HI _]. rewrite Forall_forall in H.
  unfold undel. cbn [fst snd]. eapply okent_modes; [apply (H _ HI)| |]; reflexivity.
Qed.

Lemma loaded_ok k rows auth : Forall (okent k) rows -> (match k with KFnd _ | KP2P _ _ => auth = 0 | _ => True end) ->
  cache_ok k (mkKc (map undel (live rows)) [] auth).
Proof. intros H HA. split; [apply undel_ok; exact H|]. split; [constructor|]. split; [destruct k; exact HA|constructor]. Qed.

Lemma init_p2p_ok acc a b t u root orig mode defacs t1 ns :
  expand u orig = inl (KP2P a b) -> tinv (KP2P a b) t -> acc_ok acc ->
  init_p2p acc t u root orig mode defacs = inl (t1, ns) ->
  tinv (KP2P a b) t1.
Proof.
  intros EX [RO _] AO. unfold init_p2p.
  destruct (kt_exists t && Nat.eqb (length (live (kt_rows t))) 0); [discriminate|].
  destruct (kt_exists t && Nat.eqb (length (live (kt_rows t))) 2).
  { intros H. inv H. split; [exact RO|]. cbn [kt_cache]. apply loaded_ok; [exact RO|reflexivity]. }
  set (v := match orig with OUsr v => v | _ => 0 end).
  destruct (alookup u acc) as [au|] eqn:EAU; [|discriminate].
  destruct (if v =? 0 then None else alookup v acc) as [av|] eqn:EAV; [|discriminate].
  assert (v <> 0) as VZ by (intros E; rewrite E in EAV; discriminate).
  assert (alookup v acc = Some av) as EAV' by (destruct (v =? 0); [discriminate|exact EAV]).
  (* the topic is the pair of the requester and the addressed user *)
  assert (okuser (KP2P a b) u /\ okuser (KP2P a b) v) as [OUu OUv].
  { apply expand_p2p in EX. destruct EX as [->|[v' [-> [_ [_ HAB]]]]]; [exfalso; apply VZ; reflexivity|].
    subst v. unfold okuser. destruct HAB as [[-> ->]|[-> ->]]; auto. }
  assert (strictf (KP2P a b) = true -> okmode au /\ okmode av) as ACC.
  { intros S. split; [exact (alookup_Forall _ _ _ _ EAU (AO (ex_intro _ _ S)))|exact (alookup_Forall _ _ _ _ EAV' (AO (ex_intro _ _ S)))]. }
  set (one := match live (kt_rows t) with [e] => Some e | _ => None end).
  assert (forall e, one = Some e -> okent (KP2P a b) e) as ONE.
  { intros e H. subst one. destruct (live (kt_rows t)) as [|e0 [|e1 l]] eqn:EL; inv H.
    assert (In e (live (kt_rows t))) as HI by (rewrite EL; now left).
    unfold live in HI. apply filter_In in HI. rewrite Forall_forall in RO. apply RO. apply HI. }
  set (sub1 := match one with Some e => if fst e =? u then Some (snd e) else None | None => None end).
  set (sub2 := match one with Some e => if fst e =? u then None else Some (snd e) | None => None end).
  assert (forall r, sub1 = Some r \/ sub2 = Some r -> strictf (KP2P a b) = true -> okmode (kr_want r) /\ okmode (kr_given r)) as SUBOK.
  { intros r H S. subst sub1 sub2. destruct one as [[x rx]|] eqn:EO; [|destruct H; discriminate].
    destruct (ONE _ eq_refl) as [_ OR]. cbn [fst snd] in *. destruct (x =? u); destruct H as [H|H]; inv H; apply (OR S). }
  set (from_v := if root then ModeCP2P else av).
  assert (strictf (KP2P a b) = true -> okmode from_v) as FV.
  { intros S. subst from_v. destruct root; [apply okmode_31|apply (ACC S)]. }
  set (s2 := match sub2 with Some r => r | None => _ end).
  assert (strictf (KP2P a b) = true -> okmode (kr_want s2) /\ okmode (kr_given s2)) as S2OK.
  { intros S. subst s2. destruct sub2 as [r|] eqn:E2; [apply (SUBOK r); auto|]. cbn [kr_want kr_given]. split; apply okmode_mask. }
  set (s1 := match sub1 with Some r => r | None => _ end).
  assert (strictf (KP2P a b) = true -> okmode (kr_want s1) /\ okmode (kr_given s1)) as S1OK.
  { intros S. subst s1. destruct sub1 as [r|] eqn:E1; [apply (SUBOK r); auto|]. cbn [kr_want kr_given]. split; [|apply FV; exact S].
    destruct mode; [apply (S2OK S)|]. apply okmode_lorJ. apply okmode_mask. }
  assert (okent (KP2P a b) (u, mkKrow (kr_want s1) (kr_given s1) false)) as E1 by (apply mk_ok; auto).
  assert (okent (KP2P a b) (v, mkKrow (kr_want s2) (kr_given s2) false)) as E2 by (apply mk_ok; auto).
  intros H. injection H as Ht Hn. subst t1. split.
  - cbn [kt_rows]. unfold row_upsert. repeat break_match; repeat apply Forall_aset; auto.
  - cbn [kt_cache]. split; [cbn [kc_users aset]; destruct (v =? u); [constructor; [exact E2|constructor]|constructor; [exact E1|constructor; [exact E2|constructor]]]|].
    split; [constructor|]. split; [reflexivity|constructor].
Qed.

Lemma init_ok acc k t u root orig mode defacs t1 ns :
  expand u orig = inl k -> tinv k t -> acc_ok acc ->
  init_topic acc k t u root orig mode defacs = inl (t1, ns) ->
  tinv k t1.
Proof.
  intros EX TI AO. pose proof TI as [RO _]. unfold init_topic. destruct orig as [| | |v|v|a0 b0].
  - cbn in EX. inv EX. destruct (alookup u acc); [|discriminate].
    intros H. inv H. split; [exact RO|]. apply loaded_ok; [exact RO|exact I].
  - cbn in EX. inv EX. intros H. inv H. split; [exact RO|]. apply loaded_ok; [exact RO|reflexivity].
  - cbn in EX. inv EX. destruct (kt_exists t); [|discriminate]. intros H. inv H.
    split; [exact RO|]. apply loaded_ok; [exact RO|exact I].
  - destruct k as [x|x| |a b]; try (cbn in EX; repeat break_match_hyp; discriminate).
    apply init_p2p_ok; assumption.
  - discriminate.
  - cbn in EX. inv EX. apply init_p2p_ok; [reflexivity|assumption|assumption].
Qed.

(* ---------- one request ---------- *)
Definition op_ok (w : world) (o : kop) : Prop :=
  match o with
  | KSub sid uid root orig mode defacs => scope KSys = true -> isroot uid = root
  | KSetSub sid uid root orig target mode =>
    (scope KSys = true -> isroot uid = root) /\
    forall k c, expand uid orig = inl k -> kt_cache (tget k (w_topics w)) = Some c -> target <> 0 -> target <> uid ->
      k <> KSys -> is_fresh c target -> okuser k target /\ (strictf k = true -> key_cat k = CP2P -> mode <> [])
  | KLeave sid uid orig unsub =>
    forall k c, expand uid orig = inl k -> kt_cache (tget k (w_topics w)) = Some c ->
      forall v, alookup sid (kc_sess c) = Some v -> v = uid
  | KUnload _ => True
  end.

Lemma sub_pre_of_expand uid o k root : expand uid o = inl k -> (scope KSys = true -> isroot uid = root) -> sub_pre k uid root.
Proof.
  intros EX IR. destruct k; cbn; auto. apply expand_me in EX. symmetry. apply EX.
Qed.

Lemma kstep_winv w o : winv w -> op_ok w o -> winv (fst (kstep w o)).
Proof.
  intros WI OK. pose proof WI as [WT WA]. split; [|rewrite kstep_acc; exact WA].
  apply kstep_topics; [|exact WT]. intros k t' T. revert OK.
  destruct T as [k c EC|sid uid root orig mode defacs k t1 c nb rows' c1 ev res c2 EX LD EC1 ET C2|sid uid root orig target mode k c rows' c1 ev res EX EC ET|sid uid root orig target mode k mw EX|sid uid orig k c v r c1 ev EX EC ES ER EV|sid uid orig k c EX EC];
    intros OK; pose proof (WT k) as [RO CO].
  - split; [exact RO|exact I].
  - assert (tinv k t1) as [RO1 CO1].
    { destruct LD as [[_ ->]|[_ [ns H]]]; [apply WT|]. eapply init_ok; eauto. }
    rewrite EC1 in CO1.
    pose proof (tus_ok k (kt_rows t1) c uid root mode nb RO1 CO1 (sub_pre_of_expand _ _ _ _ EX OK)) as T. rewrite ET in T.
    destruct T as [R1 [C1 J]]. split; [exact R1|]. cbn [kt_cache].
    destruct C2 as [->|[[ch ->] ->]]; [exact C1|].
    destruct (J ch eq_refl) as [OU [r EL]]. destruct C1 as [CU [CS [CA CH]]].
    split; [exact CU|]. split; [apply Forall_aset; [exact OU|exact CS]|].
    split; [destruct k; exact CA|]. apply Forall_aset; [exists r; exact EL|exact CH].
  - destruct OK as [IR TP]. rewrite EC in CO. destruct ET as [ET|[E1 [E2 ET]]].
    + pose proof (tus_ok k _ c uid root mode false RO CO (sub_pre_of_expand _ _ _ _ EX IR)) as T. rewrite ET in T.
      destruct T as [R1 [C1 _]]. split; assumption.
    + pose proof (aus_ok k (w_acc w) _ c uid target mode RO CO WA (fun NS FR => TP k c EX EC E1 E2 NS FR)) as T.
      rewrite ET in T. exact T.
  - split; [|exact CO]. cbn [kt_rows].
    apply rows_modes_ok; [exact RO|]. intros r' E'. pose proof (alookup_Forall _ _ _ _ E' RO) as [OU OR]. cbn [fst snd] in OU, OR.
    apply mk_ok; [exact OU|]. destruct k; auto. intros S. cbn [key_cat]. split; [apply okmode_mask|apply (OR S)].
  - rewrite EC in CO.
    assert (tinv k (mkKt (kt_exists (tget k (w_topics w)))
                         (aset uid (mkKrow (kr_want r) (kr_given r) true) (kt_rows (tget k (w_topics w)))) (Some c1))) as TI.
    { split.
      - cbn [kt_rows]. apply Forall_aset; [|exact RO]. eapply okent_modes; [eapply alookup_Forall; eauto| |]; reflexivity.
      - cbn [kt_cache]. eapply evict_ok; [exact EV| |exact CO]. intros _.
        (* the leaving session is its user's: the user has an entry *)
        pose proof (OK k c EX EC v ES) as EVU. subst v.
        destruct CO as [_ [_ [_ CH]]]. apply alookup_in in ES. rewrite Forall_forall in CH. exact (CH _ ES). }
    unfold p2p_gc. destruct (key_cat k); try exact TI. cbn [kt_cache].
    destruct (Nat.eqb _ 0); [|exact TI]. split; [apply Forall_nil|exact I].
  - rewrite EC in CO. split; [exact RO|]. cbn [kt_cache].
    destruct CO as [CU [CS [CA CH]]]. split; [exact CU|]. split; [apply Forall_aremove; exact CS|].
    split; [destruct k; exact CA|]. apply Forall_aremove. exact CH.
Qed.

Fixpoint hist_okk (w : world) (h : list kop) : Prop :=
  match h with
  | [] => True
  | o :: r => op_ok w o /\ hist_okk (fst (kstep w o)) r
  end.

Lemma krun_winv h : forall w, winv w -> hist_okk w h -> winv (fst (krun w h)).
Proof.
  induction h as [|o h IH]; intros w WI HK; cbn; [exact WI|]. destruct HK as [OK HK].
  pose proof (kstep_winv w o WI OK) as S. destruct (kstep w o) as [w1 o1]. cbn [fst] in *.
  specialize (IH w1 S HK). destruct (krun w1 h) as [w2 os]. exact IH.
Qed.

(* the world the driver starts from *)
Lemma init_winv acc : acc_ok acc -> winv (init_world acc).
Proof.
  intros AO. split; [|exact AO]. intros k. unfold init_world. cbn [w_topics tget].
  destruct (tkey_eqb k KSys); [split; [constructor|exact I]|].
  induction acc as [|[u a] acc IH]; cbn [flat_map app tget fst]; [split; [constructor|exact I]|].
  assert (acc_ok acc) as AO' by (intros S; specialize (AO S); inversion AO; assumption).
  destruct (tkey_eqb k (KMe u)) eqn:E1.
  { apply tkey_eqb_eq in E1. subst k. split; [|exact I]. constructor; [|constructor]. split; [intros _; reflexivity|exact I]. }
  destruct (tkey_eqb k (KFnd u)) eqn:E2.
  { apply tkey_eqb_eq in E2. subst k. split; [|exact I]. constructor; [|constructor]. split; [intros _; reflexivity|exact I]. }
  apply IH. exact AO'.
Qed.
End KInv.

(* ---------- attached sessions: who is recorded ---------- *)
Lemma evict_sess_incl cat c u unsub skip c' o : k_evict cat c u unsub skip = (c', o) -> incl (kc_sess c') (kc_sess c).
Proof. unfold k_evict. intros H. inv H. cbn [kc_sess]. apply incl_filter. Qed.

(* every attached session was recorded by a {sub} of that session's user routed to this topic *)
Definition sess_inv (suser : N -> N) (w : world) : Prop :=
  forall k c sid v, kt_cache (tget k (w_topics w)) = Some c -> In (sid, v) (kc_sess c) ->
    v = suser sid /\ (forall x, k = KMe x -> v = x).
Definition op_user (suser : N -> N) (o : kop) : Prop :=
  match o with
  | KSub sid uid _ _ _ _ | KSetSub sid uid _ _ _ _ | KLeave sid uid _ _ => uid = suser sid
  | KUnload _ => True
  end.

Lemma kstep_sess_inv suser w o : sess_inv suser w -> op_user suser o -> sess_inv suser (fst (kstep w o)).
Proof.
  intros SI OU.
  refine (kstep_topics (fun k t => forall c sid v, kt_cache t = Some c -> In (sid, v) (kc_sess c) ->
                                    v = suser sid /\ (forall x, k = KMe x -> v = x)) w o _ SI).
  intros k t' T. revert OU.
  destruct T as [k c EC|sid uid root orig mode defacs k t1 c nb rows' c1 ev res c2 EX LD EC1 ET C2|sid uid root orig target mode k c rows' c1 ev res EX EC ET|sid uid root orig target mode k mw EX|sid uid orig k c v r c1 ev EX EC ES ER EV|sid uid orig k c EX EC];
    intros OU c0 s0 v0 E HI; cbn [kt_cache] in E.
  - discriminate E.
  - inv E.
    assert (forall s v, In (s, v) (kc_sess c) -> v = suser s /\ (forall x, k = KMe x -> v = x)) as OLD.
    { destruct LD as [[_ ->]|[_ [ns H]]]; [intros s v; apply SI; exact EC1|].
      destruct (init_shape _ _ _ _ _ _ _ _ _ _ H) as [_ [us [a E]]]. rewrite EC1 in E. inv E. intros s v []. }
    pose proof (proj2 (tus_frame (key_cat k) (kt_rows t1) c uid root mode nb)) as IN. rewrite ET in IN.
    destruct C2 as [->|[_ ->]]; [apply OLD, IN, HI|].
    cbn [kc_sess] in HI. apply in_aset in HI. destruct HI as [HI|HI]; [|apply OLD, IN, HI].
    inv HI. split; [exact OU|]. intros x ->. apply expand_me in EX. symmetry. apply EX.
  - inv E. eapply SI; [exact EC|].
    destruct ET as [ET|[_ [_ ET]]];
      [pose proof (proj2 (tus_frame (key_cat k) (kt_rows (tget k (w_topics w))) c uid root mode false)) as IN
      |pose proof (proj2 (aus_frame (key_cat k) (w_acc w) (kt_rows (tget k (w_topics w))) c uid target mode)) as IN];
      rewrite ET in IN; apply IN, HI.
  - eapply SI; [exact E|exact HI].
  - apply evict_sess_incl in EV. unfold p2p_gc in E.
    destruct (key_cat k); cbn [kt_cache] in E; try (inv E; eapply SI; [exact EC|apply EV; exact HI]).
    destruct (Nat.eqb _ 0); [discriminate|]. inv E. eapply SI; [exact EC|apply EV; exact HI].
  - inv E. cbn [kc_sess] in HI. eapply SI; [exact EC|]. eapply aremove_incl. exact HI.
Qed.

Lemma init_sess_inv suser acc : sess_inv suser (init_world acc).
Proof.
  intros k c sid v E. exfalso. revert E. unfold init_world. cbn [w_topics tget].
  destruct (tkey_eqb k KSys); [discriminate|].
  induction acc as [|[u a] acc IH]; cbn [flat_map app tget fst]; [discriminate|].
  destruct (tkey_eqb k (KMe u)); [discriminate|]. destruct (tkey_eqb k (KFnd u)); [discriminate|]. exact IH.
Qed.

(* ---------- statements over histories with static hypotheses ---------- *)
Section Final.
Variable isroot : N -> bool.
Variable suser : N -> N.
Variable strictf scope : tkey -> bool.

(* every request: the session is logged in as one user whose level is fixed *)
Definition op_static (o : kop) : Prop :=
  op_user suser o /\
  match o with
  | KSub _ uid root _ _ _ | KSetSub _ uid root _ _ _ => scope KSys = true -> isroot uid = root
  | _ => True
  end.
(* {set sub user=X}: X is a legitimate participant of the addressed topic (in scope), and in a
   strict p2p topic the mode is explicit *)
Definition op_clean (o : kop) : Prop :=
  match o with
  | KSetSub sid uid root orig target mode =>
    forall k, expand uid orig = inl k -> target <> 0 -> target <> uid -> k <> KSys ->
      okuser isroot scope k target /\ (strictf k = true -> key_cat k = CP2P -> mode <> [])
  | _ => True
  end.

Lemma static_ok w o : sess_inv suser w -> op_static o -> op_clean o -> op_ok isroot strictf scope w o.
Proof.
  intros SI [OU OL] OC. destruct o as [sid uid root orig mode defacs|sid uid root orig target mode|sid uid orig unsub|k]; cbn.
  - exact OL.
  - split; [exact OL|]. intros k c EX EC T0 TU NS _. apply (OC k EX T0 TU NS).
  - intros k c EX EC v HL. apply alookup_in in HL. destruct (SI _ _ _ _ EC HL) as [E _]. cbn in OU. congruence.
  - exact I.
Qed.

Theorem kinds_invariant acc h :
  acc_ok strictf acc -> Forall op_static h -> Forall op_clean h ->
  winv isroot strictf scope (fst (krun (init_world acc) h)) /\ sess_inv suser (fst (krun (init_world acc) h)).
Proof.
  intros AO HS HC.
  apply (krun_inv (fun w => winv isroot strictf scope w /\ sess_inv suser w) (fun o => op_static o /\ op_clean o)).
  - intros w o [WI SI] [S1 C1]. split; [apply kstep_winv; [exact WI|apply static_ok; assumption]|].
    apply kstep_sess_inv; [exact SI|apply S1].
  - split; [apply init_winv; exact AO|apply init_sess_inv].
  - apply Forall_and; assumption.
Qed.

End Final.

(* ---------- one stored row and one cached entry per user ---------- *)
Definition nd (rows : list (N * krow)) : Prop := NoDup (map fst rows).
Lemma upserted_nd rows rows' : upserted rows rows' -> nd rows -> nd rows'.
Proof. intros U H. induction U; [exact H|apply keys_aset; exact IHU]. Qed.

Definition nd_inv (w : world) : Prop := forall k, nd (kt_rows (tget k (w_topics w))).
Lemma kstep_nd w o : nd_inv w -> nd_inv (fst (kstep w o)).
Proof.
  intros NI. refine (kstep_topics (fun _ t => nd (kt_rows t)) w o _ NI).
  intros k t' T.
  destruct T as [k c EC|sid uid root orig mode defacs k t1 c nb rows' c1 ev res c2 EX LD EC1 ET C2|sid uid root orig target mode k c rows' c1 ev res EX EC ET|sid uid root orig target mode k mw EX|sid uid orig k c v r c1 ev EX EC ES ER EV|sid uid orig k c EX EC];
    cbn [kt_rows].
  - apply NI.
  - pose proof (proj1 (tus_frame (key_cat k) (kt_rows t1) c uid root mode nb)) as U. rewrite ET in U.
    apply (upserted_nd _ _ U).
    destruct LD as [[_ ->]|[_ [ns H]]]; [apply NI|]. eapply upserted_nd; [eapply init_shape; exact H|apply NI].
  - destruct ET as [ET|[_ [_ ET]]];
      [pose proof (proj1 (tus_frame (key_cat k) (kt_rows (tget k (w_topics w))) c uid root mode false)) as U
      |pose proof (proj1 (aus_frame (key_cat k) (w_acc w) (kt_rows (tget k (w_topics w))) c uid target mode)) as U];
      rewrite ET in U; apply (upserted_nd _ _ U), NI.
  - eapply upserted_nd; [apply upserted_modes|apply NI].
  - unfold p2p_gc. destruct (key_cat k); cbn [kt_cache kt_rows]; try (apply keys_aset, NI).
    destruct (Nat.eqb _ 0); cbn [kt_rows empty_topic]; [constructor|apply keys_aset, NI].
  - apply NI.
Qed.

Lemma init_nd_inv acc : NoDup (map fst acc) -> nd_inv (init_world acc).
Proof.
  intros _ k. unfold init_world. cbn [w_topics tget]. destruct (tkey_eqb k KSys); [constructor|].
  induction acc as [|[u a] acc IH]; cbn [flat_map app tget fst]; [constructor|].
  destruct (tkey_eqb k (KMe u)); [cbn; constructor; [intros []|constructor]|].
  destruct (tkey_eqb k (KFnd u)); [cbn; constructor; [intros []|constructor]|]. exact IH.
Qed.

Lemma krun_nd h w : nd_inv w -> nd_inv (fst (krun w h)).
Proof.
  intros H. apply (krun_inv nd_inv (fun _ => True)); [intros w0 o H0 _; apply kstep_nd; exact H0|exact H|].
  apply Forall_forall. auto.
Qed.

(* at most two rows when every key is one of two *)
Lemma two_keys (l : list (N * krow)) a b : NoDup (map fst l) -> (forall e, In e l -> fst e = a \/ fst e = b) -> (length l <= 2)%nat.
Proof.
  intros ND H. rewrite <- (map_length fst). 
  assert (incl (map fst l) [a; b]) as I.
  { intros x HI. apply in_map_iff in HI. destruct HI as [e [<- HI]]. destruct (H e HI) as [-> | ->]; cbn; auto. }
  pose proof (NoDup_incl_length ND I) as L. cbn in L. exact L.
Qed.

(* ---------- the scopes of the three statements ---------- *)
Definition sc_none (k : tkey) : bool := false.
Definition sc_sys (k : tkey) : bool := match k with KSys => true | _ => false end.
Definition sc_mefnd (k : tkey) : bool := match k with KMe _ | KFnd _ => true | _ => false end.
Definition sc_p2p (k : tkey) : bool := match k with KP2P _ _ => true | _ => false end.

(* the system topic: no hypothesis on {set sub} at all *)
Lemma clean_sys isroot o : op_clean isroot sc_none sc_sys o.
Proof.
  destruct o; cbn; auto. intros k EX T0 TU NS. split; [|discriminate].
  unfold okuser. destruct k; cbn; try discriminate. contradiction.
Qed.

(* ---------- witnesses: the three reproduced p2p defects and the me/fnd one ---------- *)
Definition wk_acc : list (N * N) := [(1, 31); (2, 31); (3, 31)].
Definition wk_default_acc : list (N * N) := [(1, 63); (2, 63)].
Definition m_J : list N := [74].
(* user 1 opens the p2p topic with user 2 and names user 3 in {set sub} *)
Definition wk_third : list kop := [KSub 1 1 false (OUsr 2) [] []; KSetSub 1 1 false (OUsr 2) 3 []].
Lemma wk_third_row : exists r, alookup 3 (kt_rows (tget (KP2P 1 2) (w_topics (fst (krun (init_world wk_acc) wk_third))))) = Some r.
Proof. vm_compute. eexists. reflexivity. Qed.
(* default accounts (JRWPAS): the initiator's grant is not masked *)
Definition wk_unmasked : list kop := [KSub 1 1 false (OUsr 2) [] []].
Lemma wk_unmasked_row :
  option_map kr_given (alookup 1 (kt_rows (tget (KP2P 1 2) (w_topics (fst (krun (init_world wk_default_acc) wk_unmasked)))))) = Some 63.
Proof. vm_compute. reflexivity. Qed.
(* the peer leaves, the remaining user re-invites without a mode: grant J *)
Definition wk_reinvite : list kop :=
  [KSub 1 1 false (OUsr 2) [] []; KSub 2 2 false (OUsr 1) [] []; KLeave 2 2 (OUsr 1) true; KSetSub 1 1 false (OUsr 2) 2 []].
Lemma wk_reinvite_row :
  option_map kr_given (alookup 2 (kt_rows (tget (KP2P 1 2) (w_topics (fst (krun (init_world wk_acc) wk_reinvite)))))) = Some 1.
Proof. vm_compute. reflexivity. Qed.
(* user 1 names user 2 in {set sub} on the own 'me' and 'fnd' topics; user 2 then attaches to fnd of 1 *)
Definition wk_me : list kop := [KSub 1 1 false OMe [] []; KSetSub 1 1 false OMe 2 []].
Lemma wk_me_row : exists r, alookup 2 (kt_rows (tget (KMe 1) (w_topics (fst (krun (init_world wk_acc) wk_me))))) = Some r.
Proof. vm_compute. eexists. reflexivity. Qed.
Definition wk_fnd : list kop := [KSub 1 1 false OFnd [] []; KSetSub 1 1 false OFnd 2 []; KSub 2 2 false (ORawFnd 1) [] []].
Lemma wk_fnd_sess : exists c, kt_cache (tget (KFnd 1) (w_topics (fst (krun (init_world wk_acc) wk_fnd)))) = Some c /\ In (2, 2) (kc_sess c).
Proof. vm_compute. eexists. split; [reflexivity|]. right. left. reflexivity. Qed.

Lemma forall_in {A} (P : A -> Prop) l x : Forall P l -> In x l -> P x.
Proof. intros H HI. rewrite Forall_forall in H. auto. Qed.
