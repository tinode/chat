(* C08: an acknowledged {sub}/{set sub} took no store error - so the fault plan is irrelevant to it *)
From Coq Require Import ZArith NArith List Bool Lia.
From Tinode Require Import Base.Util Pure.Acs Sys.Topic Sys.TopicTac Sys.TopicFrame Sys.TopicNum Sys.TopicNumThm
  Sys.TopicAclC07 Sys.TopicCohC08 Sys.TopicCohC08Proofs Sys.TopicCohC08Step Sys.TopicCohC08Run Sys.PermBranchC08c Sys.PermBranchC08cProofs.
Import ListNotations.
Open Scope Z_scope.

Lemma call_nofault_c08c n : call NoFault n = (true, S n).
Proof. reflexivity. Qed.

Lemma call_cases_c08c f n : call f n = (true, S n) \/ call f n = (false, S n).
Proof. unfold call. destruct (fails f (S n)); auto. Qed.

Lemma tus_ok_nofault_c08c f s c n sid u want nb ch :
  snd (this_user_sub f s c n sid u want nb) = SubOk ch ->
  this_user_sub f s c n sid u want nb = this_user_sub NoFault s c n sid u want nb.
Proof.
  rewrite !tus_unfold.
  destruct (match want with [] => (ModeUnset, true) | _ => unmarshal_text ModeUnset want end) as [mw okw].
  destruct (negb okw); [reflexivity|].
  destruct (alookup u (c_users c)) as [p0|].
  - unfold tus_exist. cbv beta zeta. destruct (tus_chk c u mw (p_want p0) (p_given p0)) as [[[mw1 g1] oc]|]; [|reflexivity].
    rewrite !call_nofault_c08c.
    destruct (negb ((tus_w1 c u mw1 g1 (p_want p0) =? p_want p0)%N && (g1 =? p_given p0)%N)).
    + destruct (call_cases_c08c f n) as [E|E]; rewrite E; cbn [negb]; [|discriminate].
      destruct oc; [|reflexivity].
      destruct (call_cases_c08c f (S n)) as [E2|E2]; rewrite E2; cbn [negb]; [|discriminate].
      destruct (call_cases_c08c f (S (S n))) as [E3|E3]; rewrite E3; cbn [negb]; [|discriminate]. reflexivity.
    + cbn [negb]. destruct oc; [|reflexivity].
      destruct (call_cases_c08c f n) as [E2|E2]; rewrite E2; cbn [negb]; [|discriminate].
      destruct (call_cases_c08c f (S n)) as [E3|E3]; rewrite E3; cbn [negb]; [|discriminate]. reflexivity.
  - unfold tus_new. destruct (max_subs <=? Z.of_nat (length (c_users c))); [reflexivity|].
    rewrite !call_nofault_c08c.
    destruct (call_cases_c08c f n) as [E|E]; rewrite E; cbn [negb]; [|discriminate].
    match goal with |- context [if negb (is_joiner ?g) then _ else _] => destruct (negb (is_joiner g)); [reflexivity|] end.
    destruct (match ad_sub_get s u true with Some r => s_deleted r | None => true end).
    + destruct (call_cases_c08c f (S n)) as [E2|E2]; rewrite E2; cbn [negb]; [|discriminate]. reflexivity.
    + reflexivity.
Qed.

Lemma aus_ok_nofault_c08c f s c n sid u target mode ch :
  snd (another_user_sub f s c n sid u target mode) = SubOk ch ->
  another_user_sub f s c n sid u target mode = another_user_sub NoFault s c n sid u target mode.
Proof.
  unfold another_user_sub.
  destruct (alookup u (c_users c)); [|reflexivity].
  destruct (negb (is_sharer _)); [reflexivity|].
  destruct (match mode with [] => (ModeUnset, true) | _ => unmarshal_text ModeUnset mode end) as [mg okg].
  destruct (negb okg); [reflexivity|].
  destruct (negb (mg =? ModeUnset)%N && negb (is_admin _)); [reflexivity|].
  destruct (is_owner mg && negb (N.eqb (c_owner c) u)); [reflexivity|].
  rewrite !call_nofault_c08c.
  destruct (alookup target (c_users c)) as [pt|].
  - destruct ((mg =? ModeUnset)%N || (mg =? p_given pt)%N); [reflexivity|].
    destruct (N.eqb (c_owner c) target && _); [reflexivity|].
    destruct (call_cases_c08c f n) as [E|E]; rewrite E; cbn [negb]; [reflexivity|discriminate].
  - destruct (max_subs <=? Z.of_nat (length (c_users c))); [reflexivity|].
    destruct (call_cases_c08c f n) as [E|E]; rewrite E; cbn [negb]; [|discriminate].
    destruct (ad_sub_get s target true) as [r|].
    + destruct (negb (is_joiner (s_want r))); [reflexivity|].
      destruct (call_cases_c08c f (S n)) as [E3|E3]; rewrite E3; cbn [negb]; [reflexivity|discriminate].
    + rewrite ?call_nofault_c08c.
      destruct (call_cases_c08c f (S n)) as [E2|E2]; rewrite E2; cbn [negb]; [|discriminate].
      destruct (alookup target (users s)) as [acc|]; [|reflexivity].
      destruct (negb (is_joiner _)); [reflexivity|].
      destruct (call_cases_c08c f (S (S n))) as [E3|E3]; rewrite E3; cbn [negb]; [reflexivity|discriminate].
Qed.

Lemma sub_reply_ack_nofault_c08c f s c n sid u want bkg sid' named w g :
  In (sid', CtrlAcs 200 named w g) (h_out (sub_reply f s c n sid u want bkg)) ->
  sub_reply f s c n sid u want bkg = sub_reply NoFault s c n sid u want bkg.
Proof.
  unfold sub_reply.
  pose proof (tus_ok_nofault_c08c f s c n sid u want (match alookup u (c_users c) with Some _ => false | None => true end)) as NF.
  destruct (tus_post f s c n sid u want (match alookup u (c_users c) with Some _ => false | None => true end)) as [OE _].
  destruct (this_user_sub f s c n sid u want _) as [h r] eqn:E. cbn [fst snd] in *.
  destruct r as [code|ch]; cbn [h_out]; intros I; [destruct (acs_in_err_c08c _ _ _ _ _ _ _ OE I)|].
  rewrite <- (NF ch eq_refl). reflexivity.
Qed.

Lemma set_sub_ack_nofault_c08c f s c n sid u target mode sid' named w g :
  In (sid', CtrlAcs 200 named w g) (h_out (set_sub f s c n sid u target mode)) ->
  set_sub f s c n sid u target mode = set_sub NoFault s c n sid u target mode.
Proof.
  unfold set_sub. destruct ((target =? 0)%N || (target =? u)%N).
  - pose proof (tus_ok_nofault_c08c f s c n sid u mode false) as NF.
    destruct (tus_post f s c n sid u mode false) as [OE _].
    destruct (this_user_sub f s c n sid u mode false) as [h r] eqn:E. cbn [fst snd] in *.
    destruct r as [code|ch]; cbn [h_out]; intros I; [destruct (acs_in_err_c08c _ _ _ _ _ _ _ OE I)|].
    rewrite <- (NF ch eq_refl). reflexivity.
  - pose proof (aus_ok_nofault_c08c f s c n sid u target mode) as NF.
    destruct (aus_post f s c n sid u target mode) as [OE _].
    destruct (another_user_sub f s c n sid u target mode) as [h r] eqn:E. cbn [fst snd] in *.
    destruct r as [code|ch]; cbn [h_out]; intros I; [destruct (acs_in_err_c08c _ _ _ _ _ _ _ OE I)|].
    rewrite <- (NF ch eq_refl). reflexivity.
Qed.

Lemma offline_set_sub_ack_nofault_c08c f s sid u target mode sid' named w g :
  In (sid', CtrlAcs 200 named w g) (o_out (offline_set_sub f s sid u target mode)) ->
  offline_set_sub f s sid u target mode = offline_set_sub NoFault s sid u target mode.
Proof.
  unfold offline_set_sub. destruct mode as [|m0 ml]; [reflexivity|].
  destruct (negb (target =? 0)%N && negb (target =? u)%N); [reflexivity|].
  rewrite !call_nofault_c08c.
  destruct (call_cases_c08c f 0) as [E|E]; rewrite E; cbn [negb]; [|intros [I|[]]; discriminate I].
  destruct (ad_sub_get s u false) as [r0|]; [|reflexivity].
  destruct (unmarshal_text 0%N (m0 :: ml)) as [mw okw]. destruct (negb okw); [reflexivity|].
  destruct (negb (Bool.eqb (is_owner mw) (is_owner (s_want r0)))); [reflexivity|].
  destruct (mw =? s_want r0)%N; [reflexivity|].
  destruct (call_cases_c08c f 1) as [E2|E2]; rewrite E2; cbn [negb]; [reflexivity|intros [I|[]]; discriminate I].
Qed.

Section StepAckFull.
Variable dr : Z -> list (Z * Z) -> option (list (Z * Z)).
Variable nr : list (Z * Z) -> list (Z * Z).
Variable sm : sessmap.

(* a {sub}/{set sub} that is acknowledged with an access mode ran exactly as it runs without store faults *)
Lemma step_ack_nofault_c08c f x o sid named w g :
  is_perm_req_c08c o = true ->
  In (sid, CtrlAcs 200 named w g) (snd (step dr nr sm f x o)) ->
  step dr nr sm f x o = step dr nr sm NoFault x o.
Proof.
  intros PR.
  destruct o as [sd want bkg|sd unsub|sd content noecho|sd what seq|sd a b l|sd|sd|sd a b l|sd req hard|sd target mode|sd target| |];
    try discriminate PR; clear PR.
  - (* OSub *)
    unfold step. destruct (ca x) as [c|].
    + destruct (attached c sd); [reflexivity|]. cbn [snd]. intros I.
      rewrite (sub_reply_ack_nofault_c08c _ _ _ _ _ _ _ _ _ _ _ _ I). reflexivity.
    + unfold try_load. rewrite !call_nofault_c08c.
      destruct (call_cases_c08c f 0) as [E|E]; rewrite E; cbn [negb]; [|intros [I|[]]; discriminate I].
      destruct (negb (t_exists (st x))); [reflexivity|].
      destruct (call_cases_c08c f 1) as [E2|E2]; rewrite E2; cbn [negb]; [|intros [I|[]]; discriminate I].
      cbn [snd]. intros I. rewrite (sub_reply_ack_nofault_c08c _ _ _ _ _ _ _ _ _ _ _ _ I). reflexivity.
  - (* OSetSub *)
    unfold step. destruct (ca x) as [c|]; cbn -[set_sub offline_set_sub].
    + destruct (attached c sd); cbn -[set_sub offline_set_sub]; intros I.
      * rewrite (set_sub_ack_nofault_c08c _ _ _ _ _ _ _ _ _ _ _ _ I). reflexivity.
      * rewrite (offline_set_sub_ack_nofault_c08c _ _ _ _ _ _ _ _ _ _ I). reflexivity.
    + intros I. rewrite (offline_set_sub_ack_nofault_c08c _ _ _ _ _ _ _ _ _ _ I). reflexivity.
Qed.

End StepAckFull.
