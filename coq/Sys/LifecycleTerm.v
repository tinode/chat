(* C14: a terminated session ends up detached from every topic; deleted topics refuse. *)
From Coq Require Import List Arith Bool Lia.
Import ListNotations.
Require Import Tinode.Sys.Lifecycle Tinode.Sys.LifecycleProofs Tinode.Sys.LifecycleAttach.

Lemma drain_unreg_inflight : forall i l f l' f',
  drain_unreg i l f = (l', f') -> forall s, s_inflight (f' s) <= s_inflight (f s).
Proof.
  induction l as [|[j r] rest IH]; intros f l' f' H s; simpl in H.
  - inversion H; subst. auto.
  - destruct (Nat.eqb i j).
    + specialize (IH _ _ _ H s). unfold upd in IH.
      destruct (Nat.eqb s (r_sid r)) eqn:E; auto.
      apply Nat.eqb_eq in E. subst s. destruct (r_init r); autorewrite with lc in *; simpl in *; lia.
    + destruct (drain_unreg i rest f) as [l2 f2] eqn:E. inversion H; subst. eapply IH; eauto.
Qed.

(* what one step does to the termination flags and the in-flight counter of a session *)
Lemma step_sess_flags : forall c l c', step c l c' -> forall s0,
  (s_done (c_sess c' s0) = s_done (c_sess c s0) /\ s_term (c_sess c' s0) = s_term (c_sess c s0) /\
   (s_inflight (c_sess c' s0) <= s_inflight (c_sess c s0) \/ s_term (c_sess c s0) = false)) \/
  (l = DiscBegin s0 /\ s_term (c_sess c s0) = false /\ s_term (c_sess c' s0) = true /\ s_done (c_sess c' s0) = false /\
   s_inflight (c_sess c' s0) = s_inflight (c_sess c s0)) \/
  (l = DiscEnd s0 /\ s_term (c_sess c s0) = true /\ s_inflight (c_sess c s0) = 0 /\ s_done (c_sess c' s0) = true /\
   s_term (c_sess c' s0) = true /\ s_inflight (c_sess c' s0) = 0).
Proof.
  intros c l c' Hs s0. estep_cases Hs;
    try (left; sess_leaf; repeat split; auto; left; lia).
  - pose proof (drain_unreg_frame _ _ _ _ _ Edr s0) as (_ & _ & Ft & Fd). pose proof (drain_unreg_inflight _ _ _ _ _ Edr s0) as Fi.
    left. sess_leaf; rewrite Ft, Fd; repeat split; auto.
  - pose proof (drain_unreg_frame _ _ _ _ _ Edr s0) as (_ & _ & Ft & Fd). pose proof (drain_unreg_inflight _ _ _ _ _ Edr s0) as Fi.
    left. sess_leaf; rewrite Ft, Fd; repeat split; auto; left; lia.
  - left. destruct (pre404_sess c r eR s0) as (_ & <- & <- & <- & _).
    ustep_cases Hu; try destruct (r_init r0); sess_leaf; try destruct (gone_of _ _ _ _); autorewrite with lc; repeat split; auto; left; lia.
  - left. cfg_simpl. destruct (mem s0 _); autorewrite with lc; auto.
  - destruct (Nat.eqb_spec s0 s1) as [->|]; [right; left|left]; sess_leaf; auto; contradiction.
  - destruct (Nat.eqb_spec s0 s1) as [->|]; [right; right|left]; sess_leaf; repeat split; auto; contradiction.
Qed.

Definition done_flags (c : config) : Prop :=
  forall s, s_done (c_sess c s) = true -> s_term (c_sess c s) = true /\ s_inflight (c_sess c s) = 0.

Lemma done_flags_step : forall c l c', done_flags c -> step c l c' -> done_flags c'.
Proof.
  intros c l c' H Hs s Hd.
  destruct (step_sess_flags _ _ _ Hs s) as [(A & B & C)|[(_ & _ & _ & A & _)|(_ & _ & _ & _ & A & B)]].
  - rewrite A in Hd. destruct (H s Hd) as [Ht H0]. rewrite B. split; auto.
    destruct C as [C|C]; [lia|congruence].
  - congruence.
  - auto.
Qed.

Lemma done_flags_reach : forall st ow us c, reach st ow us c -> done_flags c.
Proof. induction 1; [intros s; simpl; discriminate|eapply done_flags_step; eauto]. Qed.

(* an instance marked deleted whose run loop is still going has its termination request queued *)
Definition del_exit (c : config) : Prop :=
  forall j, i_deleted (c_inst c j) = true -> i_phase (c_inst c j) = PRun -> has_tag j (c_texit c) = true.

Lemma del_exit_step : forall c l c', del_exit c -> step c l c' -> del_exit c'.
Proof.
  intros c l c' H Hs. estep_cases Hs; try exact H.
  - intros j. cfg_simpl. unfold upd. destruct (Nat.eqb_spec j (c_next c)); [discriminate|apply H].
  - intros j. inst_cases j i; [discriminate|apply H].
  - intros j. inst_cases j i; [congruence|apply H].
  - intros j. cfg_simpl. inst_cases j i; [discriminate|]. intros A B. rewrite (has_tag_take_other _ j i _ _ _ Ex); auto.
  - intros j. inst_cases j i; [discriminate|apply H].
  - intros j. inst_cases j i; apply H.
  - assert (H0 : del_exit (pre404 c r eR)).
    { intros j. destruct (pre404_frame c r eR) as (-> & _ & _ & _ & _ & _ & _ & _ & -> & _). apply H. }
    ustep_cases Hu; try destruct (r_init r0); try exact H0; intros j; inst_cases j i; apply H0.
  - intros j. inst_cases j i; apply H.
  - intros j. cfg_simpl. rewrite has_tag_app. inst_cases j i; intros A B; [cbn; rewrite Nat.eqb_refl; apply orb_true_r|rewrite (H j A B); reflexivity].
  - intros j. cfg_simpl. rewrite has_tag_app. inst_cases j i; intros A B; [cbn; rewrite Nat.eqb_refl; apply orb_true_r|rewrite (H j A B); reflexivity].
  - intros j. cfg_simpl. inst_cases j i; [discriminate|]. intros A B. rewrite (has_tag_take_other _ j i _ _ _ E); auto.
Qed.

Lemma del_exit_reach : forall st ow us c, reach st ow us c -> del_exit c.
Proof. induction 1; [intros j; simpl; discriminate|eapply del_exit_step; eauto]. Qed.

(* ---------- a session whose cleanUp completed is on its way out of every topic ---------- *)
Definition done_leave (c : config) : Prop :=
  forall s j, s_done (c_sess c s) = true -> i_phase (c_inst c j) <> PDead -> mem s (i_sessions (c_inst c j)) = true ->
    i_deleted (c_inst c j) = true \/ exists r, In (j, r) (c_tunreg c) /\ r_init r = false /\ r_sid r = s.

Lemma done_leave_mono : forall c c',
  (forall s, s_done (c_sess c' s) = true -> s_done (c_sess c s) = true) ->
  (forall s j, i_phase (c_inst c' j) <> PDead -> mem s (i_sessions (c_inst c' j)) = true ->
               i_phase (c_inst c j) <> PDead /\ mem s (i_sessions (c_inst c j)) = true /\
               (i_deleted (c_inst c j) = true -> i_deleted (c_inst c' j) = true)) ->
  (forall x, In x (c_tunreg c) -> In x (c_tunreg c')) ->
  done_leave c -> done_leave c'.
Proof.
  intros c c' Hd Hm Hq H s j A B C.
  destruct (Hm _ _ B C) as (B0 & C0 & Hdel). destruct (H s j (Hd _ A) B0 C0) as [X|(r & X & Y)]; [left; auto|right].
  exists r. split; auto.
Qed.

Lemma lookup_In : forall t l i, lookup t l = Some i -> In (t, i) l.
Proof.
  induction l as [|[k j] r IH]; simpl; intros i H; [discriminate|].
  destruct (Nat.eqb_spec t k) as [->|]; [inversion H; subst; left; reflexivity|right; auto].
Qed.

Lemma drain_unreg_keeps : forall i l f l' f',
  drain_unreg i l f = (l', f') -> forall x, In x l -> fst x <> i -> In x l'.
Proof.
  induction l as [|[j r] rest IH]; intros f l' f' H x Hin Hne; simpl in H; [contradiction|].
  destruct (Nat.eqb_spec i j) as [->|Hij].
  - destruct Hin as [<-|Hin]; [simpl in Hne; congruence|]. eapply IH; eauto.
  - destruct (drain_unreg i rest f) as [l2 f2] eqn:E. inversion H; subst.
    destruct Hin as [<-|Hin]; [left; reflexivity|right; eapply IH; eauto].
Qed.

Lemma take_first_cases : forall (A : Type) i (l : list (inst * A)) a l' x,
  take_first i l = Some (a, l') -> In x l -> x = (i, a) \/ In x l'.
Proof.
  intros A i l a l' x H Hin. apply take_first_spec in H. destruct H as (l1 & l2 & -> & -> & _).
  apply in_app_or in Hin. destruct Hin as [Hin|[<-|Hin]]; auto; right; apply in_or_app; auto.
Qed.

Lemma cntp_in_pos : forall s l i r, In (i, r) l -> mine s r = true -> 1 <= cntp s l.
Proof.
  induction l as [|[j q] rest IH]; intros i r Hin Hm; [contradiction|].
  rewrite cntp_cons. destruct Hin as [E|Hin].
  - inversion E; subst. rewrite Hm. lia.
  - specialize (IH _ _ Hin Hm). lia.
Qed.

(* done_leave_mono for a step that changes instance i only *)
Ltac mono_inst H i :=
  eapply done_leave_mono; [| | |exact H];
  [intros s0; sess_leaf; auto|intros s0 j0; inst_cases j0 i; auto; try (intros; repeat split; auto; congruence)
  |intros x Hx; cfg_simpl; auto with datatypes].

(* topicInit failed: instance i is dead, the requests for the other instances stay queued *)
Lemma done_leave_init_failed : forall c i r unreg' f' c2,
  drain_unreg i (c_tunreg c) (upd (c_sess c) (r_sid r) (s_reply (c_sess c (r_sid r)) (rep r CNotFound))) = (unreg', f') ->
  done_leave c ->
  (forall s, s_done (c_sess c2 s) = s_done (f' s)) ->
  (forall j, c_inst c2 j = if Nat.eqb j i then i_setphase (c_inst c i) PDead else c_inst c j) ->
  c_tunreg c2 = unreg' -> done_leave c2.
Proof.
  intros c i r unreg' f' c2 Ed H E1 E2 E3 s j A B C. rewrite E2 in B, C. rewrite E2.
  destruct (Nat.eqb_spec j i) as [->|Hji]; [cbn in B; congruence|].
  rewrite E1 in A. destruct (drain_unreg_frame _ _ _ _ _ Ed s) as (_ & _ & _ & Fd). rewrite Fd in A.
  assert (A0 : s_done (c_sess c s) = true).
  { unfold upd in A. destruct (Nat.eqb s (r_sid r)) eqn:Es; auto. apply Nat.eqb_eq in Es. subst. autorewrite with lc in A. exact A. }
  destruct (H s j A0 B C) as [X|(q & X & Y)]; [left; auto|right]. exists q. split; auto.
  rewrite E3. eapply drain_unreg_keeps; eauto.
Qed.

(* the unreg queue loses the request r of instance i: r is a client request, or the instance is inactive, or the session
   has been taken off the instance; done flags, phases and marks stay, sessions only shrink *)
Lemma done_leave_consumed : forall c i r rest c2,
  i_phase (c_inst c i) = PRun -> take_first i (c_tunreg c) = Some (r, rest) -> done_leave c ->
  (forall s, s_done (c_sess c2 s) = s_done (c_sess c s)) ->
  (forall j, i_phase (c_inst c2 j) = i_phase (c_inst c j) /\ i_deleted (c_inst c2 j) = i_deleted (c_inst c j) /\
             forall s, mem s (i_sessions (c_inst c2 j)) = true -> mem s (i_sessions (c_inst c j)) = true) ->
  c_tunreg c2 = rest ->
  (inactive (c_inst c i) = true \/ r_init r = true \/ mem (r_sid r) (i_sessions (c_inst c2 i)) = false) ->
  done_leave c2.
Proof.
  intros c i r rest c2 Ep E H E1 E2 E3 E4 s j A B C. destruct (E2 j) as (Ph & Dl & Ms). rewrite Ph in B. rewrite Dl.
  rewrite E1 in A. destruct (H s j A B (Ms _ C)) as [X|(q & X & Y & Z)]; [left; auto|].
  destruct (take_first_cases _ _ _ _ _ _ E X) as [Eq|Hin].
  - inversion Eq; subst j q. destruct E4 as [E4|[E4|E4]].
    + left. unfold inactive in E4. rewrite Ep in E4. exact E4.
    + congruence.
    + subst s. congruence.
  - right. exists q. rewrite E3. auto.
Qed.

Lemma done_leave_pre404 : forall c r e, done_leave c -> done_leave (pre404 c r e).
Proof.
  intros c r e H s j. destruct (pre404_sess c r e s) as (_ & _ & _ & -> & _).
  destruct (pre404_frame c r e) as (-> & _ & _ & _ & _ & _ & _ & -> & _). apply H.
Qed.

Lemma done_leave_step : forall c l c',
  inv_att c -> init_true c -> bal_le c -> done_flags c -> done_leave c -> step c l c' -> done_leave c'.
Proof.
  intros c l c' IA IT BL DF H Hs. estep_cases Hs; try exact H;
    try (eapply done_leave_mono; [| | |exact H];
         [intros s0; sess_leaf; auto; discriminate|intros s0 j0 A B; auto|intros x Hx; cfg_simpl; auto with datatypes]; fail).
  - mono_inst H (c_next c). discriminate.
  - mono_inst H i.
  - mono_inst H i.
  - apply (done_leave_init_failed c i r unreg' f' _ Edr H); auto; intros s0; sess_leaf; auto.
  - apply (done_leave_init_failed c i r unreg' f' _ Edr H); auto; intros s0; sess_leaf; auto.
  - (* the session that attaches is not closing: its request is still counted *)
    destruct (in_take_first _ _ _ _ _ E) as [Hin _].
    destruct IT as (_ & _ & IT3). pose proof (IT3 _ Hin) as Hri. cbn [snd] in Hri.
    assert (Hnd : s_done (c_sess c (r_sid r)) = false).
    { destruct (s_done (c_sess c (r_sid r))) eqn:Ed; auto. exfalso.
      destruct (DF _ Ed) as [_ H0]. specialize (BL (r_sid r)). unfold pending in BL.
      assert (1 <= cntp (r_sid r) (c_treg c)).
      { eapply cntp_in_pos; eauto. unfold mine. rewrite Hri, Nat.eqb_refl. reflexivity. }
      lia. }
    intros s0 j0. inst_cases j0 i; sess_leaf; intros A B C; try congruence; try (apply H; auto; fail).
    rewrite mem_add in C. destruct (Nat.eqb_spec s0 (r_sid r)); [congruence|]. rewrite orb_false_r in C. apply H; auto.
  - apply done_leave_pre404 with (r := r) (e := eR) in H.
    ustep_cases Hu.
    + apply (done_leave_consumed _ _ _ _ _ Ep E0 H); auto; intros; sess_leaf; auto.
    + apply (done_leave_consumed _ _ _ _ _ Ep E0 H); auto.
      * intros s0. sess_leaf; try destruct (gone_of _ _ _ _); autorewrite with lc; auto.
      * intros j0. inst_cases j0 i; repeat split; auto. intros s0. rewrite mem_filter. intros X. apply andb_true_iff in X. tauto.
    + apply (done_leave_consumed _ _ _ _ _ Ep E0 H).
      * intros s0. destruct (r_init r0); sess_leaf; auto.
      * intros j0. destruct (r_init r0); inst_cases j0 i; repeat split; auto; intros s0; rewrite mem_remove_nat; intros X; apply andb_true_iff in X; tauto.
      * destruct (r_init r0); reflexivity.
      * right. right. destruct (r_init r0); cfg_simpl; unfold upd; rewrite Nat.eqb_refl; apply mem_remove_nat_same.
    + apply (done_leave_consumed _ _ _ _ _ Ep E0 H); auto; intros; sess_leaf; auto.
    + apply (done_leave_consumed _ _ _ _ _ Ep E0 H); auto.
      destruct (inactive (c_inst (pre404 c r eR) i)); auto.
  - mono_inst H i. rewrite mem_remove_nat. intros ? X. apply andb_true_iff in X. tauto.
  - mono_inst H i.
  - mono_inst H i.
  - eapply done_leave_mono; [| | |exact H]; cfg_simpl; auto.
    + intros s0. destruct (mem s0 (i_sessions (c_inst c i))); autorewrite with lc; auto.
    + intros s0 j0. inst_cases j0 i; [congruence|auto].
  - intros s0 j0 A B C. sess_leaf.
    + right. pose proof (ia_mem_sub _ IA s1 j0 B C) as Hl. apply lookup_In in Hl.
      exists (mkReq s1 0 (KLeave false) (i_name (c_inst c j0)) false false). split; [|auto].
      apply in_or_app. right. apply in_map_iff. exists (i_name (c_inst c j0), j0). split; auto.
    + destruct (H s0 j0 A B C) as [X|(q & X & Y)]; [left; auto|right]. exists q. split; auto. apply in_or_app. auto.
Qed.

Lemma done_leave_reach : forall st ow us c, reach st ow us c -> done_leave c.
Proof.
  induction 1.
  - intros s j; simpl; discriminate.
  - eapply done_leave_step; eauto.
    + eapply inv_att_reach; eauto.
    + eapply init_true_reach; eauto.
    + eapply bal_le_reach; eauto.
    + eapply done_flags_reach; eauto.
Qed.

(* A session whose cleanUp has completed is, at quiescence, attached to no running topic: every
   running instance has forgotten it (so the per-user online count, which the Go code keeps as the
   number of attached foreground sessions of the user, is back to what the other sessions give). *)
Lemma terminated_detached : forall st ow us c, reach st ow us c -> quiescent c ->
  forall s i, s_done (c_sess c s) = true -> i_phase (c_inst c i) = PRun -> mem s (i_sessions (c_inst c i)) = false.
Proof.
  intros st ow us c Hr Hq s i Hd Hp.
  destruct (mem s (i_sessions (c_inst c i))) eqn:Em; auto. exfalso.
  destruct Hq as (_ & _ & _ & _ & Hu & Hx & _).
  assert (Hnd : i_phase (c_inst c i) <> PDead) by congruence.
  destruct (done_leave_reach _ _ _ _ Hr s i Hd Hnd Em) as [X|(r & X & _)].
  - pose proof (del_exit_reach _ _ _ _ Hr i X Hp) as Y. rewrite Hx in Y. discriminate.
  - rewrite Hu in X. contradiction.
Qed.

(* number of sessions of user u attached to instance i: the model's online count *)
Definition online (c : config) (i : inst) (u : uid) : nat :=
  length (filter (fun s => Nat.eqb (c_user c s) u) (i_sessions (c_inst c i))).

(* ---------- a deleted topic refuses ---------- *)

Record inv_tbl (c : config) : Prop := mkIT {
  (* the hub's table points to live, unmarked instances of that name *)
  it_live : forall t i, c_table c t = Some i ->
            i < c_next c /\ i_name (c_inst c i) = t /\ i_phase (c_inst c i) <> PDead /\ i_deleted (c_inst c i) = false;
  (* a running instance in the table has its row *)
  it_row : forall t i, c_table c t = Some i -> i_phase (c_inst c i) = PRun -> c_store c t = true;
  (* a termination request is only ever queued together with the deleted mark *)
  it_exit : forall x, In x (c_texit c) -> fst x < c_next c /\ i_deleted (c_inst c (fst x)) = true }.

Lemma inv_tbl_init : forall st ow us ch, inv_tbl (init_config st ow us ch).
Proof. intros. constructor; simpl; intros; try discriminate; contradiction. Qed.

(* topicInit failed: the name leaves the table, the instance is dead *)
Lemma inv_tbl_init_failed : forall c i c2, i_phase (c_inst c i) = PInit -> inv_tbl c ->
  c_next c2 = c_next c -> c_store c2 = c_store c ->
  (forall j, c_inst c2 j = if Nat.eqb j i then i_setphase (c_inst c i) PDead else c_inst c j) ->
  (forall t, c_table c2 t = if Nat.eqb t (i_name (c_inst c i)) then None else c_table c t) ->
  (forall x, In x (c_texit c2) -> In x (c_texit c)) -> inv_tbl c2.
Proof.
  intros c i c2 Ep [L R X] E1 E2 E3 E4 E5. constructor.
  - intros t j. rewrite E4, E1, E3. destruct (Nat.eqb_spec t (i_name (c_inst c i))); [discriminate|].
    intros Et. destruct (L _ _ Et) as (A & B & C & D). destruct (Nat.eqb_spec j i); subst; [congruence|eauto].
  - intros t j. rewrite E4, E2, E3. destruct (Nat.eqb_spec t (i_name (c_inst c i))); [discriminate|].
    intros Et. destruct (L _ _ Et) as (A & B & C & D). destruct (Nat.eqb_spec j i); subst; [congruence|eauto].
  - intros x Hin. apply E5 in Hin. destruct (X _ Hin) as (A & B). rewrite E1, E3.
    destruct (Nat.eqb_spec (fst x) i) as [<-|]; auto.
Qed.

(* the hub unloads or deletes the instance its table holds for t: marked, out of the table, termination requested *)
Lemma inv_tbl_marked : forall c i t c2, c_table c t = Some i -> inv_tbl c ->
  c_next c2 = c_next c ->
  (forall t0, t0 <> t -> c_store c2 t0 = c_store c t0) ->
  (forall j, c_inst c2 j = if Nat.eqb j i then i_setdeleted (c_inst c i) else c_inst c j) ->
  (forall t0, c_table c2 t0 = if Nat.eqb t0 t then None else c_table c t0) ->
  (exists b, c_texit c2 = c_texit c ++ [(i, b)]) -> inv_tbl c2.
Proof.
  intros c i t c2 Et [L R X] E1 E2 E3 E4 (b & E5). destruct (L _ _ Et) as (A0 & B0 & C0 & D0). constructor.
  - intros t0 j. rewrite E4, E1, E3. destruct (Nat.eqb_spec t0 t); [discriminate|]. intros E. destruct (L _ _ E) as (A & B & C & D).
    destruct (Nat.eqb_spec j i); subst; [congruence|eauto].
  - intros t0 j. rewrite E4, E3. destruct (Nat.eqb_spec t0 t); [discriminate|]. intros E. destruct (L _ _ E) as (A & B & C & D).
    destruct (Nat.eqb_spec j i); subst; [congruence|]. rewrite E2 by auto. eauto.
  - intros x. rewrite E5, E1, E3. intros Hin. apply in_app_or in Hin. destruct Hin as [Hin|[<-|[]]]; cbn [fst].
    + destruct (X _ Hin) as (A & B). destruct (Nat.eqb_spec (fst x) i) as [<-|]; auto.
    + rewrite Nat.eqb_refl. auto.
Qed.

(* instance i changes phase: it is marked deleted (so the table does not hold it), or it starts to run and its row exists *)
Lemma inv_tbl_phase : forall c i p c2, inv_tbl c ->
  (i_deleted (c_inst c i) = true \/ (p = PRun /\ c_store c (i_name (c_inst c i)) = true)) ->
  c_next c2 = c_next c -> c_store c2 = c_store c -> c_table c2 = c_table c ->
  (forall x, In x (c_texit c2) -> In x (c_texit c)) ->
  (forall j, c_inst c2 j = if Nat.eqb j i then i_setphase (c_inst c i) p else c_inst c j) -> inv_tbl c2.
Proof.
  intros c i p c2 [L R X] Hp E1 E2 E3 E4 E5. constructor.
  - intros t j. rewrite E3, E1, E5. intros Et. destruct (L _ _ Et) as (A & B & C & D).
    destruct (Nat.eqb_spec j i) as [->|]; [|auto]. destruct Hp as [Hp|[-> _]]; [congruence|]. repeat split; auto; discriminate.
  - intros t j. rewrite E3, E2, E5. intros Et. destruct (L _ _ Et) as (A & B & C & D).
    destruct (Nat.eqb_spec j i) as [->|]; [|eauto]. intros _. destruct Hp as [Hp|[_ Hs]]; [congruence|]. rewrite <- B. exact Hs.
  - intros x Hx. destruct (X _ (E4 _ Hx)) as (A & B). rewrite E1, E5. destruct (Nat.eqb_spec (fst x) i) as [<-|]; auto.
Qed.

(* a step that leaves the hub's table, the store, the termination requests and name, phase and mark of every instance alone *)
Lemma inv_tbl_same : forall c c',
  c_next c' = c_next c -> c_store c' = c_store c -> c_table c' = c_table c -> c_texit c' = c_texit c ->
  (forall j, i_name (c_inst c' j) = i_name (c_inst c j) /\ i_phase (c_inst c' j) = i_phase (c_inst c j) /\
             i_deleted (c_inst c' j) = i_deleted (c_inst c j)) -> inv_tbl c -> inv_tbl c'.
Proof.
  intros c c' E1 E2 E3 E4 E5 [L R X]. constructor.
  - intros t j. rewrite E3, E1. destruct (E5 j) as (-> & -> & ->). apply L.
  - intros t j. rewrite E3, E2. destruct (E5 j) as (_ & -> & _). apply R.
  - intros x. rewrite E4, E1. destruct (E5 (fst x)) as (_ & _ & ->). apply X.
Qed.

Lemma inv_tbl_step : forall c l c', inv_tbl c -> step c l c' -> inv_tbl c'.
Proof.
  intros c l c' H Hs. pose proof H as [L R X]. estep_cases Hs; try (constructor; assumption).
  - (* a fresh instance enters the table *)
    constructor; cfg_simpl; unfold upd.
    + intros t0 j. destruct (Nat.eqb_spec t0 (r_topic r)) as [->|Hne].
      * intros E1. inversion E1; subst. rewrite Nat.eqb_refl. cbn. repeat split; auto; discriminate.
      * intros E1. destruct (L _ _ E1) as (A & B & C & D). destruct (Nat.eqb_spec j (c_next c)); [lia|]. repeat split; auto.
    + intros t0 j. destruct (Nat.eqb_spec t0 (r_topic r)) as [->|Hne].
      * intros E1. inversion E1; subst. rewrite Nat.eqb_refl. cbn. discriminate.
      * intros E1. destruct (L _ _ E1) as (A & _). destruct (Nat.eqb_spec j (c_next c)); [lia|]. apply R; auto.
    + intros x Hin. destruct (X _ Hin) as (A & B). destruct (Nat.eqb_spec (fst x) (c_next c)); [lia|]. split; auto.
  - apply (inv_tbl_phase c i PDead); auto.
  - apply (inv_tbl_phase c i PRun); auto.
  - apply (inv_tbl_init_failed c i); auto. intros x Hx. exact (proj2 (in_take_first _ _ _ _ _ Ex) x Hx).
  - apply (inv_tbl_init_failed c i); auto.
  - apply (inv_tbl_same c); auto. intros j. inst_cases j i; auto.
  - assert (H0 : inv_tbl (pre404 c r eR)).
    { destruct (pre404_frame c r eR) as (Ei & En & Et & _ & _ & _ & _ & _ & Ex & Es & _). constructor; rewrite ?Ei, ?En, ?Et, ?Ex, ?Es; auto. }
    ustep_cases Hu; try destruct (r_init r0); (apply (inv_tbl_same (pre404 c r eR)); auto; intros j; inst_cases j i; auto).
  - apply (inv_tbl_same c); auto. intros j. inst_cases j i; auto.
  - apply (inv_tbl_marked c i t); auto. exists false. reflexivity.
  - apply (inv_tbl_marked c i (r_topic r)); auto; [|exists true; reflexivity]. intros t0 Hne. cfg_simpl. unfold upd. destruct (Nat.eqb_spec t0 (r_topic r)); [contradiction|reflexivity].
  - constructor; auto. cfg_simpl. unfold upd. intros t0 j E1. destruct (Nat.eqb_spec t0 (r_topic r)); subst; [congruence|eauto].
  - destruct (in_take_first _ _ _ _ _ E) as [Hin Hsub]. destruct (X _ Hin) as (_ & Hdel). apply (inv_tbl_phase c i PDead); auto.
Qed.

Lemma inv_tbl_reach : forall st ow us c, reach st ow us c -> inv_tbl c.
Proof. induction 1; [apply inv_tbl_init|eapply inv_tbl_step; eauto]. Qed.

(* no session is ever attached to a topic whose row is gone: registerSession never accepts *)
Lemma deleted_never_attached : forall st ow us c i ok c',
  reach st ow us c -> c_store c (i_name (c_inst c i)) = false -> c_table c (i_name (c_inst c i)) = Some i ->
  step c (TopicReg i ok) c' -> i_sessions (c_inst c' i) = i_sessions (c_inst c i).
Proof.
  intros st ow us c i ok c' Hr Hst Et Hs.
  destruct (inv_tbl_reach _ _ _ _ Hr) as [L R X].
  unfold step in Hs. simpl in Hs.
  destruct (i_phase (c_inst c i)) eqn:Ep; simpl in Hs; try discriminate.
  rewrite (R _ _ Et Ep) in Hst. discriminate.
Qed.
