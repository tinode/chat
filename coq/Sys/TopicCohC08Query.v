(* C08: query answers read only what coherence covers: two caches that agree (and have the
   same sessions attached) give the same answers; hence a reload is invisible. *)
From Coq Require Import ZArith NArith List Bool Lia.
From Tinode Require Import Base.Util Pure.Acs Sys.Topic Sys.TopicTac Sys.TopicFrame Sys.TopicNum Sys.TopicNumThm
  Sys.TopicCohC08 Sys.TopicCohC08Proofs Sys.TopicCohC08Step Sys.TopicCohC08Run.
Import ListNotations.
Open Scope Z_scope.

Lemma agree_mode c d u : cache_agree c d -> user_mode c u = user_mode d u.
Proof.
  intros [_ [_ [_ [_ [_ P]]]]]. specialize (P u). unfold user_mode, get_pud, pud_mode.
  destruct (alookup u (c_users c)) as [p|], (alookup u (c_users d)) as [q|]; cbn in P; try discriminate; [|reflexivity].
  unfold core in P. inv P. congruence.
Qed.

Section Query.
Variable dr : Z -> list (Z * Z) -> option (list (Z * Z)).
Variable nr : list (Z * Z) -> list (Z * Z).
Variable sm : sessmap.

Lemma query_agree f s c d n q :
  cache_agree c d -> c_sess c = c_sess d -> is_query q = true ->
  snd (step dr nr sm f (mkState s (Some c) n) q) = snd (step dr nr sm f (mkState s (Some d) n) q).
Proof.
  intros A ES Q. pose proof A as [E1 [E2 [E3 [E4 [E5 P]]]]].
  assert (forall sid, attached c sid = attached d sid) as EA by (intros sid; unfold attached; rewrite ES; reflexivity).
  destruct q; try discriminate Q; unfold step; cbn [st ca]; rewrite <- (EA sid).
  - (* get data *)
    destruct (attached c sid); cbn -[get_data]; [|reflexivity].
    unfold get_data. rewrite <- (agree_mode c d _ A). repeat break_match; reflexivity.
  - (* get desc *)
    destruct (attached c sid); cbn -[get_desc offline_get_desc]; [|reflexivity].
    unfold get_desc. specialize (P (sess_uid sm sid)).
    destruct (alookup (sess_uid sm sid) (c_users c)) as [p|], (alookup (sess_uid sm sid) (c_users d)) as [q|]; cbn in P; try discriminate; [|reflexivity].
    unfold core in P. injection P as Hw Hg Hr Hc Hd. unfold pud_mode.
    rewrite Hw, Hg, Hr, Hc, Hd, E1, E2. destruct (is_reader _); reflexivity.
  - (* get sub *)
    destruct (attached c sid); cbn -[get_sub offline_get_sub]; [|reflexivity].
    unfold get_sub. rewrite <- (agree_mode c d _ A). repeat break_match; reflexivity.
  - (* get del *)
    destruct (attached c sid); cbn -[get_del]; [|reflexivity].
    unfold get_del. rewrite <- (agree_mode c d _ A). repeat break_match; reflexivity.
Qed.

Lemma reload_invisible f x q :
  inv x -> is_query q = true -> answer dr nr sm f x q = answer dr nr sm f (reload x) q.
Proof.
  intros IV Q. unfold answer, reload. destruct x as [s [c|] n]; cbn [ca st ncalls]; [|reflexivity].
  apply query_agree; [|reflexivity|exact Q].
  pose proof (inv_coherent _ IV) as CO. unfold coherent in CO. cbn [ca st] in CO.
  destruct CO as [E1 [E2 [E3 [E4 [E5 P]]]]]. unfold cache_agree, reload_cache, load in *.
  cbn [c_lastid c_delid c_owner c_auth c_anon c_users] in *. repeat split; assumption.
Qed.

End Query.
