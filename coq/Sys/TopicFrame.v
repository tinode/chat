(* Which parts of the store and of the cache each handler of the topic model can
   change, and the few forms the result of each handler, and of one request, can
   take.  Everything else in the proofs builds on these. *)
From Coq Require Import ZArith NArith List Bool Lia.
From Tinode Require Import Base.Util Pure.Acs Sys.Topic Sys.TopicTac.
Import ListNotations.
Open Scope Z_scope.

(* store: the permission handlers touch only subscription rows, the owner column
   and (on unsubscribe) the user's own deletion-log rows *)
Definition sframe (s s' : store) : Prop :=
  t_exists s' = t_exists s /\ t_seqid s' = t_seqid s /\ t_delid s' = t_delid s /\
  t_auth s' = t_auth s /\ t_anon s' = t_anon s /\ msgs s' = msgs s /\ users s' = users s.
(* cache: counters and defaults untouched *)
Definition cframe (c c' : cache) : Prop :=
  c_lastid c' = c_lastid c /\ c_delid c' = c_delid c /\ c_auth c' = c_auth c /\ c_anon c' = c_anon c.

Lemma sframe_refl s : sframe s s. Proof. repeat split. Qed.
Lemma cframe_refl c : cframe c c. Proof. repeat split. Qed.
Lemma sframe_trans a b c : sframe a b -> sframe b c -> sframe a c.
Proof. unfold sframe; intuition congruence. Qed.
Lemma cframe_trans a b c : cframe a b -> cframe b c -> cframe a c.
Proof. unfold cframe; intuition congruence. Qed.

Lemma sframe_subs f s : sframe s (st_subs f s). Proof. repeat split. Qed.
Lemma sframe_owner v s : sframe s (st_owner v s). Proof. repeat split. Qed.
Lemma sframe_dellog f s : sframe s (st_dellog f s). Proof. repeat split. Qed.
Lemma sframe_sub_create s u w g : sframe s (ad_sub_create s u w g).
Proof. unfold ad_sub_create. repeat break_match; repeat split. Qed.
Lemma sframe_subs_update s u up : sframe s (ad_subs_update s u up).
Proof. unfold ad_subs_update. break_match; repeat split. Qed.
Lemma sframe_subs_delete s u s' : ad_subs_delete s u = Some s' -> sframe s s'.
Proof. unfold ad_subs_delete. break_match; intros H; inv H. repeat split. Qed.

Lemma cframe_users f c : cframe c (c_set_users f c). Proof. repeat split. Qed.
Lemma cframe_sess f c : cframe c (c_set_sess f c). Proof. repeat split. Qed.
Lemma cframe_owner v c : cframe c (c_set_owner v c). Proof. repeat split. Qed.

Lemma evict_frame c u b k c' o : evict_user c u b k = (c', o) -> cframe c c'.
Proof. unfold evict_user. intros H. inv H. repeat break_match; repeat split. Qed.

#[export] Hint Resolve sframe_refl cframe_refl sframe_subs sframe_owner sframe_dellog sframe_sub_create
  sframe_subs_update cframe_users cframe_sess cframe_owner : frame.

Definition hframe (s : store) (c : cache) (h : hres) : Prop := sframe s (h_st h) /\ cframe c (h_ca h).

(* thisUserSub and anotherUserSub are described once, by the few forms their result can take
   with the modes they compute left open; what they preserve is proved on these forms. *)

(* the cache entry of [u] is in place; a user left without J loses his sessions *)
Definition settled (c : cache) (u : N) (c' : cache) (o : out) : Prop :=
  (c' = c /\ o = []) \/ evict_user c u false 0%N = (c', o).

(* Subs.Update of [u]'s own modes, skipped when neither changes: [s1] is the store after it,
   [(w, g)] are the new modes *)
Definition own_write (s : store) (u : N) (p0 : pud) (w g : N) (s1 : store) : Prop :=
  (s1 = s /\ w = p_want p0 /\ g = p_given p0) \/
  exists ow og, s1 = ad_subs_update s u (mkUpd ow og None None None) /\
    w = match ow with Some v => v | None => p_want p0 end /\
    g = match og with Some v => v | None => p_given p0 end.

(* [u], whose given mode has O, asks for O in his want: thisUserSub moves the ownership to him *)
Definition takes_over (c : cache) (u : N) (want : list N) (p0 : pud) : Prop :=
  alookup u (c_users c) = Some p0 /\
  exists mw, match want with [] => (ModeUnset, true) | _ => unmarshal_text ModeUnset want end = (mw, true) /\
    (mw =? ModeUnset)%N = false /\ is_owner (p_given p0) = true /\ is_owner mw = true /\ is_owner (p_want p0) = false.
(* the previous owner loses O, in the store and in the cache *)
Definition strip_owner (c : cache) : subupd :=
  mkUpd (Some (N.ldiff (p_want (get_pud c (c_owner c))) mO)) (Some (N.ldiff (p_given (get_pud c (c_owner c))) mO)) None None None.
Definition disown (u : N) (c : cache) : cache :=
  c_set_owner u (c_set_users (aset (c_owner c) (p_set_modes (N.ldiff (p_want (get_pud c (c_owner c))) mO)
                                                            (N.ldiff (p_given (get_pud c (c_owner c))) mO)
                                                            (get_pud c (c_owner c)))) c).

Inductive tus_spec (f : fault) (s : store) (c : cache) (u : N) (want : list N) : hres -> sub_res -> Prop :=
| tus_rejected n' code : code <> 202 ->
    tus_spec f s c u want (mkH s c n' []) (SubErr code)
(* a live row that the cache does not know is left as it is *)
| tus_created w g s' c' n' o ch :
    alookup u (c_users c) = None ->
    s' = ad_sub_create s u w g \/ (s' = s /\ exists r, ad_sub_get s u true = Some r /\ s_deleted r = false) ->
    settled (c_set_users (aset u (mkPud w g 0 0 0 0)) c) u c' o ->
    Z.of_nat (length (c_users c)) < max_subs -> is_joiner g = true ->
    ch = Some (w, g) \/ (ch = None /\ w = 0%N /\ g = 0%N) ->
    tus_spec f s c u want (mkH s' c' n' o) (SubOk ch)
| tus_updated p0 w g s1 c' n' o r :
    alookup u (c_users c) = Some p0 ->
    own_write s u p0 w g s1 ->
    settled (c_set_users (aset u (p_set_modes w g (get_pud c u))) c) u c' o ->
    r = SubErr 403 \/ (exists ch, r = SubOk ch) ->
    (forall ch, r = SubOk ch -> ch = Some (w, g) \/ (ch = None /\ w = p_want p0 /\ g = p_given p0)) ->
    tus_spec f s c u want (mkH s1 c' n' o) r
| tus_transferred p0 w g s1 c' n' o r :
    takes_over c u want p0 ->
    own_write s u p0 w g s1 ->
    settled (c_set_users (aset u (p_set_modes w g (get_pud (disown u c) u))) (disown u c)) u c' o ->
    r = SubErr 403 \/ (exists ch, r = SubOk ch) ->
    (forall ch, r = SubOk ch -> ch = Some (w, g) \/ (ch = None /\ w = p_want p0 /\ g = p_given p0)) ->
    tus_spec f s c u want (mkH (st_owner u (ad_subs_update s1 (c_owner c) (strip_owner c))) c' n' o) r
(* a store call of the transfer failed: the writes made so far stay, the cache is as it was,
   nothing is sent *)
| tus_transfer_failed p0 w g s1 s' n' :
    takes_over c u want p0 -> f <> NoFault ->
    own_write s u p0 w g s1 ->
    s' = s1 \/ s' = ad_subs_update s1 (c_owner c) (strip_owner c) ->
    tus_spec f s c u want (mkH s' c n' []) (SubErr 0).

(* modeChanged is nil only when nothing changed *)
Lemma sub_change (b : bool) (w g w0 g0 : N) ch :
  SubOk (if b || negb ((w =? w0)%N && (g =? g0)%N) then Some (w, g) else None) = SubOk ch ->
  ch = Some (w, g) \/ (ch = None /\ w = w0 /\ g = g0).
Proof.
  intros E. injection E as <-. destruct b; cbn [orb]; auto.
  destruct (w =? w0)%N eqn:E1; destruct (g =? g0)%N eqn:E2; cbn; auto.
  apply N.eqb_eq in E1, E2. auto.
Qed.
Lemma call_failed f n n' : call f n = (false, n') -> f <> NoFault.
Proof. unfold call. intros H E. subst f. discriminate. Qed.

Lemma tus_shape f s c n sid u want nb :
  tus_spec f s c u want (fst (this_user_sub f s c n sid u want nb)) (snd (this_user_sub f s c n sid u want nb)).
Proof.
  unfold this_user_sub.
  destruct (match want with [] => _ | _ => _ end) as [mw okw] eqn:UW.
  destruct okw; cbn [negb]; [|constructor; lia].
  destruct (alookup u (c_users c)) as [p0|] eqn:L.
  - destruct (if (mw =? ModeUnset)%N then _ else _) as [[[mw1 g1] oc]|] eqn:CHK; [|constructor; lia].
    assert (oc = true -> takes_over c u want p0) as TO.
    { intros ->. split; [exact L|]. exists mw. split; [exact UW|]. revert CHK.
      destruct (mw =? ModeUnset)%N; [discriminate|].
      destruct (_ && (_ || _)); [discriminate|].
      destruct (is_owner (p_given p0)).
      - intros H. injection H as _ _ H. apply andb_true_iff in H. destruct H as [H1 H2].
        apply negb_true_iff in H2. auto.
      - destruct (is_owner mw); [discriminate|]. destruct (_ && _); discriminate. }
    (* from here on the modes are opaque *)
    clear CHK. set (w1 := if (mw1 =? ModeUnset)%N then _ else _). clearbody w1.
    set (s1 := if negb _ then ad_subs_update s u _ else s).
    assert (own_write s u p0 w1 g1 s1) as OW.
    { subst s1. destruct (w1 =? p_want p0)%N eqn:E1; destruct (g1 =? p_given p0)%N eqn:E2; cbn [andb negb];
        try apply N.eqb_eq in E1; try apply N.eqb_eq in E2.
      - left. auto.
      - right. exists None, (Some g1). auto.
      - right. exists (Some w1), None. auto.
      - right. exists (Some w1), (Some g1). auto. }
    clearbody s1.
    destruct (if negb _ then call f n else (true, n)) as [[|] n1]; cbn [negb]; [|constructor; lia].
    destruct oc.
    + specialize (TO eq_refl).
      destruct (call f n1) as [[|] n2] eqn:C2; cbn [negb].
      * destruct (call f n2) as [[|] n3] eqn:C3; cbn [negb].
        -- destruct (negb (is_joiner w1)); [destruct (evict_user _ _ _ _) as [c5 o5] eqn:EV|destruct (negb (is_joiner g1))];
             cbn [fst snd]; apply (tus_transferred f s c u want p0 w1 g1 s1); eauto using sub_change; try discriminate;
             (right; exact EV) || (left; auto).
        -- apply (tus_transfer_failed f s c u want p0 w1 g1 s1); auto. apply (call_failed _ _ _ C3).
      * apply (tus_transfer_failed f s c u want p0 w1 g1 s1); auto. apply (call_failed _ _ _ C2).
    + destruct (negb (is_joiner w1)); [destruct (evict_user _ _ _ _) as [c5 o5] eqn:EV|destruct (negb (is_joiner g1))];
        cbn [fst snd]; apply (tus_updated f s c u want p0 w1 g1 s1); eauto using sub_change; try discriminate;
        (right; exact EV) || (left; auto).
  - destruct (max_subs <=? _) eqn:LIM; [constructor; lia|]. apply Z.leb_gt in LIM.
    destruct (call f n) as [[|] n1]; cbn [negb]; [|constructor; lia].
    destruct (negb (is_joiner _)) eqn:JG; [constructor; lia|]. apply negb_false_iff in JG.
    destruct (ad_sub_get s u true) as [r|] eqn:G; [destruct (s_deleted r) eqn:D|]; cbn [negb].
    1, 3: destruct (call f n1) as [[|] n2]; cbn [negb]; [|constructor; lia].
    all: destruct (negb (is_joiner _)); [destruct (evict_user _ _ _ _) as [c3 o3] eqn:EV|]; cbn [fst snd];
      (eapply tus_created; [exact L|first [left; reflexivity|right; eauto]| |exact LIM|exact JG|exact (sub_change _ _ _ _ _ _ eq_refl)]);
      (right; exact EV) || (left; auto).
Qed.

(* [u] sets the given mode of [target] *)
Inductive aus_spec (s : store) (c : cache) (target : N) : hres -> sub_res -> Prop :=
| aus_rejected n' code : code <> 202 ->
    aus_spec s c target (mkH s c n' []) (SubErr code)
| aus_invited w g c' n' o :
    alookup target (c_users c) = None ->
    settled (c_set_users (aset target (mkPud w g 0 0 0 0)) c) target c' o ->
    Z.of_nat (length (c_users c)) < max_subs ->
    aus_spec s c target (mkH (ad_sub_create s target w g) c' n' o) (SubOk (Some (w, g)))
| aus_unchanged c' n' o :
    settled c target c' o -> alookup target (c_users c) <> None ->
    aus_spec s c target (mkH s c' n' o) (SubOk None)
| aus_regranted pt g c' n' o :
    alookup target (c_users c) = Some pt ->
    settled (c_set_users (aset target (p_set_modes (p_want pt) g pt)) c) target c' o ->
    aus_spec s c target (mkH (ad_subs_update s target (mkUpd None (Some g) None None None)) c' n' o)
             (SubOk (Some (p_want pt, g))).

Lemma aus_shape f s c n sid u target mode :
  aus_spec s c target (fst (another_user_sub f s c n sid u target mode)) (snd (another_user_sub f s c n sid u target mode)).
Proof.
  unfold another_user_sub.
  destruct (alookup u (c_users c)) as [ph|]; [|constructor; lia].
  destruct (negb (is_sharer _)); [constructor; lia|].
  destruct (match mode with [] => _ | _ => _ end) as [mg okg].
  destruct (negb okg); [constructor; lia|].
  destruct (negb _ && negb _); [constructor; lia|].
  destruct (is_owner mg && _); [constructor; lia|].
  destruct (alookup target (c_users c)) as [pt|] eqn:L.
  - destruct ((mg =? ModeUnset)%N || _).
    + destruct (negb _); [destruct (evict_user _ _ _ _) as [c4 o4] eqn:EV|]; cbn [fst snd];
        (apply aus_unchanged; [|rewrite L; discriminate]); (right; exact EV) || (left; auto).
    + destruct (_ && (_ || _)); [constructor; lia|].
      destruct (call f n) as [[|] n1]; cbn [negb]; [|constructor; lia].
      destruct (negb _); [destruct (evict_user _ _ _ _) as [c4 o4] eqn:EV|]; cbn [fst snd];
        apply aus_regranted; auto; (right; exact EV) || (left; auto).
  - destruct (max_subs <=? _) eqn:LIM; [constructor; lia|]. apply Z.leb_gt in LIM.
    destruct (call f n) as [[|] n1]; cbn [negb]; [|constructor; lia].
    (* the target's want comes from his old row, or from his account's default access *)
    destruct (ad_sub_get s target true) as [r|];
      [|destruct (call f n1) as [[|] n2]; cbn [negb]; [destruct (alookup target (users s))|]];
      try (constructor; lia).
    all: destruct (negb (is_joiner _)); [constructor; lia|].
    all: destruct (call f _) as [[|] n3]; cbn [negb]; [|constructor; lia].
    all: destruct (negb _); [destruct (evict_user _ _ _ _) as [c4 o4] eqn:EV|]; cbn [fst snd];
      apply aus_invited; auto; (right; exact EV) || (left; auto).
Qed.

(* replyDelSub and replyLeaveUnsub: user [v] is unsubscribed, or nothing happens.  Subs.Delete
   missing the row does not stop replyDelSub. *)
Inductive unsub_spec (s : store) (c : cache) (sid v : N) : hres -> Prop :=
| unsub_refused n' code : code <> 202 ->
    unsub_spec s c sid v (mkH s c n' [(sid, Ctrl code [])])
| unsub_done s1 c1 n' code o1 k : code <> 202 ->
    ad_subs_delete s v = Some s1 \/ (ad_subs_delete s v = None /\ s1 = s /\ alookup v (c_users c) <> None) ->
    evict_user c v true k = (c1, o1) ->
    unsub_spec s c sid v (mkH s1 c1 n' ((sid, Ctrl code []) :: o1)).

Lemma del_sub_shape f s c n sid u target : unsub_spec s c sid target (del_sub f s c n sid u target).
Proof.
  unfold del_sub.
  destruct (negb (is_admin _)); [constructor; lia|].
  destruct (_ || _); [constructor; lia|].
  destruct (alookup target (c_users c)) as [pt|] eqn:L; [|constructor; lia].
  destruct (is_owner _); [constructor; lia|].
  destruct (negb (is_joiner _)); [constructor; lia|].
  destruct (call f n) as [[|] n1]; cbn [negb]; [|constructor; lia].
  destruct (evict_user c target true 0%N) as [c1 o1] eqn:EV.
  destruct (ad_subs_delete s target) as [s1|] eqn:D; apply (unsub_done _ _ _ _ _ _ _ _ _ 0%N); auto; try lia.
  right. rewrite L. split; [exact D|]. split; [reflexivity|discriminate].
Qed.
Lemma leave_unsub_shape f s c n sid u : unsub_spec s c sid u (leave_unsub f s c n sid u).
Proof.
  unfold leave_unsub.
  destruct (N.eqb (c_owner c) u); [constructor; lia|].
  destruct (call f n) as [[|] n1]; cbn [negb]; [|constructor; lia].
  destruct (ad_subs_delete s u) as [s1|] eqn:D; [|constructor; lia].
  destruct (evict_user c u true sid) as [c1 o1] eqn:EV.
  apply (unsub_done _ _ _ _ _ _ _ _ _ sid); auto. lia.
Qed.

(* the owner's {leave unsub} is refused *)
Lemma leave_unsub_owner f s c n sid : leave_unsub f s c n sid (c_owner c) = mkH s c n [(sid, Ctrl 403 [])].
Proof. unfold leave_unsub. rewrite N.eqb_refl. reflexivity. Qed.

Lemma settled_frame c u c' o : settled c u c' o -> cframe c c'.
Proof. intros [[-> _]|E]; [apply cframe_refl|exact (evict_frame _ _ _ _ _ _ E)]. Qed.
Lemma own_write_frame s u p0 w g s1 : own_write s u p0 w g s1 -> sframe s s1.
Proof. intros [[-> _]|[ow [og [-> _]]]]; auto with frame. Qed.

(* [cframe] reads fields that [c_set_users], [c_set_sess] and [c_set_owner] leave in place *)
Lemma tus_frame f s c u want h r : tus_spec f s c u want h r -> hframe s c h.
Proof.
  intros [n' code _|w g s' c' n' o ch _ S' ST|p0 w g s1 c' n' o r' _ OW ST _
         |p0 w g s1 c' n' o r' _ OW ST _|p0 w g s1 s' n' _ _ OW S'];
    try apply settled_frame in ST; try apply own_write_frame in OW; split; cbn [h_st h_ca];
    try exact ST; auto with frame.
  - destruct S' as [->|[-> _]]; auto with frame.
  - eapply sframe_trans; [exact OW|]. eapply sframe_trans; [apply sframe_subs_update|apply sframe_owner].
  - destruct S' as [->| ->]; [exact OW|]. eapply sframe_trans; [exact OW|apply sframe_subs_update].
Qed.

Lemma aus_frame s c target h r : aus_spec s c target h r -> hframe s c h.
Proof.
  intros [n' code _|w g c' n' o _ ST|c' n' o ST|pt g c' n' o _ ST];
    try apply settled_frame in ST; split; cbn [h_st h_ca]; try exact ST; auto with frame.
Qed.

Lemma note_frame f s c n sid u what seq : hframe s c (note f s c n sid u what seq).
Proof. unfold note. repeat break_match; split; cbn [h_st h_ca]; auto with frame. Qed.

(* the query handlers change nothing *)
Lemma get_data_same f s c n sid u a b l : h_st (get_data f s c n sid u a b l) = s /\ h_ca (get_data f s c n sid u a b l) = c.
Proof. unfold get_data. repeat break_match; split; reflexivity. Qed.
Lemma get_desc_same s c n sid u : h_st (get_desc s c n sid u) = s /\ h_ca (get_desc s c n sid u) = c.
Proof. unfold get_desc. repeat break_match; split; reflexivity. Qed.
Lemma get_sub_same f s c n sid u : h_st (get_sub f s c n sid u) = s /\ h_ca (get_sub f s c n sid u) = c.
Proof. unfold get_sub. repeat break_match; split; reflexivity. Qed.
Lemma get_del_same nr f s c n sid u a b l : h_st (get_del nr f s c n sid u a b l) = s /\ h_ca (get_del nr f s c n sid u a b l) = c.
Proof. unfold get_del. repeat break_match; split; reflexivity. Qed.

Lemma hframe_same s c h : h_st h = s /\ h_ca h = c -> hframe s c h.
Proof. intros [E1 E2]. unfold hframe. rewrite E1, E2. auto with frame. Qed.
Lemma unsub_frame s c sid v h : unsub_spec s c sid v h -> hframe s c h.
Proof.
  intros [n' code _|s1 c1 n' code o1 k _ D EV]; split; cbn [h_st h_ca]; auto with frame.
  - destruct D as [D|[_ [-> _]]]; [exact (sframe_subs_delete _ _ _ D)|apply sframe_refl].
  - exact (evict_frame _ _ _ _ _ _ EV).
Qed.
Lemma del_sub_frame f s c n sid u t : hframe s c (del_sub f s c n sid u t).
Proof. exact (unsub_frame _ _ _ _ _ (del_sub_shape f s c n sid u t)). Qed.
Lemma leave_unsub_frame f s c n sid u : hframe s c (leave_unsub f s c n sid u).
Proof. exact (unsub_frame _ _ _ _ _ (leave_unsub_shape f s c n sid u)). Qed.
Lemma leave_frame c sid u : cframe c (fst (leave c sid u)).
Proof. unfold leave. repeat break_match; repeat split. Qed.

(* publish: refused or failed before the message row is stored: at most the persisted high-water mark has
   moved; or the message got lastID+1, the publisher's marks follow (a writer has an entry) and,
   for a reader, his stored marks as well unless that call failed *)
Inductive pub_spec (s : store) (c : cache) (sid u content : N) (noecho : bool) : hres -> Prop :=
| pub_refused s' n' code : 400 <= code -> s' = s \/ s' = st_seqid (c_lastid c + 1) s ->
    pub_spec s c sid u content noecho (mkH s' c n' [(sid, Ctrl code [])])
| pub_accepted s' n' :
    is_writer (pud_mode (get_pud c u)) = true -> alookup u (c_users c) <> None ->
    ~ In (c_lastid c + 1) (seqs s) ->
    s' = st_msgs (fun l => l ++ [mkMsg (c_lastid c + 1) u content 0]) (st_seqid (c_lastid c + 1) s) \/
    s' = ad_subs_update (st_msgs (fun l => l ++ [mkMsg (c_lastid c + 1) u content 0]) (st_seqid (c_lastid c + 1) s)) u
           (mkUpd None None (Some (c_lastid c + 1)) (Some (c_lastid c + 1)) None) ->
    pub_spec s c sid u content noecho
      (let c' := c_set_users (aset u (p_set_marks (c_lastid c + 1) (c_lastid c + 1) (get_pud c u))) (c_set_lastid (c_lastid c + 1) c) in
       mkH s' c' n' ((sid, Ctrl 202 [(P_seq, c_lastid c + 1)]) ::
                     fanout_data c' (if noecho then sid else 0%N) (Data (c_lastid c + 1) u content) ++ push_out c' (c_lastid c + 1) u)).

Lemma publish_shape f s c n sid u content noecho :
  pub_spec s c sid u content noecho (publish f s c n sid u content noecho).
Proof.
  unfold publish.
  destruct (negb (is_writer _)) eqn:W; [apply pub_refused; [lia|auto]|]. apply negb_false_iff in W.
  destruct (call f n) as [[|] n1]; cbn [negb]; [|apply pub_refused; [lia|auto]].
  destruct (call f n1) as [[|] n2]; cbn [negb]; [|apply pub_refused; [lia|auto]].
  destruct (ad_msg_save _ _ _ _) as [s2|] eqn:SV; [|apply pub_refused; [lia|auto]].
  destruct (msg_save_some _ _ _ _ _ SV) as [NI ->]. change (~ In (c_lastid c + 1) (seqs s)) in NI.
  destruct (alookup u (c_users c)) as [p|] eqn:L; [|unfold get_pud in W; rewrite L in W; discriminate W].
  pose proof (pub_accepted s c sid u content noecho) as A. unfold get_pud in *. rewrite L in *.
  destruct (is_reader _); [destruct (call f n2) as [[|] n3]|]; cbn [andb]; apply A; auto; discriminate.
Qed.

(* {sub} and {set sub} run thisUserSub / anotherUserSub and append the reply *)
Definition sub_tail (sid who : N) (unchanged : frame) (r : sub_res) : out :=
  match r with
  | SubErr code => if code =? 0 then [] else [(sid, Ctrl code [])]
  | SubOk ch => [(sid, match ch with Some (w, g) => CtrlAcs 200 who w g | None => unchanged end)]
  end.
(* the session joins the topic; a foreground session counts as online *)
Definition attach (sid u : N) (bkg : bool) (c : cache) : cache :=
  let c' := c_set_sess (aset sid (u, bkg)) c in
  if bkg then c' else c_set_users (aset u (p_set_online (p_online (get_pud c' u) + 1) (get_pud c' u))) c'.

Lemma sub_reply_shape f s c n sid u want bkg : exists h r,
  tus_spec f s c u want h r /\
  h_st (sub_reply f s c n sid u want bkg) = h_st h /\
  h_out (sub_reply f s c n sid u want bkg) = h_out h ++ sub_tail sid 0%N (Ctrl 200 []) r /\
  (h_ca (sub_reply f s c n sid u want bkg) = h_ca h \/
   (exists ch, r = SubOk ch) /\ h_ca (sub_reply f s c n sid u want bkg) = attach sid u bkg (h_ca h)).
Proof.
  unfold sub_reply.
  pose proof (tus_shape f s c n sid u want (match alookup u (c_users c) with Some _ => false | None => true end)) as SP.
  destruct (this_user_sub f s c n sid u want _) as [h r]. exists h, r. split; [exact SP|].
  destruct r as [code|ch]; cbn [h_st h_ca h_out sub_tail]; auto.
  destruct (match ch with Some (w, g) => is_joiner (N.land g w) | None => true end); eauto 6.
Qed.

Lemma set_sub_shape f s c n sid u target mode : exists h r,
  (((target =? 0)%N || N.eqb target u = true /\ tus_spec f s c u mode h r) \/ (target <> 0%N /\ aus_spec s c target h r)) /\
  h_st (set_sub f s c n sid u target mode) = h_st h /\ h_ca (set_sub f s c n sid u target mode) = h_ca h /\
  h_out (set_sub f s c n sid u target mode) =
    h_out h ++ sub_tail sid (if (target =? 0)%N || N.eqb target u then 0%N else target) (Ctrl 304 []) r.
Proof.
  unfold set_sub. destruct ((target =? 0)%N || N.eqb target u) eqn:SELF.
  - pose proof (tus_shape f s c n sid u mode false) as SP.
    destruct (this_user_sub f s c n sid u mode false) as [h r]. exists h, r. split; [left; auto|].
    destruct r as [code|ch]; cbn [h_st h_ca h_out sub_tail]; auto.
  - pose proof (aus_shape f s c n sid u target mode) as SP.
    destruct (another_user_sub f s c n sid u target mode) as [h r]. exists h, r.
    apply orb_false_iff in SELF. destruct SELF as [T0 _]. apply N.eqb_neq in T0. split; [right; auto|].
    destruct r as [code|ch]; cbn [h_st h_ca h_out sub_tail]; auto.
Qed.

Lemma sub_reply_frame f s c n sid u want bkg : hframe s c (sub_reply f s c n sid u want bkg).
Proof.
  destruct (sub_reply_shape f s c n sid u want bkg) as (h & r & SP & E1 & _ & E2).
  destruct (tus_frame _ _ _ _ _ _ _ SP) as [Hs Hc]. split; [rewrite E1; exact Hs|].
  destruct E2 as [->|[_ ->]]; [exact Hc|]. destruct bkg; exact Hc.
Qed.
Lemma set_sub_frame f s c n sid u target mode : hframe s c (set_sub f s c n sid u target mode).
Proof.
  destruct (set_sub_shape f s c n sid u target mode) as (h & r & SP & E1 & E2 & _). unfold hframe. rewrite E1, E2.
  destruct SP as [[_ SP]|[_ SP]]; [exact (tus_frame _ _ _ _ _ _ _ SP)|exact (aus_frame _ _ _ _ _ SP)].
Qed.

Lemma offline_get_desc_frame f s sid u : o_st (offline_get_desc f s sid u) = s.
Proof. unfold offline_get_desc. repeat break_match; reflexivity. Qed.
Lemma offline_get_sub_frame f s sid u : o_st (offline_get_sub f s sid u) = s.
Proof. unfold offline_get_sub. repeat break_match; reflexivity. Qed.
Lemma offline_set_sub_frame f s sid u t m : sframe s (o_st (offline_set_sub f s sid u t m)).
Proof. unfold offline_set_sub. repeat break_match; cbn [o_st]; auto with frame. Qed.

Section StepShape.
Variable dr : Z -> list (Z * Z) -> option (list (Z * Z)).
Variable nr : list (Z * Z) -> list (Z * Z).
Variable sm : sessmap.

(* the read-only requests *)
Inductive queried (f : fault) (s : store) (c : cache) : op -> hres -> Prop :=
| q_data sid a b l : queried f s c (OGetData sid a b l) (get_data f s c 0 sid (sess_uid sm sid) a b l)
| q_desc sid : queried f s c (OGetDesc sid) (get_desc s c 0 sid (sess_uid sm sid))
| q_sub sid : queried f s c (OGetSub sid) (get_sub f s c 0 sid (sess_uid sm sid))
| q_del sid a b l : queried f s c (OGetDel sid a b l) (get_del nr f s c 0 sid (sess_uid sm sid) a b l).
Lemma queried_same f s c o h : queried f s c o h -> h_st h = s /\ h_ca h = c.
Proof. intros []; [apply get_data_same|apply get_desc_same|apply get_sub_same|apply get_del_same]. Qed.

(* the handler of the loaded topic that serves a request of session [sid] *)
Inductive handled (f : fault) (s : store) (c : cache) : op -> hres -> Prop :=
| hd_sub sid want bkg n : attached c sid = false ->
    handled f s c (OSub sid want bkg) (sub_reply f s c n sid (sess_uid sm sid) want bkg)
| hd_leave_unsub sid a : handled f s c (OLeave sid true) (leave_unsub f s c 0 sid a)
| hd_leave sid a : handled f s c (OLeave sid false) (mkH s (fst (leave c sid a)) 0 (snd (leave c sid a)))
| hd_pub sid ct ne : attached c sid = true ->
    handled f s c (OPub sid ct ne) (publish f s c 0 sid (sess_uid sm sid) ct ne)
| hd_note sid what seq : handled f s c (ONote sid what seq) (note f s c 0 sid (sess_uid sm sid) what seq)
| hd_query o h : queried f s c o h -> handled f s c o h
| hd_del_msg sid req hard : handled f s c (ODelMsg sid req hard) (del_msg dr f s c 0 sid (sess_uid sm sid) req hard)
| hd_set_sub sid t m : attached c sid = true ->
    handled f s c (OSetSub sid t m) (set_sub f s c 0 sid (sess_uid sm sid) t m)
| hd_del_sub sid t : handled f s c (ODelSub sid t) (del_sub f s c 0 sid (sess_uid sm sid) t).

(* a request is served by a handler of the topic, loaded for a {sub} if need be; or refused with
   at most an error code; or answered by the hub from the store; or it drops the topic *)
Inductive step_spec (f : fault) (x : state) (o : op) : state * out -> Prop :=
| st_handled c h :
    ca x = Some c \/ (ca x = None /\ c = load (st x) /\ exists sid want bkg, o = OSub sid want bkg) ->
    handled f (st x) c o h ->
    step_spec f x o (mkState (h_st h) (Some (h_ca h)) (h_n h), h_out h)
| st_refused n' o' : o' = [] \/ (exists sid code, o' = [(sid, Ctrl code [])] /\ code <> 202) ->
    step_spec f x o (mkState (st x) (ca x) n', o')
| st_dropped : step_spec f x o (mkState (st x) None 0, [])
| st_off_desc sid : o = OGetDesc sid ->
    step_spec f x o (mkState (st x) (ca x) (o_n (offline_get_desc f (st x) sid (sess_uid sm sid))),
                     o_out (offline_get_desc f (st x) sid (sess_uid sm sid)))
| st_off_sub sid : o = OGetSub sid ->
    step_spec f x o (mkState (st x) (ca x) (o_n (offline_get_sub f (st x) sid (sess_uid sm sid))),
                     o_out (offline_get_sub f (st x) sid (sess_uid sm sid)))
| st_off_set sid t m : o = OSetSub sid t m -> (forall c, ca x = Some c -> attached c sid = false) ->
    step_spec f x o (mkState (o_st (offline_set_sub f (st x) sid (sess_uid sm sid) t m)) (ca x)
                             (o_n (offline_set_sub f (st x) sid (sess_uid sm sid) t m)),
                     o_out (offline_set_sub f (st x) sid (sess_uid sm sid) t m)).

Lemma step_shape f x o : step_spec f x o (step dr nr sm f x o).
Proof.
  assert (forall n' sid code, code <> 202 -> step_spec f x o (mkState (st x) (ca x) n', [(sid, Ctrl code [])])) as RF
    by (intros; apply st_refused; eauto).
  assert (forall n', step_spec f x o (mkState (st x) (ca x) n', [])) as QT by (intros; apply st_refused; auto).
  destruct x as [s cx n0]. cbn [st ca] in *. destruct o; unfold step; cbn [st ca].
  (* publish, get data, get del, del msg, del sub: the handler if the session is attached, else an error *)
  3, 5, 8, 9, 11: destruct cx as [c|]; [destruct (attached c sid) eqn:AT|]; cbn [negb]; try (apply RF; lia);
    (apply (st_handled _ _ _ c); [auto|first [now constructor|now do 2 constructor]]).
  - destruct cx as [c|].
    + destruct (attached c sid) eqn:AT; [apply RF; lia|]. apply (st_handled _ _ _ c); [auto|]. now constructor.
    + unfold try_load. destruct (call f 0) as [[|] n1]; cbn [negb]; [|apply RF; lia].
      destruct (negb (t_exists s)); [apply RF; lia|].
      destruct (call f n1) as [[|] n2]; cbn [negb]; [|apply RF; lia].
      apply (st_handled _ _ _ (load s)); [right; eauto 6|]. now constructor.
  - destruct cx as [c|]; [destruct (attached c sid)|]; cbn [negb]; try (destruct unsub; apply RF; lia).
    destruct unsub; [apply (st_handled _ _ _ c); [auto|constructor]|].
    set (a := match alookup sid (c_sess c) with Some (a, _) => a | None => sess_uid sm sid end).
    pose proof (hd_leave f s c sid a) as HL. destruct (leave c sid a) as [c1 o1].
    cbn [fst snd] in HL. apply (st_handled f (mkState s (Some c) n0) _ c _ (or_introl eq_refl) HL).
  - destruct cx as [c|]; [destruct (attached c sid)|]; cbn [negb];
      repeat match goal with |- context [if ?b then _ else _] => destruct b end;
      try apply QT; try (apply RF; lia); (apply (st_handled _ _ _ c); [auto|constructor]).
  - destruct cx as [c|]; [destruct (attached c sid)|]; cbn [negb]; cbv zeta; rewrite ?offline_get_desc_frame; try now apply st_off_desc.
    apply (st_handled _ _ _ c); [auto|do 2 constructor].
  - destruct cx as [c|]; [destruct (attached c sid)|]; cbn [negb]; cbv zeta; rewrite ?offline_get_sub_frame; try now apply st_off_sub.
    apply (st_handled _ _ _ c); [auto|do 2 constructor].
  - destruct cx as [c|]; [destruct (attached c sid) eqn:AT|]; cbn [negb].
    + apply (st_handled _ _ _ c); [auto|]. now constructor.
    + apply st_off_set; [reflexivity|]. intros c0 E. now inv E.
    + apply st_off_set; [reflexivity|]. discriminate.
  - destruct cx as [c|]; [destruct (c_sess c)|]; try apply QT; apply st_dropped.
  - apply st_dropped.
Qed.

(* all handlers but publish and del_msg stay within the frame *)
Lemma handled_frame f s c o h : handled f s c o h ->
  hframe s c h \/ (exists sid ct ne, h = publish f s c 0 sid (sess_uid sm sid) ct ne) \/
  (exists sid req hard, h = del_msg dr f s c 0 sid (sess_uid sm sid) req hard).
Proof.
  intros []; eauto 6 using sub_reply_frame, leave_unsub_frame, note_frame, set_sub_frame, del_sub_frame.
  - left. split; [apply sframe_refl|apply leave_frame].
  - left. apply hframe_same. eapply queried_same. eassumption.
Qed.

(* an invariant of every request that survives the loss of the cache holds along every history *)
Lemma step_f_inv (I : state -> Prop) :
  (forall f x o, I x -> I (fst (step dr nr sm f x o))) ->
  (forall s c n, I (mkState s (Some c) n) -> I (mkState s None n)) ->
  forall x fo, I x -> I (fst (step_f dr nr sm x fo)).
Proof.
  intros HS HC x fo Ix. unfold step_f. specialize (HS (fst fo) x (snd fo) Ix).
  destruct (step dr nr sm (fst fo) x (snd fo)) as [[s1 [c1|] n1] o1]; destruct (fst fo); cbn [fst st ncalls] in *; eauto.
Qed.
Lemma run_inv (I : state -> Prop) :
  (forall x fo, I x -> I (fst (step_f dr nr sm x fo))) -> forall h x, I x -> I (fst (run dr nr sm x h)).
Proof.
  intros HS h. induction h as [|fo h IH]; intros x Ix; cbn [run fst]; [exact Ix|].
  specialize (HS x fo Ix). destruct (step_f dr nr sm x fo) as [x1 o1].
  specialize (IH x1 HS). destruct (run dr nr sm x1 h) as [x2 os]. exact IH.
Qed.
End StepShape.
