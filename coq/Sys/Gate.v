(* Model of the inter-node entry points of server/cluster.go and of the ring
   signature they carry (C17: "nodes whose rings differ refuse each other's
   topic traffic").  Definitions only.

   Entry points of the RPC service "Cluster" (cluster.go), and what they carry:
     Cluster.TopicMaster(ClusterReq)    Signature, compared with c.ring.Signature()
                                         after the unknown-node test and after the
                                         Gone branch, before anything else
     Cluster.Route(ClusterRoute)        Signature, compared first
     Cluster.TopicProxy(ClusterResp)    NO signature field: master -> proxy responses
                                         are not gated (modelled below as they are)
     Cluster.UserCacheUpdate(UserCacheReq)  NO signature field, `rejected` is never set;
                                         user cache / push traffic, not topic traffic: not modelled
     Cluster.Ping(ClusterPing)          no signature (restart detection): not modelled
     Cluster.Health / Cluster.Vote       election, Sys/Election.v
   Senders: makeClusterReq (routeToTopicMaster, topicProxyGone) and
   routeToTopicIntraCluster stamp c.ring.Signature() of the moment the request is
   made; the destination is nodeForTopic(topic).

   State of one node = what these functions read and write: the node list the
   current ring was built from (Cluster.rehash), c.nodes, the ids of the
   multiplexing sessions in globals.sessionStore, ClusterNode.msess, and the
   topics of globals.hub (existence, isChan, supd != nil, isProxy).

   Not modelled: the sess.terminating test of routeToTopicMaster and the "load exceeded"
   answer of proxyToMasterAsync (p2mSender full) - both only stop a request from being made;
   gcProxySessionsForNode; the asynchrony of the proxy event pool (the write loop that a stop
   message schedules is taken to run at once); Hub.rehash.  A topic is stored in the hub under
   its own name (Topic.name = key), as hub.go does.

   Strings are byte lists (Ring.str).  The ring is abstracted by two Section
   variables: [sigf ns] = Ring.Signature() and [getf ns key] = Ring.Get(key) of
   the ring Cluster.rehash builds from the node list [ns]; Sys/GateProofs.v
   (Section WithRing) instantiates them with Pure/Ring.v.  Nothing is assumed about them. *)
From Coq Require Import NArith ZArith List Bool.
From Tinode Require Import Pure.Ring.
Import ListNotations.

(* strings.HasPrefix *)
Fixpoint has_prefix (p s : str) : bool :=
  match p, s with
  | [], _ => true
  | _ :: _, [] => false
  | a :: p', b :: s' => (a =? b)%N && has_prefix p' s'
  end.
Definition s_grp : str := [103; 114; 112]%N.
Definition s_chn : str := [99; 104; 110]%N.
Definition dash : N := 45%N.
(* types.IsChannel *)
Definition is_channel (name : str) : bool := has_prefix s_chn name.
(* types.GrpToChn: strings.Replace(grp, "grp", "chn", 1) on a name that starts with "grp" *)
Definition grp_to_chn (g : str) : str :=
  if has_prefix s_grp g then s_chn ++ skipn 3 g
  else if has_prefix s_chn g then g
  else [].

Definition smem (x : str) (l : list str) : bool := existsb (seqb x) l.
Definition sremove (x : str) (l : list str) : list str := filter (fun y => negb (seqb x y)) l.

(* ProxyReqType *)
Definition ProxyReqJoin : Z := 1.
Definition ProxyReqLeave : Z := 2.
Definition ProxyReqMeta : Z := 3.
Definition ProxyReqBroadcast : Z := 4.
Definition ProxyReqBgSession : Z := 5.
Definition ProxyReqMeUserAgent : Z := 6.

(* the fields of Topic read here *)
Record tinfo := mkT { t_chan : bool; t_supd : bool; t_proxy : bool }.

Record nstate := mkN {
  n_this : str;                       (* c.thisNodeName *)
  n_peers : list str;                 (* keys of c.nodes *)
  n_ring : list str;                  (* ringKeys of the last c.rehash *)
  n_store : list str;                 (* globals.sessionStore: ids of the multiplexing sessions *)
  n_msess : list (str * str);         (* (peer, msid): c.nodes[peer].msess *)
  n_topics : list (str * tinfo)       (* globals.hub.topics *)
}.

Fixpoint tlookup (t : str) (l : list (str * tinfo)) : option tinfo :=
  match l with
  | [] => None
  | (k, v) :: l' => if seqb t k then Some v else tlookup t l'
  end.

(* ClusterReq *)
Record creq := mkReq {
  q_node : str; q_sig : str; q_type : Z; q_rcpt : str;
  q_cli : option str;                 (* CliMsg != nil: Some CliMsg.Original *)
  q_sess : bool;                      (* Sess != nil *)
  q_gone : bool
}.
(* ClusterRoute *)
Record croute := mkRoute { r_node : str; r_sig : str; r_srv : bool (* SrvMsg != nil *); r_sess : bool }.
(* ClusterResp *)
Record cresp := mkResp { p_rcpt : str; p_srv : bool (* SrvMsg != nil *) }.

(* where a message ended up *)
Inductive delivery := DJoin | DLeave | DMeta | DBroadcast | DSupdBg | DSupdUa | DRouteSrv | DProxy.

Inductive outcome :=
| OUnknownNode            (* TopicMaster: c.nodes[msg.Node] == nil; nothing happens, rejected = false *)
| OGone                   (* TopicMaster: Gone branch (tear down), rejected = false *)
| ORejectedSig            (* the gate: *rejected = true, return *)
| ODelivered (d : delivery)   (* handed to the hub / the topic; rejected = false *)
| OBusy500                (* join/meta queue full: {ctrl 500} queued to the originating session; rejected = false *)
| OBusyDropped            (* broadcast queue full: logged and dropped; rejected = false *)
| ONoTopic                (* leave/meta/session update/response for a topic the hub does not have; rejected = false *)
| ORejectedType           (* unknown request type: *rejected = true *)
| ORejectedNil            (* Route: nil server message, rejected = true *)
| ORejectedBusy           (* Route: hub.routeSrv full, rejected = true *)
| OBlocks                 (* TopicProxy on a topic whose proxy channel is nil: the send never completes *)
| OPanic.                 (* nil dereference / logs.Err.Panicln *)

Definition with_store (s : nstate) (st : list str) (ms : list (str * str)) : nstate :=
  mkN (n_this s) (n_peers s) (n_ring s) st ms (n_topics s).
Definition set_ring (s : nstate) (r : list str) : nstate :=
  mkN (n_this s) (n_peers s) r (n_store s) (n_msess s) (n_topics s).
Definition with_topics (s : nstate) (ts : list (str * tinfo)) : nstate :=
  mkN (n_this s) (n_peers s) (n_ring s) (n_store s) (n_msess s) ts.

(* ClusterNode.stopMultiplexingSession(globals.sessionStore.Get(msid)) followed by the
   clusterWriteLoop the stop message schedules (it takes the nil from sess.stop and
   deletes the session from the store): nothing when the session is not in the store *)
Definition stop_msess (s : nstate) (peer msid : str) : nstate :=
  if smem msid (n_store s) then
    with_store s (sremove msid (n_store s))
               (filter (fun pm => negb (seqb peer (fst pm) && seqb msid (snd pm))) (n_msess s))
  else s.

(* globals.sessionStore.NewSession(node, msid); node.msess[msid] = struct{}{} *)
Definition add_msess (s : nstate) (peer msid : str) : nstate :=
  with_store s (msid :: n_store s)
             (if existsb (fun pm => seqb peer (fst pm) && seqb msid (snd pm)) (n_msess s) then n_msess s
              else (peer, msid) :: n_msess s).

Section Gate.
  Variable sigf : list str -> str.
  Variable getf : list str -> str -> str.

  (* c.ring.Signature() *)
  Definition cur_sig (s : nstate) : str := sigf (n_ring s).

  (* Cluster.rehash(nodes): nil = every configured node (c.nodes in map order, then
     this node: a permutation, fixed here as peers ++ [this]); otherwise the list as given *)
  Definition rehash (s : nstate) (nodes : option (list str)) : nstate :=
    match nodes with
    | None => set_ring s (n_peers s ++ [n_this s])
    | Some l => set_ring s l
    end.

  (* msid := (channel request ? CliMsg.Original : RcptTo) + "-" + msg.Node *)
  Definition msid_of (m : creq) : str :=
    (match q_cli m with
     | Some orig => if is_channel orig then orig else q_rcpt m
     | None => q_rcpt m
     end) ++ dash :: q_node m.

  (* Cluster.TopicMaster.  [full]: the bounded queue the request would go to
     (hub.join, topic.meta, hub.routeCli) has no room. *)
  Definition topic_master (s : nstate) (m : creq) (full : bool) : nstate * outcome :=
    if negb (smem (q_node m) (n_peers s)) then (s, OUnknownNode)
    else
      let msid := msid_of m in
      if q_gone m then
        let s1 := stop_msess s (q_node m) msid in
        let s2 := match tlookup (q_rcpt m) (n_topics s) with
                  | Some ti => if t_chan ti
                               then stop_msess s1 (q_node m) (grp_to_chn (q_rcpt m) ++ dash :: q_node m)
                               else s1
                  | None => s1
                  end in
        (s2, OGone)
      else if negb (seqb (q_sig m) (cur_sig s)) then (s, ORejectedSig)
      else
        let s1 := if smem msid (n_store s) then s else add_msess s (q_node m) msid in
        let has_cli := match q_cli m with Some _ => true | None => false end in
        let topic := tlookup (q_rcpt m) (n_topics s) in
        if (q_type m =? ProxyReqJoin)%Z then
          if full then (s1, if has_cli && q_sess m then OBusy500 else OPanic)
          else (s1, ODelivered DJoin)
        else if (q_type m =? ProxyReqLeave)%Z then
          match topic with Some _ => (s1, ODelivered DLeave) | None => (s1, ONoTopic) end
        else if (q_type m =? ProxyReqMeta)%Z then
          match topic with
          | Some _ => if full then (s1, if has_cli && q_sess m then OBusy500 else OPanic)
                      else (s1, ODelivered DMeta)
          | None => (s1, ONoTopic)
          end
        else if (q_type m =? ProxyReqBroadcast)%Z then
          if full then (s1, OBusyDropped) else (s1, ODelivered DBroadcast)
        else if (q_type m =? ProxyReqBgSession)%Z then
          match topic with
          | Some ti => if t_supd ti then (s1, ODelivered DSupdBg) else (s1, OPanic)
          | None => (s1, ONoTopic)
          end
        else if (q_type m =? ProxyReqMeUserAgent)%Z then
          match topic with
          | Some ti => if t_supd ti then (if q_sess m then (s1, ODelivered DSupdUa) else (s1, OPanic))
                       else (s1, OPanic)
          | None => (s1, ONoTopic)
          end
        else (s1, ORejectedType).

  (* Cluster.Route.  [full]: hub.routeSrv has no room *)
  Definition route (s : nstate) (r : croute) (full : bool) : outcome :=
    if negb (seqb (r_sig r) (cur_sig s)) then ORejectedSig
    else if negb (r_srv r) then ORejectedNil
    else if full then ORejectedBusy
    else ODelivered DRouteSrv.

  (* Cluster.TopicProxy: no signature to compare *)
  Definition topic_proxy (s : nstate) (p : cresp) : outcome :=
    match tlookup (p_rcpt p) (n_topics s) with
    | Some ti => if negb (p_srv p) then OPanic
                 else if t_proxy ti then ODelivered DProxy else OBlocks
    | None => ONoTopic
    end.

  (* nodeForTopic: nil for this node itself and for a name that is not in c.nodes *)
  Definition node_for (s : nstate) (topic : str) : option str :=
    let key := getf (n_ring s) topic in
    if seqb key (n_this s) then None
    else if smem key (n_peers s) then Some key else None.

  (* makeClusterReq *)
  Definition make_req (s : nstate) (rt : Z) (topic : str) (cli : option str) (sess : bool) : creq :=
    mkReq (n_this s) (cur_sig s) rt topic cli sess false.

  (* ---------------- the cluster: several nodes and the messages between them ---------------- *)
  Inductive msg :=
  | MReq (to : str) (q : creq)
  | MRoute (to : str) (r : croute)
  | MResp (to : str) (p : cresp).

  (* a message in flight; the ghost [origin] = the node list of the sender's ring when an
     honest sender made it (None: a message that came from anywhere else) *)
  Record flying := mkF { f_msg : msg; f_origin : option (list str) }.

  Record net := mkNet { nodes : list nstate; flight : list flying }.

  Fixpoint find_node (i : str) (l : list nstate) : option nstate :=
    match l with
    | [] => None
    | s :: l' => if seqb i (n_this s) then Some s else find_node i l'
    end.
  Fixpoint set_node (s' : nstate) (l : list nstate) : list nstate :=
    match l with
    | [] => []
    | s :: l' => if seqb (n_this s') (n_this s) then s' :: l' else s :: set_node s' l'
    end.

  Inductive gevent :=
  | ERehash (i : str) (ns : option (list str))            (* c.rehash at node i *)
  | ETopicPut (i : str) (t : str) (ti : tinfo)            (* the hub of i gets a topic (environment) *)
  | ETopicDel (i : str) (t : str)
  | ESendMaster (i : str) (rt : Z) (topic : str) (cli : option str) (sess : bool)   (* routeToTopicMaster *)
  | ESendGone (i : str) (topic : str)                     (* topicProxyGone *)
  | ESendRoute (i : str) (topic : str) (srv sess : bool)  (* routeToTopicIntraCluster *)
  | EForge (m : msg)                                      (* any message whatsoever shows up on the wire *)
  | EDeliver (k : nat) (full : bool)                      (* the k-th message in flight reaches its entry point *)
  | EDrop (k : nat).

  Inductive obs :=
  | ObNone                                    (* the event is not enabled: nothing happens *)
  | ObRehashed (sg : str)                     (* signature after the rehash *)
  | ObSent (to : str) (sg : str)              (* a message was put on the wire *)
  | ObNoRoute                                 (* "node for topic not found" *)
  | ObDelivered (o : outcome) (msess : bool)  (* outcome; the request's multiplexing session is in the store afterwards *)
  | ObLost.                                   (* no such receiver *)

  Fixpoint gremove_nth {A} (k : nat) (l : list A) : list A :=
    match l, k with
    | [], _ => []
    | _ :: l', O => l'
    | a :: l', S k' => a :: gremove_nth k' l'
    end.

  Definition msg_to (m : msg) : str :=
    match m with MReq to _ => to | MRoute to _ => to | MResp to _ => to end.
  (* the signature a message carries, if it has the field at all *)
  Definition msg_sig (m : msg) : option str :=
    match m with MReq _ q => Some (q_sig q) | MRoute _ r => Some (r_sig r) | MResp _ _ => None end.

  Definition send (n : net) (s : nstate) (m : msg) : net :=
    mkNet (nodes n) (flight n ++ [mkF m (Some (n_ring s))]).

  Definition gstep (n : net) (e : gevent) : net * obs :=
    match e with
    | ERehash i ns =>
      match find_node i (nodes n) with
      | Some s => let s' := rehash s ns in (mkNet (set_node s' (nodes n)) (flight n), ObRehashed (cur_sig s'))
      | None => (n, ObNone)
      end
    | ETopicPut i t ti =>
      match find_node i (nodes n) with
      | Some s => (mkNet (set_node (with_topics s ((t, ti) :: filter (fun kv => negb (seqb t (fst kv))) (n_topics s)))
                                   (nodes n)) (flight n), ObNone)
      | None => (n, ObNone)
      end
    | ETopicDel i t =>
      match find_node i (nodes n) with
      | Some s => (mkNet (set_node (with_topics s (filter (fun kv => negb (seqb t (fst kv))) (n_topics s)))
                                   (nodes n)) (flight n), ObNone)
      | None => (n, ObNone)
      end
    | ESendMaster i rt topic cli sess =>
      match find_node i (nodes n) with
      | Some s =>
        match node_for s topic with
        | Some to => (send n s (MReq to (make_req s rt topic cli sess)), ObSent to (cur_sig s))
        | None => (n, ObNoRoute)
        end
      | None => (n, ObNone)
      end
    | ESendGone i topic =>
      match find_node i (nodes n) with
      | Some s =>
        match node_for s topic with
        | Some to =>
          let q := make_req s ProxyReqLeave topic None false in
          (send n s (MReq to (mkReq (q_node q) (q_sig q) (q_type q) (q_rcpt q) (q_cli q) (q_sess q) true)),
           ObSent to (cur_sig s))
        | None => (n, ObNoRoute)
        end
      | None => (n, ObNone)
      end
    | ESendRoute i topic srv sess =>
      match find_node i (nodes n) with
      | Some s =>
        match node_for s topic with
        | Some to => (send n s (MRoute to (mkRoute (n_this s) (cur_sig s) srv sess)), ObSent to (cur_sig s))
        | None => (n, ObNoRoute)
        end
      | None => (n, ObNone)
      end
    | EForge m => (mkNet (nodes n) (flight n ++ [mkF m None]), ObNone)
    | EDrop k => (mkNet (nodes n) (gremove_nth k (flight n)), ObNone)
    | EDeliver k full =>
      match nth_error (flight n) k with
      | None => (n, ObNone)
      | Some f =>
        let fl := gremove_nth k (flight n) in
        match find_node (msg_to (f_msg f)) (nodes n) with
        | None => (mkNet (nodes n) fl, ObLost)
        | Some s =>
          match f_msg f with
          | MReq _ q =>
            let '(s', o) := topic_master s q full in
            (mkNet (set_node s' (nodes n)) fl, ObDelivered o (smem (msid_of q) (n_store s')))
          | MRoute _ r => (mkNet (nodes n) fl, ObDelivered (route s r full) false)
          | MResp _ p => (mkNet (nodes n) fl, ObDelivered (topic_proxy s p) false)
          end
        end
      end
    end.

  Fixpoint grun (n : net) (evs : list gevent) : net * list obs :=
    match evs with
    | [] => (n, [])
    | e :: evs' =>
      let '(n1, o) := gstep n e in
      let '(n2, os) := grun n1 evs' in
      (n2, o :: os)
    end.

  (* a node as clusterInit leaves it: ring over all configured nodes, nothing else *)
  Definition init_node (this : str) (peers : list str) : nstate :=
    rehash (mkN this peers [] [] [] []) None.
  Definition init_net (names : list str) : net :=
    mkNet (map (fun x => init_node x (sremove x names)) names) [].
End Gate.

(* an outcome that lies behind the gate: the request was looked at, handed on or answered *)
Definition passed_gate (o : outcome) : bool :=
  match o with
  | ODelivered _ | OBusy500 | OBusyDropped | ONoTopic | ORejectedType | ORejectedNil | ORejectedBusy | OPanic | OBlocks => true
  | OUnknownNode | OGone | ORejectedSig => false
  end.
Definition is_delivered (o : outcome) : bool := match o with ODelivered _ => true | _ => false end.
