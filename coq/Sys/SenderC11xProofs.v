(** * Proofs about [SenderC11x]: the sender header is the server's own on every route. *)
From Coq Require Import NArith List Bool Lia.
From Tinode Require Import Sys.SessionAuth Sys.SessionAuthProofs Sys.SenderC11x.
Import ListNotations.
Local Open Scope N_scope.

Lemma hget_hdel_same_c11x k l : hget k (hdel k l) = None.
Proof.
  induction l as [|[k' v] r IH]; simpl; auto.
  destruct (k' =? k) eqn:E; simpl; auto. rewrite E. exact IH.
Qed.

Lemma hget_hdel_other_c11x k k' l : k' <> k -> hget k' (hdel k l) = hget k' l.
Proof.
  intro Hn. induction l as [|[k2 v] r IH]; simpl; auto.
  destruct (k2 =? k) eqn:E; simpl.
  - apply N.eqb_eq in E. subst k2.
    destruct (k =? k') eqn:E2; auto. apply N.eqb_eq in E2. congruence.
  - rewrite IH. reflexivity.
Qed.

Lemma hget_hset_same_c11x k v l : hget k (hset k v l) = Some v.
Proof. unfold hset. simpl. rewrite N.eqb_refl. reflexivity. Qed.

Lemma hget_hset_other_c11x k k' v l : k' <> k -> hget k' (hset k v l) = hget k' l.
Proof.
  intro Hn. unfold hset. simpl. destruct (k =? k') eqn:E.
  - apply N.eqb_eq in E. congruence.
  - apply hget_hdel_other_c11x. exact Hn.
Qed.

Lemma site1_sender_c11x suid au h : head_get KSender (site1_c11x suid au h) = servers_own_c11x suid au.
Proof.
  unfold site1_c11x, servers_own_c11x. destruct (au =? suid); simpl.
  - destruct h as [l|]; simpl; auto.
    destruct (hdel KSender l) eqn:E; cbn [head_get]; auto.
    rewrite <- E. apply hget_hdel_same_c11x.
  - reflexivity.
Qed.

Lemma site2_sender_c11x suid au h : head_get KSender (site2_c11x suid au h) = servers_own_c11x suid au.
Proof.
  unfold site2_c11x, servers_own_c11x. destruct (au =? suid); simpl.
  - destruct h as [l|]; simpl; auto. apply hget_hdel_same_c11x.
  - reflexivity.
Qed.

Lemma site1_other_c11x suid au h k : k <> KSender -> head_get k (site1_c11x suid au h) = head_get k h.
Proof.
  intro Hn. unfold site1_c11x. destruct (au =? suid); cbn [negb].
  - destruct h as [l|]; cbn [head_get]; auto.
    destruct (hdel KSender l) eqn:E; cbn [head_get].
    + rewrite <- (hget_hdel_other_c11x KSender k l Hn). rewrite E. reflexivity.
    + rewrite <- E. apply hget_hdel_other_c11x. exact Hn.
  - cbn [head_get]. rewrite hget_hset_other_c11x by exact Hn. destruct h; reflexivity.
Qed.

Lemma site2_other_c11x suid au h k : k <> KSender -> head_get k (site2_c11x suid au h) = head_get k h.
Proof.
  intro Hn. unfold site2_c11x. destruct (au =? suid); cbn [negb].
  - destruct h as [l|]; cbn [head_get]; auto. apply hget_hdel_other_c11x. exact Hn.
  - cbn [head_get]. rewrite hget_hset_other_c11x by exact Hn. destruct h; reflexivity.
Qed.

(** The flow stores [From = acting user]; the header is the one [site2] leaves. *)
Lemma flow_stored_c11x suid au q f h : pub_flow_c11x suid au q = OStored f h ->
  f = au /\ (q_attached q = true \/ q_sys q = true) /\ q_name_ok q = true /\ q_gates q = true /\
  h = site2_c11x suid au (site1_c11x suid au (q_head q)).
Proof.
  unfold pub_flow_c11x, topic_pub_c11x.
  destruct (q_name_ok q); simpl; [|discriminate].
  destruct (q_attached q); simpl.
  - destruct (q_gates q); simpl; [|discriminate]. intro H. inversion H. auto.
  - destruct (q_sys q); simpl; [|discriminate].
    destruct (q_gates q); simpl; [|discriminate]. intro H. inversion H. auto.
Qed.

Lemma flow_sender_c11x suid au q f h : pub_flow_c11x suid au q = OStored f h ->
  f = au /\ head_get KSender h = servers_own_c11x suid au /\
  (forall k, k <> KSender -> head_get k h = head_get k (q_head q)).
Proof.
  intro H. destruct (flow_stored_c11x _ _ _ _ _ H) as (A & _ & _ & _ & E). subst h.
  split; [exact A|]. split.
  - apply site2_sender_c11x.
  - intros k Hk. rewrite site2_other_c11x by exact Hk. apply site1_other_c11x. exact Hk.
Qed.

(** Which configurations of the two sites keep the header server-owned: exactly those in
    which every route is covered by at least one site. *)
Definition covered_c11x (cfg : sites) : bool :=
  (s1_attached cfg || s2 cfg) && (s1_sys cfg || s2 cfg).

Lemma covered_sender_ok_c11x cfg : covered_c11x cfg = true -> sender_ok_c11x cfg.
Proof.
  intros Hc suid au q f h. unfold pub_flow_cfg_c11x, topic_pub_cfg_c11x.
  destruct (q_name_ok q); simpl; [|discriminate].
  unfold covered_c11x in Hc. apply andb_true_iff in Hc. destruct Hc as [Ha Hs].
  destruct (q_attached q); simpl.
  - destruct (q_gates q); simpl; [|discriminate]. intro H. inversion H. subst. split; auto.
    destruct (s2 cfg); [apply site2_sender_c11x|].
    rewrite orb_false_r in Ha. rewrite Ha. apply site1_sender_c11x.
  - destruct (q_sys q); simpl; [|discriminate].
    destruct (q_gates q); simpl; [|discriminate]. intro H. inversion H. subst. split; auto.
    destruct (s2 cfg); [apply site2_sender_c11x|].
    rewrite orb_false_r in Hs. rewrite Hs. apply site1_sender_c11x.
Qed.

(** Witnesses: an own message (acting user = session user = 1) whose client-supplied head
    is {"sender": 5}, on the attached route and on the unattached 'sys' route. *)
Definition w_forged_c11x : head := Some [(KSender, 5)].
Definition w_attached_c11x : pubq :=
  {| q_name_ok := true; q_attached := true; q_sys := false; q_gates := true; q_head := w_forged_c11x |}.
Definition w_sys_c11x : pubq :=
  {| q_name_ok := true; q_attached := false; q_sys := true; q_gates := true; q_head := w_forged_c11x |}.

Lemma sender_ok_covered_c11x cfg : sender_ok_c11x cfg -> covered_c11x cfg = true.
Proof.
  intro H. destruct cfg as [a s b]. destruct b; [destruct a, s; reflexivity|].
  destruct a.
  - destruct s; [reflexivity|]. exfalso.
    assert (X : Some 5 = None) by exact (proj2 (H 1 1 w_sys_c11x 1 w_forged_c11x eq_refl)).
    discriminate X.
  - exfalso.
    assert (X : Some 5 = None) by exact (proj2 (H 1 1 w_attached_c11x 1 w_forged_c11x eq_refl)).
    discriminate X.
Qed.

(** Link with dispatch: the acting user of a non-root session is its own user. *)
Lemma call_user_nonroot_c11x t st m c : r_call (dispatch t st m) = Some c -> lvl st <> LRoot ->
  c_user c = uid st.
Proof.
  intros H Hn. destruct (acts_as t st m c H) as (_ & [(_ & A & _)|(B & _)]); [exact A|contradiction].
Qed.

