(* C09 on the presence slice: lemmas about {note} on p2p / group topics with unsubscribed (deleted)
   parties and about the {info} copies routed through the 'me' topics (Sys/Pres.v note_op,
   info_subs_offline, deliver_msg; Sys/PresNoteC09.v for Info.From).

   1. note_silent: a note that is not acceptable - sender without a live (non-deleted) subscription,
      without R (W for typing), seq outside (mark, lastID], detached session sending anything but "recv",
      topic not loaded - leaves the WHOLE state as it was (marks in cache and store, network) and hands
      no frame to anybody.
   2. note_frames_not_origin / adds_note_tag / deliver_skipsid: the originating session gets nothing,
      neither inside the topic nor through 'me'.
   3. net_note_sent / info_end_to_end: over all histories and interleavings, every {info} frame a session
      reads on 'me' comes from a {note} of the history, names that note's sender, was sent by ANOTHER
      session, the receiving session is not attached to the topic of the note, and a typing note
      reaches no session of the typist. *)
From Coq Require Import List NArith ZArith Bool Lia.
From Tinode Require Import Sys.Pres Sys.PresProofs Sys.PresLeak Sys.PresNoteC09.
Import ListNotations.
Open Scope N_scope.

(* ------------------------------------------------------------------ 1. which notes act *)

(* the user has a subscription that is not deleted: a perUser entry (p2p entries stay after an
   unsubscribe, marked deleted; group entries are dropped) *)
Definition live_sub (s : state) (t : tname) (u : N) : bool :=
  match get_top s t with
  | Some x => found t x u && negb (p_deleted (get_pud x u))
  | None => false
  end.

(* what the property demands of a note that may act *)
Definition note_acceptable (s : state) (sid u : N) (t : tname) (w : what) (seq : Z) : bool :=
  match get_top s t with
  | None => false
  | Some x =>
    let p := get_pud x u in
    (sess_on s sid t || (what_eqb w WIRecv && t_loaded x)) &&
    (found t x u && negb (p_deleted p)) &&
    (seq <=? t_lastid x)%Z &&
    match w with
    | WIKp => (seq =? 0)%Z && is_writer (p_mode p)
    | WIRead => (0 <? seq)%Z && is_reader (p_mode p) && (p_read p <? seq)%Z
    | WIRecv => (0 <? seq)%Z && is_reader (p_mode p) && (p_recv p <? seq)%Z
    | _ => false
    end
  end.

Definition silent (s : state) (r : state * list out) : Prop := r = (s, []) \/ r = (s, [Skipped]).

Lemma no_bits_reader : is_reader 0 = false. Proof. reflexivity. Qed.
Lemma no_bits_writer : is_writer 0 = false. Proof. reflexivity. Qed.

Lemma note_silent s sid u t w seq :
  note_acceptable s sid u t w seq = false -> silent s (note_op s sid u t w seq).
Proof.
  unfold silent. destruct (note_op_cases s sid u t w seq) as [E | [E | (x & G & A & F & D & L & V & _)]]; auto.
  (* a note that acts is acceptable *)
  unfold note_acceptable. rewrite G, A, F, D, L. fold (note_valid w seq (get_pud x u)). rewrite V. discriminate.
Qed.

Lemma unsubscribed_not_acceptable s sid u t w seq :
  live_sub s t u = false -> note_acceptable s sid u t w seq = false.
Proof.
  unfold live_sub, note_acceptable. destruct (get_top s t) as [x|]; [|reflexivity].
  intros ->. rewrite andb_false_r. reflexivity.
Qed.

Lemma step_note_silent s sid u r w seq :
  note_acceptable s sid u (resolve u r) w seq = false -> silent s (step s (Note sid u r w seq)).
Proof.
  intros L. unfold step, step_gen.
  destruct (match sess_user s sid with Some u' => negb (u' =? u) | None => false end); [right; reflexivity|].
  destruct r; [right; reflexivity| |]; apply note_silent; exact L.
Qed.

(* ------------------------------------------------------------------ 2. never the originating session *)

Lemma note_frames_not_origin s sid u t w seq sid' user top src w' :
  In (Frame sid' user top src w') (snd (note_op s sid u t w seq)) -> sid' <> sid.
Proof.
  destruct (note_op_cases s sid u t w seq) as [-> | [-> | (x & _ & _ & _ & _ & _ & _ & ->)]];
    [intros [] | intros [[=] | []] |].
  unfold note_effect. cbn [snd]. intros H. apply in_bcast_top_info in H as (sid2 & uid & _ & NE & _ & [= -> _ _ _ _]). exact NE.
Qed.

(* what a note puts in flight: SkipSid = the originating session; an {info} names the sender and the topic *)
Definition note_tag (sid u : N) (t : tname) (w : what) (g : msg) : Prop :=
  m_skipsid g = Some sid /\ m_sender g = t /\
  (is_info (m_what g) = true -> m_from g = Some u /\ m_skiptopic g = Some t /\ m_what g = w).

Lemma adds_note_tag s sid u t w seq : adds s (fst (note_op s sid u t w seq)) (note_tag sid u t w).
Proof.
  destruct (note_op_cases s sid u t w seq) as [-> | [-> | (x & _ & _ & _ & _ & _ & _ & ->)]]; [apply adds_refl..|].
  unfold note_effect. cbn [fst]. apply (emits_send s); [reflexivity..|]. apply Forall_app. split.
  - destruct w; try apply Forall_nil; cbn [note_pres]; rewrite Forall_forall; intros g Hg;
      apply pres_single_offline_shape in Hg as (m & _ & _ & W & _ & _ & B & _ & A); unfold note_tag; rewrite A, B, W;
      (split; [reflexivity|split; [reflexivity|intros [=]]]).
  - rewrite Forall_forall. intros g Hg.
    apply info_subs_offline_shape in Hg as (uid & p & _ & _ & _ & W & _ & _ & _ & B & _ & A & C & E).
    unfold note_tag. auto.
Qed.

(* broadcastToSessions: `if sess.sid == msg.SkipSid { continue }` comes first, for every kind of message *)
Lemma deliver_skipsid s g k user top src w :
  m_skipsid g = Some k -> ~ In (Frame k user top src w) (snd (deliver_msg s g)).
Proof. intros K H. apply deliver_frame in H as (_ & _ & _ & NE & _). exact (NE K). Qed.

(* ------------------------------------------------------------------ 3. histories: provenance of every {info} in flight *)

Definition ni (g : msg) : Prop := is_info (m_what g) = false.

Lemma nc_ni g : nc g -> ni g.
Proof. unfold nc, ni. destruct (is_info (m_what g)) eqn:I; [|reflexivity]. rewrite (info_content _ I). discriminate. Qed.

(* an {info} in flight was made by a {note} of the history: SkipSid = that note's session, From = its user,
   SkipTopic = sender = its topic *)
Definition note_sent (h : list op) (g : msg) : Prop :=
  is_info (m_what g) = true ->
  exists sid0 u0 r0 seq0, In (Note sid0 u0 r0 (m_what g) seq0) h /\ r0 <> RMe /\
    m_skipsid g = Some sid0 /\ m_from g = Some u0 /\
    m_skiptopic g = Some (resolve u0 r0) /\ m_sender g = resolve u0 r0.

Lemma ni_note_sent h g : ni g -> note_sent h g.
Proof. unfold ni, note_sent. intros -> [=]. Qed.

Lemma note_sent_mono h1 h2 g : (forall o, In o h1 -> In o h2) -> note_sent h1 g -> note_sent h2 g.
Proof.
  intros S H I. destruct (H I) as (sid0 & u0 & r0 & seq0 & Hin & R). exists sid0, u0, r0, seq0. split; [apply S, Hin | exact R].
Qed.

Lemma pres_subs_online_ni t w src f sk : is_info w = false -> ni (pres_subs_online t w src f sk).
Proof. intros H. exact H. Qed.

(* THE STEP LEMMA for {info}: only a {note} puts an {info} in flight, tagged with its session, user and topic *)
Lemma step_adds_info s o : zomb_nc s -> adds s (fst (step s o)) (note_sent [o]).
Proof.
  intros Z. destruct (step_status s o Z) as [C | [A _]].
  - destruct o; try contradiction.
    + destruct C as [NM [u ->]]. eapply adds_weaken; [|apply emits_pub, resolve_not_me, NM].
      intros g [_ H]. apply ni_note_sent, H.
    + destruct C as [NM ->]. eapply adds_weaken; [|apply adds_note_tag].
      intros g (A & B & C) I. destruct (C I) as (C1 & C2 & <-).
      exists sid, u, r, seq. repeat split; auto. now left.
    + destruct C as [NM [u ->]]. eapply adds_weaken; [|apply emits_delmsg, resolve_not_me, NM].
      intros g [_ H]. apply ni_note_sent, H.
  - eapply adds_weaken; [|exact A]. intros g H. apply ni_note_sent, nc_ni, H.
Qed.

Lemma net_note_sent h : Forall (note_sent h) (s_net (fst (run init h))).
Proof.
  induction h as [|o r IH] using rev_ind; [constructor|].
  rewrite run_snoc. rewrite Forall_forall in *. intros g Hg.
  assert (R : reach (fst (run init r))) by (exists r; reflexivity).
  destruct (net_prov _ R) as [Z _].
  destruct (step_adds_info _ o Z g Hg) as [Hold | Hnew].
  - eapply note_sent_mono; [|apply IH, Hold]. intros o' Ho. apply in_or_app. now left.
  - eapply note_sent_mono; [|exact Hnew]. intros o' Ho. apply in_or_app. now right.
Qed.

Lemma sess_on_set_net f s sid t : sess_on (set_net f s) sid t = sess_on s sid t.
Proof. unfold sess_on. destruct t; reflexivity. Qed.

(* a frame handed out at a delivery carries the `what` of the delivered message *)
Lemma deliver_frame_what s g sid user top src w :
  In (Frame sid user top src w) (snd (deliver_msg s g)) -> w = m_what g.
Proof. intros H. now apply deliver_frame in H. Qed.

(* END TO END, all histories and interleavings.  An {info} frame read by session [sid] of [user] when the
   i-th in-flight message is delivered, with From = f: a {note} of the same kind is in the history, sent by
   user f through ANOTHER session, about a topic this session is not attached to; the frame arrives on the
   user's own 'me'; a typing note never reaches a session of the typist. *)
Lemma info_end_to_end h i g rest sid user top src w f :
  take_nth i [] (s_net (fst (run init h))) = Some (g, rest) ->
  In (Frame sid user top src w, f) (snd (step_from (fst (run init h)) (Deliver i))) ->
  is_info w = true ->
  exists sid0 u0 r0 seq0,
    In (Note sid0 u0 r0 w seq0) h /\ r0 <> RMe /\ f = Some u0 /\ sid <> sid0 /\
    sess_on (fst (run init h)) sid (resolve u0 r0) = false /\
    (w = WIKp -> user <> u0) /\ top = TMe user.
Proof.
  set (s := fst (run init h)). intros T Hin I.
  assert (R : reach s) by (exists h; reflexivity).
  unfold step_from in Hin. destruct (step s (Deliver i)) as [s1 o1] eqn:ES. cbn [snd] in Hin.
  apply in_map_iff in Hin as [fr [E Hin]]. injection E as -> <-.
  unfold step in ES. simpl in ES. rewrite T in ES. unfold info_from. rewrite T.
  assert (Hin' : In (Frame sid user top src w) (snd (deliver_msg (set_net (fun _ => rest) s) g))) by (rewrite ES; exact Hin).
  clear ES Hin.
  pose proof (take_nth_elem _ _ _ _ _ T) as Hg.
  apply deliver_frame in Hin' as (D & _ & -> & SK' & F).
  (* the delivered message is an {info}: it goes to a 'me' topic and was made by a {note} of the history *)
  destruct (info_only_to_me s g R Hg I) as [uid D']. rewrite D' in D. subst top. destruct F as (-> & _ & _ & _ & F).
  destruct (F I) as [ST KP].
  pose proof (net_note_sent h) as NS. rewrite Forall_forall in NS. fold s in NS.
  destruct (NS g Hg I) as (sid0 & u0 & r0 & seq0 & HN & NM & SK & FR & TP & _).
  exists sid0, u0, r0, seq0. repeat split; auto.
  - intros ->. exact (SK' SK).
  - rewrite <- sess_on_set_net with (f := fun _ => rest). exact (ST _ TP).
  - intros EW ->. exact (KP EW FR).
Qed.

(* the labelled run projects to the run of Sys/Pres.v: nothing but the label was added *)
Lemma step_from_proj s o : fst (step_from s o) = fst (step s o) /\ map fst (snd (step_from s o)) = snd (step s o).
Proof.
  unfold step_from. destruct (step s o) as [s1 o1]. cbn [fst snd]. split; [reflexivity|].
  rewrite map_map. simpl. apply map_id.
Qed.

Lemma run_from_proj h : forall s, fst (run_from s h) = fst (run s h) /\ map fst (snd (run_from s h)) = snd (run s h).
Proof.
  induction h as [|o r IH]; intros s; [split; reflexivity|].
  simpl. destruct (step_from_proj s o) as [A B].
  destruct (step_from s o) as [s1 o1]. unfold run, step in *. simpl in *.
  destruct (step_gen true s o) as [s1' o1']. simpl in A, B. subst s1'.
  destruct (IH s1) as [C D]. destruct (run_from s1 r) as [s2 o2]. unfold run in *.
  destruct (run_gen true s1 r) as [s2' o2']. simpl in *. subst. split; [reflexivity|].
  rewrite map_app. reflexivity.
Qed.

Lemma drain_from_proj fuel : forall s, fst (drain_from fuel s) = fst (drain fuel s) /\ map fst (snd (drain_from fuel s)) = snd (drain fuel s).
Proof.
  induction fuel as [|f IH]; intros s; [split; reflexivity|].
  cbn [drain_from drain]. destruct (s_net s) eqn:NE; [split; reflexivity|].
  destruct (step_from_proj s (Deliver 0)) as [A B].
  destruct (step_from s (Deliver 0)) as [s1 o1]. destruct (step s (Deliver 0)) as [s1' o1']. cbn [fst snd] in A, B. subst s1' o1'.
  destruct (IH s1) as [C E]. destruct (drain_from f s1) as [s2 o2]. destruct (drain f s1) as [s2' o2']. cbn [fst snd] in *. subst.
  split; [reflexivity|]. apply map_app.
Qed.

(* ------------------------------------------------------------------ the two seeded scenarios, in the model *)

Definition D := Deliver 0.

(* users 1 and 2 chat; user 1 unsubscribes; the topic stays loaded (session 2 of user 2 is attached).  The step
   taken from the end of this history in Props/PropC09.v: user 1's detached session 1 acknowledges message 1 -
   nothing moves, nothing is sent *)
Definition h_unsub_recv : list op :=
  [Att 3 1 RMe false; Att 4 2 RMe false; Att 1 1 (RP2P 2) false; D; D; D; D; Att 2 2 (RP2P 1) false;
   Pub 2 (RP2P 1); D; D; Unsub 1 (RP2P 2); D; D].

(* user 1 keeps session 3 on 'me' and detaches session 1 from the topic; session 3 acknowledges message 1 (a "recv"
   from a session that is not attached: routed by the hub to the loaded topic).  Session 2 of user 2, attached to the
   topic, reads the {info} with From = user 1; session 3 itself reads no {info} at all, neither from the topic nor
   back through its own 'me' (the copy routed to me(1) carries SkipSid = session 3) *)
Definition h_detached_recv : list op :=
  [Att 3 1 RMe false; Att 4 2 RMe false; Att 1 1 (RP2P 2) false; D; D; D; D; Att 2 2 (RP2P 1) false;
   Pub 2 (RP2P 1); D; D; Det 1 (RP2P 2); Note 3 1 (RP2P 2) WIRecv 1; D; D; D; D].

(* decided by computation on the goal side (vm_compute leaves a VM cast for Qed; `vm_compute in H` would make Qed
   re-do the whole run with the lazy machine) *)
Definition no_info_to (k : N) (l : list (out * option N)) : bool :=
  forallb (fun p => match fst p with
                    | Frame sid _ _ _ w => negb ((sid =? k) && is_info w)
                    | _ => true
                    end) l.

Lemma detached_recv_check : no_info_to 3 (snd (run_from init h_detached_recv)) = true.
Proof. vm_compute. reflexivity. Qed.
