(* C08: two caches that agree on the stored fields (same sessions, same table size, same push
   recipients) are indistinguishable: every handler produces the same store, the same replies and
   the same attached sessions from either.  With the invariant this makes a reload invisible
   wherever it is inserted in a history. *)
From Coq Require Import ZArith NArith List Bool Lia Permutation.
From Tinode Require Import Base.Util Pure.Acs Sys.Topic Sys.TopicTac Sys.TopicFrame Sys.TopicNum Sys.TopicNumThm Sys.TopicMarks
  Sys.TopicAclC07 Sys.TopicCohC08 Sys.TopicCohC08Proofs Sys.TopicCohC08Step Sys.TopicCohC08Run Sys.TopicCohC08Query Sys.TopicCohC08Keys.
Import ListNotations.
Open Scope Z_scope.

Definition sim (c d : cache) : Prop :=
  cache_agree c d /\ c_sess c = c_sess d /\ length (c_users c) = length (c_users d) /\ push_rcpt c = push_rcpt d.

(* what a handler result shows to the outside *)
Definition obs (h : hres) : store * nat * out * list (N * (N * bool)) := (h_st h, h_n h, h_out h, c_sess (h_ca h)).

(* the weak form: pointwise agreement + same sessions; enough for fan-out *)
Definition wsim (c d : cache) : Prop := cache_agree c d /\ c_sess c = c_sess d.
Lemma sim_wsim c d : sim c d -> wsim c d.
Proof. intros [A [E _]]. split; assumption. Qed.

Lemma sim_scal c d : sim c d ->
  c_lastid c = c_lastid d /\ c_delid c = c_delid d /\ c_owner c = c_owner d /\ c_auth c = c_auth d /\ c_anon c = c_anon d.
Proof. intros [[E1 [E2 [E3 [E4 [E5 _]]]]] _]. repeat split; assumption. Qed.

(* the two records of one user hold the same stored fields *)
Lemma sim_lookup c d u : sim c d ->
  match alookup u (c_users c), alookup u (c_users d) with
  | Some p, Some q => p_want q = p_want p /\ p_given q = p_given p /\ p_read q = p_read p /\ p_recv q = p_recv p /\ p_delid q = p_delid p
  | None, None => True
  | _, _ => False
  end.
Proof.
  intros [[_ [_ [_ [_ [_ P]]]]] _]. specialize (P u).
  destruct (alookup u (c_users c)), (alookup u (c_users d)); cbn in P; try discriminate; [|exact I].
  unfold core in P. inv P. repeat split; congruence.
Qed.

Lemma sim_mode c d u : sim c d -> user_mode c u = user_mode d u.
Proof. intros [A _]. apply agree_mode. exact A. Qed.

Lemma wsim_aset c d u p q : wsim c d -> core p = core q -> wsim (c_set_users (aset u p) c) (c_set_users (aset u q) d).
Proof.
  intros [[E1 [E2 [E3 [E4 [E5 P]]]]] ES] EC. split; [|exact ES]. repeat split; try assumption.
  intros v. cbn [c_users c_set_users]. rewrite !alookup_aset. destruct (N.eqb v u); [cbn; congruence|apply P].
Qed.
Lemma wsim_lastid c d v : wsim c d -> wsim (c_set_lastid v c) (c_set_lastid v d).
Proof. intros [[E1 [E2 [E3 [E4 [E5 P]]]]] ES]. split; [|exact ES]. repeat split; assumption. Qed.
Lemma wsim_fanout_data c d skip fr : wsim c d -> fanout_data c skip fr = fanout_data d skip fr.
Proof.
  intros [A ES]. unfold fanout_data. rewrite ES.
  apply flat_map_ext. intros [sid [u b]]. rewrite (agree_mode c d u A). reflexivity.
Qed.
Lemma wsim_fanout_info c d skip what from seq : wsim c d -> fanout_info c skip what from seq = fanout_info d skip what from seq.
Proof.
  intros [A ES]. unfold fanout_info. rewrite ES.
  apply flat_map_ext. intros [sid [u b]]. rewrite (agree_mode c d u A). reflexivity.
Qed.

Lemma sim_fanout_data c d skip fr : sim c d -> fanout_data c skip fr = fanout_data d skip fr.
Proof. intros S. apply wsim_fanout_data, sim_wsim, S. Qed.
Lemma sim_fanout_info c d skip what from seq : sim c d -> fanout_info c skip what from seq = fanout_info d skip what from seq.
Proof. intros S. apply wsim_fanout_info, sim_wsim, S. Qed.
Lemma sim_push c d seq u : sim c d -> push_out c seq u = push_out d seq u.
Proof. intros [_ [_ [_ EP]]]. unfold push_out. rewrite EP. reflexivity. Qed.

(* results that differ in the cache only, with the same sessions attached *)
Lemma obs_eq s c d n o o' : c_sess c = c_sess d -> o = o' -> obs (mkH s c n o) = obs (mkH s d n o').
Proof. unfold obs. cbn [h_st h_n h_out h_ca]. intros -> ->. reflexivity. Qed.
Lemma obs_keep s c d n o : c_sess c = c_sess d -> obs (mkH s c n o) = obs (mkH s d n o).
Proof. intros ES. apply obs_eq; [exact ES|reflexivity]. Qed.

(* the replies of an eviction and the sessions that remain depend on the session list only *)
Lemma evict_obs c d u b k :
  c_sess c = c_sess d ->
  snd (evict_user c u b k) = snd (evict_user d u b k) /\ c_sess (fst (evict_user c u b k)) = c_sess (fst (evict_user d u b k)).
Proof.
  intros ES. unfold evict_user. cbn [fst snd]. split; [rewrite ES; reflexivity|].
  destruct b; cbn [c_sess c_set_users c_set_sess c_users]; [rewrite ES; reflexivity|].
  destruct (alookup u (c_users c)), (alookup u (c_users d)); cbn [c_sess c_set_users c_set_sess]; rewrite ES; reflexivity.
Qed.

Lemma get_data_sim f s c d n sid u a b l : sim c d -> obs (get_data f s c n sid u a b l) = obs (get_data f s d n sid u a b l).
Proof.
  intros S. unfold get_data. rewrite <- (sim_mode c d u S). destruct S as [_ [ES _]].
  destruct (is_reader (user_mode c u)); [|apply obs_keep, ES].
  destruct (call f n) as [ok1 n1]. destruct (negb ok1); [apply obs_keep, ES|].
  destruct (ad_msg_get_all s u a b l); apply obs_eq; try exact ES; reflexivity.
Qed.
Lemma get_sub_sim f s c d n sid u : sim c d -> obs (get_sub f s c n sid u) = obs (get_sub f s d n sid u).
Proof.
  intros S. unfold get_sub. rewrite <- (sim_mode c d u S). destruct S as [_ [ES _]].
  destruct (call f n) as [ok1 n1]. destruct (negb ok1); [apply obs_keep, ES|].
  destruct (filter _ (subs s)); apply obs_eq; try exact ES; reflexivity.
Qed.
Lemma get_del_sim nr f s c d n sid u a b l : sim c d -> obs (get_del nr f s c n sid u a b l) = obs (get_del nr f s d n sid u a b l).
Proof.
  intros S. unfold get_del. rewrite <- (sim_mode c d u S). destruct S as [_ [ES _]].
  destruct (is_reader (user_mode c u)); [|apply obs_keep, ES].
  destruct (call f n) as [ok1 n1]. destruct (negb ok1); [apply obs_keep, ES|].
  destruct (ad_msg_get_deleted s u a b l); apply obs_eq; try exact ES; reflexivity.
Qed.
Lemma get_desc_sim s c d n sid u : sim c d -> obs (get_desc s c n sid u) = obs (get_desc s d n sid u).
Proof.
  intros S. destruct (sim_scal c d S) as [E1 [E2 _]]. pose proof (sim_lookup c d u S) as L. destruct S as [_ [ES _]].
  unfold get_desc, pud_mode. rewrite <- E1, <- E2.
  destruct (alookup u (c_users c)) as [p|], (alookup u (c_users d)) as [q|]; try contradiction; [|apply obs_keep, ES].
  destruct L as [-> [-> [-> [-> ->]]]]. destruct (is_reader _); apply obs_eq; try exact ES; reflexivity.
Qed.
Lemma sim_pud c d u : sim c d ->
  p_want (get_pud d u) = p_want (get_pud c u) /\ p_given (get_pud d u) = p_given (get_pud c u) /\
  p_read (get_pud d u) = p_read (get_pud c u) /\ p_recv (get_pud d u) = p_recv (get_pud c u) /\
  p_delid (get_pud d u) = p_delid (get_pud c u).
Proof.
  intros S. pose proof (sim_lookup c d u S) as L. unfold get_pud.
  destruct (alookup u (c_users c)), (alookup u (c_users d)); try contradiction; [exact L|repeat split].
Qed.

Lemma note_sim f s c d n sid u what seq : sim c d -> obs (note f s c n sid u what seq) = obs (note f s d n sid u what seq).
Proof.
  intros S. destruct (sim_scal c d S) as [E1 _]. pose proof (sim_wsim c d S) as W. pose proof (proj2 W) as ES.
  destruct (sim_pud c d u S) as [Ew [Eg [Er [Ec Ed]]]].
  unfold note, pud_mode. rewrite <- E1, Ew, Eg, Er, Ec.
  destruct (c_lastid c <? seq); [apply obs_keep, ES|].
  destruct (N.eqb what K_kp).
  { destruct (negb (is_writer _)); [apply obs_keep, ES|]. apply obs_eq; [exact ES|apply wsim_fanout_info, W]. }
  destruct (N.eqb what K_read || N.eqb what K_recv); [|apply obs_keep, ES].
  destruct (negb (is_reader _)); [apply obs_keep, ES|].
  destruct (N.eqb what K_read && _); [apply obs_keep, ES|].
  destruct (negb (N.eqb what K_read) && _); [apply obs_keep, ES|].
  destruct (call f n) as [ok1 n1]. destruct (negb ok1); [apply obs_keep, ES|].
  apply obs_eq; [exact ES|]. apply wsim_fanout_info, wsim_aset; [exact W|].
  unfold core. cbn [p_want p_given p_read p_recv p_delid p_set_marks]. rewrite Ew, Eg, Ed. reflexivity.
Qed.

Lemma keys_filter_aset (P : N * pud -> bool) u p p' l :
  alookup u l = Some p -> (forall k, P (k, p') = P (k, p)) ->
  map fst (filter P (aset u p' l)) = map fst (filter P l).
Proof.
  intros L HP. induction l as [|[k0 v0] l IH]; cbn in *; [discriminate|].
  destruct (N.eqb_spec u k0) as [->|NE]; cbn.
  - inv L. rewrite HP. destruct (P (k0, p)); reflexivity.
  - destruct (P (k0, v0)); cbn; rewrite IH by exact L; reflexivity.
Qed.
Lemma push_rcpt_aset c u p p' :
  alookup u (c_users c) = Some p -> pud_mode p' = pud_mode p -> push_rcpt (c_set_users (aset u p') c) = push_rcpt c.
Proof.
  intros L M. unfold push_rcpt. cbn [c_users c_set_users]. f_equal. apply (keys_filter_aset _ u p p'); [exact L|].
  intros k. cbn [snd]. rewrite M. reflexivity.
Qed.

Lemma publish_sim f s c d n sid u content noecho :
  sim c d -> obs (publish f s c n sid u content noecho) = obs (publish f s d n sid u content noecho).
Proof.
  intros S. destruct (sim_scal c d S) as [E1 _]. pose proof (sim_wsim c d S) as W. pose proof (proj2 W) as ES.
  assert (push_rcpt c = push_rcpt d) as PR by apply S.
  pose proof (sim_lookup c d u S) as L.
  unfold publish, get_pud. rewrite <- E1.
  destruct (alookup u (c_users c)) as [p|] eqn:Lc, (alookup u (c_users d)) as [q|] eqn:Ld; try contradiction; [|apply obs_keep, ES].
  assert (pud_mode q = pud_mode p) as EM by (unfold pud_mode; destruct L as [-> [-> _]]; reflexivity). rewrite EM.
  destruct (negb (is_writer (pud_mode p))); [apply obs_keep, ES|].
  destruct (call f n) as [ok1 n1]. destruct (negb ok1); [apply obs_keep, ES|].
  destruct (call f n1) as [ok2 n2]. destruct (negb ok2); [apply obs_keep, ES|].
  destruct (ad_msg_save _ _ u content) as [s2|]; [|apply obs_keep, ES].
  destruct (if is_reader (pud_mode p) then call f n2 else (true, n2)) as [ok3 n3].
  apply obs_eq; [exact ES|]. f_equal. f_equal.
  - apply wsim_fanout_data, wsim_aset; [apply wsim_lastid, W|]. unfold core. cbn [p_want p_given p_read p_recv p_delid p_set_marks].
    destruct L as [-> [-> [_ [_ ->]]]]. reflexivity.
  - unfold push_out. rewrite (push_rcpt_aset (c_set_lastid _ c) u p (p_set_marks _ _ p) Lc eq_refl), (push_rcpt_aset (c_set_lastid _ d) u q (p_set_marks _ _ q) Ld eq_refl).
    unfold push_rcpt in *. cbn [c_users c_set_lastid]. rewrite PR. reflexivity.
Qed.

Lemma del_msg_sim dr f s c d n sid u req hard :
  sim c d -> obs (del_msg dr f s c n sid u req hard) = obs (del_msg dr f s d n sid u req hard).
Proof.
  intros S. destruct (sim_scal c d S) as [E1 [E2 _]]. pose proof (proj2 (sim_wsim c d S)) as ES.
  unfold del_msg. rewrite <- (sim_mode c d u S), <- E1, <- E2. cbv zeta.
  destruct (negb (hard && is_deleter (user_mode c u)) && negb (is_reader (user_mode c u))); [apply obs_keep, ES|].
  destruct (dr (c_lastid c) req); [|apply obs_keep, ES].
  destruct (call f n) as [ok1 n1]. destruct (negb ok1); [apply obs_keep, ES|].
  destruct (call f n1) as [ok2 n2]. destruct (negb ok2); [apply obs_keep, ES|].
  destruct (call f n2) as [ok3 n3]. destruct (negb ok3); [apply obs_keep, ES|].
  apply obs_eq; [|reflexivity]. destruct (hard && is_deleter (user_mode c u)); exact ES.
Qed.

Lemma del_sub_sim f s c d n sid u t :
  sim c d -> obs (del_sub f s c n sid u t) = obs (del_sub f s d n sid u t).
Proof.
  intros S. pose proof (proj2 (sim_wsim c d S)) as ES. pose proof (sim_lookup c d t S) as L.
  unfold del_sub. rewrite <- (sim_mode c d u S).
  destruct (negb (is_admin (user_mode c u))); [apply obs_keep, ES|].
  destruct ((t =? 0)%N || (t =? u)%N); [apply obs_keep, ES|].
  destruct (alookup t (c_users c)) as [p|], (alookup t (c_users d)) as [q|]; try contradiction; [|apply obs_keep, ES].
  unfold pud_mode. destruct L as [-> [-> _]].
  destruct (is_owner _); [apply obs_keep, ES|]. destruct (negb (is_joiner _)); [apply obs_keep, ES|].
  destruct (call f n) as [ok1 n1]. destruct (negb ok1); [apply obs_keep, ES|].
  destruct (evict_obs c d t true 0 ES) as [EO ESS].
  destruct (evict_user c t true 0) as [c1 o1], (evict_user d t true 0) as [d1 o2]. cbn [fst snd] in EO, ESS. subst o2.
  destruct (ad_subs_delete s t); apply obs_eq; try exact ESS; reflexivity.
Qed.

Lemma leave_unsub_sim f s c d n sid u :
  sim c d -> obs (leave_unsub f s c n sid u) = obs (leave_unsub f s d n sid u).
Proof.
  intros S. pose proof (proj2 (sim_wsim c d S)) as ES. destruct (sim_scal c d S) as [_ [_ [E3 _]]].
  unfold leave_unsub. rewrite <- E3.
  destruct (N.eqb (c_owner c) u); [apply obs_keep, ES|].
  destruct (call f n) as [ok1 n1]. destruct (negb ok1); [apply obs_keep, ES|].
  destruct (ad_subs_delete s u); [|apply obs_keep, ES].
  destruct (evict_obs c d u true sid ES) as [EO ESS].
  destruct (evict_user c u true sid) as [c1 o1], (evict_user d u true sid) as [d1 o2]. cbn [fst snd] in EO, ESS. subst o2.
  apply obs_eq; [exact ESS|reflexivity].
Qed.

Lemma leave_sim c d sid u :
  sim c d -> snd (leave c sid u) = snd (leave d sid u) /\ c_sess (fst (leave c sid u)) = c_sess (fst (leave d sid u)).
Proof.
  intros S. pose proof (sim_wsim c d S) as [_ ES]. unfold leave. rewrite ES.
  destruct (alookup sid (c_sess d)) as [[su bkg]|]; cbn [fst snd]; [|split; [reflexivity|exact ES]].
  cbn [c_users c_set_sess].
  destruct (alookup su (c_users c)), (alookup su (c_users d)); destruct bkg; cbn [fst snd c_sess c_set_sess c_set_users]; rewrite ES; split; reflexivity.
Qed.

(* thisUserSub / anotherUserSub: what they show, with their verdict *)
Definition obs2 (hr : hres * sub_res) := (obs (fst hr), snd hr).

Lemma obs2_keep s c d n o r : c_sess c = c_sess d -> obs2 (mkH s c n o, r) = obs2 (mkH s d n o, r).
Proof. intros ES. unfold obs2. cbn [fst snd]. rewrite (obs_keep s c d n o ES). reflexivity. Qed.

(* their common tail: the user is evicted (he banned himself / was banned) or not *)
Lemma obs2_fin (b : bool) s c d t n r : c_sess c = c_sess d ->
  obs2 (if b then let '(c4, o4) := evict_user c t false 0%N in (mkH s c4 n o4, r) else (mkH s c n [], r)) =
  obs2 (if b then let '(c4, o4) := evict_user d t false 0%N in (mkH s c4 n o4, r) else (mkH s d n [], r)).
Proof.
  intros ES. destruct b; [|apply obs2_keep, ES]. destruct (evict_obs c d t false 0 ES) as [EO ESS].
  destruct (evict_user c t false 0) as [c1 o1], (evict_user d t false 0) as [d1 o2]. cbn [fst snd] in EO, ESS. subst o2.
  apply obs2_keep, ESS.
Qed.

Lemma another_user_sub_sim f s c d n sid u target mode :
  sim c d -> obs2 (another_user_sub f s c n sid u target mode) = obs2 (another_user_sub f s d n sid u target mode).
Proof.
  intros S. pose proof (proj2 (sim_wsim c d S)) as ES. destruct (sim_scal c d S) as [_ [_ [E3 [E4 _]]]].
  assert (length (c_users c) = length (c_users d)) as EL by apply S.
  pose proof (sim_lookup c d u S) as Lu. pose proof (sim_lookup c d target S) as Lt.
  unfold another_user_sub, pud_mode. rewrite <- E3, <- E4, <- EL. cbv beta zeta.
  destruct (alookup u (c_users c)) as [pu|], (alookup u (c_users d)) as [qu|]; try contradiction; [|apply obs2_keep, ES].
  destruct Lu as [-> [-> _]].
  destruct (negb (is_sharer _)); [apply obs2_keep, ES|].
  destruct (match mode with [] => (ModeUnset, true) | _ => unmarshal_text ModeUnset mode end) as [mg okg].
  destruct (negb okg); [apply obs2_keep, ES|].
  destruct (negb (mg =? ModeUnset)%N && _); [apply obs2_keep, ES|].
  destruct (is_owner mg && _); [apply obs2_keep, ES|].
  destruct (alookup target (c_users c)) as [pt|], (alookup target (c_users d)) as [qt|]; try contradiction.
  - destruct Lt as [-> [-> _]].
    destruct ((mg =? ModeUnset)%N || (mg =? p_given pt)%N); [apply obs2_fin, ES|].
    destruct (N.eqb (c_owner c) target && _); [apply obs2_keep, ES|].
    destruct (call f n) as [ok1 n1]. destruct (negb ok1); [apply obs2_keep, ES|]. apply obs2_fin, ES.
  - destruct (max_subs <=? _); [apply obs2_keep, ES|].
    destruct (call f n) as [ok1 n1]. destruct (negb ok1); [apply obs2_keep, ES|].
    destruct (ad_sub_get s target true) as [r|].
    + destruct (negb (is_joiner (s_want r))); [apply obs2_keep, ES|].
      destruct (call f n1) as [ok3 n3]. destruct (negb ok3); [apply obs2_keep, ES|]. apply obs2_fin, ES.
    + destruct (call f n1) as [ok2 n2]. destruct (negb ok2); [apply obs2_keep, ES|].
      destruct (alookup target (users s)) as [acc|]; [|apply obs2_keep, ES].
      destruct (negb (is_joiner _)); [apply obs2_keep, ES|].
      destruct (call f n2) as [ok3 n3]. destruct (negb ok3); [apply obs2_keep, ES|]. apply obs2_fin, ES.
Qed.

Lemma tus_finish_sim u nb w1 g1 ow og s3 c3 d3 n3 :
  c_sess c3 = c_sess d3 -> obs2 (tus_finish u w1 g1 ow og nb s3 c3 n3) = obs2 (tus_finish u w1 g1 ow og nb s3 d3 n3).
Proof.
  intros ES. unfold tus_finish. cbv beta zeta.
  destruct (negb (is_joiner w1)); [apply (obs2_fin true), ES|]. destruct (negb (is_joiner g1)); apply obs2_keep, ES.
Qed.

Lemma tus_new_sim f s c d n u mw nb : sim c d -> obs2 (tus_new f s c n u mw nb) = obs2 (tus_new f s d n u mw nb).
Proof.
  intros S. pose proof (proj2 (sim_wsim c d S)) as ES. destruct (sim_scal c d S) as [_ [_ [_ [E4 _]]]].
  assert (length (c_users c) = length (c_users d)) as EL by apply S.
  unfold tus_new. rewrite <- E4, <- EL. cbv beta zeta.
  destruct (max_subs <=? _); [apply obs2_keep, ES|].
  destruct (call f n) as [ok1 n1]. destruct (negb ok1); [apply obs2_keep, ES|].
  destruct (negb (is_joiner _)); [apply obs2_keep, ES|].
  destruct (if match ad_sub_get s u true with Some r => s_deleted r | None => true end then call f n1 else (true, n1)) as [ok2 n2].
  destruct (negb ok2); [apply obs2_keep, ES|]. apply obs2_fin, ES.
Qed.

Lemma tus_existing_sim f s c d n u mw nb p0 q0 :
  sim c d -> p_want q0 = p_want p0 -> p_given q0 = p_given p0 ->
  obs2 (tus_exist f s c n u mw p0 nb) = obs2 (tus_exist f s d n u mw q0 nb).
Proof.
  intros S EW EG. pose proof (proj2 (sim_wsim c d S)) as ES. destruct (sim_scal c d S) as [_ [_ [E3 [E4 _]]]].
  destruct (sim_pud c d (c_owner c) S) as [EOW [EOG _]].
  unfold tus_exist. cbv beta zeta.
  replace (tus_chk d u mw (p_want q0) (p_given q0)) with (tus_chk c u mw (p_want p0) (p_given p0)) by (unfold tus_chk; rewrite EW, EG, E3; reflexivity).
  destruct (tus_chk c u mw (p_want p0) (p_given p0)) as [[[mw1 g1] oc]|]; [|apply obs2_keep, ES].
  replace (tus_w1 d u mw1 g1 (p_want q0)) with (tus_w1 c u mw1 g1 (p_want p0)) by (unfold tus_w1; rewrite EW, E3, E4; reflexivity).
  rewrite EW, EG, <- E3, EOW, EOG.
  match goal with |- context [if ?b then call f n else (true, n)] => destruct (if b then call f n else (true, n)) as [ok1 n1] end.
  destruct (negb ok1); [apply obs2_keep, ES|].
  destruct oc; [|apply tus_finish_sim, ES].
  destruct (call f n1) as [ok2 n2]. destruct (negb ok2); [apply obs2_keep, ES|].
  destruct (call f n2) as [ok3 n3]. destruct (negb ok3); [apply obs2_keep, ES|].
  apply tus_finish_sim, ES.
Qed.

Lemma this_user_sub_sim f s c d n sid u want nb :
  sim c d -> obs2 (this_user_sub f s c n sid u want nb) = obs2 (this_user_sub f s d n sid u want nb).
Proof.
  intros S. rewrite !tus_unfold.
  destruct (match want with [] => (ModeUnset, true) | _ => unmarshal_text ModeUnset want end) as [mw okw].
  destruct (negb okw); [apply obs2_keep, (sim_wsim c d S)|].
  pose proof (sim_lookup c d u S) as L.
  destruct (alookup u (c_users c)) as [p0|], (alookup u (c_users d)) as [q0|]; try contradiction.
  - apply tus_existing_sim; [exact S|apply L|apply L].
  - apply tus_new_sim, S.
Qed.

Lemma sub_reply_sim f s c d n sid u want bkg :
  sim c d -> obs (sub_reply f s c n sid u want bkg) = obs (sub_reply f s d n sid u want bkg).
Proof.
  intros S. unfold sub_reply.
  assert ((match alookup u (c_users d) with Some _ => false | None => true end) =
          (match alookup u (c_users c) with Some _ => false | None => true end)) as EN.
  { pose proof (sim_lookup c d u S) as L. destruct (alookup u (c_users c)), (alookup u (c_users d)); try contradiction; reflexivity. }
  rewrite EN.
  pose proof (this_user_sub_sim f s c d n sid u want (match alookup u (c_users c) with Some _ => false | None => true end) S) as E.
  destruct (this_user_sub f s c n sid u want _) as [h r], (this_user_sub f s d n sid u want _) as [h' r'].
  unfold obs2, obs in E. cbn [fst snd] in E. inv E.
  destruct r' as [code|ch]; unfold obs; cbn [h_st h_n h_out h_ca].
  - congruence.
  - destruct (match ch with Some (w, g) => is_joiner (N.land g w) | None => true end); [|congruence].
    destruct bkg; cbn [c_sess c_set_sess c_set_users]; congruence.
Qed.

Lemma set_sub_sim f s c d n sid u target mode :
  sim c d -> obs (set_sub f s c n sid u target mode) = obs (set_sub f s d n sid u target mode).
Proof.
  intros S. unfold set_sub.
  assert (obs2 (if (target =? 0)%N || (target =? u)%N then this_user_sub f s c n sid u mode false else another_user_sub f s c n sid u target mode) =
          obs2 (if (target =? 0)%N || (target =? u)%N then this_user_sub f s d n sid u mode false else another_user_sub f s d n sid u target mode)) as E
    by (destruct ((target =? 0)%N || (target =? u)%N); [apply this_user_sub_sim, S|apply another_user_sub_sim, S]).
  destruct (if (target =? 0)%N || (target =? u)%N then this_user_sub f s c n sid u mode false else _) as [h r],
           (if (target =? 0)%N || (target =? u)%N then this_user_sub f s d n sid u mode false else _) as [h' r'].
  unfold obs2, obs in E. cbn [fst snd] in E. inv E. destruct r'; unfold obs; cbn [h_st h_n h_out h_ca]; congruence.
Qed.

(* ------------------------------------------------------------------ *)
(* states *)
Definition keys_st (x : state) : Prop := match ca x with Some c => keys_ok c | None => True end.
Definition bis (x y : state) : Prop :=
  st x = st y /\ match ca x, ca y with Some c, Some d => sim c d | None, None => True | _, _ => False end.

Lemma agree_sym c d : cache_agree c d -> cache_agree d c.
Proof. intros [E1 [E2 [E3 [E4 [E5 P]]]]]. do 5 (split; [congruence|]). intros u. symmetry. apply P. Qed.
Lemma agree_trans c d e : cache_agree c d -> cache_agree d e -> cache_agree c e.
Proof.
  intros [E1 [E2 [E3 [E4 [E5 P]]]]] [F1 [F2 [F3 [F4 [F5 Q]]]]]. do 5 (split; [congruence|]). intros u. rewrite P. apply Q.
Qed.

(* two invariant states over the same store with the same sessions are bisimilar *)
Lemma inv_bis x y c d :
  inv x -> inv y -> st x = st y -> ca x = Some c -> ca y = Some d -> keys_ok c -> keys_ok d -> c_sess c = c_sess d -> sim c d.
Proof.
  intros IX IY ES CX CY KC KD ESS.
  pose proof (inv_coherent _ IX) as HX. pose proof (inv_coherent _ IY) as HY. unfold coherent in *. rewrite CX in HX. rewrite CY in HY.
  rewrite ES in HX. assert (cache_agree c d) as A by (eapply agree_trans; [exact HX|apply agree_sym; exact HY]).
  split; [exact A|]. split; [exact ESS|]. split; [apply agree_length; assumption|apply agree_push; assumption].
Qed.

Section BisimStep.
Variable dr : Z -> list (Z * Z) -> option (list (Z * Z)).
Variable nr : list (Z * Z) -> list (Z * Z).
Variable sm : sessmap.

(* same store, same sessions (or both unloaded) *)
Definition wbis (x y : state) : Prop :=
  st x = st y /\ match ca x, ca y with Some c, Some d => c_sess c = c_sess d | None, None => True | _, _ => False end.

Definition res_eq (r r' : state * out) : Prop := snd r = snd r' /\ wbis (fst r) (fst r').

Lemma fin_eq h h' : obs h = obs h' ->
  res_eq (mkState (h_st h) (Some (h_ca h)) (h_n h), h_out h) (mkState (h_st h') (Some (h_ca h')) (h_n h'), h_out h').
Proof. unfold obs, res_eq, wbis. intros E. cbn [fst snd st ca]. repeat split; congruence. Qed.

Lemma keep_eq s c d o : c_sess c = c_sess d -> res_eq (mkState s (Some c) 0, o) (mkState s (Some d) 0, o).
Proof. intros E. split; [reflexivity|]. split; [reflexivity|exact E]. Qed.

Lemma step_obs f x y o : bis x y -> res_eq (step dr nr sm f x o) (step dr nr sm f y o).
Proof.
  intros [ES B]. destruct x as [s cx nx], y as [s' cy ny]. cbn [st ca] in *. subst s'.
  destruct cx as [c|], cy as [d|]; try contradiction.
  2:{ (* both unloaded: the cache is not involved, or it is built from the same store *)
      destruct o; unfold step; cbn [st ca]; try (split; [reflexivity|split; reflexivity]).
      - destruct (try_load f s 0) as [n1 [c|code]]; [|split; [reflexivity|split; reflexivity]].
        apply fin_eq. reflexivity.
      - repeat break_match; split; try reflexivity; split; reflexivity. }
  pose proof (sim_wsim c d B) as [_ ESS].
  assert (forall sid, attached d sid = attached c sid) as EA by (intros sid; unfold attached; rewrite ESS; reflexivity).
  destruct o as [sid want bkg|sid unsub|sid content noecho|sid what seq|sid a b l|sid|sid|sid a b l|sid req hard|sid target mode|sid target| |];
    unfold step; cbn [st ca]; rewrite ?EA.
  - destruct (attached c sid); [apply keep_eq; exact ESS|]. apply fin_eq. apply sub_reply_sim. exact B.
  - destruct (attached c sid); cbn -[leave_unsub leave]; [|apply keep_eq; exact ESS].
    rewrite ESS. destruct unsub.
    + apply fin_eq. apply leave_unsub_sim. exact B.
    + destruct (leave_sim c d sid (match alookup sid (c_sess d) with Some (a, _) => a | None => sess_uid sm sid end) B) as [E1 E2].
      destruct (leave c sid _) as [c1 o1], (leave d sid _) as [d1 o2]. cbn [fst snd] in *. subst o2.
      split; [reflexivity|]. split; [reflexivity|exact E2].
  - destruct (attached c sid); cbn -[publish]; [|apply keep_eq; exact ESS]. apply fin_eq. apply publish_sim. exact B.
  - destruct (attached c sid); cbn -[note]; repeat break_match; try (apply keep_eq; exact ESS); apply fin_eq; apply note_sim; exact B.
  - destruct (attached c sid); cbn -[get_data]; [|apply keep_eq; exact ESS]. apply fin_eq. apply get_data_sim. exact B.
  - destruct (attached c sid); cbn -[get_desc offline_get_desc]; [apply fin_eq; apply get_desc_sim; exact B|].
    split; [reflexivity|]. split; [reflexivity|exact ESS].
  - destruct (attached c sid); cbn -[get_sub offline_get_sub]; [apply fin_eq; apply get_sub_sim; exact B|].
    split; [reflexivity|]. split; [reflexivity|exact ESS].
  - destruct (attached c sid); cbn -[get_del]; [|apply keep_eq; exact ESS]. apply fin_eq. apply get_del_sim. exact B.
  - destruct (attached c sid); cbn -[del_msg]; [|apply keep_eq; exact ESS]. apply fin_eq. apply del_msg_sim. exact B.
  - destruct (attached c sid); cbn -[set_sub offline_set_sub]; [apply fin_eq; apply set_sub_sim; exact B|].
    split; [reflexivity|]. split; [reflexivity|exact ESS].
  - destruct (attached c sid); cbn -[del_sub]; [|apply keep_eq; exact ESS]. apply fin_eq. apply del_sub_sim. exact B.
  - rewrite ESS. destruct (c_sess d) as [|e l] eqn:ED; [split; [reflexivity|split; reflexivity]|apply keep_eq; congruence].
  - split; [reflexivity|split; reflexivity].
Qed.
End BisimStep.

(* ------------------------------------------------------------------ *)
(* the one-entry-per-user property is preserved by every step *)
Section BisimRun.
Variable dr : Z -> list (Z * Z) -> option (list (Z * Z)).
Variable nr : list (Z * Z) -> list (Z * Z).
Variable sm : sessmap.

Lemma keys_sub_reply f s c n sid u want bkg : keys_ok c -> keys_ok (h_ca (sub_reply f s c n sid u want bkg)).
Proof.
  intros K. unfold sub_reply.
  pose proof (keys_tus f s c n sid u want (match alookup u (c_users c) with Some _ => false | None => true end) K) as H.
  destruct (this_user_sub f s c n sid u want _) as [h r]. cbn [fst] in H.
  destruct r; cbn [h_ca]; [exact H|]. repeat break_match; keys_tac H.
Qed.
Lemma keys_set_sub f s c n sid u t m : keys_ok c -> keys_ok (h_ca (set_sub f s c n sid u t m)).
Proof.
  intros K. unfold set_sub. destruct ((t =? 0)%N || (t =? u)%N).
  - pose proof (keys_tus f s c n sid u m false K) as H. destruct (this_user_sub f s c n sid u m false) as [h r]. destruct r; exact H.
  - pose proof (keys_aus f s c n sid u t m K) as H. destruct (another_user_sub f s c n sid u t m) as [h r]. destruct r; exact H.
Qed.

Lemma step_keys f x o : keys_st x -> keys_st (fst (step dr nr sm f x o)).
Proof.
  intros K. apply (step_cases dr nr sm (fun r => keys_st (fst r))); unfold keys_st in *; cbn [fst ca].
  - intros n _. exact K.
  - intros. exact I.
  - intros c h CA A. rewrite CA in K.
    destruct A; [apply keys_leave_unsub|apply keys_publish|apply keys_note|apply keys_del_msg|apply keys_set_sub|apply keys_del_sub]; exact K.
  - intros sid want bkg n _ _. apply keys_sub_reply. unfold cur_cache. destruct (ca x); [exact K|apply keys_load].
  - intros sid c a _ CA _. rewrite CA in K. apply keys_leave, K.
  - intros. exact K.
Qed.

Lemma step_f_keys x fo : keys_st x -> keys_st (fst (step_f dr nr sm x fo)).
Proof.
  intros K. unfold step_f. pose proof (step_keys (fst fo) x (snd fo) K) as H.
  destruct (step dr nr sm (fst fo) x (snd fo)) as [x1 o1]. destruct (fst fo); cbn [fst] in *; try exact H. exact I.
Qed.
Lemma run_keys h x : keys_st x -> keys_st (fst (run dr nr sm x h)).
Proof. exact (TopicFrame.run_inv dr nr sm keys_st step_f_keys h x). Qed.

(* safe_step does not distinguish bisimilar states *)
Lemma bis_attached x y sid : bis x y -> attached_in x sid = attached_in y sid.
Proof.
  intros [_ B]. unfold attached_in. destruct (ca x) as [c|], (ca y) as [d|]; try contradiction; [|reflexivity].
  unfold attached. rewrite (proj2 (sim_wsim c d B)). reflexivity.
Qed.

Lemma bis_safe f x y o : bis x y -> safe_step sm f x o -> safe_step sm f y o.
Proof.
  intros [ES B] SF. destruct x as [s cx nx], y as [s' cy ny]. cbn [st ca] in ES, B. subst s'.
  destruct cx as [c|], cy as [d|]; try contradiction; [|exact SF].
  destruct SF as [KN [T1 [T2 [T3 FO]]]].
  assert (forall sid, attached d sid = attached c sid) as EA by (intros sid; unfold attached; rewrite (proj2 (sim_wsim c d B)); reflexivity).
  split; [exact KN|]. split; [|split; [|split]].
  - destruct o; try exact T1. unfold trig_note_read in *. cbn [ca] in *.
    destruct (sim_pud c d (sess_uid sm sid) B) as [_ [_ [_ [E _]]]]. rewrite EA, E. exact T1.
  - destruct o; try exact T2. unfold trig_readless_pub in *. cbn [ca] in *. rewrite EA, <- (sim_mode c d _ B). exact T2.
  - destruct o; try exact T3. unfold trig_offline_setsub in *. cbn [ca] in *. rewrite EA. exact T3.
  - assert (forall u, match alookup u (c_users c) with Some p => ~ pending p | None => True end ->
                      match alookup u (c_users d) with Some p => ~ pending p | None => True end) as PE.
    { intros u. pose proof (sim_lookup c d u B) as L.
      destruct (alookup u (c_users c)) as [p|], (alookup u (c_users d)) as [q|]; try contradiction; [|auto].
      unfold pending. destruct L as [-> [-> _]]. auto. }
    destruct o; try exact FO; (destruct FO as [FO|FO]; [left; exact FO|right; apply PE, FO]).
Qed.

(* the packaged relation: bisimilar, both satisfying every invariant *)
Definition twin (x y : state) : Prop :=
  bis x y /\ inv x /\ inv y /\ inv_num x /\ inv_num y /\ keys_st x /\ keys_st y.

Lemma wbis_twin x y : wbis x y -> inv x -> inv y -> inv_num x -> inv_num y -> keys_st x -> keys_st y -> twin x y.
Proof.
  intros [ES W] IX IY NX NY KX KY. split; [|tauto]. split; [exact ES|].
  unfold keys_st in *. destruct (ca x) as [c|] eqn:CX, (ca y) as [d|] eqn:CY; try contradiction; [|exact I].
  apply (inv_bis x y c d); assumption.
Qed.

Lemma step_f_twin x y fo :
  twin x y -> safe_step sm (fst fo) x (snd fo) ->
  snd (step_f dr nr sm x fo) = snd (step_f dr nr sm y fo) /\ twin (fst (step_f dr nr sm x fo)) (fst (step_f dr nr sm y fo)).
Proof.
  intros [B [IX [IY [NX [NY [KX KY]]]]]] SX.
  pose proof (bis_safe _ _ _ _ B SX) as SY.
  pose proof (step_f_inv_coh dr nr sm x fo IX NX SX) as IX'. pose proof (step_f_inv_coh dr nr sm y fo IY NY SY) as IY'.
  pose proof (step_f_inv_num dr nr sm x fo NX) as NX'. pose proof (step_f_inv_num dr nr sm y fo NY) as NY'.
  pose proof (step_f_keys x fo KX) as KX'. pose proof (step_f_keys y fo KY) as KY'.
  pose proof (step_obs dr nr sm (fst fo) x y (snd fo) B) as [EO W].
  unfold step_f in *.
  destruct (step dr nr sm (fst fo) x (snd fo)) as [x1 o1], (step dr nr sm (fst fo) y (snd fo)) as [y1 o2]. cbn [fst snd] in *. subst o2.
  destruct (fst fo); cbn [fst snd] in *; (split; [reflexivity|]); apply wbis_twin; try assumption.
  destruct W as [E _]. split; [exact E|exact I].
Qed.

Lemma run_twin h : forall x y,
  twin x y -> safe_run dr nr sm x h ->
  snd (run dr nr sm x h) = snd (run dr nr sm y h) /\ st (fst (run dr nr sm x h)) = st (fst (run dr nr sm y h)).
Proof.
  induction h as [|fo h IH]; intros x y T SR; cbn [run].
  - split; [reflexivity|]. apply T.
  - destruct SR as [SF SR]. destruct (step_f_twin x y fo T SF) as [EO T'].
    destruct (step_f dr nr sm x fo) as [x1 o1], (step_f dr nr sm y fo) as [y1 o2]. cbn [fst snd] in *. subst o2.
    destruct (IH x1 y1 T' SR) as [E1 E2].
    destruct (run dr nr sm x1 h) as [x2 os], (run dr nr sm y1 h) as [y2 os']. cbn [fst snd] in *. subst os'. split; [reflexivity|exact E2].
Qed.

(* a state and its reload are twins *)
Lemma reload_twin x : inv x -> inv_num x -> keys_st x -> twin x (reload x).
Proof.
  intros IX NX KX. unfold reload. destruct x as [s [c|] n]; cbn [ca st ncalls].
  2:{ apply wbis_twin; try assumption. split; [reflexivity|exact I]. }
  pose proof (inv_good _ _ IX eq_refl) as [[W C] S]. cbn [st] in *.
  assert (coh s (reload_cache s c)) as C'.
  { pose proof (coh_load s W) as CL. unfold coh, reload_cache, load in *.
    cbn [c_lastid c_delid c_owner c_auth c_anon c_users] in *. exact CL. }
  assert (sess_ok (reload_cache s c)) as S'.
  { intros sid su bkg Hin. unfold reload_cache in *. cbn [c_sess c_users] in *.
    pose proof (S _ _ _ Hin) as HS. destruct C as [_ [_ [_ [_ [P _]]]]]. specialize (P su).
    destruct W as [ND _]. rewrite <- (load_users_core s su ND) in P.
    destruct (alookup su (c_users c)); [|congruence]. destruct (alookup su (load_users (subs s))); [discriminate|discriminate]. }
  assert (inv (mkState s (Some (reload_cache s c)) n)) as IY by (apply good_inv; split; [split; assumption|exact S']).
  assert (inv_num (mkState s (Some (reload_cache s c)) n)) as NY.
  { destruct NX as [A [B [C0 [C1 C2]]]]. cbn [st ca] in *. destruct C as [EL _].
    unfold inv_num, reload_cache. cbn [st ca c_lastid].
    split; [exact A|]. split; [exact B|]. rewrite <- EL. split; [exact C0|]. split; [lia|exact C2]. }
  apply wbis_twin; try assumption.
  - split; [reflexivity|]. reflexivity.
  - unfold keys_st. cbn [ca]. pose proof (keys_load s) as KL. unfold keys_ok, load, reload_cache in *. cbn [c_users] in *. exact KL.
Qed.

End BisimRun.
