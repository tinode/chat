(* C16 (part f): lemmas about Sys/FilesTypeC16f.v *)
From Coq Require Import NArith ZArith List Bool Lia.
From Tinode Require Import Sys.Files Sys.FilesStoreProofs Sys.FilesTypeC16f.
Import ListNotations.

Lemma bytes_eqb_c16f_eq : forall a b, bytes_eqb_c16f a b = true <-> a = b.
Proof.
  induction a as [|x a IH]; intros [|y b]; cbn [bytes_eqb_c16f]; split; intros H;
    try reflexivity; try discriminate.
  - apply andb_true_iff in H. destruct H as [H1 H2]. apply N.eqb_eq in H1. apply IH in H2. subst. reflexivity.
  - inversion H; subst. rewrite N.eqb_refl. apply IH. reflexivity.
Qed.

Lemma bytes_eqb_c16f_neq : forall a b, a <> b -> bytes_eqb_c16f a b = false.
Proof.
  intros a b H. destruct (bytes_eqb_c16f a b) eqn:E; [|reflexivity].
  apply bytes_eqb_c16f_eq in E. contradiction.
Qed.

(* the loop over allowedMimeTypes: either the running value stays, or it becomes the non-empty
   formatted declared type and the parsed media type starts with one of the listed families *)
Lemma allowed_loop_c16f_char : forall l d m,
  (allowed_loop_c16f l d m = m /\
   ((forall a, In a l -> has_prefix a (d_media d) = false) \/ d_formatted d = [])) \/
  (allowed_loop_c16f l d m = d_formatted d /\ d_formatted d <> [] /\
   exists a, In a l /\ has_prefix a (d_media d) = true).
Proof.
  induction l as [|a l IH]; intros d m; cbn [allowed_loop_c16f].
  - left. split; [reflexivity|]. left. intros a [].
  - destruct (has_prefix a (d_media d)) eqn:Ea.
    + destruct (d_formatted d) as [|c r] eqn:Ef.
      * left. split; [reflexivity|]. right. reflexivity.
      * right. split; [reflexivity|]. split; [discriminate|]. exists a. split; [left; reflexivity|exact Ea].
    + destruct (IH d m) as [[H1 H2]|[H1 [H2 [b [Hb1 Hb2]]]]].
      * left. split; [exact H1|]. destruct H2 as [H2|H2]; [left|right; exact H2].
        intros b [Hb|Hb]; [subst; exact Ea|apply H2; exact Hb].
      * right. split; [exact H1|]. split; [exact H2|]. exists b. split; [right; exact Hb1|exact Hb2].
Qed.

Lemma stored_type_c16f_detected : forall sniff declared,
  sniff <> s_octet_c16f -> stored_type_c16f sniff declared = sniff.
Proof.
  intros sniff declared H. unfold stored_type_c16f. rewrite (bytes_eqb_c16f_neq _ _ H). reflexivity.
Qed.

Lemma stored_type_c16f_char : forall sniff declared,
  stored_type_c16f sniff declared = sniff \/
  (sniff = s_octet_c16f /\
   exists d, declared = Some d /\ stored_type_c16f sniff declared = d_formatted d /\ d_formatted d <> [] /\
     exists a, In a allowed_mime_types_c16f /\ has_prefix a (d_media d) = true).
Proof.
  intros sniff declared. unfold stored_type_c16f.
  destruct (bytes_eqb_c16f sniff s_octet_c16f) eqn:E; [|left; reflexivity].
  apply bytes_eqb_c16f_eq in E. destruct declared as [d|]; [|left; reflexivity].
  destruct (allowed_loop_c16f_char allowed_mime_types_c16f d sniff) as [[H _]|[H1 [H2 H3]]].
  - left. exact H.
  - right. split; [exact E|]. exists d. split; [reflexivity|]. split; [exact H1|]. split; [exact H2|exact H3].
Qed.

Lemma served_c16f_detected : forall asatt sniff declared,
  sniff <> s_octet_c16f ->
  served_c16f asatt sniff declared = (sniff, force_attachment asatt sniff).
Proof.
  intros asatt sniff declared H. unfold served_c16f. rewrite (stored_type_c16f_detected _ _ H). reflexivity.
Qed.

Lemma force_attachment_application_c16f : forall asatt m,
  has_prefix s_application m = true -> force_attachment asatt m = true.
Proof.
  intros asatt m H. unfold force_attachment. rewrite H. repeat rewrite orb_true_r. reflexivity.
Qed.

(* the wider fallback: content detected as application/pdf, declared image/png, is stored as
   image/png and served for display *)
Definition s_pdf_c16f : list N := [97; 112; 112; 108; 105; 99; 97; 116; 105; 111; 110; 47; 112; 100; 102]%N.
Definition s_png_c16f : list N := [105; 109; 97; 103; 101; 47; 112; 110; 103]%N.

Lemma stored_type_wide_c16f_witness :
  let d := {| d_media := s_png_c16f; d_formatted := s_png_c16f |} in
  has_prefix s_application s_pdf_c16f = true /\ s_pdf_c16f <> s_octet_c16f /\
  stored_type_wide_c16f s_pdf_c16f (Some d) = s_png_c16f /\
  force_attachment false (stored_type_wide_c16f s_pdf_c16f (Some d)) = false /\
  stored_type_c16f s_pdf_c16f (Some d) = s_pdf_c16f /\
  force_attachment false (stored_type_c16f s_pdf_c16f (Some d)) = true.
Proof.
  cbv zeta. split; [vm_compute; reflexivity|]. split; [discriminate|].
  repeat split; vm_compute; reflexivity.
Qed.

(* ------------------------------------------------------------------ *)
(* garbage-collection loop                                              *)

Lemma gc_cutoff_c16f_const : forall now p1 p2, gc_cutoff_c16f now p1 = gc_cutoff_c16f now p2.
Proof. reflexivity. Qed.

Lemma gc_cutoff_c16f_hour : forall now period, (now - gc_cutoff_c16f now period = hour_c16f)%Z.
Proof. intros. unfold gc_cutoff_c16f. lia. Qed.

Lemma gc_tick_period_c16f_range : forall period r p,
  (0 <= r < Z.shiftr period 1)%Z -> gc_tick_period_c16f period r = Some p ->
  (Z.shiftr period 1 + Z.shiftr period 2 <= p < 2 * Z.shiftr period 1 + Z.shiftr period 2)%Z.
Proof.
  intros period r p Hr H. unfold gc_tick_period_c16f in H.
  destruct (Z.shiftr period 1 <=? 0)%Z; [discriminate|]. inversion H; subst. lia.
Qed.

Lemma gc_tick_period_c16f_panics : forall period r, (period <= 1)%Z -> gc_tick_period_c16f period r = None.
Proof.
  intros period r H. unfold gc_tick_period_c16f.
  assert (Z.shiftr period 1 <= 0)%Z.
  { rewrite Z.shiftr_div_pow2 by lia. change (2 ^ 1)%Z with 2%Z.
    apply Z.lt_succ_r. apply Z.div_lt_upper_bound; lia. }
  apply Z.leb_le in H0. rewrite H0. reflexivity.
Qed.

(* one tick: a record that is not older than one hour stays, with its bytes, whatever the period,
   the block size and the link state *)
Lemma gc_tick_c16f_grace : forall s now period block f,
  inv_ids s -> In f (files s) -> (now - hour_c16f <= f_upd f)%Z ->
  In f (files (gc_tick_c16f s now period block)) /\
  (In (f_id f) (disk s) -> In (f_id f) (disk (gc_tick_c16f s now period block))).
Proof.
  intros s now period block f Hnd Hin Hyoung. unfold gc_tick_c16f.
  destruct (gc_exact_step s (Some (gc_cutoff_c16f now period)) block Hnd)
    as [H1 [_ [H3 [_ [_ [_ [_ [H8 _]]]]]]]].
  assert (Hnot : forall g, In g (gc_removed s (Some (gc_cutoff_c16f now period)) block) -> f_id g <> f_id f).
  { intros g Hg Heq. destruct (H3 g Hg) as [Hgin [_ Ho]].
    assert (g = f) by (apply (NoDup_map_inj _ _ f_id (files s)); assumption). subst g.
    unfold gc_older_ok, gc_cutoff_c16f in Ho. apply Z.ltb_lt in Ho. lia. }
  split.
  - apply H1; [exact Hin|]. intros Hr. apply (Hnot f Hr). reflexivity.
  - intros Hd. apply H8; [exact Hd|]. unfold gc_deleted_locations. intros Hm.
    apply in_map_iff in Hm. destruct Hm as [g [Hg1 Hg2]]. apply (Hnot g Hg2 Hg1).
Qed.

(* a cut-off taken from the period: with a period below one hour a young unlinked upload is collected *)
Lemma gc_cutoff_by_period_c16f_witness :
  let s := run [OStart 5 0 []; OFinish 5 true 0] in
  let now := 120000000000%Z in let period := 60000000000%Z in
  file_ids s = [5%N] /\
  file_ids (step s (OGC (Some (gc_cutoff_by_period_c16f now period)) 100)) = [] /\
  file_ids (gc_tick_c16f s now period 100) = [5%N].
Proof. vm_compute. repeat split; reflexivity. Qed.
