(* Sys/FanoutBkgC02.v: perUser stays a map (no key twice) over every history, hence the push recipients
   are exactly the users whose STORED grant has R and P. *)
From Coq Require Import ZArith NArith List Bool.
From Tinode Require Import Sys.Fanout Sys.FanoutProofs Sys.FanoutBkgC02 Sys.FanoutBkgC02Proofs Sys.FanoutBkgC02Steps Sys.FanoutBkgC02Runs.
Import ListNotations.
Open Scope N_scope.

Definition wfu (st : state) : Prop := NoDup (map fst (st_users st)).

Lemma xrun_wfu ops : forall x, wfu (x_st x) -> wfu (x_st (fst (xrun x ops))).
Proof.
  induction ops as [|o r IH]; intros x H; cbn [xrun]; [exact H|].
  assert (H1 : wfu (x_st (xnext x (xstep x o)))).
  { pose proof (xstep_ok x o) as Hok. unfold step_ok, xkeeps, xnext in *. cbn [fst] in Hok. destruct (xr_state (xstep x o)); [now apply Hok|exact H]. }
  specialize (IH _ H1). destruct (xrun (xnext x (xstep x o)) r). exact IH.
Qed.

(* the push receipt is addressed exactly to the users whose STORED grant has R and P *)
Lemma push_by_stored_grant x u : xinv x -> wfu (x_st x) ->
  (In u (push_to (x_st x)) <-> has (seff x u) bR = true /\ has (seff x u) bP = true).
Proof.
  intros [_ [_ [_ [_ Hc]]]] Hw. rewrite push_to_spec. unfold seff, stored_modes. rewrite (Hc u). unfold live_modes. split.
  - intros [p [Hin Hp]]. rewrite (in_lookup _ _ _ Hw Hin). apply push_wanted_spec in Hp. destruct Hp as [HR [HP [Hd Hch]]].
    rewrite Hd, Hch. cbn. unfold eff in *. auto.
  - intros [HR HP]. destruct (lookup u (st_users (x_st x))) as [p|] eqn:Ep; [|cbn in HR; discriminate].
    exists p. split; [now apply lookup_in|]. destruct (pu_deleted p || pu_ischan p) eqn:E; [cbn in HR; discriminate|].
    apply orb_false_iff in E. destruct E as [Hd Hch]. apply push_wanted_spec. cbn in HR, HP. unfold eff. auto.
Qed.
