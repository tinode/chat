(* C08: what the known finding note-read-recv-cached-only excuses, and what it does not.

   handleNoteBroadcast raises the CACHED received mark to n when a {note read n} overtakes it but
   writes only ReadSeqId to the store, so after such a note the cache is no longer load(store): the
   cached recv is max(stored recv, read).  [cache_lag_c08d c d] is that weaker agreement: the two
   caches agree on lastID, delID and per user on want, given, read, delID and max(recv, read)
   (owner and default access are not compared).

   - getdesc_lag_c08d: replyGetDesc reports read and max(recv, read): two caches related by
     cache_lag answer {get desc} alike.  So the finding excuses the cached recv ITSELF (and the
     stored recv a later {note recv} writes), never what {get desc} reports.
   - note_lag_c08d: every {note} (read, recv, kp; any fault plan; the trigger of the finding
     included) keeps cache_lag between the cache and load(store).
   Together: along histories of notes and {get desc}, a reload changes no reported mark. *)
From Coq Require Import ZArith NArith List Bool Lia.
From Tinode Require Import Base.Util Pure.Acs Sys.Topic Sys.TopicTac Sys.TopicFrame Sys.TopicMarks Sys.TopicCohC08 Sys.TopicCohC08Proofs Sys.TopicCohC08Step.
Import ListNotations.
Open Scope Z_scope.

Definition lag_pud_c08d (p q : pud) : Prop :=
  p_want p = p_want q /\ p_given p = p_given q /\ p_read p = p_read q /\ p_delid p = p_delid q /\
  Z.max (p_recv p) (p_read p) = Z.max (p_recv q) (p_read q).

Definition lag_opt_c08d (a b : option pud) : Prop :=
  match a, b with
  | Some p, Some q => lag_pud_c08d p q
  | None, None => True
  | _, _ => False
  end.

Definition cache_lag_c08d (c d : cache) : Prop :=
  c_lastid c = c_lastid d /\ c_delid c = c_delid d /\
  forall u, lag_opt_c08d (alookup u (c_users c)) (alookup u (c_users d)).

(* agreement on the stored fields (coherence) is the special case *)
Lemma agree_lag_c08d c d : cache_agree c d -> cache_lag_c08d c d.
Proof.
  intros [E1 [E2 [_ [_ [_ P]]]]]. split; [exact E1|]. split; [exact E2|]. intros u. specialize (P u).
  unfold lag_opt_c08d. destruct (alookup u (c_users c)) as [p|], (alookup u (c_users d)) as [q|]; cbn in P; try discriminate; [|exact I].
  unfold core in P. injection P as Hw Hg Hr Hc Hd. unfold lag_pud_c08d. rewrite Hw, Hg, Hr, Hc, Hd. repeat split; reflexivity.
Qed.

(* replyGetDesc *)
Lemma getdesc_lag_c08d s s' c d n n' sid u :
  cache_lag_c08d c d -> h_out (get_desc s c n sid u) = h_out (get_desc s' d n' sid u).
Proof.
  intros [E1 [E2 P]]. specialize (P u). unfold get_desc, lag_opt_c08d in *.
  destruct (alookup u (c_users c)) as [p|], (alookup u (c_users d)) as [q|]; try contradiction; [|reflexivity].
  destruct P as [Hw [Hg [Hr [Hd Hm]]]]. unfold pud_mode. rewrite Hm, Hw, Hg, Hr, Hd, E1, E2.
  destruct (is_reader _); reflexivity.
Qed.

(* a store update of [u]'s marks that leaves his read mark equal to the cached one and the larger of
   received and read mark equal to the cached larger one keeps the relation with what the load path builds *)
Lemma lag_marks_c08d s c u p up rd rc :
  NoDup (map s_user (subs s)) -> u <> 0%N -> cache_lag_c08d c (load s) -> alookup u (c_users c) = Some p ->
  u_want up = None -> u_given up = None -> u_delid up = None ->
  (forall r, p_read p = s_read r -> Z.max (p_recv p) (p_read p) = Z.max (s_recv r) (s_read r) ->
     s_read (apply_upd up r) = rd /\ Z.max rc rd = Z.max (s_recv (apply_upd up r)) rd) ->
  cache_lag_c08d (c_set_users (aset u (p_set_marks rd rc p)) c) (load (ad_subs_update s u up)).
Proof.
  intros ND NZ [E1 [E2 P]] L UW UG UD M. unfold load in *. pose proof (scal_subs_update s u up) as [S1 [S2 _]].
  split; [cbn; rewrite S1; exact E1|]. split; [cbn; rewrite S2; exact E2|].
  intros v. cbn [c_users c_set_users]. rewrite alookup_aset, load_users_lookup by (rewrite users_subs_update; exact ND).
  rewrite find_sub_update, (proj2 (N.eqb_neq _ _) NZ). cbn [orb].
  specialize (P v). cbn [c_users] in P. rewrite load_users_lookup in P by exact ND.
  destruct (N.eqb_spec v u) as [->|NE]; [|exact P]. rewrite L in P. unfold lag_opt_c08d in *.
  destruct (find_sub u (subs s)) as [r|]; [|contradiction]. cbn [option_map apply_upd s_deleted].
  destruct (s_deleted r); [contradiction|]. destruct P as [Hw [Hg [Hr [Hd Hm]]]]. destruct (M r Hr Hm) as [M1 M2].
  assert (s_want (apply_upd up r) = s_want r /\ s_given (apply_upd up r) = s_given r /\ s_delid (apply_upd up r) = s_delid r)
    as [A1 [A2 A3]] by (cbn; rewrite UW, UG, UD; auto).
  unfold lag_pud_c08d, row_pud in *. cbn [p_want p_given p_read p_recv p_delid p_set_marks] in *.
  rewrite A1, A2, A3, M1. repeat split; first [assumption|reflexivity].
Qed.

(* handleNoteBroadcast keeps the relation between the cache and what the load path builds *)
Lemma note_lag_c08d f s c n sid u what seq :
  NoDup (map s_user (subs s)) -> u <> 0%N ->
  cache_lag_c08d c (load s) ->
  cache_lag_c08d (h_ca (note f s c n sid u what seq)) (load (h_st (note f s c n sid u what seq))).
Proof.
  intros ND NZ L. unfold note.
  destruct (c_lastid c <? seq); [exact L|].
  destruct (N.eqb what K_kp); [destruct (negb (is_writer _)); exact L|].
  destruct (N.eqb what K_read || N.eqb what K_recv); [|exact L].
  destruct (negb (is_reader (pud_mode (get_pud c u)))) eqn:RD; [exact L|]. apply negb_false_iff in RD.
  pose proof (get_pud_has _ _ _ RD) as LK. set (p := get_pud c u) in *.
  destruct (N.eqb what K_read); cbn [andb negb].
  - destruct (seq <=? p_read p) eqn:LE; [exact L|]. apply Z.leb_gt in LE.
    destruct (call f n) as [ok1 n1]. destruct (negb ok1); [exact L|]. cbn [h_ca h_st].
    apply lag_marks_c08d; try assumption; try reflexivity. intros r Hr Hm. split; [reflexivity|]. cbn [apply_upd s_recv u_recv].
    destruct (p_recv p <? seq) eqn:LT; [apply Z.ltb_lt in LT|apply Z.ltb_ge in LT]; lia.
  - destruct (seq <=? p_recv p); [exact L|].
    destruct (call f n) as [ok1 n1]. destruct (negb ok1); [exact L|]. cbn [h_ca h_st].
    apply lag_marks_c08d; try assumption; try reflexivity. intros r Hr _. split; [symmetry; exact Hr|reflexivity].
Qed.

(* boolean form, for witnesses *)
Definition lag_optb_c08d (a b : option pud) : bool :=
  match a, b with
  | Some p, Some q => N.eqb (p_want p) (p_want q) && N.eqb (p_given p) (p_given q) && (p_read p =? p_read q) && (p_delid p =? p_delid q)
                      && (Z.max (p_recv p) (p_read p) =? Z.max (p_recv q) (p_read q))
  | None, None => true
  | _, _ => false
  end.
Lemma lag_optb_ok_c08d a b : lag_optb_c08d a b = true -> lag_opt_c08d a b.
Proof.
  unfold lag_optb_c08d, lag_opt_c08d. destruct a as [p|], b as [q|]; try discriminate; [|trivial].
  intros H. repeat (apply andb_prop in H; destruct H as [H ?]).
  unfold lag_pud_c08d. repeat split; try (apply N.eqb_eq; assumption); apply Z.eqb_eq; assumption.
Qed.

(* ------------------------------------------------------------------ *)
(* at the level of requests *)
Definition lag_state_c08d (x : state) : Prop :=
  match ca x with Some c => cache_lag_c08d c (load (st x)) | None => True end.

Section StepLag.
Variable dr : Z -> list (Z * Z) -> option (list (Z * Z)).
Variable nr : list (Z * Z) -> list (Z * Z).
Variable sm : sessmap.

(* {get desc} from any session, attached or not: the same frames from two caches related by cache_lag *)
Lemma step_getdesc_lag_c08d f s c d n sid :
  cache_lag_c08d c d -> c_sess c = c_sess d ->
  snd (step dr nr sm f (mkState s (Some c) n) (OGetDesc sid)) = snd (step dr nr sm f (mkState s (Some d) n) (OGetDesc sid)).
Proof.
  intros L ES.
  assert (attached c sid = attached d sid) as EA by (unfold attached; rewrite ES; reflexivity).
  unfold step; cbn [st ca]; rewrite <- EA.
  destruct (attached c sid); cbn -[get_desc offline_get_desc]; [|reflexivity].
  apply getdesc_lag_c08d. exact L.
Qed.

(* hence: in a state that lags only by the cached recv, a reload changes no {get desc} answer *)
Lemma reload_getdesc_lag_c08d f x sid :
  lag_state_c08d x ->
  snd (step dr nr sm f x (OGetDesc sid)) = snd (step dr nr sm f (reload x) (OGetDesc sid)).
Proof.
  intros L. unfold reload, lag_state_c08d in *. destruct x as [s [c|] n]; cbn [ca st ncalls] in *; [|reflexivity].
  apply step_getdesc_lag_c08d; [|reflexivity].
  destruct L as [E1 [E2 P]]. split; [exact E1|]. split; [exact E2|]. exact P.
Qed.

(* every {note} request keeps the state within the lag *)
Lemma step_note_lag_c08d f x sid what seq :
  NoDup (map s_user (subs (st x))) -> sess_uid sm sid <> 0%N ->
  lag_state_c08d x -> lag_state_c08d (fst (step dr nr sm f x (ONote sid what seq))).
Proof.
  intros ND NZ L. unfold step. cbn zeta.
  destruct x as [s [c|] n]; cbn [ca st] in *.
  - unfold lag_state_c08d in L. cbn [ca st] in L.
    destruct (attached c sid); cbn [negb].
    + destruct (N.eqb what K_kp).
      { destruct (seq =? 0); cbn [fst]; unfold lag_state_c08d; cbn [ca st]; [|exact L]. apply note_lag_c08d; assumption. }
      destruct (N.eqb what K_read || N.eqb what K_recv); [|cbn [fst]; exact L].
      destruct (seq <=? 0); cbn [fst]; unfold lag_state_c08d; cbn [ca st]; [exact L|]. apply note_lag_c08d; assumption.
    + destruct (N.eqb what K_kp).
      { destruct (seq =? 0); cbn [fst]; exact L. }
      destruct (N.eqb what K_read || N.eqb what K_recv); [|cbn [fst]; exact L].
      destruct (seq <=? 0); [cbn [fst]; exact L|].
      destruct (N.eqb what K_recv); cbn [fst]; unfold lag_state_c08d; cbn [ca st]; [|exact L].
      apply note_lag_c08d; assumption.
  - cbn [negb].
    destruct (N.eqb what K_kp).
    { destruct (seq =? 0); cbn [fst]; exact I. }
    destruct (N.eqb what K_read || N.eqb what K_recv); [|cbn [fst]; exact I].
    destruct (seq <=? 0); [cbn [fst]; exact I|].
    destruct (N.eqb what K_recv); cbn [fst]; exact I.
Qed.

(* the store keeps one row per user through a {note} *)
Lemma step_note_nodup_c08d f x sid what seq :
  NoDup (map s_user (subs (st x))) -> NoDup (map s_user (subs (st (fst (step dr nr sm f x (ONote sid what seq)))))).
Proof.
  intros ND. unfold step. cbn zeta.
  assert (forall c n, NoDup (map s_user (subs (h_st (note f (st x) c n sid (sess_uid sm sid) what seq))))) as HN.
  { intros c n. unfold note. repeat match goal with |- context [if ?b then _ else _] => destruct b end;
      try (destruct (call f n) as [ok1 n1]; destruct ok1); cbn [h_st negb]; try exact ND; rewrite users_subs_update; exact ND. }
  destruct x as [s [c|] n]; cbn [ca st] in *;
    repeat match goal with |- context [if ?b then _ else _] => destruct b end; cbn [fst st h_st]; try exact ND; apply HN.
Qed.
End StepLag.

(* ------------------------------------------------------------------ *)
(* histories of {note} and {get desc} requests (any sessions, any marks, any fault plans) *)
Definition marks_op_c08d (sm : sessmap) (fo : fault * op) : Prop :=
  match snd fo with
  | ONote sid _ _ => sess_uid sm sid <> 0%N
  | OGetDesc _ => True
  | _ => False
  end.

Section RunLag.
Variable dr : Z -> list (Z * Z) -> option (list (Z * Z)).
Variable nr : list (Z * Z) -> list (Z * Z).
Variable sm : sessmap.

Lemma step_getdesc_same_c08d f x sid :
  st (fst (step dr nr sm f x (OGetDesc sid))) = st x /\ ca (fst (step dr nr sm f x (OGetDesc sid))) = ca x.
Proof.
  unfold step. cbn zeta. destruct x as [s [c|] n]; cbn [ca st].
  - destruct (attached c sid); cbn [negb fst st ca]; [|rewrite offline_get_desc_frame; split; reflexivity].
    destruct (get_desc_same s c 0 sid (sess_uid sm sid)) as [-> ->]. split; reflexivity.
  - cbn [negb fst st ca]. rewrite offline_get_desc_frame. split; reflexivity.
Qed.

Lemma run_marks_lag_c08d h : forall x,
  Forall (marks_op_c08d sm) h -> NoDup (map s_user (subs (st x))) -> lag_state_c08d x ->
  lag_state_c08d (fst (run dr nr sm x h)) /\ NoDup (map s_user (subs (st (fst (run dr nr sm x h))))).
Proof.
  induction h as [|[f o] h IH]; intros x F ND L; cbn [run]; [split; assumption|].
  inversion F as [|? ? Ho Fh]; subst.
  unfold step_f. cbn [fst snd].
  destruct (step dr nr sm f x o) as [x1 o1] eqn:ES.
  assert (lag_state_c08d x1 /\ NoDup (map s_user (subs (st x1)))) as [L1 ND1].
  { unfold marks_op_c08d in Ho. cbn [snd] in Ho. destruct o; try contradiction.
    - pose proof (step_note_lag_c08d dr nr sm f x sid what seq ND Ho L) as A.
      pose proof (step_note_nodup_c08d dr nr sm f x sid what seq ND) as B. rewrite ES in A, B. split; assumption.
    - pose proof (step_getdesc_same_c08d f x sid) as [A B]. rewrite ES in A, B. cbn [fst] in A, B.
      unfold lag_state_c08d in *. rewrite A, B. split; assumption. }
  assert (lag_state_c08d (match f with CrashAt _ => mkState (st x1) None (ncalls x1) | _ => x1 end) /\
          NoDup (map s_user (subs (st (match f with CrashAt _ => mkState (st x1) None (ncalls x1) | _ => x1 end))))) as [L2 ND2].
  { destruct f; try (split; assumption). split; [exact I|exact ND1]. }
  destruct f; cbn [fst]; 
    match goal with |- context [run dr nr sm ?y h] => specialize (IH y Fh); destruct (run dr nr sm y h) as [x2 os] eqn:ER end;
    cbn [fst] in *; apply IH; assumption.
Qed.

End RunLag.
