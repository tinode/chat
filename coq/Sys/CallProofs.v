(* Lemmas about the call model Sys/Call.v (C15).  [step] is [step_raw] for a live connection (step_eq);
   handleCallEvent is analysed once (hce_cases); how the call slot, the timer and lastID move in a step is proved
   once per operation (moves_raw), and the ghost log of started and ended calls rests on it. *)
From Coq Require Import ZArith NArith List Bool Lia.
From Tinode Require Import Sys.Call.
Import ListNotations.
Open Scope Z_scope.

Ltac inv H := inversion H; subst; clear H.

Definition is_some {A} (o : option A) : bool := match o with Some _ => true | None => false end.

(* the connection can issue requests *)
Definition live (cfg : config) (st : state) (s : sid) : Prop := known cfg s = true /\ mem s (dead st) = false.

(* [step]: nothing at all for a closed or unknown connection, else [step_raw] with the frames for
   closed connections dropped *)
Lemma step_live cfg st o s : op_sid o = Some s -> live cfg st s ->
  step cfg st o = (fst (step_raw cfg st o), filter (fun so => negb (mem (fst so) (dead (fst (step_raw cfg st o))))) (snd (step_raw cfg st o))).
Proof.
  intros Hs [Hk Hd]. unfold step. rewrite Hs, Hk, Hd. cbn. destruct (step_raw cfg st o); reflexivity.
Qed.

Lemma step_not_live cfg st o s : op_sid o = Some s -> ~ live cfg st s -> step cfg st o = (st, []).
Proof.
  intros Hs Hn. unfold step. rewrite Hs. destruct (known cfg s) eqn:Hk; cbn; [|reflexivity].
  destruct (mem s (dead st)) eqn:Hd; [reflexivity|]. exfalso. apply Hn. split; assumption.
Qed.

Lemma step_eq cfg st o st' os :
  step cfg st o = (st', os) ->
  (st' = st /\ os = []) \/
  (st' = fst (step_raw cfg st o) /\
   os = filter (fun so => negb (mem (fst so) (dead (fst (step_raw cfg st o))))) (snd (step_raw cfg st o)) /\
   forall s, op_sid o = Some s -> live cfg st s).
Proof.
  unfold step. destruct (op_sid o) as [s|] eqn:Ho.
  - destruct (known cfg s) eqn:Hk; cbn; [|intros H; injection H as <- <-; auto].
    destruct (mem s (dead st)) eqn:Hd; [intros H; injection H as <- <-; auto|].
    destruct (step_raw cfg st o). intros H. injection H as <- <-. right. split; [reflexivity|]. split; [reflexivity|].
    intros s' Hs'. injection Hs' as <-. split; assumption.
  - destruct (step_raw cfg st o). intros H. injection H as <- <-. right. split; [reflexivity|]. split; [reflexivity|]. discriminate.
Qed.

Lemma step_fst cfg st o : fst (step cfg st o) = st \/ fst (step cfg st o) = fst (step_raw cfg st o).
Proof.
  destruct (step cfg st o) as [st' os] eqn:E. destruct (step_eq _ _ _ _ _ E) as [[-> _]|[-> _]]; auto.
Qed.

Lemma step_out_incl cfg st o x f : In (x, f) (snd (step cfg st o)) -> In (x, f) (snd (step_raw cfg st o)).
Proof.
  destruct (step cfg st o) as [st' os] eqn:E. destruct (step_eq _ _ _ _ _ E) as [[_ ->]|[_ [-> _]]]; [intros []|].
  intros H. apply filter_In in H. tauto.
Qed.

(* saveAndBroadcastMessage *)
Definition new_msg (cfg : config) (st : state) (msess : sid) (u : uid) (repl : option Z) (w : option wstate) (content : N) : msg :=
  mkMsg (lastid st + 1) u repl w (if N.eqb (user_of cfg msess) u then 0%N else user_of cfg msess) content.

Lemma sab_cases cfg st ms hid u r w c :
  (writer st u = false /\ save_and_broadcast cfg st ms hid u r w c = (st, [(ms, FCtrl 403 None)], false)) \/
  (writer st u = true /\
   save_and_broadcast cfg st ms hid u r w c =
     (add_msg (new_msg cfg st ms u r w c) st,
      (if hid then [(ms, FCtrl 202 (Some (lastid st + 1)))] else []) ++ bcast_data cfg (add_msg (new_msg cfg st ms u r w c) st) (new_msg cfg st ms u r w c),
      true)).
Proof.
  unfold save_and_broadcast. destruct (writer st u); cbn; [right|left]; split; reflexivity.
Qed.

(* the invitation gate *)
Definition gate_ok (cfg : config) (st : state) (s : sid) : bool :=
  configured cfg && mem s (attached st) && writer st (user_of cfg s) && negb (is_some (current st)).

Definition invite_state (cfg : config) (st : state) (s : sid) (content w : N) : state :=
  set_timer true (set_current (Some (mkCall (user_of cfg s) s None (lastid st + 1) content))
    (add_msg (new_msg cfg st s (user_of cfg s) None (Some (WClient w)) content) st)).

Definition refusal_code (cfg : config) (st : state) (s : sid) : Z :=
  if negb (mem s (attached st)) then 409 else if negb (configured cfg) then 501
  else if is_some (current st) then 486 else 403.

Lemma gate_raw cfg st s content w :
  (gate_ok cfg st s = true /\
   step_raw cfg st (OInvite s content w) =
     (invite_state cfg st s content w,
      (s, FCtrl 202 (Some (lastid st + 1))) ::
        bcast_data cfg (add_msg (new_msg cfg st s (user_of cfg s) None (Some (WClient w)) content) st)
          (new_msg cfg st s (user_of cfg s) None (Some (WClient w)) content))) \/
  (gate_ok cfg st s = false /\
   step_raw cfg st (OInvite s content w) = (st, [(s, FCtrl (refusal_code cfg st s) None)])).
Proof.
  unfold gate_ok, refusal_code. cbn [step_raw].
  destruct (mem s (attached st)); cbn; [|right; rewrite andb_false_r; auto].
  destruct (configured cfg); cbn; [|right; auto].
  destruct (current st) eqn:Hc; cbn; [right; rewrite andb_false_r; auto|].
  destruct (sab_cases cfg st s true (user_of cfg s) None (Some (WClient w)) content) as [[Hw E]|[Hw E]]; rewrite E, Hw; cbn.
  - right. auto.
  - left. split; [reflexivity|]. unfold invite_state. reflexivity.
Qed.

Lemma dead_add_msg m st : dead (add_msg m st) = dead st. Proof. reflexivity. Qed.

Lemma gate cfg st s content w st' os :
  live cfg st s ->
  step cfg st (OInvite s content w) = (st', os) ->
  (gate_ok cfg st s = true ->
     st' = invite_state cfg st s content w /\ In (s, FCtrl 202 (Some (lastid st + 1))) os) /\
  (gate_ok cfg st s = false ->
     st' = st /\ os = [(s, FCtrl (refusal_code cfg st s) None)]) /\
  (configured cfg = true -> mem s (attached st) = true -> current st <> None ->
     st' = st /\ os = [(s, FCtrl 486 None)]).
Proof.
  intros Hl Hs. rewrite (step_live cfg st (OInvite s content w) s eq_refl Hl) in Hs. destruct Hl as [_ Hd].
  destruct (gate_raw cfg st s content w) as [[Hok E]|[Hok E]]; rewrite E in Hs; cbn [fst snd] in Hs; injection Hs as Hst Hos; subst st' os.
  - split; [|split].
    + intros _. split; [reflexivity|]. cbn. rewrite Hd. cbn. left. reflexivity.
    + rewrite Hok. discriminate.
    + intros Hc Ha Hcur. unfold gate_ok in Hok. destruct (current st); [|contradiction].
      rewrite andb_false_r in Hok. discriminate.
  - split; [|split].
    + rewrite Hok. discriminate.
    + intros _. split; [reflexivity|]. cbn. rewrite Hd. reflexivity.
    + intros Hc Ha Hcur. split; [reflexivity|]. cbn. rewrite Hd. cbn. unfold refusal_code. rewrite Ha, Hc.
      destruct (current st); [reflexivity|contradiction].
Qed.

(* {note what=call}: Session.note's routing, then handleCallEvent *)
Lemma event_raw_cases cfg st s e q p :
  step_raw cfg st (OEvent s e q p) = (st, []) \/ step_raw cfg st (OEvent s e q p) = (st, [(s, FCtrl 409 None)]) \/
  (step_raw cfg st (OEvent s e q p) = handle_call_event cfg st s e q p /\ 0 < q <= lastid st /\
   (mem s (attached st) = true \/ (hub_routed e = true /\ loaded st = true))).
Proof.
  cbn [step_raw]. destruct (q <=? 0) eqn:E0; [auto|]. apply Z.leb_gt in E0.
  destruct (mem s (attached st)) eqn:Ha; cbn.
  - destruct (lastid st <? q) eqn:E1; [auto|]. apply Z.ltb_ge in E1. right. right. repeat split; auto; lia.
  - destruct (hub_routed e) eqn:Hh; cbn; [|auto]. destruct (loaded st) eqn:Hl; [|auto].
    destruct (lastid st <? q) eqn:E1; [auto|]. apply Z.ltb_ge in E1. right. right. repeat split; auto; lia.
Qed.

Definition quiet (s : sid) (os : list out) : Prop :=
  forall x f, In (x, f) os -> x = s /\ exists code, f = FCtrl code None.

Definition role_ok (cfg : config) (c : call) (s : sid) (e : event) : Prop :=
  match e with
  | EvRinging | EvAccept => accepted c = false /\ s <> c_osid c /\ user_of cfg s <> c_ouid c
  | EvOffer | EvAnswer | EvIce => accepted c = true /\ is_party c s = true
  | EvHangup => if accepted c then is_party c s = true else (s = c_osid c \/ user_of cfg s <> c_ouid c)
  | EvUnknown => False
  end.

Definition relay_to (c : call) (s : sid) (e : event) : option sid :=
  match e with
  | EvRinging | EvAccept => Some (c_osid c)
  | EvOffer | EvAnswer | EvIce =>
    match c_callee c with
    | Some (ks, _) => if N.eqb s (c_osid c) then Some ks else if N.eqb s ks then Some (c_osid c) else None
    | None => None
    end
  | _ => None
  end.

Definition accept_state (cfg : config) (st : state) (c : call) (s : sid) : state :=
  set_timer false (set_current (Some (mkCall (c_ouid c) (c_osid c) (Some (s, user_of cfg s)) (c_seq c) (c_content c)))
    (add_msg (new_msg cfg st s (c_ouid c) (Some (c_seq c)) (Some WAccepted) (c_content c)) st)).

(* what handleCallEvent does with an event it does not ignore: relays it to one session, refuses or records
   the acceptance, ends the call *)
Inductive hce_effect (cfg : config) (st : state) (c : call) (s : sid) (e : event) (p : N) : state * list out -> Prop :=
| hce_relay x t pl : relay_to c s e = Some x ->
    hce_effect cfg st c s e p (st, [(x, FInfo e (c_seq c) (user_of cfg s) t pl)])
| hce_refused : e = EvAccept -> writer st (c_ouid c) = false -> hce_effect cfg st c s e p (st, [(s, FCtrl 403 None)])
| hce_accepted : e = EvAccept -> writer st (c_ouid c) = true ->
    hce_effect cfg st c s e p
      (accept_state cfg st c s,
       bcast_data cfg (add_msg (new_msg cfg st s (c_ouid c) (Some (c_seq c)) (Some WAccepted) (c_content c)) st)
         (new_msg cfg st s (c_ouid c) (Some (c_seq c)) (Some WAccepted) (c_content c)) ++
       me_info cfg (accept_state cfg st c s) (user_of cfg s) (user_of cfg s) EvAccept (c_seq c) (Some p) (Some s) false ++
       [(c_osid c, FInfo EvAccept (c_seq c) (user_of cfg s) (peer_of st (c_ouid c)) None)])
| hce_ended : e = EvHangup -> hce_effect cfg st c s e p (end_call cfg st c (user_of cfg s) s false).

(* handleCallEvent: the event is ignored, or it names the current call and comes from a subscriber in the
   right role.  Stated of the result [r] so that the handler's text stands once in the goal while its tests
   are walked. *)
Lemma hce_cases cfg st s e q p r :
  handle_call_event cfg st s e q p = r ->
  r = (st, []) \/
  exists c, current st = Some c /\ c_seq c = q /\ participant st (user_of cfg s) = true /\ role_ok cfg c s e /\
    hce_effect cfg st c s e p r.
Proof.
  unfold handle_call_event, handle_call_event_with.
  destruct (current st) as [c|] eqn:Hc; [|auto].
  destruct (c_seq c =? q) eqn:Hq; cbn [negb]; [|auto]. apply Z.eqb_eq in Hq.
  destruct (lookup (user_of cfg s) (users st)) as [pd|] eqn:Hu; [|auto].
  destruct (p_deleted pd) eqn:Hdel; [auto|].
  assert (Hp : participant st (user_of cfg s) = true) by (unfold participant; rewrite Hu, Hdel; reflexivity).
  enough (G : _ = r -> r = (st, []) \/ role_ok cfg c s e /\ hce_effect cfg st c s e p r) by
    (intros Er; destruct (G Er) as [G'|G']; [left; exact G'|right; exists c; split; [reflexivity|split; [exact Hq|split; [exact Hp|exact G']]]]).
  destruct e; cbn [role_ok].
  3, 4, 5: destruct (c_callee c) as [[ks ku]|] eqn:Hk; [|auto];
    destruct (N.eqb s (c_osid c)) eqn:E1; [|destruct (N.eqb s ks) eqn:E2; [|auto]]; intros <-; right;
    (split; [unfold accepted, is_party; rewrite Hk, E1, ?E2, ?orb_true_r; auto|]);
    apply hce_relay; cbn; rewrite Hk, E1, ?E2; reflexivity.
  1, 2: destruct (accepted c) eqn:Ha; [auto|]; destruct (N.eqb (c_osid c) s) eqn:E1; cbn [orb]; [auto|];
    destruct (N.eqb (c_ouid c) (user_of cfg s)) eqn:E2; [auto|];
    assert (Hr : false = false /\ s <> c_osid c /\ user_of cfg s <> c_ouid c)
      by (split; [reflexivity|split; intros X; [rewrite X, N.eqb_refl in E1|rewrite X, N.eqb_refl in E2]; discriminate]).
  - intros <-. right. split; [exact Hr|]. apply hce_relay. reflexivity.
  - destruct (sab_cases cfg st s false (c_ouid c) (Some (c_seq c)) (Some WAccepted) (c_content c)) as [[Hw E]|[Hw E]];
      rewrite E; cbn [negb]; intros <-; right; (split; [exact Hr|]); [apply hce_refused|apply hce_accepted]; auto.
  - destruct (accepted c).
    + destruct (is_party c s); cbn [negb]; intros <-; [right; split; [reflexivity|apply hce_ended; reflexivity]|auto].
    + destruct (N.eqb (user_of cfg s) (c_ouid c)) eqn:E1; cbn [andb]; [destruct (N.eqb (c_osid c) s) eqn:E2; cbn [negb]; [|auto]|];
        intros <-; right; (split; [|apply hce_ended; reflexivity]).
      * left. symmetry. apply N.eqb_eq. exact E2.
      * right. intros X. rewrite X, N.eqb_refl in E1. discriminate.
  - auto.
Qed.

Lemma hce_stale cfg st s e q p :
  (current st = None \/ exists c, current st = Some c /\ c_seq c <> q) ->
  handle_call_event cfg st s e q p = (st, []).
Proof.
  intros H. destruct (hce_cases cfg st s e q p _ eq_refl) as [E|[c [Hc [Hq _]]]]; [exact E|].
  destruct H as [H|[c' [H Hn]]]; rewrite Hc in H; [discriminate|]. injection H as <-. contradiction.
Qed.

(* a call event as a step: dropped, refused for want of an attachment, or handed to handleCallEvent *)
Lemma event_step cfg st s e q p st' os :
  step cfg st (OEvent s e q p) = (st', os) ->
  (st' = st /\ (os = [] \/ os = [(s, FCtrl 409 None)])) \/
  (st' = fst (handle_call_event cfg st s e q p) /\
   os = filter (fun so => negb (mem (fst so) (dead st'))) (snd (handle_call_event cfg st s e q p))).
Proof.
  intros Hs. apply step_eq in Hs. destruct Hs as [[-> ->]|[-> [-> Hl]]]; [auto|]. destruct (Hl s eq_refl) as [_ Hd].
  destruct (event_raw_cases cfg st s e q p) as [E|[E|[E _]]]; rewrite E; [left; cbn; rewrite ?Hd; auto..|right; auto].
Qed.

Lemma quiet_nil s : quiet s []. Proof. intros x f []. Qed.
Lemma quiet_one s code : quiet s [(s, FCtrl code None)].
Proof. intros x f [H|[]]. inv H. split; [reflexivity|eexists; reflexivity]. Qed.
#[export] Hint Resolve quiet_nil quiet_one : core.

Lemma roles cfg st s e q p st' os :
  step cfg st (OEvent s e q p) = (st', os) ->
  (st' = st /\ quiet s os) \/
  exists c, current st = Some c /\ c_seq c = q /\ participant st (user_of cfg s) = true /\ role_ok cfg c s e.
Proof.
  intros Hs. destruct (event_step _ _ _ _ _ _ _ _ Hs) as [[-> [-> | ->]]|[-> ->]]; [auto..|].
  destruct (hce_cases cfg st s e q p _ eq_refl) as [E'|[c [Hc [Hq [Hu [Hr _]]]]]]; [rewrite E'; auto|].
  right. exists c. auto.
Qed.

Definition is_relay (f : frame) : bool := match f with FInfo _ _ _ _ _ => true | _ => false end.

(* what one output of a non-hang-up call event can be *)
Definition event_out_ok (cfg : config) (st : state) (c : call) (s : sid) (e : event) (so : out) : Prop :=
  let (x, f) := so in
  match f with
  | FCtrl code _ => x = s /\ code = 403
  | FData m _ => e = EvAccept /\ mem x (attached st) = true /\
                 m = new_msg cfg st s (c_ouid c) (Some (c_seq c)) (Some WAccepted) (c_content c)
  | FInfoMe ev q' from _ _ => e = EvAccept /\ ev = EvAccept /\ q' = c_seq c /\ from = user_of cfg s /\
                              user_of cfg x = user_of cfg s /\ x <> s /\ mem x (on_me st) = true
  | FInfo ev q' from _ _ => ev = e /\ q' = c_seq c /\ from = user_of cfg s /\ relay_to c s e = Some x
  end.

Lemma mem_In k l : mem k l = true <-> In k l.
Proof.
  induction l as [|a l IH]; cbn; [split; [discriminate|tauto]|].
  rewrite orb_true_iff, IH, N.eqb_eq. split; intros [H|H]; auto.
Qed.

Lemma in_bcast_data cfg st m x f : In (x, f) (bcast_data cfg st m) ->
  mem x (attached st) = true /\ exists t, f = FData m t.
Proof.
  unfold bcast_data. intros H. apply in_map_iff in H. destruct H as [k [E Hin]]. injection E as <- <-.
  split; [apply mem_In; exact Hin|eexists; reflexivity].
Qed.

Lemma in_me_info cfg st from target ev q pl skip off x f :
  In (x, f) (me_info cfg st from target ev q pl skip off) ->
  exists src, f = FInfoMe ev q from src pl /\ user_of cfg x = target /\ mem x (on_me st) = true /\
    (forall k, skip = Some k -> x <> k).
Proof.
  unfold me_info. destruct (lookup target (users st)) as [pd|]; [|intros []].
  destruct (p_deleted pd); [intros []|]. intros H. apply in_map_iff in H. destruct H as [k [E Hin]].
  injection E as <- <-. apply filter_In in Hin. destruct Hin as [Hin Hc].
  apply andb_true_iff in Hc. destruct Hc as [Hc H3]. apply andb_true_iff in Hc. destruct Hc as [H1 H2].
  exists (p_peer pd). split; [reflexivity|]. split; [apply N.eqb_eq; exact H1|]. split; [apply mem_In; exact Hin|].
  intros k' -> ->. rewrite N.eqb_refl in H2. discriminate.
Qed.

Lemma no_relay_in l : (forall x f, In (x, f) l -> is_relay f = false) ->
  filter (fun so : out => is_relay (snd so)) l = [].
Proof.
  induction l as [|[x f] l IH]; intros H; [reflexivity|]. cbn. rewrite (H x f (or_introl eq_refl)). apply IH.
  intros y g Hin. apply (H y g). right. exact Hin.
Qed.

Lemma hce_outputs cfg st s e q p :
  e <> EvHangup ->
  snd (handle_call_event cfg st s e q p) = [] \/
  exists c, current st = Some c /\ c_seq c = q /\
    Forall (event_out_ok cfg st c s e) (snd (handle_call_event cfg st s e q p)) /\
    (length (filter (fun so : out => is_relay (snd so)) (snd (handle_call_event cfg st s e q p))) <= 1)%nat.
Proof.
  intros Hne. destruct (hce_cases cfg st s e q p _ eq_refl) as [E|[c [Hc [Hq [_ [_ H]]]]]]; [rewrite E; auto|].
  right. exists c. split; [exact Hc|]. split; [exact Hq|].
  destruct H as [x t pl Hx| -> _| -> _| ->]; [..|contradiction]; cbn [snd].
  - split; [|cbn; lia]. constructor; [|constructor]. cbn. auto.
  - split; [|cbn; lia]. constructor; [|constructor]. cbn. auto.
  - split.
    + apply Forall_forall. intros [y f] Hin. apply in_app_or in Hin. destruct Hin as [Hin|Hin].
      { apply in_bcast_data in Hin. destruct Hin as [Hm [t ->]]. cbn. auto. }
      apply in_app_or in Hin. destruct Hin as [Hin|[Hin|[]]].
      { apply in_me_info in Hin. destruct Hin as [src [-> [H1 [H2 H3]]]]. cbn. repeat split; auto. }
      injection Hin as <- <-. cbn. auto.
    + rewrite !filter_app, (no_relay_in (bcast_data _ _ _)), (no_relay_in (me_info _ _ _ _ _ _ _ _ _)); [cbn; lia| |].
      { intros y f Hin. apply in_me_info in Hin. destruct Hin as [src [-> _]]. reflexivity. }
      { intros y f Hin. apply in_bcast_data in Hin. destruct Hin as [_ [t ->]]. reflexivity. }
Qed.

Lemma Forall_filter {A} (P : A -> Prop) (f : A -> bool) l : Forall P l -> Forall P (filter f l).
Proof. intros H. apply Forall_forall. intros x Hin. apply filter_In in Hin. rewrite Forall_forall in H. apply H. tauto. Qed.

Lemma filter_filter_le {A} (f g : A -> bool) l : (length (filter f (filter g l)) <= length (filter f l))%nat.
Proof.
  induction l as [|a l IH]; [cbn; lia|]. cbn. destruct (g a); cbn; destruct (f a); cbn; lia.
Qed.

(* how the call slot, the timer and lastID move in one step *)
Definition same_call (c c' : call) : Prop :=
  c_seq c' = c_seq c /\ c_ouid c' = c_ouid c /\ c_osid c' = c_osid c /\ c_content c' = c_content c.

Definition slot_step (st st' : state) : Prop :=
  lastid st <= lastid st' /\
  match current st with
  | Some c => current st' = None \/ exists c', current st' = Some c' /\ same_call c c'
  | None => current st' = None \/
            exists c', current st' = Some c' /\ c_seq c' = lastid st' /\ lastid st' = lastid st + 1 /\ c_callee c' = None
  end.

Lemma same_call_refl c : same_call c c. Proof. repeat split. Qed.
#[export] Hint Resolve same_call_refl : core.

(* the call state written by an ending: maybeEndCallInProgress's replaceWith *)
Definition end_state (c : call) (from : uid) (timeout : bool) : wstate :=
  if negb (N.eqb from 0) && accepted c then WFinished
  else if negb (N.eqb from 0) then (if N.eqb from (c_ouid c) then WMissed else WDeclined)
  else if timeout then WMissed else WDisconnected.

Definition end_msg (cfg : config) (st : state) (c : call) (from : uid) (ms : sid) (timeout : bool) : msg :=
  new_msg cfg st ms (c_ouid c) (Some (c_seq c)) (Some (end_state c from timeout)) (c_content c).

(* what an ending leaves: the slot cleared, the timer stopped, the replacement stored if the originator may write *)
Definition end_effect (cfg : config) (st st' : state) (c : call) : Prop :=
  current st' = None /\ timer st' = false /\
  ((writer st (c_ouid c) = false /\ store st' = store st /\ lastid st' = lastid st) \/
   (writer st (c_ouid c) = true /\ lastid st' = lastid st + 1 /\
    exists from ms timeout, store st' = end_msg cfg st c from ms timeout :: store st)).

(* every way the slot can change, with what is written *)
Definition slot_change (cfg : config) (st : state) (o : op) (st' : state) : Prop :=
  (current st' = current st /\ (timer st' = timer st \/ (current st = None /\ timer st' = false))) \/
  (exists c, current st = Some c /\ end_effect cfg st st' c) \/
  (exists s content w, o = OInvite s content w /\ gate_ok cfg st s = true /\ st' = invite_state cfg st s content w) \/
  (exists s p c, o = OEvent s EvAccept (c_seq c) p /\ current st = Some c /\ accepted c = false /\
     writer st (c_ouid c) = true /\ s <> c_osid c /\ user_of cfg s <> c_ouid c /\ st' = accept_state cfg st c s).

Lemma slot_change_same cfg st o st' : current st' = current st -> timer st' = timer st -> slot_change cfg st o st'.
Proof. left. auto. Qed.

(* [slot_change] says nothing about lastID where the slot is untouched; with that bound it gives [slot_step] *)
Definition moves (cfg : config) (st : state) (o : op) (st' : state) : Prop :=
  lastid st <= lastid st' /\ slot_change cfg st o st'.

Lemma moves_slot_step cfg st o st' : moves cfg st o st' -> slot_step st st'.
Proof.
  intros [Hle [[E _]|[[c [Hc [E _]]]|[[s [ct [w [_ [Hok ->]]]]]|[s [p [c [_ [Hc [_ [_ [_ [_ ->]]]]]]]]]]]]]; (split; [exact Hle|]).
  - rewrite E. destruct (current st); eauto.
  - rewrite Hc. auto.
  - unfold gate_ok in Hok. destruct (current st); [rewrite andb_false_r in Hok; discriminate|].
    right. eexists. split; [reflexivity|]. cbn. auto.
  - rewrite Hc. right. eexists. split; [reflexivity|]. repeat split.
Qed.

Lemma moves_frame cfg st o st' :
  current st' = current st -> timer st' = timer st -> lastid st' = lastid st -> moves cfg st o st'.
Proof. intros Hc Ht Hl. split; [lia|]. left. auto. Qed.

Lemma end_effect_end cfg st c from ms timeout : end_effect cfg st (fst (end_call cfg st c from ms timeout)) c.
Proof.
  unfold end_effect, end_call.
  destruct (sab_cases cfg (set_timer false st) ms false (c_ouid c) (Some (c_seq c))
    (Some (end_state c from timeout)) (c_content c)) as [[Hw E]|[Hw E]]; unfold end_state in E; rewrite E; cbn; repeat split; auto.
  right. repeat split; auto. exists from, ms, timeout. reflexivity.
Qed.

(* a state that agrees with the one an ending leaves on the fields [end_effect] reads *)
Lemma moves_end cfg st o c st1 st' : current st = Some c -> end_effect cfg st st1 c ->
  current st' = current st1 -> timer st' = timer st1 -> store st' = store st1 -> lastid st' = lastid st1 ->
  moves cfg st o st'.
Proof.
  unfold moves, slot_change, end_effect. intros Hc H -> -> -> ->. split; [|eauto].
  destruct H as [_ [_ [[_ [_ ->]]|[_ [-> _]]]]]; lia.
Qed.

Lemma unregister_shape cfg st s :
  unregister_call cfg st s = (st, []) \/
  (exists c, current st = Some c /\ is_party c s = true /\ unregister_call cfg st s = end_call cfg st c 0%N (c_osid c) false).
Proof.
  unfold unregister_call, terminate. destruct (current st) as [c|] eqn:Hc; [|auto].
  destruct (is_party c s) eqn:Hp; [|auto]. right. exists c. auto.
Qed.

Lemma moves_unreg cfg st o s st' :
  current st' = current (fst (unregister_call cfg st s)) -> timer st' = timer (fst (unregister_call cfg st s)) ->
  store st' = store (fst (unregister_call cfg st s)) -> lastid st' = lastid (fst (unregister_call cfg st s)) ->
  moves cfg st o st'.
Proof.
  destruct (unregister_shape cfg st s) as [E|[c [Hc [_ E]]]]; rewrite E; cbn [fst].
  - intros H1 H2 _ H4. apply moves_frame; assumption.
  - exact (moves_end cfg st o c _ st' Hc (end_effect_end cfg st c 0%N (c_osid c) false)).
Qed.

Lemma moves_hce cfg st s e q p : moves cfg st (OEvent s e q p) (fst (handle_call_event cfg st s e q p)).
Proof.
  destruct (hce_cases cfg st s e q p _ eq_refl) as [E|[c [Hc [Hq [_ [Hr [x t pl _| _ _| -> Hw| _]]]]]]]; rewrite ?E; cbn [fst].
  1, 2, 3: apply moves_frame; reflexivity.
  - split; [cbn; lia|]. right. right. right. exists s, p, c. subst q. destruct Hr as [Ha [H1 H2]]. repeat split; assumption.
  - eapply moves_end; [exact Hc|apply end_effect_end|reflexivity..].
Qed.

Lemma moves_raw cfg st o : moves cfg st o (fst (step_raw cfg st o)).
Proof.
  destruct o; cbn [step_raw].
  - destruct (mem s (attached st)); [|destruct (participant st (user_of cfg s))]; apply moves_frame; reflexivity.
  - destruct (mem s (on_me st)); apply moves_frame; reflexivity.
  - destruct (negb (mem s (attached st))); [apply moves_frame; reflexivity|].
    pose proof (moves_unreg cfg st (OLeave s) s) as H. destruct (unregister_call cfg st s) as [st1 o1]. apply H; reflexivity.
  - destruct (negb (mem s (attached st))); [apply moves_frame; reflexivity|].
    pose proof (moves_unreg cfg st (OUnsub s) s) as H. destruct (unregister_call cfg st s) as [st1 o1]. apply H; reflexivity.
  - destruct (mem s (attached st)); [|apply moves_frame; reflexivity].
    pose proof (moves_unreg cfg st (ODisc s) s) as H. destruct (unregister_call cfg st s) as [st1 o1]. apply H; reflexivity.
  - destruct (gate_raw cfg st s content w) as [[Hok E]|[Hok E]]; cbn [step_raw] in E; rewrite E; cbn [fst]; [|apply moves_frame; reflexivity].
    split; [cbn; lia|]. right. right. left. exists s, content, w. auto.
  - destruct (negb (mem s (attached st))); [apply moves_frame; reflexivity|].
    destruct (sab_cases cfg st s true (user_of cfg s) None None content) as [[Hw E]|[Hw E]]; rewrite E; cbn [fst];
      [apply moves_frame; reflexivity|]. split; [cbn; lia|]. left. auto.
  - destruct (event_raw_cases cfg st s e seq payload) as [E|[E|[E _]]]; cbn [step_raw] in E; rewrite E;
      [apply moves_frame; reflexivity..|apply moves_hce].
  - destruct (timer st) eqn:Ht; [|apply moves_frame; reflexivity]. unfold terminate. cbn [current set_timer].
    destruct (current st) as [c|] eqn:Hc.
    + exact (moves_end cfg st OTimeout c _ _ Hc (end_effect_end cfg (set_timer false st) c 0%N (c_osid c) true) eq_refl eq_refl eq_refl eq_refl).
    + (* armed without a call (not reachable): the slot is unchanged, the timer is now off *)
      split; [cbn; lia|]. left. cbn. auto.
  - destruct (negb (mem s (attached st))); [|destruct (_ || _)]; apply moves_frame; reflexivity.
Qed.

Lemma moves_step cfg st o st' os : step cfg st o = (st', os) -> moves cfg st o st'.
Proof.
  intros H. apply step_eq in H. destruct H as [[-> _]|[-> _]]; [apply moves_frame; reflexivity|apply moves_raw].
Qed.

Lemma slot_step_step cfg st o st' os : step cfg st o = (st', os) -> slot_step st st'.
Proof. intros H. exact (moves_slot_step _ _ _ _ (moves_step _ _ _ _ _ H)). Qed.

Lemma slot_change_step cfg st o st' os : step cfg st o = (st', os) -> slot_change cfg st o st'.
Proof. intros H. exact (proj2 (moves_step _ _ _ _ _ H)). Qed.

(* ghost log of (invitation seq, number of ending steps) *)
Definition ended (st st' : state) : option Z :=
  match current st with
  | Some c => match current st' with
              | Some c' => if c_seq c =? c_seq c' then None else Some (c_seq c)
              | None => Some (c_seq c)
              end
  | None => None
  end.
Definition started (st st' : state) : option Z :=
  match current st' with
  | Some c' => match current st with
               | Some c => if c_seq c =? c_seq c' then None else Some (c_seq c')
               | None => Some (c_seq c')
               end
  | None => None
  end.

Fixpoint bump (q : Z) (log : list (Z * nat)) : list (Z * nat) :=
  match log with
  | [] => []
  | (k, n) :: r => if k =? q then (k, S n) :: bump q r else (k, n) :: bump q r
  end.

Definition log_step (st st' : state) (log : list (Z * nat)) : list (Z * nat) :=
  let l1 := match ended st st' with Some q => bump q log | None => log end in
  match started st st' with Some q => l1 ++ [(q, 0%nat)] | None => l1 end.

Fixpoint run_log (cfg : config) (st : state) (ops : list op) (log : list (Z * nat)) : state * list (Z * nat) :=
  match ops with
  | [] => (st, log)
  | o :: r => run_log cfg (fst (step cfg st o)) r (log_step st (fst (step cfg st o)) log)
  end.

Definition log_inv (st : state) (log : list (Z * nat)) : Prop :=
  Forall (fun e => fst e <= lastid st) log /\ NoDup (map fst log) /\
  match current st with
  | None => Forall (fun e => snd e = 1%nat) log
  | Some c => exists l0, log = l0 ++ [(c_seq c, 0%nat)] /\ Forall (fun e => snd e = 1%nat) l0
  end.

Lemma bump_notin q l : ~ In q (map fst l) -> bump q l = l.
Proof.
  induction l as [|[k n] l IH]; cbn; [reflexivity|]. intros H.
  destruct (k =? q) eqn:E; [apply Z.eqb_eq in E; exfalso; apply H; auto|]. rewrite IH; auto.
Qed.

Lemma bump_last q n l0 : ~ In q (map fst l0) -> bump q (l0 ++ [(q, n)]) = l0 ++ [(q, S n)].
Proof.
  induction l0 as [|[k m] l IH]; cbn; intros H.
  - rewrite Z.eqb_refl. reflexivity.
  - destruct (k =? q) eqn:E; [apply Z.eqb_eq in E; exfalso; apply H; auto|]. rewrite IH; auto.
Qed.

Lemma Forall_le_mono (l : list (Z * nat)) a b : a <= b -> Forall (fun e => fst e <= a) l -> Forall (fun e => fst e <= b) l.
Proof. intros Hab H. eapply Forall_impl; [|exact H]. cbn. intros. lia. Qed.

Lemma NoDup_snoc {A} (l : list A) a : NoDup l -> ~ In a l -> NoDup (l ++ [a]).
Proof. intros Hnd Hn. apply (NoDup_Add (Add_app a l [])). rewrite app_nil_r. auto. Qed.

Lemma log_inv_step st st' log : slot_step st st' -> log_inv st log -> log_inv st' (log_step st st' log).
Proof.
  intros [Hle Hs] [Hb [Hnd Hc]]. unfold log_step, ended, started, log_inv.
  destruct (current st) as [c|] eqn:Ec.
  - destruct Hc as [l0 [-> Hl0]].
    assert (Hq : ~ In (c_seq c) (map fst l0)).
    { rewrite map_app in Hnd. cbn in Hnd. apply NoDup_remove_2 in Hnd. rewrite app_nil_r in Hnd. exact Hnd. }
    destruct Hs as [E|[c' [E [Hsq _]]]]; rewrite E; cbv beta iota.
    + rewrite bump_last by exact Hq. split; [|split].
      * apply Forall_app. apply Forall_app in Hb. destruct Hb as [Hb1 Hb2]. split; [eapply Forall_le_mono; [exact Hle|assumption]|].
        inversion Hb2; subst. constructor; [cbn in *; lia|constructor].
      * rewrite map_app in *. exact Hnd.
      * apply Forall_app. split; [exact Hl0|]. constructor; [reflexivity|constructor].
    + assert (Heq : (c_seq c =? c_seq c') = true) by (apply Z.eqb_eq; auto). rewrite Heq. split; [|split].
      * eapply Forall_le_mono; [exact Hle|assumption].
      * exact Hnd.
      * exists l0. rewrite Hsq. auto.
  - destruct Hs as [E|[c' [E [Hsq [Hl1 _]]]]]; rewrite E; cbv beta iota.
    + split; [|split]; auto. eapply Forall_le_mono; [exact Hle|assumption].
    + split; [|split].
      * apply Forall_app. split; [eapply Forall_le_mono; [exact Hle|assumption]|]. constructor; [cbn; lia|constructor].
      * rewrite map_app. cbn. apply NoDup_snoc; [exact Hnd|].
        intros Hin. apply in_map_iff in Hin. destruct Hin as [[k n] [Hk Hin]]. cbn in Hk. subst k.
        rewrite Forall_forall in Hb. specialize (Hb _ Hin). cbn in Hb. lia.
      * exists log. auto.
Qed.

Lemma log_inv_run cfg ops : forall st log, log_inv st log ->
  log_inv (fst (run_log cfg st ops log)) (snd (run_log cfg st ops log)).
Proof.
  induction ops as [|o r IH]; intros st log H; cbn; [exact H|].
  apply IH. apply log_inv_step; [|exact H]. destruct (step cfg st o) as [st' os] eqn:E. cbn. eapply slot_step_step. exact E.
Qed.

Lemma log_inv_init a b : log_inv (init2 a b) [].
Proof. unfold log_inv. cbn. repeat split; constructor. Qed.

Lemma ends_once_from cfg st0 log0 ops : log_inv st0 log0 ->
  let st := fst (run_log cfg st0 ops log0) in
  let log := snd (run_log cfg st0 ops log0) in
  NoDup (map fst log) /\
  forall q n, In (q, n) log ->
    (n = 1%nat /\ forall c, current st = Some c -> c_seq c <> q) \/
    (n = 0%nat /\ exists c, current st = Some c /\ c_seq c = q).
Proof.
  intros H0. cbn zeta. pose proof (log_inv_run cfg ops st0 log0 H0) as [Hb [Hnd Hc]].
  split; [exact Hnd|]. intros q n Hin.
  destruct (current (fst (run_log cfg st0 ops log0))) as [c|].
  - destruct Hc as [l0 [E Hl0]]. rewrite E in Hin, Hnd. apply in_app_or in Hin. destruct Hin as [Hin|[Hin|[]]].
    + left. rewrite Forall_forall in Hl0. split; [exact (Hl0 _ Hin)|]. intros c0 Hc0. injection Hc0 as <-.
      intros Heq. rewrite map_app in Hnd. cbn in Hnd. apply NoDup_remove_2 in Hnd. rewrite app_nil_r in Hnd.
      apply Hnd. apply in_map_iff. exists (q, n). split; [symmetry; exact Heq|exact Hin].
    + injection Hin as <- <-. right. split; [reflexivity|]. exists c. auto.
  - left. rewrite Forall_forall in Hc. split; [exact (Hc _ Hin)|]. intros c0 Hc0. discriminate.
Qed.

Lemma ending_effect cfg st o st' os c :
  step cfg st o = (st', os) -> current st = Some c -> current st' = None -> end_effect cfg st st' c.
Proof.
  intros Hs Hc Hn. destruct (slot_change_step _ _ _ _ _ Hs) as [[E _]|[[c0 [E H]]|[[s [ct [w [_ [_ Hst]]]]]|[s [p [c0 [_ [_ [_ [_ [_ [_ Hst]]]]]]]]]]]].
  - rewrite Hc, Hn in E. discriminate.
  - rewrite Hc in E. injection E as <-. exact H.
  - rewrite Hst in Hn. discriminate.
  - rewrite Hst in Hn. discriminate.
Qed.

(* the timer is armed exactly while a call is being established *)
Definition timer_inv (st : state) : Prop :=
  timer st = true <-> exists c, current st = Some c /\ accepted c = false.

Lemma timer_inv_step cfg st o st' os : step cfg st o = (st', os) -> timer_inv st -> timer_inv st'.
Proof.
  intros Hs Hi. unfold timer_inv in *.
  destruct (slot_change_step _ _ _ _ _ Hs) as [[E [Et|[Hn Et]]]|[[c0 [_ [E [Et _]]]]|[[s [ct [w [_ [_ Hst]]]]]|[s [p [c0 [_ [_ [_ [_ [_ [_ Hst]]]]]]]]]]]].
  - rewrite E, Et. exact Hi.
  - rewrite E, Et, Hn. split; [discriminate|]. intros [c [X _]]. discriminate.
  - rewrite E, Et. split; [discriminate|]. intros [c [X _]]. discriminate.
  - subst st'. cbn. split; [|reflexivity]. intros _. eexists. split; reflexivity.
  - subst st'. cbn. split; [discriminate|]. intros [c [X Y]]. injection X as <-. discriminate.
Qed.

Lemma timer_inv_final cfg ops : forall st, timer_inv st -> timer_inv (final cfg st ops).
Proof.
  unfold final. induction ops as [|o r IH]; intros st H; cbn; [exact H|].
  destruct (step cfg st o) as [st1 os] eqn:E. specialize (IH st1 (timer_inv_step _ _ _ _ _ E H)).
  destruct (run cfg st1 r). exact IH.
Qed.

Lemma timer_inv_init a b : timer_inv (init2 a b).
Proof. unfold timer_inv. cbn. split; [discriminate|]. intros [c [X _]]. discriminate. Qed.

(* a party session that leaves / disconnects / unsubscribes ends the call *)
Lemma party_leave_raw cfg st c x o :
  current st = Some c -> is_party c x = true -> mem x (attached st) = true ->
  o = OLeave x \/ o = ODisc x \/ o = OUnsub x ->
  current (fst (step_raw cfg st o)) = None.
Proof.
  intros Hc Hp Ha Ho.
  assert (Hu : current (fst (unregister_call cfg st x)) = None).
  { unfold unregister_call, terminate. rewrite Hc, Hp.
    destruct (end_effect_end cfg st c 0%N (c_osid c) false) as [E _]. exact E. }
  destruct Ho as [->|[->| ->]]; cbn [step_raw]; rewrite Ha; cbn [negb];
    destruct (unregister_call cfg st x) as [st1 o1]; cbn [fst] in *; exact Hu.
Qed.

Definition ending_states : list wstate := [WFinished; WDeclined; WMissed; WDisconnected].

Lemma end_state_in c from timeout : In (end_state c from timeout) ending_states.
Proof.
  unfold end_state, ending_states.
  destruct (negb (N.eqb from 0) && accepted c); [cbn; auto|].
  destruct (negb (N.eqb from 0)); [destruct (N.eqb from (c_ouid c)); cbn; auto|]. destruct timeout; cbn; auto.
Qed.

