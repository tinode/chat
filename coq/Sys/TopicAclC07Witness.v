(* C07 proofs: the two refutation witnesses (vm_compute on concrete histories). *)
From Coq Require Import ZArith NArith List Bool Lia.
From Tinode Require Import Base.Util Pure.Acs Sys.Topic Sys.TopicTac Sys.TopicFrame Sys.TopicMarks Sys.TopicAclC07
  Sys.TopicAclC07Proofs Sys.TopicAclC07Inv Sys.TopicAclC07Join Sys.TopicAclC07Own Sys.TopicAclC07Thm.
Import ListNotations.
Open Scope Z_scope.

(* ---------- refutation witnesses ---------- *)
Definition dr0 : Z -> list (Z * Z) -> option (list (Z * Z)) := fun _ _ => None.
Definition nr0 : list (Z * Z) -> list (Z * Z) := fun x => x.

(* 1. banned-user-attached *)
Definition w1_sm : sessmap := [(1%N, 1%N); (2%N, 2%N)].
Definition w1_s : store :=
  ad_sub_create (ad_sub_create (mkStore true 0 0 0 47 0 [] [] [] [(1%N, 47%N); (2%N, 47%N)]) 1%N 255%N 255%N) 2%N 0%N 0%N.
Definition w1_x : state := mkState w1_s None 0.
Definition w1_h : list (fault * op) := [(NoFault, OSub 2 [78%N] false)].   (* {sub set.sub.mode="N"} *)

Lemma w1_inv : inv_all w1_x /\ inv_aj w1_x.
Proof.
  split; [|exact I]. split; [|split; [exact I|]].
  - split; [split|exact I].
    + unfold rows_nodup. vm_compute. repeat constructor; cbn; intuition discriminate.
    + vm_compute. discriminate.
  - split; [|exact I]. split; [reflexivity|exists 1%N; reflexivity].
Qed.

Lemma w1_attached : ~ inv_aj (fst (run dr0 nr0 w1_sm w1_x w1_h)).
Proof.
  intros H.
  assert (exists c, ca (fst (run dr0 nr0 w1_sm w1_x w1_h)) = Some c /\ In (2%N, (2%N, false)) (c_sess c) /\
                    cgiven c 2%N = Some 0%N) as [c [E [HI G]]].
  { vm_compute. eexists. split; [reflexivity|]. split; [left; reflexivity|reflexivity]. }
  unfold inv_aj in H. rewrite E in H. destruct (H _ _ _ HI) as [p [EP J]].
  unfold cgiven in G. rewrite EP in G. cbn in G. inv G. rewrite H1 in J. discriminate.
Qed.

(* 2. a failing topics.owner write inside a transfer, then ordinary requests:
   the owner field becomes zero and the next transfer rewrites EVERY row *)
Definition w2_sm : sessmap := [(1%N, 1%N); (2%N, 2%N); (3%N, 3%N)].
Definition w2_s : store :=
  ad_sub_create (ad_sub_create (ad_sub_create
    (mkStore true 0 0 0 47 0 [] [] [] [(1%N, 47%N); (2%N, 47%N); (3%N, 47%N)]) 1%N 255%N 255%N) 2%N 47%N 255%N) 3%N 47%N 47%N.
Definition w2_x : state := mkState w2_s None 0.
Definition m_full : list N := [74; 82; 87; 80; 65; 83; 68; 79]%N.   (* "JRWPASDO" *)
Definition m_jrwpas : list N := [74; 82; 87; 80; 65; 83]%N.
Definition w2_h5 : list (fault * op) :=
  [(NoFault, OSub 2 [] false); (FailAt 3, OSetSub 2 0 m_full); (NoFault, OSetSub 2 0 m_jrwpas);
   (NoFault, ORestart); (NoFault, OSub 2 [] false)].
Definition w2_last : fault * op := (NoFault, OSetSub 2 0 m_full).

Lemma w2_inv : inv_all w2_x.
Proof.
  split; [|split; [exact I|]].
  - split; [split|exact I].
    + unfold rows_nodup. vm_compute. repeat constructor; cbn; intuition discriminate.
    + vm_compute. discriminate.
  - split; [|exact I]. split; [reflexivity|exists 1%N; reflexivity].
Qed.
Lemma w2_logged : hist_logged_in dr0 nr0 w2_sm w2_x (w2_h5 ++ [w2_last]).
Proof. cbn. repeat split; try exact I; cbn; discriminate. Qed.

Lemma w2_rewrites_all : ~ all_steps dr0 nr0 w2_sm (given_law w2_sm) w2_x (w2_h5 ++ [w2_last]).
Proof.
  intros H. apply all_steps_app in H. set (x5 := fst (run dr0 nr0 w2_sm w2_x w2_h5)) in *.
  destruct H as [[L _] _]. specialize (L 3%N).
  assert (sgiven (st x5) 3%N = Some 47%N) as G0 by (vm_compute; reflexivity).
  assert (sgiven (st (fst (step_f dr0 nr0 w2_sm x5 w2_last))) 3%N = Some 0%N) as G1 by (vm_compute; reflexivity).
  assert (c_owner (view x5) = 0%N) as CO by (vm_compute; reflexivity).
  assert (actor w2_sm (snd w2_last) = 2%N) as AC by reflexivity.
  clearbody x5.
  destruct L as [E|[g' [E J]]]; [congruence|].
  destruct J as [[[sid [m [EO _]]] _]|[_ J]]; [discriminate EO|].
  unfold own_given_just in J. cbv zeta in J. rewrite AC in J.
  destruct J as [[E1 _]|[[E1 _]|[[E1 _]|[_ [E1 _]]]]].
  - discriminate E1.
  - discriminate E1.
  - discriminate E1.
  - rewrite CO in E1. discriminate E1.
Qed.
