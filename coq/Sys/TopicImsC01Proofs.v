(* Proofs about Sys/TopicImsC01.v: the numbers a description query shows do not depend on
   its options; the wrapper moves the base (group-topic) state exactly as the base model does. *)
From Coq Require Import ZArith NArith List Bool Lia.
From Tinode Require Import Base.Util Pure.Acs Sys.Topic Sys.TopicTac Sys.TopicFrame Sys.TopicNum Sys.TopicOut
  Sys.TopicNumThm Sys.TopicImsC01.
Import ListNotations.
Open Scope Z_scope.

(* ------------------------------------------------------------------ *)
(* the handler                                                          *)

(* a reader is shown seq = lastID (and his marks), whatever the options *)
Lemma get_desc_ims_reader c cpub sid u i p :
  alookup u (c_users c) = Some p -> is_reader (pud_mode p) = true ->
  get_desc_ims c cpub sid u i false =
  [(sid, FDesc (p_want p) (p_given p) (c_lastid c) (p_read p) (Z.max (p_recv p) (p_read p))
               (Z.max (p_delid p) (c_delid c)) true (ims_absent_c01i i) (if if_updated_c01i i then cpub else 0%N))].
Proof. intros Hu Hr. unfold get_desc_ims. rewrite Hu, Hr. reflexivity. Qed.

(* the numbering slice of the answer is that of the option-less answer of the base model *)
Definition nums_c01i (o : iout) : list (N * option (Z * Z * Z * Z)) :=
  map (fun e => (fst e, iframe_desc_nums (snd e))) o.

(* every frame of the answer that shows numbers shows lastID *)
Lemma get_desc_ims_current c cpub sid u i bad e seq rd rc dl :
  In e (get_desc_ims c cpub sid u i bad) -> iframe_desc_nums (snd e) = Some (seq, rd, rc, dl) -> seq = c_lastid c.
Proof.
  unfold get_desc_ims. destruct bad; [|destruct (alookup u (c_users c)) as [p|]; [destruct (is_reader (pud_mode p))|]];
    intros [<-|[]]; cbn; intros H; try discriminate. now inv H.
Qed.

Lemma get_desc_ims_sid c cpub sid u i bad e : In e (get_desc_ims c cpub sid u i bad) -> fst e = sid.
Proof.
  unfold get_desc_ims. destruct bad; [|destruct (alookup u (c_users c)) as [p|]; [destruct (is_reader (pud_mode p))|]];
    intros [<-|[]]; reflexivity.
Qed.

(* ------------------------------------------------------------------ *)
(* the wrapper moves the base state as the base model does              *)

Definition beq_c01i (x y : state) : Prop := st x = st y /\ ca x = ca y.
Lemma beq_refl x : beq_c01i x x. Proof. split; reflexivity. Qed.

Section Sim.
Variable dr : Z -> list (Z * Z) -> option (list (Z * Z)).
Variable nr : list (Z * Z) -> list (Z * Z).
Variable sm : sessmap.

(* the handlers never read the call counter of the previous request *)
Lemma step_beq f x y o : beq_c01i x y -> step dr nr sm f x o = step dr nr sm f y o.
Proof. destruct x as [s c n], y as [s' c' n']. intros [E1 E2]. cbn in E1, E2. subst s' c'. reflexivity. Qed.

Lemma step_f_beq x y fo : beq_c01i x y -> step_f dr nr sm x fo = step_f dr nr sm y fo.
Proof. intros H. unfold step_f. rewrite (step_beq (fst fo) x y (snd fo) H). reflexivity. Qed.

(* {get desc} changes neither the store nor the cache *)
Lemma step_getdesc_noop f x sid : beq_c01i (fst (step dr nr sm f x (OGetDesc sid))) x.
Proof.
  destruct x as [s cx n]. unfold step. cbn [st ca].
  destruct cx as [c|]; cbn [negb].
  - destruct (attached c sid); cbn [negb fst st ca].
    + split; cbn [st ca]; unfold get_desc; repeat break_match; reflexivity.
    + split; cbn [st ca]; [apply offline_get_desc_frame|reflexivity].
  - cbn [fst st ca]. split; cbn [st ca]; [apply offline_get_desc_frame|reflexivity].
Qed.

(* a {get desc} of a session that is not attached shows no numbers *)
Definition not_reader_desc_c01i (fr : frame) : bool := match fr with MetaDesc _ _ _ _ _ _ r => negb r | _ => true end.
Lemma step_getdesc_offline f x sid :
  is_attached_c01i x sid = false ->
  forall e, In e (snd (step dr nr sm f x (OGetDesc sid))) -> not_reader_desc_c01i (snd e) = true.
Proof.
  destruct x as [s cx n]. unfold is_attached_c01i, step. cbn [st ca]. intros NA.
  assert (forall e, In e (o_out (offline_get_desc f s sid (sess_uid sm sid))) -> not_reader_desc_c01i (snd e) = true) as K.
  { intros e. unfold offline_get_desc. repeat break_match; cbn [o_out]; intros [<-|[]]; reflexivity. }
  destruct cx as [c|]; [rewrite NA|]; cbn [negb snd]; exact K.
Qed.

Lemma istep_base f x o :
  beq_c01i (ibase (fst (istep dr nr sm f x o))) (fst (step dr nr sm f (ibase x) (base_op_c01i o))).
Proof.
  destruct o; unfold istep; cbn [base_op_c01i].
  - destruct (step dr nr sm f (ibase x) o) as [b1 o1]. apply beq_refl.
  - destruct (step dr nr sm f (ibase x) (OGetDesc sid)) as [b1 o1]. apply beq_refl.
  - destruct (step dr nr sm f (ibase x) (OSub sid want bkg)) as [b1 o1]. apply beq_refl.
  - pose proof (step_getdesc_noop f (ibase x) sid) as [E1 E2].
    assert (forall y, ibase y = ibase x -> beq_c01i (ibase y) (fst (step dr nr sm f (ibase x) (OGetDesc sid)))) as K.
    { intros y ->. split; symmetry; assumption. }
    repeat break_match; cbn [fst]; apply K; reflexivity.
Qed.

Lemma istep_f_base x fo :
  beq_c01i (ibase (fst (istep_f dr nr sm x fo)))
           (fst (step_f dr nr sm (ibase x) (fst fo, base_op_c01i (snd fo)))).
Proof.
  unfold istep_f, step_f. cbn [fst snd].
  pose proof (istep_base (fst fo) x (snd fo)) as [E1 E2].
  destruct (istep dr nr sm (fst fo) x (snd fo)) as [x1 o1].
  destruct (step dr nr sm (fst fo) (ibase x) (base_op_c01i (snd fo))) as [b1 p1].
  cbn [fst] in *. destruct (fst fo); cbn [fst ibase]; split; cbn [st ca]; auto.
Qed.

Definition base_hist_c01i (h : list (fault * iop)) : list (fault * op) :=
  map (fun fo => (fst fo, base_op_c01i (snd fo))) h.

Lemma irun_base h : forall x b, beq_c01i (ibase x) b ->
  beq_c01i (ibase (fst (irun dr nr sm x h))) (fst (run dr nr sm b (base_hist_c01i h))).
Proof.
  induction h as [|fo r IH]; intros x b E; cbn [irun run base_hist_c01i map fst].
  - exact E.
  - pose proof (istep_f_base x fo) as E1.
    rewrite (step_f_beq (ibase x) b _ E) in E1.
    destruct (istep_f dr nr sm x fo) as [x1 o1].
    destruct (step_f dr nr sm b (fst fo, base_op_c01i (snd fo))) as [b1 p1].
    cbn [fst] in E1. specialize (IH x1 b1 E1).
    destruct (irun dr nr sm x1 r) as [x2 os]. fold (base_hist_c01i r) in *.
    destruct (run dr nr sm b1 (base_hist_c01i r)) as [b2 ps]. exact IH.
Qed.

End Sim.

(* non-vacuity / regression witness: publish, move t.updated, then query with every option *)
Definition w_store_c01i : store :=
  ad_sub_create (ad_sub_create (mkStore true 0 0 0 47 0 [] [] [] [(1%N, 47%N); (2%N, 47%N)]) 1%N 255%N 255%N) 2%N 47%N 47%N.
Definition w_hist_c01i : list (fault * iop) :=
  [(NoFault, IBase (OSub 1 [] false)); (NoFault, ISubDesc 2 [] false ImsNotBefore false);
   (NoFault, IBase (OPub 1 7 false)); (NoFault, ISetPub 1 5); (NoFault, IBase (OPub 2 8 false));
   (NoFault, IGetDesc 2 ImsAbsent false); (NoFault, IGetDesc 2 ImsBefore false); (NoFault, IGetDesc 2 ImsNotBefore false);
   (NoFault, IGetDesc 1 ImsNotBefore true)].
Definition w_descs_c01i : list (list (N * option (Z * Z * Z * Z))) :=
  map nums_c01i (snd (irun (fun _ _ => None) (fun x => x) [(1%N, 1%N); (2%N, 2%N)]
                           (mkIS (mkState w_store_c01i None 0) 0 0 0) w_hist_c01i)).
Lemma w_descs_c01i_ok :
  nth 1 w_descs_c01i [] = [(2%N, None); (2%N, Some (0, 0, 0, 0))] /\
  nth 5 w_descs_c01i [] = [(2%N, Some (2, 2, 2, 0))] /\
  nth 6 w_descs_c01i [] = [(2%N, Some (2, 2, 2, 0))] /\
  nth 7 w_descs_c01i [] = [(2%N, Some (2, 2, 2, 0))] /\
  nth 8 w_descs_c01i [] = [(1%N, None)].
Proof. vm_compute. repeat split; reflexivity. Qed.
