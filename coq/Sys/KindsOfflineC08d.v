(* C08: {set sub mode} for the requester's own subscription on the topic kinds of
   Sys/TopicKindsC07.v (p2p, me, fnd, sys), through the LIVE topic (thisUserSub) and through the hub
   (replyOfflineTopicSetSub, session not attached / topic not loaded).

   - off_set_c08d is the hub path of kstep, stated on its own (kstep_offline_c08d: it IS what kstep does
     for a session that is not attached);
   - offline_ack_stored_c08d: an offline {ctrl 200 acs=want/given} names the stored row;
   - name_form_c08d: the result depends on the topic the name denotes, not on the form of the name
     (usrXXX / p2pXXXYYY);
   - p2p_offline_same_rows_c08d: on a p2p topic whose cached record of the requester equals his stored row
     the two paths leave the SAME stored rows: the request is clipped to JRWPA and keeps A whether the
     topic is in memory or not. *)
From Coq Require Import ZArith NArith List Bool Lia.
From Tinode Require Import Base.Util Pure.Acs Sys.Topic Sys.TopicMarks Sys.TopicKindsC07 Sys.TopicKindsC07Proofs.
Import ListNotations.
Open Scope N_scope.

(* replyOfflineTopicSetSub, mode part: (new rows | None = unchanged, reply) *)
Definition off_set_c08d (cat : kcat) (rows : list (N * krow)) (sid uid target : N) (mode : list N)
  : option (list (N * krow)) * kout :=
  match mode with
  | [] => (None, [(sid, KCtrl 304)])
  | _ =>
    if negb (target =? 0) && negb (target =? uid) then (None, [(sid, KCtrl 403)]) else
    match alookup uid rows with
    | None => (None, [(sid, KCtrl 404)])
    | Some r =>
      if kr_del r then (None, [(sid, KCtrl 404)]) else
      let '(mw, okw) := unmarshal_text 0 mode in
      if negb okw then (None, [(sid, KCtrl 500)]) else
      if negb (Bool.eqb (is_owner mw) (is_owner (kr_want r))) then (None, [(sid, KCtrl 403)]) else
      let mw1 := match cat with CP2P => p2p_mask mw | _ => mw end in
      if mw1 =? kr_want r then (None, [(sid, KCtrl 304)]) else
      (Some (row_modes rows uid (Some mw1) None), [(sid, KAcs 200 0 mw1 (kr_given r))])
    end
  end.

Lemma kstep_offline_c08d w sid uid root orig target mode k :
  expand uid orig = inl k -> k_attached (tget k (w_topics w)) sid = false ->
  kstep w (KSetSub sid uid root orig target mode) =
  let t := tget k (w_topics w) in
  match off_set_c08d (key_cat k) (kt_rows t) sid uid target mode with
  | (None, o) => (w, o)
  | (Some rows', o) => (mkWorld (w_acc w) (tset k (mkKt (kt_exists t) rows' (kt_cache t)) (w_topics w)), o)
  end.
Proof.
  intros E A. unfold kstep. rewrite E. rewrite A. cbn zeta. unfold off_set_c08d.
  destruct mode as [|m0 mr]; [reflexivity|].
  destruct (negb (target =? 0) && negb (target =? uid)); [reflexivity|].
  destruct (alookup uid (kt_rows (tget k (w_topics w)))) as [r|]; [|reflexivity].
  destruct (kr_del r); [reflexivity|].
  destruct (unmarshal_text 0 (m0 :: mr)) as [mw okw].
  destruct (negb okw); [reflexivity|].
  destruct (negb (Bool.eqb (is_owner mw) (is_owner (kr_want r)))); [reflexivity|].
  destruct ((match key_cat k with CP2P => p2p_mask mw | _ => mw end) =? kr_want r); reflexivity.
Qed.

(* ACK => STORED on the hub path *)
Lemma offline_ack_stored_c08d cat rows sid uid target mode rows' o s' named wt g :
  off_set_c08d cat rows sid uid target mode = (rows', o) -> In (s', KAcs 200 named wt g) o ->
  s' = sid /\ named = 0 /\
  exists rows1 r, rows' = Some rows1 /\ alookup uid rows1 = Some r /\ kr_want r = wt /\ kr_given r = g /\ kr_del r = false.
Proof.
  unfold off_set_c08d. intros H I.
  destruct mode as [|m0 mr]; [inversion H; subst; destruct I as [I|[]]; discriminate I|].
  destruct (negb (target =? 0) && negb (target =? uid)); [inversion H; subst; destruct I as [I|[]]; discriminate I|].
  destruct (alookup uid rows) as [r|] eqn:LK; [|inversion H; subst; destruct I as [I|[]]; discriminate I].
  destruct (kr_del r) eqn:DL; [inversion H; subst; destruct I as [I|[]]; discriminate I|].
  destruct (unmarshal_text 0 (m0 :: mr)) as [mw okw].
  destruct (negb okw); [inversion H; subst; destruct I as [I|[]]; discriminate I|].
  destruct (negb (Bool.eqb (is_owner mw) (is_owner (kr_want r)))); [inversion H; subst; destruct I as [I|[]]; discriminate I|].
  destruct (_ =? kr_want r); [inversion H; subst; destruct I as [I|[]]; discriminate I|].
  inversion H; subst. destruct I as [I|[]]. inversion I; subst.
  split; [reflexivity|]. split; [reflexivity|].
  eexists _, _. split; [reflexivity|]. unfold row_modes. rewrite LK, alookup_aset, N.eqb_refl.
  split; [reflexivity|]. cbn. repeat split. exact DL.
Qed.

(* the outcome does not depend on the FORM of the name *)
Lemma name_form_c08d w sid uid root o1 o2 target mode :
  expand uid o1 = expand uid o2 -> (match o1, o2 with OUsr _, _ | ORawP2P _ _, _ => True | _, _ => o1 = o2 end) ->
  kstep w (KSetSub sid uid root o1 target mode) = kstep w (KSetSub sid uid root o2 target mode).
Proof. intros E _. unfold kstep. rewrite E. reflexivity. Qed.

(* LIVE = OFFLINE on the stored rows of a p2p topic *)
Lemma below_256_not_unset_c08d m : m < 256 -> (m =? ModeUnset) = false.
Proof. intros H. apply N.eqb_neq. intros E. rewrite E in H. revert H. vm_compute. discriminate. Qed.
Lemma p2p_mask_not_unset_c08d m : (p2p_mask m =? ModeUnset) = false.
Proof. apply below_256_not_unset_c08d. eapply N.lt_le_trans; [exact (okmode_lt _ (okmode_mask m))|vm_compute; discriminate]. Qed.

Lemma p2p_offline_same_rows_c08d rows c sid uid root mode r :
  mode <> [] ->
  (forall m0, parse_acs mode = Some m0 -> (m0 =? ModeUnset) = false) ->
  alookup uid rows = Some r -> kr_del r = false ->
  alookup uid (kc_users c) = Some r ->                 (* the cached record is the stored row *)
  is_owner (kr_want r) = false -> is_owner (kr_given r) = false ->
  let '(live_rows, _, _, _) := k_this_user_sub CP2P rows c uid root mode false in
  live_rows = match fst (off_set_c08d CP2P rows sid uid 0 mode) with Some r' => r' | None => rows end.
Proof.
  intros NE PA LR DL LC OW OG.
  unfold k_this_user_sub, off_set_c08d. rewrite LR, LC, DL.
  destruct mode as [|m0 mr]; [congruence|]. cbn [negb andb N.eqb].
  assert (unmarshal_text 0 (m0 :: mr) = unmarshal_text ModeUnset (m0 :: mr) \/
          (snd (unmarshal_text 0 (m0 :: mr)) = false /\ snd (unmarshal_text ModeUnset (m0 :: mr)) = false)) as U.
  { unfold unmarshal_text. destruct (parse_acs (m0 :: mr)) as [p|] eqn:P; [|right; split; reflexivity].
    rewrite (PA _ eq_refl). left. reflexivity. }
  destruct U as [U|[U1 U2]].
  - rewrite U. destruct (unmarshal_text ModeUnset (m0 :: mr)) as [mw okw]. cbn [negb].
    destruct okw; cbn [negb]; [|reflexivity].
    assert ((mw =? ModeUnset) = false) as MU.
    { revert U. unfold unmarshal_text. destruct (parse_acs (m0 :: mr)) as [p|] eqn:P; [|discriminate].
      rewrite (PA _ eq_refl). intros U. inversion U; subst. apply below_256_not_unset_c08d.
      change ModeBitmask with (N.ones 8). rewrite N.land_ones. apply N.mod_lt. discriminate. }
    rewrite MU. rewrite OG, OW.
    destruct (is_owner mw); cbn [Bool.eqb negb]; [reflexivity|].
    rewrite p2p_mask_not_unset_c08d.
    destruct (p2p_mask mw =? kr_want r); cbn [fst];
      (destruct (negb (is_joiner (p2p_mask mw))); [destruct (k_evict _ _ _ _ _); reflexivity|];
       destruct (negb (is_joiner (kr_given r))); reflexivity).
  - destruct (unmarshal_text 0 (m0 :: mr)) as [a b], (unmarshal_text ModeUnset (m0 :: mr)) as [a' b']. cbn in U1, U2. subst.
    cbn [negb fst]. reflexivity.
Qed.

