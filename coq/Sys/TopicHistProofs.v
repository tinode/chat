(* C04, layer 2: proofs about what a topic's history shows (Sys/TopicHist.v).
   1. which handlers can touch message rows, deletion-log rows, the delete counter; the store
      primitives seen through [abs];
   2. the outcomes of the delete request;
   3. the invariant of every reachable state that the refinement needs, and one request of the
      product model as one transition of the specification;
   4. lifted to every history;
   5. the answers of {get data} and {get del} in terms of the specification state. *)
From Coq Require Import ZArith NArith List Bool Lia Sorted Permutation.
From Tinode Require Import Base.Util Pure.Acs Sys.Topic Sys.TopicTac Sys.TopicFrame Sys.TopicNum Sys.TopicMarks Sys.TopicOut
  Sys.TopicNumThm Sys.TopicMeta Sys.TopicHist.
From Tinode Require Base.Insertion.
Import ListNotations.
Open Scope Z_scope.

(* ------------------------------------------------------------------ *)
(* lists                                                                *)

Lemma find_app {A} (p : A -> bool) l1 l2 :
  find p (l1 ++ l2) = match find p l1 with Some x => Some x | None => find p l2 end.
Proof. induction l1 as [|a l1 IH]; cbn; [reflexivity|]. destruct (p a); auto. Qed.

Lemma find_map {A} (p : A -> bool) (g : A -> A) l :
  (forall a, p (g a) = p a) -> find p (map g l) = option_map g (find p l).
Proof. intros H. induction l as [|a l IH]; cbn; [reflexivity|]. rewrite H. destruct (p a); auto. Qed.

Lemma find_none_notin (s : store) x : ~ In x (seqs s) -> find_msg s x = None.
Proof.
  unfold find_msg, seqs. induction (msgs s) as [|m l IH]; cbn; [reflexivity|]. intros H.
  destruct (m_seq m =? x) eqn:E; [exfalso; apply H; left; lia|]. apply IH. intros Hin. apply H. now right.
Qed.

Lemma existsb_filter {A} (p q : A -> bool) l :
  existsb p (filter q l) = existsb (fun a => q a && p a) l.
Proof. induction l as [|a l IH]; cbn; [reflexivity|]. destruct (q a); cbn; rewrite IH; reflexivity. Qed.

Lemma existsb_map {A B} (p : B -> bool) (g : A -> B) l : existsb p (map g l) = existsb (fun a => p (g a)) l.
Proof. induction l as [|a l IH]; cbn; [reflexivity|]. now rewrite IH. Qed.

Lemma existsb_ext_in {A} (p q : A -> bool) l : (forall a, In a l -> p a = q a) -> existsb p l = existsb q l.
Proof. induction l as [|a l IH]; cbn; intros H; [reflexivity|]. rewrite (H a), IH; auto. Qed.

Lemma existsb_false {A} (p : A -> bool) l : (forall a, In a l -> p a = false) -> existsb p l = false.
Proof. induction l as [|a l IH]; cbn; intros H; [reflexivity|]. rewrite (H a), IH; auto. Qed.


(* ------------------------------------------------------------------ *)
(* 1. the history rows: message rows, deletion-log rows, delete counter *)

Definition hsame (s s' : store) : Prop :=
  msgs s' = msgs s /\ dellog s' = dellog s /\ t_delid s' = t_delid s.

Lemma hsame_refl s : hsame s s. Proof. repeat split. Qed.
Lemma hsame_trans a b c : hsame a b -> hsame b c -> hsame a c.
Proof. unfold hsame. intuition congruence. Qed.
Lemma hsame_sub_create s u w g : hsame s (ad_sub_create s u w g).
Proof. unfold ad_sub_create. repeat break_match; repeat split. Qed.
Lemma hsame_subs_update s u up : hsame s (ad_subs_update s u up).
Proof. unfold ad_subs_update. break_match; repeat split. Qed.

(* sessions attached after a handler are among those attached before *)
Definition sess_incl (c c' : cache) : Prop := incl (c_sess c') (c_sess c).
Lemma sess_incl_refl c : sess_incl c c. Proof. apply incl_refl. Qed.

Lemma evict_sess c u b k c' o : evict_user c u b k = (c', o) -> sess_incl c c'.
Proof.
  unfold evict_user. intros H. inv H. unfold sess_incl.
  repeat break_match; cbn [c_sess c_set_users c_set_sess]; apply incl_filter.
Qed.

(* what the permission handlers and {note} guarantee: the history rows are as they were and no session is newly attached *)
Definition hist_kept (s : store) (c : cache) (h : hres) : Prop := hsame s (h_st h) /\ sess_incl c (h_ca h).

Lemma settled_sess c u c' o : settled c u c' o -> sess_incl c c'.
Proof. intros [[-> _]|E]; [apply sess_incl_refl|exact (evict_sess _ _ _ _ _ _ E)]. Qed.
Lemma own_write_hsame s u p0 w g s1 : own_write s u p0 w g s1 -> hsame s s1.
Proof. intros [[-> _]|[ow [og [-> _]]]]; [apply hsame_refl|apply hsame_subs_update]. Qed.

(* the cache setters of the outcomes leave [c_sess] in place, [st_owner] the history rows *)
Lemma tus_hist_kept f s c u want h r : tus_spec f s c u want h r -> hist_kept s c h.
Proof.
  intros [n' code _|w g s' c' n' o ch _ S' ST|p0 w g s1 c' n' o r' _ OW ST _
         |p0 w g s1 c' n' o r' _ OW ST _|p0 w g s1 s' n' _ _ OW S'];
    try apply settled_sess in ST; try apply own_write_hsame in OW; split; cbn [h_st h_ca];
    try exact ST; try exact OW; try apply hsame_refl; try apply sess_incl_refl.
  - destruct S' as [->|[-> _]]; [apply hsame_sub_create|apply hsame_refl].
  - exact (hsame_trans _ _ _ OW (hsame_subs_update _ _ _)).
  - destruct S' as [->| ->]; [exact OW|exact (hsame_trans _ _ _ OW (hsame_subs_update _ _ _))].
Qed.
Lemma aus_hist_kept s c target h r : aus_spec s c target h r -> hist_kept s c h.
Proof.
  intros [n' code _|w g c' n' o _ ST|c' n' o ST|pt g c' n' o _ ST];
    try apply settled_sess in ST; split; cbn [h_st h_ca]; try exact ST;
    first [apply hsame_refl|apply hsame_sub_create|apply hsame_subs_update|apply sess_incl_refl].
Qed.
Lemma note_hist_kept f s c n sid u what seq : hist_kept s c (note f s c n sid u what seq).
Proof.
  unfold note, hist_kept. repeat break_match; cbn [h_st h_ca]; split;
    first [apply hsame_refl|apply hsame_subs_update|exact (incl_refl _)].
Qed.
(* publishing writes a message row and the publisher's marks *)
Lemma pub_keeps_log s c sid u content noecho h : pub_spec s c sid u content noecho h ->
  dellog (h_st h) = dellog s /\ t_delid (h_st h) = t_delid s /\
  c_delid (h_ca h) = c_delid c /\ sess_incl c (h_ca h).
Proof.
  intros [s' n' code _ S'|s' n' _ _ _ S']; cbn [h_st h_ca]; destruct S' as [->| ->];
    rewrite ?(proj1 (proj2 (hsame_subs_update _ _ _))), ?(proj2 (proj2 (hsame_subs_update _ _ _)));
    repeat split; exact (incl_refl _).
Qed.
Lemma set_sub_hist_kept f s c n sid u target mode : hist_kept s c (set_sub f s c n sid u target mode).
Proof.
  destruct (set_sub_shape f s c n sid u target mode) as (h & r & SP & E1 & E2 & _). unfold hist_kept. rewrite E1, E2.
  destruct SP as [[_ SP]|[_ SP]]; [exact (tus_hist_kept _ _ _ _ _ _ _ SP)|exact (aus_hist_kept _ _ _ _ _ SP)].
Qed.

Lemma offline_set_sub_hsame f s sid u t m : hsame s (o_st (offline_set_sub f s sid u t m)).
Proof. unfold offline_set_sub. repeat break_match; cbn [o_st]; first [apply hsame_refl|apply hsame_subs_update]. Qed.

(* attaching: the sessions afterwards are those before plus, possibly, (sid, (u, bkg)) *)
Lemma sub_reply_hist_kept f s c n sid u want bkg :
  hsame s (h_st (sub_reply f s c n sid u want bkg)) /\
  forall e, In e (c_sess (h_ca (sub_reply f s c n sid u want bkg))) -> e = (sid, (u, bkg)) \/ In e (c_sess c).
Proof.
  destruct (sub_reply_shape f s c n sid u want bkg) as (h & r & SP & E1 & _ & E2).
  destruct (tus_hist_kept _ _ _ _ _ _ _ SP) as [Hs Hc]. split; [rewrite E1; exact Hs|].
  intros e He. destruct E2 as [E2|[_ E2]]; rewrite E2 in He; [right; exact (Hc e He)|].
  unfold attach in He. destruct bkg; cbn [c_sess c_set_users c_set_sess] in He;
    (apply in_aset in He; destruct He as [He|He]; [left; exact He|right; exact (Hc e He)]).
Qed.

(* unsubscribing: the subscription row goes and with it the user's own deletion-log rows *)
Definition unsub_rows (u : N) (s s' : store) : Prop :=
  msgs s' = msgs s /\ t_delid s' = t_delid s /\
  dellog s' = filter (fun d => negb (N.eqb (d_for d) u)) (dellog s).

Lemma subs_delete_rows s u s' : ad_subs_delete s u = Some s' -> unsub_rows u s s'.
Proof. unfold ad_subs_delete. break_match; intros H; inv H. repeat split. Qed.

(* what replyLeaveUnsub and replyDelSub have in common: a 200 and the subscription of [u]
   gone from the store, or another code and the store as it was *)
Definition unsub_outcome (u : N) (s : store) (c : cache) (h : hres) : Prop :=
  sess_incl c (h_ca h) /\ c_delid (h_ca h) = c_delid c /\
  ((head_frame (h_out h) = Some (Ctrl 200 []) /\ unsub_rows u s (h_st h))
   \/ (exists code, head_frame (h_out h) = Some (Ctrl code []) /\ code <> 200 /\ h_st h = s)).

Lemma unsub_refused u s c n sid code : code <> 200 -> unsub_outcome u s c (mkH s c n [(sid, Ctrl code [])]).
Proof. intros H. split; [apply sess_incl_refl|]. split; [reflexivity|]. right. exists code. repeat split. exact H. Qed.

Lemma leave_unsub_cases f s c n sid u : unsub_outcome u s c (leave_unsub f s c n sid u).
Proof.
  unfold leave_unsub.
  destruct (N.eqb (c_owner c) u); [apply unsub_refused; lia|].
  destruct (call f n) as [ok1 n1]. destruct (negb ok1); [apply unsub_refused; lia|].
  destruct (ad_subs_delete s u) as [s1|] eqn:D; [|apply unsub_refused; lia].
  destruct (evict_user c u true sid) as [c1 o1] eqn:E.
  split; [exact (evict_sess _ _ _ _ _ _ E)|]. split; [apply evict_frame in E; apply E|].
  left. split; [reflexivity|]. apply subs_delete_rows. exact D.
Qed.

Lemma del_sub_cases f s c n sid u target :
  unsub_outcome target s c (del_sub f s c n sid u target) /\
  (head_frame (h_out (del_sub f s c n sid u target)) = Some (Ctrl 200 []) -> target <> 0%N).
Proof.
  unfold del_sub.
  destruct (negb (is_admin (user_mode c u))); [split; [apply unsub_refused; lia|discriminate]|].
  destruct ((target =? 0)%N || (target =? u)%N) eqn:T0; [split; [apply unsub_refused; lia|discriminate]|].
  split; [|intros _; apply orb_false_iff in T0; apply N.eqb_neq; apply T0].
  destruct (alookup target (c_users c)) as [pt|]; [|apply unsub_refused; lia].
  destruct (is_owner (pud_mode pt)); [apply unsub_refused; lia|].
  destruct (negb (is_joiner (p_want pt))); [apply unsub_refused; lia|].
  destruct (call f n) as [ok1 n1]. destruct (negb ok1); [apply unsub_refused; lia|].
  destruct (ad_subs_delete s target) as [s1|] eqn:D;
    destruct (evict_user c target true 0%N) as [c1 o1] eqn:E;
    (split; [exact (evict_sess _ _ _ _ _ _ E)|]); (split; [apply evict_frame in E; apply E|]).
  - left. split; [reflexivity|]. apply subs_delete_rows. exact D.
  - right. exists 304. repeat split. lia.
Qed.

Lemma leave_sess c sid u : sess_incl c (fst (leave c sid u)).
Proof.
  unfold leave, sess_incl. repeat break_match; cbn [fst c_sess c_set_users c_set_sess];
    first [apply incl_refl|intros x; apply in_aremove].
Qed.

(* ------------------------------------------------------------------ *)
(* equality of specification states                                     *)

Lemma heq_refl a : heq a a. Proof. repeat split. Qed.
Lemma heq_sym a b : heq a b -> heq b a.
Proof. intros [A [B [C D]]]. repeat split; intros; symmetry; auto. Qed.
Lemma heq_trans a b c : heq a b -> heq b c -> heq a c.
Proof.
  intros [A [B [C D]]] [A' [B' [C' D']]]. repeat split; intros.
  - now rewrite A. - rewrite B by assumption. now apply B'. - now rewrite C. - congruence.
Qed.

Lemma hs_step_heq a b e : heq a b -> heq (hs_step a e) (hs_step b e).
Proof.
  intros [A [B [C D]]]. destruct e as [n au ct|u [|] ids|u|]; cbn; repeat split; cbn; intros;
    try rewrite A; try rewrite C; try rewrite D; try (rewrite B by assumption); auto.
Qed.

Lemma hs_step_del_ext a u hard i1 i2 :
  (forall x, i1 x = i2 x) -> heq (hs_step a (HDel u hard i1)) (hs_step a (HDel u hard i2)).
Proof. intros E. destruct hard; cbn; repeat split; cbn; intros; rewrite E; reflexivity. Qed.

Lemma abs_hsame s s' : hsame s s' -> heq (abs s') (abs s).
Proof.
  intros [E1 [E2 E3]]. unfold abs, heq, find_msg, logged_for. cbn. rewrite E1, E2, E3. repeat split.
Qed.

(* ------------------------------------------------------------------ *)
(* the store primitives seen through [abs]                              *)

Lemma logged_for_app s u x rows :
  existsb (fun d => N.eqb (d_for d) u && in_range x (d_low d) (d_hi d)) (dellog s ++ rows) =
  logged_for s u x || existsb (fun d => N.eqb (d_for d) u && in_range x (d_low d) (d_hi d)) rows.
Proof. unfold logged_for. apply existsb_app. Qed.

Lemma new_rows_for d fu rs v x :
  existsb (fun r => N.eqb (d_for r) v && in_range x (d_low r) (d_hi r))
          (map (fun r => mkDel d fu (fst r) (norm_hi (fst r) (snd r))) rs) =
  N.eqb fu v && covers rs x.
Proof.
  rewrite existsb_map. cbn [d_for d_low d_hi]. unfold covers.
  destruct (N.eqb fu v); cbn [andb]; [reflexivity|]. apply existsb_false. reflexivity.
Qed.

(* the store after an accepted delete transaction [d] of user [u] *)
Lemma abs_delete (s : store) (d : Z) (u : N) (hard : bool) (rs : list (Z * Z)) (up : subupd) :
  d <> 0 -> u <> 0%N ->
  let fu := if hard then 0%N else u in
  heq (abs (ad_subs_update (st_delid d (ad_msg_delete_list s d fu rs)) fu up))
      (mkHS (hs_live (hs_step (abs s) (HDel u hard (covers rs))))
            (hs_soft (hs_step (abs s) (HDel u hard (covers rs))))
            (hs_hard (hs_step (abs s) (HDel u hard (covers rs)))) d).
Proof.
  intros Hd Hu fu.
  eapply heq_trans; [apply abs_hsame; apply hsame_subs_update|].
  unfold ad_msg_delete_list. subst fu. destruct hard; cbn [N.eqb].
  - (* hard: for everyone, rows erased *)
    unfold abs, heq, find_msg, logged_for.
    cbn [hs_live hs_soft hs_hard hs_delid hs_step msgs dellog t_delid st_delid st_msgs st_dellog].
    repeat split.
    + intros x. rewrite find_map by (intros a; destruct ((m_delid a =? 0) && _); reflexivity).
      destruct (find (fun m => m_seq m =? x) (msgs s)) as [m|] eqn:F; cbn [option_map].
      * apply find_some in F. destruct F as [_ F]. assert (m_seq m = x) as -> by lia.
        fold (covers rs x).
        destruct (m_delid m =? 0) eqn:E0; cbn [andb].
        -- destruct (covers rs x); cbn [m_delid]; [|now rewrite E0].
           destruct (d =? 0) eqn:Ed; [lia|reflexivity].
        -- rewrite E0. now destruct (covers rs x).
      * now destruct (covers rs x).
    + intros v x Hv. rewrite existsb_app, new_rows_for.
      replace (N.eqb 0 v) with false by (symmetry; apply N.eqb_neq; auto). cbn. apply orb_false_r.
    + intros x. rewrite existsb_app, new_rows_for. cbn. apply orb_comm.
  - (* soft: for the requester only, message rows untouched *)
    replace (N.eqb u 0) with false by (symmetry; apply N.eqb_neq; auto).
    unfold abs, heq, find_msg, logged_for.
    cbn [hs_live hs_soft hs_hard hs_delid hs_step msgs dellog t_delid st_delid st_msgs st_dellog].
    repeat split.
    + intros v x Hv. rewrite existsb_app, new_rows_for. rewrite orb_comm. now rewrite (N.eqb_sym u v).
    + intros x. rewrite existsb_app, new_rows_for.
      replace (N.eqb u 0) with false by (symmetry; apply N.eqb_neq; auto). cbn. apply orb_false_r.
Qed.

Lemma abs_unsub s s' u : u <> 0%N -> unsub_rows u s s' -> heq (abs s') (hs_step (abs s) (HUnsub u)).
Proof.
  intros Hu [E1 [E2 E3]]. unfold abs, heq, find_msg, logged_for. cbn. rewrite E1, E2, E3. repeat split.
  - intros v x Hv. rewrite existsb_filter. destruct (N.eqb v u) eqn:E.
    + apply N.eqb_eq in E. subst v. apply existsb_false. intros d _. destruct (N.eqb (d_for d) u); reflexivity.
    + apply existsb_ext_in. intros d _. destruct (N.eqb (d_for d) v) eqn:E'; cbn; [|apply andb_false_r].
      apply N.eqb_eq in E'. rewrite E', E. reflexivity.
  - intros x. rewrite existsb_filter. apply existsb_ext_in. intros d _.
    destruct (N.eqb (d_for d) 0) eqn:E'; cbn; [|apply andb_false_r].
    apply N.eqb_eq in E'. rewrite E'. replace (N.eqb 0 u) with false by (symmetry; apply N.eqb_neq; auto). reflexivity.
Qed.

Lemma abs_publish s s' n au ct :
  ~ In n (seqs s) -> msgs s' = msgs s ++ [mkMsg n au ct 0] -> dellog s' = dellog s -> t_delid s' = t_delid s ->
  heq (abs s') (hs_step (abs s) (HPub n au ct)).
Proof.
  intros NI E1 E2 E3. unfold abs, heq, find_msg, logged_for. cbn. rewrite E1, E2, E3. repeat split.
  intros x. rewrite find_app. cbn [find m_seq].
  destruct (x =? n) eqn:E.
  - assert (x = n) as -> by lia. pose proof (find_none_notin s n NI) as FN. unfold find_msg in FN. rewrite FN.
    rewrite Z.eqb_refl. reflexivity.
  - destruct (find (fun m => m_seq m =? x) (msgs s)); [reflexivity|].
    replace (n =? x) with false by lia. reflexivity.
Qed.

(* ------------------------------------------------------------------ *)
(* 2. the delete request                                                *)

Section Del.
Variable dr : Z -> list (Z * Z) -> option (list (Z * Z)).

(* the permission gate: the hard flag is decided first (asked for AND D in the effective mode,
   otherwise the request is silently soft); a soft deletion needs R *)
Definition del_allowed (c : cache) (u : N) (hard0 : bool) : bool :=
  (hard0 && is_deleter (user_mode c u)) || is_reader (user_mode c u).
Definition del_denied (s : store) (c : cache) (sid u : N) (hard0 : bool) (h : hres) : Prop :=
  hard0 && is_deleter (user_mode c u) = false /\ is_reader (user_mode c u) = false /\
  h_out h = [(sid, Ctrl 403 [])] /\ h_st h = s /\ h_ca h = c.
Definition del_malformed (s : store) (c : cache) (sid u : N) (req : list (Z * Z)) (hard0 : bool) (h : hres) : Prop :=
  del_allowed c u hard0 = true /\
  dr (c_lastid c) req = None /\ h_out h = [(sid, Ctrl 400 [])] /\ h_st h = s /\ h_ca h = c.
Definition del_store_failed (s : store) (c : cache) (sid u : N) (req : list (Z * Z)) (hard0 : bool) (h : hres) : Prop :=
  del_allowed c u hard0 = true /\
  dr (c_lastid c) req <> None /\ h_out h = [(sid, Ctrl 500 [])] /\ h_st h = s /\ h_ca h = c.
Definition del_accepted (s : store) (c : cache) (sid u : N) (req : list (Z * Z)) (hard0 : bool) (h : hres) : Prop :=
  del_allowed c u hard0 = true /\
  exists ranges, dr (c_lastid c) req = Some ranges /\
    let hard := hard0 && is_deleter (user_mode c u) in     (* without D the request is silently soft *)
    let fu := if hard then 0%N else u in
    let d := c_delid c + 1 in                              (* the next delete-transaction number *)
    h_out h = [(sid, Ctrl 200 [(P_del, d)])] /\
    h_st h = ad_subs_update (st_delid d (ad_msg_delete_list s d fu ranges)) fu (mkUpd None None None None (Some d)) /\
    c_delid (h_ca h) = d /\ c_lastid (h_ca h) = c_lastid c /\ c_sess (h_ca h) = c_sess c.

(* the four outcomes of replyDelMsg + messagesMapper.DeleteList.  [n] = 0: the calls of the
   request are adapter calls 1 (MessageDeleteList), 2 (TopicUpdate), 3 (SubsUpdate). *)
Lemma del_msg_cases f s c sid u req hard0 :
  fails f 1 = true \/ (fails f 2 = false /\ fails f 3 = false) ->
  let h := del_msg dr f s c 0 sid u req hard0 in
  del_denied s c sid u hard0 h \/ del_malformed s c sid u req hard0 h \/ del_store_failed s c sid u req hard0 h \/
  del_accepted s c sid u req hard0 h.
Proof.
  intros FO. cbn zeta. unfold del_msg.
  destruct (hard0 && is_deleter (user_mode c u)) eqn:EH; destruct (is_reader (user_mode c u)) eqn:ER; cbn [negb andb];
    try (left; unfold del_denied; rewrite EH, ER; repeat split; fail).
  all: assert (del_allowed c u hard0 = true) as PERM by (unfold del_allowed; rewrite EH, ER; reflexivity).
  all: destruct (dr (c_lastid c) req) as [ranges|] eqn:DR;
    [|right; left; unfold del_malformed; rewrite DR; repeat split; auto].
  all: unfold call; cbn [negb].
  all: destruct (fails f 1) eqn:F1; cbn [negb];
    [right; right; left; unfold del_store_failed; rewrite DR; repeat split; auto; discriminate|].
  all: destruct FO as [FO|[F2 F3]]; [discriminate|]; rewrite F2, F3; cbn [negb].
  all: right; right; right; unfold del_accepted; split; [exact PERM|]; exists ranges; rewrite EH;
    split; [exact DR|]; cbn zeta;
    cbn [h_out h_st h_ca c_delid c_set_delid c_set_users c_lastid c_sess andb]; repeat split.
Qed.
End Del.

(* ------------------------------------------------------------------ *)
(* 3. the invariant, and one request as one transition of the specification *)

Definition sess_ok (c : cache) : Prop := forall sid a b, In (sid, (a, b)) (c_sess c) -> a <> 0%N.

Definition inv_del (x : state) : Prop :=
  0 <= t_delid (st x) /\
  match ca x with Some c => c_delid c = t_delid (st x) /\ sess_ok c | None => True end.

Definition inv_hist (x : state) : Prop := inv_num x /\ inv_del x.

Lemma sess_ok_incl c c' : sess_incl c c' -> sess_ok c -> sess_ok c'.
Proof. intros H K sid a b Hin. eapply K. apply H. exact Hin. Qed.

Lemma event_none_code sm x o sid code : code <> 200 -> code <> 202 ->
  event_of sm x o [(sid, Ctrl code [])] = HNone.
Proof.
  intros H1 H2. unfold event_of. destruct (ca x); [|reflexivity].
  destruct o; cbn [head_frame]; try reflexivity.
  - destruct unsub; [|reflexivity]. replace (code =? 200) with false by lia. reflexivity.
  - replace (code =? 200) with false by lia. reflexivity.
Qed.

(* the requests that are no specification event whatever they are answered *)
Definition eventless (o : op) : bool :=
  match o with OLeave _ _ | OPub _ _ _ | ODelMsg _ _ _ | ODelSub _ _ => false | _ => true end.
Lemma event_eventless sm x o ou : eventless o = true -> event_of sm x o ou = HNone.
Proof. intros E. unfold event_of. destruct (ca x); [|reflexivity]. destruct o; try discriminate E; reflexivity. Qed.

Lemma inv_del_load s n : 0 <= t_delid s -> inv_del (mkState s (Some (load s)) n).
Proof. intros H. split; [exact H|]. split; [reflexivity|intros ? ? ? []]. Qed.

Section Sim.
Variable dr : Z -> list (Z * Z) -> option (list (Z * Z)).
Variable nr : list (Z * Z) -> list (Z * Z).
Variable sm : sessmap.
(* the ranges handed to the store cover exactly the ids the request denotes (layer 1:
   Ranges.del_ranges_exact for the instance of TopicInst.v) *)
Hypothesis dr_exact : forall last req out, dr last req = Some out -> forall x, covers out x = req_ids last req x.

Definition sim (f : fault) (x : state) (o : op) : Prop :=
  heq (abs (st (fst (step dr nr sm f x o)))) (hs_step (abs (st x)) (event_of sm x o (snd (step dr nr sm f x o))))
  /\ inv_del (fst (step dr nr sm f x o)).

(* a request that leaves the history rows alone and yields no event *)
Lemma sim_keep s s' cx' n' ev :
  hsame s s' -> ev = HNone -> 0 <= t_delid s ->
  match cx' with Some c' => c_delid c' = t_delid s /\ sess_ok c' | None => True end ->
  heq (abs (st (mkState s' cx' n'))) (hs_step (abs s) ev) /\ inv_del (mkState s' cx' n').
Proof.
  intros H -> H0 HC. cbn [st hs_step]. split; [apply abs_hsame; exact H|].
  destruct H as [_ [_ E]]. unfold inv_del. cbn [st ca]. rewrite E. split; [exact H0|exact HC].
Qed.

(* answered by the session layer or the hub: state kept *)
Lemma sim_refused s cx n n' ev : ev = HNone -> inv_del (mkState s cx n) ->
  heq (abs s) (hs_step (abs s) ev) /\ inv_del (mkState s cx n').
Proof. intros E [I0 IC]. exact (sim_keep s s cx n' ev (hsame_refl s) E I0 IC). Qed.

Lemma hframe_delid s c h : hframe s c h -> c_delid (h_ca h) = c_delid c.
Proof. intros [_ [_ [H _]]]. exact H. Qed.

(* a handler that leaves the history rows and the delete counter alone and attaches nobody *)
Lemma sim_hist_kept s c n h ev : ev = HNone -> inv_del (mkState s (Some c) n) -> hist_kept s c h -> hframe s c h ->
  heq (abs (h_st h)) (hs_step (abs s) ev) /\ inv_del (mkState (h_st h) (Some (h_ca h)) (h_n h)).
Proof.
  intros E [I0 [ID IS]] [HS HC] HF. apply sim_keep; [exact HS|exact E|exact I0|].
  rewrite (hframe_delid _ _ _ HF). exact (conj ID (sess_ok_incl _ _ HC IS)).
Qed.

Lemma sim_unchanged s c n h ev : ev = HNone -> inv_del (mkState s (Some c) n) -> h_st h = s /\ h_ca h = c ->
  heq (abs (h_st h)) (hs_step (abs s) ev) /\ inv_del (mkState (h_st h) (Some (h_ca h)) (h_n h)).
Proof. intros E I [-> ->]. exact (sim_refused s (Some c) n (h_n h) ev E I). Qed.

(* attaching: the new session stands for a user *)
Lemma sim_sub_reply f s c n n0 sid u want bkg ev : ev = HNone -> u <> 0%N -> inv_del (mkState s (Some c) n0) ->
  let h := sub_reply f s c n sid u want bkg in
  heq (abs (h_st h)) (hs_step (abs s) ev) /\ inv_del (mkState (h_st h) (Some (h_ca h)) (h_n h)).
Proof.
  intros E U [I0 [ID IS]]. destruct (sub_reply_hist_kept f s c n sid u want bkg) as [HS HC].
  apply sim_keep; [exact HS|exact E|exact I0|].
  rewrite (hframe_delid _ _ _ (sub_reply_frame f s c n sid u want bkg)). split; [exact ID|].
  intros sid' a b Hin. apply HC in Hin. destruct Hin as [Hin|Hin]; [inv Hin; exact U|exact (IS _ _ _ Hin)].
Qed.

(* replyLeaveUnsub / replyDelSub: a 200 is the event [HUnsub u] *)
Lemma sim_unsub s c n h u ev : inv_del (mkState s (Some c) n) -> unsub_outcome u s c h ->
  (head_frame (h_out h) = Some (Ctrl 200 []) -> u <> 0%N) ->
  (forall code, head_frame (h_out h) = Some (Ctrl code []) -> ev = if code =? 200 then HUnsub u else HNone) ->
  heq (abs (h_st h)) (hs_step (abs s) ev) /\ inv_del (mkState (h_st h) (Some (h_ca h)) (h_n h)).
Proof.
  intros [I0 [ID IS]] [LS [LD [[HF UR]|[code [HF [HC HE]]]]]] U EV; rewrite (EV _ HF).
  - split; [apply abs_unsub; [exact (U HF)|exact UR]|].
    destruct UR as [_ [E _]]. unfold inv_del. cbn [st ca]. rewrite E, LD.
    exact (conj I0 (conj ID (sess_ok_incl _ _ LS IS))).
  - replace (code =? 200) with false by lia. rewrite HE. split; [apply heq_refl|].
    unfold inv_del. cbn [st ca]. rewrite LD. exact (conj I0 (conj ID (sess_ok_incl _ _ LS IS))).
Qed.

Lemma sim_sub f x sid want bkg : inv_del x -> sess_uid sm sid <> 0%N -> sim f x (OSub sid want bkg).
Proof.
  intros I OK. destruct x as [s [c|] n0]; unfold sim, step; cbn [st ca].
  - destruct (attached c sid); cbn [fst snd];
      [apply (sim_refused s (Some c) n0); [reflexivity|exact I]
      |apply (sim_sub_reply f s c 0 n0); [reflexivity|exact OK|exact I]].
  - destruct (try_load f s 0) as [n1 [c|code]] eqn:TL; cbn [fst snd].
    + apply try_load_cases in TL. subst c.
      apply (sim_sub_reply f s (load s) n1 0); [reflexivity|exact OK|apply inv_del_load; apply I].
    + apply (sim_refused s None n0); [reflexivity|exact I].
Qed.

Lemma sim_leave f x sid unsub : inv_del x -> sim f x (OLeave sid unsub).
Proof.
  intros I. destruct x as [s [c|] n0]; unfold sim, step; cbn [st ca];
    [destruct (attached c sid) eqn:AT|]; cbn [negb fst snd].
  2,3: apply (sim_refused _ _ n0); [destruct unsub; apply event_none_code; lia|exact I].
  destruct unsub; cbn [fst snd].
  - fold (acting sm c sid).
    apply (sim_unsub s c n0 _ (acting sm c sid)); [exact I|apply leave_unsub_cases| |].
    + intros _. unfold acting. unfold attached in AT.
      destruct (alookup sid (c_sess c)) as [[a b]|] eqn:AL; [|discriminate].
      destruct I as [_ [_ IS]]. exact (IS _ _ _ (alookup_in _ _ _ AL)).
    + intros code HF. unfold event_of. cbn [ca]. rewrite HF. reflexivity.
  - pose proof (leave_sess c sid (match alookup sid (c_sess c) with Some (a, _) => a | None => sess_uid sm sid end)) as LS.
    pose proof (leave_frame c sid (match alookup sid (c_sess c) with Some (a, _) => a | None => sess_uid sm sid end)) as [_ [LD _]].
    destruct (leave c sid _) as [c1 o1]. cbn [fst snd h_st h_ca h_n h_out] in *.
    destruct I as [I0 [ID IS]].
    apply sim_keep; [apply hsame_refl|reflexivity|exact I0|]. rewrite LD. exact (conj ID (sess_ok_incl _ _ LS IS)).
Qed.

Lemma sim_pub f x sid content noecho : inv_del x -> sim f x (OPub sid content noecho).
Proof.
  intros I. destruct x as [s [c|] n0]; unfold sim, step; cbn [st ca];
    [destruct (attached c sid)|]; cbn [negb fst snd].
  2,3: apply (sim_refused _ _ n0); [apply event_none_code; lia|exact I].
  destruct I as [I0 [ID IS]].
  destruct (pub_keeps_log _ _ _ _ _ _ _ (publish_shape f s c 0 sid (sess_uid sm sid) content noecho)) as [PD [PT [PC PS]]].
  assert (inv_del (mkState (h_st (publish f s c 0 sid (sess_uid sm sid) content noecho))
                           (Some (h_ca (publish f s c 0 sid (sess_uid sm sid) content noecho)))
                           (h_n (publish f s c 0 sid (sess_uid sm sid) content noecho)))) as I1.
  { unfold inv_del. cbn [st ca]. rewrite PT, PC. exact (conj I0 (conj ID (sess_ok_incl _ _ PS IS))). }
  split; [|exact I1]. cbn [st].
  destruct (publish_cases f s c 0 sid (sess_uid sm sid) content noecho)
    as [[_ [_ [E3 [_ [_ [code [E6 E7]]]]]]]|[_ [_ [E3 [E4 E5]]]]].
  - rewrite E6, event_none_code by lia. apply abs_hsame. repeat split; assumption.
  - rewrite E5. unfold event_of. cbn [ca head_frame Z.eqb Pos.eqb]. apply abs_publish; assumption.
Qed.

Lemma sim_note f x sid what seq : inv_del x -> sim f x (ONote sid what seq).
Proof.
  intros I. destruct x as [s [c|] n0]; unfold sim, step; cbn [st ca];
    [destruct (attached c sid)|]; cbn [negb]; repeat break_match; cbn [fst snd st];
    first [apply (sim_refused _ _ n0); [apply event_eventless; reflexivity|exact I]
          |eapply sim_hist_kept; [apply event_eventless; reflexivity|exact I|apply note_hist_kept|apply note_frame]].
Qed.

Lemma sim_del_msg f x sid req hard : inv_del x -> sess_uid sm sid <> 0%N -> fault_ok f (ODelMsg sid req hard) ->
  sim f x (ODelMsg sid req hard).
Proof.
  intros I OK FO. destruct x as [s [c|] n0]; unfold sim, step; cbn [st ca];
    [destruct (attached c sid)|]; cbn [negb fst snd].
  2,3: apply (sim_refused _ _ n0); [apply event_none_code; lia|exact I].
  destruct (del_msg_cases dr f s c sid (sess_uid sm sid) req hard FO)
    as [[_ [_ [EO [ES EC]]]]|[[_ [_ [EO [ES EC]]]]|[[_ [_ [EO [ES EC]]]]|[_ [rs [DR ACC]]]]]].
  1-3: rewrite EO; eapply sim_unchanged; [apply event_none_code; lia|exact I|exact (conj ES EC)].
  cbn zeta in ACC. destruct ACC as [EO [ES [ED [EL ESS]]]]. destruct I as [I0 [ID IS]]. cbn [st] in I0, ID.
  rewrite EO. unfold event_of. cbn [st ca head_frame Z.eqb Pos.eqb]. rewrite ES. split.
  - eapply heq_trans; [apply abs_delete; [lia|exact OK]|].
    eapply heq_trans; [|apply hs_step_del_ext; intros y; apply (dr_exact _ _ _ DR)].
    destruct (hard && is_deleter (user_mode c (sess_uid sm sid))); cbn; repeat split; cbn; lia.
  - unfold inv_del. cbn [st ca].
    rewrite (proj2 (proj2 (hsame_subs_update _ _ _))). cbn [t_delid st_delid]. split; [lia|]. split; [exact ED|].
    intros sid' a b Hin. rewrite ESS in Hin. exact (IS _ _ _ Hin).
Qed.

Lemma sim_del_sub f x sid target : inv_del x -> sim f x (ODelSub sid target).
Proof.
  intros I. destruct x as [s [c|] n0]; unfold sim, step; cbn [st ca];
    [destruct (attached c sid)|]; cbn [negb fst snd].
  2,3: apply (sim_refused _ _ n0); [apply event_none_code; lia|exact I].
  destruct (del_sub_cases f s c 0 sid (sess_uid sm sid) target) as [L TN].
  apply (sim_unsub s c n0 _ target); [exact I|exact L|exact TN|].
  intros code HF. unfold event_of. cbn [ca]. rewrite HF. reflexivity.
Qed.

(* one request of the product model is one transition of the specification *)
Lemma step_sim f x o : inv_del x -> op_ok sm o -> fault_ok f o -> sim f x o.
Proof.
  intros I OK FO. destruct o.
  - exact (sim_sub f x sid want bkg I OK).
  - exact (sim_leave f x sid unsub I).
  - exact (sim_pub f x sid content noecho I).
  - exact (sim_note f x sid what seq I).
  - (* OGetData *)
    destruct x as [s [c|] n0]; unfold sim, step; cbn [st ca]; [destruct (attached c sid)|]; cbn [negb fst snd st];
      [apply (sim_unchanged s c n0); [apply event_eventless; reflexivity|exact I|apply get_data_same]|..];
      (apply (sim_refused _ _ n0); [apply event_eventless; reflexivity|exact I]).
  - (* OGetDesc *)
    destruct x as [s [c|] n0]; unfold sim, step; cbn [st ca]; [destruct (attached c sid)|]; cbn [negb fst snd st];
      [apply (sim_unchanged s c n0); [apply event_eventless; reflexivity|exact I|apply get_desc_same]|..];
      rewrite offline_get_desc_frame; (apply (sim_refused _ _ n0); [apply event_eventless; reflexivity|exact I]).
  - (* OGetSub *)
    destruct x as [s [c|] n0]; unfold sim, step; cbn [st ca]; [destruct (attached c sid)|]; cbn [negb fst snd st];
      [apply (sim_unchanged s c n0); [apply event_eventless; reflexivity|exact I|apply get_sub_same]|..];
      rewrite offline_get_sub_frame; (apply (sim_refused _ _ n0); [apply event_eventless; reflexivity|exact I]).
  - (* OGetDel *)
    destruct x as [s [c|] n0]; unfold sim, step; cbn [st ca]; [destruct (attached c sid)|]; cbn [negb fst snd st];
      [apply (sim_unchanged s c n0); [apply event_eventless; reflexivity|exact I|apply get_del_same]|..];
      (apply (sim_refused _ _ n0); [apply event_eventless; reflexivity|exact I]).
  - exact (sim_del_msg f x sid ranges hard I OK FO).
  - (* OSetSub *)
    destruct x as [s [c|] n0]; unfold sim, step; cbn [st ca]; [destruct (attached c sid)|]; cbn [negb fst snd st];
      [apply (sim_hist_kept s c n0); [apply event_eventless; reflexivity|exact I|apply set_sub_hist_kept|apply set_sub_frame]|..];
      destruct I as [I0 IC];
      (apply sim_keep; [apply offline_set_sub_hsame|apply event_eventless; reflexivity|exact I0|exact IC]).
  - exact (sim_del_sub f x sid target I).
  - (* OUnload *)
    destruct x as [s [c|] n0]; unfold sim, step; cbn [st ca]; [destruct (c_sess c)|]; cbn [fst snd].
    2,3: apply (sim_refused _ _ n0); [apply event_eventless; reflexivity|exact I].
    destruct I as [I0 _]. apply sim_keep; [apply hsame_refl|apply event_eventless; reflexivity|exact I0|exact Logic.I].
  - (* ORestart *)
    destruct x as [s cx n0]. destruct I as [I0 _].
    apply sim_keep; [apply hsame_refl|apply event_eventless; reflexivity|exact I0|exact Logic.I].
Qed.
End Sim.

(* ------------------------------------------------------------------ *)
(* 4. every history                                                     *)

Section Hist.
Variable dr : Z -> list (Z * Z) -> option (list (Z * Z)).
Variable nr : list (Z * Z) -> list (Z * Z).
Variable sm : sessmap.
Hypothesis dr_exact : forall last req out, dr last req = Some out -> forall x, covers out x = req_ids last req x.

Definition hist_ok (h : list (fault * op)) : Prop :=
  Forall (fun fo => op_ok sm (snd fo) /\ fault_ok (fst fo) (snd fo)) h.

Lemma step_f_sim x fo : inv_hist x -> op_ok sm (snd fo) -> fault_ok (fst fo) (snd fo) ->
  heq (abs (st (fst (step_f dr nr sm x fo))))
      (hs_step (abs (st x)) (event_of sm x (snd fo) (snd (step_f dr nr sm x fo))))
  /\ inv_hist (fst (step_f dr nr sm x fo)).
Proof.
  intros I OK FO.
  pose proof (step_f_inv_num dr nr sm x fo (proj1 I)) as IN.
  destruct (step_sim dr nr sm dr_exact (fst fo) x (snd fo) (proj2 I) OK FO) as [HS ID].
  unfold step_f in *. destruct (step dr nr sm (fst fo) x (snd fo)) as [x1 o1]. cbn [fst snd] in *.
  destruct (fst fo); cbn [fst snd st] in *; (split; [exact HS|]); (split; [exact IN|]); try exact ID.
  destruct ID as [I0 _]. split; [exact I0|exact Logic.I].
Qed.

(* the refinement: what the stored rows show after a history is what the specification
   computes from the accepted requests of that history *)
Lemma run_refines h : forall x a, inv_hist x -> hist_ok h -> heq (abs (st x)) a ->
  heq (abs (st (fst (run dr nr sm x h)))) (hs_run dr nr sm x h a) /\ inv_hist (fst (run dr nr sm x h)).
Proof.
  induction h as [|fo h IH]; intros x a I HO E; cbn [run hs_run fst]; [split; assumption|].
  inversion HO as [|? ? [OK FO] HO']; subst.
  destruct (step_f_sim x fo I OK FO) as [HS I1].
  destruct (step_f dr nr sm x fo) as [x1 o1]. cbn [fst snd] in *.
  specialize (IH x1 (hs_step a (event_of sm x (snd fo) o1)) I1 HO').
  destruct (run dr nr sm x1 h) as [x2 os]. cbn [fst] in *. apply IH.
  eapply heq_trans; [exact HS|]. apply hs_step_heq. exact E.
Qed.
End Hist.

Definition fresh_hist (s : store) : Prop := fresh s /\ 0 <= t_delid s.
Lemma fresh_inv_hist s n : fresh_hist s -> inv_hist (mkState s None n).
Proof. intros [F D]. split; [apply fresh_inv; exact F|]. split; [exact D|exact I]. Qed.

(* ------------------------------------------------------------------ *)
(* 5a. {get data}                                                       *)

Definition desc_ge (a b : msgrow) : Prop := m_seq b <= m_seq a.
Definition desc_gt (a b : msgrow) : Prop := m_seq b < m_seq a.

Lemma sort_desc_perm l : Permutation (sort_desc l) l.
Proof. exact (Insertion.isort_perm (fun m x => m_seq x <? m_seq m) insert_desc (fun _ => eq_refl) (fun _ _ _ => eq_refl) l). Qed.
Lemma sort_desc_sorted l : StronglySorted desc_ge (sort_desc l).
Proof.
  apply (Insertion.isort_sorted (fun m x => m_seq x <? m_seq m) insert_desc (fun _ => eq_refl) (fun _ _ _ => eq_refl));
    unfold desc_ge; intros; lia.
Qed.

Lemma sorted_nodup_strict l : StronglySorted desc_ge l -> NoDup (map m_seq l) -> StronglySorted desc_gt l.
Proof.
  induction l as [|x l IH]; intros S N; [constructor|].
  inversion S as [|? ? S' F]; subst. inversion N as [|? ? NI N']; subst.
  constructor; [apply IH; assumption|].
  apply Forall_forall. intros b Hb. rewrite Forall_forall in F. specialize (F b Hb). unfold desc_ge, desc_gt in *.
  assert (m_seq b <> m_seq x). { intros E. apply NI. rewrite <- E. now apply in_map. }
  lia.
Qed.


Lemma sorted_firstn {A} (R : A -> A -> Prop) n l : StronglySorted R l -> StronglySorted R (firstn n l).
Proof.
  revert l. induction n as [|n IH]; intros l S; cbn; [constructor|].
  destruct l as [|x l]; [constructor|]. inversion S as [|? ? S' F]; subst.
  constructor; [apply IH; exact S'|]. apply Forall_forall. intros b Hb. rewrite Forall_forall in F. apply F.
  eapply firstn_In. exact Hb.
Qed.

Lemma sorted_app_rel {A} (R : A -> A -> Prop) l1 l2 : StronglySorted R (l1 ++ l2) ->
  forall a b, In a l1 -> In b l2 -> R a b.
Proof.
  induction l1 as [|x l1 IH]; cbn; intros S a b Ha Hb; [destruct Ha|].
  inversion S as [|? ? S' F]; subst. destruct Ha as [<-|Ha].
  - rewrite Forall_forall in F. apply F. apply in_or_app. now right.
  - eapply IH; eauto.
Qed.

(* the newest-first prefix of length n of a strictly ordered list *)
Lemma firstn_newest (R : msgrow -> msgrow -> Prop) n l m : StronglySorted R l -> In m l ->
  In m (firstn n l) \/ (length (firstn n l) = n /\ forall m', In m' (firstn n l) -> R m' m).
Proof.
  intros S Hm. rewrite <- (firstn_skipn n l) in Hm. apply in_app_or in Hm. destruct Hm as [Hm|Hm]; [now left|right].
  split.
  - apply firstn_length_le. destruct (Nat.le_gt_cases n (length l)) as [L|L]; [exact L|].
    rewrite skipn_all2 in Hm by lia. destruct Hm.
  - intros m' Hm'. rewrite <- (firstn_skipn n l) in S. eapply sorted_app_rel; eauto.
Qed.

Definition shown_to (s : store) (u : N) (since before : Z) (m : msgrow) : bool :=
  (m_delid m =? 0) && in_window since before (m_seq m) && negb (logged_for s u (m_seq m)).

Lemma get_all_filter s u since before limit :
  ad_msg_get_all s u since before limit =
  firstn (Z.to_nat (eff_limit max_msg_results limit)) (sort_desc (filter (shown_to s u since before) (msgs s))).
Proof.
  unfold ad_msg_get_all. f_equal. f_equal. apply filter_ext. intros m.
  unfold shown_to, in_window, logged_for.
  destruct (m_delid m =? 0); cbn [andb]; [|reflexivity].
  destruct ((if 0 <? since then since else 0) <=? m_seq m); cbn [andb]; [|reflexivity].
  destruct (0 <? before); [|reflexivity].
  replace (m_seq m <=? before - 1) with (m_seq m <? before) by lia. reflexivity.
Qed.

Lemma eff_limit_bound mx limit : 0 < mx -> 0 < eff_limit mx limit <= mx /\ (0 < limit -> eff_limit mx limit <= limit).
Proof. intros H. unfold eff_limit. destruct ((0 <? limit) && (limit <? mx)) eqn:E; lia. Qed.

Lemma get_all_spec s u since before limit : NoDup (seqs s) ->
  let ms := ad_msg_get_all s u since before limit in
  let lim := Z.to_nat (eff_limit max_msg_results limit) in
  (length ms <= lim)%nat /\
  StronglySorted desc_gt ms /\
  (forall m, In m ms -> In m (msgs s) /\ shown_to s u since before m = true) /\
  (forall m, In m (msgs s) -> shown_to s u since before m = true ->
     In m ms \/ (length ms = lim /\ forall m', In m' ms -> m_seq m < m_seq m')).
Proof.
  intros ND. cbn zeta. rewrite get_all_filter.
  set (l := sort_desc (filter (shown_to s u since before) (msgs s))).
  assert (StronglySorted desc_gt l) as SL.
  { apply sorted_nodup_strict; [apply sort_desc_sorted|].
    eapply Permutation_NoDup; [apply Permutation_map; apply Permutation_sym; apply sort_desc_perm|].
    apply nodup_map_filter. exact ND. }
  split; [apply firstn_le_length|]. split; [apply sorted_firstn; exact SL|]. split.
  - intros m Hm. apply firstn_In in Hm. apply (Permutation_in _ (sort_desc_perm _)) in Hm.
    apply filter_In in Hm. exact Hm.
  - intros m Hm Sh.
    assert (In m l) as Hl.
    { apply (Permutation_in _ (Permutation_sym (sort_desc_perm _))). apply filter_In. split; assumption. }
    destruct (firstn_newest desc_gt (Z.to_nat (eff_limit max_msg_results limit)) l m SL Hl) as [H|[H1 H2]]; [now left|right].
    split; [exact H1|]. intros m' Hm'. apply H2 in Hm'. exact Hm'.
Qed.

Lemma find_msg_In s m : NoDup (seqs s) -> In m (msgs s) -> find_msg s (m_seq m) = Some m.
Proof.
  unfold find_msg, seqs. induction (msgs s) as [|y l IH]; cbn; intros ND Hm; [destruct Hm|].
  inversion ND as [|? ? NI ND']; subst.
  destruct Hm as [->|Hm]; [now rewrite Z.eqb_refl|].
  destruct (m_seq y =? m_seq m) eqn:E; [|auto].
  exfalso. apply NI. assert (m_seq y = m_seq m) as -> by lia. now apply in_map.
Qed.
Lemma find_msg_some s x m : find_msg s x = Some m -> In m (msgs s) /\ m_seq m = x.
Proof. unfold find_msg. intros H. apply find_some in H. destruct H as [H1 H2]. split; [exact H1|lia]. Qed.

(* a stored row is shown to u in the window iff the specification state shows it *)
Lemma shown_to_visible s u since before m : NoDup (seqs s) -> In m (msgs s) ->
  (shown_to s u since before m = true <->
   in_window since before (m_seq m) = true /\ hs_visible (abs s) u (m_seq m) = Some (m_from m, m_content m)).
Proof.
  intros ND Hm. unfold shown_to, hs_visible, abs. cbn [hs_soft hs_live]. rewrite (find_msg_In s m ND Hm).
  destruct (m_delid m =? 0), (in_window since before (m_seq m)), (logged_for s u (m_seq m)); cbn; intuition; discriminate.
Qed.
Lemma visible_row s u x a c : hs_visible (abs s) u x = Some (a, c) ->
  exists m, In m (msgs s) /\ m_seq m = x /\ m_from m = a /\ m_content m = c.
Proof.
  unfold hs_visible, abs. cbn [hs_soft hs_live]. destruct (logged_for s u x); [discriminate|].
  destruct (find_msg s x) as [m|] eqn:F; [|discriminate]. destruct (m_delid m =? 0); [|discriminate].
  intros H. inv H. apply find_msg_some in F. destruct F as [F1 F2]. exists m. auto.
Qed.

Definition data_gt (a b : Z * N * N) : Prop := fst (fst b) < fst (fst a).

Lemma data_of_frames sid ms tail :
  (forall e, In e tail -> match snd e with Data _ _ _ => False | _ => True end) ->
  data_of (map (fun m => (sid, Data (m_seq m) (m_from m) (m_content m))) ms ++ tail) =
  map (fun m => (m_seq m, m_from m, m_content m)) ms.
Proof.
  intros HT. unfold data_of. rewrite flat_map_app.
  assert (flat_map (fun e : N * frame => match snd e with Data q a c => [(q, a, c)] | _ => [] end) tail = []) as ->.
  { induction tail as [|e t IH]; [reflexivity|]. cbn. pose proof (HT e (or_introl eq_refl)) as H.
    destruct (snd e); try contradiction; cbn; apply IH; intros e' He'; apply HT; now right. }
  rewrite app_nil_r. induction ms as [|m ms IH]; cbn; [reflexivity|]. now rewrite IH.
Qed.

(* the closing {ctrl} of an answer with n messages *)
Definition data_closing (n : nat) : frame :=
  match n with O => Ctrl 204 [(P_what, 1)] | _ => Ctrl 208 [(P_what, 1); (P_count, Z.of_nat n)] end.

Lemma get_data_answer f s c n sid u since before limit :
  is_reader (user_mode c u) = true -> fails f (S n) = false ->
  let ms := ad_msg_get_all s u since before limit in
  h_out (get_data f s c n sid u since before limit) =
    map (fun m => (sid, Data (m_seq m) (m_from m) (m_content m))) ms ++ [(sid, data_closing (length ms))].
Proof.
  intros R F. cbn zeta. unfold get_data, call. rewrite R, F. cbn [negb].
  destruct (ad_msg_get_all s u since before limit) as [|m ms]; reflexivity.
Qed.

Lemma get_data_exact f s c n sid u since before limit :
  NoDup (seqs s) -> is_reader (user_mode c u) = true -> fails f (S n) = false ->
  let o := h_out (get_data f s c n sid u since before limit) in
  let fr := data_of o in
  let lim := Z.to_nat (eff_limit max_msg_results limit) in
  o = map (fun e => (sid, Data (fst (fst e)) (snd (fst e)) (snd e))) fr ++ [(sid, data_closing (length fr))] /\
  (length fr <= lim)%nat /\
  StronglySorted data_gt fr /\
  (forall x a ct, In (x, a, ct) fr -> in_window since before x = true /\ hs_visible (abs s) u x = Some (a, ct)) /\
  (forall x a ct, in_window since before x = true -> hs_visible (abs s) u x = Some (a, ct) ->
     In (x, a, ct) fr \/ (length fr = lim /\ forall e, In e fr -> x < fst (fst e))).
Proof.
  intros ND R F. cbn zeta. rewrite (get_data_answer f s c n sid u since before limit R F).
  rewrite data_of_frames by (intros e [<-|[]]; cbn; destruct (length _); exact I).
  destruct (get_all_spec s u since before limit ND) as [L [S [SND CMP]]]. cbn zeta in *.
  set (ms := ad_msg_get_all s u since before limit) in *.
  split; [rewrite map_map, map_length; cbn [fst snd]; reflexivity|].
  rewrite map_length. split; [exact L|]. split.
  - clear -S. induction S as [|m l S IH F]; cbn; constructor; [exact IH|].
    apply Forall_forall. intros e He. apply in_map_iff in He. destruct He as [m' [<- Hm']].
    rewrite Forall_forall in F. apply F in Hm'. exact Hm'.
  - split.
    + intros x a ct Hin. apply in_map_iff in Hin. destruct Hin as [m [E Hm]]. inv E.
      destruct (SND m Hm) as [H1 H2]. apply (shown_to_visible s u since before m ND H1). exact H2.
    + intros x a ct W V. destruct (visible_row s u x a ct V) as [m [Hm [E1 [E2 E3]]]]. subst.
      assert (shown_to s u since before m = true) as Sh by (apply (shown_to_visible s u since before m ND Hm); auto).
      destruct (CMP m Hm Sh) as [H|[H1 H2]].
      * left. apply in_map_iff. exists m. auto.
      * right. split; [exact H1|]. intros e He. apply in_map_iff in He. destruct He as [m' [<- Hm']]. cbn. apply H2. exact Hm'.
Qed.

Lemma get_data_no_read f s c n sid u since before limit :
  is_reader (user_mode c u) = false ->
  h_out (get_data f s c n sid u since before limit) = [(sid, Ctrl 204 [(P_what, 1)])].
Proof. intros R. unfold get_data. rewrite R. reflexivity. Qed.

(* ------------------------------------------------------------------ *)
(* 5b. the deletion log and {get del}                                   *)

(* every log row is a non-empty range of non-negative ids of a non-negative transaction *)
Definition row_wf (d : delrow) : Prop := 0 <= d_low d < d_hi d /\ 0 <= d_delid d.
Definition dellog_wf (s : store) : Prop := Forall row_wf (dellog s) /\ 0 <= t_delid s.
Definition log_inv (s : store) (c : cache) : Prop := dellog_wf s /\ 0 <= c_delid c.

Lemma dellog_wf_hsame s s' : hsame s s' -> dellog_wf s -> dellog_wf s'.
Proof. intros [_ [E1 E2]] H. unfold dellog_wf. now rewrite E1, E2. Qed.
Lemma dellog_wf_unsub u s s' : unsub_rows u s s' -> dellog_wf s -> dellog_wf s'.
Proof.
  intros [_ [E2 E]] [H H0]. unfold dellog_wf in *. rewrite E, E2. split; [|exact H0]. apply Forall_forall. intros d Hd.
  apply filter_In in Hd. rewrite Forall_forall in H. apply H. tauto.
Qed.

Definition range_wf (r : Z * Z) : Prop := 0 <= fst r /\ (snd r = 0 \/ fst r < snd r).

Lemma dellog_wf_delete_list s d fu rs : 0 <= d -> Forall range_wf rs -> dellog_wf s -> dellog_wf (ad_msg_delete_list s d fu rs).
Proof.
  intros Hd HR [H H0]. unfold dellog_wf, ad_msg_delete_list in *.
  assert (Forall row_wf (dellog s ++ map (fun r => mkDel d fu (fst r) (norm_hi (fst r) (snd r))) rs)) as G.
  { apply Forall_app. split; [exact H|]. apply Forall_forall. intros x Hx. apply in_map_iff in Hx.
    destruct Hx as [r [<- Hr]]. rewrite Forall_forall in HR. destruct (HR r Hr) as [A B].
    unfold row_wf, norm_hi. cbn [d_low d_hi d_delid]. destruct (snd r =? 0) eqn:E; lia. }
  destruct (fu =? 0)%N; split; assumption.
Qed.

Section Wf.
Variable dr : Z -> list (Z * Z) -> option (list (Z * Z)).
Variable nr : list (Z * Z) -> list (Z * Z).
Variable sm : sessmap.
Hypothesis dr_wf : forall last req out, dr last req = Some out -> Forall range_wf out.

Lemma del_msg_wf f s c n sid u req hard : log_inv s c ->
  log_inv (h_st (del_msg dr f s c n sid u req hard)) (h_ca (del_msg dr f s c n sid u req hard)).
Proof.
  intros [H HC]. unfold del_msg.
  destruct (negb (hard && is_deleter (user_mode c u)) && negb (is_reader (user_mode c u))); [split; assumption|].
  destruct (dr (c_lastid c) req) as [rs|] eqn:DR; [|split; assumption].
  pose proof (dellog_wf_delete_list s (c_delid c + 1) (if hard && is_deleter (user_mode c u) then 0%N else u) rs
                ltac:(lia) (dr_wf _ _ _ DR) H) as W.
  assert (dellog_wf (st_delid (c_delid c + 1) (ad_msg_delete_list s (c_delid c + 1) (if hard && is_deleter (user_mode c u) then 0%N else u) rs))) as W2.
  { destruct W as [W _]. split; [exact W|cbn; lia]. }
  repeat break_match; cbn [h_st h_ca]; split; try exact H; try exact W; try exact W2; try exact HC;
    try (eapply dellog_wf_hsame; [apply hsame_subs_update|]; exact W2);
    cbn [c_delid c_set_delid c_set_users]; lia.
Qed.

Lemma log_inv_keep s c h : hsame s (h_st h) -> hframe s c h -> log_inv s c -> log_inv (h_st h) (h_ca h).
Proof. intros HS HF [H HC]. split; [exact (dellog_wf_hsame _ _ HS H)|]. now rewrite (hframe_delid _ _ _ HF). Qed.

Lemma log_inv_unsub u s c h : unsub_outcome u s c h -> log_inv s c -> log_inv (h_st h) (h_ca h).
Proof.
  intros [_ [LD [[_ UR]|[code [_ [_ E]]]]]] [H HC]; (split; [|now rewrite LD]);
    [exact (dellog_wf_unsub _ _ _ UR H)|now rewrite E].
Qed.

(* with ANY faults and crashes the log rows stay well formed *)
Definition log_minv (x : state) : Prop := minv dellog_wf log_inv x.

Lemma log_minv_wf x : log_minv x -> dellog_wf (st x).
Proof. unfold log_minv, minv. destruct (ca x); [intros [A _]; exact A|auto]. Qed.

Lemma step_log_minv f x o : log_minv x -> log_minv (fst (step dr nr sm f x o)).
Proof.
  apply (step_minv dr nr sm dellog_wf log_inv).
  - intros s H. split; [exact H|apply H].
  - intros s c [H _]. exact H.
  - intros f0 s c n sid u w b. apply log_inv_keep; [apply sub_reply_hist_kept|apply sub_reply_frame].
  - intros f0 s c n sid u. apply (log_inv_unsub u). apply leave_unsub_cases.
  - intros s c sid u [H HC]. split; [exact H|]. destruct (leave_frame c sid u) as [_ [E _]]. now rewrite E.
  - intros f0 s c n sid u ct ne [[H H0] HC]. destruct (pub_keeps_log _ _ _ _ _ _ _ (publish_shape f0 s c n sid u ct ne)) as [E1 [E2 [E3 _]]].
    split; [|now rewrite E3]. unfold dellog_wf. now rewrite E1, E2.
  - intros f0 s c n sid u w q. apply log_inv_keep; [apply note_hist_kept|apply note_frame].
  - intros f0 s c n sid u r hd. apply del_msg_wf.
  - intros f0 s c n sid u t m. apply log_inv_keep; [apply set_sub_hist_kept|apply set_sub_frame].
  - intros f0 s c n sid u t. apply (log_inv_unsub t). apply del_sub_cases.
  - intros f0 s sid u t m. apply dellog_wf_hsame. apply offline_set_sub_hsame.
  - intros f0 s c sid u t m [H HC]. split; [|exact HC]. exact (dellog_wf_hsame _ _ (offline_set_sub_hsame f0 s sid u t m) H).
Qed.

Lemma step_f_log_minv x fo : log_minv x -> log_minv (fst (step_f dr nr sm x fo)).
Proof.
  apply step_f_inv; [intros f x0 o; apply step_log_minv|]. intros s c n H. exact (log_minv_wf _ H).
Qed.

Lemma run_log_minv h : forall x, log_minv x -> log_minv (fst (run dr nr sm x h)).
Proof. apply run_inv, step_f_log_minv. Qed.
End Wf.

Lemma sort_del_perm l : Permutation (sort_del l) l.
Proof.
  rewrite <- (app_nil_r l) at 2.
  exact (Insertion.isort_left_perm (fun d x => d_delid d <? d_delid x) insert_del (fun _ => eq_refl) (fun _ _ _ => eq_refl) l []).
Qed.
Lemma existsb_perm {A} (p : A -> bool) l l' : Permutation l l' -> existsb p l = existsb p l'.
Proof.
  induction 1; cbn; try congruence.
  - destruct (p x), (p y); reflexivity.
Qed.

(* the rows MessageGetDeleted selects for user u: written for everyone or for u, transaction
   number in [since, before) (since <= 0: from the first; before <= 1: to the last) *)
Definition del_sel (u : N) (since before : Z) (d : delrow) : bool :=
  ((d_for d =? 0)%N || N.eqb (d_for d) u) && ((if 0 <? since then since else 0) <=? d_delid d) &&
  (if 1 <? before then d_delid d <? before else true).

Lemma get_deleted_filter s u since before limit :
  ad_msg_get_deleted s u since before limit =
  firstn (Z.to_nat (eff_limit max_results limit)) (sort_del (filter (del_sel u since before) (dellog s))).
Proof.
  unfold ad_msg_get_deleted. f_equal. f_equal. apply filter_ext. intros d. unfold del_sel.
  destruct ((d_for d =? 0)%N || N.eqb (d_for d) u); cbn [andb]; [|reflexivity].
  destruct ((if 0 <? since then since else 0) <=? d_delid d); cbn [andb]; [|reflexivity].
  destruct (1 <? before); [|reflexivity]. replace (d_delid d <=? before - 1) with (d_delid d <? before) by lia. reflexivity.
Qed.

(* ids named by the selected transactions *)
Definition logged_sel (s : store) (u : N) (since before : Z) (x : Z) : bool :=
  existsb (fun d => del_sel u since before d && in_range x (d_low d) (d_hi d)) (dellog s).

(* an unrestricted query selects everything deleted for the user *)
Lemma logged_sel_open s u since before x : dellog_wf s -> since <= 0 -> before <= 1 ->
  logged_sel s u since before x = hs_deleted_for (abs s) u x.
Proof.
  intros [W _] H1 H2. unfold logged_sel, hs_deleted_for, abs, logged_for. cbn [hs_soft hs_hard].
  induction (dellog s) as [|d l IH]; cbn; [reflexivity|].
  inversion W as [|? ? [_ WD] W']; subst. rewrite (IH W'). unfold del_sel.
  replace (0 <? since) with false by lia. replace (1 <? before) with false by lia.
  replace (0 <=? d_delid d) with true by lia.
  destruct (d_for d =? 0)%N eqn:E0, (N.eqb (d_for d) u) eqn:Eu, (in_range x (d_low d) (d_hi d)); cbn;
    try reflexivity; rewrite ?orb_true_r; try reflexivity;
    destruct (existsb _ l); try reflexivity; destruct (existsb _ l); reflexivity.
Qed.

Lemma get_deleted_rows s u since before limit :
  let rows := ad_msg_get_deleted s u since before limit in
  let lim := Z.to_nat (eff_limit max_results limit) in
  (length rows <= lim)%nat /\
  (forall d, In d rows -> In d (dellog s) /\ del_sel u since before d = true) /\
  ((length (filter (del_sel u since before) (dellog s)) <= lim)%nat ->
   forall x, existsb (fun d => in_range x (d_low d) (d_hi d)) rows = logged_sel s u since before x).
Proof.
  cbn zeta. rewrite get_deleted_filter. split; [apply firstn_le_length|]. split.
  - intros d Hd. apply firstn_In in Hd. apply (Permutation_in _ (sort_del_perm _)) in Hd.
    apply filter_In in Hd. exact Hd.
  - intros L x. rewrite firstn_all2.
    + rewrite (existsb_perm _ _ _ (sort_del_perm _)). rewrite existsb_filter. reflexivity.
    + rewrite (Permutation_length (sort_del_perm _)). exact L.
Qed.

Lemma fold_max_spec l : forall acc,
  let r := fold_left (fun a d => Z.max a (d_delid d)) l acc in
  acc <= r /\ (forall d, In d l -> d_delid d <= r) /\ (r = acc \/ exists d, In d l /\ d_delid d = r).
Proof.
  induction l as [|y l IH]; intros acc; cbn [fold_left]; cbn zeta.
  - split; [lia|]. split; [intros d []|now left].
  - destruct (IH (Z.max acc (d_delid y))) as [A [B C]]. cbn zeta in *. split; [lia|]. split.
    + intros d [<-|Hd]; [lia|auto].
    + destruct C as [C|[d [Hd C]]]; [|right; exists d; split; [now right|exact C]].
      destruct (Z.max_spec acc (d_delid y)) as [[_ E]|[_ E]]; rewrite E in *.
      * right. exists y. split; [now left|now symmetry].
      * now left.
Qed.

(* a log row as it is reported: MessageGetDeleted turns hi <= low+1 into hi = 0 *)
Definition row_range (d : delrow) : Z * Z := (d_low d, if d_hi d <=? d_low d + 1 then 0 else d_hi d).
Lemma row_range_wf d : row_wf d -> range_wf (row_range d).
Proof. intros [H _]. unfold range_wf, row_range. cbn [fst snd]. destruct (d_hi d <=? d_low d + 1) eqn:E; lia. Qed.
Lemma row_range_covers d x : row_wf d ->
  in_range x (fst (row_range d)) (norm_hi (fst (row_range d)) (snd (row_range d))) = in_range x (d_low d) (d_hi d).
Proof.
  intros [H _]. unfold row_range, norm_hi, in_range. cbn [fst snd].
  destruct (d_hi d <=? d_low d + 1) eqn:E; cbn [Z.eqb].
  - assert (d_hi d = d_low d + 1) as -> by lia. reflexivity.
  - replace (d_hi d =? 0) with false by lia. reflexivity.
Qed.

Section GetDel.
Variable nr : list (Z * Z) -> list (Z * Z).
(* sort + Normalize cover exactly the ids of their input (layer 1: Ranges.normalize_exact
   for the instance of TopicInst.v) *)
Hypothesis nr_exact : forall rs, Forall range_wf rs -> forall x, covers (nr rs) x = covers rs x.

Lemma get_del_exact f s c n sid u since before limit :
  dellog_wf s -> is_reader (user_mode c u) = true -> fails f (S n) = false ->
  let rows := ad_msg_get_deleted s u since before limit in
  let o := h_out (get_del nr f s c n sid u since before limit) in
  (rows = [] /\ o = [(sid, Ctrl 204 [(P_what, 3)])]) \/
  (exists maxid rs, o = [(sid, MetaDel maxid rs)] /\
     (forall d, In d rows -> d_delid d <= maxid) /\ (exists d, In d rows /\ d_delid d = maxid) /\
     (forall x, covers rs x = existsb (fun d => in_range x (d_low d) (d_hi d)) rows)).
Proof.
  intros [W _] R F. cbn zeta. unfold get_del, call. rewrite R, F. cbn [negb].
  destruct (get_deleted_rows s u since before limit) as [_ [RW _]]. cbn zeta in RW.
  destruct (ad_msg_get_deleted s u since before limit) as [|d0 rows] eqn:E; [left; split; reflexivity|right].
  set (l := d0 :: rows) in *.
  assert (Forall row_wf l) as WL.
  { apply Forall_forall. intros d Hd. rewrite Forall_forall in W. apply W. apply RW. exact Hd. }
  eexists. eexists. split; [reflexivity|].
  destruct (fold_max_spec l 0) as [A [B C]]. cbn zeta in *. split; [exact B|]. split.
  - destruct C as [C|C]; [|exact C]. exists d0. split; [now left|].
    specialize (B d0 (or_introl eq_refl)). rewrite Forall_forall in WL. destruct (WL d0 (or_introl eq_refl)) as [_ G].
    fold l. lia.
  - intros x. rewrite nr_exact.
    + unfold covers. rewrite existsb_map. apply existsb_ext_in. intros d Hd. fold (row_range d).
      apply row_range_covers. rewrite Forall_forall in WL. apply WL. exact Hd.
    + apply Forall_forall. intros r Hr. apply in_map_iff in Hr. destruct Hr as [d [<- Hd]]. fold (row_range d).
      apply row_range_wf. rewrite Forall_forall in WL. apply WL. exact Hd.
Qed.

(* the same in terms of the log, when the selected rows fit the limit: nothing selected -> 204;
   else one {meta del} covering exactly the selected ids, numbered by the last selected transaction *)
Lemma get_del_answer f s c n sid u since before limit :
  dellog_wf s -> is_reader (user_mode c u) = true -> fails f (S n) = false ->
  (length (filter (del_sel u since before) (dellog s)) <= Z.to_nat (eff_limit max_results limit))%nat ->
  let o := h_out (get_del nr f s c n sid u since before limit) in
  (o = [(sid, Ctrl 204 [(P_what, 3)])] /\ forall x, logged_sel s u since before x = false) \/
  (exists maxid rs, o = [(sid, MetaDel maxid rs)] /\
     (forall x, covers rs x = logged_sel s u since before x) /\
     (forall d, In d (dellog s) -> del_sel u since before d = true -> d_delid d <= maxid) /\
     (exists d, In d (dellog s) /\ del_sel u since before d = true /\ d_delid d = maxid)).
Proof.
  intros W R F L. cbn zeta.
  destruct (get_deleted_rows s u since before limit) as [_ [RW EX]]. cbn zeta in RW, EX. specialize (EX L).
  destruct (get_del_exact f s c n sid u since before limit W R F) as [[E1 E2]|[maxid [rs [E1 [E2 [E3 E4]]]]]].
  - left. split; [exact E2|]. intros x. rewrite <- EX, E1. reflexivity.
  - right. exists maxid, rs. split; [exact E1|]. split; [intros x; rewrite E4; apply EX|]. split.
    + intros d Hd Sd. apply E2.
      (* every selected row is among the rows read: the limit is not reached *)
      rewrite get_deleted_filter, firstn_all2.
      * apply (Permutation_in _ (Permutation_sym (sort_del_perm _))). apply filter_In. split; assumption.
      * rewrite (Permutation_length (sort_del_perm _)). exact L.
    + destruct E3 as [d [Hd Ed]]. exists d. destruct (RW d Hd) as [A B]. auto.
Qed.

Lemma get_del_no_read f s c n sid u since before limit :
  is_reader (user_mode c u) = false ->
  h_out (get_del nr f s c n sid u since before limit) = [(sid, Ctrl 204 [(P_what, 3)])].
Proof. intros R. unfold get_del. rewrite R. reflexivity. Qed.
End GetDel.
