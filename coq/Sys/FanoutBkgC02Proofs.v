(* Lemmas about Sys/FanoutBkgC02.v (fan-out with background sessions and store faults): the invariants,
   and that the primitives (attach a session, evict a user, change a grant, new subscriber, drop a
   session) keep them.  Requests are in FanoutBkgC02Steps.v, histories and recipients in
   FanoutBkgC02Runs.v, the push receipt in FanoutBkgC02Push.v. *)
From Coq Require Import ZArith NArith List Bool Lia Permutation.
From Coq Require Import ZifyBool ZifyNat ZifyN.
From Tinode Require Import Sys.Fanout Sys.FanoutProofs Sys.FanoutBkgC02.
Import ListNotations.
Open Scope N_scope.

(* ------------------------------------------------------------------ *)
(* the invariants *)

(* every attached session acts for a cached, not deleted user, who is a channel reader iff the session
   is a channel subscription *)
Definition att_x (st : state) : Prop :=
  forall s d, In (s, d) (st_sess st) ->
    exists p, lookup (ss_uid d) (st_users st) = Some p /\ pu_deleted p = false /\ pu_ischan p = ss_chan d.
(* the online counter of a channel reader is at least the number of his attached sessions (what the
   `delete(t.perUser, uid)` of handleLeaveRequest relies on); nothing of the kind holds for ordinary
   subscribers once background sessions exist *)
Definition online_chan (st : state) : Prop :=
  forall u p, lookup u (st_users st) = Some p -> pu_ischan p = true -> (Z.of_nat (cnt u (st_sess st)) <= pu_online p)%Z.
Definition bkg_ok (bkg : list sid) (st : state) : Prop :=
  forall s d, In (s, d) (st_sess st) -> mem s bkg = true -> ss_chan d = false.

(* the live grants according to the cache *)
Definition live_modes (st : state) (u : uid) : option (mode * mode) :=
  match lookup u (st_users st) with
  | Some p => if pu_deleted p || pu_ischan p then None else Some (pu_want p, pu_given p)
  | None => None
  end.
(* cached grants = stored grants: a live row exists exactly for the cached ordinary subscribers, with the same modes *)
Definition coh (x : xstate) : Prop := forall u, lookup u (x_rows x) = live_modes (x_st x) u.

Definition xinv (x : xstate) : Prop :=
  wf_sess (x_st x) /\ att_x (x_st x) /\ online_chan (x_st x) /\ bkg_ok (x_bkg x) (x_st x) /\ coh x.

(* no session of a banned / self-banned ordinary subscriber is attached *)
Definition joined (st : state) : Prop :=
  forall s d p, In (s, d) (st_sess st) -> lookup (ss_uid d) (st_users st) = Some p -> pu_ischan p = false ->
    has (pu_want p) bJ = true /\ has (pu_given p) bJ = true.

(* the part of [xinv] that speaks of the cached topic alone *)
Definition sinv (bkg : list sid) (st : state) : Prop := wf_sess st /\ att_x st /\ online_chan st /\ bkg_ok bkg st.

Lemma xinv_split x : xinv x <-> sinv (x_bkg x) (x_st x) /\ coh x.
Proof. unfold xinv, sinv. tauto. Qed.

(* ------------------------------------------------------------------ *)
(* user lists that differ in the online counters only *)
Definition core (p : pud) := (pu_want p, pu_given p, pu_deleted p, pu_ischan p).
Definition same_core (us us' : list (uid * pud)) : Prop :=
  forall u, option_map core (lookup u us') = option_map core (lookup u us).

Lemma same_core_refl us : same_core us us. Proof. intros u. reflexivity. Qed.

Lemma same_core_update u f us : (forall p, core (f p) = core p) -> same_core us (update u f us).
Proof.
  intros Hf u2. destruct (N.eq_dec u2 u) as [->|E].
  - destruct (lookup u us) as [p|] eqn:Ep.
    + rewrite (lookup_update_same _ _ _ _ Ep). cbn. now rewrite Hf.
    + now rewrite (lookup_update_none _ _ _ Ep).
  - now rewrite lookup_update_other.
Qed.

Lemma same_core_upsert u f us p : lookup u us = Some p -> (forall q, core (f q) = core q) -> same_core us (upsert u f us).
Proof.
  intros Hp Hf u2. destruct (N.eq_dec u2 u) as [->|E].
  - rewrite lookup_upsert_same, Hp. cbn. now rewrite Hf.
  - now rewrite lookup_upsert_other.
Qed.

Lemma same_core_lookup us us' u p : same_core us us' -> lookup u us = Some p ->
  exists p', lookup u us' = Some p' /\ core p' = core p.
Proof.
  intros H Hp. specialize (H u). rewrite Hp in H. destruct (lookup u us') as [p'|]; cbn in H; [|discriminate].
  exists p'. split; [reflexivity|]. congruence.
Qed.

Lemma same_core_sym us us' : same_core us us' -> same_core us' us.
Proof. intros H u. now rewrite H. Qed.

Lemma core_fields p q : core p = core q ->
  pu_want p = pu_want q /\ pu_given p = pu_given q /\ pu_deleted p = pu_deleted q /\ pu_ischan p = pu_ischan q.
Proof. unfold core. intros H. inversion H. auto. Qed.

Lemma att_x_core st st' : st_sess st' = st_sess st -> same_core (st_users st) (st_users st') -> att_x st -> att_x st'.
Proof.
  intros Hs Hc H s d Hin. rewrite Hs in Hin. destruct (H s d Hin) as [p [Hp [Hd Hch]]].
  destruct (same_core_lookup _ _ _ _ Hc Hp) as [p' [Hp' Hcore]]. apply core_fields in Hcore.
  exists p'. split; [exact Hp'|]. destruct Hcore as [_ [_ [E1 E2]]]. split; congruence.
Qed.

Lemma joined_core st st' : st_sess st' = st_sess st -> same_core (st_users st) (st_users st') -> joined st -> joined st'.
Proof.
  intros Hs Hc H s d p' Hin Hp' Hch. rewrite Hs in Hin.
  destruct (same_core_lookup _ _ _ _ (same_core_sym _ _ Hc) Hp') as [p [Hp Hcore]]. apply core_fields in Hcore.
  destruct Hcore as [E1 [E2 [_ E4]]]. rewrite <- E1, <- E2. apply (H s d p Hin Hp). congruence.
Qed.

Lemma live_modes_core st st' : same_core (st_users st) (st_users st') -> forall u, live_modes st' u = live_modes st u.
Proof.
  intros Hc u. unfold live_modes. specialize (Hc u).
  destruct (lookup u (st_users st)) as [p|], (lookup u (st_users st')) as [p'|]; cbn in Hc; try discriminate; [|reflexivity].
  assert (E : core p' = core p) by congruence. apply core_fields in E. destruct E as [-> [-> [-> ->]]]. reflexivity.
Qed.

Lemma core_online n p : core (set_pud_online n p) = core p. Proof. reflexivity. Qed.

Lemma has_key_evict st u b s : has_key s (st_sess st) = false -> has_key s (st_sess (evict_user st u b)) = false.
Proof.
  rewrite !has_key_false. intros H Hin. apply H. destruct (evict_user_sess st u b) as [E _]. rewrite E in Hin.
  apply in_map_iff in Hin. destruct Hin as [x [Hx Hin]]. apply filter_In in Hin. apply in_map_iff. exists x. tauto.
Qed.

Lemma att_x_absent st u : att_x st -> lookup u (st_users st) = None -> cnt u (st_sess st) = 0%nat.
Proof.
  intros H Hn. apply cnt_zero. intros s d Hin Hu. destruct (H s d Hin) as [p [Hp _]]. rewrite Hu in Hp. congruence.
Qed.

(* ------------------------------------------------------------------ *)
(* evictUser *)
Lemma evict_sess_in st u b s d : In (s, d) (st_sess (evict_user st u b)) <-> In (s, d) (st_sess st) /\ ss_uid d <> u.
Proof.
  destruct (evict_user_sess st u b) as [-> _]. rewrite filter_In. cbn. rewrite negb_true_iff, N.eqb_neq. tauto.
Qed.

(* whatever the online counter says, no session of the evicted user stays *)
Lemma evict_detaches_all st u b s d : In (s, d) (st_sess (evict_user st u b)) -> ss_uid d <> u.
Proof. intros H. now apply evict_sess_in in H. Qed.

Lemma joined_evict st u b : joined st -> joined (evict_user st u b).
Proof.
  intros H s d p Hin. apply evict_sess_in in Hin. destruct Hin as [Hin Hne]. rewrite evict_other by assumption. exact (H s d p Hin).
Qed.

Lemma sinv_evict bkg st u b : sinv bkg st -> sinv bkg (evict_user st u b).
Proof.
  intros [A [B [C D]]]. split; [now apply wf_evict_user|]. split; [|split].
  - intros s d Hin. apply evict_sess_in in Hin. destruct Hin as [Hin Hne]. rewrite evict_other by assumption. exact (B s d Hin).
  - intros u2 p Hp Hch. destruct (evict_user_sess st u b) as [Hs _]. rewrite Hs.
    destruct (N.eq_dec u2 u) as [->|E].
    + rewrite cnt_filter_uid. rewrite evict_same in Hp.
      destruct b; [destruct (st_kind st)|destruct (lookup u (st_users st)) as [q|]; [destruct (pu_ischan q) eqn:Eq|]]; inv Hp; cbn in *; try lia; congruence.
    + rewrite evict_other in Hp by assumption. specialize (C u2 p Hp Hch).
      pose proof (cnt_filter_le u2 (fun sd => negb (ss_uid (snd sd) =? u)) (st_sess st)). lia.
  - intros s d Hin. apply evict_sess_in in Hin. exact (D s d (proj1 Hin)).
Qed.

Lemma live_modes_evict_false st u u2 : live_modes (evict_user st u false) u2 = live_modes st u2.
Proof.
  unfold live_modes. destruct (N.eq_dec u2 u) as [->|E]; [|now rewrite evict_other].
  rewrite evict_same. destruct (lookup u (st_users st)) as [q|]; [|reflexivity].
  destruct (pu_ischan q) eqn:Ec; cbn; [now rewrite orb_true_r|now rewrite Ec].
Qed.
Lemma live_modes_evict_true st u u2 :
  live_modes (evict_user st u true) u2 = if u2 =? u then None else live_modes st u2.
Proof.
  unfold live_modes. destruct (N.eqb_spec u2 u) as [->|E]; [|now rewrite evict_other].
  rewrite evict_same. destruct (st_kind st); reflexivity.
Qed.

(* ------------------------------------------------------------------ *)
(* perUser stays a map *)
Lemma wfu_update st u f : wf_users st -> wf_users (set_users (update u f (st_users st)) st).
Proof. unfold wf_users. cbn [st_users set_users]. now rewrite keys_update. Qed.
Lemma wfu_upsert st u f : wf_users st -> wf_users (set_users (upsert u f (st_users st)) st).
Proof.
  unfold wf_users, upsert. cbn [st_users set_users]. intros H. destruct (has_key u (st_users st)) eqn:E.
  - now rewrite keys_update.
  - apply NoDup_keys_app_new; [exact H|]. now apply has_key_false.
Qed.
Lemma wfu_remove st u : wf_users st -> wf_users (set_users (remove_key u (st_users st)) st).
Proof. apply NoDup_keys_filter. Qed.
Lemma wfu_new st u p : lookup u (st_users st) = None -> wf_users st -> wf_users (set_users (st_users st ++ [(u, p)]) st).
Proof. intros Hn H. apply NoDup_keys_app_new; [exact H|]. now apply lookup_none. Qed.
Lemma wfu_evict st u b : wf_users st -> wf_users (evict_user st u b).
Proof.
  intros H. unfold evict_user. destruct b.
  - destruct (st_kind st); [apply (wfu_remove st)|apply (wfu_remove st)|apply (wfu_upsert st)]; exact H.
  - destruct (lookup u (st_users st)) as [p|]; [|exact H]. destruct (pu_ischan p); [apply (wfu_remove st)|apply (wfu_update st)]; exact H.
Qed.
Lemma wfu_xadd st b s u c : wf_users st -> wf_users (xadd_session st b s u c).
Proof.
  intros H. unfold xadd_session. destruct b; [destruct (has_key s (st_sess st)); exact H|].
  destruct (has_key s (st_sess st)); [now apply wfu_upsert|]. now apply (wfu_upsert (set_sess _ st)).
Qed.
Lemma wfu_xdrop bkg st s : wf_users st -> wf_users (xdrop_session bkg st s).
Proof.
  intros H. unfold xdrop_session. destruct (lookup s (st_sess st)) as [d|]; [|exact H].
  destruct (ss_chan d); [exact H|]. destruct (mem s bkg); [exact H|]. now apply (wfu_upsert (set_sess _ st)).
Qed.
#[export] Hint Resolve wfu_update wfu_upsert wfu_remove wfu_new wfu_evict wfu_xadd wfu_xdrop : wf_keep.

(* ------------------------------------------------------------------ *)
(* fields that the invariants do not read *)
Lemma sinv_same bkg st st' : st_sess st' = st_sess st -> st_users st' = st_users st -> sinv bkg st -> sinv bkg st'.
Proof. unfold sinv, wf_sess, att_x, online_chan, bkg_ok. intros -> ->. auto. Qed.
Lemma joined_same st st' : st_sess st' = st_sess st -> st_users st' = st_users st -> joined st -> joined st'.
Proof. unfold joined. intros -> ->. auto. Qed.
Lemma live_modes_same st st' : st_users st' = st_users st -> forall u, live_modes st' u = live_modes st u.
Proof. unfold live_modes. intros ->. reflexivity. Qed.

(* ------------------------------------------------------------------ *)
(* a grant changes: `t.perUser[uid] = userData` with new want / given *)
Section Modes.
  Variables (st : state) (u : uid) (p : pud) (w g : mode).
  Hypothesis Hp : lookup u (st_users st) = Some p.
  Let st1 := set_users (update u (set_pud_modes w g) (st_users st)) st.

  Lemma modes_lookup_same : lookup u (st_users st1) = Some (set_pud_modes w g p).
  Proof. unfold st1. cbn [st_users set_users]. now apply lookup_update_same. Qed.
  Lemma modes_lookup_other u2 : u2 <> u -> lookup u2 (st_users st1) = lookup u2 (st_users st).
  Proof. intros. unfold st1. cbn [st_users set_users]. now apply lookup_update_other. Qed.

  Lemma sinv_modes bkg : sinv bkg st -> sinv bkg st1.
  Proof.
    intros [A [B [C D]]]. split; [exact A|]. split; [|split; [|exact D]].
    - intros s d Hin. destruct (B s d Hin) as [q [Hq [Hd Hc]]]. destruct (N.eq_dec (ss_uid d) u) as [E|E].
      + rewrite E in *. rewrite modes_lookup_same. rewrite Hp in Hq. inv Hq. eexists. split; [reflexivity|]. cbn. auto.
      + rewrite modes_lookup_other by assumption. eauto.
    - intros u2 q Hq Hc. destruct (N.eq_dec u2 u) as [->|E].
      + rewrite modes_lookup_same in Hq. inv Hq. cbn in *. exact (C u p Hp Hc).
      + rewrite modes_lookup_other in Hq by assumption. exact (C u2 q Hq Hc).
  Qed.

  Lemma joined_modes : joined st ->
    (pu_ischan p = false -> cnt u (st_sess st) <> 0%nat -> has w bJ = true /\ has g bJ = true) -> joined st1.
  Proof.
    intros H Hwg s d q Hin Hq Hc. destruct (N.eq_dec (ss_uid d) u) as [E|E].
    - rewrite E, modes_lookup_same in Hq. injection Hq as Hq. subst q. cbn in *. apply (Hwg Hc).
      intros Hz. exact (proj1 (cnt_zero u _) Hz s d Hin E).
    - rewrite modes_lookup_other in Hq by assumption. exact (H s d q Hin Hq Hc).
  Qed.

  Lemma joined_modes_evict b : joined st -> joined (evict_user st1 u b).
  Proof.
    intros H s d q Hin. apply evict_sess_in in Hin. destruct Hin as [Hin Hne].
    rewrite evict_other, modes_lookup_other by assumption. exact (H s d q Hin).
  Qed.

  Lemma live_modes_modes u2 : pu_deleted p = false -> pu_ischan p = false ->
    live_modes st1 u2 = if u2 =? u then Some (w, g) else live_modes st u2.
  Proof.
    intros Hd Hc. unfold live_modes. destruct (N.eqb_spec u2 u) as [->|E].
    - rewrite modes_lookup_same. cbn. now rewrite Hd, Hc.
    - now rewrite modes_lookup_other.
  Qed.
End Modes.

(* ------------------------------------------------------------------ *)
(* a new cached user *)
Section NewUser.
  Variables (st : state) (u : uid) (p : pud).
  Hypothesis Hn : lookup u (st_users st) = None.
  Let st1 := set_users (st_users st ++ [(u, p)]) st.

  Lemma new_lookup_same : lookup u (st_users st1) = Some p.
  Proof. unfold st1. cbn [st_users set_users]. rewrite lookup_app, Hn. cbn. now rewrite N.eqb_refl. Qed.
  Lemma new_lookup_other u2 : u2 <> u -> lookup u2 (st_users st1) = lookup u2 (st_users st).
  Proof.
    intros E. unfold st1. cbn [st_users set_users]. rewrite lookup_app. destruct (lookup u2 (st_users st)); [reflexivity|].
    cbn. destruct (u2 =? u) eqn:E2; [apply N.eqb_eq in E2; congruence|reflexivity].
  Qed.

  Lemma sinv_new bkg : (0 <= pu_online p)%Z -> sinv bkg st -> sinv bkg st1.
  Proof.
    intros Ho [A [B [C D]]]. split; [exact A|]. split; [|split; [|exact D]].
    - intros s d Hin. destruct (B s d Hin) as [q [Hq Hr]]. destruct (N.eq_dec (ss_uid d) u) as [E|E].
      + rewrite E in Hq. congruence.
      + rewrite new_lookup_other by assumption. eauto.
    - intros u2 q Hq Hc. destruct (N.eq_dec u2 u) as [->|E].
      + rewrite new_lookup_same in Hq. inv Hq. cbn [st_sess st1 set_users]. rewrite (att_x_absent st u B Hn). cbn. lia.
      + rewrite new_lookup_other in Hq by assumption. exact (C u2 q Hq Hc).
  Qed.

  Lemma joined_new : att_x st -> joined st -> joined st1.
  Proof.
    intros Ha H s d q Hin Hq Hc. destruct (N.eq_dec (ss_uid d) u) as [E|E].
    - destruct (Ha s d Hin) as [q' [Hq' _]]. rewrite E in Hq'. congruence.
    - rewrite new_lookup_other in Hq by assumption. exact (H s d q Hin Hq Hc).
  Qed.

  Lemma live_modes_new u2 :
    live_modes st1 u2 = if u2 =? u then (if pu_deleted p || pu_ischan p then None else Some (pu_want p, pu_given p)) else live_modes st u2.
  Proof.
    unfold live_modes. destruct (N.eqb_spec u2 u) as [->|E]; [now rewrite new_lookup_same|now rewrite new_lookup_other].
  Qed.
End NewUser.

(* ------------------------------------------------------------------ *)
(* subscriptionReply: addSession, online++ unless the connection is a background one *)
Lemma xadd_sess st bkg s u c : has_key s (st_sess st) = false ->
  st_sess (xadd_session st bkg s u c) = st_sess st ++ [(s, mkPsd u c)].
Proof. intros H. unfold xadd_session. rewrite H. destruct bkg; reflexivity. Qed.

Lemma xadd_users_core st bkg s u c p : lookup u (st_users st) = Some p ->
  same_core (st_users st) (st_users (xadd_session st bkg s u c)).
Proof.
  intros Hp. unfold xadd_session. destruct bkg; destruct (has_key s (st_sess st)); cbn [st_users set_users set_sess];
    try apply same_core_refl; apply (same_core_upsert _ _ _ p Hp); reflexivity.
Qed.

Section Add.
  Variables (st : state) (bkg : bool) (s : sid) (u : uid) (c : bool) (p : pud).
  Hypothesis Hk : has_key s (st_sess st) = false.
  Hypothesis Hp : lookup u (st_users st) = Some p.
  Hypothesis Hd : pu_deleted p = false.
  Hypothesis Hc : pu_ischan p = c.
  Let st1 := xadd_session st bkg s u c.

  Lemma xadd_in s' d : In (s', d) (st_sess st1) <-> In (s', d) (st_sess st) \/ (s', d) = (s, mkPsd u c).
  Proof.
    unfold st1. rewrite xadd_sess by assumption. rewrite in_app_iff. cbn. split.
    - intros [H|[H|[]]]; [now left|right; now symmetry].
    - intros [H|H]; [now left|right; left; now symmetry].
  Qed.

  Lemma joined_xadd : joined st -> (c = false -> has (pu_want p) bJ = true /\ has (pu_given p) bJ = true) -> joined st1.
  Proof.
    intros H HJ s' d q Hin Hq Hcq.
    assert (Hcore := xadd_users_core st bkg s u c p Hp). fold st1 in Hcore.
    destruct (same_core_lookup _ _ _ _ (same_core_sym _ _ Hcore) Hq) as [q0 [Hq0 E]]. apply core_fields in E.
    destruct E as [E1 [E2 [_ E4]]]. rewrite <- E1, <- E2. apply xadd_in in Hin. destruct Hin as [Hin|Hin].
    - apply (H s' d q0 Hin Hq0). congruence.
    - inv Hin. cbn in Hq0. rewrite Hp in Hq0. inv Hq0. apply HJ. congruence.
  Qed.

  Lemma sinv_xadd l : (c = true -> bkg = false) -> (mem s l = true -> c = false) -> sinv l st -> sinv l st1.
  Proof.
    intros Hb Hm [A [B [C D]]]. split; [|split; [|split]].
    - unfold wf_sess, st1. rewrite xadd_sess by assumption. apply NoDup_keys_app_new; [assumption|]. now apply has_key_false.
    - intros s' d Hin. apply xadd_in in Hin.
      assert (Hcore := xadd_users_core st bkg s u c p Hp). fold st1 in Hcore.
      assert (Hq : exists q, lookup (ss_uid d) (st_users st) = Some q /\ pu_deleted q = false /\ pu_ischan q = ss_chan d)
        by (destruct Hin as [Hin|Hin]; [exact (B s' d Hin)|inv Hin; cbn; eauto]).
      destruct Hq as [q [Hq [Hdq Hcq]]]. destruct (same_core_lookup _ _ _ _ Hcore Hq) as [q' [Hq' E]].
      apply core_fields in E. destruct E as [_ [_ [E1 E2]]]. exists q'. split; [exact Hq'|]. split; congruence.
    - intros u2 q Hq Hcq. unfold st1 in *. rewrite xadd_sess by assumption. rewrite cnt_app.
      unfold xadd_session in Hq. rewrite Hk in Hq. destruct (N.eq_dec u2 u) as [->|E].
      + rewrite N.eqb_refl. destruct bkg; cbn [st_users set_users set_sess] in Hq.
        * rewrite Hp in Hq. inv Hq. specialize (Hb Hcq). discriminate.
        * rewrite lookup_upsert_same, Hp in Hq. inv Hq. cbn in *. specialize (C u p Hp Hcq). clear -C. lia.
      + destruct (u =? u2) eqn:E2; [apply N.eqb_eq in E2; congruence|].
        destruct bkg; cbn [st_users set_users set_sess] in Hq; [|rewrite lookup_upsert_other in Hq by assumption];
          specialize (C u2 q Hq Hcq); clear -C; lia.
    - intros s' d Hin Hl. apply xadd_in in Hin. destruct Hin as [Hin|Hin]; [exact (D s' d Hin Hl)|]. inv Hin. cbn. auto.
  Qed.

  Lemma live_modes_xadd u2 : live_modes st1 u2 = live_modes st u2.
  Proof. apply live_modes_core. exact (xadd_users_core st bkg s u c p Hp). Qed.
End Add.

(* ------------------------------------------------------------------ *)
(* a session leaves the table *)
Lemma sinv_remove_sess bkg st s : sinv bkg st -> sinv bkg (set_sess (remove_key s (st_sess st)) st).
Proof.
  intros [A [B [C D]]]. split; [now apply wf_remove_key|]. split; [|split].
  - intros s' d Hin. cbn [st_sess st_users set_sess] in *. apply in_remove_key in Hin. exact (B s' d (proj1 Hin)).
  - intros u p Hp Hc. cbn [st_sess st_users set_sess] in *. specialize (C u p Hp Hc). pose proof (cnt_remove_le u s (st_sess st)). lia.
  - intros s' d Hin. cbn [st_sess set_sess] in *. apply in_remove_key in Hin. exact (D s' d (proj1 Hin)).
Qed.
Lemma joined_remove_sess st s : joined st -> joined (set_sess (remove_key s (st_sess st)) st).
Proof. intros H s' d p Hin. cbn [st_sess st_users set_sess] in *. apply in_remove_key in Hin. exact (H s' d p (proj1 Hin)). Qed.
(* `delete(t.perUser, uid)` of a user without attached sessions *)
Section RemoveUser.
  Variables (st : state) (u : uid).
  Hypothesis Hz : cnt u (st_sess st) = 0%nat.
  Let st1 := set_users (remove_key u (st_users st)) st.

  Lemma sinv_remove_user bkg : sinv bkg st -> sinv bkg st1.
  Proof.
    intros [A [B [C D]]]. split; [exact A|]. split; [|split; [|exact D]].
    - intros s d Hin. cbn [st_sess st_users st1 set_users] in *. pose proof (proj1 (cnt_zero u _) Hz s d Hin) as Hne.
      rewrite lookup_remove_key_other by assumption. exact (B s d Hin).
    - intros u2 p Hp Hc. cbn [st_sess st_users st1 set_users] in *. destruct (N.eq_dec u2 u) as [->|E].
      + rewrite lookup_remove_key_same in Hp. discriminate.
      + rewrite lookup_remove_key_other in Hp by assumption. exact (C u2 p Hp Hc).
  Qed.
  Lemma joined_remove_user : joined st -> joined st1.
  Proof.
    intros H s d p Hin. cbn [st_sess st_users st1 set_users] in *. pose proof (proj1 (cnt_zero u _) Hz s d Hin) as Hne.
    rewrite lookup_remove_key_other by assumption. exact (H s d p Hin).
  Qed.
  Lemma live_modes_remove_user u2 : live_modes st u = None -> live_modes st1 u2 = live_modes st u2.
  Proof.
    intros Hl. unfold live_modes in *. cbn [st_users st1 set_users]. destruct (N.eq_dec u2 u) as [->|E].
    - rewrite lookup_remove_key_same. now rewrite Hl.
    - now rewrite lookup_remove_key_other.
  Qed.
End RemoveUser.

Lemma mem_rm s k l : mem s (rm k l) = true -> mem s l = true.
Proof.
  unfold rm. induction l as [|y r IH]; cbn; [auto|]. destruct (negb (y =? k)); cbn.
  - rewrite !orb_true_iff. intros [H|H]; auto.
  - intros H. rewrite orb_true_iff. auto.
Qed.
Lemma mem_rm_same s l : mem s (rm s l) = false.
Proof.
  unfold rm. induction l as [|y r IH]; cbn; [reflexivity|]. destruct (y =? s) eqn:E; cbn; [exact IH|].
  rewrite IH, orb_false_r. rewrite N.eqb_sym. exact E.
Qed.

(* the online counter of one cached user changes *)
Section Online.
  Variables (st : state) (u : uid) (p : pud) (f : pud -> pud).
  Hypothesis Hp : lookup u (st_users st) = Some p.
  Hypothesis Hf : forall q, core (f q) = core q.
  Let st1 := set_users (upsert u f (st_users st)) st.

  Lemma online_core : same_core (st_users st) (st_users st1).
  Proof. unfold st1. cbn [st_users set_users]. now apply (same_core_upsert _ _ _ p). Qed.
  Lemma joined_online : joined st -> joined st1.
  Proof. apply joined_core; [reflexivity|exact online_core]. Qed.
  Lemma live_modes_online u2 : live_modes st1 u2 = live_modes st u2.
  Proof. apply live_modes_core. exact online_core. Qed.
  (* a channel reader's counter still covers his sessions *)
  Lemma sinv_online bkg : (pu_ischan p = true -> (Z.of_nat (cnt u (st_sess st)) <= pu_online (f p))%Z) -> sinv bkg st -> sinv bkg st1.
  Proof.
    intros Hn [A [B [C D]]]. split; [exact A|]. split; [|split; [|exact D]].
    - revert B. apply att_x_core; [reflexivity|exact online_core].
    - intros u2 q Hq Hc. unfold st1 in *. cbn [st_users st_sess set_users] in *. destruct (N.eq_dec u2 u) as [->|E].
      + rewrite lookup_upsert_same, Hp in Hq. inv Hq. apply Hn. pose proof (Hf p) as E. apply core_fields in E. destruct E as [_ [_ [_ E]]]. congruence.
      + rewrite lookup_upsert_other in Hq by assumption. exact (C u2 q Hq Hc).
  Qed.
End Online.

(* unregisterSession of a dropped session *)
Lemma xdrop_sess bkg st s : st_sess (xdrop_session bkg st s) = remove_key s (st_sess st).
Proof.
  unfold xdrop_session. destruct (lookup s (st_sess st)) as [d|] eqn:E.
  - destruct (ss_chan d); [reflexivity|]. destruct (mem s bkg); reflexivity.
  - symmetry. now apply remove_key_absent.
Qed.
Lemma xdrop_fields bkg st s : st_lastid (xdrop_session bkg st s) = st_lastid st /\ st_kind (xdrop_session bkg st s) = st_kind st.
Proof. unfold xdrop_session. destruct (lookup s (st_sess st)) as [d|]; [|auto]. destruct (ss_chan d); [auto|]. destruct (mem s bkg); auto. Qed.

(* a session leaves the table; the online counter of its user stays as it is or drops by one *)
Lemma leave_keeps l st s d st2 :
  lookup s (st_sess st) = Some d -> sinv l st ->
  let st1 := set_sess (remove_key s (st_sess st)) st in
  (st2 = st1 \/
   exists f, (forall q, core (f q) = core q) /\
             (forall q, lookup (ss_uid d) (st_users st) = Some q -> (pu_online q - 1 <= pu_online (f q))%Z) /\
             st2 = set_users (upsert (ss_uid d) f (st_users st1)) st1) ->
  sinv l st2 /\ (joined st -> joined st2) /\ (forall u, live_modes st2 u = live_modes st u).
Proof.
  intros E Hs st1 Hst2. pose proof (lookup_in _ _ _ E) as Hin. pose proof (sinv_remove_sess l st s Hs) as S1. fold st1 in S1.
  destruct Hs as [_ [Ha [Ho _]]]. destruct (Ha s d Hin) as [p [Hp [Hd Hc]]].
  destruct Hst2 as [->|[f [Hf [Hn ->]]]]; [split; [exact S1|]; split; [apply joined_remove_sess|reflexivity]|].
  assert (Hp1 : lookup (ss_uid d) (st_users st1) = Some p) by exact Hp.
  split; [|split].
  - apply (sinv_online st1 (ss_uid d) p); auto. intros Hch. specialize (Ho _ p Hp Hch). specialize (Hn p Hp).
    pose proof (cnt_remove_lt _ s d (st_sess st) Hin eq_refl) as Hlt. unfold st1. cbn [st_sess set_sess]. clear -Ho Hn Hlt. lia.
  - intros Hj. apply (joined_online st1 (ss_uid d) p); auto. now apply joined_remove_sess.
  - intros u. rewrite (live_modes_online st1 (ss_uid d) p); auto.
Qed.

Lemma xdrop_keeps l bkg st s :
  sinv l st ->
  sinv l (xdrop_session bkg st s) /\ (joined st -> joined (xdrop_session bkg st s)) /\
  (forall u, live_modes (xdrop_session bkg st s) u = live_modes st u).
Proof.
  intros Hs. unfold xdrop_session. destruct (lookup s (st_sess st)) as [d|] eqn:E; [|auto].
  apply (leave_keeps l st s d _ E Hs). destruct (ss_chan d); [now left|]. destruct (mem s bkg); [now left|right].
  eexists. split; [|split; [|reflexivity]]; [reflexivity|]. intros q _. cbn. lia.
Qed.

Lemma xdrop_fold l bkg ss : forall st,
  sinv l st ->
  let st' := fold_left (xdrop_session bkg) ss st in
  sinv l st' /\ (joined st -> joined st') /\ (forall u, live_modes st' u = live_modes st u) /\ st_lastid st' = st_lastid st.
Proof.
  induction ss as [|s r IH]; intros st Hs; cbn [fold_left]; cbv zeta; [auto|].
  destruct (xdrop_keeps l bkg st s Hs) as [A1 [A5 A6]]. destruct (IH _ A1) as [C1 [C5 [C6 C7]]].
  split; [exact C1|]. split; [auto|]. split; [intros u; now rewrite C6, A6|]. rewrite C7. apply xdrop_fields.
Qed.
