(* C14: attachment invariants of the interleaving model Sys/Lifecycle.v
   (session lists topic <-> topic lists session, modulo detach notices in flight). *)
From Coq Require Import List Arith Bool Lia.
Import ListNotations.
Require Import Tinode.Sys.Lifecycle Tinode.Sys.LifecycleProofs.

(* ---------- list library ---------- *)

Lemma mem_true_iff : forall x l, mem x l = true <-> In x l.
Proof.
  induction l as [|y r IH]; simpl; [split; [discriminate|tauto]|].
  rewrite orb_true_iff, IH, Nat.eqb_eq. split; intros [H|H]; auto.
Qed.

Lemma mem_remove_nat : forall x y l, mem x (remove_nat y l) = mem x l && negb (Nat.eqb x y).
Proof.
  induction l as [|z r IH]; simpl; auto.
  destruct (Nat.eqb_spec y z) as [->|Hne]; simpl.
  - rewrite IH. destruct (Nat.eqb_spec x z); simpl; auto. rewrite andb_false_r. reflexivity.
  - rewrite IH. destruct (Nat.eqb_spec x z) as [->|]; simpl; auto.
    destruct (Nat.eqb_spec z y); [congruence|]. reflexivity.
Qed.

Lemma mem_filter : forall f x l, mem x (filter f l) = mem x l && f x.
Proof.
  induction l as [|z r IH]; simpl; auto.
  destruct (f z) eqn:Ef; simpl; rewrite IH; destruct (Nat.eqb_spec x z) as [->|]; simpl; auto;
    rewrite Ef, ?andb_false_r; reflexivity.
Qed.

Lemma lookup_remove_key : forall t t' l,
  lookup t (remove_key t' l) = if Nat.eqb t t' then None else lookup t l.
Proof.
  induction l as [|[k j] r IH]; simpl.
  - destruct (Nat.eqb t t'); reflexivity.
  - destruct (Nat.eqb_spec t' k) as [->|Hne]; simpl.
    + rewrite IH. destruct (Nat.eqb_spec t k); reflexivity.
    + rewrite IH. destruct (Nat.eqb_spec t k) as [->|]; auto.
      destruct (Nat.eqb_spec k t'); [congruence|reflexivity].
Qed.

Lemma lookup_cons : forall t t' j l,
  lookup t ((t', j) :: l) = if Nat.eqb t t' then Some j else lookup t l.
Proof. reflexivity. Qed.

(* drain_unreg touches only the outbox and the in-flight counter *)
Lemma drain_unreg_frame : forall i l f l' f',
  drain_unreg i l f = (l', f') ->
  forall s, s_subs (f' s) = s_subs (f s) /\ s_detachq (f' s) = s_detachq (f s) /\
            s_term (f' s) = s_term (f s) /\ s_done (f' s) = s_done (f s).
Proof.
  induction l as [|[j r] rest IH]; intros f l' f' H s; simpl in H.
  - inversion H; subst. auto.
  - destruct (Nat.eqb i j).
    + destruct (IH _ _ _ H s) as (A & B & C & D). unfold upd in *.
      destruct (Nat.eqb s (r_sid r)) eqn:E.
      * apply Nat.eqb_eq in E. subst s. destruct (r_init r); autorewrite with lc in *; simpl in *; auto.
      * auto.
    + destruct (drain_unreg i rest f) as [l2 f2] eqn:E. inversion H; subst. eapply IH; eauto.
Qed.

Lemma s_donereq_subs : forall x, s_subs (s_donereq x) = s_subs x. Proof. reflexivity. Qed.
Lemma s_donereq_detachq : forall x, s_detachq (s_donereq x) = s_detachq x. Proof. reflexivity. Qed.
Lemma s_donereq_term : forall x, s_term (s_donereq x) = s_term x. Proof. reflexivity. Qed.
Lemma s_detach_detachq : forall x t, s_detachq (s_detach x t) = if s_term x then s_detachq x else s_detachq x ++ [t].
Proof. intros. unfold s_detach. destruct (s_term x); reflexivity. Qed.

(* ---------- the invariant ---------- *)

Record inv_att (c : config) : Prop := mkIA {
  ia_fresh : forall s t i, lookup t (s_subs (c_sess c s)) = Some i -> i < c_next c;
  ia_mem_sub : forall s i, i_phase (c_inst c i) <> PDead -> mem s (i_sessions (c_inst c i)) = true ->
               lookup (i_name (c_inst c i)) (s_subs (c_sess c s)) = Some i;
  ia_sub_mem : forall s t i, s_term (c_sess c s) = false -> lookup t (s_subs (c_sess c s)) = Some i ->
               (i_phase (c_inst c i) = PRun /\ mem s (i_sessions (c_inst c i)) = true /\ i_name (c_inst c i) = t) \/
               In t (s_detachq (c_sess c s));
  ia_det_dead : forall s t j, In t (s_detachq (c_sess c s)) -> i_name (c_inst c j) = t ->
               mem s (i_sessions (c_inst c j)) = true -> i_phase (c_inst c j) = PDead;
  ia_det_sub : forall s t, In t (s_detachq (c_sess c s)) -> lookup t (s_subs (c_sess c s)) <> None;
  ia_nodup : forall s, NoDup (s_detachq (c_sess c s));
  ia_init_empty : forall i, i_phase (c_inst c i) = PInit -> i_sessions (c_inst c i) = [];
  ia_term_detq : forall s, s_term (c_sess c s) = true -> s_detachq (c_sess c s) = [];
  ia_live_fresh : forall i, i_phase (c_inst c i) <> PDead -> i < c_next c }.

Lemma inv_att_init : forall st ow us ch, inv_att (init_config st ow us ch).
Proof.
  intros. constructor; simpl; intros; try discriminate; try contradiction; auto; try congruence. constructor.
Qed.

(* ---------- steps that do not touch the attachment state ---------- *)

Definition same_att (c c' : config) : Prop :=
  c_next c' = c_next c /\
  (forall s, s_subs (c_sess c' s) = s_subs (c_sess c s) /\ s_detachq (c_sess c' s) = s_detachq (c_sess c s) /\
             s_term (c_sess c' s) = s_term (c_sess c s)) /\
  (forall i, i_name (c_inst c' i) = i_name (c_inst c i) /\ i_sessions (c_inst c' i) = i_sessions (c_inst c i) /\
             i_phase (c_inst c' i) = i_phase (c_inst c i)).

Lemma inv_att_same : forall c c', same_att c c' -> inv_att c -> inv_att c'.
Proof.
  intros c c' (En & Es & Ei) [F M S D DS ND IE TD LF]. constructor.
  - intros s t i. destruct (Es s) as (-> & _ & _). rewrite En. apply F.
  - intros s i. destruct (Es s) as (-> & _ & _). destruct (Ei i) as (-> & -> & ->). apply M.
  - intros s t i. destruct (Es s) as (-> & -> & ->). destruct (Ei i) as (-> & -> & ->). apply S.
  - intros s t j. destruct (Es s) as (_ & -> & _). destruct (Ei j) as (-> & -> & ->). apply D.
  - intros s t. destruct (Es s) as (-> & -> & _). apply DS.
  - intros s. destruct (Es s) as (_ & -> & _). apply ND.
  - intros i. destruct (Ei i) as (_ & -> & ->). apply IE.
  - intros s. destruct (Es s) as (_ & -> & ->). apply TD.
  - intros i. destruct (Ei i) as (_ & _ & ->). rewrite En. apply LF.
Qed.

Ltac same_att_tac :=
  repeat split; intros; simpl; unfold on_sess, on_inst, upd; simpl;
  repeat match goal with
         | |- context [Nat.eqb ?a ?b] => destruct (Nat.eqb_spec a b); subst; simpl in *
         | H : context [Nat.eqb ?a ?b] |- _ => destruct (Nat.eqb_spec a b); subst; simpl in *
         end;
  autorewrite with lc; simpl; auto.

(* an instance leaves PInit; nothing else of the attachment state changes *)
Definition phase_att (c c' : config) (i : inst) (p : phase) : Prop :=
  c_next c' = c_next c /\
  (forall s, s_subs (c_sess c' s) = s_subs (c_sess c s) /\ s_detachq (c_sess c' s) = s_detachq (c_sess c s) /\
             s_term (c_sess c' s) = s_term (c_sess c s)) /\
  (forall j, i_name (c_inst c' j) = i_name (c_inst c j) /\ i_sessions (c_inst c' j) = i_sessions (c_inst c j) /\
             i_phase (c_inst c' j) = if Nat.eqb j i then p else i_phase (c_inst c j)).

Lemma inv_att_phase : forall c c' i p, phase_att c c' i p -> i_phase (c_inst c i) = PInit -> p <> PInit ->
  inv_att c -> inv_att c'.
Proof.
  intros c c' i p (En & Es & Ei) Hi Hp [F M S D DS ND IE TD LF].
  assert (Hemp : i_sessions (c_inst c i) = []) by (apply IE; exact Hi).
  constructor.
  - intros s t j. destruct (Es s) as (-> & _ & _). rewrite En. apply F.
  - intros s j. destruct (Es s) as (-> & _ & _). destruct (Ei j) as (-> & -> & ->).
    destruct (Nat.eqb_spec j i) as [->|]; [|apply M]. rewrite Hemp. simpl. discriminate.
  - intros s t j. destruct (Es s) as (-> & -> & ->). destruct (Ei j) as (-> & -> & ->).
    destruct (Nat.eqb_spec j i) as [->|]; [|apply S].
    intros Ht H. destruct (S _ _ _ Ht H) as [(L & _)|R]; [congruence|right; exact R].
  - intros s t j. destruct (Es s) as (_ & -> & _). destruct (Ei j) as (-> & -> & ->).
    destruct (Nat.eqb_spec j i) as [->|]; [|apply D]. rewrite Hemp. simpl. discriminate.
  - intros s t. destruct (Es s) as (-> & -> & _). apply DS.
  - intros s. destruct (Es s) as (_ & -> & _). apply ND.
  - intros j. destruct (Ei j) as (_ & -> & ->). destruct (Nat.eqb_spec j i) as [->|]; [congruence|apply IE].
  - intros s. destruct (Es s) as (_ & -> & ->). apply TD.
  - intros j. destruct (Ei j) as (_ & _ & ->). rewrite En. destruct (Nat.eqb_spec j i) as [->|]; [|apply LF].
    intros _. apply LF. congruence.
Qed.

Lemma mem_add : forall x s l, mem x (if mem s l then l else s :: l) = mem x l || Nat.eqb x s.
Proof.
  intros. destruct (mem s l) eqn:E; simpl.
  - destruct (Nat.eqb_spec x s) as [->|]; [rewrite E|rewrite orb_false_r]; reflexivity.
  - rewrite orb_comm. reflexivity.
Qed.

(* registerSession accepted: the session is linked on both sides in one handler *)
Lemma inv_att_attach : forall c c' s i,
  c_next c' = c_next c ->
  (forall s0, s_subs (c_sess c' s0) = (if Nat.eqb s0 s then (i_name (c_inst c i), i) :: s_subs (c_sess c s) else s_subs (c_sess c s0)) /\
              s_detachq (c_sess c' s0) = s_detachq (c_sess c s0) /\ s_term (c_sess c' s0) = s_term (c_sess c s0)) ->
  (forall j, i_name (c_inst c' j) = i_name (c_inst c j) /\
             i_sessions (c_inst c' j) = (if Nat.eqb j i then (if mem s (i_sessions (c_inst c i)) then i_sessions (c_inst c i) else s :: i_sessions (c_inst c i))
                                         else i_sessions (c_inst c j)) /\
             i_phase (c_inst c' j) = i_phase (c_inst c j)) ->
  i_phase (c_inst c i) = PRun -> lookup (i_name (c_inst c i)) (s_subs (c_sess c s)) = None ->
  inv_att c -> inv_att c'.
Proof.
  intros c c' s i En Es Ei Hp Hl [F M S D DS ND IE TD LF].
  assert (Hi : i < c_next c) by (apply LF; congruence).
  constructor.
  - intros s0 t j. destruct (Es s0) as (-> & _ & _). rewrite En.
    destruct (Nat.eqb_spec s0 s) as [->|]; [|apply F]. rewrite lookup_cons.
    destruct (Nat.eqb t (i_name (c_inst c i))); [|apply F]. intros H. inversion H; subst. exact Hi.
  - intros s0 j. destruct (Es s0) as (-> & _ & _). destruct (Ei j) as (-> & -> & ->).
    intros Hpj Hm.
    destruct (Nat.eqb_spec j i) as [->|Hji].
    + rewrite mem_add in Hm. destruct (Nat.eqb_spec s0 s) as [->|Hs].
      * rewrite lookup_cons, Nat.eqb_refl. reflexivity.
      * rewrite orb_false_r in Hm. apply M; auto.
    + destruct (Nat.eqb_spec s0 s) as [->|Hs]; [|apply M; auto].
      rewrite lookup_cons. destruct (Nat.eqb_spec (i_name (c_inst c j)) (i_name (c_inst c i))) as [En'|]; [|apply M; auto].
      pose proof (M s j Hpj Hm) as Hx. rewrite En' in Hx. congruence.
  - intros s0 t j. destruct (Es s0) as (-> & -> & ->). destruct (Ei j) as (-> & -> & ->).
    intros Ht H.
    destruct (Nat.eqb_spec s0 s) as [->|Hs].
    + rewrite lookup_cons in H. destruct (Nat.eqb_spec t (i_name (c_inst c i))) as [->|Hne].
      * inversion H; subst. rewrite Nat.eqb_refl, mem_add, Nat.eqb_refl, orb_true_r. left. auto.
      * destruct (S _ _ _ Ht H) as [(A & B & C)|R]; [left|right; exact R].
        destruct (Nat.eqb_spec j i) as [->|]; [congruence|]. auto.
    + destruct (S _ _ _ Ht H) as [(A & B & C)|R]; [left|right; exact R].
      destruct (Nat.eqb_spec j i) as [->|]; auto. rewrite mem_add, B. auto.
  - intros s0 t j. destruct (Es s0) as (_ & -> & _). destruct (Ei j) as (-> & -> & ->).
    intros Hin Hn Hm. destruct (Nat.eqb_spec j i) as [->|]; [|apply (D s0 t j); auto].
    rewrite mem_add in Hm. destruct (Nat.eqb_spec s0 s) as [->|Hs].
    + exfalso. apply (DS s t Hin). rewrite <- Hn. exact Hl.
    + rewrite orb_false_r in Hm. apply (D s0 t i); auto.
  - intros s0 t. destruct (Es s0) as (-> & -> & _). intros Hin.
    destruct (Nat.eqb_spec s0 s) as [->|]; [|apply DS; auto].
    rewrite lookup_cons. destruct (Nat.eqb t (i_name (c_inst c i))); [discriminate|apply DS; auto].
  - intros s0. destruct (Es s0) as (_ & -> & _). apply ND.
  - intros j. destruct (Ei j) as (_ & -> & ->). destruct (Nat.eqb_spec j i) as [->|]; [congruence|apply IE].
  - intros s0. destruct (Es s0) as (_ & -> & ->). apply TD.
  - intros j. destruct (Ei j) as (_ & _ & ->). rewrite En. apply LF.
Qed.

(* leave / disconnect / slow-consumer eviction: unlinked on both sides in one handler *)
Lemma inv_att_detach2 : forall c c' s i,
  c_next c' = c_next c ->
  (forall s0, s_subs (c_sess c' s0) = (if Nat.eqb s0 s then remove_key (i_name (c_inst c i)) (s_subs (c_sess c s)) else s_subs (c_sess c s0)) /\
              s_detachq (c_sess c' s0) = s_detachq (c_sess c s0) /\ s_term (c_sess c' s0) = s_term (c_sess c s0)) ->
  (forall j, i_name (c_inst c' j) = i_name (c_inst c j) /\
             i_sessions (c_inst c' j) = (if Nat.eqb j i then remove_nat s (i_sessions (c_inst c i)) else i_sessions (c_inst c j)) /\
             i_phase (c_inst c' j) = i_phase (c_inst c j)) ->
  i_phase (c_inst c i) = PRun -> mem s (i_sessions (c_inst c i)) = true ->
  inv_att c -> inv_att c'.
Proof.
  intros c c' s i En Es Ei Hp Hmem [F M S D DS ND IE TD LF].
  assert (Hnd : i_phase (c_inst c i) <> PDead) by congruence.
  pose proof (M s i Hnd Hmem) as Hsi.
  constructor.
  - intros s0 t j. destruct (Es s0) as (-> & _ & _). rewrite En.
    destruct (Nat.eqb_spec s0 s) as [->|]; [|apply F]. rewrite lookup_remove_key.
    destruct (Nat.eqb t (i_name (c_inst c i))); [discriminate|apply F].
  - intros s0 j. destruct (Es s0) as (-> & _ & _). destruct (Ei j) as (-> & -> & ->).
    intros Hpj Hm.
    destruct (Nat.eqb_spec j i) as [->|Hji].
    + rewrite mem_remove_nat in Hm. apply andb_true_iff in Hm. destruct Hm as [Hm Hne].
      destruct (Nat.eqb_spec s0 s); [discriminate|]. apply M; auto.
    + destruct (Nat.eqb_spec s0 s) as [->|Hs]; [|apply M; auto].
      rewrite lookup_remove_key.
      destruct (Nat.eqb_spec (i_name (c_inst c j)) (i_name (c_inst c i))) as [En'|]; [|apply M; auto].
      pose proof (M s j Hpj Hm) as Hx. rewrite En' in Hx. congruence.
  - intros s0 t j. destruct (Es s0) as (-> & -> & ->). destruct (Ei j) as (-> & -> & ->).
    intros Ht H.
    destruct (Nat.eqb_spec s0 s) as [->|Hs].
    + rewrite lookup_remove_key in H. destruct (Nat.eqb_spec t (i_name (c_inst c i))) as [->|Hne]; [discriminate|].
      destruct (S _ _ _ Ht H) as [(A & B & C)|R]; [left|right; exact R].
      destruct (Nat.eqb_spec j i) as [->|]; [congruence|]. auto.
    + destruct (S _ _ _ Ht H) as [(A & B & C)|R]; [left|right; exact R].
      destruct (Nat.eqb_spec j i) as [->|]; auto. rewrite mem_remove_nat, B.
      destruct (Nat.eqb_spec s0 s); [contradiction|]. auto.
  - intros s0 t j. destruct (Es s0) as (_ & -> & _). destruct (Ei j) as (-> & -> & ->).
    intros Hin Hn Hm. apply (D s0 t j); auto.
    destruct (Nat.eqb_spec j i) as [->|]; auto.
    rewrite mem_remove_nat in Hm. apply andb_true_iff in Hm. tauto.
  - intros s0 t. destruct (Es s0) as (-> & -> & _). intros Hin.
    destruct (Nat.eqb_spec s0 s) as [->|]; [|apply DS; auto].
    rewrite lookup_remove_key. destruct (Nat.eqb_spec t (i_name (c_inst c i))) as [->|]; [|apply DS; auto].
    exfalso. apply Hnd. apply (D s (i_name (c_inst c i)) i); auto.
  - intros s0. destruct (Es s0) as (_ & -> & _). apply ND.
  - intros j. destruct (Ei j) as (_ & -> & ->). destruct (Nat.eqb_spec j i) as [->|]; [congruence|apply IE].
  - intros s0. destruct (Es s0) as (_ & -> & ->). apply TD.
  - intros j. destruct (Ei j) as (_ & _ & ->). rewrite En. apply LF.
Qed.

Lemma NoDup_snoc : forall (A : Type) (l : list A) x, NoDup l -> ~ In x l -> NoDup (l ++ [x]).
Proof. intros A l x Hn Hx. apply (NoDup_Add (Add_app x l [])). rewrite app_nil_r. auto. Qed.

(* evictUser: the sessions in [gone] leave Topic.sessions at once, their Session.subs entry goes
   when the detach notice is applied *)
Lemma inv_att_evictuser : forall c c' i (gone : sid -> bool),
  c_next c' = c_next c ->
  (forall s0, gone s0 = true -> mem s0 (i_sessions (c_inst c i)) = true) ->
  (forall s0, s_subs (c_sess c' s0) = s_subs (c_sess c s0) /\
              s_detachq (c_sess c' s0) = (if gone s0 && negb (s_term (c_sess c s0)) then s_detachq (c_sess c s0) ++ [i_name (c_inst c i)]
                                          else s_detachq (c_sess c s0)) /\
              s_term (c_sess c' s0) = s_term (c_sess c s0)) ->
  (forall j, i_name (c_inst c' j) = i_name (c_inst c j) /\
             i_sessions (c_inst c' j) = (if Nat.eqb j i then filter (fun s' => negb (gone s')) (i_sessions (c_inst c i)) else i_sessions (c_inst c j)) /\
             i_phase (c_inst c' j) = i_phase (c_inst c j)) ->
  i_phase (c_inst c i) = PRun ->
  inv_att c -> inv_att c'.
Proof.
  intros c c' i gone En Hg Es Ei Hp [F M S D DS ND IE TD LF].
  assert (Hnd : i_phase (c_inst c i) <> PDead) by congruence.
  assert (Hsub : forall s0 j, mem s0 (i_sessions (c_inst c' j)) = true -> mem s0 (i_sessions (c_inst c j)) = true).
  { intros s0 j. destruct (Ei j) as (_ & -> & _). destruct (Nat.eqb_spec j i) as [->|]; auto.
    rewrite mem_filter. intros H. apply andb_true_iff in H. tauto. }
  constructor.
  - intros s0 t j. destruct (Es s0) as (-> & _ & _). rewrite En. apply F.
  - intros s0 j Hpj Hm. destruct (Es s0) as (-> & _ & _). destruct (Ei j) as (-> & _ & Ej). rewrite Ej in Hpj.
    apply M; auto.
  - intros s0 t j. destruct (Es s0) as (-> & Eq & ->). intros Ht H.
    destruct (S _ _ _ Ht H) as [(A & B & C)|R].
    + destruct (Ei j) as (-> & -> & ->). destruct (Nat.eqb_spec j i) as [->|]; [|left; auto].
      destruct (gone s0) eqn:Eg.
      * right. rewrite Eq, Ht. simpl. apply in_or_app. right. left. exact C.
      * left. rewrite mem_filter, B, Eg. auto.
    + right. rewrite Eq. destruct (gone s0 && negb (s_term (c_sess c s0))); auto. apply in_or_app. auto.
  - intros s0 t j Hin Hn Hm. destruct (Es s0) as (_ & Eq & _). destruct (Ei j) as (Enj & _ & ->). rewrite Enj in Hn.
    rewrite Eq in Hin. pose proof (Hsub _ _ Hm) as Hm0.
    destruct (gone s0 && negb (s_term (c_sess c s0))) eqn:Eg; [|apply (D s0 t j); auto].
    apply in_app_or in Hin. destruct Hin as [Hin|[<-|[]]]; [apply (D s0 t j); auto|].
    apply andb_true_iff in Eg. destruct Eg as [Eg _].
    destruct (Nat.eqb_spec j i) as [->|Hji].
    + destruct (Ei i) as (_ & Ex & _). rewrite Ex, Nat.eqb_refl, mem_filter, Eg, andb_false_r in Hm. discriminate.
    + destruct (i_phase (c_inst c j)) eqn:Epj; auto; exfalso.
      * rewrite (IE _ Epj) in Hm0. discriminate.
      * assert (Hj : i_phase (c_inst c j) <> PDead) by congruence.
        pose proof (M s0 j Hj Hm0) as X1. pose proof (M s0 i Hnd (Hg _ Eg)) as X2. rewrite Hn in X1. congruence.
  - intros s0 t Hin. destruct (Es s0) as (-> & Eq & _). rewrite Eq in Hin.
    destruct (gone s0 && negb (s_term (c_sess c s0))) eqn:Eg; [|apply DS; auto].
    apply in_app_or in Hin. destruct Hin as [Hin|[<-|[]]]; [apply DS; auto|].
    apply andb_true_iff in Eg. destruct Eg as [Eg _]. rewrite (M s0 i Hnd (Hg _ Eg)). discriminate.
  - intros s0. destruct (Es s0) as (_ & -> & _).
    destruct (gone s0 && negb (s_term (c_sess c s0))) eqn:Eg; [|apply ND].
    apply andb_true_iff in Eg. destruct Eg as [Eg _].
    apply NoDup_snoc; [apply ND|]. intros Hin. apply Hnd. apply (D s0 _ i Hin); auto.
  - intros j. destruct (Ei j) as (_ & -> & ->). destruct (Nat.eqb_spec j i) as [->|]; [congruence|apply IE].
  - intros s0. destruct (Es s0) as (_ & -> & ->). intros Ht. rewrite Ht, andb_false_r. apply TD. exact Ht.
  - intros j. destruct (Ei j) as (_ & _ & ->). rewrite En. apply LF.
Qed.

(* the run loop takes the termination request: every attached session gets a detach notice, the loop returns *)
Lemma inv_att_exit : forall c c' i,
  c_next c' = c_next c ->
  (forall s0, s_subs (c_sess c' s0) = s_subs (c_sess c s0) /\
              s_detachq (c_sess c' s0) = (if mem s0 (i_sessions (c_inst c i)) && negb (s_term (c_sess c s0)) then s_detachq (c_sess c s0) ++ [i_name (c_inst c i)]
                                          else s_detachq (c_sess c s0)) /\
              s_term (c_sess c' s0) = s_term (c_sess c s0)) ->
  (forall j, i_name (c_inst c' j) = i_name (c_inst c j) /\ i_sessions (c_inst c' j) = i_sessions (c_inst c j) /\
             i_phase (c_inst c' j) = if Nat.eqb j i then PDead else i_phase (c_inst c j)) ->
  i_phase (c_inst c i) = PRun ->
  inv_att c -> inv_att c'.
Proof.
  intros c c' i En Es Ei Hp [F M S D DS ND IE TD LF].
  assert (Hnd : i_phase (c_inst c i) <> PDead) by congruence.
  constructor.
  - intros s0 t j. destruct (Es s0) as (-> & _ & _). rewrite En. apply F.
  - intros s0 j. destruct (Es s0) as (-> & _ & _). destruct (Ei j) as (-> & -> & ->).
    destruct (Nat.eqb_spec j i) as [->|]; [congruence|apply M].
  - intros s0 t j. destruct (Es s0) as (-> & Eq & ->). intros Ht H.
    destruct (S _ _ _ Ht H) as [(A & B & C)|R].
    + destruct (Ei j) as (-> & -> & ->). destruct (Nat.eqb_spec j i) as [->|]; [|left; auto].
      right. rewrite Eq, B, Ht. simpl. apply in_or_app. right. left. exact C.
    + right. rewrite Eq. destruct (_ && _); auto. apply in_or_app. auto.
  - intros s0 t j Hin Hn Hm. destruct (Es s0) as (_ & Eq & _). destruct (Ei j) as (Enj & Esj & ->). rewrite Enj in Hn. rewrite Esj in Hm.
    destruct (Nat.eqb_spec j i) as [->|Hji]; [reflexivity|].
    rewrite Eq in Hin.
    destruct (mem s0 (i_sessions (c_inst c i)) && negb (s_term (c_sess c s0))) eqn:Eg; [|apply (D s0 t j); auto].
    apply in_app_or in Hin. destruct Hin as [Hin|[<-|[]]]; [apply (D s0 t j); auto|].
    apply andb_true_iff in Eg. destruct Eg as [Eg _].
    destruct (i_phase (c_inst c j)) eqn:Epj; auto; exfalso.
    + rewrite (IE _ Epj) in Hm. discriminate.
    + assert (Hj : i_phase (c_inst c j) <> PDead) by congruence.
      pose proof (M s0 j Hj Hm) as X1. pose proof (M s0 i Hnd Eg) as X2. rewrite Hn in X1. congruence.
  - intros s0 t Hin. destruct (Es s0) as (-> & Eq & _). rewrite Eq in Hin.
    destruct (mem s0 (i_sessions (c_inst c i)) && negb (s_term (c_sess c s0))) eqn:Eg; [|apply DS; auto].
    apply in_app_or in Hin. destruct Hin as [Hin|[<-|[]]]; [apply DS; auto|].
    apply andb_true_iff in Eg. destruct Eg as [Eg _]. rewrite (M s0 i Hnd Eg). discriminate.
  - intros s0. destruct (Es s0) as (_ & -> & _).
    destruct (mem s0 (i_sessions (c_inst c i)) && negb (s_term (c_sess c s0))) eqn:Eg; [|apply ND].
    apply andb_true_iff in Eg. destruct Eg as [Eg _].
    apply NoDup_snoc; [apply ND|]. intros Hin. apply Hnd. apply (D s0 _ i Hin); auto.
  - intros j. destruct (Ei j) as (_ & -> & ->). destruct (Nat.eqb_spec j i) as [->|]; [discriminate|apply IE].
  - intros s0. destruct (Es s0) as (_ & -> & ->). intros Ht. rewrite Ht, andb_false_r. apply TD. exact Ht.
  - intros j. destruct (Ei j) as (_ & _ & ->). rewrite En. destruct (Nat.eqb_spec j i) as [->|]; [congruence|apply LF].
Qed.

Global Hint Rewrite s_detach_detachq : lc.

(* a reply queued to a session changes nothing of the attachment state *)
Lemma inv_att_pre404 : forall c r e, inv_att c -> inv_att (pre404 c r e).
Proof.
  intros c r e I. eapply inv_att_same; [|exact I].
  destruct (pre404_frame c r e) as (Ei & En & _). unfold same_att. rewrite Ei, En.
  split; [reflexivity|]. split; [|auto].
  intros s. destruct (pre404_sess c r e s) as (A & _ & B & _ & C). auto.
Qed.

Lemma inv_att_step : forall c l c', inv_att c -> step c l c' -> inv_att c'.
Proof.
  intros c l c' I Hs. estep_cases Hs; try ((eapply inv_att_same; [|exact I]); same_att_tac; fail).
  - (* a fresh instance *)
    destruct I as [F M S D DS ND IE TD LF]. constructor; cfg_simpl; unfold upd.
    + intros s t i H. apply F in H. lia.
    + intros s i. destruct (Nat.eqb_spec i (c_next c)); [discriminate|]. apply M.
    + intros s t i Ht H. destruct (Nat.eqb_spec i (c_next c)) as [->|].
      * apply F in H. lia.
      * apply S; auto.
    + intros s t j. destruct (Nat.eqb_spec j (c_next c)); [discriminate|]. apply D.
    + exact DS.
    + exact ND.
    + intros i. destruct (Nat.eqb_spec i (c_next c)); auto.
    + exact TD.
    + intros i. destruct (Nat.eqb_spec i (c_next c)); [lia|]. intros H. apply LF in H. lia.
  - apply (inv_att_phase c _ i PDead); auto; [|discriminate]. same_att_tac.
  - apply (inv_att_phase c _ i PRun); auto; [|discriminate]. same_att_tac.
  - apply (inv_att_phase c _ i PDead); auto; [|discriminate]. pose proof (drain_unreg_frame _ _ _ _ _ Edr) as Fr.
    split; [reflexivity|split]; intros x; [|inst_cases x i; auto].
    destruct (Fr x) as (A & B & C & _). cfg_simpl. rewrite A, B, C. sess_leaf; auto.
  - apply (inv_att_phase c _ i PDead); auto; [|discriminate]. pose proof (drain_unreg_frame _ _ _ _ _ Edr) as Fr.
    split; [reflexivity|split]; intros x; [|inst_cases x i; auto].
    destruct (Fr x) as (A & B & C & _). destruct (Fr (r_sid r)) as (A' & B' & C' & _). sess_leaf; rewrite ?A, ?B, ?C, ?A', ?B', ?C'; sess_leaf; auto.
  - apply (inv_att_attach c _ (r_sid r) i); auto.
    + intros s0. sess_leaf; auto.
    + intros j. inst_cases j i; auto.
  - apply inv_att_pre404 with (r := r) (e := eR) in I. ustep_cases Hu.
    + (eapply inv_att_same; [|exact I]); same_att_tac.
    + apply (inv_att_evictuser (pre404 c r eR) _ i (gone_of (pre404 c r eR) i (r_sid r0))); auto.
      * intros s0 H. apply andb_true_iff in H. tauto.
      * intros s0. sess_leaf; destruct (gone_of _ _ _ _); cbn [andb negb]; autorewrite with lc; auto;
          match goal with |- context [s_term ?x] => destruct (s_term x) end; auto.
      * intros j. inst_cases j i; auto.
    + apply (inv_att_detach2 (pre404 c r eR) _ (r_sid r0) i); auto.
      * destruct (r_init r0); reflexivity.
      * intros s0. destruct (r_init r0); sess_leaf; auto.
      * intros j. destruct (r_init r0); inst_cases j i; auto.
    + (eapply inv_att_same; [|exact I]); same_att_tac.
    + (eapply inv_att_same; [|exact I]); same_att_tac.
  - apply (inv_att_detach2 c _ s1 i); auto.
    + intros s0. sess_leaf; auto.
    + intros j. inst_cases j i; auto.
  - apply (inv_att_exit c _ i); auto.
    + intros s0. cfg_simpl. destruct (mem s0 (i_sessions (c_inst c i))); cbn [andb]; autorewrite with lc; auto.
      destruct (s_term (c_sess c s0)); auto.
    + intros j. inst_cases j i; auto.
  - (* the write loop applies a detach notice *)
    destruct I as [F M S D DS ND IE TD LF].
    assert (Hnd : NoDup (t :: rest)) by (rewrite <- E; apply ND).
    assert (Hlive : s_term (c_sess c s1) = false).
    { destruct (s_term (c_sess c s1)) eqn:Et; auto. rewrite (TD _ Et) in E. discriminate. }
    constructor; cfg_simpl; unfold upd.
    + intros s0 t0 i. destruct (Nat.eqb_spec s0 s1); subst; cbn [s_subs s_setdetachq s_setsubs]; [|apply F].
      rewrite lookup_remove_key. destruct (Nat.eqb t0 t); [discriminate|]. apply F.
    + intros s0 i Hp Hm. destruct (Nat.eqb_spec s0 s1); subst; cbn [s_subs s_setdetachq s_setsubs]; [|apply M; auto].
      rewrite lookup_remove_key. destruct (Nat.eqb_spec (i_name (c_inst c i)) t) as [En|]; [|apply M; auto].
      exfalso. apply Hp. apply (D s1 t i); auto. rewrite E. left. reflexivity.
    + intros s0 t0 i. destruct (Nat.eqb_spec s0 s1); subst; cbn [s_subs s_term s_detachq s_setdetachq s_setsubs]; [|apply S].
      rewrite lookup_remove_key. destruct (Nat.eqb_spec t0 t) as [->|Hne]; [discriminate|].
      intros Ht H. destruct (S _ _ _ Ht H) as [L|R]; [left; exact L|right].
      rewrite E in R. destruct R as [->|R]; [congruence|exact R].
    + intros s0 t0 j. destruct (Nat.eqb_spec s0 s1); subst; cbn [s_detachq s_setdetachq s_setsubs]; [|apply D].
      intros Hin. apply D. rewrite E. right. exact Hin.
    + intros s0 t0. destruct (Nat.eqb_spec s0 s1); subst; cbn [s_subs s_detachq s_setdetachq s_setsubs]; [|apply DS].
      intros Hin. rewrite lookup_remove_key. destruct (Nat.eqb_spec t0 t) as [->|Hne].
      * inversion Hnd; subst. contradiction.
      * apply DS. rewrite E. right. exact Hin.
    + intros s0. destruct (Nat.eqb_spec s0 s1); subst; cbn [s_detachq s_setdetachq s_setsubs]; [|apply ND]. inversion Hnd; auto.
    + exact IE.
    + intros s0. destruct (Nat.eqb_spec s0 s1); subst; cbn [s_term s_detachq s_setdetachq s_setsubs]; [|apply TD]. congruence.
    + exact LF.
  - (* the connection closes: purgeChannels empties Session.detach *)
    destruct I as [F M S D DS ND IE TD LF]. constructor; cfg_simpl; unfold upd.
    + intros s0 t i. destruct (Nat.eqb_spec s0 s1); subst; cbn [s_subs]; apply F.
    + intros s0 i. destruct (Nat.eqb_spec s0 s1); subst; cbn [s_subs]; apply M.
    + intros s0 t i. destruct (Nat.eqb_spec s0 s1); subst; cbn [s_term]; [discriminate|]. apply S.
    + intros s0 t j. destruct (Nat.eqb_spec s0 s1); subst; cbn [s_detachq]; [contradiction|]. apply D.
    + intros s0 t. destruct (Nat.eqb_spec s0 s1); subst; cbn [s_detachq]; [contradiction|]. apply DS.
    + intros s0. destruct (Nat.eqb_spec s0 s1); subst; cbn [s_detachq]; [constructor|]. apply ND.
    + exact IE.
    + intros s0. destruct (Nat.eqb_spec s0 s1); subst; cbn [s_term s_detachq]; auto.
    + exact LF.
Qed.

Lemma inv_att_reach : forall st ow us c, reach st ow us c -> inv_att c.
Proof. induction 1; [apply inv_att_init|eapply inv_att_step; eauto]. Qed.

(* ---------- quiescent symmetry ---------- *)

(* At quiescence (all queues empty, no detach notice in flight) a live session lists a topic,
   through instance i, exactly when instance i of that topic is running and lists the session. *)
Lemma quiescent_symmetry : forall st ow us c, reach st ow us c -> quiescent c ->
  forall s t i, s_term (c_sess c s) = false ->
    (lookup t (s_subs (c_sess c s)) = Some i <->
     i_phase (c_inst c i) = PRun /\ i_name (c_inst c i) = t /\ mem s (i_sessions (c_inst c i)) = true).
Proof.
  intros st ow us c Hr Hq s t i Ht. destruct (inv_att_reach _ _ _ _ Hr) as [F M S D DS ND IE TD LF].
  destruct Hq as (_ & _ & _ & _ & _ & _ & Hd). split.
  - intros H. destruct (S _ _ _ Ht H) as [(A & B & C)|R]; [auto|]. rewrite Hd in R. contradiction.
  - intros (A & B & C). subst t. apply M; auto. congruence.
Qed.

Lemma mem_remove_nat_same : forall x l, mem x (remove_nat x l) = false.
Proof. intros. rewrite mem_remove_nat, Nat.eqb_refl, andb_false_r. reflexivity. Qed.

Lemma lookup_remove_key_same : forall t l, lookup t (remove_key t l) = None.
Proof. intros. rewrite lookup_remove_key, Nat.eqb_refl. reflexivity. Qed.

