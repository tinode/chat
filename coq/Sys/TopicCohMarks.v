(* C09: the STORED marks never decrease.  Needs the joint invariant that the store is
   never ahead of the loaded topic: every live subscription row has a cache entry whose
   marks are at least the stored ones, and that there is one row per user.  This file has the
   handlers; the steps and histories are in Sys/TopicCoh2.v.  Definitions of the model are in Sys/Topic.v. *)
From Coq Require Import ZArith NArith List Bool Lia.
From Tinode Require Import Base.Util Pure.Acs Sys.Topic Sys.TopicTac Sys.TopicFrame Sys.TopicNum Sys.TopicMarks Sys.TopicMono.
Import ListNotations.
Open Scope Z_scope.

(* the stored row of one user, as a function: (deleted, read, recv) *)
Definition rk (r : subrow) : bool * Z * Z := (s_deleted r, s_read r, s_recv r).
Definition sk (s : store) (u : N) : option (bool * Z * Z) := option_map rk (find_sub u (subs s)).

Lemma sk_owner v s u : sk (st_owner v s) u = sk s u. Proof. reflexivity. Qed.
Lemma sk_delid v s u : sk (st_delid v s) u = sk s u. Proof. reflexivity. Qed.
Lemma sk_delete_list s d fu rs u : sk (ad_msg_delete_list s d fu rs) u = sk s u.
Proof. unfold ad_msg_delete_list. break_match; reflexivity. Qed.

(* an update without marks (modes, delid) is invisible *)
Lemma sk_update_nomarks s u w g d u0 : sk (ad_subs_update s u (mkUpd w g None None d)) u0 = sk s u0.
Proof.
  unfold sk. rewrite find_sub_update. destruct (_ || _); [|reflexivity]. destruct (find_sub u0 (subs s)); reflexivity.
Qed.
Definition set_marks (rd rc : option Z) (a : bool * Z * Z) : bool * Z * Z :=
  let '(d, r0, c0) := a in (d, match rd with Some v => v | None => r0 end, match rc with Some v => v | None => c0 end).
Lemma sk_update_marks s u rd rc u0 : (u =? 0)%N = false ->
  sk (ad_subs_update s u (mkUpd None None rd rc None)) u0 = if N.eqb u0 u then option_map (set_marks rd rc) (sk s u0) else sk s u0.
Proof.
  intros NZ. unfold sk. rewrite find_sub_update, NZ. cbn [orb].
  destruct (N.eqb u0 u); destruct (find_sub u0 (subs s)); reflexivity.
Qed.
Lemma sk_sub_create s u w g u0 : sk (ad_sub_create s u w g) u0 = if N.eqb u0 u then Some (false, 0, 0) else sk s u0.
Proof. unfold sk. rewrite find_sub_create. destruct (N.eqb u0 u); reflexivity. Qed.
Definition set_deleted (a : bool * Z * Z) : bool * Z * Z := let '(d, r0, c0) := a in (true, r0, c0).
Lemma sk_subs_delete s u s' u0 : ad_subs_delete s u = Some s' ->
  sk s' u0 = if N.eqb u0 u then option_map set_deleted (sk s u0) else sk s u0.
Proof.
  intros H. unfold sk. rewrite (find_sub_delete _ _ _ u0 H). destruct (N.eqb u0 u); destruct (find_sub u0 (subs s)); reflexivity.
Qed.
(* SubscriptionGet as the handlers use it *)
Lemma sk_get_keep s u : sk s u = option_map rk (ad_sub_get s u true).
Proof. unfold sk, ad_sub_get. destruct (find_sub u (subs s)); [rewrite andb_false_r|]; reflexivity. Qed.
Lemma sk_get_live s u : ad_sub_get s u false = None -> match sk s u with Some (false, _, _) => False | _ => True end.
Proof.
  unfold sk, ad_sub_get. destruct (find_sub u (subs s)) as [r|]; cbn; [|auto].
  rewrite andb_true_r. destruct (s_deleted r); [auto|discriminate].
Qed.

Lemma sk_delete_none s u : ad_subs_delete s u = None -> match sk s u with Some (false, _, _) => False | _ => True end.
Proof. unfold ad_subs_delete. intros H. apply sk_get_live. destruct (ad_sub_get s u false); [discriminate|reflexivity]. Qed.
Lemma sk_get_some s u r : ad_sub_get s u true = Some r -> sk s u = Some (s_deleted r, s_read r, s_recv r).
Proof. intros H. rewrite sk_get_keep, H. reflexivity. Qed.

(* one row per user *)
Definition und (s : store) : Prop := NoDup (map s_user (subs s)).
Lemma und_subs_update s u up : und s -> und (ad_subs_update s u up).
Proof. apply nodup_subs_update. Qed.
Lemma und_sub_create s u w g : und s -> und (ad_sub_create s u w g).
Proof. apply nodup_sub_create. Qed.
Lemma und_subs_delete s u s' : ad_subs_delete s u = Some s' -> und s -> und s'.
Proof. apply nodup_subs_delete. Qed.
Lemma und_sframe_msgs s s' : subs s' = subs s -> und s -> und s'.
Proof. unfold und. intros ->. auto. Qed.

(* load: the cache is the live rows *)
Lemma mk_load s u0 : und s ->
  mk (load s) u0 = match sk s u0 with Some (false, rd, rc) => Some (rd, rc) | _ => None end.
Proof.
  intros ND. unfold mk, load, load_users, sk. cbn [c_users]. rewrite (load_users_lookup_acc u0 (subs s) ND []).
  destruct (find_sub u0 (subs s)) as [r|]; cbn; [|reflexivity]. destruct (s_deleted r); reflexivity.
Qed.

(* store not ahead of the cache; stored marks monotone *)
Definition cohP (a : option (bool * Z * Z)) (b : option (Z * Z)) : Prop :=
  match a with
  | Some (false, rd, rc) => match b with Some (rd', rc') => rd <= rd' /\ rc <= rc' | None => False end
  | _ => True
  end.
Definition coh (s : store) (c : cache) : Prop := forall u, cohP (sk s u) (mk c u).
Definition smP (a a' : option (bool * Z * Z)) : Prop :=
  match a, a' with
  | Some (false, rd, rc), Some (false, rd', rc') => rd <= rd' /\ rc <= rc'
  | _, _ => True
  end.
Definition smono (s s' : store) : Prop := forall u, smP (sk s u) (sk s' u).
Definition good (s : store) (h : hres) : Prop := coh (h_st h) (h_ca h) /\ smono s (h_st h).

Lemma smP_refl a : smP a a.
Proof. destruct a as [[[[|] rd] rc]|]; cbn; auto. lia. Qed.
Lemma smono_refl s : smono s s. Proof. intros u. apply smP_refl. Qed.

Lemma smono_sk s s' : (forall u, sk s' u = sk s u) -> smono s s'.
Proof. intros E u. rewrite E. apply smP_refl. Qed.

Lemma mk_some c u p : alookup u (c_users c) = Some p -> mk c u = Some (p_read p, p_recv p).
Proof. unfold mk. now intros ->. Qed.
Lemma mk_none c u : alookup u (c_users c) = None -> mk c u = None.
Proof. unfold mk. now intros ->. Qed.
Lemma marks_get_pud c u : mk c u = Some (p_read (get_pud c u), p_recv (get_pud c u)) \/ (mk c u = None /\ p_read (get_pud c u) = 0 /\ p_recv (get_pud c u) = 0).
Proof. unfold mk, get_pud. destruct (alookup u (c_users c)); [left|right]; auto. Qed.

(* every entry stays and its marks do not go back; entries may appear.  A store that is not
   ahead of [c] is not ahead of [c'] then. *)
Definition mle (b b' : option (Z * Z)) : Prop :=
  match b with
  | Some (rd, rc) => match b' with Some (rd', rc') => rd <= rd' /\ rc <= rc' | None => False end
  | None => True
  end.
Definition grows (c c' : cache) : Prop := forall u, mle (mk c u) (mk c' u).
Lemma mle_refl b : mle b b. Proof. destruct b as [[rd rc]|]; cbn; auto. lia. Qed.
Lemma mle_trans a b c : mle a b -> mle b c -> mle a c.
Proof. destruct a as [[? ?]|], b as [[? ?]|], c as [[? ?]|]; cbn; try tauto; lia. Qed.
Lemma grows_refl c : grows c c. Proof. intros u. apply mle_refl. Qed.
Lemma grows_trans a b c : grows a b -> grows b c -> grows a c.
Proof. intros H1 H2 u. exact (mle_trans _ _ _ (H1 u) (H2 u)). Qed.
Lemma grows_aset c u q : p_read (get_pud c u) <= p_read q -> p_recv (get_pud c u) <= p_recv q ->
  grows c (c_set_users (aset u q) c).
Proof.
  intros E1 E2 u0. rewrite mk_aset. destruct (N.eqb u0 u) eqn:E; [|apply mle_refl].
  apply N.eqb_eq in E. subst u0. unfold mk, get_pud in *. destruct (alookup u (c_users c)); cbn; auto.
Qed.
Lemma grows_settled c u c' o : settled c u c' o -> grows c c'.
Proof. intros [[-> _]|E] u0; [|rewrite (mk_evict _ _ _ _ _ _ u0 E)]; apply mle_refl. Qed.

Lemma cohP_mle a b b' : cohP a b -> mle b b' -> cohP a b'.
Proof. destruct a as [[[[|] ?] ?]|], b as [[? ?]|], b' as [[? ?]|]; cbn; try tauto; lia. Qed.
Lemma coh_grows s c c' : grows c c' -> coh s c -> coh s c'.
Proof. intros G HC u. exact (cohP_mle _ _ _ (HC u) (G u)). Qed.

(* the modes and the deletion ids are invisible here *)
Lemma good_same s c s' c' : (forall u, sk s' u = sk s u) -> grows c c' -> coh s c -> coh s' c' /\ smono s s'.
Proof.
  intros E G HC. split; [|apply smono_sk; exact E]. intros u. rewrite E. exact (cohP_mle _ _ _ (HC u) (G u)).
Qed.
(* a fresh row with a fresh entry *)
Lemma good_create s c u w g c' : alookup u (c_users c) = None ->
  grows (c_set_users (aset u (mkPud w g 0 0 0 0)) c) c' -> coh s c ->
  coh (ad_sub_create s u w g) c' /\ smono s (ad_sub_create s u w g).
Proof.
  intros L G HC. pose proof (HC u) as HU. rewrite (mk_none _ _ L) in HU.
  split; intros u0; rewrite sk_sub_create; destruct (N.eqb u0 u) eqn:E; try apply smP_refl.
  - apply N.eqb_eq in E. subst u0. specialize (G u). rewrite mk_aset, N.eqb_refl in G. exact G.
  - apply (cohP_mle _ (mk c u0)); [apply HC|]. specialize (G u0). rewrite mk_aset, E in G. exact G.
  - apply N.eqb_eq in E. subst u0. destruct (sk s u) as [[[[|] rd] rc]|]; cbn in *; tauto.
Qed.
(* [u]'s stored marks move, between the old cached marks and the new ones *)
Lemma good_marks s c s2 c' u ord orc : (u =? 0)%N = false -> (forall u0, sk s2 u0 = sk s u0) -> grows c c' ->
  (forall rd rc, mk c u = Some (rd, rc) -> exists rd' rc', mk c' u = Some (rd', rc') /\
     match ord with Some v => rd <= v <= rd' | None => True end /\
     match orc with Some v => rc <= v <= rc' | None => True end) ->
  coh s c ->
  coh (ad_subs_update s2 u (mkUpd None None ord orc None)) c' /\
  smono s (ad_subs_update s2 u (mkUpd None None ord orc None)).
Proof.
  intros NZ E G FW HC.
  split; intros u0; rewrite (sk_update_marks _ _ _ _ _ NZ), E; (destruct (N.eqb u0 u) eqn:EU;
    [apply N.eqb_eq in EU; subst u0|first [exact (cohP_mle _ _ _ (HC u0) (G u0))|apply smP_refl]]).
  all: pose proof (HC u) as HU; pose proof (G u) as GU; destruct (sk s u) as [[[[|] r0] c0]|]; cbn; auto.
  all: destruct (mk c u) as [[rd rc]|]; [|contradiction]; destruct (FW rd rc eq_refl) as (rd' & rc' & E' & O1 & O2).
  all: rewrite E' in *; cbn in HU, GU; destruct ord, orc; lia.
Qed.

Lemma own_write_sk s u p0 w g s1 u0 : own_write s u p0 w g s1 -> sk s1 u0 = sk s u0.
Proof. intros [[-> _]|[ow [og [-> _]]]]; [reflexivity|apply sk_update_nomarks]. Qed.

Lemma tus_good f s c u want h r : tus_spec f s c u want h r -> coh s c -> good s h.
Proof.
  intros SP HC. unfold good.
  destruct SP as [n' code _|w g s' c' n' o ch L S' ST|p0 w g s1 c' n' o r' _ OW ST _
                 |p0 w g s1 c' n' o r' _ OW ST _|p0 w g s1 s' n' _ _ OW S'];
    cbn [h_st h_ca]; try apply grows_settled in ST.
  - split; [exact HC|apply smono_refl].
  - destruct S' as [->|[-> [r0 [G D]]]]; [exact (good_create _ _ _ _ _ _ L ST HC)|].
    exfalso. pose proof (HC u) as HU. rewrite (sk_get_some _ _ _ G), D, (mk_none _ _ L) in HU. exact HU.
  - apply (good_same s c); [intros u0; exact (own_write_sk _ _ _ _ _ _ u0 OW)| |exact HC].
    eapply grows_trans; [|exact ST]. apply grows_aset; reflexivity.
  - apply (good_same s c); [intros u0; unfold strip_owner; rewrite sk_owner, sk_update_nomarks; exact (own_write_sk _ _ _ _ _ _ u0 OW)| |exact HC].
    eapply grows_trans; [|exact ST]. eapply grows_trans; [|apply grows_aset; reflexivity].
    apply (grows_aset c (c_owner c)); reflexivity.
  - apply (good_same s c); [|apply grows_refl|exact HC]. intros u0.
    destruct S' as [->| ->]; unfold strip_owner; rewrite ?sk_update_nomarks; exact (own_write_sk _ _ _ _ _ _ u0 OW).
Qed.
Lemma aus_good s c t h r : aus_spec s c t h r -> coh s c -> good s h.
Proof.
  intros SP HC. unfold good.
  destruct SP as [n' code _|w g c' n' o L ST|c' n' o ST|pt g c' n' o L ST];
    cbn [h_st h_ca]; try apply grows_settled in ST.
  - split; [exact HC|apply smono_refl].
  - exact (good_create _ _ _ _ _ _ L ST HC).
  - apply (good_same s c); auto.
  - apply (good_same s c); [intros u0; apply sk_update_nomarks| |exact HC].
    eapply grows_trans; [|exact ST]. apply grows_aset; unfold get_pud; rewrite L; reflexivity.
Qed.

Lemma unsub_good s c sid v h : unsub_spec s c sid v h -> coh s c -> good s h.
Proof.
  intros [n' code _|s1 c1 n' code o1 k _ D EV] HC; unfold good; cbn [h_st h_ca]; [split; [exact HC|apply smono_refl]|].
  assert (forall u0, mk c1 u0 = if N.eqb u0 v then None else mk c u0) as MK by (intros u0; apply (mk_evict _ _ _ _ _ _ u0 EV)).
  destruct D as [D|[D [-> _]]].
  - split; intros u0; rewrite (sk_subs_delete _ _ _ u0 D), ?MK; destruct (N.eqb u0 v); try apply HC; try apply smP_refl;
      destruct (sk s u0) as [[[[|] rd] rc]|]; cbn; auto.
  - split; [|apply smono_refl]. intros u0. rewrite MK. destruct (N.eqb u0 v) eqn:E; [|apply HC].
    apply N.eqb_eq in E. subst u0. apply sk_delete_none in D. destruct (sk s v) as [[[[|] rd] rc]|]; cbn; auto.
Qed.
Lemma leave_unsub_good f s c n sid u : coh s c -> good s (leave_unsub f s c n sid u).
Proof. exact (unsub_good _ _ _ _ _ (leave_unsub_shape f s c n sid u)). Qed.
Lemma del_sub_good f s c n sid u t : coh s c -> good s (del_sub f s c n sid u t).
Proof. exact (unsub_good _ _ _ _ _ (del_sub_shape f s c n sid u t)). Qed.

Lemma del_msg_good dr f s c n sid u req hard : coh s c -> good s (del_msg dr f s c n sid u req hard).
Proof.
  intros HC. unfold del_msg.
  repeat break_match; (apply (good_same s c); [intros u0; cbn [h_st]; rewrite ?sk_update_nomarks, ?sk_delid, ?sk_delete_list; reflexivity| |exact HC]);
    cbn [h_ca]; try apply grows_refl.
  - intros u0. rewrite mk_mapdel. apply mle_refl.
  - apply (grows_aset (c_set_delid (c_delid c + 1) c)); reflexivity.
Qed.
Lemma leave_coh s c sid u : coh s c -> coh s (fst (leave c sid u)).
Proof.
  apply coh_grows. unfold leave. destruct (alookup sid (c_sess c)) as [[su bkg]|]; cbn [fst]; [|apply grows_refl].
  destruct bkg; [destruct (alookup su _); exact (grows_refl c)|]. cbn [c_users c_set_sess].
  destruct (alookup su (c_users c)) eqn:L;
    apply (grows_aset (c_set_sess (aremove sid) c)); unfold get_pud; cbn [c_users c_set_sess]; rewrite L; reflexivity.
Qed.

Lemma sub_reply_good f s c n sid u want bkg : coh s c -> good s (sub_reply f s c n sid u want bkg).
Proof.
  intros HC. destruct (sub_reply_shape f s c n sid u want bkg) as (h & r & SP & E1 & _ & E2).
  destruct (tus_good _ _ _ _ _ _ _ SP HC) as [HC' HM]. unfold good. rewrite E1. split; [|exact HM].
  destruct E2 as [->|[_ ->]]; [exact HC'|]. revert HC'. apply coh_grows. unfold attach.
  destruct bkg; [exact (grows_refl (h_ca h))|]. apply (grows_aset (c_set_sess _ (h_ca h))); reflexivity.
Qed.
Lemma set_sub_good f s c n sid u t m : coh s c -> good s (set_sub f s c n sid u t m).
Proof.
  destruct (set_sub_shape f s c n sid u t m) as (h & r & SP & E1 & E2 & _). unfold good. rewrite E1, E2.
  destruct SP as [[_ SP]|[_ SP]]; [exact (tus_good _ _ _ _ _ _ _ SP)|exact (aus_good _ _ _ _ _ SP)].
Qed.
