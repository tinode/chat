(* C07 proofs: attached sessions.  Every attached session belongs to a cached
   subscriber (every fault plan, every request), and that subscriber's grant has J unless
   the request is the pattern of finding banned-user-attached (stale_ban_sub). *)
From Coq Require Import ZArith NArith List Bool Lia.
From Tinode Require Import Base.Util Pure.Acs Sys.Topic Sys.TopicTac Sys.TopicFrame Sys.TopicMarks Sys.TopicOwner Sys.TopicAclC07 Sys.TopicAclC07Proofs Sys.TopicAclC07Inv.
Import ListNotations.
Open Scope Z_scope.

(* ---------- mode bits ---------- *)
Lemma is_joiner_lor a b : is_joiner a = true -> is_joiner (N.lor a b) = true.
Proof. rewrite !is_joiner_bit, N.lor_spec. intros ->. reflexivity. Qed.
Lemma is_joiner_strip a : is_joiner (N.ldiff a mO) = is_joiner a.
Proof. rewrite !is_joiner_bit, N.ldiff_spec. change mO with (2 ^ 7)%N. rewrite N.pow2_bits_eqb. cbn. apply andb_true_r. Qed.
Lemma is_joiner_land a b : is_joiner (N.land a b) = true -> is_joiner a = true.
Proof. rewrite !is_joiner_bit, N.land_spec. intros H. apply andb_prop in H. apply H. Qed.

(* ---------- preservation schemes ---------- *)
Definition jfwd (c c' : cache) : Prop :=
  forall v p, alookup v (c_users c) = Some p ->
    (exists p', alookup v (c_users c') = Some p' /\ (is_joiner (p_given p) = true -> is_joiner (p_given p') = true))
    \/ no_sess c' v.

Lemma sm_pres c c' : sess_members c -> incl (c_sess c') (c_sess c) -> jfwd c c' -> sess_members c'.
Proof.
  intros SM I F sid u b HI. pose proof (SM sid u b (I _ HI)) as M. unfold member in *.
  destruct (alookup u (c_users c)) as [p|] eqn:E; [|discriminate].
  destruct (F u p E) as [[p' [E' _]]|NS]; [rewrite E'; reflexivity|exfalso; eapply NS; exact HI].
Qed.
Lemma aj_pres c c' : attached_joiners c -> incl (c_sess c') (c_sess c) -> jfwd c c' -> attached_joiners c'.
Proof.
  intros AJ I F sid u b HI. destruct (AJ sid u b (I _ HI)) as [p [E J]].
  destruct (F u p E) as [[p' [E' J']]|NS]; [exists p'; auto|exfalso; eapply NS; exact HI].
Qed.
Lemma aj_members c : attached_joiners c -> sess_members c.
Proof. intros AJ sid u b HI. destruct (AJ sid u b HI) as [p [E _]]. unfold member. rewrite E. reflexivity. Qed.

Lemma jfwd_refl c : jfwd c c.
Proof. intros v p E. left. exists p. auto. Qed.
Lemma jfwd_of_shrink c c' : cacl_shrink c c' -> jfwd c c'.
Proof.
  intros [_ H] v p E. destruct (H v) as [[G _]|[_ [_ NS]]]; [left|right; exact NS].
  unfold cgiven in G. rewrite E in G. cbn in G. destruct (alookup v (c_users c')) as [p'|]; [|discriminate].
  exists p'. split; [reflexivity|]. cbn in G. inv G. rewrite H1. auto.
Qed.

(* point-wise description of the cache after thisUserSub *)
Lemma jfwd_given c c' :
  (forall v g, cgiven c v = Some g -> exists g', cgiven c' v = Some g' /\ (is_joiner g = true -> is_joiner g' = true)) ->
  jfwd c c'.
Proof.
  intros H v p E. left. destruct (H v (p_given p)) as [g' [G J]]; [unfold cgiven; rewrite E; reflexivity|].
  unfold cgiven in G. destruct (alookup v (c_users c')) as [p'|]; [|discriminate]. inv G. exists p'. auto.
Qed.

Lemma tus_sess_incl f s c n u want nb : incl (c_sess (h_ca (fst (tus f s c n u want nb)))) (c_sess c).
Proof.
  assert (forall c0 c' o, settled c0 u c' o -> c_sess c0 = c_sess c -> incl (c_sess c') (c_sess c)) as ST.
  { intros c0 c' o [[-> _]|EV] <-; [apply incl_refl|rewrite (evict_sess _ _ _ _ _ _ EV); apply incl_filter]. }
  pose proof (tus_shape f s c n 0%N u want nb) as SP.
  change (this_user_sub f s c n 0%N u want nb) with (tus f s c n u want nb) in SP.
  destruct (tus f s c n u want nb) as [h r]. cbn [fst snd] in SP.
  destruct SP as [n' code _|w g s' c' n' o ch' _ _ S|p0 w g s1 c' n' o r' _ _ S _|p0 w g s1 c' n' o r' _ _ S _|p0 w g s1 s' n' _ _ _ _];
    cbn [h_ca]; try apply incl_refl; apply (ST _ _ _ S); reflexivity.
Qed.

Lemma tus_jfwd f s c n u want nb : jfwd c (h_ca (fst (tus f s c n u want nb))).
Proof.
  apply jfwd_given. intros v g G.
  unfold tus. destruct (tus_mw want) as [mw okw]. destruct (negb okw); [eauto|].
  destruct (alookup u (c_users c)) as [p0|] eqn:Eu.
  - unfold tus_exist. destruct (tus_chk _ _ _ _ _) as [[[mw1 g1] oc]|] eqn:EC; [|eauto].
    apply tus_chk_spec in EC. destruct EC as [-> [HGS _]].
    assert (is_joiner (p_given p0) = true -> is_joiner g1 = true) as JG.
    { destruct HGS as [->|[[_ [_ ->]]|[_ [_ [_ ->]]]]]; auto; apply is_joiner_lor. }
    destruct (if negb _ then call f n else (true, n)) as [ok1 n1]. destruct (negb ok1); [eauto|].
    destruct oc.
    + destruct (call f n1) as [ok2 n2]. destruct (negb ok2); [eauto|].
      destruct (call f n2) as [ok3 n3]. destruct (negb ok3); [eauto|].
      match goal with |- context [tus_finish ?a ?b ?cc ?d ?e ?ff ?s3 ?c3 ?n3] =>
        destruct (tus_finish_res a b cc d e ff s3 c3 n3) as [_ [R _]] end.
      rewrite R. eqb_cases v u.
      * unfold cgiven in G. rewrite Eu in G. inv G. eauto.
      * unfold cgiven. cbn [c_users c_set_users c_set_owner]. rewrite alookup_aset.
        eqb_cases v (c_owner c); cbn; [|eauto].
        eexists. split; [reflexivity|]. rewrite is_joiner_strip. unfold cgiven, get_pud in *.
        destruct (alookup (c_owner c) (c_users c)); inv G. auto.
    + match goal with |- context [tus_finish ?a ?b ?cc ?d ?e ?ff ?s3 ?c3 ?n3] =>
        destruct (tus_finish_res a b cc d e ff s3 c3 n3) as [_ [R _]] end.
      rewrite R. eqb_cases v u; [|eauto]. unfold cgiven in G. rewrite Eu in G. inv G. eauto.
  - assert (v <> u) as NE by (intros ->; unfold cgiven in G; rewrite Eu in G; discriminate).
    apply N.eqb_neq in NE.
    assert (forall c0 p, cgiven (c_set_users (aset u p) c0) v = cgiven c0 v) as AS.
    { intros. rewrite cg_aset, NE. reflexivity. }
    unfold tus_new. destruct (max_subs <=? _); [eauto|].
    destruct (call f n) as [ok1 n1]. destruct (negb ok1); [eauto|].
    destruct (negb (is_joiner _)); [eauto|].
    destruct (if (_ : bool) then call f n1 else (true, n1)) as [ok2 n2]. destruct (negb ok2); [eauto|].
    destruct (negb (is_joiner _)).
    + destruct (evict_user _ u false 0) as [c3 o3] eqn:EV. cbn [fst h_ca].
      rewrite (evict_cgiven _ _ _ _ _ _ v EV), andb_false_r, AS. eauto.
    + cbn [fst h_ca]. rewrite AS. eauto.
Qed.

Lemma aus_sess_jfwd f s c n u t mode :
  incl (c_sess (h_ca (fst (aus f s c n u t mode)))) (c_sess c) /\ jfwd c (h_ca (fst (aus f s c n u t mode))).
Proof.
  pose proof (incl_refl (c_sess c)) as IR. pose proof (jfwd_refl c) as JR.
  unfold aus. destruct (alookup u (c_users c)) as [hp|]; [|auto].
  destruct (negb (is_sharer _)); [auto|]. destruct (tus_mw mode) as [mg okg]. destruct (negb okg); [auto|].
  destruct (_ && _); [auto|]. destruct (_ && _); [auto|].
  (* after an update of the target's entry followed by an eviction when J is missing *)
  assert (forall p', (forall c4 o4, evict_user (c_set_users (aset t p') c) t false 0 = (c4, o4) ->
            incl (c_sess c4) (c_sess c) /\ jfwd c c4)) as EVJ.
  { intros p' c4 o4 EV. split; [rewrite (evict_sess _ _ _ _ _ _ EV); apply incl_filter|].
    intros v p E. eqb_cases v t.
    - right. intros sid b HI. rewrite (evict_sess _ _ _ _ _ _ EV) in HI. apply filter_In in HI.
      destruct HI as [_ HI]. cbn in HI. rewrite N.eqb_refl in HI. discriminate.
    - left. exists p. split; [|auto]. rewrite (evict_lookup _ _ _ _ _ _ v EV).
      apply N.eqb_neq in E0. rewrite E0. cbn [c_users c_set_users]. rewrite alookup_aset, E0. exact E. }
  assert (forall p', is_joiner (p_given p') = true -> jfwd c (c_set_users (aset t p') c)) as ASJ.
  { intros p' J v p E. left. cbn [c_users c_set_users]. rewrite alookup_aset.
    eqb_cases v t; [exists p'; auto|exists p; auto]. }
  destruct (alookup t (c_users c)) as [pt|] eqn:Et.
  - unfold aus_exist. destruct (_ || _).
    + destruct (negb (is_joiner (p_given pt))) eqn:EJ; [|auto].
      destruct (evict_user c t false 0) as [c4 o4] eqn:EV. cbn [fst h_ca].
      split; [rewrite (evict_sess _ _ _ _ _ _ EV); apply incl_filter|].
      intros v p E. eqb_cases v t.
      * right. intros sid b HI. rewrite (evict_sess _ _ _ _ _ _ EV) in HI. apply filter_In in HI.
        destruct HI as [_ HI]. cbn in HI. rewrite N.eqb_refl in HI. discriminate.
      * left. exists p. split; [|auto]. rewrite (evict_lookup _ _ _ _ _ _ v EV).
        apply N.eqb_neq in E0. rewrite E0. exact E.
    + destruct (_ && _); [auto|]. destruct (call f n) as [ok1 n1]. destruct (negb ok1); [auto|].
      destruct (negb (is_joiner mg)) eqn:EJ.
      * destruct (evict_user _ t false 0) as [c4 o4] eqn:EV. cbn [fst h_ca]. eapply EVJ; exact EV.
      * cbn [fst h_ca]. split; [exact IR|]. apply ASJ. cbn. apply negb_false_iff in EJ. exact EJ.
  - unfold aus_new. destruct (max_subs <=? _); [auto|].
    destruct (call f n) as [ok1 n1]. destruct (negb ok1); [auto|].
    match goal with |- context [match ?w with (_, _) => _ end] => destruct w as [n2 [[code|wantm]|]] end; auto.
    destruct (negb (is_joiner wantm)); [auto|].
    destruct (call f n2) as [ok3 n3]. destruct (negb ok3); [auto|].
    destruct (negb (is_joiner _)) eqn:EJ.
    + destruct (evict_user _ t false 0) as [c4 o4] eqn:EV. cbn [fst h_ca]. eapply EVJ; exact EV.
    + cbn [fst h_ca]. split; [exact IR|]. apply ASJ. cbn. apply negb_false_iff in EJ. exact EJ.
Qed.

(* the reply of a successful {sub}: the subscriber's entry after thisUserSub *)
Lemma tus_joined f s c n u want ch :
  let nb := match alookup u (c_users c) with Some _ => false | None => true end in
  snd (tus f s c n u want nb) = SubOk ch ->
  match ch with Some (w, g) => is_joiner (N.land g w) | None => true end = true ->
  stale_cond c u want = false ->
  exists p', alookup u (c_users (h_ca (fst (tus f s c n u want nb)))) = Some p' /\ is_joiner (p_given p') = true.
Proof.
  intros nb. subst nb. unfold tus, stale_cond. destruct (tus_mw want) as [mw okw].
  destruct okw; cbn [negb andb]; [|discriminate].
  assert (forall c', (exists g, cgiven c' u = Some g /\ is_joiner g = true) ->
          exists p', alookup u (c_users c') = Some p' /\ is_joiner (p_given p') = true) as CG.
  { intros c' [g [G J]]. unfold cgiven in G. destruct (alookup u (c_users c')) as [p'|]; inv G. eauto. }
  destruct (alookup u (c_users c)) as [p0|] eqn:Eu.
  - unfold tus_exist. destruct (tus_chk _ _ _ _ _) as [[[mw1 g1] oc]|]; [|discriminate].
    destruct (if negb _ then call f n else (true, n)) as [ok1 n1]. destruct (negb ok1); [discriminate|].
    set (w1 := tus_w1 c u mw1 g1 (p_want p0)).
    assert (forall s3 c3 n3,
      snd (tus_finish u w1 g1 (p_want p0) (p_given p0) false s3 c3 n3) = SubOk ch ->
      match ch with Some (w, g) => is_joiner (N.land g w) | None => true end = true ->
      negb (is_joiner w1) && (w1 =? p_want p0)%N && (g1 =? p_given p0)%N = false ->
      exists p', alookup u (c_users (h_ca (fst (tus_finish u w1 g1 (p_want p0) (p_given p0) false s3 c3 n3)))) = Some p' /\
                 is_joiner (p_given p') = true) as FIN.
    { intros s3 c3 n3 HS HJ HT. apply CG.
      destruct (tus_finish_res u w1 g1 (p_want p0) (p_given p0) false s3 c3 n3) as [_ [R _]].
      rewrite R, N.eqb_refl. exists g1. split; [reflexivity|].
      revert HS. unfold tus_finish. cbn [orb].
      destruct (negb (is_joiner w1)) eqn:EW.
      - destruct (evict_user _ u false 0) as [c5 o5]. cbn [snd]. intros HS. inv HS.
        destruct (negb ((w1 =? p_want p0)%N && (g1 =? p_given p0)%N)) eqn:ECH.
        + apply is_joiner_land in HJ. exact HJ.
        + apply negb_false_iff in ECH. cbn [andb] in HT. congruence.
      - destruct (negb (is_joiner g1)) eqn:EG; cbn [snd]; [discriminate|]. intros _. apply negb_false_iff in EG. exact EG. }
    destruct oc; [|apply FIN].
    destruct (call f n1) as [ok2 n2]. destruct (negb ok2); [discriminate|].
    destruct (call f n2) as [ok3 n3]. destruct (negb ok3); [discriminate|]. apply FIN.
  - intros HS HJ _. apply CG. revert HS. unfold tus_new. destruct (max_subs <=? _); [discriminate|].
    destruct (call f n) as [ok1 n1]. destruct (negb ok1); [discriminate|].
    destruct (negb (is_joiner _)); [discriminate|].
    destruct (if (_ : bool) then call f n1 else (true, n1)) as [ok2 n2]. destruct (negb ok2); [discriminate|].
    cbn [orb].
    destruct (negb (is_joiner _)).
    + destruct (evict_user _ u false 0) as [c3 o3] eqn:EV. cbn [fst snd h_ca]. intros HS. inv HS.
      rewrite (evict_cgiven _ _ _ _ _ _ u EV), andb_false_r. unfold cgiven. cbn [c_users c_set_users].
      rewrite alookup_aset, N.eqb_refl. cbn. eexists. split; [reflexivity|]. apply is_joiner_land in HJ. exact HJ.
    + cbn [fst snd h_ca]. intros HS. inv HS. unfold cgiven. cbn [c_users c_set_users].
      rewrite alookup_aset, N.eqb_refl. cbn. eexists. split; [reflexivity|]. apply is_joiner_land in HJ. exact HJ.
Qed.

(* sub_reply: with the stale-ban pattern excluded, the attached session's user has J *)
Lemma sub_reply_aj f s c n sid u want bkg :
  attached_joiners c -> stale_cond c u want = false ->
  attached_joiners (h_ca (sub_reply f s c n sid u want bkg)).
Proof.
  intros AJ NT. destruct (sub_reply_res f s c n sid u want bkg) as [_ [EC [_ ES]]]. cbv zeta in EC, ES.
  set (nb := match alookup u (c_users c) with Some _ => false | None => true end) in *.
  pose proof (aj_pres _ _ AJ (tus_sess_incl f s c n u want nb) (tus_jfwd f s c n u want nb)) as AJ1.
  (* an entry of the reply's cache is an entry of thisUserSub's with the same grant *)
  assert (forall v p, alookup v (c_users (h_ca (fst (tus f s c n u want nb)))) = Some p -> is_joiner (p_given p) = true ->
            exists p', alookup v (c_users (h_ca (sub_reply f s c n sid u want bkg))) = Some p' /\ is_joiner (p_given p') = true) as TR.
  { intros v p E J. destruct (EC v) as [G _]. unfold cgiven in G. rewrite E in G.
    destruct (alookup v (c_users (h_ca (sub_reply f s c n sid u want bkg)))) as [p'|]; [|discriminate]. inv G. exists p'. rewrite H0. auto. }
  intros sid' v b HI. destruct ES as [ES|[ch [ER [EJ ES]]]]; rewrite ES in HI.
  - destruct (AJ1 _ _ _ HI) as [p [E J]]. eapply TR; eauto.
  - apply in_aset in HI. destruct HI as [HI|HI]; [|destruct (AJ1 _ _ _ HI) as [p [E J]]; eapply TR; eauto].
    inv HI. destruct (tus_joined f s c n u want ch ER EJ NT) as [p [E J]]. eapply TR; eauto.
Qed.

(* the same without the exclusion: membership only *)
Lemma sub_reply_sm f s c n sid u want bkg :
  sess_members c -> sess_members (h_ca (sub_reply f s c n sid u want bkg)).
Proof.
  intros SM. destruct (sub_reply_res f s c n sid u want bkg) as [_ [EC [_ ES]]]. cbv zeta in EC, ES.
  set (nb := match alookup u (c_users c) with Some _ => false | None => true end) in *.
  pose proof (sm_pres _ _ SM (tus_sess_incl f s c n u want nb) (tus_jfwd f s c n u want nb)) as SM1.
  intros sid' v b HI. rewrite cg_member, (proj1 (EC v)), <- cg_member.
  destruct ES as [ES|[ch [ER [_ ES]]]]; rewrite ES in HI; [exact (SM1 _ _ _ HI)|].
  apply in_aset in HI. destruct HI as [HI|HI]; [inv HI; eapply tus_ok_member; exact ER|exact (SM1 _ _ _ HI)].
Qed.

(* ---------- one request ---------- *)
Definition cpres (c c' : cache) : Prop := incl (c_sess c') (c_sess c) /\ jfwd c c'.
Lemma cpres_of_shrink c c' : cacl_shrink c c' -> cpres c c'.
Proof. intros H. split; [apply H|apply jfwd_of_shrink; exact H]. Qed.
Lemma cpres_refl c : cpres c c. Proof. split; [apply incl_refl|apply jfwd_refl]. Qed.

Definition inv_sm (x : state) : Prop := match ca x with Some c => sess_members c | None => True end.
Definition inv_aj (x : state) : Prop := match ca x with Some c => attached_joiners c | None => True end.

Lemma load_no_sess s : c_sess (load s) = []. Proof. reflexivity. Qed.
Lemma aj_load s : attached_joiners (load s). Proof. intros sid u b []. Qed.
Lemma sm_view x : inv_sm x -> sess_members (view x).
Proof. unfold inv_sm, view. destruct (ca x); [auto|]. intros _ sid u b []. Qed.
Lemma aj_view x : inv_aj x -> attached_joiners (view x).
Proof. unfold inv_aj, view. destruct (ca x); [auto|]. intros _. apply aj_load. Qed.

Section SessInv.
Variable dr : Z -> list (Z * Z) -> option (list (Z * Z)).
Variable nr : list (Z * Z) -> list (Z * Z).
Variable sm : sessmap.

Definition sess_goal (x : state) (o : op) (x' : state) : Prop :=
  inv_sm x' /\ (inv_aj x -> stale_ban_sub sm x o = false -> inv_aj x').

Lemma goal_of_cpres x o c s' c' n : ca x = Some c -> sess_members c -> cpres c c' -> sess_goal x o (mkState s' (Some c') n).
Proof.
  intros E SM [I F]. split; cbn [ca].
  - eapply sm_pres; eauto.
  - unfold inv_aj. rewrite E. cbn [ca]. intros AJ _. eapply aj_pres; eauto.
Qed.
Lemma goal_keep x o n : inv_sm x -> sess_goal x o (mkState (st x) (ca x) n).
Proof. intros SM. split; [exact SM|]. intros AJ _. exact AJ. Qed.
Lemma goal_unloaded x o s' n : sess_goal x o (mkState s' None n).
Proof. split; [exact I|]. intros _ _. exact I. Qed.

Lemma step_sess f x o : inv_sm x -> sess_goal x o (fst (step dr nr sm f x o)).
Proof.
  intros SM.
  assert (forall c, ca x = Some c -> sess_members c) as SMc by (intros c E; unfold inv_sm in SM; rewrite E in SM; exact SM).
  assert (forall c c' s' n, ca x = Some c -> cpres c c' -> sess_goal x o (mkState s' (Some c') n)) as PRES
    by (intros c c' s' n E CP; apply (goal_of_cpres x o c); auto).
  apply step_cases.
  - intros n. apply goal_keep, SM.
  - intros n. apply goal_unloaded.
  - intros c h E Q. apply (PRES c); [exact E|]. apply cpres_of_shrink, (quiet_same _ _ _ _ _ _ Q).
  - intros sid want bkg ->. cbv zeta. split; cbn [ca].
    + apply sub_reply_sm, sm_view, SM.
    + intros AJ NT. apply sub_reply_aj; [apply aj_view, AJ|exact NT].
  - intros sid c a b _ E _. cbv zeta. apply (PRES c); [exact E|]. apply cpres_of_shrink. eapply unsub_same, leave_unsub_shape.
  - intros sid c a _ E. apply (PRES c); [exact E|]. apply cpres_of_shrink, leave_same, SMc, E.
  - intros sid t mode c n _ E _. apply (PRES c); [exact E|]. split; [apply tus_sess_incl|apply tus_jfwd].
  - intros sid t mode c n _ E _ _. apply (PRES c); [exact E|apply aus_sess_jfwd].
  - intros sid t mode n _. split; [exact SM|]. intros AJ _. exact AJ.
  - intros sid t c _ E. apply (PRES c); [exact E|]. apply cpres_of_shrink. eapply unsub_same, del_sub_shape.
Qed.

Lemma step_f_sess x fo : inv_sm x -> sess_goal x (snd fo) (fst (step_f dr nr sm x fo)).
Proof.
  intros H. unfold step_f. pose proof (step_sess (fst fo) x (snd fo) H) as S.
  destruct (step dr nr sm (fst fo) x (snd fo)) as [x1 o1]. cbn [fst] in S.
  destruct (fst fo); cbn [fst]; try exact S. apply goal_unloaded.
Qed.

Lemma run_inv_sm h : forall x, inv_sm x -> inv_sm (fst (run dr nr sm x h)).
Proof. exact (TopicFrame.run_inv dr nr sm inv_sm (fun x fo H => proj1 (step_f_sess x fo H)) h). Qed.

(* histories without the stale-ban request pattern *)
Fixpoint no_stale (x : state) (h : list (fault * op)) : Prop :=
  match h with
  | [] => True
  | fo :: r => stale_ban_sub sm x (snd fo) = false /\ no_stale (fst (step_f dr nr sm x fo)) r
  end.

Lemma run_inv_aj h : forall x, inv_sm x -> inv_aj x -> no_stale x h -> inv_aj (fst (run dr nr sm x h)).
Proof.
  induction h as [|fo h IH]; intros x SM AJ NS; cbn; [exact AJ|].
  destruct NS as [NT NS]. pose proof (step_f_sess x fo SM) as [S A].
  destruct (step_f dr nr sm x fo) as [x1 o1]. cbn [fst] in *.
  specialize (IH x1 S (A AJ NT) NS). destruct (run dr nr sm x1 h) as [x2 os]. exact IH.
Qed.
End SessInv.
