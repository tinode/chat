(* C07 proofs: the handlers of Sys/Topic.v in pieces, row/entry lookup through
   the store primitives and the cache updates, the cases of one request (step_cases: every
   step theorem of C07 is an instance), and the single-request writer laws. *)
From Coq Require Import ZArith NArith List Bool Lia.
From Tinode Require Import Base.Util Pure.Acs Sys.Topic Sys.TopicTac Sys.TopicFrame Sys.TopicMarks Sys.TopicAclC07.
Import ListNotations.
Open Scope Z_scope.

(* ---------- the decomposition is the model ---------- *)
Lemma tus_eq f s c n sid u want nb : this_user_sub f s c n sid u want nb = tus f s c n u want nb.
Proof. reflexivity. Qed.
Lemma aus_eq f s c n sid u t m : another_user_sub f s c n sid u t m = aus f s c n u t m.
Proof. unfold another_user_sub, aus. destruct (alookup u (c_users c)); reflexivity. Qed.

(* ---------- rows through the store primitives ---------- *)

Lemma sgiven_create s u w g v : sgiven (ad_sub_create s u w g) v = if N.eqb v u then Some g else sgiven s v.
Proof. unfold sgiven. rewrite find_sub_create. destruct (N.eqb v u); reflexivity. Qed.
Lemma swant_create s u w g v : swant (ad_sub_create s u w g) v = if N.eqb v u then Some w else swant s v.
Proof. unfold swant. rewrite find_sub_create. destruct (N.eqb v u); reflexivity. Qed.

Definition oset {A} (o : option A) (x : A) : A := match o with Some y => y | None => x end.
Lemma sgiven_update s u up v :
  sgiven (ad_subs_update s u up) v =
  if (u =? 0)%N || N.eqb v u then option_map (oset (u_given up)) (sgiven s v) else sgiven s v.
Proof.
  unfold sgiven. rewrite find_sub_update. destruct ((u =? 0)%N || N.eqb v u); [|reflexivity].
  destruct (find_sub v (subs s)); reflexivity.
Qed.
Lemma swant_update s u up v :
  swant (ad_subs_update s u up) v =
  if (u =? 0)%N || N.eqb v u then option_map (oset (u_want up)) (swant s v) else swant s v.
Proof.
  unfold swant. rewrite find_sub_update. destruct ((u =? 0)%N || N.eqb v u); [|reflexivity].
  destruct (find_sub v (subs s)); reflexivity.
Qed.
Lemma sgiven_update_none s u up v : u_given up = None -> sgiven (ad_subs_update s u up) v = sgiven s v.
Proof.
  intros H. rewrite sgiven_update, H. destruct (_ || _); [|reflexivity]. destruct (sgiven s v); reflexivity.
Qed.
Lemma swant_update_none s u up v : u_want up = None -> swant (ad_subs_update s u up) v = swant s v.
Proof.
  intros H. rewrite swant_update, H. destruct (_ || _); [|reflexivity]. destruct (swant s v); reflexivity.
Qed.
Lemma sgiven_delete s u s' v : ad_subs_delete s u = Some s' -> sgiven s' v = sgiven s v.
Proof.
  intros H. unfold sgiven. rewrite (find_sub_delete _ _ _ v H).
  destruct (N.eqb v u); [|reflexivity]. destruct (find_sub v (subs s)); reflexivity.
Qed.
Lemma swant_delete s u s' v : ad_subs_delete s u = Some s' -> swant s' v = swant s v.
Proof.
  intros H. unfold swant. rewrite (find_sub_delete _ _ _ v H).
  destruct (N.eqb v u); [|reflexivity]. destruct (find_sub v (subs s)); reflexivity.
Qed.
Lemma sgiven_owner s u v : sgiven (st_owner u s) v = sgiven s v. Proof. reflexivity. Qed.
Lemma swant_owner s u v : swant (st_owner u s) v = swant s v. Proof. reflexivity. Qed.

(* ---------- cache entries ---------- *)
Lemma member_aset c u p v : member (c_set_users (aset u p) c) v = N.eqb v u || member c v.
Proof. unfold member. cbn [c_users c_set_users]. rewrite alookup_aset. destruct (N.eqb v u); reflexivity. Qed.

Lemma cg_aset c u p v : cgiven (c_set_users (aset u p) c) v = if N.eqb v u then Some (p_given p) else cgiven c v.
Proof. unfold cgiven. cbn [c_users c_set_users]. rewrite alookup_aset. destruct (N.eqb v u); reflexivity. Qed.
Lemma cw_aset c u p v : cwant (c_set_users (aset u p) c) v = if N.eqb v u then Some (p_want p) else cwant c v.
Proof. unfold cwant. cbn [c_users c_set_users]. rewrite alookup_aset. destruct (N.eqb v u); reflexivity. Qed.

Lemma cg_member c u : member c u = match cgiven c u with Some _ => true | None => false end.
Proof. unfold member, cgiven. destruct (alookup u (c_users c)); reflexivity. Qed.

(* evictUser: entries keep their modes; with unsub the user's entry goes *)
Lemma evict_owner c u b k c' o : evict_user c u b k = (c', o) -> c_owner c' = c_owner c /\ c_auth c' = c_auth c.
Proof. unfold evict_user. intros H. inv H. destruct b; [split; reflexivity|]. destruct (alookup u _); split; reflexivity. Qed.
Lemma evict_sess c u b k c' o : evict_user c u b k = (c', o) ->
  c_sess c' = filter (fun e => negb (N.eqb (fst (snd e)) u)) (c_sess c).
Proof. unfold evict_user. intros H. inv H. destruct b; [reflexivity|]. destruct (alookup u _); reflexivity. Qed.
Lemma evict_cgiven c u b k c' o v : evict_user c u b k = (c', o) ->
  cgiven c' v = if N.eqb v u && b then None else cgiven c v.
Proof.
  intros H. unfold cgiven. rewrite (evict_lookup _ _ _ _ _ _ v H).
  destruct (N.eqb v u), b; cbn; try reflexivity. destruct (alookup v (c_users c)); reflexivity.
Qed.
Lemma evict_cwant c u b k c' o v : evict_user c u b k = (c', o) ->
  cwant c' v = if N.eqb v u && b then None else cwant c v.
Proof.
  intros H. unfold cwant. rewrite (evict_lookup _ _ _ _ _ _ v H).
  destruct (N.eqb v u), b; cbn; try reflexivity. destruct (alookup v (c_users c)); reflexivity.
Qed.

(* ---------- thisUserSub: what the sanity checks allow ---------- *)
Definition given_step (oldg mw g1 : N) : Prop :=
  g1 = oldg
  \/ (is_owner oldg = true /\ is_owner mw = true /\ g1 = N.lor oldg mw)
  \/ (is_owner oldg = false /\ is_admin oldg = true /\ is_owner mw = false /\ g1 = N.lor oldg (N.ldiff mw mD)).

Lemma tus_chk_spec c u mw oldw oldg mw1 g1 oc :
  tus_chk c u mw oldw oldg = Some (mw1, g1, oc) ->
  mw1 = mw /\ given_step oldg mw g1 /\
  (oc = true -> is_owner oldg = true /\ is_owner oldw = false /\ is_owner mw = true) /\
  (c_owner c = u -> (mw =? ModeUnset)%N = false -> is_owner mw = true /\ is_joiner mw = true).
Proof.
  unfold tus_chk, given_step. intros H.
  destruct (mw =? ModeUnset)%N eqn:EU.
  { injection H as E1 E2 E3. subst mw1 g1 oc. repeat split; auto; discriminate. }
  destruct (N.eqb (c_owner c) u && (negb (is_owner mw) || negb (is_joiner mw))) eqn:EO; [discriminate|].
  assert (c_owner c = u -> false = false -> is_owner mw = true /\ is_joiner mw = true) as HO.
  { intros E _. subst u. rewrite N.eqb_refl in EO. cbn in EO.
    destruct (is_owner mw), (is_joiner mw); cbn in EO; try discriminate. split; reflexivity. }
  destruct (is_owner oldg) eqn:EG.
  - injection H as E1 E2 E3. subst mw1 g1 oc. split; [reflexivity|]. split; [|split; [|exact HO]].
    + destruct (is_owner mw) eqn:EM; cbn; [|left; reflexivity].
      destruct (better_equal oldg mw); cbn; [left; reflexivity|right; left; auto].
    + intros Hoc. apply andb_prop in Hoc. destruct Hoc as [A B]. apply negb_true_iff in B. auto.
  - destruct (is_owner mw) eqn:EM; [discriminate|].
    destruct (is_admin oldg && is_admin mw) eqn:EA; injection H as E1 E2 E3; subst mw1 g1 oc.
    + split; [reflexivity|]. split; [|split; [discriminate|exact HO]].
      apply andb_prop in EA. destruct EA as [A _].
      destruct (better_equal oldg (N.ldiff mw mD)); cbn; [left; reflexivity|right; right; auto].
    + split; [reflexivity|]. split; [left; reflexivity|]. split; [discriminate|exact HO].
Qed.

(* the cache part of the ownership bookkeeping *)
Definition owner_sane (c : cache) : Prop :=
  c_owner c <> 0%N /\ exists p, alookup (c_owner c) (c_users c) = Some p /\ is_owner (pud_mode p) = true.

Lemma is_owner_land a b : is_owner (N.land a b) = true -> is_owner a = true /\ is_owner b = true.
Proof.
  unfold is_owner, has. intros H. apply negb_true_iff in H. apply N.eqb_neq in H.
  split; apply negb_true_iff; apply N.eqb_neq; intros E; apply H.
  - rewrite <- N.land_assoc, (N.land_comm b), N.land_assoc, E. apply N.land_0_l.
  - rewrite <- N.land_assoc, E. apply N.land_0_r.
Qed.

(* the four writer laws for a request of [a] about himself, from (s, c) to (s', c') *)
Definition own_laws (c : cache) (s : store) (a : N) (s' : store) (c' : cache) : Prop :=
  (forall v, sgiven s' v = sgiven s v \/ exists g', sgiven s' v = Some g' /\ own_given_just c s a v g') /\
  (forall v, swant s' v = swant s v \/ exists w', swant s' v = Some w' /\ own_want_just c a v w') /\
  (forall v g', cgiven c' v = Some g' -> cgiven c v = Some g' \/ own_given_just c s a v g') /\
  (forall v w', cwant c' v = Some w' -> cwant c v = Some w' \/ own_want_just c a v w').

Lemma own_laws_refl c s a : own_laws c s a s c.
Proof. repeat split; auto. Qed.

Ltac eqb_cases v u :=
  let E := fresh "E" in destruct (N.eqb v u) eqn:E; [apply N.eqb_eq in E; subst|apply N.eqb_neq in E].

Lemma tus_new_laws f s c n u mw nb :
  alookup u (c_users c) = None ->
  own_laws c s u (h_st (fst (tus_new f s c n u mw nb))) (h_ca (fst (tus_new f s c n u mw nb))).
Proof.
  intros Hnone. unfold tus_new.
  assert (member c u = false) as Hm by (unfold member; rewrite Hnone; reflexivity).
  set (prev := ad_sub_get s u true).
  set (given := if ((match prev with Some r => s_given r | None => ModeUnset end) =? ModeUnset)%N then c_auth c
                else match prev with Some r => s_given r | None => ModeUnset end).
  assert (own_given_just c s u u given) as HG.
  { left. split; [reflexivity|]. split; [exact Hm|]. subst given.
    destruct (_ =? ModeUnset)%N eqn:EU; [left; reflexivity|]. right.
    subst prev. unfold ad_sub_get in *. destruct (find_sub u (subs s)) eqn:E.
    - rewrite andb_false_r. exists s0. split; reflexivity.
    - discriminate EU. }
  set (wantm := if (mw =? ModeUnset)%N then c_auth c else N.ldiff mw mO).
  destruct (max_subs <=? _); [apply own_laws_refl|].
  destruct (call f n) as [ok1 n1]. destruct (negb ok1); [apply own_laws_refl|].
  destruct (negb (is_joiner given)); [apply own_laws_refl|].
  set (nc := match prev with Some r => s_deleted r | None => true end).
  destruct (if nc then call f n1 else (true, n1)) as [ok2 n2]. destruct (negb ok2); [apply own_laws_refl|].
  set (s2 := if nc then ad_sub_create s u wantm given else s).
  set (c2 := c_set_users (aset u (mkPud wantm given 0 0 0 0)) c).
  assert (own_laws c s u s2 c2) as L.
  { repeat split.
    - intros v. subst s2. destruct nc; [|left; reflexivity]. rewrite sgiven_create.
      eqb_cases v u; [right; eauto|left; reflexivity].
    - intros v. subst s2. destruct nc; [|left; reflexivity]. rewrite swant_create.
      eqb_cases v u; [right; eexists; split; [reflexivity|left; reflexivity]|left; reflexivity].
    - intros v g'. subst c2. rewrite cg_aset.
      eqb_cases v u; cbn; [intros H; inv H; right; exact HG|auto].
    - intros v w'. subst c2. rewrite cw_aset.
      eqb_cases v u; cbn; [intros H; right; left; reflexivity|auto]. }
  destruct (negb (is_joiner wantm)); [|exact L].
  destruct (evict_user c2 u false 0) as [c3 o3] eqn:EV. cbn [fst h_st h_ca].
  destruct L as [L1 [L2 [L3 L4]]]. repeat split; auto.
  - intros v g'. rewrite (evict_cgiven _ _ _ _ _ _ v EV). rewrite andb_false_r. apply L3.
  - intros v w'. rewrite (evict_cwant _ _ _ _ _ _ v EV). rewrite andb_false_r. apply L4.
Qed.

Lemma tus_finish_res u w1 g1 oldw oldg nb s3 c3 n3 :
  let r := fst (tus_finish u w1 g1 oldw oldg nb s3 c3 n3) in
  h_st r = s3 /\
  (forall v, cgiven (h_ca r) v = if N.eqb v u then Some g1 else cgiven c3 v) /\
  (forall v, cwant (h_ca r) v = if N.eqb v u then Some w1 else cwant c3 v) /\
  c_owner (h_ca r) = c_owner c3.
Proof.
  unfold tus_finish.
  set (c4 := c_set_users (aset u (p_set_modes w1 g1 (get_pud c3 u))) c3).
  assert (forall v, cgiven c4 v = if N.eqb v u then Some g1 else cgiven c3 v) as G4.
  { intros v. subst c4. apply cg_aset. }
  assert (forall v, cwant c4 v = if N.eqb v u then Some w1 else cwant c3 v) as W4.
  { intros v. subst c4. apply cw_aset. }
  destruct (negb (is_joiner w1)).
  - destruct (evict_user c4 u false 0) as [c5 o5] eqn:EV. cbn [fst h_st h_ca].
    split; [reflexivity|]. split; [|split].
    + intros v. rewrite (evict_cgiven _ _ _ _ _ _ v EV), andb_false_r. apply G4.
    + intros v. rewrite (evict_cwant _ _ _ _ _ _ v EV), andb_false_r. apply W4.
    + apply evict_owner in EV. destruct EV as [EV _]. rewrite EV. reflexivity.
  - destruct (negb (is_joiner g1)); cbn [fst h_st h_ca]; repeat split; auto.
Qed.

Lemma tus_exist_laws f s c n u mw p0 nb :
  alookup u (c_users c) = Some p0 -> u <> 0%N -> owner_sane c ->
  own_laws c s u (h_st (fst (tus_exist f s c n u mw p0 nb))) (h_ca (fst (tus_exist f s c n u mw p0 nb))).
Proof.
  intros Hu Hnz [Hoz [po [Hpo Hoo]]]. unfold tus_exist.
  destruct (tus_chk c u mw (p_want p0) (p_given p0)) as [[[mw1 g1] oc]|] eqn:EC; [|apply own_laws_refl].
  apply tus_chk_spec in EC. destruct EC as [-> [HGS [HOC _]]].
  set (oldw := p_want p0) in *. set (oldg := p_given p0) in *.
  set (w1 := tus_w1 c u mw g1 oldw).
  assert (cgiven c u = Some oldg) as CGu by (unfold cgiven; rewrite Hu; reflexivity).
  assert (cwant c u = Some oldw) as CWu by (unfold cwant; rewrite Hu; reflexivity).
  (* the new grant of [u] is the old one or justified *)
  assert (g1 = oldg \/ own_given_just c s u u g1) as HG1.
  { destruct HGS as [E|[[A [B C]]|[A [B [C D]]]]]; [left; exact E|right|right].
    - right. right. left. split; [reflexivity|]. exists p0, mw. auto.
    - right. left. split; [reflexivity|]. exists p0, mw. repeat split; auto. }
  set (upd := mkUpd (if (w1 =? oldw)%N then None else Some w1) (if (g1 =? oldg)%N then None else Some g1) None None None).
  set (need := negb ((w1 =? oldw)%N && (g1 =? oldg)%N)).
  destruct (if need then call f n else (true, n)) as [ok1 n1]. destruct (negb ok1); [apply own_laws_refl|].
  set (s1 := if need then ad_subs_update s u upd else s).
  assert (forall v, sgiven s1 v = sgiven s v \/ exists g', sgiven s1 v = Some g' /\ own_given_just c s u v g') as S1G.
  { intros v. subst s1. destruct need; [|left; reflexivity]. rewrite sgiven_update.
    replace (u =? 0)%N with false by (symmetry; apply N.eqb_neq; exact Hnz). cbn [orb].
    eqb_cases v u; [|left; reflexivity]. destruct (sgiven s u) as [g0|]; [|left; reflexivity]. cbn.
    subst upd. cbn [u_given]. destruct (g1 =? oldg)%N eqn:EG; cbn; [left; reflexivity|].
    destruct HG1 as [E|J]; [subst g1; rewrite N.eqb_refl in EG; discriminate|right; eauto]. }
  assert (forall v, swant s1 v = swant s v \/ exists w', swant s1 v = Some w' /\ own_want_just c u v w') as S1W.
  { intros v. subst s1. destruct need; [|left; reflexivity]. rewrite swant_update.
    replace (u =? 0)%N with false by (symmetry; apply N.eqb_neq; exact Hnz). cbn [orb].
    eqb_cases v u; [|left; reflexivity]. destruct (swant s u) as [w0|]; [|left; reflexivity]. cbn.
    right. eexists. split; [reflexivity|left; reflexivity]. }
  destruct oc.
  - (* ownership transfer *)
    destruct (HOC eq_refl) as [OG [OW OM]].
    assert (pending_transferee c u) as PT by (exists p0; auto).
    assert (c_owner c <> u) as Hne.
    { intros E. rewrite E in Hpo. rewrite Hu in Hpo. inv Hpo. unfold pud_mode in Hoo.
      apply is_owner_land in Hoo. destruct Hoo as [_ B]. fold oldw in B. congruence. }
    set (prev := c_owner c) in *. set (pp := get_pud c prev).
    set (pw := N.ldiff (p_want pp) mO). set (pg := N.ldiff (p_given pp) mO).
    assert (own_given_just c s u prev pg) as JG.
    { right. right. right. repeat split; auto. }
    assert (own_want_just c u prev pw) as JW.
    { right. repeat split; auto. }
    destruct (call f n1) as [ok2 n2]. destruct (negb ok2).
    { cbn [fst h_st h_ca]. repeat split; auto. }
    set (s2 := ad_subs_update s1 prev (mkUpd (Some pw) (Some pg) None None None)).
    assert (forall v, sgiven s2 v = sgiven s v \/ exists g', sgiven s2 v = Some g' /\ own_given_just c s u v g') as S2G.
    { intros v. subst s2. rewrite sgiven_update.
      replace (prev =? 0)%N with false by (symmetry; apply N.eqb_neq; exact Hoz). cbn [orb].
      eqb_cases v prev; [|apply S1G]. cbn [u_given oset].
      destruct (S1G prev) as [E|[g' [E _]]]; rewrite E.
      - destruct (sgiven s prev); cbn; [right; eauto|left; reflexivity].
      - cbn. right. eauto. }
    assert (forall v, swant s2 v = swant s v \/ exists w', swant s2 v = Some w' /\ own_want_just c u v w') as S2W.
    { intros v. subst s2. rewrite swant_update.
      replace (prev =? 0)%N with false by (symmetry; apply N.eqb_neq; exact Hoz). cbn [orb].
      eqb_cases v prev; [|apply S1W]. cbn [u_want oset].
      destruct (S1W prev) as [E|[w' [E _]]]; rewrite E.
      - destruct (swant s prev); cbn; [right; eauto|left; reflexivity].
      - cbn. right. eauto. }
    destruct (call f n2) as [ok3 n3]. destruct (negb ok3).
    { cbn [fst h_st h_ca]. repeat split; auto. }
    set (c3 := c_set_owner u (c_set_users (aset prev (p_set_modes pw pg pp)) c)).
    destruct (tus_finish_res u w1 g1 oldw oldg nb (st_owner u s2) c3 n3) as [R1 [R2 [R3 _]]].
    rewrite R1. split; [exact S2G|]. split; [exact S2W|]. split.
    + intros v g'. rewrite R2. eqb_cases v u.
      * intros H. inv H. destruct HG1 as [E|J]; [left; congruence|right; exact J].
      * subst c3. unfold cgiven. cbn [c_users c_set_users c_set_owner]. rewrite alookup_aset.
        eqb_cases v prev; cbn; [intros H; inv H; right; exact JG|auto].
    + intros v w'. rewrite R3. eqb_cases v u.
      * intros _. right. left. reflexivity.
      * subst c3. unfold cwant. cbn [c_users c_set_users c_set_owner]. rewrite alookup_aset.
        eqb_cases v prev; cbn; [intros H; inv H; right; exact JW|auto].
  - destruct (tus_finish_res u w1 g1 oldw oldg nb s1 c n1) as [R1 [R2 [R3 _]]].
    rewrite R1. split; [exact S1G|]. split; [exact S1W|]. split.
    + intros v g'. rewrite R2. eqb_cases v u; [|auto].
      intros H. inv H. destruct HG1 as [E|J]; [left; congruence|right; exact J].
    + intros v w'. rewrite R3. eqb_cases v u; [|auto]. intros _. right. left. reflexivity.
Qed.

Lemma tus_laws f s c n u want nb :
  u <> 0%N -> owner_sane c ->
  own_laws c s u (h_st (fst (tus f s c n u want nb))) (h_ca (fst (tus f s c n u want nb))).
Proof.
  intros Hnz Hos. unfold tus. destruct (tus_mw want) as [mw okw]. destruct (negb okw); [apply own_laws_refl|].
  destruct (alookup u (c_users c)) eqn:E; [apply tus_exist_laws; auto|apply tus_new_laws; auto].
Qed.

(* ---------- anotherUserSub ---------- *)
Definition other_laws (c : cache) (s : store) (a t : N) (s' : store) (c' : cache) : Prop :=
  (forall v, sgiven s' v = sgiven s v \/ exists g', sgiven s' v = Some g' /\ v = t /\ other_given_just c a v g') /\
  (forall v, swant s' v = swant s v \/ exists w', swant s' v = Some w' /\ v = t /\ other_want_just c s a v w') /\
  (forall v g', cgiven c' v = Some g' -> cgiven c v = Some g' \/ (v = t /\ other_given_just c a v g')) /\
  (forall v w', cwant c' v = Some w' -> cwant c v = Some w' \/ (v = t /\ other_want_just c s a v w')).
Lemma other_laws_refl c s a t : other_laws c s a t s c.
Proof. repeat split; auto. Qed.

Lemma other_laws_evict c s a t s' c1 u k c' o :
  other_laws c s a t s' c1 -> evict_user c1 u false k = (c', o) -> other_laws c s a t s' c'.
Proof.
  intros [L1 [L2 [L3 L4]]] EV. repeat split; auto.
  - intros v g'. rewrite (evict_cgiven _ _ _ _ _ _ v EV), andb_false_r. apply L3.
  - intros v w'. rewrite (evict_cwant _ _ _ _ _ _ v EV), andb_false_r. apply L4.
Qed.

Lemma aus_laws f s c n u t mode :
  t <> 0%N ->
  other_laws c s u t (h_st (fst (aus f s c n u t mode))) (h_ca (fst (aus f s c n u t mode))).
Proof.
  intros Htz. unfold aus.
  destruct (alookup u (c_users c)) as [hp|] eqn:Eh; [|apply other_laws_refl].
  assert (member c u = true) as Hmem by (unfold member; rewrite Eh; reflexivity).
  assert (user_mode c u = pud_mode hp) as Hum by (unfold user_mode, get_pud; rewrite Eh; reflexivity).
  destruct (negb (is_sharer (pud_mode hp))) eqn:ES; [apply other_laws_refl|].
  apply negb_false_iff in ES.
  destruct (tus_mw mode) as [mg okg]. destruct (negb okg); [apply other_laws_refl|].
  destruct (negb (mg =? ModeUnset)%N && negb (is_admin (pud_mode hp))) eqn:EA; [apply other_laws_refl|].
  destruct (is_owner mg && negb (N.eqb (c_owner c) u)) eqn:EO; [apply other_laws_refl|].
  assert ((mg =? ModeUnset)%N = false -> is_admin (user_mode c u) = true) as HA.
  { intros E. rewrite E in EA. cbn in EA. apply negb_false_iff in EA. rewrite Hum. exact EA. }
  assert (is_owner mg = true -> c_owner c = u) as HO.
  { intros E. rewrite E in EO. cbn in EO. apply negb_false_iff in EO. apply N.eqb_eq in EO. exact EO. }
  destruct (alookup t (c_users c)) as [pt|] eqn:Et.
  - (* existing subscription of the target *)
    unfold aus_exist.
    destruct ((mg =? ModeUnset)%N || (mg =? p_given pt)%N) eqn:ESame.
    { destruct (negb (is_joiner (p_given pt))); [|apply other_laws_refl].
      destruct (evict_user c t false 0) as [c4 o4] eqn:EV. cbn [fst h_st h_ca].
      eapply other_laws_evict; [apply other_laws_refl|exact EV]. }
    apply orb_false_iff in ESame. destruct ESame as [EU _].
    destruct (N.eqb (c_owner c) t && _); [apply other_laws_refl|].
    destruct (call f n) as [ok1 n1]. destruct (negb ok1); [apply other_laws_refl|].
    assert (other_given_just c u t mg) as JG.
    { split; [exact Hmem|]. left. split; [apply HA; exact EU|exact HO]. }
    set (s1 := ad_subs_update s t (mkUpd None (Some mg) None None None)).
    set (c1 := c_set_users (aset t (p_set_modes (p_want pt) mg pt)) c).
    assert (other_laws c s u t s1 c1) as L.
    { repeat split.
      - intros v. subst s1. rewrite sgiven_update.
        replace (t =? 0)%N with false by (symmetry; apply N.eqb_neq; exact Htz). cbn [orb].
        eqb_cases v t; [|left; reflexivity]. destruct (sgiven s t); cbn; [right; eauto|left; reflexivity].
      - intros v. left. subst s1. apply swant_update_none. reflexivity.
      - intros v g'. subst c1. rewrite cg_aset.
        eqb_cases v t; cbn; [intros H; inv H; right; auto|auto].
      - intros v w'. subst c1. rewrite cw_aset.
        eqb_cases v t; cbn; [|auto]. intros H. inv H. left. unfold cwant. rewrite Et. reflexivity. }
    destruct (negb (is_joiner mg)); [|exact L].
    destruct (evict_user c1 t false 0) as [c4 o4] eqn:EV. cbn [fst h_st h_ca].
    eapply other_laws_evict; [exact L|exact EV].
  - (* invitation *)
    assert (member c t = false) as Hnm by (unfold member; rewrite Et; reflexivity).
    unfold aus_new.
    destruct (max_subs <=? _); [apply other_laws_refl|].
    set (given := if (mg =? ModeUnset)%N then N.lor (c_auth c) mJ else mg).
    assert (other_given_just c u t given) as JG.
    { split; [exact Hmem|]. subst given. destruct (mg =? ModeUnset)%N eqn:EU.
      - right. rewrite Hum. auto.
      - left. split; [apply HA; reflexivity|exact HO]. }
    destruct (call f n) as [ok1 n1]. destruct (negb ok1); [apply other_laws_refl|].
    set (wres := match ad_sub_get s t true with
                 | Some r => (n1, Some (inr (s_want r)))
                 | None => let '(ok2, n2) := call f n1 in
                           if negb ok2 then (n2, Some (inl 500)) else
                           match alookup t (users s) with
                           | None => (n2, Some (inl 404))
                           | Some acc => (n2, Some (inr (N.land acc given)))
                           end
                 end).
    assert (forall n2 wantm, wres = (n2, Some (inr wantm)) -> other_want_just c s u t wantm) as JW.
    { intros n2 wantm H. split; [exact Hmem|]. split; [rewrite Hum; exact ES|]. split; [exact Hnm|].
      subst wres. unfold ad_sub_get in H.
      destruct (find_sub t (subs s)) eqn:EF.
      - cbn [negb] in H. rewrite andb_false_r in H. inv H. right. eauto.
      - destruct (call f n1) as [ok2 n2']. destruct (negb ok2); [discriminate|].
        destruct (alookup t (users s)) eqn:EU; inv H. left. eauto. }
    destruct wres as [n2 [[code|wantm]|]] eqn:EW; try apply other_laws_refl.
    specialize (JW _ _ eq_refl).
    destruct (negb (is_joiner wantm)); [apply other_laws_refl|].
    destruct (call f n2) as [ok3 n3]. destruct (negb ok3); [apply other_laws_refl|].
    set (s3 := ad_sub_create s t wantm given).
    set (c3 := c_set_users (aset t (mkPud wantm given 0 0 0 0)) c).
    assert (other_laws c s u t s3 c3) as L.
    { repeat split.
      - intros v. subst s3. rewrite sgiven_create. eqb_cases v t; [right; eauto|left; reflexivity].
      - intros v. subst s3. rewrite swant_create. eqb_cases v t; [right; eauto|left; reflexivity].
      - intros v g'. subst c3. rewrite cg_aset.
        eqb_cases v t; cbn; [intros H; inv H; right; auto|auto].
      - intros v w'. subst c3. rewrite cw_aset.
        eqb_cases v t; cbn; [intros H; inv H; right; auto|auto]. }
    destruct (negb (is_joiner given)); [|exact L].
    destruct (evict_user c3 t false 0) as [c4 o4] eqn:EV. cbn [fst h_st h_ca].
    eapply other_laws_evict; [exact L|exact EV].
Qed.

(* ---------- requests that do not touch permissions ---------- *)
Definition acl_same (s s' : store) : Prop := forall v, sgiven s' v = sgiven s v /\ swant s' v = swant s v.
(* cache entries keep their modes or disappear *)
Definition no_sess (c : cache) (v : N) : Prop := forall sid b, ~ In (sid, (v, b)) (c_sess c).
Definition cacl_shrink (c c' : cache) : Prop :=
  incl (c_sess c') (c_sess c) /\
  forall v, (cgiven c' v = cgiven c v /\ cwant c' v = cwant c v) \/
            (cgiven c' v = None /\ cwant c' v = None /\ no_sess c' v).
Lemma acl_same_refl s : acl_same s s. Proof. split; reflexivity. Qed.
Lemma cacl_shrink_refl c : cacl_shrink c c. Proof. split; [apply incl_refl|]. left. split; reflexivity. Qed.
Lemma acl_same_trans a b c : acl_same a b -> acl_same b c -> acl_same a c.
Proof. intros H1 H2 v. destruct (H1 v), (H2 v). split; congruence. Qed.
Lemma cacl_shrink_trans a b c : cacl_shrink a b -> cacl_shrink b c -> cacl_shrink a c.
Proof.
  intros [I1 H1] [I2 H2]. split; [eapply incl_tran; eauto|]. intros v.
  destruct (H2 v) as [[A B]|[A [B N]]]; [|right; auto].
  destruct (H1 v) as [[C D]|[C [D N]]]; [left; split; congruence|right].
  split; [congruence|]. split; [congruence|]. intros sid b' HI. apply (N sid b'). apply I2. exact HI.
Qed.

Lemma acl_same_update_marks s u a b d : acl_same s (ad_subs_update s u (mkUpd None None a b d)).
Proof. intros v. split; [apply sgiven_update_none|apply swant_update_none]; reflexivity. Qed.
Lemma acl_same_subs_delete s u s' : ad_subs_delete s u = Some s' -> acl_same s s'.
Proof. intros H v. split; [eapply sgiven_delete|eapply swant_delete]; eauto. Qed.
Lemma acl_same_msgs s f : acl_same s (st_msgs f s). Proof. intros v. split; reflexivity. Qed.
Lemma acl_same_seqid s z : acl_same s (st_seqid z s). Proof. intros v. split; reflexivity. Qed.
Lemma acl_same_delid s z : acl_same s (st_delid z s). Proof. intros v. split; reflexivity. Qed.
Lemma acl_same_dellog s f : acl_same s (st_dellog f s). Proof. intros v. split; reflexivity. Qed.
Lemma acl_same_msg_save s q a b s' : ad_msg_save s q a b = Some s' -> acl_same s s'.
Proof. unfold ad_msg_save. destruct (existsb _ _); intros H; inv H. apply acl_same_msgs. Qed.
Lemma acl_same_delete_list s d fu rs : acl_same s (ad_msg_delete_list s d fu rs).
Proof. unfold ad_msg_delete_list. destruct (fu =? 0)%N; intros v; split; reflexivity. Qed.

Lemma cacl_sess c f : incl (f (c_sess c)) (c_sess c) -> cacl_shrink c (c_set_sess f c).
Proof. intros I. split; [exact I|]. intros v. left. split; reflexivity. Qed.
Lemma cacl_lastid c z : cacl_shrink c (c_set_lastid z c). Proof. split; [apply incl_refl|]. intros v. left. split; reflexivity. Qed.
Lemma cacl_delid c z : cacl_shrink c (c_set_delid z c). Proof. split; [apply incl_refl|]. intros v. left. split; reflexivity. Qed.
Lemma cacl_aset_same c u p p' :
  alookup u (c_users c) = Some p -> p_want p' = p_want p -> p_given p' = p_given p ->
  cacl_shrink c (c_set_users (aset u p') c).
Proof.
  intros H W G. split; [apply incl_refl|]. intros v. left. unfold cgiven, cwant. cbn [c_users c_set_users]. rewrite alookup_aset.
  eqb_cases v u; [rewrite H; cbn; split; congruence|split; reflexivity].
Qed.
Lemma cacl_evict c u b k c' o : evict_user c u b k = (c', o) -> cacl_shrink c c'.
Proof.
  intros EV. split; [rewrite (evict_sess _ _ _ _ _ _ EV); apply incl_filter|].
  intros v. rewrite (evict_cgiven _ _ _ _ _ _ v EV), (evict_cwant _ _ _ _ _ _ v EV).
  destruct (N.eqb v u && b) eqn:E; [right|left; split; reflexivity].
  split; [reflexivity|]. split; [reflexivity|]. intros sid b' HI.
  rewrite (evict_sess _ _ _ _ _ _ EV) in HI. apply filter_In in HI. destruct HI as [_ HI]. cbn in HI.
  apply andb_prop in E. destruct E as [E _]. rewrite E in HI. discriminate.
Qed.
Lemma cacl_map_delid c d : cacl_shrink c (c_set_users (map (fun e => (fst e, p_set_delid d (snd e)))) c).
Proof.
  split; [apply incl_refl|]. intros v. left. unfold cgiven, cwant. cbn [c_users c_set_users]. rewrite alookup_map.
  destruct (alookup v (c_users c)); split; reflexivity.
Qed.

Definition hsame (s : store) (c : cache) (h : hres) : Prop := acl_same s (h_st h) /\ cacl_shrink c (h_ca h).

Lemma publish_same f s c n sid u ct ne : hsame s c (publish f s c n sid u ct ne).
Proof.
  unfold publish, hsame.
  destruct (negb (is_writer _)) eqn:EW; [split; [apply acl_same_refl|apply cacl_shrink_refl]|].
  destruct (call f n) as [ok1 n1]. destruct (negb ok1); [split; [apply acl_same_refl|apply cacl_shrink_refl]|].
  destruct (call f n1) as [ok2 n2]. destruct (negb ok2); [split; [apply acl_same_seqid|apply cacl_shrink_refl]|].
  destruct (ad_msg_save _ _ _ _) as [s2|] eqn:ES; [|split; [apply acl_same_seqid|apply cacl_shrink_refl]].
  destruct (if is_reader _ then call f n2 else (true, n2)) as [ok3 n3]. cbn [h_st h_ca].
  split.
  - eapply acl_same_trans; [apply acl_same_seqid|]. eapply acl_same_trans; [eapply acl_same_msg_save; exact ES|].
    destruct (is_reader _ && ok3); [apply acl_same_update_marks|apply acl_same_refl].
  - destruct (alookup u (c_users c)) eqn:E; [|apply cacl_lastid].
    eapply cacl_shrink_trans; [apply cacl_lastid|].
    apply cacl_aset_same with (p := p); [exact E| |]; unfold get_pud; rewrite E; reflexivity.
Qed.

Lemma note_same f s c n sid u what seq : hsame s c (note f s c n sid u what seq).
Proof.
  unfold note, hsame. pose proof (acl_same_refl s) as R1. pose proof (cacl_shrink_refl c) as R2.
  destruct (c_lastid c <? seq); [auto|].
  destruct (N.eqb what K_kp). { destruct (negb _); auto. }
  destruct (N.eqb what K_read || N.eqb what K_recv); [|auto].
  destruct (negb (is_reader (pud_mode (get_pud c u)))) eqn:ER; [auto|].
  apply negb_false_iff in ER. apply get_pud_has in ER.
  destruct (_ && _); [auto|]. destruct (_ && _); [auto|].
  destruct (call f n) as [ok1 n1]. destruct (negb ok1); [auto|]. cbn [h_st h_ca]. split.
  - destruct (N.eqb what K_read); apply acl_same_update_marks.
  - apply cacl_aset_same with (p := get_pud c u); auto.
Qed.

Lemma get_data_same f s c n sid u a b l : hsame s c (get_data f s c n sid u a b l).
Proof.
  unfold get_data, hsame. repeat break_match; cbn [h_st h_ca]; split; try apply acl_same_refl; apply cacl_shrink_refl.
Qed.
Lemma get_desc_same s c n sid u : hsame s c (get_desc s c n sid u).
Proof.
  unfold get_desc, hsame. repeat break_match; cbn [h_st h_ca]; split; try apply acl_same_refl; apply cacl_shrink_refl.
Qed.
Lemma get_sub_same f s c n sid u : hsame s c (get_sub f s c n sid u).
Proof.
  unfold get_sub, hsame. repeat break_match; cbn [h_st h_ca]; split; try apply acl_same_refl; apply cacl_shrink_refl.
Qed.
Lemma get_del_same nr f s c n sid u a b l : hsame s c (get_del nr f s c n sid u a b l).
Proof.
  unfold get_del, hsame. repeat break_match; cbn [h_st h_ca]; split; try apply acl_same_refl; apply cacl_shrink_refl.
Qed.

Lemma del_msg_same dr f s c n sid u req hard : hsame s c (del_msg dr f s c n sid u req hard).
Proof.
  unfold del_msg, hsame. pose proof (acl_same_refl s) as R1. pose proof (cacl_shrink_refl c) as R2.
  cbv zeta.
  destruct (negb (hard && is_deleter (user_mode c u)) && negb (is_reader (user_mode c u))) eqn:EP; [auto|].
  assert (alookup u (c_users c) = Some (get_pud c u)) as Hu.
  { apply andb_false_iff in EP. destruct EP as [E|E]; apply negb_false_iff in E.
    - apply andb_true_iff in E. destruct E as [_ E]. eapply get_pud_has; exact E.
    - eapply get_pud_has; exact E. }
  destruct (dr (c_lastid c) req) as [ranges|]; [|auto].
  destruct (call f n) as [ok1 n1]. destruct (negb ok1); [auto|].
  destruct (call f n1) as [ok2 n2]. destruct (negb ok2); [split; [apply acl_same_delete_list|auto]|].
  destruct (call f n2) as [ok3 n3].
  assert (acl_same s (st_delid (c_delid c + 1) (ad_msg_delete_list s (c_delid c + 1)
            (if hard && is_deleter (user_mode c u) then 0%N else u) ranges))) as A2.
  { eapply acl_same_trans; [apply acl_same_delete_list|apply acl_same_delid]. }
  destruct (negb ok3); [split; [exact A2|auto]|]. cbn [h_st h_ca]. split.
  - eapply acl_same_trans; [exact A2|apply acl_same_update_marks].
  - destruct (hard && is_deleter (user_mode c u)).
    + eapply cacl_shrink_trans; [apply cacl_delid|apply cacl_map_delid].
    + eapply cacl_shrink_trans; [apply cacl_delid|].
      apply cacl_aset_same with (p := get_pud c u); auto.
Qed.

(* replyDelSub / replyLeaveUnsub *)
Lemma unsub_same s c sid v h : unsub_spec s c sid v h -> hsame s c h.
Proof.
  intros [n' code _|s1 c1 n' code o1 k _ D EV]; split; cbn [h_st h_ca];
    [apply acl_same_refl|apply cacl_shrink_refl| |eapply cacl_evict; exact EV].
  destruct D as [D|[_ [-> _]]]; [eapply acl_same_subs_delete; exact D|apply acl_same_refl].
Qed.

Lemma leave_same c sid u : sess_members c -> cacl_shrink c (fst (leave c sid u)).
Proof.
  intros SM. unfold leave. destruct (alookup sid (c_sess c)) as [[su bkg]|] eqn:E; [|apply cacl_shrink_refl].
  cbn [fst]. apply alookup_in in E. apply SM in E. unfold member in E.
  cbn [c_users c_set_sess]. destruct (alookup su (c_users c)) as [p|] eqn:Ep; [|discriminate].
  destruct bkg; [apply cacl_sess; apply aremove_incl|].
  eapply cacl_shrink_trans; [apply cacl_sess; apply aremove_incl|]. apply cacl_aset_same with (p := p); auto.
Qed.

(* ---------- one request ---------- *)
Lemma tus_ok_member f s c n u want nb ch :
  snd (tus f s c n u want nb) = SubOk ch -> member (h_ca (fst (tus f s c n u want nb))) u = true.
Proof.
  intros E. pose proof (tus_shape f s c n 0%N u want nb) as SP.
  change (this_user_sub f s c n 0%N u want nb) with (tus f s c n u want nb) in SP. rewrite E in SP.
  apply tus_present in SP. unfold member. destruct (alookup u _); [reflexivity|contradiction].
Qed.

Lemma own_laws_cache_eq c s a s' c1 c2 :
  own_laws c s a s' c1 -> (forall v, cgiven c2 v = cgiven c1 v /\ cwant c2 v = cwant c1 v) -> own_laws c s a s' c2.
Proof.
  intros [L1 [L2 [L3 L4]]] H. repeat split; auto.
  - intros v g'. destruct (H v) as [E _]. rewrite E. apply L3.
  - intros v w'. destruct (H v) as [_ E]. rewrite E. apply L4.
Qed.

(* subscriptionReply: the store and the modes of every entry are as thisUserSub left them; the
   requester's session is attached when the reply says that he has joined *)
Lemma sub_reply_res f s c n sid u want bkg :
  let r := tus f s c n u want (match alookup u (c_users c) with Some _ => false | None => true end) in
  let h' := sub_reply f s c n sid u want bkg in
  h_st h' = h_st (fst r) /\
  (forall v, cgiven (h_ca h') v = cgiven (h_ca (fst r)) v /\ cwant (h_ca h') v = cwant (h_ca (fst r)) v) /\
  c_owner (h_ca h') = c_owner (h_ca (fst r)) /\
  (c_sess (h_ca h') = c_sess (h_ca (fst r)) \/
   exists ch, snd r = SubOk ch /\ match ch with Some (w, g) => is_joiner (N.land g w) | None => true end = true /\
              c_sess (h_ca h') = aset sid (u, bkg) (c_sess (h_ca (fst r)))).
Proof.
  cbv zeta. unfold sub_reply. rewrite tus_eq.
  set (nb := match alookup u (c_users c) with Some _ => false | None => true end).
  pose proof (tus_ok_member f s c n u want nb) as M.
  destruct (tus f s c n u want nb) as [h r]. cbn [fst snd] in *.
  destruct r as [code|ch]; cbn [h_st h_ca]; [repeat split; auto|].
  destruct (match ch with Some (w, g) => is_joiner (N.land g w) | None => true end) eqn:EJ; [|repeat split; auto].
  specialize (M ch eq_refl). unfold member in M.
  destruct bkg; (split; [reflexivity|]); (split; [|split; [reflexivity|right; eauto]]); intros v; [split; reflexivity|].
  rewrite cg_aset, cw_aset. unfold get_pud. cbn [c_users c_set_sess].
  destruct (alookup u (c_users (h_ca h))) as [p|] eqn:E; [|discriminate].
  eqb_cases v u; [|split; reflexivity]. unfold cgiven, cwant. rewrite E. split; reflexivity.
Qed.

Lemma sub_reply_laws f s c n sid u want bkg :
  u <> 0%N -> owner_sane c ->
  own_laws c s u (h_st (sub_reply f s c n sid u want bkg)) (h_ca (sub_reply f s c n sid u want bkg)).
Proof.
  intros Hnz Hos. destruct (sub_reply_res f s c n sid u want bkg) as [ES [EC _]]. cbv zeta in ES, EC. rewrite ES.
  eapply own_laws_cache_eq; [apply tus_laws; assumption|exact EC].
Qed.

Lemma set_sub_res f s c n sid u t mode :
  let h := set_sub f s c n sid u t mode in
  (if (t =? 0)%N || N.eqb t u
   then h_st h = h_st (fst (tus f s c n u mode false)) /\ h_ca h = h_ca (fst (tus f s c n u mode false))
   else h_st h = h_st (fst (aus f s c n u t mode)) /\ h_ca h = h_ca (fst (aus f s c n u t mode))).
Proof.
  unfold set_sub. rewrite tus_eq, aus_eq. destruct ((t =? 0)%N || N.eqb t u).
  - destruct (tus f s c n u mode false) as [h r]. destruct r as [code|ch]; split; reflexivity.
  - destruct (aus f s c n u t mode) as [h r]. destruct r as [code|ch]; split; reflexivity.
Qed.

Lemma offline_set_sub_laws f s sid u t mode :
  u <> 0%N ->
  let s' := o_st (offline_set_sub f s sid u t mode) in
  (forall v, sgiven s' v = sgiven s v) /\
  (forall v, swant s' v = swant s v \/ (v = u /\ (t = 0%N \/ t = u) /\ exists w', swant s' v = Some w')).
Proof.
  intros Hnz. unfold offline_set_sub. destruct mode as [|b mode']; [split; auto|].
  destruct (negb (t =? 0)%N && negb (N.eqb t u)) eqn:ET; [split; auto|].
  assert (t = 0%N \/ t = u) as HT.
  { apply andb_false_iff in ET. destruct ET as [E|E]; apply negb_false_iff in E; apply N.eqb_eq in E; auto. }
  destruct (call f 0) as [ok1 n1]. destruct (negb ok1); [split; auto|].
  destruct (ad_sub_get s u false) as [r|] eqn:EG; [|split; auto].
  assert (exists w0, swant s u = Some w0) as [w0 Hw0].
  { unfold ad_sub_get in EG. unfold swant. destruct (find_sub u (subs s)); [eexists; reflexivity|discriminate]. }
  destruct (unmarshal_text 0%N (b :: mode')) as [mw okw]. destruct (negb okw); [split; auto|].
  destruct (negb (Bool.eqb _ _)); [split; auto|]. destruct (mw =? s_want r)%N; [split; auto|].
  destruct (call f n1) as [ok2 n2]. destruct (negb ok2); [split; auto|]. cbn [o_st]. split.
  - intros v. apply sgiven_update_none. reflexivity.
  - intros v. rewrite swant_update.
    replace (u =? 0)%N with false by (symmetry; apply N.eqb_neq; exact Hnz). cbn [orb].
    eqb_cases v u; [|auto]. right. split; [reflexivity|]. split; [exact HT|]. rewrite Hw0. cbn. eauto.
Qed.

Section StepLaws.
Variable dr : Z -> list (Z * Z) -> option (list (Z * Z)).
Variable nr : list (Z * Z) -> list (Z * Z).
Variable sm : sessmap.

(* ---------- the cases of one request ---------- *)
(* the handlers that touch no subscription *)
Inductive quiet (f : fault) (s : store) (c : cache) : hres -> Prop :=
| q_publish n sid u ct ne : quiet f s c (publish f s c n sid u ct ne)
| q_note n sid u what seq : quiet f s c (note f s c n sid u what seq)
| q_get_data n sid u a b l : quiet f s c (get_data f s c n sid u a b l)
| q_get_desc n sid u : quiet f s c (get_desc s c n sid u)
| q_get_sub n sid u : quiet f s c (get_sub f s c n sid u)
| q_get_del n sid u a b l : quiet f s c (get_del nr f s c n sid u a b l)
| q_del_msg n sid u req hard : quiet f s c (del_msg dr f s c n sid u req hard).

Lemma quiet_same f s c h : quiet f s c h -> hsame s c h.
Proof.
  intros Q. destruct Q; [apply publish_same|apply note_same|apply get_data_same|apply get_desc_same|apply get_sub_same
                        |apply get_del_same|apply del_msg_same].
Qed.

(* a property of the state after request [o] holds when it holds of: the unchanged state, the
   unloaded topic, the result of a handler that touches no subscription, and the results of
   {sub}, {leave}, {set sub} (about oneself, about another user, not attached) and {del sub} *)
Lemma step_cases (P : state -> Prop) f x o :
  (forall n, P (mkState (st x) (ca x) n)) ->
  (forall n, P (mkState (st x) None n)) ->
  (forall c h, ca x = Some c -> quiet f (st x) c h -> P (mkState (h_st h) (Some (h_ca h)) (h_n h))) ->
  (forall sid want bkg, o = OSub sid want bkg ->
     let h := sub_reply f (st x) (view x) (match ca x with Some _ => 0 | None => 2 end) sid (sess_uid sm sid) want bkg in
     P (mkState (h_st h) (Some (h_ca h)) (h_n h))) ->
  (forall sid c a b, o = OLeave sid true -> ca x = Some c -> alookup sid (c_sess c) = Some (a, b) ->
     let h := leave_unsub f (st x) c 0 sid a in P (mkState (h_st h) (Some (h_ca h)) (h_n h))) ->
  (forall sid c a, o = OLeave sid false -> ca x = Some c -> P (mkState (st x) (Some (fst (leave c sid a))) 0)) ->
  (forall sid t mode c n, o = OSetSub sid t mode -> ca x = Some c -> t = 0%N \/ t = sess_uid sm sid ->
     let h := fst (tus f (st x) c 0 (sess_uid sm sid) mode false) in P (mkState (h_st h) (Some (h_ca h)) n)) ->
  (forall sid t mode c n, o = OSetSub sid t mode -> ca x = Some c -> t <> 0%N -> t <> sess_uid sm sid ->
     let h := fst (aus f (st x) c 0 (sess_uid sm sid) t mode) in P (mkState (h_st h) (Some (h_ca h)) n)) ->
  (forall sid t mode n, o = OSetSub sid t mode ->
     P (mkState (o_st (offline_set_sub f (st x) sid (sess_uid sm sid) t mode)) (ca x) n)) ->
  (forall sid t c, o = ODelSub sid t -> ca x = Some c ->
     let h := del_sub f (st x) c 0 sid (sess_uid sm sid) t in P (mkState (h_st h) (Some (h_ca h)) (h_n h))) ->
  P (fst (step dr nr sm f x o)).
Proof.
  intros KEEP UNL QUI SUB LVU LV SELF OTH OFF DEL. unfold step.
  assert (forall c sid (X Y : state * out), P (fst X) -> P (fst Y) ->
            P (fst (if negb (match Some c with Some c0 => attached c0 sid | None => false end) then X else Y))) as ATT
    by (intros c sid X Y HX HY; destruct (negb _); assumption).
  destruct o as [sid want bkg|sid unsub|sid ct ne|sid what seq|sid a b l|sid|sid|sid a b l|sid req hard|sid t mode|sid t| |];
    cbn [fst].
  - specialize (SUB sid want bkg eq_refl). unfold view in SUB. cbv zeta in SUB. destruct (ca x) as [c|] eqn:EC.
    + destruct (attached c sid); [apply KEEP|exact SUB].
    + unfold try_load, call. destruct (negb (negb (fails f 1))); [apply UNL|]. destruct (negb (t_exists (st x))); [apply UNL|].
      destruct (negb (negb (fails f 2))); [apply UNL|exact SUB].
  - destruct (ca x) as [c|] eqn:EC; [|apply KEEP]. unfold attached.
    destruct (alookup sid (c_sess c)) as [[a b]|] eqn:ES; cbn [negb]; [|apply KEEP].
    destruct unsub; [exact (LVU sid c a b eq_refl eq_refl ES)|].
    pose proof (LV sid c a eq_refl eq_refl) as H. destruct (leave c sid a) as [c1 o1]. exact H.
  - destruct (ca x) as [c|] eqn:EC; [|apply KEEP]. apply ATT; [apply KEEP|]. apply (QUI c); [reflexivity|constructor].
  - assert (forall c, ca x = Some c -> P (fst (mkState (h_st (note f (st x) c 0 sid (sess_uid sm sid) what seq))
              (Some (h_ca (note f (st x) c 0 sid (sess_uid sm sid) what seq))) (h_n (note f (st x) c 0 sid (sess_uid sm sid) what seq)),
              h_out (note f (st x) c 0 sid (sess_uid sm sid) what seq)))) as NOTE
      by (intros c E; apply (QUI c); [exact E|constructor]).
    destruct (ca x) as [c|] eqn:EC.
    + apply ATT.
      * destruct (N.eqb what K_kp); [destruct (seq =? 0); apply KEEP|]. destruct (_ || _); [|apply KEEP].
        destruct (seq <=? 0); [apply KEEP|]. destruct (N.eqb what K_recv); [apply NOTE; reflexivity|apply KEEP].
      * destruct (N.eqb what K_kp); [destruct (seq =? 0); [apply NOTE; reflexivity|apply KEEP]|].
        destruct (_ || _); [|apply KEEP]. destruct (seq <=? 0); [apply KEEP|apply NOTE; reflexivity].
    + cbn [negb]. destruct (N.eqb what K_kp); [destruct (seq =? 0); apply KEEP|].
      destruct (_ || _); [|apply KEEP]. destruct (seq <=? 0); [apply KEEP|]. destruct (N.eqb what K_recv); apply KEEP.
  - destruct (ca x) as [c|] eqn:EC; [|apply KEEP]. apply ATT; [apply KEEP|]. apply (QUI c); [reflexivity|constructor].
  - assert (P (fst (mkState (o_st (offline_get_desc f (st x) sid (sess_uid sm sid))) (ca x) (o_n (offline_get_desc f (st x) sid (sess_uid sm sid))),
                    o_out (offline_get_desc f (st x) sid (sess_uid sm sid))))) as OD
      by (cbn [fst]; rewrite offline_get_desc_frame; apply KEEP).
    destruct (ca x) as [c|] eqn:EC; [|exact OD]. apply ATT; [exact OD|]. apply (QUI c); [reflexivity|constructor].
  - assert (P (fst (mkState (o_st (offline_get_sub f (st x) sid (sess_uid sm sid))) (ca x) (o_n (offline_get_sub f (st x) sid (sess_uid sm sid))),
                    o_out (offline_get_sub f (st x) sid (sess_uid sm sid))))) as OD
      by (cbn [fst]; rewrite offline_get_sub_frame; apply KEEP).
    destruct (ca x) as [c|] eqn:EC; [|exact OD]. apply ATT; [exact OD|]. apply (QUI c); [reflexivity|constructor].
  - destruct (ca x) as [c|] eqn:EC; [|apply KEEP]. apply ATT; [apply KEEP|]. apply (QUI c); [reflexivity|constructor].
  - destruct (ca x) as [c|] eqn:EC; [|apply KEEP]. apply ATT; [apply KEEP|]. apply (QUI c); [reflexivity|constructor].
  - destruct (ca x) as [c|] eqn:EC; [|apply (OFF sid t mode _ eq_refl)]. apply ATT; [apply (OFF sid t mode _ eq_refl)|].
    cbn [fst]. pose proof (set_sub_res f (st x) c 0 sid (sess_uid sm sid) t mode) as R. cbv zeta in R.
    destruct ((t =? 0)%N || N.eqb t (sess_uid sm sid)) eqn:ES; destruct R as [-> ->].
    + apply (SELF sid t mode c _ eq_refl eq_refl).
      apply orb_true_iff in ES. destruct ES as [E|E]; apply N.eqb_eq in E; auto.
    + apply orb_false_iff in ES. destruct ES as [E1 E2]. apply N.eqb_neq in E1, E2.
      apply (OTH sid t mode c _ eq_refl eq_refl E1 E2).
  - destruct (ca x) as [c|] eqn:EC; [|apply KEEP]. apply ATT; [apply KEEP|]. exact (DEL sid t c eq_refl eq_refl).
  - destruct (ca x) as [c|]; [destruct (c_sess c)|]; first [apply UNL|apply KEEP].
  - apply UNL.
Qed.

Lemma laws_of_same x o x' :
  acl_same (st x) (st x') -> (forall c', ca x' = Some c' -> cacl_shrink (view x) c') -> step_laws sm x o x'.
Proof.
  intros A C. unfold step_laws. repeat split.
  - intros v. left. apply A.
  - intros v. left. apply A.
  - intros c' E v g' H. left. destruct (C c' E) as [_ C']. destruct (C' v) as [[G _]|[G _]]; congruence.
  - intros c' E v w' H. left. destruct (C c' E) as [_ C']. destruct (C' v) as [[_ W]|[_ [W _]]]; congruence.
Qed.

Lemma laws_of_own x o s' c' n :
  own_request (actor sm o) o -> own_laws (view x) (st x) (actor sm o) s' c' ->
  step_laws sm x o (mkState s' (Some c') n).
Proof.
  intros R [L1 [L2 [L3 L4]]]. unfold step_laws. cbn [st ca]. repeat split.
  - intros v. destruct (L1 v) as [E|[g' [E J]]]; [left; exact E|right; exists g'; split; [exact E|right; auto]].
  - intros v. destruct (L2 v) as [E|[g' [E J]]]; [left; exact E|right; exists g'; split; [exact E|right; auto]].
  - intros c0 E v g' H. inv E. destruct (L3 v g' H); [left; auto|right; right; auto].
  - intros c0 E v g' H. inv E. destruct (L4 v g' H); [left; auto|right; right; auto].
Qed.

Lemma laws_of_other x o t s' c' n :
  other_request (actor sm o) t o -> other_laws (view x) (st x) (actor sm o) t s' c' ->
  step_laws sm x o (mkState s' (Some c') n).
Proof.
  intros R [L1 [L2 [L3 L4]]]. unfold step_laws. cbn [st ca]. repeat split.
  - intros v. destruct (L1 v) as [E|[g' [E [-> J]]]]; [left; exact E|right; exists g'; split; [exact E|left; auto]].
  - intros v. destruct (L2 v) as [E|[g' [E [-> J]]]]; [left; exact E|right; exists g'; split; [exact E|left; auto]].
  - intros c0 E v g' H. inv E. destruct (L3 v g' H) as [|[-> J]]; [left; auto|right; left; auto].
  - intros c0 E v g' H. inv E. destruct (L4 v g' H) as [|[-> J]]; [left; auto|right; left; auto].
Qed.

Lemma laws_same_state x o n : step_laws sm x o (mkState (st x) (ca x) n).
Proof.
  apply laws_of_same; cbn [st ca]; [apply acl_same_refl|].
  intros c' E. unfold view. rewrite E. apply cacl_shrink_refl.
Qed.
Lemma laws_unloaded x o s' n : acl_same (st x) s' -> step_laws sm x o (mkState s' None n).
Proof. intros A. apply laws_of_same; cbn [st ca]; [exact A|discriminate]. Qed.

Lemma laws_of_hsame x o c h :
  ca x = Some c -> hsame (st x) c h -> step_laws sm x o (mkState (h_st h) (Some (h_ca h)) (h_n h)).
Proof.
  intros E [A C]. apply laws_of_same; cbn [st ca]; [exact A|].
  intros c' E'. inv E'. unfold view. rewrite E. exact C.
Qed.

Theorem step_writer_laws f x o :
  logged_in sm o -> owner_sane (view x) -> sess_members (view x) ->
  step_laws sm x o (fst (step dr nr sm f x o)).
Proof.
  intros LI OS SM.
  assert (forall c, ca x = Some c -> view x = c) as VW by (intros c E; unfold view; rewrite E; reflexivity).
  apply step_cases.
  - intros n. apply laws_same_state.
  - intros n. apply laws_unloaded, acl_same_refl.
  - intros c h E Q. apply (laws_of_hsame x o c); [exact E|apply quiet_same with f; exact Q].
  - intros sid want bkg ->. cbv zeta. apply laws_of_own; [left; eauto|]. apply sub_reply_laws; [exact LI|exact OS].
  - intros sid c a b -> E _. cbv zeta. apply (laws_of_hsame x _ c); [exact E|eapply unsub_same, leave_unsub_shape].
  - intros sid c a -> E. apply laws_of_same; cbn [st ca]; [apply acl_same_refl|].
    intros c' E'. inv E'. rewrite (VW _ E) in *. apply leave_same. exact SM.
  - intros sid t mode c n -> E HT. cbv zeta. rewrite (VW _ E) in OS.
    apply laws_of_own; [right; eauto|]. rewrite (VW _ E). apply tus_laws; assumption.
  - intros sid t mode c n -> E E1 E2. cbv zeta.
    apply laws_of_other with (t := t); [exists sid, mode; auto|]. rewrite (VW _ E). apply aus_laws. exact E1.
  - intros sid t mode n ->. destruct (offline_set_sub_laws f (st x) sid (sess_uid sm sid) t mode LI) as [G W].
    unfold step_laws. cbn [st ca]. repeat split.
    + intros v. left. apply G.
    + intros v. destruct (W v) as [E|[-> [HT [w' EW]]]]; [left; exact E|].
      right. exists w'. split; [exact EW|]. right. split; [right; eauto|left; reflexivity].
    + intros c' E v g' H. left. unfold view. rewrite E. exact H.
    + intros c' E v w' H. left. unfold view. rewrite E. exact H.
  - intros sid t c -> E. cbv zeta. apply (laws_of_hsame x _ c); [exact E|eapply unsub_same, del_sub_shape].
Qed.
End StepLaws.
