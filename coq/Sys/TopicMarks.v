(* C09: read/received marks.  Bounds invariant for cache and store over every
   history; characterisation of the note handler; audience of relayed notes.
   First, what the topic proofs need of association lists, of subscription rows and
   of evictUser. *)
From Coq Require Import ZArith NArith List Bool Lia.
From Tinode Require Import Base.Util Pure.Acs Sys.Topic Sys.TopicTac Sys.TopicFrame Sys.TopicNum.
Import ListNotations.
Open Scope Z_scope.

Lemma alookup_aset {A} (k k' : N) (v : A) l :
  alookup k' (aset k v l) = if N.eqb k' k then Some v else alookup k' l.
Proof.
  induction l as [|[k0 v0] l IH]; cbn.
  - destruct (N.eqb k' k); reflexivity.
  - destruct (N.eqb k k0) eqn:E; cbn.
    + apply N.eqb_eq in E. subst. destruct (N.eqb k' k0); reflexivity.
    + destruct (N.eqb k' k0) eqn:E2.
      * apply N.eqb_eq in E2. subst. rewrite N.eqb_sym, E. reflexivity.
      * exact IH.
Qed.
Lemma alookup_aremove_eq {A} (k k' : N) (l : list (N * A)) :
  alookup k' (aremove k l) = if N.eqb k' k then None else alookup k' l.
Proof.
  induction l as [|[k0 v0] l IH]; cbn.
  - destruct (N.eqb k' k); reflexivity.
  - destruct (N.eqb k k0) eqn:E.
    + apply N.eqb_eq in E. subst k0. rewrite IH. destruct (N.eqb k' k); reflexivity.
    + cbn. destruct (N.eqb k' k0) eqn:E2; [|exact IH].
      apply N.eqb_eq in E2. subst k0. rewrite N.eqb_sym, E. reflexivity.
Qed.
Lemma alookup_aremove {A} (k k' : N) (l : list (N * A)) v :
  alookup k' (aremove k l) = Some v -> alookup k' l = Some v.
Proof. rewrite alookup_aremove_eq. destruct (N.eqb k' k); [discriminate|auto]. Qed.
Lemma alookup_map {A B} (f : A -> B) k (l : list (N * A)) :
  alookup k (map (fun e => (fst e, f (snd e))) l) = option_map f (alookup k l).
Proof. induction l as [|[k0 v0] l IH]; cbn; [reflexivity|]. destruct (N.eqb k k0); [reflexivity|exact IH]. Qed.

Lemma in_aset {A} (k : N) (v : A) l e : In e (aset k v l) -> e = (k, v) \/ In e l.
Proof.
  induction l as [|[k0 v0] l IH]; cbn; [intros [H|[]]; auto|].
  destruct (N.eqb k k0); cbn; intros [H|H]; auto. destruct (IH H); auto.
Qed.
Lemma in_aremove {A} (k : N) (l : list (N * A)) e : In e (aremove k l) -> In e l.
Proof.
  induction l as [|[k0 v0] l IH]; cbn; [auto|].
  destruct (N.eqb k k0); cbn; [auto|]. intros [H|H]; auto.
Qed.
Lemma aremove_incl {A} (k : N) (l : list (N * A)) : incl (aremove k l) l.
Proof. intros e. apply in_aremove. Qed.
Lemma alookup_in {A} (k : N) (l : list (N * A)) v : alookup k l = Some v -> In (k, v) l.
Proof.
  induction l as [|[k0 v0] l IH]; cbn; [discriminate|].
  destruct (N.eqb k k0) eqn:E; [apply N.eqb_eq in E; intros H; inv H; now left|auto].
Qed.
Lemma in_alookup {A} (k : N) (v : A) l : NoDup (map fst l) -> In (k, v) l -> alookup k l = Some v.
Proof.
  induction l as [|[k0 v0] l IH]; cbn; [tauto|]. intros ND [E|Hin].
  - inv E. now rewrite N.eqb_refl.
  - inversion ND as [|? ? Ha Hl]; subst. destruct (N.eqb_spec k k0) as [->|NE]; [|now apply IH].
    exfalso. apply Ha. change k0 with (fst (k0, v)). now apply in_map.
Qed.
Lemma in_keys_alookup {A} (k : N) (l : list (N * A)) : In k (map fst l) <-> alookup k l <> None.
Proof.
  induction l as [|[k0 v0] l IH]; cbn; [tauto|].
  destruct (N.eqb_spec k k0) as [->|NE]; [split; [discriminate|auto]|].
  rewrite <- IH. split; [intros [E|H]; [congruence|exact H]|auto].
Qed.
(* the keys stay distinct *)
Lemma keys_aset {A} (k : N) (v : A) l : NoDup (map fst l) -> NoDup (map fst (aset k v l)).
Proof.
  induction l as [|[k0 v0] l IH]; cbn; intros ND; [constructor; [intros []|constructor]|].
  inversion ND as [|? ? Ha Hl]; subst. destruct (N.eqb_spec k k0) as [<-|NE]; cbn; constructor; auto.
  intros Hin. apply in_map_iff in Hin. destruct Hin as [e [<- He]].
  apply in_aset in He. destruct He as [->|He]; [now apply NE|]. apply Ha. now apply in_map.
Qed.
Lemma keys_aremove {A} (k : N) (l : list (N * A)) : NoDup (map fst l) -> NoDup (map fst (aremove k l)).
Proof.
  induction l as [|[k0 v0] l IH]; cbn; intros ND; [constructor|].
  inversion ND as [|? ? Ha Hl]; subst. destruct (N.eqb k k0); cbn; [now apply IH|]. constructor; [|now apply IH].
  intros Hin. apply in_map_iff in Hin. destruct Hin as [e [<- He]]. apply Ha. apply in_map. exact (in_aremove _ _ _ He).
Qed.

Lemma find_sub_user u l r : find_sub u l = Some r -> s_user r = u.
Proof. unfold find_sub. intros H. apply find_some in H. destruct H as [_ H]. now apply N.eqb_eq in H. Qed.
Lemma find_sub_in u l r : find_sub u l = Some r -> In r l.
Proof. unfold find_sub. intros H. apply find_some in H. apply H. Qed.
Lemma find_sub_nodup l r : NoDup (map s_user l) -> In r l -> find_sub (s_user r) l = Some r.
Proof.
  induction l as [|a l IH]; cbn; [tauto|]. intros ND [->|Hin].
  - now rewrite N.eqb_refl.
  - inversion ND as [|? ? Ha Hl]; subst. destruct (N.eqb_spec (s_user a) (s_user r)) as [E|NE].
    + exfalso. apply Ha. rewrite E. now apply in_map.
    + now apply IH.
Qed.
Lemma find_sub_none_notin u l : find_sub u l = None -> ~ In u (map s_user l).
Proof.
  unfold find_sub. intros H Hin. apply in_map_iff in Hin. destruct Hin as [r [E Hr]].
  apply (find_none _ _ H) in Hr. subst u. rewrite N.eqb_refl in Hr. discriminate.
Qed.
Lemma find_sub_map (f : subrow -> subrow) u0 l : (forall r, s_user (f r) = s_user r) ->
  find_sub u0 (map f l) = option_map f (find_sub u0 l).
Proof.
  intros Hf. unfold find_sub. induction l as [|a l IH]; cbn; [reflexivity|].
  rewrite Hf. destruct (N.eqb (s_user a) u0); [reflexivity|exact IH].
Qed.
Lemma find_sub_upd (f : subrow -> subrow) u u0 l : (forall r, s_user r = u -> s_user (f r) = u) ->
  find_sub u0 (upd_sub u f l) = if N.eqb u0 u then option_map f (find_sub u0 l) else find_sub u0 l.
Proof.
  intros Hf. unfold find_sub, upd_sub. induction l as [|a l IH]; cbn; [destruct (N.eqb u0 u); reflexivity|].
  destruct (N.eqb (s_user a) u) eqn:E1.
  - apply N.eqb_eq in E1. rewrite (Hf a E1). rewrite E1.
    destruct (N.eqb u u0) eqn:E2.
    + apply N.eqb_eq in E2. subst u0. rewrite N.eqb_refl. reflexivity.
    + rewrite IH. rewrite (N.eqb_sym u0 u), E2. reflexivity.
  - destruct (N.eqb (s_user a) u0) eqn:E2.
    + apply N.eqb_eq in E2. subst u0. rewrite E1. reflexivity.
    + exact IH.
Qed.
Lemma find_sub_app u0 l row :
  find_sub u0 (l ++ [row]) = match find_sub u0 l with Some r => Some r | None => if N.eqb (s_user row) u0 then Some row else None end.
Proof.
  unfold find_sub. induction l as [|a l IH]; cbn; [destruct (N.eqb (s_user row) u0); reflexivity|].
  destruct (N.eqb (s_user a) u0); [reflexivity|exact IH].
Qed.
Lemma users_upd_sub u f l : (forall r, s_user r = u -> s_user (f r) = u) -> map s_user (upd_sub u f l) = map s_user l.
Proof.
  intros Hf. unfold upd_sub. rewrite map_map. apply map_ext_in. intros r _.
  destruct (N.eqb (s_user r) u) eqn:E; [|reflexivity]. apply N.eqb_eq in E. rewrite (Hf r E). now rewrite E.
Qed.

(* recording the owner in the topic row leaves the subscription rows alone *)
Lemma owner_subs u w g s1 : subs (if is_owner (N.land w g) then st_owner u s1 else s1) = subs s1.
Proof. break_match; reflexivity. Qed.

(* the rows after createSubscription, SubsUpdate and SubsDelete *)
Lemma find_sub_create s u w g v :
  find_sub v (subs (ad_sub_create s u w g)) =
  if N.eqb v u then Some (mkSub u w g 0 0 0 false) else find_sub v (subs s).
Proof.
  unfold ad_sub_create.
  rewrite owner_subs. destruct (find_sub u (subs s)) eqn:E; cbn [subs st_subs].
  - rewrite find_sub_upd by (intros; reflexivity).
    destruct (N.eqb v u) eqn:E2; [|reflexivity]. apply N.eqb_eq in E2. subst v. rewrite E. reflexivity.
  - rewrite find_sub_app. cbn [s_user]. rewrite (N.eqb_sym u v). destruct (N.eqb v u) eqn:E2.
    + apply N.eqb_eq in E2. subst v. rewrite E. reflexivity.
    + destruct (find_sub v (subs s)); reflexivity.
Qed.
Lemma find_sub_update s u up v :
  find_sub v (subs (ad_subs_update s u up)) =
  if (u =? 0)%N || N.eqb v u then option_map (apply_upd up) (find_sub v (subs s)) else find_sub v (subs s).
Proof.
  unfold ad_subs_update. destruct (u =? 0)%N; cbn [subs st_subs orb].
  - apply find_sub_map. reflexivity.
  - apply find_sub_upd. intros; assumption.
Qed.
Lemma find_sub_delete s u s' v :
  ad_subs_delete s u = Some s' ->
  find_sub v (subs s') =
  if N.eqb v u then option_map (fun r => mkSub (s_user r) (s_want r) (s_given r) (s_read r) (s_recv r) (s_delid r) true)
                                (find_sub v (subs s))
  else find_sub v (subs s).
Proof.
  unfold ad_subs_delete. destruct (ad_sub_get s u false); intros H; inv H.
  cbn [subs st_subs st_dellog]. apply find_sub_upd. intros; assumption.
Qed.

(* the adapter calls keep one row per user *)
Lemma nodup_sub_create s u w g : NoDup (map s_user (subs s)) -> NoDup (map s_user (subs (ad_sub_create s u w g))).
Proof.
  unfold ad_sub_create. intros H.
  rewrite owner_subs. destruct (find_sub u (subs s)) eqn:F; cbn [subs st_subs].
  - rewrite users_upd_sub; [exact H|reflexivity].
  - rewrite map_app. cbn [map s_user]. apply NoDup_app_single; [exact H|]. now apply find_sub_none_notin.
Qed.
Lemma nodup_subs_update s u up : NoDup (map s_user (subs s)) -> NoDup (map s_user (subs (ad_subs_update s u up))).
Proof.
  unfold ad_subs_update. intros H. break_match; cbn [subs st_subs].
  - rewrite map_map. cbn [apply_upd s_user]. rewrite <- map_map with (f := fun x => x) (g := s_user). now rewrite map_id.
  - rewrite users_upd_sub; [exact H|]. intros r Hr. exact Hr.
Qed.
Lemma nodup_subs_delete s u s' : ad_subs_delete s u = Some s' ->
  NoDup (map s_user (subs s)) -> NoDup (map s_user (subs s')).
Proof.
  unfold ad_subs_delete. break_match; intros H; inv H. cbn [subs st_subs st_dellog]. intros H.
  rewrite users_upd_sub; [exact H|]. intros r Hr. exact Hr.
Qed.

(* loadSubscribers: the cache entries are the live rows *)
Lemma load_users_lookup_acc u0 rows : NoDup (map s_user rows) -> forall acc,
  alookup u0 (fold_left (fun acc r =>
    if s_deleted r then acc
    else aset (s_user r) (mkPud (s_want r) (s_given r) (s_read r) (s_recv r) (s_delid r) 0) acc) rows acc) =
  match find_sub u0 rows with
  | Some r => if s_deleted r then alookup u0 acc else Some (mkPud (s_want r) (s_given r) (s_read r) (s_recv r) (s_delid r) 0)
  | None => alookup u0 acc
  end.
Proof.
  induction rows as [|r rows IH]; intros ND acc; cbn [fold_left]; [reflexivity|].
  cbn [map] in ND. inversion ND as [|? ? Hnotin ND']; subst.
  rewrite (IH ND'). unfold find_sub. cbn [find]. fold (find_sub u0 rows).
  destruct (N.eqb (s_user r) u0) eqn:E.
  - apply N.eqb_eq in E. subst u0.
    assert (find_sub (s_user r) rows = None) as FN.
    { destruct (find_sub (s_user r) rows) as [r2|] eqn:F2; [|reflexivity]. exfalso. apply Hnotin.
      apply in_map_iff. exists r2. split; [now apply find_sub_user in F2|]. unfold find_sub in F2. now apply find_some in F2. }
    rewrite FN. destruct (s_deleted r); [reflexivity|]. rewrite alookup_aset, N.eqb_refl. reflexivity.
  - destruct (find_sub u0 rows) as [r2|]; destruct (s_deleted r); try reflexivity;
      rewrite alookup_aset; rewrite (N.eqb_sym u0 (s_user r)), E; reflexivity.
Qed.

(* evictUser, read through the lookups of the cache *)
Lemma evict_lookup c u b k c' o v : evict_user c u b k = (c', o) ->
  alookup v (c_users c') =
  if N.eqb v u then (if b then None else option_map (p_set_online 0) (alookup v (c_users c))) else alookup v (c_users c).
Proof.
  unfold evict_user. intros H. inv H. destruct b; cbn [c_users c_set_users c_set_sess].
  - apply alookup_aremove_eq.
  - destruct (alookup u (c_users c)) as [p|] eqn:E; cbn [c_users c_set_users c_set_sess]; rewrite ?alookup_aset;
      (destruct (N.eqb v u) eqn:EV; [apply N.eqb_eq in EV; subst v; rewrite E|]; reflexivity).
Qed.

(* a user whose effective mode has any bit is cached *)
Lemma get_pud_has c u bit : has (pud_mode (get_pud c u)) bit = true -> alookup u (c_users c) = Some (get_pud c u).
Proof.
  unfold get_pud. destruct (alookup u (c_users c)); [reflexivity|].
  unfold pud_mode, blank_pud, has. cbn. discriminate.
Qed.

Definition row_ok (B : Z) (r : subrow) : Prop := 0 <= s_read r <= B /\ 0 <= s_recv r <= B.
Definition smarks_ok (B : Z) (s : store) : Prop := Forall (row_ok B) (subs s).
Definition pud_ok (B : Z) (p : pud) : Prop := 0 <= p_read p <= B /\ 0 <= p_recv p <= B.
Definition cmarks_ok (B : Z) (c : cache) : Prop := forall u p, alookup u (c_users c) = Some p -> pud_ok B p.

Lemma row_ok_mono B B' r : B <= B' -> row_ok B r -> row_ok B' r.
Proof. unfold row_ok. lia. Qed.
Lemma smarks_mono B B' s : B <= B' -> smarks_ok B s -> smarks_ok B' s.
Proof. intros H. unfold smarks_ok. apply Forall_impl. intros r. now apply row_ok_mono. Qed.
Lemma pud_ok_mono B B' p : B <= B' -> pud_ok B p -> pud_ok B' p.
Proof. unfold pud_ok. lia. Qed.
Lemma cmarks_mono B B' c : B <= B' -> cmarks_ok B c -> cmarks_ok B' c.
Proof. intros H M u p L. eapply pud_ok_mono; eauto. Qed.

Lemma upd_sub_ok B u f l : (forall r, row_ok B r -> row_ok B (f r)) -> Forall (row_ok B) l -> Forall (row_ok B) (upd_sub u f l).
Proof. intros H F. unfold upd_sub. apply Forall_map. eapply Forall_impl; [|exact F]. intros r Hr. cbn. destruct (N.eqb (s_user r) u); auto. Qed.

Lemma sub_create_ok B s u w g : 0 <= B -> smarks_ok B s -> smarks_ok B (ad_sub_create s u w g).
Proof.
  intros HB M. unfold ad_sub_create, smarks_ok in *.
  assert (row_ok B (mkSub u w g 0 0 0 false)) as R0 by (unfold row_ok; cbn; lia).
  repeat break_match; cbn [subs st_owner st_subs]; try (apply upd_sub_ok; auto); try (apply Forall_app; split; auto).
Qed.

(* an update whose marks, when present, are within bounds *)
Definition upd_ok (B : Z) (up : subupd) : Prop :=
  match u_read up with Some v => 0 <= v <= B | None => True end /\
  match u_recv up with Some v => 0 <= v <= B | None => True end.
Lemma apply_upd_ok B up r : upd_ok B up -> row_ok B r -> row_ok B (apply_upd up r).
Proof. unfold upd_ok, row_ok, apply_upd. cbn. destruct (u_read up), (u_recv up); intuition. Qed.
Lemma subs_update_ok B s u up : upd_ok B up -> smarks_ok B s -> smarks_ok B (ad_subs_update s u up).
Proof.
  intros HU M. unfold ad_subs_update, smarks_ok in *. break_match; cbn [subs st_subs].
  - apply Forall_map. eapply Forall_impl; [|exact M]. intros r. now apply apply_upd_ok.
  - apply upd_sub_ok; auto. intros r. now apply apply_upd_ok.
Qed.
Lemma upd_ok_modes B w g : upd_ok B (mkUpd w g None None None).
Proof. split; exact I. Qed.
Lemma upd_ok_delid B d : upd_ok B (mkUpd None None None None d).
Proof. split; exact I. Qed.
Lemma subs_delete_ok B s u s' : ad_subs_delete s u = Some s' -> smarks_ok B s -> smarks_ok B s'.
Proof.
  unfold ad_subs_delete. break_match; intros H; inv H. intros M. unfold smarks_ok in *.
  cbn [subs st_subs st_dellog]. apply upd_sub_ok; auto.
Qed.
Lemma delete_list_ok B s d fu rs : smarks_ok B s -> smarks_ok B (ad_msg_delete_list s d fu rs).
Proof. unfold ad_msg_delete_list, smarks_ok. break_match; auto. Qed.

Lemma get_pud_ok B c u : 0 <= B -> cmarks_ok B c -> pud_ok B (get_pud c u).
Proof. intros HB M. unfold get_pud. destruct (alookup u (c_users c)) eqn:E; [eauto|]. unfold pud_ok, blank_pud. cbn. lia. Qed.
Lemma cmarks_aset B c u p : pud_ok B p -> cmarks_ok B c -> cmarks_ok B (c_set_users (aset u p) c).
Proof. intros HP M u' p'. cbn [c_users c_set_users]. rewrite alookup_aset. destruct (N.eqb u' u); [intros H; now inv H|apply M]. Qed.
Lemma cmarks_aremove B c u : cmarks_ok B c -> cmarks_ok B (c_set_users (aremove u) c).
Proof. intros M u' p'. cbn [c_users c_set_users]. intros H. apply alookup_aremove in H. eauto. Qed.
Lemma cmarks_sess B c f : cmarks_ok B c -> cmarks_ok B (c_set_sess f c).
Proof. auto. Qed.
Lemma cmarks_owner B c v : cmarks_ok B c -> cmarks_ok B (c_set_owner v c).
Proof. auto. Qed.
Lemma cmarks_delid B c v : cmarks_ok B c -> cmarks_ok B (c_set_delid v c).
Proof. auto. Qed.
Lemma cmarks_lastid B c v : cmarks_ok B c -> cmarks_ok B (c_set_lastid v c).
Proof. auto. Qed.
Lemma cmarks_map_delid B c d : cmarks_ok B c ->
  cmarks_ok B (c_set_users (map (fun e => (fst e, p_set_delid d (snd e)))) c).
Proof.
  intros M u p. cbn [c_users c_set_users]. rewrite alookup_map. destruct (alookup u (c_users c)) eqn:E; [|discriminate].
  intros H. inv H. apply M in E. exact E.
Qed.
Lemma pud_ok_modes B w g p : pud_ok B p -> pud_ok B (p_set_modes w g p). Proof. auto. Qed.
Lemma pud_ok_online B v p : pud_ok B p -> pud_ok B (p_set_online v p). Proof. auto. Qed.
Lemma pud_ok_delid B v p : pud_ok B p -> pud_ok B (p_set_delid v p). Proof. auto. Qed.
Lemma pud_ok_new B w g : 0 <= B -> pud_ok B (mkPud w g 0 0 0 0). Proof. unfold pud_ok. cbn. lia. Qed.

Lemma evict_marks B c u b k c' o : evict_user c u b k = (c', o) -> cmarks_ok B c -> cmarks_ok B c'.
Proof.
  unfold evict_user. intros H M. inv H. repeat break_match.
  - apply cmarks_aremove. apply cmarks_sess. exact M.
  - apply cmarks_aset; [|apply cmarks_sess; exact M]. apply pud_ok_online. eapply M. exact Heqo.
  - apply cmarks_sess. exact M.
Qed.

(* load: the cache marks are the store's *)
Lemma load_users_ok B rows : Forall (row_ok B) rows ->
  forall acc, (forall u p, alookup u acc = Some p -> pud_ok B p) ->
  forall u p, alookup u (fold_left (fun acc r =>
    if s_deleted r then acc
    else aset (s_user r) (mkPud (s_want r) (s_given r) (s_read r) (s_recv r) (s_delid r) 0) acc) rows acc) = Some p -> pud_ok B p.
Proof.
  induction rows as [|r rows IH]; intros F acc HA u p; cbn [fold_left]; [apply HA|].
  inversion F as [|? ? Hr Hrs]; subst. apply IH; [assumption|].
  destruct (s_deleted r); [exact HA|]. intros u' p'. rewrite alookup_aset.
  destruct (N.eqb u' (s_user r)); [intros H; inv H; exact Hr|apply HA].
Qed.
Lemma load_marks B s : smarks_ok B s -> cmarks_ok B (load s).
Proof. intros M u p. unfold load, load_users. cbn [c_users]. apply load_users_ok; [exact M|]. intros u' p' H. discriminate. Qed.

#[export] Hint Resolve sub_create_ok subs_update_ok upd_ok_modes upd_ok_delid delete_list_ok get_pud_ok cmarks_aset
  cmarks_aremove cmarks_sess cmarks_owner cmarks_delid cmarks_lastid cmarks_map_delid pud_ok_modes pud_ok_online
  pud_ok_delid pud_ok_new : marks.

Definition marks_pres (s : store) (c : cache) (h : hres) : Prop :=
  forall B L, 0 <= B -> 0 <= L -> smarks_ok B s -> cmarks_ok L c -> smarks_ok B (h_st h) /\ cmarks_ok L (h_ca h).

Lemma smarks_st_owner B v s : smarks_ok B s -> smarks_ok B (st_owner v s). Proof. auto. Qed.
Lemma smarks_st_delid B v s : smarks_ok B s -> smarks_ok B (st_delid v s). Proof. auto. Qed.
Lemma smarks_st_dellog B f s : smarks_ok B s -> smarks_ok B (st_dellog f s). Proof. auto. Qed.
Lemma smarks_st_msgs B f s : smarks_ok B s -> smarks_ok B (st_msgs f s). Proof. auto. Qed.
#[export] Hint Resolve smarks_st_owner smarks_st_delid smarks_st_dellog smarks_st_msgs : marks.

Lemma settled_marks L c u c' o : settled c u c' o -> cmarks_ok L c -> cmarks_ok L c'.
Proof. intros [[-> _]|E]; [auto|exact (evict_marks L _ _ _ _ _ _ E)]. Qed.
Lemma own_write_ok B s u p0 w g s1 : own_write s u p0 w g s1 -> smarks_ok B s -> smarks_ok B s1.
Proof. intros [[-> _]|[ow [og [-> _]]]]; auto with marks. Qed.

Lemma cmarks_modes L c u w g : 0 <= L -> cmarks_ok L c ->
  cmarks_ok L (c_set_users (aset u (p_set_modes w g (get_pud c u))) c).
Proof. auto with marks. Qed.

Lemma tus_marks f s c u want h r : tus_spec f s c u want h r -> marks_pres s c h.
Proof.
  intros SP B L HB HL MS MC.
  destruct SP as [n' code _|w g s' c' n' o ch _ S' ST|p0 w g s1 c' n' o r' _ OW ST _
                 |p0 w g s1 c' n' o r' _ OW ST _|p0 w g s1 s' n' _ _ OW S'];
    try apply (own_write_ok B _ _ _ _ _ _) in OW; try exact MS; cbn [h_st h_ca];
    (split; [|try apply (settled_marks L _ _ _ _ ST)]); auto with marks.
  - destruct S' as [->|[-> _]]; auto with marks.
  - unfold strip_owner. auto with marks.
  - apply cmarks_modes; [exact HL|]. apply cmarks_owner, cmarks_modes; assumption.
  - destruct S' as [->| ->]; [exact OW|]. unfold strip_owner. auto with marks.
Qed.
Lemma aus_marks s c t h r : aus_spec s c t h r -> marks_pres s c h.
Proof.
  intros SP B L HB HL MS MC.
  destruct SP as [n' code _|w g c' n' o _ ST|c' n' o ST|pt g c' n' o LT ST]; cbn [h_st h_ca];
    (split; [|try apply (settled_marks L _ _ _ _ ST)]); eauto with marks.
Qed.

(* a successful (re)subscription leaves the user in the cache *)
Lemma tus_present f s c u want h ch : tus_spec f s c u want h (SubOk ch) -> alookup u (c_users (h_ca h)) <> None.
Proof.
  assert (forall a p c' o, settled (c_set_users (aset u p) a) u c' o -> alookup u (c_users c') <> None) as P.
  { intros a p c' o [[-> _]|E]; [|rewrite (evict_lookup _ _ _ _ _ _ u E), N.eqb_refl];
      cbn [c_users c_set_users]; rewrite alookup_aset, N.eqb_refl; discriminate. }
  intros SP. inversion SP; subst; cbn [h_ca]; eauto.
Qed.

Lemma sub_reply_marks f s c n sid u want bkg : marks_pres s c (sub_reply f s c n sid u want bkg).
Proof.
  destruct (sub_reply_shape f s c n sid u want bkg) as (h & r & SP & E1 & _ & E2).
  intros B L HB HL MS MC. destruct (tus_marks _ _ _ _ _ _ _ SP B L HB HL MS MC) as [T1 T2]. rewrite E1. split; [exact T1|].
  destruct E2 as [->|[_ ->]]; [exact T2|]. unfold attach. destruct bkg; auto 6 with marks.
Qed.
Lemma set_sub_marks f s c n sid u t m : marks_pres s c (set_sub f s c n sid u t m).
Proof.
  destruct (set_sub_shape f s c n sid u t m) as (h & r & SP & E1 & E2 & _). unfold marks_pres. rewrite E1, E2.
  destruct SP as [[_ SP]|[_ SP]]; [exact (tus_marks _ _ _ _ _ _ _ SP)|exact (aus_marks _ _ _ _ _ SP)].
Qed.
Lemma unsub_marks s c sid v h : unsub_spec s c sid v h -> marks_pres s c h.
Proof.
  intros [n' code _|s1 c1 n' code o1 k _ D EV] B L HB HL MS MC; cbn [h_st h_ca]; split; auto.
  - destruct D as [D|[_ [-> _]]]; [exact (subs_delete_ok B _ _ _ D MS)|exact MS].
  - exact (evict_marks L _ _ _ _ _ _ EV MC).
Qed.
Lemma del_sub_marks f s c n sid u t : marks_pres s c (del_sub f s c n sid u t).
Proof. exact (unsub_marks _ _ _ _ _ (del_sub_shape f s c n sid u t)). Qed.
Lemma leave_unsub_marks f s c n sid u : marks_pres s c (leave_unsub f s c n sid u).
Proof. exact (unsub_marks _ _ _ _ _ (leave_unsub_shape f s c n sid u)). Qed.
Lemma leave_marks L c sid u : 0 <= L -> cmarks_ok L c -> cmarks_ok L (fst (leave c sid u)).
Proof.
  intros HL M. unfold leave. repeat break_match; cbn [fst]; try solve [eauto 20 with marks].
  all: apply cmarks_aset; [|apply cmarks_sess; exact M].
  all: first [ apply pud_ok_online; eapply M; eassumption | unfold pud_ok, blank_pud; cbn; lia ].
Qed.
Lemma del_msg_marks dr f s c n sid u req hard : marks_pres s c (del_msg dr f s c n sid u req hard).
Proof. intros B L HB HL MS MC. unfold del_msg. repeat break_match; cbn [h_st h_ca]; split; auto 7 with marks. Qed.
Lemma offline_set_sub_marks B f s sid u t m : 0 <= B -> smarks_ok B s -> smarks_ok B (o_st (offline_set_sub f s sid u t m)).
Proof. intros HB M. unfold offline_set_sub. repeat break_match; cbn [o_st]; eauto 10 with marks. Qed.

(* note: either silent (nothing changes, nothing is sent) or the named mark moves forward *)
Lemma note_cases f s c n sid u what seq :
  let h := note f s c n sid u what seq in
  let p := get_pud c u in
  (h_st h = s /\ h_ca h = c /\ (h_out h = [] \/ (what = K_kp /\ is_writer (pud_mode p) = true /\ h_out h = fanout_info c sid what u seq)))
  \/
  (seq <= c_lastid c /\ is_reader (pud_mode p) = true /\ (what = K_read \/ what = K_recv) /\
   exists rd rc, h_ca h = c_set_users (aset u (p_set_marks rd rc p)) c /\
     p_read p <= rd /\ p_recv p <= rc /\ (rd = seq \/ rd = p_read p) /\ (rc = seq \/ rc = p_recv p \/ rc = p_read p) /\
     (p_read p <= p_recv p -> rd <= rc) /\
     ((what = K_read /\ p_read p < seq /\ rd = seq /\ h_st h = ad_subs_update s u (mkUpd None None (Some rd) None None)) \/
      (what = K_recv /\ p_recv p < seq /\ h_st h = ad_subs_update s u (mkUpd None None None (Some rc) None))) /\
     h_out h = fanout_info (h_ca h) sid what u seq).
Proof.
  cbn zeta. unfold note.
  destruct (c_lastid c <? seq) eqn:E0; [left; auto|]. apply Z.ltb_ge in E0.
  destruct (N.eqb what K_kp) eqn:EK.
  { apply N.eqb_eq in EK. destruct (negb (is_writer (pud_mode (get_pud c u)))) eqn:EW; [left; auto|].
    apply negb_false_iff in EW. left. cbn. repeat split; auto. }
  destruct (N.eqb what K_read || N.eqb what K_recv) eqn:ER; [|left; auto].
  destruct (negb (is_reader (pud_mode (get_pud c u)))) eqn:ERd; [left; auto|]. apply negb_false_iff in ERd.
  destruct (N.eqb what K_read) eqn:E1.
  - apply N.eqb_eq in E1. cbn [andb negb].
    destruct (seq <=? p_read (get_pud c u)) eqn:E2; [left; auto|]. apply Z.leb_gt in E2.
    destruct (call f n) as [ok1 n1]. destruct (negb ok1); [left; auto|].
    right. repeat split; auto. exists seq, (if p_recv (get_pud c u) <? seq then seq else p_recv (get_pud c u)).
    cbn [h_ca h_st h_out]. repeat split; auto; try lia; destruct (p_recv (get_pud c u) <? seq) eqn:E3;
      try apply Z.ltb_lt in E3; try apply Z.ltb_ge in E3; try lia; auto.
  - cbn [orb] in ER. apply N.eqb_eq in ER. cbn [andb negb].
    destruct (seq <=? p_recv (get_pud c u)) eqn:E2; [left; auto|]. apply Z.leb_gt in E2.
    destruct (call f n) as [ok1 n1]. destruct (negb ok1); [left; auto|].
    right. repeat split; auto. exists (p_read (get_pud c u)), (if seq <? p_read (get_pud c u) then p_read (get_pud c u) else seq).
    cbn [h_ca h_st h_out]. repeat split; auto; try lia; destruct (seq <? p_read (get_pud c u)) eqn:E3;
      try apply Z.ltb_lt in E3; try apply Z.ltb_ge in E3; try lia; auto.
Qed.

Definition inv_marks (x : state) : Prop :=
  inv_num x /\ smarks_ok (t_seqid (st x)) (st x) /\
  match ca x with Some c => cmarks_ok (c_lastid c) c | None => True end.

Lemma publish_marks f s c n sid u content noecho n0 :
  inv_marks (mkState s (Some c) n0) ->
  let h := publish f s c n sid u content noecho in
  smarks_ok (t_seqid (h_st h)) (h_st h) /\ cmarks_ok (c_lastid (h_ca h)) (h_ca h).
Proof.
  intros [[A [B0 [C0 [C1 C2]]]] [MS MC]]. cbn [st ca] in *. cbn zeta.
  pose proof (smarks_mono (t_seqid s) (c_lastid c + 1) s ltac:(lia) MS) as MS1.
  destruct (publish_shape f s c n sid u content noecho) as [s' n' code _ S'|s' n' _ _ _ S'];
    cbn [h_st h_ca c_lastid c_set_users c_set_lastid].
  - split; [|exact MC]. destruct S' as [->| ->]; [exact MS|exact MS1].
  - split.
    + destruct S' as [->| ->]; [exact MS1|]. rewrite seqid_subs_update. apply subs_update_ok; [split; cbn; lia|exact MS1].
    + apply cmarks_aset; [unfold pud_ok; cbn; lia|]. apply cmarks_lastid. apply (cmarks_mono (c_lastid c)); [lia|exact MC].
Qed.

Lemma note_marks f s c n sid u what seq n0 :
  inv_marks (mkState s (Some c) n0) ->
  let h := note f s c n sid u what seq in
  smarks_ok (t_seqid s) (h_st h) /\ cmarks_ok (c_lastid c) (h_ca h).
Proof.
  intros [[A [B0 [C0 [C1 C2]]]] [MS MC]]. cbn [st ca] in *. cbn zeta.
  pose proof (get_pud_ok (c_lastid c) c u C0 MC) as [P1 P2].
  destruct (note_cases f s c n sid u what seq) as [[E1 [E2 _]]|[S1 [_ [_ [rd [rc [E1 [R1 [R2 [R3 [R4 [_ [E2 _]]]]]]]]]]]]].
  - rewrite E1, E2. split; assumption.
  - rewrite E1. split.
    + destruct E2 as [[_ [_ [-> ->]]]|[_ [_ ->]]]; apply subs_update_ok; auto; split; cbn; try exact I; lia.
    + apply cmarks_aset; [|exact MC]. unfold pud_ok. cbn. lia.
Qed.

Section StepMarks.
Variable dr : Z -> list (Z * Z) -> option (list (Z * Z)).
Variable nr : list (Z * Z) -> list (Z * Z).
Variable sm : sessmap.

Lemma step_inv_marks f x o : inv_marks x -> inv_marks (fst (step dr nr sm f x o)).
Proof.
  intros IM. pose proof IM as [IN [MS MC]]. split; [exact (step_inv_num dr nr sm f x o IN)|].
  destruct x as [s cx n0]. cbn [st ca] in *.
  assert (0 <= t_seqid s) as HB.
  { destruct IN as [A [B C]]. destruct cx; cbn [st ca] in *; lia. }
  destruct (step_shape dr nr sm f (mkState s cx n0) o) as [c h LD HD|n' o' _| |sid _|sid _|sid t m _ _];
    cbn [fst st ca] in *; try (split; assumption).
  - assert (inv_marks (mkState s (Some c) n0)) as IMc.
    { destruct LD as [->|[-> [-> _]]]; [exact IM|]. split; [|split; [exact MS|exact (load_marks _ _ MS)]].
      destruct IN as [A [B C]]. apply load_inv; auto. }
    clear IM IN MC LD. pose proof IMc as [[_ [_ [C0 _]]] [_ MC]]. cbn [st ca] in *.
    assert (forall h, num_same s c h -> marks_pres s c h ->
              smarks_ok (t_seqid (h_st h)) (h_st h) /\ cmarks_ok (c_lastid (h_ca h)) (h_ca h)) as PERM.
    { intros h0 [E1 [_ E2]] MP. rewrite E1, E2. apply MP; auto. }
    destruct HD.
    + apply PERM; [apply hframe_num, sub_reply_frame|apply sub_reply_marks].
    + apply PERM; [apply hframe_num, leave_unsub_frame|apply leave_unsub_marks].
    + apply PERM; [apply hframe_num; split; [apply sframe_refl|apply leave_frame]|].
      intros B L _ HL MS' MC'. split; [exact MS'|exact (leave_marks L c sid a HL MC')].
    + exact (publish_marks _ _ _ _ _ _ _ _ _ IMc).
    + destruct (note_frame f s c 0 sid (sess_uid sm sid) what seq) as [[_ [E1 _]] [E2 _]]. rewrite E1, E2.
      exact (note_marks _ _ _ _ _ _ _ _ _ IMc).
    + destruct (queried_same _ _ _ _ _ _ _ H) as [-> ->]. split; assumption.
    + apply PERM; [apply del_msg_num|apply del_msg_marks].
    + apply PERM; [apply hframe_num, set_sub_frame|apply set_sub_marks].
    + apply PERM; [apply hframe_num, del_sub_frame|apply del_sub_marks].
  - split; [exact MS|exact I].
  - destruct (sframe_seqs _ _ (offline_set_sub_frame f s sid (sess_uid sm sid) t m)) as [E1 _]. rewrite E1.
    split; [apply offline_set_sub_marks; assumption|exact MC].
Qed.
End StepMarks.

(* who may move a mark: every handler other than publish and note leaves each
   cached user's marks as they were, or the entry is a fresh (0,0) subscription
   (proved of every step in Sys/TopicMono.v) *)
Definition marks_kept (c c' : cache) : Prop :=
  forall u p', alookup u (c_users c') = Some p' ->
    (exists p, alookup u (c_users c) = Some p /\ p_read p' = p_read p /\ p_recv p' = p_recv p) \/
    (p_read p' = 0 /\ p_recv p' = 0).

(* publish touches only the publisher's marks *)
Lemma publish_ca f s c n sid u content noecho :
  let h := publish f s c n sid u content noecho in
  h_ca h = c \/ h_ca h = c_set_lastid (c_lastid c + 1) c \/
  h_ca h = c_set_users (aset u (p_set_marks (c_lastid c + 1) (c_lastid c + 1) (get_pud c u))) (c_set_lastid (c_lastid c + 1) c).
Proof. cbn zeta. destruct (publish_shape f s c n sid u content noecho); cbn [h_ca]; auto. Qed.

Section HistMarks.
Variable dr : Z -> list (Z * Z) -> option (list (Z * Z)).
Variable nr : list (Z * Z) -> list (Z * Z).
Variable sm : sessmap.

Lemma step_f_inv_marks x fo : inv_marks x -> inv_marks (fst (step_f dr nr sm x fo)).
Proof.
  apply step_f_inv; [apply step_inv_marks|]. intros s c n [IN [MS _]].
  split; [exact (inv_num_unload _ _ _ _ IN)|split; [exact MS|exact I]].
Qed.

Lemma run_inv_marks h : forall x, inv_marks x -> inv_marks (fst (run dr nr sm x h)).
Proof. apply run_inv, step_f_inv_marks. Qed.
End HistMarks.

