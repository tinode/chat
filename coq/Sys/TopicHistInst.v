(* C04: the layer-2 hypotheses about the range functions (Sys/TopicHistProofs.v) hold for the
   instance of Sys/TopicInst.v, i.e. for the range algebra of layer 1 (Pure/Ranges.v):
   replyDelMsg's validation + sort + Normalize and GetDeleted's sort + Normalize. *)
From Coq Require Import ZArith NArith List Bool Lia.
From Tinode Require Import Base.Util Pure.Acs Pure.Ranges Pure.RangesProofs Sys.Topic Sys.TopicInst Sys.TopicHist
  Sys.TopicHistProofs.
Import ListNotations.
Open Scope Z_scope.

Lemma covers_of_range l x : covers (map of_range l) x = in_ranges x l.
Proof.
  unfold covers, in_ranges. rewrite existsb_map. apply existsb_ext_in. intros r _.
  unfold of_range. cbn [fst snd]. rewrite in_range_spec. unfold Topic.in_range, norm_hi, upper. reflexivity.
Qed.

Lemma covers_to_range rs x : in_ranges x (map to_range rs) = covers rs x.
Proof.
  rewrite <- covers_of_range. rewrite map_map. f_equal. rewrite <- (map_id rs) at 2. apply map_ext.
  intros [a b]. reflexivity.
Qed.

Lemma dr_exact_i last req out : del_ranges_i last req = Some out ->
  forall x, covers out x = req_ids last req x.
Proof.
  unfold del_ranges_i. destruct (Ranges.del_ranges last req) as [out0|] eqn:D; [|discriminate].
  cbn. intros H x. inversion H; subst; clear H. rewrite covers_of_range. apply eq_true_iff_eq.
  rewrite (del_ranges_exact last req out0 D x). unfold req_ids. rewrite existsb_exists.
  split; intros [q [Hq C]]; exists q; (split; [exact Hq|]); destruct q as [lo h]; unfold req_covers in *; cbn [fst snd] in *.
  - destruct ((h =? 0) || (h =? lo)); lia.
  - destruct ((h =? 0) || (h =? lo)); lia.
Qed.

Lemma dr_wf_i last req out : del_ranges_i last req = Some out -> Forall range_wf out.
Proof.
  unfold del_ranges_i. destruct (Ranges.del_ranges last req) as [out0|] eqn:D; [|discriminate].
  cbn. intros H. inversion H; subst; clear H. apply del_ranges_normal in D. destruct D as [W _].
  apply Forall_forall. intros r Hr. apply in_map_iff in Hr. destruct Hr as [r0 [<- Hr0]].
  rewrite Forall_forall in W. exact (W r0 Hr0).
Qed.

Lemma nr_exact_i rs : Forall range_wf rs -> forall x, covers (norm_ranges_i rs) x = covers rs x.
Proof.
  intros W x. unfold norm_ranges_i. rewrite covers_of_range. rewrite normalize_exact; [apply covers_to_range|].
  apply Forall_forall. intros r Hr. apply in_map_iff in Hr. destruct Hr as [p [<- Hp]].
  rewrite Forall_forall in W. destruct (W p Hp) as [A _]. exact A.
Qed.
