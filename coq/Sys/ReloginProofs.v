(* Lemmas about Sys/Relogin.v: what the token handed back by {login} is, as a function of
   the secret presented.  Used by Props/PropC12.v. *)
From Coq Require Import NArith ZArith List Bool Lia ZifyBool ZifyNat ZifyN.
From Tinode Require Import Pure.Token Pure.TokenProofs Sys.Relogin.
Import ListNotations.
Open Scope Z_scope.

(* ---------------- feature bits ---------------- *)

Lemma has_feature_lor_l f g bit : has_feature f bit = true -> has_feature (N.lor f g) bit = true.
Proof.
  unfold has_feature. rewrite !negb_true_iff, !N.eqb_neq. intros H E. apply H.
  apply N.bits_inj_iff. intros n. rewrite N.bits_0.
  assert (X : N.testbit (N.land (N.lor f g) bit) n = false) by (rewrite E; apply N.bits_0).
  rewrite N.land_spec, N.lor_spec in X. rewrite N.land_spec.
  destruct (N.testbit f n), (N.testbit bit n); cbn in *; congruence.
Qed.

Lemma has_feature_mod16 f : has_feature (f mod 2 ^ 16) feature_nologin = has_feature f feature_nologin.
Proof.
  unfold has_feature, feature_nologin. f_equal. f_equal.
  apply N.bits_inj_iff. intros n. rewrite !N.land_spec.
  destruct (N.testbit 2 n) eqn:B; [|now rewrite !andb_false_r].
  rewrite !andb_true_r. apply N.mod_pow2_bits_low.
  destruct (N.ltb_spec n 16) as [L|L]; [exact L|].
  exfalso. assert (n = 1)%N.
  { destruct n as [|[p|p|]]; cbn in B; try discriminate B; reflexivity. }
  subst. lia.
Qed.

Lemma nologin_not_validated_bit f :
  has_feature (N.lor f feature_validated) feature_nologin = has_feature f feature_nologin.
Proof.
  unfold has_feature, feature_nologin, feature_validated. f_equal. f_equal.
  apply N.bits_inj_iff. intros n. rewrite !N.land_spec, N.lor_spec.
  destruct n as [|p]; [cbn; now rewrite !andb_false_r|].
  replace (N.testbit 1 (N.pos p)) with false; [now rewrite orb_false_r|].
  symmetry. destruct p; reflexivity.
Qed.

(* ---------------- arithmetic of the re-issued expiry ---------------- *)

(* the expiry second written for a whole-second instant plus a delay: with a delay below a second
   minus the rounding it is that second (wrapped to uint32) ... *)
Lemma reissue_prompt E d :
  0 <= E -> 0 <= d < 999500000 -> expiry_field (round_ms (E * second + d)) = E mod 2 ^ 32.
Proof.
  intros HE Hd. unfold expiry_field. f_equal. unfold unix_sec, round_ms, second.
  destruct (2 * ((E * 1000000000 + d) mod 1000000) <? 1000000) eqn:B;
    Z.div_mod_to_equations; lia.
Qed.

(* ... and whatever the delay, the excess is at most the delay plus the rounding *)
Lemma reissue_bound E d :
  0 <= E -> 0 <= d -> expiry_field (round_ms (E * second + d)) * second <= E * second + d + 500000.
Proof.
  intros HE Hd. pose proof (round_ms_bounds (E * second + d)) as R.
  assert (P : 0 <= E * second + d) by (apply Z.add_nonneg_nonneg; [apply Z.mul_nonneg_nonneg|]; easy).
  pose proof (expiry_field_le _ (round_ms_nonneg _ P)). lia.
Qed.

(* ---------------- the token GenSecret produced ---------------- *)

Section ReloginThms.
Variable mac : list N -> list N -> list N.

Lemma gen_secret_fields key sn deflt now g tok exp :
  gen_secret mac key sn deflt now g = Some (tok, exp) ->
  exists lt, effective_lifetime deflt g = Some lt /\ exp = round_ms (now + lt) /\
             tok_fields tok = issue_fields sn exp g.
Proof.
  unfold gen_secret. destruct (effective_lifetime deflt g) as [lt|]; [|discriminate].
  intros H. injection H as <- <-. exists lt. repeat split.
  unfold tok_fields. rewrite issued_data. apply issue_fields_fix.
Qed.

(* everything known about a record the token authenticator returned *)
Lemma token_rec_inv c clk tok rec :
  token_rec mac c clk tok = ARec rec ->
  let f := tok_fields tok in
  g_uid rec = f_uid f /\ g_level rec = Z.of_N (f_level f) /\ g_features rec = f_features f /\
  g_lifetime rec = tok_expiry tok * second - t_until clk /\
  (f_level f <= 30)%N /\
  t_auth clk + second <= tok_expiry tok * second.
Proof.
  unfold token_rec. destruct (authenticate mac _ _ _ tok) as [r|e] eqn:A; [|discriminate].
  intros H. injection H as <-. apply accept_inv in A. cbv zeta in A.
  destruct A as (_ & _ & L & _ & X & ->). cbn. repeat split; assumption.
Qed.

(* ---------------- one login with a restricted (no-login) secret ---------------- *)

(* the record is restricted: the session is left as it was, whatever the branch *)
Lemma on_login_restricted_session c s now rec missing :
  has_feature (g_features rec) feature_nologin = true ->
  fst (on_login mac c s now rec missing) = s.
Proof.
  intros R. unfold on_login. destruct missing; [reflexivity|]. rewrite R. reflexivity.
Qed.

(* ... and the record handed to GenSecret keeps Uid, AuthLevel, the no-login bit and the Lifetime *)
Lemma on_login_restricted_token c s now rec missing s' code tok exp :
  has_feature (g_features rec) feature_nologin = true ->
  on_login mac c s now rec missing = (s', mkLO code (Some (tok, exp))) ->
  exists feat, has_feature feat feature_nologin = true /\
    gen_secret mac (tc_key c) (tc_serial c) (tc_lifetime c) now
      (mkG (g_uid rec) (g_level rec) feat (g_lifetime rec)) = Some (tok, exp).
Proof.
  intros R. unfold on_login. destruct missing.
  - intros H. injection H as _ _ G. exists (g_features rec). split; assumption.
  - rewrite R. cbn [negb]. intros H. injection H as _ _ G.
    exists (N.lor (g_features rec) feature_validated). split; [|exact G].
    now apply has_feature_lor_l.
Qed.

(* a login that hands back a token went through every gate *)
Lemma login_inv c env s clk sec s' code tk :
  login mac c env s clk sec = (s', mkLO code (Some tk)) ->
  s_uid s = 0%N /\ le_state_ok env = true /\
  exists rec, authenticate_secret mac c env clk sec = ARec rec /\
    on_login mac c s (t_gen clk) rec
      (negb (has_feature (g_features rec) feature_validated) && le_unvalidated env)
    = (s', mkLO code (Some tk)).
Proof.
  unfold login. destruct (s_uid s =? 0)%N eqn:U; cbn [negb]; [|discriminate].
  destruct sec; try discriminate;
    (destruct (authenticate_secret mac c env clk _) as [rec|]; [|discriminate]);
    (destruct (le_state_ok env); cbn [negb]; [|discriminate]);
    intros H; repeat split; try (now apply N.eqb_eq); now exists rec.
Qed.

(* presenting a restricted token never authenticates the session: every branch of login *)
Lemma restricted_never_authenticates c env s clk tok :
  tok_restricted tok = true ->
  fst (login mac c env s clk (SecToken tok)) = s.
Proof.
  intros R. unfold login. destruct (s_uid s =? 0)%N; cbn [negb]; [|reflexivity].
  cbn [authenticate_secret]. destruct (token_rec mac c clk tok) as [rec|] eqn:T; [|reflexivity].
  destruct (le_state_ok env); cbn [negb]; [|reflexivity].
  apply on_login_restricted_session.
  apply token_rec_inv in T. cbv zeta in T. destruct T as (_ & _ & F & _). rewrite F. exact R.
Qed.

(* what a login that presents a restricted token hands back, for any clock; [R] is the
   remaining lifetime time.Until read *)
Lemma restricted_reissue c env s clk tok s' code tok' exp :
  tok_restricted tok = true ->
  login mac c env s clk (SecToken tok) = (s', mkLO code (Some (tok', exp))) ->
  let R := tok_expiry tok * second - t_until clk in
  s' = s /\ tok_restricted tok' = true /\
  f_uid (tok_fields tok') = (f_uid (tok_fields tok) mod 2 ^ 64)%N /\
  f_level (tok_fields tok') = f_level (tok_fields tok) /\
  t_auth clk + second <= tok_expiry tok * second /\
  (0 < R -> tok_expiry tok' = expiry_field (round_ms (t_gen clk + R))).
Proof.
  intros Rt L R.
  pose proof (restricted_never_authenticates c env s clk tok Rt) as S. rewrite L in S. cbn in S.
  apply login_inv in L. destruct L as (_ & _ & rec & T & O). cbn [authenticate_secret] in T.
  apply token_rec_inv in T. cbv zeta in T. destruct T as (Tu & Tl & Tf & Tlt & Tlv & Texp).
  assert (Rr : has_feature (g_features rec) feature_nologin = true) by (rewrite Tf; exact Rt).
  apply (on_login_restricted_token _ _ _ _ _ _ _ _ _ Rr) in O. destruct O as (feat & Rf & G).
  apply gen_secret_fields in G. destruct G as (lt & EL & -> & F).
  unfold tok_restricted, tok_expiry at 2. rewrite F.
  unfold issue_fields. cbn [f_uid f_expires f_level f_features g_uid g_level g_features].
  repeat split; [exact S | now rewrite has_feature_mod16 | now rewrite Tu | | exact Texp |].
  - rewrite Tl, Z.mod_small by (clear -Tlv; lia). apply N2Z.id.
  - intros HR. unfold effective_lifetime in EL. cbn [g_lifetime] in EL. fold R in Tlt. rewrite Tlt in EL.
    rewrite (proj2 (Z.eqb_neq R 0)), (proj2 (Z.ltb_ge R 0)) in EL
      by (apply Z.lt_le_incl, HR || apply Z.neq_sym, Z.lt_neq, HR).
    injection EL as <-. apply Z2N.id, Z.mod_pos_bound. reflexivity.
Qed.

(* the expiry second of the token handed back, for any clock: never later than the presented
   expiry plus the time the login itself took (plus the rounding) *)
Lemma restricted_step_general c env s clk tok s' code tok' exp :
  tok_restricted tok = true ->
  0 <= t_auth clk -> t_until clk <= t_gen clk -> t_until clk < tok_expiry tok * second ->
  login mac c env s clk (SecToken tok) = (s', mkLO code (Some (tok', exp))) ->
  s' = s /\ tok_restricted tok' = true /\
  f_uid (tok_fields tok') = (f_uid (tok_fields tok) mod 2 ^ 64)%N /\
  f_level (tok_fields tok') = f_level (tok_fields tok) /\
  tok_expiry tok' * second <= tok_expiry tok * second + (t_gen clk - t_until clk) + 500000.
Proof.
  intros R H0 Hug Hlt L.
  destruct (restricted_reissue _ _ _ _ _ _ _ _ _ R L) as (S & R' & U & Lv & _ & E).
  repeat split; try assumption. rewrite E by (apply Z.lt_0_sub, Hlt).
  replace (t_gen clk + _) with (tok_expiry tok * second + (t_gen clk - t_until clk)) by ring.
  apply reissue_bound; [apply N2Z.is_nonneg | now apply Z.le_0_sub].
Qed.

(* prompt login: the token handed back for a restricted token is restricted, for the same
   user and level, and expires in the very second the presented token expires (never later) *)
Lemma restricted_step c env s clk tok s' code tok' exp :
  tok_restricted tok = true -> prompt clk ->
  login mac c env s clk (SecToken tok) = (s', mkLO code (Some (tok', exp))) ->
  s' = s /\ tok_restricted tok' = true /\
  f_uid (tok_fields tok') = (f_uid (tok_fields tok) mod 2 ^ 64)%N /\
  f_level (tok_fields tok') = f_level (tok_fields tok) /\
  tok_expiry tok' <= tok_expiry tok /\
  (tok_expiry tok < 2 ^ 32 -> tok_expiry tok' = tok_expiry tok).
Proof.
  intros R (P0 & P1 & P2 & P3) L.
  destruct (restricted_reissue _ _ _ _ _ _ _ _ _ R L) as (S & R' & U & Lv & X & E).
  assert (HE : 0 <= tok_expiry tok) by apply N2Z.is_nonneg.
  rewrite E by (clear -P2 P3 X; unfold second in *; lia).
  replace (t_gen clk + _) with (tok_expiry tok * second + (t_gen clk - t_until clk)) by ring.
  rewrite reissue_prompt by (assumption || (clear -P1 P2 P3; lia)).
  repeat split; try assumption.
  - now apply Z.mod_le.
  - intros B. apply Z.mod_small. now split.
Qed.

(* ---------------- arbitrary chains of logins ---------------- *)

(* [chain tok0 tok]: tok is tok0, or the token handed back by a prompt login (any session,
   any environment, any instant) that presented a token of the chain *)
Inductive chain (c : tcfg) : list N -> list N -> Prop :=
| chain_refl tok : chain c tok tok
| chain_step tok0 tok env s clk s' code tok' exp :
    chain c tok0 tok -> prompt clk ->
    login mac c env s clk (SecToken tok) = (s', mkLO code (Some (tok', exp))) ->
    chain c tok0 tok'.

Lemma chain_restricted c tok0 tok :
  chain c tok0 tok -> tok_restricted tok0 = true ->
  tok_restricted tok = true /\ tok_expiry tok <= tok_expiry tok0 /\
  f_level (tok_fields tok) = f_level (tok_fields tok0) /\
  ((f_uid (tok_fields tok0) < 2 ^ 64)%N -> f_uid (tok_fields tok) = f_uid (tok_fields tok0)).
Proof.
  intros C R0. induction C as [tok|tok0 tok env s clk s' code tok' exp C IH P L].
  - repeat split; [exact R0|apply Z.le_refl].
  - destruct (IH R0) as (R & E & Lv & U).
    destruct (restricted_step _ _ _ _ _ _ _ _ _ R P L) as (_ & R' & U' & Lv' & E' & _).
    repeat split; [exact R'|exact (Z.le_trans _ _ _ E' E)|congruence|].
    intros B. rewrite U', (U B). apply N.mod_small. exact B.
Qed.

(* no token of the chain is accepted at or after the expiry instant of its root *)
Lemma chain_never_outlives c tok0 tok key sn now r :
  chain c tok0 tok -> tok_restricted tok0 = true ->
  authenticate mac key sn now tok = TOk r ->
  now + second <= tok_expiry tok0 * second.
Proof.
  intros C R0 A. destruct (chain_restricted _ _ _ C R0) as (_ & E & _).
  apply accept_inv in A. cbv zeta in A. destruct A as (_ & _ & _ & _ & X & _).
  change (Z.of_N (f_expires (decode_fields (tok_data tok)))) with (tok_expiry tok) in X.
  unfold second in *. lia.
Qed.

Lemma chain_trans c a b d : chain c a b -> chain c b d -> chain c a d.
Proof.
  intros A B. induction B as [tok|b tok env s clk s' code tok' exp B IH P L]; [exact A|].
  exact (chain_step c a tok env s clk s' code tok' exp (IH A) P L).
Qed.

(* ---------------- histories ---------------- *)

Lemma hist_prefix c reqs : forall done, exists tl, hist mac c done reqs = done ++ tl.
Proof.
  induction reqs as [|r rest IH]; intros done; [exists []; now rewrite app_nil_r|].
  destruct (IH (done ++ [hstep mac c done r])) as [tl E]. exists (hstep mac c done r :: tl).
  cbn [hist]. now rewrite E, <- app_assoc.
Qed.

Lemma hist_nth c reqs : forall done k r,
  nth_error reqs k = Some r ->
  nth_error (hist mac c done reqs) (length done + k) =
  Some (hstep mac c (firstn (length done + k) (hist mac c done reqs)) r).
Proof.
  induction reqs as [|r0 rest IH]; intros done k r H; [destruct k; discriminate|].
  cbn [hist]. destruct k as [|k].
  - injection H as ->. destruct (hist_prefix c rest (done ++ [hstep mac c done r])) as [tl E].
    rewrite E, Nat.add_0_r, <- app_assoc, nth_error_app2, firstn_app, Nat.sub_diag, firstn_all by lia.
    cbn. now rewrite app_nil_r.
  - specialize (IH (done ++ [hstep mac c done r0]) k r H). rewrite app_length in IH. cbn [length] in IH.
    now rewrite <- Nat.add_assoc in IH.
Qed.

Lemma history_nth c reqs k r :
  nth_error reqs k = Some r ->
  nth_error (history mac c reqs) k = Some (hstep mac c (firstn k (history mac c reqs)) r).
Proof. exact (hist_nth c reqs [] k r). Qed.

(* [descends reqs i k]: login k presents the token handed back by login j < k, which presents the
   token handed back by ... login i *)
Inductive descends (reqs : list lreq) : nat -> nat -> Prop :=
| desc_refl i : descends reqs i i
| desc_step i j k r : descends reqs i j -> nth_error reqs k = Some r -> rq_src r = Earlier j ->
    (j < k)%nat -> descends reqs i k.

Lemma nth_firstn_lt {A} (l : list A) j k d : (j < k)%nat -> nth j (firstn k l) d = nth j l d.
Proof.
  revert j k. induction l as [|x l IH]; intros j k H; [now rewrite firstn_nil|].
  destruct k; [lia|]. destruct j; [reflexivity|]. cbn. apply IH. lia.
Qed.

(* in every history whose logins are processed promptly: if login k descends from login i and both
   handed back a token, the two tokens are related by [chain] *)
Lemma history_chain c reqs i k ti tk :
  (forall r, In r reqs -> prompt (rq_clk r)) ->
  descends reqs i k ->
  out_tok (nth i (history mac c reqs) no_out) = Some ti ->
  out_tok (nth k (history mac c reqs) no_out) = Some tk ->
  chain c ti tk.
Proof.
  intros P D. revert ti tk. induction D as [i|i j k r D IH N S L]; intros ti tk Hi Hk.
  - rewrite Hi in Hk. injection Hk as <-. apply chain_refl.
  - pose proof (history_nth c reqs k r N) as E.
    rewrite (nth_error_nth _ _ no_out E) in Hk.
    unfold hstep, presented in Hk. rewrite S, (nth_firstn_lt _ _ _ _ L) in Hk.
    destruct (out_tok (nth j (history mac c reqs) no_out)) as [tj|] eqn:Hj.
    + specialize (IH ti tj Hi eq_refl).
      destruct (login mac c (rq_env r) (rq_sess r) (rq_clk r) (SecToken tj)) as [s' [code [[t e]|]]] eqn:Lg;
        unfold out_tok in Hk; cbn in Hk; [|discriminate]. injection Hk as ->.
      apply (chain_step c ti tj (rq_env r) (rq_sess r) (rq_clk r) s' code tk e IH); [|exact Lg].
      apply P. eapply nth_error_In; exact N.
    + exfalso. unfold out_tok in Hk.
      assert (X : lo_token (snd (login mac c (rq_env r) (rq_sess r) (rq_clk r) (SecToken []))) = None).
      { unfold login. destruct (s_uid (rq_sess r) =? 0)%N; cbn [negb]; [|reflexivity].
        cbn [authenticate_secret]. unfold token_rec, authenticate. cbn. reflexivity. }
      rewrite X in Hk. discriminate.
Qed.

(* [restricted_step] and [restricted_never_authenticates] along a history *)
Lemma history_restricted c reqs i k ti tk :
  (forall r, In r reqs -> prompt (rq_clk r)) ->
  descends reqs i k ->
  out_tok (nth i (history mac c reqs) no_out) = Some ti ->
  out_tok (nth k (history mac c reqs) no_out) = Some tk ->
  tok_restricted ti = true ->
  tok_restricted tk = true /\ tok_expiry tk <= tok_expiry ti.
Proof.
  intros P D Hi Hk R. pose proof (history_chain c reqs i k ti tk P D Hi Hk) as C.
  destruct (chain_restricted c ti tk C R) as (Rk & E & _). split; assumption.
Qed.

(* a login of a history that presents a restricted token handed back earlier leaves its session alone *)
Lemma history_never_authenticates c reqs j k r tj :
  nth_error reqs k = Some r -> rq_src r = Earlier j -> (j < k)%nat ->
  out_tok (nth j (history mac c reqs) no_out) = Some tj -> tok_restricted tj = true ->
  fst (nth k (history mac c reqs) no_out) = rq_sess r.
Proof.
  intros N S L Hj R. pose proof (history_nth c reqs k r N) as E.
  rewrite (nth_error_nth _ _ no_out E). unfold hstep, presented.
  rewrite S, (nth_firstn_lt _ _ _ _ L), Hj. apply restricted_never_authenticates. exact R.
Qed.

(* ---------------- a full login ---------------- *)

(* record without the no-login bit, nothing left to validate: the session is authenticated as
   the record's user and level, and GenSecret is called with Lifetime 0, i.e. the configured
   lifetime, and with the validated bit added *)
Lemma full_login c env s clk sec rec :
  s_uid s = 0%N -> sec <> SecUnknownScheme ->
  authenticate_secret mac c env clk sec = ARec rec ->
  le_state_ok env = true ->
  has_feature (g_features rec) feature_nologin = false ->
  (has_feature (g_features rec) feature_validated = true \/ le_unvalidated env = false) ->
  login mac c env s clk sec =
  (mkSess (g_uid rec) (g_level rec),
   mkLO LOk200 (Some (issue_at mac (tc_key c) (tc_serial c) (round_ms (t_gen clk + tc_lifetime c))
                        (mkG (g_uid rec) (g_level rec) (N.lor (g_features rec) feature_validated) 0),
                      round_ms (t_gen clk + tc_lifetime c)))).
Proof.
  intros U NS A St NL V. unfold login. rewrite U. cbn [N.eqb negb].
  destruct sec; try congruence; rewrite A, St; cbn [negb];
    (replace (negb (has_feature (g_features rec) feature_validated) && le_unvalidated env) with false
       by (destruct V as [-> | ->]; [reflexivity|now rewrite andb_false_r]));
    unfold on_login; rewrite NL; reflexivity.
Qed.

(* ---------------- a login by reset code ---------------- *)

Lemma code_login c env s clk uid :
  s_uid s = 0%N -> le_state_ok env = true -> 0 < le_code_lifetime env ->
  let exp := round_ms (t_gen clk + le_code_lifetime env) in
  login mac c env s clk (SecCode (Some uid)) =
  (s, mkLO (if le_unvalidated env then LValidate300 else LOk200)
           (Some (issue_at mac (tc_key c) (tc_serial c) exp
                    (mkG uid 0 (if le_unvalidated env then feature_nologin
                                else N.lor feature_nologin feature_validated) (le_code_lifetime env)),
                  exp))).
Proof.
  intros U St L. cbv zeta. unfold login. rewrite U. cbn [N.eqb negb authenticate_secret]. rewrite St. cbn [negb].
  unfold code_rec. cbn [g_features]. change (has_feature feature_nologin feature_validated) with false.
  cbn [negb andb]. unfold on_login. cbn [g_features g_uid g_level g_lifetime].
  change (has_feature feature_nologin feature_nologin) with true. cbn [negb].
  unfold gen_secret, effective_lifetime. cbn [g_lifetime].
  destruct (le_code_lifetime env =? 0) eqn:Z0; [lia|]. destruct (le_code_lifetime env <? 0) eqn:Z1; [lia|].
  destruct (le_unvalidated env); reflexivity.
Qed.

(* a token GenSecret made with a positive lifetime [lt] at [now0] is never accepted at or after now0 + lt *)
Lemma issued_accept_bound key sn now0 lt g key' sn' now r :
  0 <= now0 -> 0 <= lt ->
  authenticate mac key' sn' now (issue_at mac key sn (round_ms (now0 + lt)) g) = TOk r ->
  now < now0 + lt.
Proof.
  intros H0 Hl A. apply accept_inv in A. cbv zeta in A. destruct A as (_ & _ & _ & _ & A & _).
  rewrite issued_data, issue_fields_fix in A. unfold issue_fields in A. cbn [f_expires] in A.
  fold (expiry_field (round_ms (now0 + lt))) in A. rewrite Z2N.id in A by apply expiry_field_range.
  pose proof (expiry_bound now0 lt lt H0 (Z.le_refl lt)) as B. clear -A B Hl. lia.
Qed.

(* the token of a full login is not accepted beyond the configured lifetime counted from the login *)
Lemma full_login_bound c env s clk sec rec s' code tok exp key' sn' now r :
  0 <= t_gen clk -> 0 < tc_lifetime c ->
  s_uid s = 0%N -> sec <> SecUnknownScheme ->
  authenticate_secret mac c env clk sec = ARec rec ->
  le_state_ok env = true ->
  has_feature (g_features rec) feature_nologin = false ->
  (has_feature (g_features rec) feature_validated = true \/ le_unvalidated env = false) ->
  login mac c env s clk sec = (s', mkLO code (Some (tok, exp))) ->
  authenticate mac key' sn' now tok = TOk r ->
  now < t_gen clk + tc_lifetime c.
Proof.
  intros H0 HL U NS A St NL V L Acc. rewrite (full_login c env s clk sec rec U NS A St NL V) in L.
  injection L as _ _ <- _. apply issued_accept_bound in Acc; [exact Acc | exact H0 | apply Z.lt_le_incl, HL].
Qed.

(* the token handed back for a reset code is not accepted beyond the code's lifetime counted from the login *)
Lemma code_login_bound c env s clk uid s' code tok exp key' sn' now r :
  0 <= t_gen clk -> 0 < le_code_lifetime env ->
  login mac c env s clk (SecCode (Some uid)) = (s', mkLO code (Some (tok, exp))) ->
  authenticate mac key' sn' now tok = TOk r ->
  now < t_gen clk + le_code_lifetime env.
Proof.
  intros H0 HL L Acc. destruct (login_inv _ _ _ _ _ _ _ _ L) as (U & St & _).
  pose proof (code_login c env s clk uid U St HL) as C. cbv zeta in C. rewrite C in L.
  injection L as _ _ <- _. apply issued_accept_bound in Acc; [exact Acc | exact H0 | apply Z.lt_le_incl, HL].
Qed.

(* ---------------- temporary tokens of the credential-validation requests ---------------- *)

Lemma tmp_token_inv c now rec tok exp :
  g_lifetime rec = tmp_token_lifetime -> tmp_token mac c now rec = Some (tok, exp) ->
  tok_fields tok = issue_fields (tc_serial c) exp rec /\
  forall key' sn' now' r, 0 <= now -> authenticate mac key' sn' now' tok = TOk r -> now' < now + tmp_token_lifetime.
Proof.
  unfold tmp_token. intros Hl G. pose proof G as G0. apply gen_secret_fields in G.
  destruct G as (lt & EL & -> & F). split; [exact F|].
  intros key' sn' now' r H0 A. unfold gen_secret in G0. rewrite EL in G0. injection G0 as <-.
  unfold effective_lifetime in EL. rewrite Hl in EL.
  change (tmp_token_lifetime =? 0) with false in EL. change (tmp_token_lifetime <? 0) with false in EL.
  injection EL as <-. apply issued_accept_bound in A; [exact A|exact H0|discriminate].
Qed.

Lemma tmp_token_update c now uid tok exp :
  tmp_token mac c now (update_cred_rec uid) = Some (tok, exp) ->
  tok_restricted tok = true /\ f_level (tok_fields tok) = 0%N /\ f_uid (tok_fields tok) = (uid mod 2 ^ 64)%N /\
  forall key' sn' now' r, 0 <= now -> authenticate mac key' sn' now' tok = TOk r -> now' < now + tmp_token_lifetime.
Proof.
  intros G. destruct (tmp_token_inv c now (update_cred_rec uid) tok exp eq_refl G) as [F B].
  unfold tok_restricted. rewrite F. repeat split. exact B.
Qed.

Lemma tmp_token_create c now uid tok exp :
  tmp_token mac c now (create_cred_rec uid) = Some (tok, exp) ->
  tok_restricted tok = false /\ f_level (tok_fields tok) = 20%N /\ f_uid (tok_fields tok) = (uid mod 2 ^ 64)%N /\
  forall key' sn' now' r, 0 <= now -> authenticate mac key' sn' now' tok = TOk r -> now' < now + tmp_token_lifetime.
Proof.
  intros G. destruct (tmp_token_inv c now (create_cred_rec uid) tok exp eq_refl G) as [F B].
  unfold tok_restricted. rewrite F. repeat split. exact B.
Qed.

End ReloginThms.

(* ---------------- statements the faithful model refutes ---------------- *)

Definition wmac (k d : list N) : list N := repeat (le_val d mod 251)%N 32.
Definition wcfg : tcfg := mkTC [7%N] 5 (1209600 * second).
Definition wenv : login_env := mkLE true false (900 * second).
Definition wT : Z := 1790000000 * second.
(* a restricted one hour token *)
Definition wtok : list N := issue_at wmac [7%N] 5 (wT + 3600 * second) (mkG 12345 20 feature_nologin 0).

(* the expiry bound of [restricted_step] without the promptness premise *)
Definition relogin_never_outlives_statement : Prop :=
  forall (mac : list N -> list N -> list N) c env s clk tok s' code tok' exp,
  tok_restricted tok = true ->
  0 <= t_auth clk /\ t_auth clk <= t_until clk /\ t_until clk <= t_gen clk ->
  login mac c env s clk (SecToken tok) = (s', mkLO code (Some (tok', exp))) ->
  tok_expiry tok' <= tok_expiry tok.

(* the token handed back for a reset code, measured against the code's own expiry:
   [created] = the instant the code was generated, presented within its life time *)
Definition relogin_code_statement : Prop :=
  forall (mac : list N -> list N -> list N) c env s clk uid created s' code tok exp key sn now r,
  prompt clk -> 0 < le_code_lifetime env ->
  created <= t_auth clk <= created + le_code_lifetime env ->
  login mac c env s clk (SecCode (Some uid)) = (s', mkLO code (Some (tok, exp))) ->
  authenticate mac key sn now tok = TOk r ->
  now < created + le_code_lifetime env.

