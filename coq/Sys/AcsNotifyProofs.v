(* Proofs about Sys/AcsNotify.v: the parameters of a change notification applied to
   the old modes give the new modes (AcsProofs.notify_mutation), and every tracker of
   the notification system (sessions of the target in the topic and on 'me', the
   requester, a proxy of the topic) holds the authoritative modes after every history. *)
From Coq Require Import NArith List Bool Lia.
From Tinode Require Import Base.Util Pure.Acs Pure.AcsProofs Sys.AcsNotify.
Import ListNotations.
Open Scope N_scope.

(* ---------- association lists ---------- *)
Section AssocLemmas.
  Context {A : Type}.
  Implicit Types l : list (N * A).

  Lemma lk_put k k' v l : lk k (put k' v l) = if k =? k' then Some v else lk k l.
  Proof.
    induction l as [|[k0 v0] r IH]; cbn [put lk].
    - destruct (k =? k'); reflexivity.
    - destruct (k' =? k0) eqn:E.
      + apply N.eqb_eq in E. subst. cbn [lk]. destruct (k =? k0); reflexivity.
      + cbn [lk]. destruct (k =? k0) eqn:E2.
        * apply N.eqb_eq in E2. subst. rewrite N.eqb_sym, E. reflexivity.
        * exact IH.
  Qed.

  Lemma lk_drop k k' l : lk k (drop k' l) = if k =? k' then None else lk k l.
  Proof.
    unfold drop. induction l as [|[k0 v0] r IH]; cbn [filter lk fst].
    - destruct (k =? k'); reflexivity.
    - destruct (k0 =? k') eqn:E; cbn [negb].
      + apply N.eqb_eq in E. subst. rewrite IH. destruct (k =? k'); reflexivity.
      + cbn [lk]. destruct (k =? k0) eqn:E2.
        * apply N.eqb_eq in E2. subst. rewrite E. reflexivity.
        * exact IH.
  Qed.

  Lemma lk_none_notin k l : ~ In k (map fst l) -> lk k l = None.
  Proof.
    induction l as [|[k0 v0] r IH]; cbn [map fst lk In]; [reflexivity|].
    intros H. destruct (k =? k0) eqn:E.
    - apply N.eqb_eq in E. subst. exfalso. apply H. now left.
    - apply IH. intros X. apply H. now right.
  Qed.

  Lemma keys_filter p l x : In x (map fst (filter p l)) -> In x (map fst l).
  Proof.
    induction l as [|e r IH]; cbn [filter map]; [exact (fun H => H)|].
    destruct (p e); cbn [map In]; intuition.
  Qed.

  Lemma nodup_filter p l : NoDup (map fst l) -> NoDup (map fst (filter p l)).
  Proof.
    induction l as [|e r IH]; cbn [filter map]; [exact (fun H => H)|].
    intros H. inversion H as [|? ? Hn Hr]; subst.
    destruct (p e); [|auto]. cbn [map]. constructor; [|auto].
    intros X. apply Hn. eapply keys_filter; eauto.
  Qed.

  Lemma keys_put k v l x : In x (map fst (put k v l)) -> x = k \/ In x (map fst l).
  Proof.
    induction l as [|[k0 v0] r IH]; cbn [put map fst In].
    - intros [H|[]]. now left.
    - destruct (k =? k0) eqn:E; cbn [map fst In].
      + apply N.eqb_eq in E. subst. intros [H|H]; [now left|now right; right].
      + intros [H|H]; [right; now left|]. destruct (IH H); [now left|right; now right].
  Qed.

  Lemma nodup_put k v l : NoDup (map fst l) -> NoDup (map fst (put k v l)).
  Proof.
    induction l as [|[k0 v0] r IH]; cbn [put map fst].
    - intros _. constructor; [exact (fun H => H)|constructor].
    - intros H. inversion H as [|? ? Hn Hr]; subst.
      destruct (k =? k0) eqn:E; cbn [map fst].
      + apply N.eqb_eq in E. subst. constructor; assumption.
      + constructor; [|auto]. intros X. destruct (keys_put _ _ _ _ X) as [X1|X1].
        * subst. rewrite N.eqb_refl in E. discriminate.
        * auto.
  Qed.

  (* filtering on the whole entry, keys without duplicates *)
  Lemma lk_filter p k l : NoDup (map fst l) ->
    lk k (filter p l) = match lk k l with Some v => if p (k, v) then Some v else None | None => None end.
  Proof.
    induction l as [|[k0 v0] r IH]; cbn [filter lk map fst]; [reflexivity|].
    intros H. inversion H as [|? ? Hn Hr]; subst.
    destruct (k =? k0) eqn:E.
    - apply N.eqb_eq in E. subst. destruct (p (k0, v0)) eqn:P; cbn [lk].
      + now rewrite N.eqb_refl.
      + apply lk_none_notin. intros X. apply Hn. eapply keys_filter; eauto.
    - destruct (p (k0, v0)); cbn [lk]; [rewrite E|]; auto.
  Qed.

  Lemma mem_filter p k l : NoDup (map fst l) ->
    mem k (map fst (filter p l)) = match lk k l with Some v => p (k, v) | None => false end.
  Proof.
    unfold mem.
    induction l as [|[k0 v0] r IH]; cbn [filter lk map fst existsb]; [reflexivity|].
    intros H. inversion H as [|? ? Hn Hr]; subst.
    destruct (k =? k0) eqn:E.
    - apply N.eqb_eq in E. subst. destruct (p (k0, v0)) eqn:P; cbn [map fst existsb].
      + now rewrite N.eqb_refl.
      + destruct (existsb (N.eqb k0) (map fst (filter p r))) eqn:X; [|reflexivity].
        apply existsb_exists in X. destruct X as [x [X1 X2]]. apply N.eqb_eq in X2. subst.
        exfalso. apply Hn. eapply keys_filter; eauto.
    - destruct (p (k0, v0)); cbn [map fst existsb]; [rewrite E; cbn [orb]|]; auto.
  Qed.

  Lemma lk_map (f : N * A -> A) k l :
    lk k (map (fun e => (fst e, f e)) l) = match lk k l with Some v => Some (f (k, v)) | None => None end.
  Proof.
    induction l as [|[k0 v0] r IH]; cbn [map lk fst]; [reflexivity|].
    destruct (k =? k0) eqn:E; [|exact IH]. apply N.eqb_eq in E. now subst.
  Qed.
End AssocLemmas.

Lemma lk_mapv {A B} (f : A -> B) k (l : list (N * A)) :
  lk k (map (fun e => (fst e, f (snd e))) l) = match lk k l with Some v => Some (f v) | None => None end.
Proof.
  induction l as [|[k0 v0] r IH]; cbn [map lk fst snd]; [reflexivity|].
  destruct (k =? k0); [reflexivity|exact IH].
Qed.

(* ---------- one notification ---------- *)

Lemma nmode_norm m : nmode m = norm m.
Proof. reflexivity. Qed.

Lemma follow_opt_notify ow og nw ng :
  In ow mode_domain -> In og mode_domain -> In nw mode_domain -> In ng mode_domain ->
  follow_opt (nmodes (ow, og)) (notify_params ow og nw ng) = Some (nmodes (nw, ng)).
Proof.
  intros H1 H2 H3 H4. unfold follow_opt, notify_params, nmodes. cbn [fst snd].
  change nmode with norm. rewrite (notify_mutation ow nw H1 H3). cbn [negb].
  rewrite (notify_mutation og ng H2 H4). reflexivity.
Qed.

Lemma follow_opt_empty cur : follow_opt cur ([], []) = Some cur.
Proof. destruct cur. reflexivity. Qed.

Lemma pack_acs_none d : pack_acs d = None -> d = ([], []).
Proof. destruct d as [[|a x] [|b y]]; cbn; congruence. Qed.

Lemma pack_acs_some d d' : pack_acs d = Some d' -> d' = d.
Proof. destruct d as [[|a x] [|b y]]; cbn; congruence. Qed.

(* a client that applies the (possibly absent) payload *)
Lemma follow_notify ow og nw ng :
  In ow mode_domain -> In og mode_domain -> In nw mode_domain -> In ng mode_domain ->
  follow (nmodes (ow, og)) (pack_acs (notify_params ow og nw ng)) = nmodes (nw, ng).
Proof.
  intros H1 H2 H3 H4. pose proof (follow_opt_notify ow og nw ng H1 H2 H3 H4) as F.
  unfold follow. destruct (pack_acs _) as [d|] eqn:P.
  - apply pack_acs_some in P. subst. now rewrite F.
  - apply pack_acs_none in P. rewrite P, follow_opt_empty in F. congruence.
Qed.

(* the proxy table *)
Lemma proxy_pres_zero t a : proxy_pres t 0 a = t.
Proof. unfold proxy_pres. destruct a; reflexivity. Qed.

Lemma tget_put t u v u' : tget (put u v t) u' = if u' =? u then v else tget t u'.
Proof. unfold tget. rewrite lk_put. destruct (u' =? u); reflexivity. Qed.

Lemma proxy_pres_notify t target ow og nw ng :
  target <> 0 ->
  In ow mode_domain -> In og mode_domain -> In nw mode_domain -> In ng mode_domain ->
  tget t target = nmodes (ow, og) ->
  forall u, tget (proxy_pres t target (pack_acs (notify_params ow og nw ng))) u =
            if u =? target then nmodes (nw, ng) else tget t u.
Proof.
  intros Hz H1 H2 H3 H4 Hc u. pose proof (follow_opt_notify ow og nw ng H1 H2 H3 H4) as F.
  unfold proxy_pres. destruct (pack_acs _) as [d|] eqn:P.
  - apply pack_acs_some in P. subst.
    destruct (target =? 0) eqn:Z; [apply N.eqb_eq in Z; contradiction|].
    rewrite Hc, F. apply tget_put.
  - apply pack_acs_none in P. rewrite P, follow_opt_empty in F.
    destruct (u =? target) eqn:E; [|reflexivity]. apply N.eqb_eq in E. subst. congruence.
Qed.

(* reading the full modes *)
Lemma nmode_small m : m < 256 -> nmode m = m.
Proof. intros H. exact (proj2 (defined_small m H)). Qed.

Lemma snap_small cur w g : w < 256 -> g < 256 -> snap cur w g = nmodes (w, g).
Proof.
  intros Hw Hg. unfold snap, nmodes. cbn [fst snd].
  rewrite (parse_marshal w (fst cur) Hw), (parse_marshal g (snd cur) Hg). cbn [fst].
  now rewrite (nmode_small w Hw), (nmode_small g Hg).
Qed.

Definition snapb_ok (m : N) : bool := fst (unmarshal_text 0 (mode_string m)) =? nmode m.
Lemma snapb_sweep : forallb snapb_ok mode_domain = true.
Proof. vm_compute. reflexivity. Qed.
Lemma snap_blank w g : In w mode_domain -> In g mode_domain -> snap blank w g = nmodes (w, g).
Proof.
  intros Hw Hg. unfold snap, nmodes, blank. cbn [fst snd].
  pose proof (sweep_list _ _ snapb_sweep w Hw) as R1. pose proof (sweep_list _ _ snapb_sweep g Hg) as R2.
  unfold snapb_ok in *. apply N.eqb_eq in R1. apply N.eqb_eq in R2. now rewrite R1, R2.
Qed.

Lemma small_in_domain m : m < 256 -> In m mode_domain.
Proof. intros H. unfold mode_domain. apply in_or_app. left. apply in_nrange. cbn. lia. Qed.
Lemma unset_in_domain : In ModeUnset mode_domain.
Proof. unfold mode_domain. apply in_or_app. left. apply in_nrange. cbn. unfold ModeUnset. lia. Qed.

(* ---------- histories ---------- *)

(* what the callers of notifySubChange pass and what session.go lets through *)
Definition wf_op (s : nsys) (o : nop) : Prop :=
  match o with
  | NAttach _ _ _ | NDetach _ => True
  | NChange skip target nw ng =>
    target <> 0 /\
    ((nw < 256 /\ ng < 256) \/
     (* unsubscribe: both modes unset; the requester's session is attached to the topic *)
     (nw = ModeUnset /\ ng = ModeUnset /\ lk skip (sess s) <> Some (target, false)))
  end.

Fixpoint wf_run (s : nsys) (h : list nop) : Prop :=
  match h with
  | [] => True
  | o :: r => wf_op s o /\ wf_run (nstep s o) r
  end.

Definition tbl_ok (t : tbl) : Prop :=
  forall u m, lk u t = Some m -> In (fst m) mode_domain /\ In (snd m) mode_domain.

Record ninv (s : nsys) : Prop := mkInv {
  inv_fol : forall sid u it, lk sid (sess s) = Some (u, it) -> lk sid (fol s) = Some (nmodes (aget (auth s) u));
  inv_prox : forall u, tget (prox s) u = nmodes (aget (auth s) u);
  inv_dom : tbl_ok (auth s);
  inv_nodup : NoDup (map fst (sess s)) }.

Lemma aget_dom t u : tbl_ok t -> In (fst (aget t u)) mode_domain /\ In (snd (aget t u)) mode_domain.
Proof.
  intros H. unfold aget. destruct (lk u t) eqn:L; [eauto|]. cbn [fst snd]. split; apply unset_in_domain.
Qed.

Lemma aget_put t u v u' : aget (put u v t) u' = if u' =? u then v else aget t u'.
Proof. unfold aget. rewrite lk_put. destruct (u' =? u); reflexivity. Qed.

Lemma aget_drop t u u' : aget (drop u t) u' = if u' =? u then (ModeUnset, ModeUnset) else aget t u'.
Proof. unfold aget. rewrite lk_drop. destruct (u' =? u); reflexivity. Qed.

Lemma ninv_init a : tbl_ok a -> ninv (ninit a).
Proof.
  intros H. constructor; cbn [ninit sess fol prox auth].
  - intros sid u it X. discriminate.
  - intros u. unfold tget, aget. rewrite (lk_mapv nmodes). destruct (lk u a); reflexivity.
  - exact H.
  - constructor.
Qed.

Lemma ninv_step s o : ninv s -> wf_op s o -> ninv (nstep s o).
Proof.
  intros [If Ip Id In_] W. destruct o as [sid uid it|sid|skip target nw ng].
  - (* attach *)
    cbn [nstep]. destruct (aget (auth s) uid) as [w g] eqn:A.
    constructor; cbn [sess fol prox auth]; auto.
    + intros sid' u it' L. rewrite lk_put in L. rewrite lk_put.
      destruct (sid' =? sid) eqn:E.
      * inversion L; subst. rewrite A. f_equal. apply snap_blank.
        -- pose proof (aget_dom (auth s) u Id) as D. rewrite A in D. apply D.
        -- pose proof (aget_dom (auth s) u Id) as D. rewrite A in D. apply D.
      * eauto.
    + now apply nodup_put.
  - (* detach *)
    constructor; cbn [nstep sess fol prox auth]; auto.
    + intros sid' u it' L. rewrite lk_drop in L. destruct (sid' =? sid); [discriminate|eauto].
    + now apply nodup_filter.
  - (* change *)
    destruct W as [Hz W]. cbn [nstep].
    destruct (aget (auth s) target) as [ow og] eqn:A.
    pose proof (aget_dom (auth s) target Id) as D. rewrite A in D. cbn [fst snd] in D. destruct D as [Dw Dg].
    pose proof (Ip target) as Pt. rewrite A in Pt.
    destruct W as [[Hw Hg]|[Hw [Hg Hs]]].
    + (* modes changed *)
      assert (U : ns_unsub nw ng = false).
      { unfold ns_unsub, ModeUnset. apply orb_false_iff. split; apply N.eqb_neq; lia. }
      rewrite U. rewrite proxy_pres_zero.
      pose proof (small_in_domain nw Hw) as Dnw. pose proof (small_in_domain ng Hg) as Dng.
      constructor; cbn [sess fol prox auth]; auto.
      * intros sid u it L. rewrite lk_map. rewrite (If sid u it L). f_equal. cbn [fst snd].
        unfold direct_rcpt, me_rcpt. rewrite !mem_filter by assumption. rewrite L. cbn [fst snd].
        unfold user_of. rewrite L. rewrite aget_put.
        destruct (u =? target) eqn:E.
        -- apply N.eqb_eq in E. subst u. rewrite A.
           destruct (sid =? skip) eqn:E2; cbn [negb andb orb].
           ++ rewrite !andb_false_r. cbn [orb]. apply snap_small; assumption.
           ++ rewrite !andb_true_r. destruct it; cbn [negb orb]; apply follow_notify; assumption.
        -- destruct it, (sid =? skip); reflexivity.
      * intros u. rewrite (proxy_pres_notify (prox s) target ow og nw ng Hz Dw Dg Dnw Dng Pt u).
        rewrite aget_put. destruct (u =? target); [reflexivity|apply Ip].
      * intros u m L. rewrite lk_put in L. destruct (u =? target); [|eauto].
        inversion L; subst. cbn [fst snd]. split; assumption.
    + (* unsubscribe *)
      subst nw ng. change (ns_unsub ModeUnset ModeUnset) with true. cbv iota.
      constructor; cbn [sess fol prox auth].
      * intros sid u it L. rewrite lk_filter in L by assumption.
        destruct (lk sid (sess s)) as [[u0 it0]|] eqn:L0; [|discriminate].
        cbn [fst snd] in L.
        destruct (it0 && (u0 =? target)) eqn:C; cbn [negb] in L; [discriminate|].
        inversion L; subst u0 it0. clear L.
        rewrite lk_map. rewrite (If sid u it L0). f_equal. cbn [fst snd]. rewrite L0.
        rewrite aget_drop.
        destruct (u =? target) eqn:E.
        -- apply N.eqb_eq in E. subst u. rewrite andb_true_r in C. subst it. cbn [negb andb].
           destruct (sid =? skip) eqn:E2.
           ++ apply N.eqb_eq in E2. subst sid. contradiction.
           ++ reflexivity.
        -- reflexivity.
      * intros u.
        rewrite (proxy_pres_notify (prox s) target ow og ModeUnset ModeUnset Hz Dw Dg unset_in_domain unset_in_domain Pt u).
        rewrite aget_drop. destruct (u =? target); [reflexivity|apply Ip].
      * intros u m L. rewrite lk_drop in L. destruct (u =? target); [discriminate|eauto].
      * now apply nodup_filter.
Qed.

Lemma ninv_run h : forall s, ninv s -> wf_run s h -> ninv (nrun s h).
Proof.
  induction h as [|o r IH]; intros s I W; [exact I|].
  destruct W as [W1 W2]. cbn [nrun fold_left]. apply IH; [now apply ninv_step|exact W2].
Qed.

Lemma wf_run_firstn k : forall h s, wf_run s h -> wf_run s (firstn k h).
Proof.
  induction k as [|k IH]; intros h s W; [exact I|].
  destruct h as [|o r]; [exact I|]. destruct W as [W1 W2]. cbn [firstn wf_run]. split; auto.
Qed.

(* who is told, on duplicate-free session tables *)
Lemma direct_rcpt_spec ss target skip sid : NoDup (map fst ss) ->
  mem sid (direct_rcpt ss target skip false) =
  match lk sid ss with Some (u, it) => it && (u =? target) && negb (sid =? skip) | None => false end.
Proof. intros H. unfold direct_rcpt. rewrite mem_filter by assumption. destruct (lk sid ss) as [[u it]|]; reflexivity. Qed.

Lemma me_rcpt_spec ss target skip sid : NoDup (map fst ss) ->
  mem sid (me_rcpt ss target skip false) =
  match lk sid ss with Some (u, it) => negb it && (u =? target) && negb (sid =? skip) | None => false end.
Proof. intros H. unfold me_rcpt. rewrite mem_filter by assumption. destruct (lk sid ss) as [[u it]|]; reflexivity. Qed.
