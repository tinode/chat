(* Which kinds of frames each handler of the topic model can emit. *)
From Coq Require Import ZArith NArith List Bool Lia.
From Tinode Require Import Base.Util Pure.Acs Sys.Topic Sys.TopicTac Sys.TopicFrame.
Import ListNotations.
Open Scope Z_scope.

(* frame classes *)
Definition is_ack (fr : frame) : bool := match fr with Ctrl 202 _ => true | _ => false end.
Definition is_data (fr : frame) : bool := match fr with Data _ _ _ => true | _ => false end.
Definition is_info (fr : frame) : bool := match fr with Info _ _ _ => true | _ => false end.
Definition is_desc (fr : frame) : bool := match fr with MetaDesc _ _ _ _ _ _ _ => true | _ => false end.
(* a frame that shows no message number and carries no message, receipt or presence *)
Definition plain (fr : frame) : bool :=
  match fr with
  | Ctrl code ps => negb (code =? 202) && forallb (fun p => negb (N.eqb (fst p) P_seq)) ps
  | CtrlAcs _ _ _ _ => true
  | Evicted _ => true
  | MetaSub _ => true
  | MetaDel _ _ => true
  | _ => false
  end.

Definition all_out (P : frame -> bool) (o : out) : Prop := forall e, In e o -> P (snd e) = true.

Lemma all_out_nil P : all_out P []. Proof. intros e []. Qed.
Lemma all_out_cons P sid fr o : P fr = true -> all_out P o -> all_out P ((sid, fr) :: o).
Proof. intros H1 H2 e [<-|He]; auto. Qed.
Lemma all_out_app P a b : all_out P a -> all_out P b -> all_out P (a ++ b).
Proof. intros H1 H2 e He. apply in_app_or in He. destruct He; auto. Qed.

Lemma evict_out_plain c u b k c' o : evict_user c u b k = (c', o) -> all_out plain o.
Proof.
  unfold evict_user. intros H. inv H. intros e He. apply in_flat_map in He.
  destruct He as [x [_ Hx]]. break_match_hyp; [destruct Hx|]. destruct Hx as [<-|[]]. reflexivity.
Qed.

Lemma fanout_info_info c skip what from seq : all_out is_info (fanout_info c skip what from seq).
Proof.
  intros e He. unfold fanout_info in He. apply in_flat_map in He. destruct He as [[s0 [u0 b0]] [_ H]].
  repeat break_match_hyp; cbn in H; intuition; subst; reflexivity.
Qed.

Ltac out_post :=
  repeat match goal with
         | H : evict_user _ _ _ _ = (_, _) |- _ => apply evict_out_plain in H
         end.
Ltac out_solve :=
  cbn [fst snd h_out o_out]; out_post;
  repeat first [ apply all_out_nil | assumption
               | apply all_out_cons; [reflexivity|]
               | apply all_out_app ].

Lemma settled_out c u c' o : settled c u c' o -> all_out plain o.
Proof. intros [[_ ->]|E]; [apply all_out_nil|exact (evict_out_plain _ _ _ _ _ _ E)]. Qed.

Definition err_code_ok (r : sub_res) : Prop := match r with SubErr code => code <> 202 | SubOk _ => True end.
Lemma tus_out f s c u want h r : tus_spec f s c u want h r -> all_out plain (h_out h) /\ err_code_ok r.
Proof.
  intros [n' code H|w g s' c' n' o ch _ _ ST|p0 w g s1 c' n' o r' _ _ ST [->|[ch ->]]
         |p0 w g s1 c' n' o r' _ _ ST [->|[ch ->]]|p0 w g s1 s' n' _ _ _ _];
    try apply settled_out in ST; cbn; auto using all_out_nil; split; auto using all_out_nil; lia.
Qed.
Lemma aus_out s c t h r : aus_spec s c t h r -> all_out plain (h_out h) /\ err_code_ok r.
Proof.
  intros [n' code H|w g c' n' o _ ST|c' n' o ST|pt g c' n' o _ ST];
    try apply settled_out in ST; cbn; auto using all_out_nil.
Qed.

Lemma code_plain sid code : code <> 202 -> all_out plain [(sid, Ctrl code [])].
Proof. intros H e [<-|[]]. cbn. destruct (code =? 202) eqn:E; [lia|reflexivity]. Qed.

Lemma sub_tail_plain sid who fr r : plain fr = true -> err_code_ok r -> all_out plain (sub_tail sid who fr r).
Proof.
  intros P H. destruct r as [code|[[w g]|]]; cbn [sub_tail]; try (apply all_out_cons; [auto|apply all_out_nil]).
  destruct (code =? 0); [apply all_out_nil|exact (code_plain _ _ H)].
Qed.
Lemma sub_reply_out f s c n sid u want bkg : all_out plain (h_out (sub_reply f s c n sid u want bkg)).
Proof.
  destruct (sub_reply_shape f s c n sid u want bkg) as (h & r & SP & _ & -> & _).
  destruct (tus_out _ _ _ _ _ _ _ SP). apply all_out_app; [|apply sub_tail_plain]; auto.
Qed.
Lemma set_sub_out f s c n sid u t m : all_out plain (h_out (set_sub f s c n sid u t m)).
Proof.
  destruct (set_sub_shape f s c n sid u t m) as (h & r & SP & _ & _ & ->).
  destruct SP as [[_ SP]|[_ SP]]; [destruct (tus_out _ _ _ _ _ _ _ SP)|destruct (aus_out _ _ _ _ _ SP)];
    (apply all_out_app; [|apply sub_tail_plain]; auto).
Qed.

Lemma note_out f s c n sid u what seq : all_out is_info (h_out (note f s c n sid u what seq)).
Proof. unfold note. repeat break_match; cbn [h_out]; try apply all_out_nil; apply fanout_info_info. Qed.

Lemma unsub_out s c sid v h : unsub_spec s c sid v h -> all_out plain (h_out h).
Proof.
  intros [n' code H|s1 c1 n' code o1 k H _ EV]; cbn [h_out]; [exact (code_plain _ _ H)|].
  apply (all_out_app plain [(sid, Ctrl code [])]); [exact (code_plain _ _ H)|exact (evict_out_plain _ _ _ _ _ _ EV)].
Qed.
Lemma del_sub_out f s c n sid u t : all_out plain (h_out (del_sub f s c n sid u t)).
Proof. exact (unsub_out _ _ _ _ _ (del_sub_shape f s c n sid u t)). Qed.
Lemma leave_unsub_out f s c n sid u : all_out plain (h_out (leave_unsub f s c n sid u)).
Proof. exact (unsub_out _ _ _ _ _ (leave_unsub_shape f s c n sid u)). Qed.
Lemma leave_out c sid u : all_out plain (snd (leave c sid u)).
Proof. unfold leave. repeat break_match; out_solve. Qed.
Lemma del_msg_out dr f s c n sid u req hard : all_out plain (h_out (del_msg dr f s c n sid u req hard)).
Proof. unfold del_msg. repeat break_match; out_solve. Qed.
Lemma get_sub_out f s c n sid u : all_out plain (h_out (get_sub f s c n sid u)).
Proof. unfold get_sub. repeat break_match; out_solve. Qed.
Lemma get_del_out nr f s c n sid u a b l : all_out plain (h_out (get_del nr f s c n sid u a b l)).
Proof. unfold get_del. repeat break_match; out_solve. Qed.
Lemma offline_get_sub_out f s sid u : all_out plain (o_out (offline_get_sub f s sid u)).
Proof. unfold offline_get_sub. repeat break_match; out_solve. Qed.
Lemma offline_set_sub_out f s sid u t m : all_out plain (o_out (offline_set_sub f s sid u t m)).
Proof. unfold offline_set_sub. repeat break_match; out_solve. Qed.

(* message numbers a frame shows to a client *)
Definition frame_seqs (fr : frame) : list Z :=
  match fr with
  | Ctrl _ ps => map snd (filter (fun p => N.eqb (fst p) P_seq) ps)
  | Data seq _ _ => [seq]
  | MetaDesc _ _ seq _ _ _ _ => [seq]
  | Info _ _ seq => [seq]
  | Push seq _ _ => [seq]
  | _ => []
  end.
Definition out_seqs (o : out) : list Z := flat_map (fun e => frame_seqs (snd e)) o.
Definition shown_le (bound : Z) (o : out) : Prop := forall n, In n (out_seqs o) -> n <= bound.

Lemma plain_no_seqs fr : plain fr = true -> frame_seqs fr = [].
Proof.
  destruct fr; cbn; try discriminate; auto. intros H. apply andb_true_iff in H. destruct H as [_ H].
  induction params as [|p ps IH]; cbn in *; [reflexivity|]. apply andb_true_iff in H. destruct H as [H1 H2].
  apply negb_true_iff in H1. rewrite H1. auto.
Qed.

Lemma all_plain_shown b o : all_out plain o -> shown_le b o.
Proof.
  intros H n Hn. unfold out_seqs in Hn. apply in_flat_map in Hn. destruct Hn as [e [He Hn]].
  rewrite (plain_no_seqs _ (H e He)) in Hn. destruct Hn.
Qed.

Lemma shown_le_app b a c : shown_le b a -> shown_le b c -> shown_le b (a ++ c).
Proof. intros H1 H2 n Hn. unfold out_seqs in Hn. rewrite flat_map_app in Hn. apply in_app_or in Hn. destruct Hn; auto. Qed.
Lemma shown_le_mono b b' o : b <= b' -> shown_le b o -> shown_le b' o.
Proof. intros H1 H2 n Hn. specialize (H2 n Hn). lia. Qed.

Lemma fanout_info_shown c skip what from seq b : seq <= b -> shown_le b (fanout_info c skip what from seq).
Proof.
  intros H n Hn. unfold out_seqs in Hn. apply in_flat_map in Hn. destruct Hn as [e [He Hn]].
  unfold fanout_info in He. apply in_flat_map in He. destruct He as [[s0 [u0 b0]] [_ He]].
  repeat break_match_hyp; cbn in He; intuition; subst; cbn in Hn; intuition; subst; lia.
Qed.

Lemma fanout_data_shown c skip seq u content b : seq <= b -> shown_le b (fanout_data c skip (Data seq u content)).
Proof.
  intros H n Hn. unfold out_seqs in Hn. apply in_flat_map in Hn. destruct Hn as [e [He Hn]].
  unfold fanout_data in He. apply in_flat_map in He. destruct He as [[s0 [u0 b0]] [_ He]].
  repeat break_match_hyp; cbn in He; intuition; subst; cbn in Hn; intuition; subst; lia.
Qed.

Lemma note_shown f s c n sid u what seq : 0 <= c_lastid c -> shown_le (c_lastid c) (h_out (note f s c n sid u what seq)).
Proof.
  intros H0. unfold note. destruct (c_lastid c <? seq) eqn:E; [intros m []|]. apply Z.ltb_ge in E.
  repeat break_match; cbn [h_out]; try (intros m []); apply fanout_info_shown; assumption.
Qed.

Lemma get_all_in s u a b l m : In m (ad_msg_get_all s u a b l) -> In m (msgs s).
Proof.
  unfold ad_msg_get_all. intros H. apply firstn_In in H.
  assert (forall l0 x, In x (sort_desc l0) -> In x l0) as SD.
  { induction l0 as [|y l0 IH]; cbn; [auto|]. intros x Hx.
    assert (forall z l1, In x (insert_desc z l1) -> x = z \/ In x l1) as INS.
    { intros z l1. induction l1 as [|w l1 IH1]; cbn; [intuition|]. break_match; cbn; intuition. }
    apply INS in Hx. destruct Hx; [now left|right; auto]. }
  apply SD in H. apply filter_In in H. tauto.
Qed.

Lemma get_data_shown f s c n sid u a b l bound :
  (forall k, In k (map m_seq (msgs s)) -> k <= bound) ->
  shown_le bound (h_out (get_data f s c n sid u a b l)).
Proof.
  intros H. unfold get_data. repeat break_match; cbn [h_out]; try solve [apply all_plain_shown; out_solve].
  rewrite <- Heql0. apply (shown_le_app bound).
  - intros k Hk. unfold out_seqs in Hk. apply in_flat_map in Hk. destruct Hk as [e [He Hk]].
    apply in_map_iff in He. destruct He as [m0 [<- Hm]]. cbn in Hk. destruct Hk as [<-|[]].
    apply H. apply in_map. eapply get_all_in. exact Hm.
  - apply all_plain_shown. out_solve.
Qed.

Lemma get_desc_shown s c n sid u : 0 <= c_lastid c -> shown_le (c_lastid c) (h_out (get_desc s c n sid u)).
Proof.
  intros H0. unfold get_desc. repeat break_match; cbn [h_out]; intros k Hk; cbn in Hk; intuition; subst; lia.
Qed.

Lemma offline_get_desc_shown f s sid u b : 0 <= b -> shown_le b (o_out (offline_get_desc f s sid u)).
Proof.
  intros H0. unfold offline_get_desc. repeat break_match; cbn [o_out]; intros k Hk; cbn in Hk; intuition; subst; lia.
Qed.
