(* C16  Lemmas about Topic.replySetDesc above the store slice (Sys/FilesDescC16c.v). *)
From Coq Require Import NArith ZArith List Bool.
From Tinode Require Import Pure.Url Sys.Files Sys.FilesStoreProofs Sys.FilesDescC16c.
Import ListNotations.

(* ---- closed forms of the three steps ---- *)
Definition core_calls_c16c (fault : bool) (cat : cat_c16c) (core : option N) : list (dcall_c16c * bool) :=
  match core with
  | Some _ => match cat with
              | CatMeC16c => [(DUserUpdateC16c, fault)]
              | CatFndC16c => []
              | _ => [(DTopicUpdateC16c, fault)]
              end
  | None => []
  end.

(* the core update returned an error *)
Definition core_err_c16c (fault : bool) (cat : cat_c16c) (core : option N) : bool :=
  match core with
  | Some _ => match cat with CatFndC16c => false | _ => fault end
  | None => false
  end.

Definition subs_calls_c16c (fault : bool) (sub : option N) : list (dcall_c16c * bool) :=
  match sub with Some _ => [(DSubsUpdateC16c, fault)] | None => [] end.

Definition subs_fail_c16c (fault : bool) (sub : option N) : bool :=
  match sub with Some _ => fault | None => false end.

(* the link call is reached (given that the updates succeeded) and made *)
Definition link_due_c16c (handler : bool) (serve : list N) (core : option N) (urls : list (list N)) : bool :=
  match core with
  | Some _ => negb (length urls =? 0)%nat && handler && negb (length (resolve serve urls) =? 0)%nat
  | None => false
  end.

Definition link_calls_c16c (fault : bool) (handler : bool) (serve : list N) (core : option N)
    (urls : list (list N)) : list (dcall_c16c * bool) :=
  if link_due_c16c handler serve core urls then [(DFileLinkC16c, fault)] else [].

Lemma core_step_char : forall fault s cat tname as_uid core,
  let r := core_step_c16c fault s cat tname as_uid core in
  dd_fs (fst r) = dd_fs s /\
  dd_calls (fst r) = core_calls_c16c fault cat core ++ dd_calls s /\
  snd r = core_err_c16c fault cat core.
Proof.
  intros fault s cat tname as_uid core.
  unfold core_step_c16c, core_calls_c16c, core_err_c16c, core_update_c16c, dlog_c16c.
  destruct core as [v|]; [|repeat split; reflexivity].
  destruct cat, fault; repeat split; reflexivity.
Qed.

Lemma subs_step_char : forall fault r1 tname as_uid sub,
  let r := subs_step_c16c fault r1 tname as_uid sub in
  dd_fs (fst r) = dd_fs (fst r1) /\
  dd_calls (fst r) = (if snd r1 then [] else subs_calls_c16c fault sub) ++ dd_calls (fst r1) /\
  snd r = snd r1 || subs_fail_c16c fault sub.
Proof.
  intros fault [s1 e1] tname as_uid sub.
  unfold subs_step_c16c, subs_calls_c16c, subs_fail_c16c, subs_update_c16c, dlog_c16c. cbn [fst snd].
  destruct e1; [repeat split; reflexivity|]. cbn [negb orb].
  destruct sub as [v|]; [|repeat split; reflexivity].
  destruct fault; repeat split; reflexivity.
Qed.

Lemma link_step_char : forall fault handler serve s cat tname as_uid core urls,
  let r := link_step_c16c fault handler serve s cat tname as_uid core urls in
  dd_fs r = (if link_due_c16c handler serve core urls && negb fault
             then link_single (dd_fs s) (owner_target_c16c cat tname as_uid) (resolve serve urls)
             else dd_fs s) /\
  dd_calls r = link_calls_c16c fault handler serve core urls ++ dd_calls s /\
  dd_public r = dd_public s /\ dd_private r = dd_private s.
Proof.
  intros fault handler serve s cat tname as_uid core urls.
  unfold link_step_c16c, link_calls_c16c, link_due_c16c, link_attachments_c16c, file_link_owner_c16c, dlog_c16c.
  destruct core as [v|]; [|repeat split; reflexivity].
  destruct (length urls =? 0)%nat; cbn [negb andb]; [repeat split; reflexivity|].
  destruct handler; cbn [negb andb]; [|repeat split; reflexivity].
  destruct (length (resolve serve urls) =? 0)%nat; cbn [negb andb]; [repeat split; reflexivity|].
  destruct fault; repeat split; reflexivity.
Qed.

(* ---- the request as a whole ---- *)
Definition upd_err_c16c (ft : desc_faults_c16c) (cat : cat_c16c) (rq : sreq_c16c) : bool :=
  core_err_c16c (df_core ft) cat (sq_core rq) || subs_fail_c16c (df_subs ft) (sq_sub rq).

Definition expected_outcome_c16c (ft : desc_faults_c16c) (cat : cat_c16c) (rq : sreq_c16c) : set_outcome_c16c :=
  match sq_pre rq with
  | PreDeniedC16c => SetDeniedC16c
  | PreMalformedC16c => SetMalformedC16c
  | PreOkC16c =>
    if negb (is_modified_c16c rq) then SetNotModifiedC16c
    else if upd_err_c16c ft cat rq then SetFailedC16c
    else SetOkC16c
  end.

(* the adapter calls of the request, newest first *)
Definition expected_calls_rev_c16c (ft : desc_faults_c16c) (handler : bool) (serve : list N) (cat : cat_c16c)
    (rq : sreq_c16c) : list (dcall_c16c * bool) :=
  match sq_pre rq with
  | PreOkC16c =>
    if negb (is_modified_c16c rq) then []
    else
      (if upd_err_c16c ft cat rq then [] else link_calls_c16c (df_link ft) handler serve (sq_core rq) (sq_urls rq)) ++
      (if core_err_c16c (df_core ft) cat (sq_core rq) then [] else subs_calls_c16c (df_subs ft) (sq_sub rq)) ++
      core_calls_c16c (df_core ft) cat (sq_core rq)
  | _ => []
  end.

(* ... and in the order they are made *)
Definition expected_calls_c16c (ft : desc_faults_c16c) (handler : bool) (serve : list N) (cat : cat_c16c)
    (rq : sreq_c16c) : list (dcall_c16c * bool) :=
  match sq_pre rq with
  | PreOkC16c =>
    if negb (is_modified_c16c rq) then []
    else
      core_calls_c16c (df_core ft) cat (sq_core rq) ++
      (if core_err_c16c (df_core ft) cat (sq_core rq) then [] else subs_calls_c16c (df_subs ft) (sq_sub rq)) ++
      (if upd_err_c16c ft cat rq then [] else link_calls_c16c (df_link ft) handler serve (sq_core rq) (sq_urls rq))
  | _ => []
  end.

Definition expected_fs_c16c (ft : desc_faults_c16c) (handler : bool) (serve : list N) (fs : state)
    (cat : cat_c16c) (tname as_uid : N) (rq : sreq_c16c) : state :=
  match expected_outcome_c16c ft cat rq with
  | SetOkC16c =>
    if link_due_c16c handler serve (sq_core rq) (sq_urls rq) && negb (df_link ft)
    then link_single fs (owner_target_c16c cat tname as_uid) (resolve serve (sq_urls rq))
    else fs
  | _ => fs
  end.

Lemma set_desc_char : forall ft handler serve s cat tname as_uid rq,
  let r := set_desc_c16c ft handler serve s cat tname as_uid rq in
  snd r = expected_outcome_c16c ft cat rq /\
  dd_calls (fst r) = expected_calls_rev_c16c ft handler serve cat rq ++ dd_calls s /\
  dd_fs (fst r) = expected_fs_c16c ft handler serve (dd_fs s) cat tname as_uid rq.
Proof.
  intros ft handler serve s cat tname as_uid rq.
  unfold set_desc_c16c, expected_outcome_c16c, expected_calls_rev_c16c, expected_fs_c16c, expected_outcome_c16c, upd_err_c16c.
  destruct (sq_pre rq); cbv zeta; [|repeat split; reflexivity|repeat split; reflexivity].
  destruct (negb (is_modified_c16c rq)); [repeat split; reflexivity|].
  destruct (core_step_char (df_core ft) s cat tname as_uid (sq_core rq)) as [F1 [C1 E1]].
  destruct (subs_step_char (df_subs ft) (core_step_c16c (df_core ft) s cat tname as_uid (sq_core rq))
              tname as_uid (sq_sub rq)) as [F2 [C2 E2]].
  cbv zeta in F1, C1, E1, F2, C2, E2.
  rewrite E2, E1.
  destruct (core_err_c16c (df_core ft) cat (sq_core rq) || subs_fail_c16c (df_subs ft) (sq_sub rq)) eqn:Herr;
    cbn [fst snd].
  - rewrite C2, E1, C1, F2, F1. cbn [app]. rewrite <- ?app_assoc. repeat split; reflexivity.
  - destruct (link_step_char (df_link ft) handler serve
                (fst (subs_step_c16c (df_subs ft) (core_step_c16c (df_core ft) s cat tname as_uid (sq_core rq)) tname as_uid (sq_sub rq)))
                cat tname as_uid (sq_core rq) (sq_urls rq)) as [F3 [C3 _]].
    cbv zeta in F3, C3. rewrite F3, C3, C2, E1, C1, F2, F1. rewrite <- ?app_assoc. repeat split; reflexivity.
Qed.

Lemma rev_le1 : forall (A : Type) (l : list A), (length l <= 1)%nat -> rev l = l.
Proof.
  intros A [|a [|b l]] H; [reflexivity|reflexivity|]. cbn [length] in H.
  exfalso. apply (Nat.nle_succ_0 (length l)). apply le_S_n. exact H.
Qed.

Lemma core_calls_le1 : forall f cat core, (length (core_calls_c16c f cat core) <= 1)%nat.
Proof. intros f cat [v|]; [destruct cat|]; cbn; auto. Qed.
Lemma subs_calls_le1 : forall f sub, (length (subs_calls_c16c f sub) <= 1)%nat.
Proof. intros f [v|]; cbn; auto. Qed.
Lemma link_calls_le1 : forall f h sv core urls, (length (link_calls_c16c f h sv core urls) <= 1)%nat.
Proof. intros f h sv core urls. unfold link_calls_c16c. destruct (link_due_c16c h sv core urls); cbn; auto. Qed.

Lemma expected_calls_rev : forall ft handler serve cat rq,
  rev (expected_calls_rev_c16c ft handler serve cat rq) = expected_calls_c16c ft handler serve cat rq.
Proof.
  intros ft handler serve cat rq. unfold expected_calls_rev_c16c, expected_calls_c16c.
  destruct (sq_pre rq); try reflexivity.
  destruct (negb (is_modified_c16c rq)); [reflexivity|].
  rewrite !rev_app_distr, <- app_assoc.
  rewrite (rev_le1 _ (core_calls_c16c (df_core ft) cat (sq_core rq)) (core_calls_le1 _ _ _)).
  f_equal. f_equal.
  - destruct (core_err_c16c (df_core ft) cat (sq_core rq)); [reflexivity|].
    apply rev_le1, subs_calls_le1.
  - destruct (upd_err_c16c ft cat rq); [reflexivity|]. apply rev_le1, link_calls_le1.
Qed.

(* ---- refused: no effect on the file slice ---- *)
Lemma set_desc_refused_fs : forall ft handler serve s cat tname as_uid rq,
  snd (set_desc_c16c ft handler serve s cat tname as_uid rq) <> SetOkC16c ->
  dd_fs (fst (set_desc_c16c ft handler serve s cat tname as_uid rq)) = dd_fs s /\
  forall b, ~ In (DFileLinkC16c, b) (expected_calls_c16c ft handler serve cat rq).
Proof.
  intros ft handler serve s cat tname as_uid rq H.
  destruct (set_desc_char ft handler serve s cat tname as_uid rq) as [O [_ F]]. cbv zeta in O, F.
  rewrite O in H. rewrite F. unfold expected_fs_c16c.
  split; [destruct (expected_outcome_c16c ft cat rq); try reflexivity; congruence|].
  intros b. unfold expected_calls_c16c, expected_outcome_c16c in *.
  destruct (sq_pre rq); [|intros []|intros []].
  destruct (negb (is_modified_c16c rq)); [intros []|].
  destruct (upd_err_c16c ft cat rq); [|congruence].
  rewrite app_nil_r. intros Hin. apply in_app_iff in Hin. destruct Hin as [Hin|Hin].
  - unfold core_calls_c16c in Hin. destruct (sq_core rq); [destruct cat|]; cbn [In] in Hin;
      repeat (destruct Hin as [Hin|Hin]; [discriminate Hin|]); exact Hin.
  - destruct (core_err_c16c (df_core ft) cat (sq_core rq)); [destruct Hin|].
    unfold subs_calls_c16c in Hin. destruct (sq_sub rq); cbn [In] in Hin;
      repeat (destruct Hin as [Hin|Hin]; [discriminate Hin|]); exact Hin.
Qed.

(* ---- acknowledged: the file slice is that of the avatar operation of the history model ---- *)
Definition avatar_op_c16c (cat : cat_c16c) (tname as_uid : N) (fids : list N) : op :=
  match cat with
  | CatMeC16c => OUserAvatar as_uid fids
  | _ => OTopicAvatar tname fids
  end.

Lemma avatar_op_step : forall fs cat tname as_uid fids,
  step fs (avatar_op_c16c cat tname as_uid fids) = link_single fs (owner_target_c16c cat tname as_uid) fids.
Proof. intros fs cat tname as_uid fids. destruct cat; reflexivity. Qed.

Lemma set_desc_ok_fs : forall ft handler serve s cat tname as_uid rq,
  snd (set_desc_c16c ft handler serve s cat tname as_uid rq) = SetOkC16c ->
  dd_fs (fst (set_desc_c16c ft handler serve s cat tname as_uid rq)) =
    (if link_due_c16c handler serve (sq_core rq) (sq_urls rq) && negb (df_link ft)
     then step (dd_fs s) (avatar_op_c16c cat tname as_uid (resolve serve (sq_urls rq)))
     else dd_fs s).
Proof.
  intros ft handler serve s cat tname as_uid rq H.
  destruct (set_desc_char ft handler serve s cat tname as_uid rq) as [O [_ F]]. cbv zeta in O, F.
  rewrite O in H. rewrite F. unfold expected_fs_c16c. rewrite H. rewrite avatar_op_step. reflexivity.
Qed.

Lemma link_single_rows : forall fs tg f rest,
  memN f (file_ids fs) = true -> target_live fs tg = true ->
  links (link_single fs tg (f :: rest)) =
    filter (fun l => negb (target_eqb (snd l) tg)) (links fs) ++ [(f, tg)].
Proof. intros fs tg f rest H1 H2. unfold link_single. rewrite H1, H2. reflexivity. Qed.

Lemma target_eqb_refl : forall t, target_eqb t t = true.
Proof. intros [x|x|x]; cbn [target_eqb]; apply N.eqb_refl. Qed.

Lemma target_eqb_eq : forall a b, target_eqb a b = true -> a = b.
Proof.
  intros [x|x|x] [y|y|y] H; cbn [target_eqb] in H; try discriminate; apply N.eqb_eq in H; subst; reflexivity.
Qed.

Lemma link_due_of_resolve : forall handler serve core urls f rest,
  core <> None -> handler = true -> resolve serve urls = f :: rest ->
  link_due_c16c handler serve core urls = true.
Proof.
  intros handler serve core urls f rest Hc Hh Hr. unfold link_due_c16c.
  destruct core; [|congruence]. rewrite Hr, Hh.
  destruct urls as [|u us]; [discriminate Hr|]. reflexivity.
Qed.

(* the link rows after an acknowledged update whose first listed id names an upload record of an
   existing owner object, the link call not failing: the old rows of the owner object are gone, the
   new one is there, every other row is as before *)
Lemma set_desc_ok_links : forall ft handler serve s cat tname as_uid rq f rest,
  snd (set_desc_c16c ft handler serve s cat tname as_uid rq) = SetOkC16c ->
  sq_core rq <> None -> handler = true -> df_link ft = false ->
  resolve serve (sq_urls rq) = f :: rest ->
  let tg := owner_target_c16c cat tname as_uid in
  memN f (file_ids (dd_fs s)) = true -> target_live (dd_fs s) tg = true ->
  let ls := links (dd_fs (fst (set_desc_c16c ft handler serve s cat tname as_uid rq))) in
  In (f, tg) ls /\
  (forall a, In (a, tg) ls -> a = f) /\
  (forall a t, t <> tg -> (In (a, t) ls <-> In (a, t) (links (dd_fs s)))).
Proof.
  intros ft handler serve s cat tname as_uid rq f rest Hok Hc Hh Hl Hr tg Hf Ht ls.
  pose proof (link_due_of_resolve handler serve (sq_core rq) (sq_urls rq) f rest Hc Hh Hr) as Hdue.
  assert (E : ls = filter (fun l => negb (target_eqb (snd l) tg)) (links (dd_fs s)) ++ [(f, tg)]).
  { unfold ls. rewrite (set_desc_ok_fs _ _ _ _ _ _ _ _ Hok), Hdue, Hl. cbn [negb andb].
    rewrite avatar_op_step, Hr. apply link_single_rows; assumption. }
  rewrite E. split; [|split].
  - apply in_app_iff. right. left. reflexivity.
  - intros a Hin. apply in_app_iff in Hin. destruct Hin as [Hin|[Hin|[]]].
    + apply filter_In in Hin. destruct Hin as [_ Hin]. cbn [snd] in Hin. rewrite target_eqb_refl in Hin. discriminate.
    + inversion Hin. reflexivity.
  - intros a t Hne. split.
    + intros Hin. apply in_app_iff in Hin. destruct Hin as [Hin|[Hin|[]]].
      * apply filter_In in Hin. exact (proj1 Hin).
      * inversion Hin. congruence.
    + intros Hin. apply in_app_iff. left. apply filter_In. split; [exact Hin|]. cbn [snd].
      destruct (target_eqb t tg) eqn:Heq; [|reflexivity]. apply target_eqb_eq in Heq. congruence.
Qed.

Lemma run_from_app : forall h1 h2 s, run_from s (h1 ++ h2) = run_from (run_from s h1) h2.
Proof. intros h1 h2 s. unfold run_from. apply fold_left_app. Qed.

(* ---- the order matters: with the link made first a refused request has an effect ---- *)
Definition lf_name_a_c16c : list N := [86;102;51;107;81;57;95;45;97;90;48]%N.
Definition lf_name_b_c16c : list N := [87;102;51;107;81;57;95;45;97;90;48]%N.
Definition lf_serve_c16c : list N := [47;118;48;47;102;105;108;101;47;115;47]%N.
Definition lf_state_c16c : dstate_c16c :=
  {| dd_fs := run [OAddTopic 1; OStart (parse_uid lf_name_a_c16c) 0 []; OFinish (parse_uid lf_name_a_c16c) true 0;
                   OStart (parse_uid lf_name_b_c16c) 0 []; OFinish (parse_uid lf_name_b_c16c) true 0;
                   OTopicAvatar 1 [parse_uid lf_name_a_c16c]];
     dd_public := [(TTopic 1, 7%N)]; dd_private := []; dd_calls := [] |}.
Definition lf_request_c16c : sreq_c16c :=
  {| sq_pre := PreOkC16c; sq_core := Some 8%N; sq_sub := None; sq_urls := [lf_serve_c16c ++ lf_name_b_c16c] |}.
Definition lf_faults_c16c : desc_faults_c16c := {| df_core := true; df_subs := false; df_link := false |}.

(* the witness state, evaluated once (five ids decoded from their names) *)
Definition lf_fs_c16c : state := Eval vm_compute in dd_fs lf_state_c16c.

Lemma lf_state_eval :
  lf_state_c16c = {| dd_fs := lf_fs_c16c; dd_public := [(TTopic 1, 7%N)]; dd_private := []; dd_calls := [] |}.
Proof. vm_compute. reflexivity. Qed.

Lemma link_first_witness :
  let r := set_desc_link_first_c16c lf_faults_c16c true lf_serve_c16c lf_state_c16c CatGrpC16c 1 5 lf_request_c16c in
  snd r = SetFailedC16c /\
  linked (parse_uid lf_name_a_c16c) (links (dd_fs lf_state_c16c)) = true /\
  linked (parse_uid lf_name_a_c16c) (links (dd_fs (fst r))) = false /\
  dd_public (fst r) = dd_public lf_state_c16c /\
  (* ... and the next run of the garbage collector removes the avatar the record still refers to *)
  memN (parse_uid lf_name_a_c16c) (file_ids (step (dd_fs (fst r)) (OGC None 0))) = false.
Proof. rewrite lf_state_eval. vm_compute. repeat split; reflexivity. Qed.

Lemma link_last_witness :
  let r := set_desc_c16c lf_faults_c16c true lf_serve_c16c lf_state_c16c CatGrpC16c 1 5 lf_request_c16c in
  snd r = SetFailedC16c /\
  linked (parse_uid lf_name_a_c16c) (links (dd_fs (fst r))) = true /\
  memN (parse_uid lf_name_a_c16c) (file_ids (step (dd_fs (fst r)) (OGC None 0))) = true.
Proof. rewrite lf_state_eval. vm_compute. repeat split; reflexivity. Qed.

(* ---- the link call's own failure is ignored: acknowledged, the new avatar is NOT linked ---- *)
Definition li_faults_c16c : desc_faults_c16c := {| df_core := false; df_subs := false; df_link := true |}.

Lemma link_ignored_witness :
  let r := set_desc_c16c li_faults_c16c true lf_serve_c16c lf_state_c16c CatGrpC16c 1 5 lf_request_c16c in
  snd r = SetOkC16c /\
  dd_public (fst r) = [(TTopic 1, 8%N)] /\
  linked (parse_uid lf_name_b_c16c) (links (dd_fs (fst r))) = false /\
  linked (parse_uid lf_name_a_c16c) (links (dd_fs (fst r))) = true.
Proof. rewrite lf_state_eval. vm_compute. repeat split; reflexivity. Qed.
