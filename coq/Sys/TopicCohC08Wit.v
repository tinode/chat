(* C08: concrete witnesses (vm_compute) showing that each excluded trigger really breaks
   coherence / the reject and ack laws in the faithful model.  Every witness history was
   replayed on the real server (findings/C08.md). *)
From Coq Require Import ZArith NArith List Bool Lia.
From Tinode Require Import Base.Util Pure.Acs Sys.Topic Sys.TopicTac Sys.TopicFrame Sys.TopicNum Sys.TopicNumThm Sys.TopicInst
  Sys.TopicCohC08 Sys.TopicCohC08Proofs Sys.TopicCohC08Step Sys.TopicCohC08Run.
Import ListNotations.
Open Scope Z_scope.

(* owner 1 (full access), user 2 with the given want/given, default access JRWPS *)
Definition wit_store (w2 g2 : N) : store :=
  ad_sub_create (ad_sub_create (mkStore true 0 0 0 47 0 [] [] [] [(1%N, 47%N); (2%N, 47%N); (3%N, 47%N)]) 1%N 255%N 255%N) 2%N w2 g2.
Definition wit_sm : sessmap := [(1%N, 1%N); (2%N, 2%N); (3%N, 2%N)].
Definition wit_run (w2 g2 : N) (h : list (fault * op)) : state * list out :=
  run_i wit_sm (mkState (wit_store w2 g2) None 0) h.

(* well-formed whenever user 2 does not want O: user 1 is then the one owner *)
Lemma wit_wf w2 g2 : is_owner w2 = false -> wf_store (wit_store w2 g2).
Proof.
  intros W.
  assert (subs (wit_store w2 g2) = [mkSub 1 255 255 0 0 0 false; mkSub 2 w2 g2 0 0 0 false] /\
          t_auth (wit_store w2 g2) = 47%N /\ users (wit_store w2 g2) = [(1, 47); (2, 47); (3, 47)]%N) as [ES [EA EU]].
  { unfold wit_store. set (s1 := ad_sub_create _ 1%N _ _). unfold ad_sub_create.
    destruct (is_owner (N.land w2 g2)); repeat split; reflexivity. }
  unfold wf_store, owner_row. rewrite ES, EA, EU. split; [|split; [|split; [|split]]].
  - repeat constructor; cbn; intuition discriminate.
  - intros r [<-|[<-|[]]]; discriminate.
  - reflexivity.
  - intros u a. cbn [alookup]. repeat (destruct (N.eqb u _); [intros H; inv H; reflexivity|]). discriminate.
  - exists 1%N. split; [discriminate|]. split; [eexists; split; reflexivity|].
    intros v r F O. cbn [find_sub find s_user] in F.
    destruct (N.eqb_spec 1 v) as [<-|N1]; [inv F; repeat split; reflexivity|].
    destruct (N.eqb_spec 2 v) as [<-|N2]; [inv F; cbn [s_want] in O; congruence|discriminate].
Qed.

Lemma wit_inv0 w2 g2 : wf_store (wit_store w2 g2) -> inv (mkState (wit_store w2 g2) None 0) /\ inv_num (mkState (wit_store w2 g2) None 0).
Proof.
  intros W. split; [split; [exact W|exact I]|]. apply fresh_inv. unfold wit_store. set (s1 := ad_sub_create _ 1%N _ _). unfold ad_sub_create.
  destruct (is_owner (N.land w2 g2)); split; reflexivity.
Qed.

Ltac not_agree u := intros NA; destruct NA as [_ [_ [_ [_ [_ NA]]]]]; specialize (NA u); vm_compute in NA; discriminate.

(* #1 a read note above the received mark: recv advances in the cache only *)
Lemma wit_note_read :
  ~ coherent (fst (wit_run 47 47 [(NoFault, OSub 1 [] false); (NoFault, OSub 2 [] false); (NoFault, OPub 1 7 false); (NoFault, ONote 2 K_read 1)])).
Proof. unfold coherent. vm_compute ca. vm_compute st. not_agree 2%N. Qed.

(* #2 a publisher without R: marks advance in the cache only *)
Lemma wit_readless_pub :
  ~ coherent (fst (wit_run 5 47 [(NoFault, OSub 2 [] false); (NoFault, OPub 2 7 false)])).
Proof. unfold coherent. vm_compute ca. vm_compute st. not_agree 2%N. Qed.

(* #3 {set sub} from a session that is not attached while the topic is loaded *)
Lemma wit_offline_setsub :
  ~ coherent (fst (wit_run 47 47 [(NoFault, OSub 1 [] false); (NoFault, OSetSub 2 0 [74; 82; 87]%N)])).
Proof. unfold coherent. vm_compute ca. vm_compute st. not_agree 2%N. Qed.

Lemma wit_pre w2 g2 h :
  wf_store (wit_store w2 g2) ->
  safe_run del_ranges_i norm_ranges_i wit_sm (mkState (wit_store w2 g2) None 0) h ->
  inv (fst (wit_run w2 g2 h)) /\ inv_num (fst (wit_run w2 g2 h)).
Proof.
  intros W SR. destruct (wit_inv0 w2 g2 W) as [IV IN]. unfold wit_run, run_i. split.
  - apply run_inv_coh; assumption.
  - apply run_inv_num. exact IN.
Qed.

(* discharge one conjunct of safe_step on closed terms *)
Ltac safe_conj :=
  first [ exact I
        | left; reflexivity
        | solve [left; repeat split; reflexivity]
        | solve [vm_compute; discriminate]
        | solve [intros H; vm_compute in H; first [contradiction | destruct H as [? ?]; discriminate | destruct H as [? [? ?]]; discriminate | destruct H as [? [? H']]; vm_compute in H'; discriminate]] ].
Ltac safe_leaf :=
  first [ exact I | left; reflexivity | (left; repeat split; reflexivity) | discriminate
        | intros H; first [contradiction | discriminate H
                          | destruct H as [H1 H2]; first [discriminate H1|discriminate H2]
                          | destruct H as [H1 [H2 H3]]; first [discriminate H1|discriminate H2|discriminate H3]] ].
(* the whole formula is closed: normalise it once in the VM, then decide the leaves *)
Ltac safe_tac := vm_compute; repeat split; safe_leaf.

Definition step_last (w2 g2 : N) (pre : list (fault * op)) (f : fault) (o : op) : state :=
  fst (step_i wit_sm f (fst (wit_run w2 g2 pre)) o).

(* every hypothesis of the step theorem holds except hypothesis number [k]
   (1 read note above recv, 2 publisher without R, 3 offline set-sub, 4 fault plan), and coherence fails *)
Record refutes (k : nat) (x : state) (f : fault) (o : op) : Prop := mkRef {
  r_inv : inv x; r_num : inv_num x; r_known : known wit_sm o;
  r_t1 : k <> 1%nat -> ~ trig_note_read wit_sm x o;
  r_t2 : k <> 2%nat -> ~ trig_readless_pub wit_sm x o;
  r_t3 : k <> 3%nat -> ~ trig_offline_setsub x o;
  r_fo : k <> 4%nat -> fault_ok wit_sm f x o;
  r_bad : ~ coherent (fst (step del_ranges_i norm_ranges_i wit_sm f x o)) }.

Ltac hyp_tac := first [ intros NE; exfalso; apply NE; reflexivity | intros _; safe_conj ].

Ltac refute_tac W u :=
  match goal with |- refutes _ (fst (wit_run ?w2 ?g2 ?pre)) ?f ?o =>
    let P := fresh "P" in
    assert (inv (fst (wit_run w2 g2 pre)) /\ inv_num (fst (wit_run w2 g2 pre))) as P by (apply (wit_pre w2 g2 pre W); safe_tac);
    destruct P as [P1 P2]; split; [exact P1|exact P2|vm_compute; discriminate|hyp_tac|hyp_tac|hyp_tac|hyp_tac|];
    unfold coherent; vm_compute ca; vm_compute st; not_agree u
  end.

Lemma ref_note_read :
  refutes 1 (fst (wit_run 47 47 [(NoFault, OSub 1 [] false); (NoFault, OSub 2 [] false); (NoFault, OPub 1 7 false)])) NoFault (ONote 2 K_read 1).
Proof. refute_tac (wit_wf 47 47 eq_refl) 2%N. Qed.

Lemma ref_readless_pub :
  refutes 2 (fst (wit_run 5 47 [(NoFault, OSub 2 [] false)])) NoFault (OPub 2 7 false).
Proof. refute_tac (wit_wf 5 47 eq_refl) 2%N. Qed.

Lemma ref_offline_setsub :
  refutes 3 (fst (wit_run 47 47 [(NoFault, OSub 1 [] false)])) NoFault (OSetSub 2 0 [74; 82; 87]%N).
Proof. refute_tac (wit_wf 47 47 eq_refl) 2%N. Qed.

(* faults: the 2nd store call of a publish fails (stored seqid advanced), the 3rd (publisher's marks;
   error ignored, publish acknowledged) *)
Ltac not_scalar := intros NA; destruct NA as [NA1 [NA2 _]]; vm_compute in NA1, NA2; discriminate.
Ltac refute_scalar W :=
  match goal with |- refutes _ (fst (wit_run ?w2 ?g2 ?pre)) ?f ?o =>
    let P := fresh "P" in
    assert (inv (fst (wit_run w2 g2 pre)) /\ inv_num (fst (wit_run w2 g2 pre))) as P by (apply (wit_pre w2 g2 pre W); safe_tac);
    destruct P as [P1 P2]; split; [exact P1|exact P2|vm_compute; discriminate|hyp_tac|hyp_tac|hyp_tac|hyp_tac|];
    unfold coherent; vm_compute ca; vm_compute st; not_scalar
  end.

Lemma ref_pub_fail2 :
  refutes 4 (fst (wit_run 47 47 [(NoFault, OSub 1 [] false)])) (FailAt 2) (OPub 1 7 false).
Proof. refute_scalar (wit_wf 47 47 eq_refl). Qed.
Lemma ref_pub_fail3 :
  refutes 4 (fst (wit_run 47 47 [(NoFault, OSub 1 [] false)])) (FailAt 3) (OPub 1 7 false).
Proof. refute_tac (wit_wf 47 47 eq_refl) 1%N. Qed.
(* the 3rd store call of a delete fails: deletion log and topic delid stored, cache not moved *)
Lemma ref_del_fail3 :
  refutes 4 (fst (wit_run 47 47 [(NoFault, OSub 1 [] false); (NoFault, OPub 1 7 false)])) (FailAt 3) (ODelMsg 1 [(1, 0)] true).
Proof. refute_scalar (wit_wf 47 47 eq_refl). Qed.
(* the 2nd store call of an ownership acceptance fails: the new owner's want is stored, nothing is cached, no reply *)
Lemma ref_transfer_fail2 :
  refutes 4 (fst (wit_run 47 255 [(NoFault, OSub 1 [] false); (NoFault, OSub 2 [] false)])) (FailAt 2) (OSetSub 2 0 [74; 82; 87; 80; 65; 83; 68; 79]%N).
Proof. refute_tac (wit_wf 47 255 eq_refl) 2%N. Qed.
