(* Proofs about Sys/FanoutHistC04.v: on topics with channel subscriptions the history / deletion-log answer of an
   attached session is gated by R in want & given of the ACTING user and by nothing else - not by the name the
   request is addressed to, not by the way the session is attached. *)
From Coq Require Import ZArith NArith List Bool Lia.
From Tinode Require Import Sys.Fanout Sys.FanoutQueryC01 Sys.FanoutQueryC01Proofs Sys.FanoutHistC04.
From Tinode Require Sys.Topic Sys.TopicTac Sys.TopicOut Sys.TopicImsC01.
Import ListNotations.
Open Scope N_scope.

Definition pairs_c04 (ms : list Topic.msgrow) : list (Z * N) := map (fun m => (Topic.m_seq m, Topic.m_content m)) ms.

Lemma shown_lift_data s (ft : Topic.msgrow -> tname) (ff : Topic.msgrow -> uid) ms tl :
  shown_c04 (lift_c04 (map (fun m => (s, QData (ft m) (ff m) (Topic.m_seq m) (Topic.m_content m))) ms ++ tl)) =
  pairs_c04 ms ++ shown_c04 (lift_c04 tl).
Proof.
  induction ms as [|m r IH]; cbn [map app lift_c04 shown_c04 pairs_c04 fst snd]; [reflexivity|].
  f_equal. exact IH.
Qed.

Lemma shown_no_data o : (forall e, In e o -> is_data_c04 (snd e) = false) <-> shown_c04 o = [].
Proof.
  induction o as [|[k f] r IH]; cbn [shown_c04]; [split; [reflexivity|intros _ e []]|].
  destruct f as [[t fr q c|fl rd q|c]|d rs]; cbn.
  - split; [intros H; specialize (H _ (or_introl eq_refl)); discriminate|discriminate].
  - rewrite <- IH. split; [intros H e He; apply H; now right|intros H e [<-|He]; [reflexivity|now apply H]].
  - rewrite <- IH. split; [intros H e He; apply H; now right|intros H e [<-|He]; [reflexivity|now apply H]].
  - rewrite <- IH. split; [intros H e He; apply H; now right|intros H e [<-|He]; [reflexivity|now apply H]].
Qed.

(* ------------------------------------------------------------------ *)
(* {get what=data}                                                      *)

(* the whole answer of replyGetData, by cases on the two tests it makes *)
Lemma q_get_data_cases x s u name a b l :
  q_get_data x s u name a b l =
  if negb (chan_ok (q_st x) (name_chan_c01q name)) then [(s, QCtrl 404%Z)] else
  if read_gate_c04 (q_st x) u then
    match Topic.ad_msg_get_all (store_of_c01q (q_msgs x)) u a b l with
    | [] => [(s, QCtrl 204%Z)]
    | ms => map (fun m => (s, QData (original (q_st x) u) (if name_chan_c01q name then 0 else Topic.m_from m)
                                    (Topic.m_seq m) (Topic.m_content m))) ms ++ [(s, QCtrl 208%Z)]
    end
  else [(s, QCtrl 204%Z)].
Proof. reflexivity. Qed.

(* no R in want & given of the acting user: one {ctrl} (404 or 204), no message - whatever the name, the range,
   the session, the kind of topic, the way the session is attached *)
Lemma q_get_data_needs_read x s u name a b l :
  read_gate_c04 (q_st x) u = false ->
  q_get_data x s u name a b l = [(s, QCtrl 404%Z)] \/ q_get_data x s u name a b l = [(s, QCtrl 204%Z)].
Proof.
  intros G. rewrite q_get_data_cases, G. destruct (negb (chan_ok (q_st x) (name_chan_c01q name))); auto.
Qed.

Lemma q_get_data_needs_read_shown x s u name a b l :
  read_gate_c04 (q_st x) u = false -> shown_c04 (lift_c04 (q_get_data x s u name a b l)) = [].
Proof. intros G. destruct (q_get_data_needs_read x s u name a b l G) as [-> | ->]; reflexivity. Qed.

(* R in want & given, name admissible: exactly the rows the store contract selects for THAT user, newest first *)
Lemma q_get_data_exact x s u name a b l :
  read_gate_c04 (q_st x) u = true -> chan_ok (q_st x) (name_chan_c01q name) = true ->
  shown_c04 (lift_c04 (q_get_data x s u name a b l)) =
  pairs_c04 (Topic.ad_msg_get_all (store_of_c01q (q_msgs x)) u a b l).
Proof.
  intros G C. rewrite q_get_data_cases, G, C. cbn [negb].
  destruct (Topic.ad_msg_get_all (store_of_c01q (q_msgs x)) u a b l) as [|m0 ms]; [reflexivity|].
  rewrite shown_lift_data. cbn [lift_c04 map shown_c04 fst snd]. apply app_nil_r.
Qed.

(* ------------------------------------------------------------------ *)
(* {get what=del}                                                       *)
Lemma q_get_del_needs_read x s u name a b l :
  read_gate_c04 (q_st x) u = false ->
  forall e, In e (q_get_del_c04 x s u name a b l) -> is_metadel_c04 (snd e) = false.
Proof.
  intros G e. unfold q_get_del_c04. rewrite G.
  destruct (negb (chan_ok (q_st x) (name_chan_c01q name))); intros [<-|[]]; reflexivity.
Qed.

(* ------------------------------------------------------------------ *)
(* {sub get=data}                                                       *)
Lemma h_sub_get_data_is_query x s u name a b l x1 out :
  h_sub_get_data_c04 x s u name a b l = (Some x1, out) ->
  (x1 = x /\ out = [(s, HF (QCtrl 404%Z))]) \/
  (q_msgs x1 = q_msgs x /\ attach (q_st x) s u (name_chan_c01q name) = Some (q_st x1) /\
   out = lift_c04 (q_get_data x1 s u name a b l)).
Proof.
  unfold h_sub_get_data_c04. destruct (has_key s (st_sess (q_st x))); [discriminate|].
  destruct (negb (chan_ok (q_st x) (name_chan_c01q name))); [intros E; inversion E; now left|].
  destruct (attach (q_st x) s u (name_chan_c01q name)) as [st1|]; [|discriminate].
  destruct (has_key s (st_sess st1)); [|discriminate].
  intros E. inversion E; subst. right. cbn [q_msgs q_st]. auto.
Qed.

Lemma hstep_get_del_pure x s u name a b l ox out :
  hstep_c04 x (HGetDel s u name a b l) = (ox, out) -> qnext x ox = x.
Proof. cbn [hstep_c04]. destruct (has_key s (st_sess (q_st x))); intros E; inversion E; reflexivity. Qed.

(* ------------------------------------------------------------------ *)
(* the gate short-circuited on asChan (seeded change C04-r4-3): the statement that the variant still
   shows nothing without R, and the witness against it; the refutation is in Props/PropC04.v        *)
Definition aschan_gate_statement_c04 : Prop :=
  forall x s u name a b l, read_gate_c04 (q_st x) u = false ->
    shown_c04 (lift_c04 (q_get_data_aschan_c04 x s u name a b l)) = [].

(* channel-enabled group; owner 1 (attached, publishes 101); member 2 with given JWPS = 45 (no R) attached under the
   group name asks for the history through the channel name *)
Definition wh_st_c04 : state :=
  mkState KChn 1 47 [(1, mkPud 255 255 false false 0 1%Z); (2, mkPud 47 45 false false 0 1%Z)]
          [(1, mkPsd 1 false); (2, mkPsd 2 false)] 0%Z [] [] [].
Definition wh_x_c04 : qstate :=
  fst (qrun (qinit wh_st_c04) [QBase (OPub (mkPx 1 1 1 TGrp false true 101 []))]).

Lemma wh_gate_c04 : read_gate_c04 (q_st wh_x_c04) 2 = false.
Proof. vm_compute. reflexivity. Qed.
Lemma wh_variant_c04 : shown_c04 (lift_c04 (q_get_data_aschan_c04 wh_x_c04 2 2 TChn 0%Z 0%Z 0%Z)) = [(1%Z, 101)].
Proof. vm_compute. reflexivity. Qed.

(* ... while the handler as it is answers 204 to both spellings *)
Lemma wh_real_c04 :
  q_get_data wh_x_c04 2 2 TChn 0%Z 0%Z 0%Z = [(2, QCtrl 204%Z)] /\
  q_get_data wh_x_c04 2 2 TGrp 0%Z 0%Z 0%Z = [(2, QCtrl 204%Z)] /\
  shown_c04 (lift_c04 (q_get_data wh_x_c04 1 1 TChn 0%Z 0%Z 0%Z)) = [(1%Z, 101)].
Proof. vm_compute. repeat split. Qed.

(* the state on which Props/PropC04.v runs the {sub get=data} request: a channel reader's first connection reads
   the history, author withheld; a member whose R is not given attaches and gets 204 *)
Definition ws_st_c04 : state :=
  mkState KChn 1 47 [(1, mkPud 255 255 false false 0 1%Z); (2, mkPud 47 45 false false 0 0%Z)]
          [(1, mkPsd 1 false)] 0%Z [] [(3, 11)] [].
Definition ws_x_c04 : qstate :=
  fst (qrun (qinit ws_st_c04) [QBase (OPub (mkPx 1 1 1 TGrp false true 101 []))]).
