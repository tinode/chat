(* C16  lemmas about Sys/FilesSaveC16b.v (messagesMapper.Save, Topic.saveAndBroadcastMessage) *)
From Coq Require Import NArith ZArith List Bool Lia.
From Tinode Require Import Pure.Url Sys.Files Sys.FilesStoreProofs Sys.FilesSaveC16b.
Import ListNotations.

(* the file ids Save hands to FileLinkAttachments *)
Definition save_fids_c16b (handler : bool) (serve : list N) (urls : list (list N)) : list N :=
  if handler then resolve serve urls else [].

(* What Save does to the store slice of Sys/Files.v and whether it returns an error, written as a
   function of the things this may depend on: the fault plan of the three calls that matter, the
   media handler, the topic and the URLs - NOT readBySender, NOT the sender, NOT the outcome of
   SubsUpdate, NOT the sequence number.  [save_fs_char] proves that Save is this function. *)
Definition save_fs_c16b (ft : save_faults) (handler : bool) (serve : list N) (f : state) (topic : N)
    (urls : list (list N)) : state * bool :=
  if ff_topic ft then (f, true)
  else if ff_msg ft || negb (memN topic (topics f)) then (f, true)
  else
    let fids := save_fids_c16b handler serve urls in
    match fids with
    | [] => (step f (OPublish topic []), false)
    | _ :: _ =>
      if ff_link ft then (step f (OPublish topic []), true)
      else (step f (OPublish topic fids), negb (forallb (fun x => memN x (file_ids f)) fids))
    end.

Lemma resolve_nil_c16b : forall serve, resolve serve [] = [].
Proof. reflexivity. Qed.

Lemma length_eqb_nil : forall (A : Type) (l : list A), (length l =? 0)%nat = true <-> l = [].
Proof. intros A [|a l]; cbn; split; intros H; try reflexivity; discriminate. Qed.

(* the state once MessageSave has stored the row: the publish that links nothing *)
Definition after_msg_c16b (f : state) (topic : N) : state :=
  {| files := files f; links := links f; msgs := (next_mid f, topic) :: msgs f; next_mid := N.succ (next_mid f);
     topics := topics f; users := users f; disk := disk f; att := att f |}.

(* the optional SubsUpdate; the second component is markedReadBySender *)
Definition mark_step_c16b (ft : save_faults) (rbs : bool) (m : msg_c16b) (s2 : sstate_c16b) : sstate_c16b * bool :=
  if rbs then
    if negb (mg_from m =? 0)%N then
      (fst (subs_update_c16b (ff_subs ft) s2 (mg_topic m) (mg_from m) (mg_seq m)),
       negb (snd (subs_update_c16b (ff_subs ft) s2 (mg_topic m) (mg_from m) (mg_seq m))))
    else (s2, false)
  else (s2, false).

Lemma mark_step_spec : forall ft rbs m s,
  let due := rbs && negb (mg_from m =? 0)%N in
  let r := mark_step_c16b ft rbs m s in
  sv_fs (fst r) = sv_fs s /\
  sv_calls (fst r) = sv_calls s ++ (if due then [(CSubsUpdate, ff_subs ft)] else []) /\
  snd r = due && negb (ff_subs ft) /\
  (due = false -> sv_subs (fst r) = sv_subs s).
Proof.
  intros ft rbs m s. unfold mark_step_c16b, subs_update_c16b. cbv zeta.
  destruct rbs, (negb (mg_from m =? 0)%N); cbn [andb]; try (repeat split; symmetry; apply app_nil_r).
  destruct (ff_subs ft); repeat split; discriminate.
Qed.

Lemma file_link_spec : forall fault s mid fids,
  let r := file_link_msg_c16b fault s mid fids in
  sv_subs (fst r) = sv_subs s /\ sv_calls (fst r) = sv_calls s ++ [(CFileLinkAttachments, fault)].
Proof.
  intros fault s mid fids. unfold file_link_msg_c16b. cbv zeta. destruct fault; [split; reflexivity|].
  destruct (negb (memN mid _)); [split; reflexivity|]. destruct (negb (forallb _ fids)); split; reflexivity.
Qed.

(* FileLinkAttachments right after MessageSave stored the row: the foreign key of the message holds,
   and the two calls together are the publish operation of Sys/Files.v *)
Lemma file_link_after_msg_c16b : forall fault s3 f topic fids,
  sv_fs s3 = after_msg_c16b f topic -> memN topic (topics f) = true -> fids <> [] ->
  let r := file_link_msg_c16b fault s3 (next_mid f) fids in
  sv_fs (fst r) = step f (OPublish topic (if fault then [] else fids)) /\
  snd r = fault || negb (forallb (fun x => memN x (file_ids f)) fids).
Proof.
  intros fault s3 f topic fids H Ht Hne. unfold file_link_msg_c16b, log_c16b. cbv zeta. cbn [sv_fs step]. rewrite H, Ht.
  destruct fault; [rewrite !app_nil_r; split; reflexivity|].
  replace (memN (next_mid f) (map fst (msgs (after_msg_c16b f topic)))) with true
    by (unfold memN; cbn [after_msg_c16b msgs map fst existsb]; rewrite N.eqb_refl; reflexivity).
  change (file_ids (after_msg_c16b f topic)) with (file_ids f). cbn [negb orb].
  destruct fids as [|a fids]; [destruct (Hne eq_refl)|].
  destruct (forallb (fun x => memN x (file_ids f)) (a :: fids)); [split; reflexivity|].
  rewrite !app_nil_r. split; reflexivity.
Qed.

(* the state once TopicUpdateOnMessage and MessageSave have succeeded *)
Definition saved_c16b (s : sstate_c16b) (m : msg_c16b) : sstate_c16b :=
  with_fs_c16b (log_c16b (fst (topic_update_on_message_c16b false s m)) CMessageSave false)
               (after_msg_c16b (sv_fs s) (mg_topic m)).

Lemma saved_calls_c16b : forall s m,
  sv_calls (saved_c16b s m) = sv_calls s ++ [(CTopicUpdateOnMessage, false); (CMessageSave, false)].
Proof. intros s m. cbn. rewrite <- app_assoc. reflexivity. Qed.

(* Save's control flow with the first two calls decided and the last two kept as calls *)
Lemma save_cases : forall ft handler serve s m urls rbs,
  save_c16b ft handler serve s m urls rbs =
  if ff_topic ft then (log_c16b s CTopicUpdateOnMessage true, {| sr_err := true; sr_marked := false |})
  else if ff_msg ft || negb (memN (mg_topic m) (topics (sv_fs s)))
  then (log_c16b (fst (topic_update_on_message_c16b false s m)) CMessageSave (ff_msg ft),
        {| sr_err := true; sr_marked := false |})
  else
    let sm := mark_step_c16b ft rbs m (saved_c16b s m) in
    match save_fids_c16b handler serve urls with
    | [] => (fst sm, {| sr_err := false; sr_marked := snd sm |})
    | (_ :: _) as fids =>
      let r4 := file_link_msg_c16b (ff_link ft) (fst sm) (next_mid (sv_fs s)) fids in
      (fst r4, {| sr_err := snd r4; sr_marked := snd sm |})
    end.
Proof.
  intros ft handler serve s m urls rbs. unfold save_c16b, mark_step_c16b, save_fids_c16b, saved_c16b.
  destruct (ff_topic ft); [reflexivity|]. destruct (ff_msg ft); [reflexivity|].
  unfold message_save_c16b. cbn [topic_update_on_message_c16b log_c16b sv_fs fst snd orb].
  destruct (memN (mg_topic m) (topics (sv_fs s))); [|reflexivity].
  destruct handler, urls as [|u urls]; try reflexivity. destruct (resolve serve (u :: urls)); reflexivity.
Qed.

Lemma save_fs_char : forall ft handler serve s m urls rbs,
  let r := save_c16b ft handler serve s m urls rbs in
  let q := save_fs_c16b ft handler serve (sv_fs s) (mg_topic m) urls in
  sv_fs (fst r) = fst q /\ sr_err (snd r) = snd q.
Proof.
  intros ft handler serve s m urls rbs. cbv zeta. rewrite save_cases. unfold save_fs_c16b.
  destruct (ff_topic ft); [split; reflexivity|].
  destruct (ff_msg ft || negb (memN (mg_topic m) (topics (sv_fs s)))) eqn:Ht; [split; reflexivity|].
  apply orb_false_elim in Ht. destruct Ht as [_ Ht]. apply negb_false_iff in Ht. cbv zeta.
  destruct (mark_step_spec ft rbs m (saved_c16b s m)) as [Hsm _].
  destruct (save_fids_c16b handler serve urls) as [|a fids]; cbn [fst snd sr_err].
  - split; [|reflexivity]. rewrite Hsm. cbn [step]. rewrite Ht. cbv zeta. rewrite !app_nil_r. reflexivity.
  - assert (Hne : a :: fids <> []) by discriminate.
    destruct (file_link_after_msg_c16b (ff_link ft) _ _ _ _ Hsm Ht Hne) as [L1 L2].
    rewrite L1, L2. destruct (ff_link ft); split; reflexivity.
Qed.

(* ---- readBySender, the sender, SubsUpdate and the sequence number do not matter ---- *)
Lemma save_fs_independent : forall ft ft' handler serve s s' m m' urls rbs rbs',
  ff_topic ft = ff_topic ft' -> ff_msg ft = ff_msg ft' -> ff_link ft = ff_link ft' ->
  sv_fs s = sv_fs s' -> mg_topic m = mg_topic m' ->
  sv_fs (fst (save_c16b ft handler serve s m urls rbs)) = sv_fs (fst (save_c16b ft' handler serve s' m' urls rbs')) /\
  sr_err (snd (save_c16b ft handler serve s m urls rbs)) = sr_err (snd (save_c16b ft' handler serve s' m' urls rbs')).
Proof.
  intros ft ft' handler serve s s' m m' urls rbs rbs' H1 H2 H3 Hs Hm.
  destruct (save_fs_char ft handler serve s m urls rbs) as [A1 A2].
  destruct (save_fs_char ft' handler serve s' m' urls rbs') as [B1 B2].
  rewrite A1, A2, B1, B2. unfold save_fs_c16b. rewrite H1, H2, H3, Hs, Hm. split; reflexivity.
Qed.

(* ---- an accepted Save is the publish operation of the history model ---- *)
Lemma save_accepted_fs : forall ft serve s m urls rbs,
  let r := save_c16b ft true serve s m urls rbs in
  sr_err (snd r) = false ->
  memN (mg_topic m) (topics (sv_fs s)) = true /\
  forallb (fun x => memN x (file_ids (sv_fs s))) (resolve serve urls) = true /\
  sv_fs (fst r) = step (sv_fs s) (OPublish (mg_topic m) (resolve serve urls)).
Proof.
  intros ft serve s m urls rbs r Herr. subst r.
  destruct (save_fs_char ft true serve s m urls rbs) as [A1 A2]. rewrite A2 in Herr. rewrite A1. clear A1 A2.
  unfold save_fs_c16b, save_fids_c16b in *.
  destruct (ff_topic ft); [discriminate|].
  destruct (ff_msg ft); [discriminate|]. cbn [orb] in *.
  destruct (memN (mg_topic m) (topics (sv_fs s))); cbn [negb] in *; [|discriminate].
  split; [reflexivity|].
  destruct (resolve serve urls) as [|a fids]; [split; reflexivity|].
  destruct (ff_link ft); [discriminate|]. cbn [snd fst] in *.
  apply negb_false_iff in Herr. split; [exact Herr|reflexivity].
Qed.

Lemma save_accepted_links : forall ft serve s m urls rbs url,
  let r := save_c16b ft true serve s m urls rbs in
  sr_err (snd r) = false ->
  In url urls -> get_id_from_url serve url <> 0%N ->
  In (get_id_from_url serve url, TMsg (next_mid (sv_fs s))) (links (sv_fs (fst r))) /\
  target_live (sv_fs (fst r)) (TMsg (next_mid (sv_fs s))) = true /\
  In (get_id_from_url serve url) (file_ids (sv_fs (fst r))).
Proof.
  intros ft serve s m urls rbs url r Herr Hin Hnz.
  destruct (save_accepted_fs ft serve s m urls rbs Herr) as [Ht [Hall Hfs]]. fold r in Hfs. rewrite Hfs.
  assert (Hf : In (get_id_from_url serve url) (resolve serve urls)).
  { apply resolve_In. split; [exact Hnz|]. exists url. split; [exact Hin|reflexivity]. }
  cbn [step]. rewrite Ht. cbv zeta. cbn [links target_live msgs map fst file_ids files].
  destruct (resolve serve urls) as [|a fids] eqn:Er; [destruct Hf|]. rewrite Hall.
  split; [|split].
  - apply in_app_iff. right. apply in_map_iff. exists (get_id_from_url serve url). split; [reflexivity|exact Hf].
  - unfold memN. cbn [existsb]. rewrite N.eqb_refl. reflexivity.
  - apply memN_In. rewrite forallb_forall in Hall. exact (Hall _ Hf).
Qed.

(* Save succeeds whenever the three calls that matter do *)
Lemma save_accepts : forall ft handler serve s m urls rbs,
  ff_topic ft = false -> ff_msg ft = false -> ff_link ft = false ->
  memN (mg_topic m) (topics (sv_fs s)) = true ->
  forallb (fun x => memN x (file_ids (sv_fs s))) (save_fids_c16b handler serve urls) = true ->
  sr_err (snd (save_c16b ft handler serve s m urls rbs)) = false.
Proof.
  intros ft handler serve s m urls rbs H1 H2 H3 Ht Hall.
  rewrite (proj2 (save_fs_char ft handler serve s m urls rbs)).
  unfold save_fs_c16b. rewrite H1, H2, H3, Ht. cbn [orb negb].
  destruct (save_fids_c16b handler serve urls) as [|a fids]; [reflexivity|].
  cbn [snd]. rewrite Hall. reflexivity.
Qed.

Lemma publish_row_live : forall f topic fids,
  memN topic (topics f) = true -> target_live (step f (OPublish topic fids)) (TMsg (next_mid f)) = true.
Proof.
  intros f topic fids Ht. cbn [step]. rewrite Ht. cbv zeta. cbn [target_live msgs map fst]. unfold memN. cbn [existsb].
  rewrite N.eqb_refl. reflexivity.
Qed.
