(* C13 lemmas about Sys/Inflight.v: the request slot is balanced on every path, so Done() is never reached
   without a matching Add(); the variant without the test of msg.init differs only when a broadcast meets a
   full send queue. *)
From Coq Require Import List NArith Arith Bool Lia.
Import ListNotations.
Require Import Tinode.Sys.Inflight.

Lemma count_app s l1 l2 : count s (l1 ++ l2) = count s l1 + count s l2.
Proof. unfold count. rewrite filter_app. apply app_length. Qed.

Lemma count_cons s q l : count s (q :: l) = count s [q] + count s l.
Proof. exact (count_app s [q] l). Qed.

Lemma count_live q : q_init q = true -> count (q_sess q) [q] = 1.
Proof. intros H. unfold count, holds. cbn [filter]. now rewrite N.eqb_refl, H. Qed.

Lemma count_other s q : s <> q_sess q -> count s [q] = 0.
Proof.
  intros H. unfold count, holds. cbn [filter].
  destruct (N.eqb_spec (q_sess q) s) as [E|_]; [now elim H|reflexivity].
Qed.

Lemma count_dead_one s q : q_init q = false -> count s [q] = 0.
Proof. intros H. unfold count, holds. cbn [filter]. now rewrite H, andb_false_r. Qed.

Lemma count_dead s l : (forall q, In q l -> q_init q = false) -> count s l = 0.
Proof.
  induction l as [|a l IH]; intros H; [reflexivity|].
  rewrite count_cons, IH, count_dead_one; [reflexivity|apply H; now left|intros; apply H; now right].
Qed.

Lemma take_first_count t s : forall l q r, take_first t l = Some (q, r) -> count s l = count s [q] + count s r.
Proof.
  induction l as [|a l IH]; intros q r H; cbn [take_first] in H; [discriminate|].
  destruct (N.eqb (q_topic a) t).
  - injection H as <- <-. apply count_cons.
  - destruct (take_first t l) as [[q' r']|]; [|discriminate]. injection H as <- <-.
    rewrite (count_cons s a l), (count_cons s a r'), (IH _ _ eq_refl). lia.
Qed.

Lemma take_first_in t : forall l q r, take_first t l = Some (q, r) -> In q l /\ (forall x, In x r -> In x l).
Proof.
  induction l as [|a l IH]; intros q r H; cbn [take_first] in H; [discriminate|].
  destruct (N.eqb (q_topic a) t).
  - injection H as <- <-. split; [now left|]. intros x Hx. now right.
  - destruct (take_first t l) as [[q' r']|]; [|discriminate]. injection H as <- <-.
    destruct (IH _ _ eq_refl) as [H1 H2]. split; [now right|].
    intros x [->|Hx]; [now left|right; auto].
Qed.

Lemma count_split t s l : count s l = count s (filter (for_topic t) l) + count s (filter (not_for_topic t) l).
Proof.
  induction l as [|a l IH]; [reflexivity|]. cbn [filter]. unfold for_topic at 1, not_for_topic at 1.
  rewrite (count_cons s a l), IH. destruct (N.eqb (q_topic a) t); cbn [negb]; rewrite (count_cons s a (filter _ l)); lia.
Qed.

Lemma holds_other s s' q : holds s q = true -> s' <> s -> holds s' q = false.
Proof.
  unfold holds. intros H Hn. apply andb_prop in H as [H _]. apply N.eqb_eq in H.
  destruct (N.eqb (q_sess q) s') eqn:E; [|reflexivity]. apply N.eqb_eq in E. congruence.
Qed.

(* every request of the list holds a slot *)
Definition live (l : list req) : Prop := forall q, In q l -> q_init q = true.

Lemma live_app a b : live a -> live b -> live (a ++ b).
Proof. intros A B q H. apply in_app_or in H as [H|H]; auto. Qed.

Lemma live_one q : q_init q = true -> live [q].
Proof. intros H q' [<-|[]]. exact H. Qed.

Lemma live3 a b c : live (a ++ b ++ c) -> live a /\ live b /\ live c.
Proof. intros H. repeat split; intros q Hq; apply H; auto 6 using in_or_app. Qed.

Lemma live_tail q l : live (q :: l) -> q_init q = true /\ live l.
Proof. intros H. split; [apply H; now left|intros q' Hq; apply H; now right]. Qed.

Lemma take_first_live t l q r : take_first t l = Some (q, r) -> live l -> q_init q = true /\ live r.
Proof.
  intros T H. destruct (take_first_in t l q r T) as [Hq Hr].
  split; [exact (H q Hq)|intros q' Hq'; exact (H q' (Hr q' Hq'))].
Qed.

Lemma filter_in_init (P : req -> bool) l : (forall q, In q l -> q_init q = true) -> forall q, In q (filter P l) -> q_init q = true.
Proof. intros H q Hq. apply filter_In in Hq as [Hq _]. now apply H. Qed.

Lemma live_filter (P : req -> bool) l : live l -> live (filter P l).
Proof. exact (filter_in_init P l). Qed.

Create HintDb live.
#[local] Hint Resolve live_app live_one live_filter : live.

Lemma upd_same {A} (f : N -> A) k v : upd f k v k = v.
Proof. unfold upd. now rewrite N.eqb_refl. Qed.

(* an update that leaves the field [g] of the entry alone leaves it alone everywhere *)
Lemma upd_field {A B} (g : A -> B) (f : N -> A) k v : g v = g (f k) -> forall x, g (upd f k v x) = g (f x).
Proof. intros H x. unfold upd. destruct (N.eqb_spec x k) as [->|_]; [exact H|reflexivity]. Qed.

Lemma upd_keeps_none (f : sid -> sess) k v n :
  s_inflight (f k) = Some n -> forall s, s_inflight (f s) = None -> s_inflight (upd f k v s) = None.
Proof. intros E s H. unfold upd. destruct (N.eqb_spec s k) as [->|_]; [congruence|exact H]. Qed.

Arguments count : simpl never.

(* the balance, on the session table alone *)
(* [p s]: the number of queued requests that hold the slot of s *)
Definition bal (f : sid -> sess) (p : sid -> nat) : Prop :=
  forall s, match s_inflight (f s) with Some n => n = p s | None => p s = 0 end.

Lemma bal_ext f p p' : bal f p -> (forall s, p' s = p s) -> bal f p'.
Proof. intros H E s. specialize (H s). rewrite E. exact H. Qed.

Lemma bal_same_inflight f g p : bal f p -> (forall s, s_inflight (g s) = s_inflight (f s)) -> bal g p.
Proof. intros H E s. rewrite E. apply H. Qed.

Lemma bal_add (f : sid -> sess) p s n :
  bal f p -> s_inflight (f s) = Some n ->
  bal (upd f s (set_inflight (f s) (Some (S n)))) (fun s' => if N.eqb s' s then S (p s') else p s').
Proof.
  intros B I s'. specialize (B s'). unfold upd. destruct (N.eqb_spec s' s) as [->|_]; [|exact B].
  rewrite I in B. cbn. now f_equal.
Qed.

(* Add(1) for a request [q] of s that is then queued *)
Lemma bal_add_req (f : sid -> sess) p n q :
  bal f p -> s_inflight (f (q_sess q)) = Some n -> q_init q = true ->
  bal (upd f (q_sess q) (set_inflight (f (q_sess q)) (Some (S n)))) (fun s => p s + count s [q]).
Proof.
  intros B E Qi. eapply bal_ext; [exact (bal_add f p _ n B E)|]. intros s. cbv beta.
  destruct (N.eqb_spec s (q_sess q)) as [->|Hn]; [rewrite (count_live q Qi)|rewrite (count_other s q Hn)]; lia.
Qed.

(* `if inflightReqs != nil { Done() }` for a queued request [q] that is taken out of the count [p]: no panic, and
   the balance holds for the count without it.  A request that holds no slot (init = false) is harmless only
   because its session is gone (inflightReqs == nil). *)
Lemma release (f : sid -> sess) p p' q :
  bal f p -> (forall s, p s = p' s + count s [q]) ->
  (q_init q = false -> s_inflight (f (q_sess q)) = None) ->
  exists x, done_if_live (f (q_sess q)) = Some x /\ s_full x = s_full (f (q_sess q)) /\
            bal (upd f (q_sess q) x) p' /\
            (forall s, s_inflight (f s) = None -> s_inflight (upd f (q_sess q) x s) = None).
Proof.
  intros B E Dq. unfold done_if_live, bwg_done. destruct (q_init q) eqn:Qi.
  - pose proof (B (q_sess q)) as Bq. rewrite E, (count_live q Qi) in Bq. revert Bq.
    destruct (s_inflight (f (q_sess q))) as [[|n]|] eqn:Hf; intros Bq; [lia| |lia].
    eexists. split; [reflexivity|]. split; [reflexivity|]. split.
    + intros s. unfold upd. destruct (N.eqb_spec s (q_sess q)) as [->|Hn].
      * cbn. lia.
      * specialize (B s). rewrite E, (count_other s q Hn), Nat.add_0_r in B. exact B.
    + exact (upd_keeps_none f _ _ _ Hf).
  - rewrite (Dq eq_refl). eexists. split; [reflexivity|]. split; [reflexivity|]. split.
    + intros s. rewrite (upd_field s_inflight) by reflexivity.
      specialize (B s). rewrite E, (count_dead_one s q Qi), Nat.add_0_r in B. exact B.
    + intros s Hs. rewrite (upd_field s_inflight) by reflexivity. exact Hs.
Qed.

Record Inv (c : config) : Prop := mkInv {
  inv_bal : bal (c_sess c) (pending c);
  inv_init : forall q, In q (c_join c ++ c_inits c ++ c_reg c) -> q_init q = true;
  inv_dead : forall q, In q (c_unreg c) -> q_init q = false -> s_inflight (c_sess c (q_sess q)) = None }.

Lemma inv_init_cfg : Inv init_cfg.
Proof. split; [intros s; reflexivity|intros q []|intros q []]. Qed.

(* the drain loop of the failure branch of topicInit: safe although it does not test msg.init *)
Lemma drain_safe : forall l f base,
  bal f (fun s => base s + count s l) ->
  (forall q, In q l -> q_init q = false -> s_inflight (f (q_sess q)) = None) ->
  exists f', drain_unreg f l = Some f' /\ bal f' base /\
             (forall s, s_inflight (f s) = None -> s_inflight (f' s) = None) /\
             (forall s, s_full (f' s) = s_full (f s)).
Proof.
  induction l as [|q l IH]; intros f base B D.
  - exists f. split; [reflexivity|]. split; [|auto]. eapply bal_ext; [exact B|]. intros s. apply plus_n_O.
  - cbn [drain_unreg].
    destruct (release f _ (fun s => base s + count s l) q B) as [x [Hx [Fx [Bx Nx]]]].
    + intros s. cbv beta. rewrite count_cons. lia.
    + exact (D q (or_introl eq_refl)).
    + rewrite Hx. destruct (IH _ base Bx) as [f' [Hd [Bf [Nn Ff]]]].
      * intros q' Hin Hi. apply Nx, D; [now right|exact Hi].
      * exists f'. split; [exact Hd|]. split; [exact Bf|]. split.
        -- intros s Hs. apply Nn, Nx, Hs.
        -- intros s. rewrite Ff. now apply (upd_field s_full).
Qed.

(* [c'] differs from [c] at most in the topic table and in Session.subs / detach / terminating *)
Definition same_slots (c c' : config) : Prop :=
  (forall s, s_inflight (c_sess c' s) = s_inflight (c_sess c s) /\ s_full (c_sess c' s) = s_full (c_sess c s)) /\
  c_join c' = c_join c /\ c_inits c' = c_inits c /\ c_reg c' = c_reg c /\ c_unreg c' = c_unreg c.

Lemma same_slots_refl c : same_slots c c.
Proof. repeat split. Qed.

Lemma same_slots_put c c' s x :
  same_slots c c' -> s_inflight x = s_inflight (c_sess c' s) -> s_full x = s_full (c_sess c' s) ->
  same_slots c (put_sess c' s x).
Proof.
  intros [S Q] E1 E2. split; [|exact Q]. intros s'. cbn [c_sess put_sess].
  rewrite (upd_field s_inflight), (upd_field s_full) by assumption. apply S.
Qed.

Lemma same_slots_pending c c' s : same_slots c c' -> pending c' s = pending c s.
Proof. intros [_ [J [N [R U]]]]. unfold pending. now rewrite J, N, R, U. Qed.

Lemma detach_now_same c t s : same_slots c (detach_now c t s).
Proof.
  unfold detach_now. destruct (mem s (t_sessions (c_topic c t))); [|apply same_slots_refl].
  apply (same_slots_put c (put_topic c t _)); [exact (same_slots_refl c)|reflexivity..].
Qed.

Lemma evict_all_same t : forall ss c0 c, same_slots c0 c -> same_slots c0 (evict_all c t ss).
Proof.
  induction ss as [|s r IH]; intros c0 c H; cbn [evict_all]; [exact H|].
  destruct (mem s (t_sessions (c_topic c t))); apply IH; [|exact H].
  apply (same_slots_put c0 (put_topic c t _)); [exact H|destruct (s_term (c_sess c s)); reflexivity..].
Qed.

(* every step keeps the invariant and never panics *)
Definition good (o : outcome) : Prop := match o with Ok c => Inv c | Skip => True | Panic _ => False end.

Lemma good_no_panic o : good o -> is_panic o = false.
Proof. destruct o; [reflexivity|intros []|reflexivity]. Qed.

Lemma pending_put_sess c s x s' : pending (put_sess c s x) s' = pending c s'.
Proof. reflexivity. Qed.

(* requests move between queues, slots stay *)
Lemma inv_frame c c' :
  Inv c -> (forall s, s_inflight (c_sess c' s) = s_inflight (c_sess c s)) -> (forall s, pending c' s = pending c s) ->
  live (c_join c' ++ c_inits c' ++ c_reg c') ->
  (forall q, In q (c_unreg c') -> In q (c_unreg c)) -> Inv c'.
Proof.
  intros [B _ D] E P L U. split; [|exact L|].
  - intros s. rewrite E, P. apply B.
  - intros q Hq Hi. rewrite E. apply D; [apply U, Hq|exact Hi].
Qed.

Lemma inv_same_slots c c' : Inv c -> same_slots c c' -> Inv c'.
Proof.
  intros H S. pose proof S as [_ [J [N [R U]]]].
  apply (inv_frame c); [exact H|apply S|intros s; now apply same_slots_pending|rewrite J, N, R; exact (inv_init c H)|rewrite U; auto].
Qed.

Lemma inv_detach_now c t s : Inv c -> Inv (detach_now c t s).
Proof. intros H. exact (inv_same_slots _ _ H (detach_now_same c t s)). Qed.

(* `if inflightReqs != nil { Done() }` for a request [q] that has just been taken out of a queue of [c]; in between
   the handler may have gone from [c] to [c'] *)
Lemma release_good c c' q P :
  same_slots c c' -> bal (c_sess c) P -> (forall s, P s = pending c s + count s [q]) ->
  live (c_join c ++ c_inits c ++ c_reg c) ->
  (forall q', In q' (c_unreg c) -> q_init q' = false -> s_inflight (c_sess c (q_sess q')) = None) ->
  (q_init q = false -> s_inflight (c_sess c (q_sess q)) = None) ->
  good (sess_done_if_live c' (q_sess q)).
Proof.
  intros S B E L D Dq. pose proof S as [Sf [J [N [R U]]]].
  destruct (release (c_sess c') P (pending c') q) as [x [Hx [_ [Bx Nx]]]].
  - intros s. rewrite (proj1 (Sf s)). apply B.
  - intros s. rewrite (same_slots_pending c c' s S). apply E.
  - rewrite (proj1 (Sf _)). exact Dq.
  - unfold sess_done_if_live. rewrite Hx.
    split; cbn [c_sess c_join c_inits c_reg c_unreg put_sess]; [exact Bx|rewrite J, N, R; exact L|].
    rewrite U. intros q' Hq Hi. apply Nx. rewrite (proj1 (Sf _)). now apply D.
Qed.

(* Session.subscribe / Session.leave: Add(1), then either Done() at once or the request [q] is queued *)
Definition client_step (c : config) (s : sid) (o : outcome) : Prop :=
  o = Skip \/
  exists n, s_inflight (c_sess c s) = Some n /\
    let c1 := put_sess c s (set_inflight (c_sess c s) (Some (S n))) in
    o = sess_done c1 s \/
    exists q, q_sess q = s /\ q_init q = true /\
      (o = Ok (set_join c1 (c_join c ++ [q])) \/ o = Ok (set_unreg c1 (c_unreg c ++ [q]))).

Lemma subscribe_cases c s t jfull : client_step c s (do_subscribe c s t jfull).
Proof.
  unfold do_subscribe. destruct (s_term (c_sess c s)); [left; reflexivity|].
  destruct (s_inflight (c_sess c s)) as [n|] eqn:E; [|left; reflexivity]. destruct (capacity <=? n); [left; reflexivity|].
  right. exists n. split; [exact E|].
  destruct (mem t (s_subs (c_sess c s))); [left; reflexivity|]. destruct jfull; [left; reflexivity|].
  right. eexists (mkReq s t RSub true). auto.
Qed.

Lemma leave_cases c s t unsub mefnd : client_step c s (do_leave c s t unsub mefnd).
Proof.
  unfold do_leave. destruct (s_term (c_sess c s)); [left; reflexivity|].
  destruct (s_inflight (c_sess c s)) as [n|] eqn:E; [|left; reflexivity]. destruct (capacity <=? n); [left; reflexivity|].
  right. exists n. split; [exact E|].
  destruct (mem t (s_subs (c_sess c s))); [|left; reflexivity]. destruct (mefnd && unsub); [left; reflexivity|].
  right. eexists (mkReq s t (RLeave unsub) true). auto.
Qed.

Lemma client_step_good c s o : Inv c -> client_step c s o -> good o.
Proof.
  intros Hinv [->|[n [E [->|[q [<- [Qi H]]]]]]]; [exact I| |].
  - unfold sess_done, bwg_done. cbn [c_sess put_sess]. rewrite upd_same. cbn [s_inflight set_inflight].
    apply (inv_same_slots c _ Hinv). split; [|repeat split]. intros s'. cbn [c_sess put_sess]. unfold upd.
    destruct (N.eqb_spec s' s) as [->|_]; [|now split]. rewrite E. now split.
  - pose proof Hinv as [B L D].
    pose proof (bal_add_req _ _ n q B E Qi) as B1.
    pose proof (fun q' Hq Hi => upd_keeps_none (c_sess c) _ (set_inflight (c_sess c (q_sess q)) (Some (S n))) _ E _ (D q' Hq Hi)) as D1.
    destruct H as [->| ->]; split.
    + eapply bal_ext; [exact B1|]. intros s. unfold pending. cbn [c_join c_inits c_reg c_unreg set_join put_sess].
      rewrite count_app. lia.
    + destruct (live3 _ _ _ L) as [Lj [Li Lr]]. cbn [c_join c_inits c_reg set_join put_sess]. apply live_app; auto with live.
    + exact D1.
    + eapply bal_ext; [exact B1|]. intros s. unfold pending. cbn [c_join c_inits c_reg c_unreg set_unreg put_sess].
      rewrite count_app. lia.
    + exact L.
    + cbn [c_unreg set_unreg put_sess c_sess]. intros q' Hq Hi. apply in_app_or in Hq as [Hq|[<-|[]]]; [now apply D1|congruence].
Qed.

Lemma hub_join_good c rfull : Inv c -> good (do_hub_join c rfull).
Proof.
  intros Hinv. unfold do_hub_join. destruct (c_join c) as [|q rest] eqn:J; [exact I|].
  pose proof Hinv as [B L D]. rewrite J in L.
  destruct (live3 _ _ _ L) as [Lj [Li Lr]]. destruct (live_tail _ _ Lj) as [Ql Lrest].
  assert (P : forall s, pending c s = pending (set_join c rest) s + count s [q]).
  { intros s. unfold pending. cbn [c_join c_inits c_reg c_unreg set_join]. rewrite J, count_cons. lia. }
  assert (Done : good (sess_done_if_live (set_join c rest) (q_sess q))).
  { apply (release_good (set_join c rest) _ q (pending c) (same_slots_refl _) B P); [|exact D|rewrite Ql; discriminate].
    cbn [c_join c_inits c_reg set_join]. auto with live. }
  destruct (t_phase (c_topic c (q_topic q))); [|exact Done|destruct rfull; [exact Done|]];
    (apply (inv_frame c); [exact Hinv|reflexivity| |cbn [c_join c_inits c_reg set_join set_inits set_reg put_topic]; auto with live|auto]).
  - intros s. rewrite P. unfold pending. cbn [c_join c_inits c_reg c_unreg set_join set_inits put_topic]. rewrite count_app. lia.
  - intros s. rewrite P. unfold pending. cbn [c_join c_inits c_reg c_unreg set_join set_reg]. rewrite count_app. lia.
Qed.

Lemma init_done_good c t ok : Inv c -> good (do_init_done c t ok).
Proof.
  intros Hinv. unfold do_init_done. destruct (take_first t (c_inits c)) as [[q rest]|] eqn:T; [|exact I].
  pose proof Hinv as [B L D].
  destruct (live3 _ _ _ L) as [Lj [Li Lr]]. destruct (take_first_live _ _ _ _ T Li) as [Ql Lrest].
  pose proof (fun s => take_first_count t s _ _ _ T) as Cnt.
  destruct ok.
  - apply (inv_frame c); [exact Hinv|reflexivity| |cbn [c_join c_inits c_reg set_inits set_reg put_topic]; auto with live|auto].
    intros s. unfold pending. cbn [c_join c_inits c_reg c_unreg set_inits set_reg put_topic]. rewrite Cnt, count_app. lia.
  - cbn.
    (* the drain of t.unreg; [base]: the queues as they are left, and the join itself *)
    destruct (drain_safe (filter (for_topic t) (c_unreg c)) (c_sess c)
                (fun s => count s (c_join c ++ filter (for_topic t) (c_reg c)) + count s rest + count s (filter (not_for_topic t) (c_reg c))
                          + count s (filter (not_for_topic t) (c_unreg c)) + count s [q]))
      as [f' [Hd [Bf [Nn _]]]].
    + eapply bal_ext; [exact B|]. intros s. cbv beta. unfold pending.
      rewrite Cnt, (count_split t s (c_reg c)), (count_split t s (c_unreg c)), count_app. lia.
    + intros q0 H0 Hi. apply filter_In in H0 as [H0 _]. now apply D.
    + rewrite Hd. eapply release_good; [apply same_slots_refl|exact Bf|..].
      * reflexivity.
      * cbn [c_join c_inits c_reg c_unreg set_inits set_reg set_join set_unreg with_sessions put_topic]. auto 6 with live.
      * cbn. intros q0 H Hi. apply Nn. apply filter_In in H as [H _]. now apply D.
      * rewrite Ql. discriminate.
Qed.

Lemma reg_good c t ok : Inv c -> good (do_reg c t ok).
Proof.
  intros [B L D]. unfold do_reg. destruct (t_phase (c_topic c t)); try exact I.
  destruct (take_first t (c_reg c)) as [[q rest]|] eqn:T; [|exact I].
  destruct (live3 _ _ _ L) as [Lj [Li Lr]]. destruct (take_first_live _ _ _ _ T Lr) as [Ql Lrest].
  cbv zeta. apply (release_good (set_reg c rest) _ q (pending c)); [|exact B| | |exact D|rewrite Ql; discriminate].
  - destruct (mem t (s_subs (c_sess (set_reg c rest) (q_sess q)))); [apply same_slots_refl|].
    destruct ok; [|apply same_slots_refl].
    apply (same_slots_put _ (put_topic (set_reg c rest) t _)); [exact (same_slots_refl _)|reflexivity..].
  - intros s. unfold pending. cbn [c_join c_inits c_reg c_unreg set_reg]. rewrite (take_first_count t s _ _ _ T). lia.
  - cbn [c_join c_inits c_reg set_reg]. auto with live.
Qed.

(* Topic.unregisterSession is handleLeaveRequest, which touches no slot, and then Done() or nothing *)
Lemma unregister_cases it c t q evict :
  exists c1, same_slots c c1 /\
    unregister_session it c t q evict = if (if it then q_init q else true) then sess_done_if_live c1 (q_sess q) else Ok c1.
Proof.
  unfold unregister_session. eexists. split; [|reflexivity].
  destruct (q_kind q) as [|[|]]; try apply detach_now_same.
  destruct (q_init q); [apply evict_all_same, same_slots_refl|apply detach_now_same].
Qed.

(* with the test of msg.init a request that holds no slot leaves every slot alone; without the test its session
   must be gone *)
Lemma unregister_good it c t q evict P :
  bal (c_sess c) P -> (forall s, P s = pending c s + count s [q]) ->
  live (c_join c ++ c_inits c ++ c_reg c) ->
  (forall q0, In q0 (c_unreg c) -> q_init q0 = false -> s_inflight (c_sess c (q_sess q0)) = None) ->
  (it = false -> q_init q = false -> s_inflight (c_sess c (q_sess q)) = None) ->
  good (unregister_session it c t q evict).
Proof.
  intros B E L D Dq. destruct (unregister_cases it c t q evict) as [c1 [S ->]].
  destruct it; [destruct (q_init q) eqn:Qi|].
  - apply (release_good c c1 q P S B E L D). rewrite Qi. discriminate.
  - apply (inv_same_slots c c1); [|exact S]. split; [|exact L|exact D].
    eapply bal_ext; [exact B|]. intros s. rewrite E, (count_dead_one s q Qi). apply plus_n_O.
  - exact (release_good c c1 q P S B E L D (Dq eq_refl)).
Qed.

Lemma unreg_good it c t evict : Inv c -> good (do_unreg it c t evict).
Proof.
  intros [B L D]. unfold do_unreg. destruct (t_phase (c_topic c t)); try exact I.
  destruct (take_first t (c_unreg c)) as [[q rest]|] eqn:T; [|exact I].
  destruct (take_first_in _ _ _ _ T) as [Hq Hrest].
  apply (unregister_good it (set_unreg c rest) t q evict (pending c) B).
  - intros s. unfold pending. cbn [c_join c_inits c_reg c_unreg set_unreg]. rewrite (take_first_count t s _ _ _ T). lia.
  - exact L.
  - intros q0 H. apply D, Hrest, H.
  - intros _. exact (D q Hq).
Qed.

(* a session dropped by a broadcast: the pseudo-request {sess, init:false} holds no slot *)
Lemma drop_sessions_good t : forall l c, Inv c -> good (drop_sessions true c t l).
Proof.
  induction l as [|s r IH]; intros c Hinv; cbn [drop_sessions]; [exact Hinv|].
  assert (G : good (unregister_session true c t (mkReq s t (RLeave false) false) [])).
  { destruct Hinv as [B L D]. apply (unregister_good true c t _ [] (pending c) B); [|exact L|exact D|discriminate].
    intros s0. rewrite count_dead_one by reflexivity. apply plus_n_O. }
  destruct (unregister_session true c t (mkReq s t (RLeave false) false) []) as [c1| |]; [apply IH, G|exact G|exact I].
Qed.

Lemma disc_end_good c s : Inv c -> good (do_disc_end c s).
Proof.
  intros [B L D]. unfold do_disc_end. destruct (s_term (c_sess c s)); [|exact I].
  destruct (s_inflight (c_sess c s)) as [[|n]|] eqn:E; try exact I.
  split; cbn [c_sess c_join c_inits c_reg c_unreg set_unreg put_sess]; [| exact L |].
  - intros s'. unfold pending. cbn [c_join c_inits c_reg c_unreg set_unreg put_sess]. rewrite count_app.
    rewrite (count_dead s' (map _ _)) by (intros q Hq; apply in_map_iff in Hq as [t [<- _]]; reflexivity).
    rewrite Nat.add_0_r. specialize (B s'). unfold upd. destruct (N.eqb_spec s' s) as [->|_]; [|exact B].
    rewrite E in B. symmetry. exact B.
  - intros q Hq Hi. apply in_app_or in Hq as [Hq|Hq].
    + unfold upd. destruct (N.eqb_spec (q_sess q) s) as [_|_]; [reflexivity|now apply D].
    + apply in_map_iff in Hq as [t [<- _]]. cbn [q_sess]. now rewrite upd_same.
Qed.

Definition nofull (c : config) : Prop := forall s, s_full (c_sess c s) = false.

Definition no_clog (ls : list label) : bool :=
  forallb (fun l => match l with LClog _ true => false | _ => true end) ls.

Lemma drop_list_nofull c t rcpts : nofull c -> drop_list c t rcpts = [].
Proof.
  intros N. unfold drop_list. induction (t_sessions (c_topic c t)) as [|s r IH]; [reflexivity|]. cbn [filter].
  unfold queue_out_fails at 1. rewrite (N s), andb_false_r, andb_false_r. exact IH.
Qed.

(* the variant without the test of msg.init ([it = false]) is safe as long as no send queue is full *)
Lemma exec_good it l c : Inv c -> (it = false -> nofull c) -> good (exec it l c).
Proof.
  intros Hinv Nf. destruct l; cbn [exec].
  - exact (client_step_good c s _ Hinv (subscribe_cases c s t jfull)).
  - exact (client_step_good c s _ Hinv (leave_cases c s t unsub mefnd)).
  - now apply hub_join_good.
  - now apply init_done_good.
  - now apply reg_good.
  - now apply unreg_good.
  - unfold do_broadcast. destruct (t_phase (c_topic c t)); try exact I.
    destruct it; [now apply drop_sessions_good|]. rewrite (drop_list_nofull c t rcpts (Nf eq_refl)). exact Hinv.
  - apply (inv_frame c); [exact Hinv| |reflexivity|exact (inv_init c Hinv)|auto]. intros s0. now apply (upd_field s_inflight).
  - unfold do_disc_begin. destruct (s_term (c_sess c s)); [exact I|].
    apply (inv_same_slots c _ Hinv), same_slots_put; [apply same_slots_refl|reflexivity..].
  - now apply disc_end_good.
  - destruct (t_phase (c_topic c t)); try exact I. apply (inv_same_slots c _ Hinv), evict_all_same, same_slots_refl.
  - unfold do_sess_detach. destruct (s_detachq (c_sess c s)) as [|t r]; [exact I|].
    apply (inv_same_slots c _ Hinv), same_slots_put; [apply same_slots_refl|reflexivity..].
Qed.

(* only the environment (LClog) changes whether a send queue is full *)
Definition fulls_same (c c' : config) : Prop := forall s, s_full (c_sess c' s) = s_full (c_sess c s).

Lemma fulls_same_refl c : fulls_same c c.
Proof. intros s. reflexivity. Qed.

Lemma fulls_same_trans c1 c2 c3 : fulls_same c1 c2 -> fulls_same c2 c3 -> fulls_same c1 c3.
Proof. intros A B s. now rewrite B, A. Qed.

Lemma fulls_put c s x : s_full x = s_full (c_sess c s) -> fulls_same c (put_sess c s x).
Proof. intros H. exact (upd_field s_full _ _ _ H). Qed.

Lemma fulls_same_slots c c' : same_slots c c' -> fulls_same c c'.
Proof. intros [S _] s. apply S. Qed.

Lemma fulls_done c s c' : sess_done c s = Ok c' -> fulls_same c c'.
Proof.
  unfold sess_done, bwg_done. destruct (s_inflight (c_sess c s)) as [[|n]|]; try discriminate.
  intros H. injection H as <-. now apply fulls_put.
Qed.

Lemma fulls_done_if_live c s c' : sess_done_if_live c s = Ok c' -> fulls_same c c'.
Proof.
  unfold sess_done_if_live, done_if_live, bwg_done. destruct (s_inflight (c_sess c s)) as [[|n]|]; try discriminate;
  intros H; injection H as <-; now apply fulls_put.
Qed.

Lemma fulls_drain : forall l f f', drain_unreg f l = Some f' -> forall s, s_full (f' s) = s_full (f s).
Proof.
  induction l as [|a l IH]; intros f f' Dr s; cbn [drain_unreg] in Dr; [now injection Dr as <-|].
  unfold done_if_live, bwg_done in Dr.
  destruct (s_inflight (f (q_sess a))) as [[|n]|]; try discriminate; rewrite (IH _ _ Dr); now apply (upd_field s_full).
Qed.

Lemma fulls_client_step c s o c' : client_step c s o -> o = Ok c' -> fulls_same c c'.
Proof.
  intros [->|[n [_ [->|[q [_ [_ [->| ->]]]]]]]] H; [discriminate| | |].
  - eapply fulls_same_trans; [|exact (fulls_done _ _ _ H)]. now apply fulls_put.
  - injection H as <-. now apply fulls_put.
  - injection H as <-. now apply fulls_put.
Qed.

Lemma fulls_exec it l c c' : exec it l c = Ok c' -> (match l with LClog _ _ => False | LBroadcast _ _ => False | _ => True end) -> fulls_same c c'.
Proof.
  destruct l; cbn [exec]; intros H NC; try destruct NC.
  - exact (fulls_client_step c s _ c' (subscribe_cases c s t jfull) H).
  - exact (fulls_client_step c s _ c' (leave_cases c s t unsub mefnd) H).
  - unfold do_hub_join in H. destruct (c_join c) as [|q rest]; [discriminate|].
    destruct (t_phase (c_topic c (q_topic q))).
    + injection H as <-. exact (fulls_same_refl c).
    + exact (fulls_done_if_live _ _ _ H).
    + destruct rfull; [exact (fulls_done_if_live _ _ _ H)|]. injection H as <-. exact (fulls_same_refl c).
  - unfold do_init_done in H. destruct (take_first t (c_inits c)) as [[q rest]|]; [|discriminate].
    destruct ok; [injection H as <-; exact (fulls_same_refl c)|].
    cbn in H.
    match type of H with match drain_unreg ?f ?l with _ => _ end = _ => destruct (drain_unreg f l) as [f'|] eqn:Dr; [|discriminate] end.
    apply fulls_done_if_live in H. intros s. rewrite H. exact (fulls_drain _ _ _ Dr s).
  - unfold do_reg in H. destruct (t_phase (c_topic c t)); try discriminate.
    destruct (take_first t (c_reg c)) as [[q rest]|]; [|discriminate]. cbv zeta in H.
    apply fulls_done_if_live in H. eapply fulls_same_trans; [|exact H].
    destruct (mem t (s_subs (c_sess (set_reg c rest) (q_sess q)))); [exact (fulls_same_refl c)|].
    destruct ok; [|exact (fulls_same_refl c)]. now apply (fulls_put (put_topic (set_reg c rest) t _)).
  - unfold do_unreg in H. destruct (t_phase (c_topic c t)); try discriminate.
    destruct (take_first t (c_unreg c)) as [[q rest]|]; [|discriminate].
    destruct (unregister_cases it (set_unreg c rest) t q evict) as [c1 [S E]]. rewrite E in H.
    apply fulls_same_slots in S.
    destruct (if it then q_init q else true); [|now injection H as <-].
    eapply fulls_same_trans; [exact S|exact (fulls_done_if_live _ _ _ H)].
  - unfold do_disc_begin in H. destruct (s_term (c_sess c s)); [discriminate|]. injection H as <-. now apply fulls_put.
  - unfold do_disc_end in H. destruct (s_term (c_sess c s)); [|discriminate]. destruct (s_inflight (c_sess c s)) as [[|n]|]; try discriminate.
    injection H as <-. now apply (fulls_put c).
  - destruct (t_phase (c_topic c t)); try discriminate. injection H as <-. apply fulls_same_slots, evict_all_same, same_slots_refl.
  - unfold do_sess_detach in H. destruct (s_detachq (c_sess c s)) as [|t r]; [discriminate|]. injection H as <-. now apply fulls_put.
Qed.

Lemma nofull_exec it l c c' : nofull c -> no_clog [l] = true -> exec it l c = Ok c' -> nofull c'.
Proof.
  intros Nf NC H.
  assert (Keep : (match l with LClog _ _ => False | LBroadcast _ _ => False | _ => True end) -> nofull c').
  { intros K s. rewrite (fulls_exec it l c c' H K s). apply Nf. }
  destruct l as [| | | | | |t rcpts|s full| | | |]; try exact (Keep Logic.I).
  - cbn [exec] in H. unfold do_broadcast in H. destruct (t_phase (c_topic c t)); try discriminate.
    rewrite (drop_list_nofull c t rcpts Nf) in H. now injection H as <-.
  - destruct full; [discriminate NC|]. injection H as <-. intros s'. cbn [c_sess put_sess]. unfold upd.
    destruct (N.eqb s' s); [reflexivity|apply Nf].
Qed.

Lemma run_good it : forall ls c, Inv c -> (it = false -> nofull c /\ no_clog ls = true) -> good (run it c ls).
Proof.
  induction ls as [|l r IH]; intros c Hinv Hv; cbn [run]; [exact Hinv|].
  assert (Hr : it = false -> no_clog [l] = true /\ no_clog r = true).
  { intros E. destruct (Hv E) as [_ NC]. cbn [no_clog forallb] in *. rewrite andb_true_r. now apply andb_prop. }
  pose proof (exec_good it l c Hinv (fun E => proj1 (Hv E))) as G.
  destruct (exec it l c) as [c1| |] eqn:X; [|destruct G|].
  - apply IH; [exact G|]. intros E. split; [|apply Hr, E]. exact (nofull_exec it l c c1 (proj1 (Hv E)) (proj1 (Hr E)) X).
  - apply IH; [exact Hinv|]. intros E. split; [apply Hv, E|apply Hr, E].
Qed.

Lemma quiescent_pending c s : quiescent c = true -> pending c s = 0.
Proof.
  unfold quiescent, pending. destruct (c_join c); [|discriminate]. destruct (c_inits c); [|discriminate].
  destruct (c_reg c); [|discriminate]. destruct (c_unreg c); [|discriminate]. reflexivity.
Qed.

Lemma variant_panics : run false init_cfg w_slow_consumer = Panic site_done_before_add.
Proof. vm_compute. reflexivity. Qed.

Lemma witness_safe_as_is : is_panic (run true init_cfg w_slow_consumer) = false.
Proof. apply good_no_panic, run_good; [exact inv_init_cfg|discriminate]. Qed.
