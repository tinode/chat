(* C10, "never leaks" at the SOURCE and end to end, for every kind of notification a p2p/group topic
   addresses to the 'me' topics of its subscribers: presSubsOffline (msg, del, on, off, ...),
   presSingleUserOffline (read, recv, del, ?unkn, ?none, gone), infoSubsOffline ({info} read / recv / kp).

   A 'me' topic gates on/off by the contact's `enabled` flag (PresProofs.proc_me_gate) but hands every
   CONTENT notification (msg, del, read, recv, upd and every {info}) to all sessions of its owner without
   looking at anything ("permissions already checked there", topic.go:1289-1291).  So for content
   notifications the check at the sending topic is the only one, and this file proves, for every state and
   every operation, that whatever a step puts in flight satisfies it; then, by induction over histories,
   that every content frame a session receives on 'me' was addressed to a non-deleted subscriber with P
   (and R for {info}) of the sending topic, in a reachable state. *)
From Coq Require Import List NArith ZArith Bool.
From Tinode Require Import Sys.Pres Sys.PresProofs.
Import ListNotations.
Open Scope N_scope.

(* ------------------------------------------------------------------ histories: reach is closed under step *)

Lemma run_gen_app rep h1 : forall s h2,
  fst (run_gen rep s (h1 ++ h2)) = fst (run_gen rep (fst (run_gen rep s h1)) h2).
Proof.
  induction h1 as [|o r IH]; intros s h2; simpl; [reflexivity|].
  destruct (step_gen rep s o) as [s1 o1]. specialize (IH s1 h2).
  destruct (run_gen rep s1 (r ++ h2)) as [s2 o2]. destruct (run_gen rep s1 r) as [s3 o3]. simpl in *. exact IH.
Qed.

Lemma run_snoc h o : fst (run init (h ++ [o])) = fst (step (fst (run init h)) o).
Proof.
  unfold run. rewrite run_gen_app. simpl. unfold step.
  destruct (step_gen true (fst (run_gen true init h)) o). reflexivity.
Qed.

Lemma reach_init : reach init.
Proof. exists []. reflexivity. Qed.

Lemma reach_step s o : reach s -> reach (fst (step s o)).
Proof. intros [h ->]. exists (h ++ [o]). now rewrite run_snoc. Qed.

Lemma reach_ind (P : state -> Prop) :
  P init -> (forall s o, reach s -> P s -> P (fst (step s o))) -> forall s, reach s -> P s.
Proof.
  intros H0 HS s [h ->]. induction h as [|o r IH] using rev_ind; [exact H0|].
  rewrite run_snoc. apply HS; [exists r; reflexivity | exact IH].
Qed.

(* ------------------------------------------------------------------ content notifications *)

(* on / off / ?unkn / ?none / gone / acs are the status handshake and the removal / permission-change notices;
   everything else carries content *)
Definition is_content (w : what) : bool :=
  match w with
  | WOn | WOff | WUnkn | WNone | WGone | WAcs => false
  | _ => true
  end.

Definition nc (g : msg) : Prop := is_content (m_what g) = false.

Lemma info_content w : is_info w = true -> is_content w = true.
Proof. destruct w; simpl; auto. Qed.

(* procPresReq does not touch a content notification: it returns it as it came, no table change, no reply *)
Lemma proc_content isme self subs from w c wr :
  is_content w = true -> proc_pres_req isme self subs from w c wr = mkPpr subs (Some w) None.
Proof. destruct w; simpl; try discriminate; reflexivity. Qed.

(* what a notification addressed to the 'me' topic of `uid` by topic t (cached state x) must satisfy *)
Definition addressed_ok (t : tname) (x : topic) (g : msg) : Prop :=
  forall uid, m_dst g = TMe uid ->
    exists p, In (uid, p) (t_users x) /\ p_deleted p = false /\
      (is_presencer (p_mode p) = true \/ (m_what g = WUpd /\ is_joiner (p_mode p) = true)) /\
      (is_info (m_what g) = true -> is_reader (p_mode p) = true) /\
      m_src g = original t uid /\ m_zombie g = false.

(* what every message put in flight by a step satisfies, s' = the state after the step *)
Definition fresh_ok (s' : state) (g : msg) : Prop :=
  is_content (m_what g) = true ->
  (is_info (m_what g) = true -> exists uid, m_dst g = TMe uid) /\
  (forall uid, m_dst g = TMe uid ->
     (match m_sender g with TMe _ => False | _ => True end) /\
     exists x, get_top s' (m_sender g) = Some x /\ addressed_ok (m_sender g) x g).

Lemma nc_fresh s' g : nc g -> fresh_ok s' g.
Proof. unfold nc, fresh_ok. intros -> [=]. Qed.

Lemma content_not_exempt w : is_content w = true -> exempt w = false.
Proof. destruct w; simpl; auto; discriminate. Qed.

(* ---- status-only emissions *)

Definition ncs (ms : list msg) : Prop := Forall nc ms.

Lemma ncs_app a b : ncs a -> ncs b -> ncs (a ++ b).
Proof. intros. apply Forall_app. split; auto. Qed.

Lemma ncs_pso z t x w c f1 f2 sk oo : is_content w = false -> ncs (pres_subs_offline z t x w c f1 f2 sk oo).
Proof.
  intros Hw. unfold ncs. rewrite Forall_forall. intros g Hg.
  apply pres_subs_offline_shape in Hg as (uid & p & _ & _ & _ & W & _). unfold nc. now rewrite W.
Qed.

Lemma ncs_pss t uid mode w c sk oo : is_content w = false -> ncs (pres_single_offline t uid mode w c sk oo).
Proof.
  intros Hw. unfold ncs. rewrite Forall_forall. intros g Hg.
  apply pres_single_offline_shape in Hg as (m & _ & _ & W & _). unfold nc. now rewrite W.
Qed.

Lemma ncs_puoi z u subs w : is_content w = false -> ncs (pres_users_of_interest z u subs w).
Proof.
  intros Hw. unfold ncs, pres_users_of_interest. rewrite Forall_forall. intros g Hg.
  apply in_map_iff in Hg as [e [<- _]]. exact Hw.
Qed.

Lemma nc_pson t w src f sk : is_content w = false -> nc (pres_subs_online t w src f sk).
Proof. intros Hw. exact Hw. Qed.

Lemma nc_psoo t uid orig w c sk : is_content w = false -> nc (pres_single_offline_offline t uid orig w c sk).
Proof. intros Hw. exact Hw. Qed.

Ltac ncsolve :=
  repeat first
    [ apply Forall_nil
    | apply ncs_app
    | apply Forall_cons
    | apply ncs_pso; reflexivity
    | apply ncs_pss; reflexivity
    | apply ncs_puoi; reflexivity
    | apply nc_pson; reflexivity
    | apply nc_psoo; reflexivity
    | match goal with |- ncs (if ?c then _ else _) => destruct c end
    | match goal with |- Forall nc (if ?c then _ else _) => destruct c end
    | match goal with |- ncs (match ?c with _ => _ end) => destruct c end
    | match goal with |- Forall nc (match ?c with _ => _ end) => destruct c end
    | progress unfold ncs ].

Lemma ncs_notify rep t uid old new sk : ncs (notify_sub_change_gen rep t uid old new sk).
Proof. unfold notify_sub_change_gen. ncsolve. Qed.

Lemma ncs_newsub t x u v : ncs (p2p_newsub_notifs t x u v).
Proof. unfold p2p_newsub_notifs. ncsolve. Qed.

Lemma ncs_sub_notif_me s u m : ncs (snd (sub_notif_me s u m)).
Proof. unfold sub_notif_me. destruct (me_marked m); simpl; ncsolve. Qed.

Lemma ncs_sub_notif_grp t x uid sid : ncs (snd (sub_notif_grp t x uid sid)).
Proof.
  unfold sub_notif_grp. destruct (negb (t_marked x)); simpl; [ncsolve|].
  destruct (p_online (get_pud x uid) =? 1)%Z; simpl; ncsolve.
Qed.

Lemma ncs_timeout z s t : ncs (timeout_offs z s t).
Proof. unfold timeout_offs. ncsolve. Qed.

Lemma proc_reply_what isme self subs from w c wr w' c' rr :
  r_reply (proc_pres_req isme self subs from w c wr) = Some (w', c', rr) -> is_content w' = false.
Proof.
  unfold proc_pres_req. intros H.
  destruct w; simpl in H; try discriminate;
    (destruct isme; [destruct (aget tname_eqb from subs) as [p|]; destruct c|]); simpl in H;
    repeat match type of H with
           | context[if ?x then _ else _] => destruct x; simpl in H
           end; try discriminate; inversion H; reflexivity.
Qed.

(* ------------------------------------------------------------------ what a step adds to the network *)

(* every message in flight after is either in flight before or satisfies Q *)
Definition adds (s s' : state) (Q : msg -> Prop) : Prop :=
  forall g, In g (s_net s') -> In g (s_net s) \/ Q g.

Lemma adds_refl s Q : adds s s Q.
Proof. intros g H. now left. Qed.

Lemma adds_weaken s s' (Q Q' : msg -> Prop) : (forall g, Q g -> Q' g) -> adds s s' Q -> adds s s' Q'.
Proof. intros W A g H. destruct (A g H); auto. Qed.

(* ... and the pending fan-outs of unregistered instances are untouched: what every handler but the two halves of
   the unload race does *)
Definition emits (s s' : state) (Q : msg -> Prop) : Prop := s_zomb s' = s_zomb s /\ adds s s' Q.

Lemma emits_refl s Q : emits s s Q.
Proof. split; [reflexivity | apply adds_refl]. Qed.

Lemma emits_trans s1 s2 s3 Q : emits s1 s2 Q -> emits s2 s3 Q -> emits s1 s3 Q.
Proof.
  intros [Z1 A] [Z2 B]. split; [congruence|].
  intros g H. destruct (B g H) as [H2 | H2]; [apply (A g H2) | now right].
Qed.

(* the tables changed, nothing was sent *)
Lemma emits_quiet s0 s1 Q : s_net s1 = s_net s0 -> s_zomb s1 = s_zomb s0 -> emits s0 s1 Q.
Proof. intros E Z. split; [exact Z|]. intros g H. rewrite E in H. now left. Qed.

Lemma emits_send s0 s1 ms (Q : msg -> Prop) :
  s_net s1 = s_net s0 -> s_zomb s1 = s_zomb s0 -> Forall Q ms -> emits s0 (send ms s1) Q.
Proof.
  intros E Z F. split; [exact Z|]. intros g H. unfold send in H. simpl in H. rewrite E in H.
  apply in_app_or in H as [H | H]; [now left|]. right. rewrite Forall_forall in F. auto.
Qed.

(* each leaf of a handler's case analysis is `send ms s1` or an unchanged network *)
Ltac leaf := first [ apply emits_refl | apply emits_quiet; reflexivity | apply emits_send; [reflexivity..|] ].

Lemma snd_eq {A B} (p : A * B) a b : p = (a, b) -> b = snd p.
Proof. intros ->. reflexivity. Qed.

Lemma emits_att_me s sid u b : emits s (fst (att_me s sid u b)) nc.
Proof.
  unfold att_me. destruct (existsb _ _); [apply emits_refl|].
  destruct (if b then _ else _) as [m2 ms] eqn:P. cbn [fst]. leaf.
  destruct b; [inversion P; constructor | rewrite (snd_eq _ _ _ P); apply ncs_sub_notif_me].
Qed.

Lemma emits_att_p2p s sid u v b : emits s (fst (att_p2p s sid u v b)) nc.
Proof.
  unfold att_p2p. brk; leaf.
  - apply ncs_app; [apply ncs_notify | apply ncs_newsub].
  - apply ncs_newsub.
Qed.

Lemma ncs_pair (b : bool) t x1 u sid x2 (ms : list msg) :
  (if b then (x1, []) else sub_notif_grp t x1 u sid) = (x2, ms) -> ncs ms.
Proof.
  destruct b; intros H.
  - inversion H. constructor.
  - rewrite (snd_eq _ _ _ H). apply ncs_sub_notif_grp.
Qed.

Lemma emits_att_grp s sid u g b : emits s (fst (att_grp s sid u g b)) nc.
Proof.
  unfold att_grp. brk; leaf.
  - eapply ncs_pair; eassumption.
  - apply ncs_app; [apply ncs_notify | eapply ncs_pair; eassumption].
Qed.

Lemma emits_want rep s sid u t m : emits s (fst (want_op_gen rep s sid u t m)) nc.
Proof. unfold want_op_gen. brk; leaf. apply ncs_notify. Qed.

Lemma emits_given rep s sid u t v m : emits s (fst (given_op_gen rep s sid u t v m)) nc.
Proof. unfold given_op_gen. brk; leaf; apply ncs_notify. Qed.

Lemma emits_evict s sid u t v : emits s (fst (evict_op s sid u t v)) nc.
Proof. unfold evict_op. brk; leaf. apply ncs_notify. Qed.

Lemma emits_unsub s sid u t : emits s (fst (unsub_op s sid u t)) nc.
Proof. unfold unsub_op. brk; leaf; apply ncs_notify. Qed.

Lemma emits_leave s sid u t b : emits s (leave s sid u t b) nc.
Proof.
  assert (T : forall t, emits s (leave_top s sid t b) nc).
  { intros t'. unfold leave_top. destruct (get_top s t'); [|apply emits_refl].
    destruct (aget N.eqb sid (t_sess t0)); [|apply emits_refl]. leaf. ncsolve. }
  unfold leave. destruct t; [|apply T..].
  unfold leave_me. destruct (get_me s u); [|apply emits_refl]. destruct (negb _); leaf.
Qed.

Lemma emits_fold_leave l : forall s sid u, emits s (fold_left (fun acc t => leave acc sid u t false) l s) nc.
Proof.
  induction l as [|t r IH]; intros s sid u; simpl; [apply emits_refl|].
  eapply emits_trans; [apply emits_leave | apply IH].
Qed.

Lemma emits_to_fg s sid u t : emits s (to_fg s sid u t) nc.
Proof.
  unfold to_fg. destruct t.
  - destruct (get_me s u); [|apply emits_refl]. destruct (sub_notif_me _ _ _) as [m2 ms] eqn:E.
    leaf. rewrite (snd_eq _ _ _ E). apply ncs_sub_notif_me.
  - apply emits_refl.
  - destruct (get_top s (TGrp g)); [|apply emits_refl]. destruct (negb (t_supd t)); [apply emits_refl|].
    destruct (sub_notif_grp _ _ _ _) as [x2 ms] eqn:E. leaf. rewrite (snd_eq _ _ _ E). apply ncs_sub_notif_grp.
Qed.

Lemma emits_fold_fg l : forall s sid u, emits s (fold_left (fun acc t => to_fg acc sid u t) l s) nc.
Proof.
  induction l as [|t r IH]; intros s sid u; simpl; [apply emits_refl|].
  eapply emits_trans; [apply emits_to_fg | apply IH].
Qed.

Lemma emits_drop s t Q : emits s (drop_topic s t) Q.
Proof. unfold drop_topic. destruct t; [leaf|destruct (get_top s _); leaf..]. Qed.

Lemma emits_open s sid u b s1 b1 Q : open_sess s sid u b = Some (s1, b1) -> emits s s1 Q.
Proof.
  unfold open_sess. destruct (get_sess s sid).
  - destruct (negb _); [discriminate|]. destruct (sess_count_me s sid); intros [= <- <-]; leaf.
  - intros [= <- <-]. leaf.
Qed.

(* ---- the three handlers that emit content *)

Lemma get_top_put t x s : get_top (put_top t x s) t = Some x.
Proof. exact (get_top_sent [] t x s). Qed.

(* a {pres} with content: fresh_ok, and not an {info} *)
Definition fresh_pres (s' : state) (g : msg) : Prop := fresh_ok s' g /\ is_info (m_what g) = false.

Lemma fresh_pres_ok s' g : fresh_pres s' g -> fresh_ok s' g.
Proof. now intros [H _]. Qed.

Lemma fresh_addressed s' t x uid p g :
  (match t with TMe _ => False | _ => True end) -> get_top s' t = Some x ->
  m_dst g = TMe uid -> In (uid, p) (t_users x) -> p_deleted p = false ->
  (exempt (m_what g) = false -> is_presencer (p_mode p) = true \/ (m_what g = WUpd /\ is_joiner (p_mode p) = true)) ->
  (is_info (m_what g) = true -> is_reader (p_mode p) = true) ->
  m_src g = original t uid -> m_sender g = t -> m_zombie g = false -> fresh_ok s' g.
Proof.
  intros Ht G D Hin Del F R Src Snd Z C. split; [eauto|].
  intros uid' D'. rewrite D in D'. injection D' as <-. rewrite Snd. split; [exact Ht|].
  exists x. split; [exact G|]. intros uid' D'. rewrite D in D'. injection D' as <-.
  exists p. repeat split; auto using content_not_exempt.
Qed.

Lemma fresh_pso s' t x w c f1 f2 sk oo :
  (match t with TMe _ => False | _ => True end) -> is_info w = false ->
  get_top s' t = Some x -> Forall (fresh_pres s') (pres_subs_offline false t x w c f1 f2 sk oo).
Proof.
  intros Ht Hi G. rewrite Forall_forall. intros g Hg.
  apply pres_subs_offline_shape in Hg as (uid & p & D & Hin & Del & <- & F & Src & Snd & Z & _).
  split; [|exact Hi]. apply (fresh_addressed s' t x uid p); auto. intros E. rewrite Hi in E. discriminate.
Qed.

Lemma fresh_pss s' t x uid p w c sk oo :
  (match t with TMe _ => False | _ => True end) -> is_info w = false ->
  get_top s' t = Some x -> In (uid, p) (t_users x) -> p_deleted p = false ->
  Forall (fresh_pres s') (pres_single_offline t uid (Some (p_mode p)) w c sk oo).
Proof.
  intros Ht Hi G Hin Del. rewrite Forall_forall. intros g Hg.
  apply pres_single_offline_shape in Hg as (m & [= <-] & D & <- & F & Src & Snd & Z & _).
  split; [|exact Hi]. apply (fresh_addressed s' t x uid p); auto. intros E. rewrite Hi in E. discriminate.
Qed.

Lemma fresh_iso s' t x from w sk :
  (match t with TMe _ => False | _ => True end) ->
  get_top s' t = Some x -> Forall (fresh_ok s') (info_subs_offline t x from w sk).
Proof.
  intros Ht G. rewrite Forall_forall. intros g Hg.
  apply info_subs_offline_shape in Hg as (uid & p & D & Hin & Del & W & P & R & Src & Snd & Z & _).
  apply (fresh_addressed s' t x uid p); auto.
Qed.

(* a content notification to the topic itself (presSubsOnline) is not addressed to a 'me' topic *)
Lemma fresh_pson s' t w src f sk :
  (match t with TMe _ => False | _ => True end) -> is_info w = false -> fresh_pres s' (pres_subs_online t w src f sk).
Proof.
  intros Ht Hi. split; [|exact Hi]. intros C. simpl. split; [intros E; rewrite Hi in E; discriminate|].
  intros uid D. destruct t; try contradiction; discriminate.
Qed.

Lemma emits_pub s sid u t :
  (match t with TMe _ => False | _ => True end) ->
  emits s (fst (pub_op s sid u t)) (fresh_pres (fst (pub_op s sid u t))).
Proof.
  intros Ht. unfold pub_op. destruct (get_top s t) as [x|] eqn:G; [|apply emits_refl].
  destruct (negb (sess_on s sid t)); [apply emits_refl|].
  destruct (negb (is_writer _)); [apply emits_refl|]. cbn [fst].
  leaf. apply fresh_pso; auto using get_top_sent.
Qed.

Lemma emits_note s sid u t w seq :
  (match t with TMe _ => False | _ => True end) ->
  emits s (fst (note_op s sid u t w seq)) (fresh_ok (fst (note_op s sid u t w seq))).
Proof.
  intros Ht. destruct (note_op_cases s sid u t w seq) as [-> | [-> | (x & _ & _ & _ & D & _ & _ & ->)]];
    [apply emits_refl..|].
  unfold note_effect. cbn [fst]. leaf. apply Forall_app. split; [|apply fresh_iso; auto using get_top_sent].
  destruct w; try apply Forall_nil; (eapply Forall_impl; [apply fresh_pres_ok|]).
  - apply (fresh_pss _ t (note_top WIRead seq u x) u (note_pud WIRead seq (get_pud x u)));
      auto using get_top_sent. apply in_set_pud.
  - apply (fresh_pss _ t (note_top WIRecv seq u x) u (note_pud WIRecv seq (get_pud x u)));
      auto using get_top_sent. apply in_set_pud.
Qed.

Lemma emits_delmsg s sid u t h :
  (match t with TMe _ => False | _ => True end) ->
  emits s (fst (delmsg_op s sid u t h)) (fresh_pres (fst (delmsg_op s sid u t h))).
Proof.
  intros Ht. unfold delmsg_op. destruct (get_top s t) as [x|] eqn:G; [|apply emits_refl].
  repeat match goal with
         | |- emits _ (fst (if ?c then _ else _)) (fresh_pres (fst (if ?c then _ else _))) =>
           destruct c eqn:?; [apply emits_refl|]
         end.
  destruct (h && has _ mD).
  - cbn [fst]. leaf. apply Forall_cons; [now apply fresh_pson|]. apply fresh_pso; auto.
  - cbn [fst]. leaf.
    destruct (found t x u) eqn:F.
    + destruct (p_deleted (get_pud x u)) eqn:Dp; cbn [orb]; [apply Forall_nil|].
      destruct (is_presencer _); cbn [negb]; [|apply Forall_nil].
      apply Forall_cons; [now apply fresh_pson|].
      apply (fresh_pss _ t x u (get_pud x u)); auto. now apply (found_in t).
    + simpl. apply Forall_nil.
Qed.

Lemma take_nth_in i : forall pre l g rest, take_nth i pre l = Some (g, rest) ->
  forall h, In h rest -> In h pre \/ In h l.
Proof.
  induction i as [|j IH]; intros pre l g rest H h Hh; destruct l as [|a r]; simpl in H; try discriminate.
  - destruct (existsb _ pre); [discriminate|]. injection H as <- <-.
    apply in_app_or in Hh as [Hh | Hh]; [left; now apply in_rev | right; now right].
  - destruct (IH _ _ _ _ H h Hh) as [[<- | Hp] | Hr]; [right; now left | now left | right; now right].
Qed.

Lemma emits_deliver s g rest i :
  take_nth i [] (s_net s) = Some (g, rest) ->
  emits s (fst (deliver_msg (set_net (fun _ => rest) s) g)) nc.
Proof.
  intros T. apply (emits_trans _ (set_net (fun _ => rest) s)).
  { split; [reflexivity|]. intros h Hh. destruct (take_nth_in _ _ _ _ _ T h Hh) as [[] | Hl]. now left. }
  set (s1 := set_net (fun _ => rest) s). clearbody s1.
  destruct (deliver_state s1 g) as (s2 & Q & [-> | (isme & self & subs & [[w c] rr] & RR & ->)]).
  - destruct Q as [-> | (u & m & subs & _ & ->)]; leaf.
  - apply proc_reply_what in RR.
    destruct Q as [-> | (u & m & subs' & _ & ->)]; leaf; apply Forall_cons; auto.
Qed.

(* pending fan-outs of unregistered instances carry "off" only *)
Definition zomb_nc (s : state) : Prop := Forall (fun e => ncs (snd e)) (s_zomb s).

Lemma resolve_not_me' u r : r <> RMe -> match resolve u r with TMe _ => False | _ => True end.
Proof. apply resolve_not_me. Qed.

(* the requests whose handler may put content in flight, with the handler's result *)
Definition content_handler (s : state) (o : op) (r : state * list out) : Prop :=
  match o with
  | Pub sid r0 => r0 <> RMe /\ exists u, r = pub_op s sid u (resolve u r0)
  | Note sid u r0 w seq => r0 <> RMe /\ r = note_op s sid u (resolve u r0) w seq
  | DelMsg sid r0 h => r0 <> RMe /\ exists u, r = delmsg_op s sid u (resolve u r0) h
  | _ => False
  end.

(* every other step puts status notifications in flight only *)
Lemma step_status s o :
  zomb_nc s -> content_handler s o (step s o) \/ (adds s (fst (step s o)) nc /\ zomb_nc (fst (step s o))).
Proof.
  intros Z.
  assert (E : forall (C : Prop) s', emits s s' nc -> C \/ (adds s s' nc /\ zomb_nc s')).
  { intros C s' [EZ A]. right. split; [exact A|]. unfold zomb_nc. now rewrite EZ. }
  destruct o; unfold step; simpl.
  - (* New *)
    destruct (open_sess s sid u bkg) as [[s1 b]|] eqn:O; [|apply E, emits_refl].
    destruct (get_top s (TGrp g)); [apply E, emits_refl|].
    destruct (if b then _ else _) as [x2 ms] eqn:P. cbn [fst].
    apply E. eapply emits_trans; [eapply emits_open; exact O|]. leaf. eapply ncs_pair; exact P.
  - (* Att *)
    destruct (open_sess s sid u bkg) as [[s1 b]|] eqn:O; [|apply E, emits_refl].
    apply E. eapply emits_trans; [eapply emits_open; exact O|].
    destruct r; [apply emits_att_me | apply emits_att_p2p | apply emits_att_grp].
  - (* Det *)
    destruct (sess_user s sid); [|apply E, emits_refl].
    destruct (sess_on s sid _); [|apply E, emits_refl]. apply E, emits_leave.
  - (* Unsub *)
    destruct (sess_user s sid); [|apply E, emits_refl]. apply E, emits_unsub.
  - (* Disc *)
    destruct (sess_user s sid); [|apply E, emits_refl]. cbn [fst].
    apply E. eapply emits_trans; [apply emits_fold_leave | leaf].
  - (* Fg *)
    destruct (get_sess s sid) as [i|]; [|apply E, emits_refl].
    destruct (negb (ss_bkg i)); [apply E, emits_refl|]. cbn [fst].
    apply E. eapply emits_trans; [|apply emits_fold_fg]. leaf.
  - (* Want *)
    destruct (sess_user s sid); [|apply E, emits_refl].
    destruct r; apply E; [apply emits_refl | apply emits_want..].
  - (* Given *)
    destruct (sess_user s sid); [|apply E, emits_refl].
    destruct r; [apply E, emits_refl| |]; (destruct (n =? v); apply E; [apply emits_want | apply emits_given]).
  - (* Evict *)
    destruct (sess_user s sid); [|apply E, emits_refl].
    destruct r; apply E; [apply emits_refl | apply emits_evict..].
  - (* Pub *)
    destruct (sess_user s sid) as [u|]; [|apply E, emits_refl].
    destruct r; [apply E, emits_refl| |]; left; (split; [discriminate | now exists u]).
  - (* Note *)
    match goal with |- context [if ?c then _ else _] => destruct c; [apply E, emits_refl|] end.
    destruct r; [apply E, emits_refl| |]; left; (split; [discriminate | reflexivity]).
  - (* DelMsg *)
    destruct (sess_user s sid) as [u|]; [|apply E, emits_refl].
    destruct r; [apply E, emits_refl| |]; left; (split; [discriminate | now exists u]).
  - (* Unload *)
    destruct (idle s t); [|apply E, emits_refl]. cbn [fst].
    apply E. eapply emits_trans; [apply emits_drop | leaf; apply ncs_timeout].
  - (* UnloadHub *)
    destruct (idle s t); [|apply E, emits_refl]. cbn [fst]. right.
    destruct (emits_drop s t nc) as [EZ A]. split; [exact A|].
    unfold zomb_nc. simpl. rewrite EZ. apply Forall_app. split; [exact Z|].
    apply Forall_cons; [apply ncs_timeout | apply Forall_nil].
  - (* UnloadOff *)
    destruct (aget tname_eqb t (s_zomb s)) as [ms|] eqn:A; [|apply E, emits_refl]. cbn [fst]. right. split.
    + apply (emits_send s s); [reflexivity..|].
      apply (aget_in tname_eqb tname_eqb_eq) in A. unfold zomb_nc in Z. rewrite Forall_forall in Z.
      exact (Z _ A).
    + unfold zomb_nc. simpl. apply adel_forall. exact Z.
  - (* Deliver *)
    destruct (take_nth i [] (s_net s)) as [[g rest]|] eqn:T; [|apply E, emits_refl].
    apply E. eapply emits_deliver; exact T.
Qed.

(* THE STEP LEMMA: whatever a step puts in flight is fresh_ok in the state after the step *)
Lemma step_adds s o :
  zomb_nc s -> adds s (fst (step s o)) (fresh_ok (fst (step s o))) /\ zomb_nc (fst (step s o)).
Proof.
  intros Z.
  assert (E : forall s' (Q : msg -> Prop), (forall g, Q g -> fresh_ok s' g) -> emits s s' Q -> adds s s' (fresh_ok s') /\ zomb_nc s').
  { intros s' Q W [EZ A]. split; [exact (adds_weaken _ _ _ _ W A)|]. unfold zomb_nc. now rewrite EZ. }
  destruct (step_status s o Z) as [C | [A Z']].
  - destruct o; try contradiction.
    + destruct C as [NM [u ->]]. eapply E; [apply fresh_pres_ok | apply emits_pub, resolve_not_me, NM].
    + destruct C as [NM ->]. eapply E; [|apply emits_note, resolve_not_me, NM]. auto.
    + destruct C as [NM [u ->]]. eapply E; [apply fresh_pres_ok | apply emits_delmsg, resolve_not_me, NM].
  - split; [|exact Z']. eapply adds_weaken; [|exact A]. intros g. apply nc_fresh.
Qed.

(* ------------------------------------------------------------------ histories: provenance of what is in flight *)

(* a content notification in flight was addressed, in some reachable state, by a p2p/group topic to the 'me'
   topic of a non-deleted subscriber with P (R too for {info}); an {info} is only ever addressed to 'me' topics *)
Definition sent_ok (g : msg) : Prop :=
  is_content (m_what g) = true ->
  (is_info (m_what g) = true -> exists uid, m_dst g = TMe uid) /\
  (forall uid, m_dst g = TMe uid ->
     (match m_sender g with TMe _ => False | _ => True end) /\
     exists s0 x, reach s0 /\ get_top s0 (m_sender g) = Some x /\ addressed_ok (m_sender g) x g).

Lemma net_prov s : reach s -> zomb_nc s /\ Forall sent_ok (s_net s).
Proof.
  intros R. pattern s. apply reach_ind; [split; constructor| |exact R].
  clear s R. intros s o R [Z IH]. destruct (step_adds s o Z) as [A Z']. split; [exact Z'|].
  rewrite Forall_forall in *. intros g Hg. destruct (A g Hg) as [Hold | Hnew]; [now apply IH|].
  intros C. destruct (Hnew C) as [I D]. split; [exact I|]. intros uid Hd. destruct (D uid Hd) as [NM [x [G AO]]].
  split; [exact NM|]. exists (fst (step s o)), x. split; [now apply reach_step | auto].
Qed.

Lemma take_nth_elem i : forall pre l g rest, take_nth i pre l = Some (g, rest) -> In g l.
Proof.
  induction i as [|j IH]; intros pre l g rest H; destruct l as [|a r]; simpl in H; try discriminate.
  - destruct (existsb _ pre); [discriminate|]. injection H as <- _. now left.
  - right. eapply IH; exact H.
Qed.

Lemma in_flight_reach s : reach s -> Forall sent_ok (s_net s).
Proof. intros R. exact (proj2 (net_prov s R)). Qed.

(* END TO END, all histories and interleavings: a content notification ({pres} msg / del / read / recv / upd, {info}
   read / recv / kp) which a session receives on 'me' was addressed by the p2p/group topic behind its `src`,
   in a reachable state, to this user as a NON-DELETED subscriber whose mode has P - and R for {info}.
   Removed (deleted = true), never-subscribed and muted users get none. *)
Lemma no_leak_content_me s i g rest sid user u src w :
  reach s -> take_nth i [] (s_net s) = Some (g, rest) ->
  In (Frame sid user (TMe u) src w) (snd (step s (Deliver i))) -> is_content w = true ->
  user = u /\
  exists t s0 x p,
    (match t with TMe _ => False | _ => True end) /\ reach s0 /\ get_top s0 t = Some x /\
    In (u, p) (t_users x) /\ p_deleted p = false /\
    (is_presencer (p_mode p) = true \/ (w = WUpd /\ is_joiner (p_mode p) = true)) /\
    (is_info w = true -> is_reader (p_mode p) = true) /\ src = original t u.
Proof.
  intros R T Hin C. unfold step in Hin. simpl in Hin. rewrite T in Hin.
  apply deliver_frame in Hin as (D & -> & -> & _ & -> & _). symmetry in D. split; [reflexivity|].
  pose proof (in_flight_reach s R) as P. rewrite Forall_forall in P.
  destruct (P g (take_nth_elem _ _ _ _ _ T) C) as [_ SD].
  destruct (SD u D) as [NM (s0 & x & R0 & G0 & AO)].
  destruct (AO u D) as (p & Hp & Del & PP & RR & Src & _).
  exists (m_sender g), s0, x, p. repeat split; auto.
Qed.

(* an {info} never travels to a p2p/group topic through the hub (so the unchecked forwarding of topic.go:1289-1291
   is only ever reached on 'me' topics) *)
Lemma info_only_to_me s g : reach s -> In g (s_net s) -> is_info (m_what g) = true -> exists uid, m_dst g = TMe uid.
Proof.
  intros R Hin I. pose proof (in_flight_reach s R) as P. rewrite Forall_forall in P.
  destruct (P g Hin (info_content _ I)) as [H _]. auto.
Qed.

(* ------------------------------------------------------------------ the seeded scenario, in the model *)

(* users 1 and 2 chat; 1 deletes the subscription ({leave unsub}); the p2p topic stays loaded because session 2 is
   attached; 2 types and marks as read.  Session 3 (user 1, on 'me') gets "gone" for the removal and nothing else;
   the entry of user 1 stays in the topic, deleted, WITH its old want/given (P and R). *)
Definition h_removed : list op :=
  [Att 3 1 RMe false; Att 4 2 RMe false; Att 1 1 (RP2P 2) false; D; D; D; D; Att 2 2 (RP2P 1) false;
   Pub 2 (RP2P 1); D; D; Unsub 1 (RP2P 2); D; D; Note 2 2 (RP2P 1) WIKp 0; Note 2 2 (RP2P 1) WIRead 1; D; D; D].

(* ... while a subscriber with P and R who is not attached does get the receipt on 'me' (the hypotheses of
   no_leak_content_me are satisfiable) *)
Definition h_receipt : list op :=
  [Att 3 1 RMe false; Att 1 1 (RP2P 2) false; D; D; Att 2 2 (RP2P 1) false; Det 1 (RP2P 2);
   Pub 2 (RP2P 1); D; Note 2 2 (RP2P 1) WIKp 0; D; D].

