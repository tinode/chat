(* Lemmas about the fan-out model Sys/Fanout.v.  Part 1: one publish, from EVERY state.
   Part 2: histories (arbitrary lists of requests).  Part 3: one {info} broadcast, from every state. *)
From Coq Require Import ZArith NArith List Bool Lia Permutation Sorted.
From Coq Require Import ZifyBool ZifyNat ZifyN.
From Tinode Require Import Sys.Fanout.
Import ListNotations.
Open Scope N_scope.

Ltac break_match :=
  match goal with
  | |- context [match ?x with _ => _ end] => destruct x eqn:?
  end.
Ltac inv H := inversion H; subst; clear H.

(* ------------------------------------------------------------------ *)
(* association lists *)
Section AssocLemmas.
  Context {A : Type}.
  Implicit Types (l : list (N * A)) (k : N).

  Lemma lookup_in k l v : lookup k l = Some v -> In (k, v) l.
  Proof.
    induction l as [|[k' v'] r IH]; cbn; [discriminate|].
    destruct (k =? k') eqn:E; intros H.
    - apply N.eqb_eq in E. inv H. now left.
    - right. auto.
  Qed.

  Lemma lookup_none k l : lookup k l = None <-> ~ In k (map fst l).
  Proof.
    induction l as [|[k' v'] r IH]; cbn; [tauto|].
    destruct (k =? k') eqn:E.
    - apply N.eqb_eq in E. subst. split; [discriminate|]. intros H. exfalso. apply H. now left.
    - apply N.eqb_neq in E. rewrite IH. split; intros H; [intros [H1|H1]; [congruence|contradiction]|tauto].
  Qed.

  Lemma in_lookup k v l : NoDup (map fst l) -> In (k, v) l -> lookup k l = Some v.
  Proof.
    induction l as [|[k' v'] r IH]; cbn; [tauto|]. intros Hnd [H|H].
    - inv H. now rewrite N.eqb_refl.
    - inv Hnd. destruct (k =? k') eqn:E.
      + apply N.eqb_eq in E. subst. exfalso. apply H2. change k' with (fst (k', v)). now apply in_map.
      + auto.
  Qed.

  Lemma has_key_in k l : has_key k l = true <-> In k (map fst l).
  Proof.
    unfold has_key. destruct (lookup k l) eqn:E.
    - split; [|reflexivity]. intros _. apply lookup_in in E. change k with (fst (k, a)). now apply in_map.
    - apply lookup_none in E. split; [discriminate|contradiction].
  Qed.

  Lemma has_key_false k l : has_key k l = false <-> ~ In k (map fst l).
  Proof. rewrite <- has_key_in. destruct (has_key k l); split; congruence. Qed.

  Lemma keys_update k f l : map fst (update k f l) = map fst l.
  Proof.
    induction l as [|[k' v'] r IH]; cbn; [reflexivity|].
    destruct (k =? k'); cbn; [reflexivity|now rewrite IH].
  Qed.

  Lemma lookup_update_same k f l v : lookup k l = Some v -> lookup k (update k f l) = Some (f v).
  Proof.
    induction l as [|[k' v'] r IH]; cbn; [discriminate|].
    destruct (k =? k') eqn:E; cbn; rewrite E; [intros H; now inv H|auto].
  Qed.

  Lemma lookup_update_other k k2 f l : k2 <> k -> lookup k2 (update k f l) = lookup k2 l.
  Proof.
    intros Hne. induction l as [|[k' v'] r IH]; cbn; [reflexivity|].
    destruct (k =? k') eqn:E; cbn.
    - apply N.eqb_eq in E. subst. destruct (k2 =? k') eqn:E2; [apply N.eqb_eq in E2; congruence|reflexivity].
    - destruct (k2 =? k'); [reflexivity|exact IH].
  Qed.

  Lemma lookup_update_none k f l : lookup k l = None -> lookup k (update k f l) = None.
  Proof. rewrite !lookup_none, keys_update. auto. Qed.

  Lemma in_remove_key k kv l : In kv (remove_key k l) <-> In kv l /\ fst kv <> k.
  Proof.
    unfold remove_key. rewrite filter_In. split; intros [H1 H2]; split; try assumption.
    - apply negb_true_iff in H2. now apply N.eqb_neq in H2.
    - apply negb_true_iff. now apply N.eqb_neq.
  Qed.

  Lemma keys_remove_key k l x : In x (map fst (remove_key k l)) <-> In x (map fst l) /\ x <> k.
  Proof.
    rewrite !in_map_iff. split.
    - intros [kv [H1 H2]]. apply in_remove_key in H2. destruct H2 as [H2 H3]. subst. split; [now exists kv|assumption].
    - intros [[kv [H1 H2]] H3]. exists kv. split; [assumption|]. apply in_remove_key. subst. now split.
  Qed.

  Lemma NoDup_keys_filter (p : N * A -> bool) l : NoDup (map fst l) -> NoDup (map fst (filter p l)).
  Proof.
    induction l as [|kv r IH]; cbn; [intros; constructor|]. intros H. inv H.
    destruct (p kv); cbn; [constructor|]; auto.
    intros Hin. apply H2. apply in_map_iff in Hin. destruct Hin as [x [Hx1 Hx2]].
    apply filter_In in Hx2. destruct Hx2 as [Hx2 _]. rewrite <- Hx1. now apply in_map.
  Qed.

  Lemma lookup_remove_key_same k l : lookup k (remove_key k l) = None.
  Proof. apply lookup_none. intros H. apply keys_remove_key in H. now destruct H. Qed.

  Lemma lookup_remove_key_other k k2 l : k2 <> k -> lookup k2 (remove_key k l) = lookup k2 l.
  Proof.
    intros Hne. induction l as [|[k' v'] r IH]; cbn; [reflexivity|].
    destruct (k' =? k) eqn:E; cbn.
    - apply N.eqb_eq in E. subst. destruct (k2 =? k) eqn:E2; [apply N.eqb_eq in E2; congruence|exact IH].
    - destruct (k2 =? k'); [reflexivity|exact IH].
  Qed.

  Lemma lookup_app k l l2 : lookup k (l ++ l2) = match lookup k l with Some v => Some v | None => lookup k l2 end.
  Proof.
    induction l as [|[k' v'] r IH]; cbn; [reflexivity|]. destruct (k =? k'); [reflexivity|exact IH].
  Qed.

  Lemma NoDup_keys_app_new k v l : NoDup (map fst l) -> ~ In k (map fst l) -> NoDup (map fst (l ++ [(k, v)])).
  Proof.
    intros H1 H2. rewrite map_app. cbn. induction (map fst l) as [|y m IH]; cbn.
    - constructor; [intros []|constructor].
    - inv H1. constructor.
      + intros Hin. apply in_app_or in Hin. destruct Hin as [Hin|[Hin|[]]]; [contradiction|]. subst. apply H2. now left.
      + apply IH; [assumption|]. intros Hin. apply H2. now right.
  Qed.
End AssocLemmas.

(* the keys of the copies made for the entries of a table that pass a test *)
Lemma keys_filter_exact {A B} (e : N * A -> bool) (cp : N * A -> N * B) (l : list (N * A)) :
  (forall x, fst (cp x) = fst x) ->
  Permutation (map fst (map cp (filter e l))) (map fst (filter e l)) /\
  (NoDup (map fst l) -> NoDup (map fst (map cp (filter e l)))) /\
  (forall s, In s (map fst (map cp (filter e l))) <-> exists d, In (s, d) l /\ e (s, d) = true).
Proof.
  intros Hcp. assert (E : map fst (map cp (filter e l)) = map fst (filter e l)) by (rewrite map_map; now apply map_ext).
  rewrite E. split; [apply Permutation_refl|]. split; [apply NoDup_keys_filter|].
  intros s. rewrite in_map_iff. split.
  - intros [[s' d] [H1 H2]]. cbn in H1. subst. apply filter_In in H2. now exists d.
  - intros [d [H1 H2]]. exists (s, d). split; [reflexivity|]. now apply filter_In.
Qed.

(* ------------------------------------------------------------------ *)
(* Part 1.  One publish. *)

(* the specification of "who must get a copy" *)
Definition eligible (st : state) (px : pubctx) (sd : sid * psd) : bool :=
  (user_is_reader st (ss_uid (snd sd)) || ss_chan (snd sd)) &&
  negb (px_noecho px && (fst sd =? px_sid px)).

Definition skip_of (px : pubctx) : option sid := if px_noecho px then Some (px_sid px) else None.
Definition elig_skip (st : state) (skip : option sid) (sd : sid * psd) : bool :=
  negb (match skip with Some k => fst sd =? k | None => false end) &&
  (user_is_reader st (ss_uid (snd sd)) || ss_chan (snd sd)).

Lemma elig_skip_eligible st px sd : elig_skip st (skip_of px) sd = eligible st px sd.
Proof.
  unfold elig_skip, eligible, skip_of. destruct (px_noecho px); cbn.
  - now rewrite andb_comm.
  - now rewrite andb_true_r.
Qed.

Definition copy_of (st : state) (msg : frame) (sd : sid * psd) : sid * delivery :=
  (fst sd, if is_full st (fst sd) then Overflow else Sent (prepare st (snd sd) msg)).

Lemma bcast_loop_spec st skip msg l :
  bcast_loop st skip msg l = map (copy_of st msg) (filter (elig_skip st skip) l).
Proof.
  induction l as [|[s d] r IH]; cbn [bcast_loop filter map]; [reflexivity|].
  unfold elig_skip at 1. cbn [fst snd].
  destruct (match skip with Some k => s =? k | None => false end); cbn [negb andb]; [exact IH|].
  destruct (user_is_reader st (ss_uid d)); destruct (ss_chan d); cbn [negb andb orb map]; rewrite IH; reflexivity.
Qed.

Lemma fanout_all_spec st px :
  fanout_all st px = map (copy_of st (data_msg st px)) (filter (eligible st px) (st_sess st)).
Proof.
  unfold fanout_all. fold (skip_of px). rewrite bcast_loop_spec. f_equal.
  apply filter_ext. intros sd. apply elig_skip_eligible.
Qed.

Definition wf_sess (st : state) : Prop := NoDup (map fst (st_sess st)).
Definition wf_users (st : state) : Prop := NoDup (map fst (st_users st)).

Lemma exact_set st px :
  Permutation (map fst (fanout_all st px)) (map fst (filter (eligible st px) (st_sess st))) /\
  (wf_sess st -> NoDup (map fst (fanout_all st px))) /\
  (forall s, In s (map fst (fanout_all st px)) <->
             exists d, In (s, d) (st_sess st) /\ eligible st px (s, d) = true).
Proof. rewrite fanout_all_spec. now apply keys_filter_exact. Qed.

Lemma count_keys_NoDup (l : list N) s : NoDup l -> count_occ N.eq_dec l s = if in_dec N.eq_dec s l then 1%nat else 0%nat.
Proof.
  intros H. destruct (in_dec N.eq_dec s l) as [Hin|Hin].
  - now apply NoDup_count_occ'.
  - now apply count_occ_not_In.
Qed.

(* delivered copies and overflows *)
Lemma sent_map st msg l :
  sent (map (copy_of st msg) l) =
  map (fun sd => (fst sd, prepare st (snd sd) msg)) (filter (fun sd => negb (is_full st (fst sd))) l).
Proof.
  induction l as [|[s d] r IH]; [reflexivity|].
  cbn [map filter fst snd]. unfold copy_of at 1. cbn [fst snd].
  destruct (is_full st s); cbn [sent negb map fst snd]; rewrite IH; reflexivity.
Qed.

Lemma overflowed_map st msg l :
  overflowed (map (copy_of st msg) l) = map fst (filter (fun sd => is_full st (fst sd)) l).
Proof.
  induction l as [|[s d] r IH]; [reflexivity|].
  cbn [map filter fst snd]. unfold copy_of at 1. cbn [fst snd].
  destruct (is_full st s); cbn [overflowed map fst snd]; rewrite IH; reflexivity.
Qed.

Lemma delivered_set st px s f :
  In (s, f) (fanout st px) <->
  exists d, In (s, d) (st_sess st) /\ eligible st px (s, d) = true /\ is_full st s = false /\
            f = prepare st d (data_msg st px).
Proof.
  unfold fanout. rewrite fanout_all_spec, sent_map, in_map_iff. split.
  - intros [[s' d] [H1 H2]]. cbn in H1. inv H1. apply filter_In in H2. destruct H2 as [H2 H3].
    apply filter_In in H2. destruct H2 as [H2 H4]. cbn in H3. apply negb_true_iff in H3. now exists d.
  - intros [d [H1 [H2 [H3 H4]]]]. exists (s, d). subst. split; [reflexivity|].
    apply filter_In. split; [now apply filter_In|]. cbn. now rewrite H3.
Qed.

Lemma delivered_keys st px :
  map fst (fanout st px) =
  map fst (filter (fun sd => negb (is_full st (fst sd))) (filter (eligible st px) (st_sess st))).
Proof. unfold fanout. rewrite fanout_all_spec, sent_map, map_map. reflexivity. Qed.

Lemma delivered_NoDup st px : wf_sess st -> NoDup (map fst (fanout st px)).
Proof. intros H. rewrite delivered_keys. now do 2 apply NoDup_keys_filter. Qed.

Lemma filter_all_true {A} (p : A -> bool) (l : list A) : (forall x, In x l -> p x = true) -> filter p l = l.
Proof.
  induction l as [|x r IH]; cbn; [reflexivity|]. intros H. rewrite (H x) by now left. f_equal. apply IH. intros y Hy. apply H. now right.
Qed.

Lemma remove_key_absent {A} (k : N) (l : list (N * A)) : lookup k l = None -> remove_key k l = l.
Proof.
  intros E. unfold remove_key. apply filter_all_true. intros [k' v] Hin. cbn.
  apply negb_true_iff, N.eqb_neq. intros ->. apply lookup_none in E. apply E. change k with (fst (k, v)). now apply in_map.
Qed.

(* ---- acceptance ---- *)
Lemma publish_accepted st px :
  accepts st px = true ->
  publish st px = (PAccepted (st_lastid st + 1)%Z
                     (if px_hasid px then (if is_full st (px_sid px) then AckLost else AckSent (original st (px_author px))) else AckNone)
                     (fanout_all st px) (push_rcpt st),
                   fold_left drop_session (overflowed (fanout_all st px)) (set_lastid (st_lastid st + 1)%Z st)).
Proof.
  unfold accepts, publish. intros H. apply andb_true_iff in H. destruct H as [H H3]. apply andb_true_iff in H. destruct H as [H1 H2].
  rewrite H1. cbn [negb]. apply negb_true_iff in H2. rewrite H2, H3. reflexivity.
Qed.

Lemma publish_refused st px :
  accepts st px = false ->
  snd (publish st px) = st /\
  (fst (publish st px) = PNotAttached \/ fst (publish st px) = PCallPath \/ fst (publish st px) = PDenied).
Proof.
  unfold accepts, publish. intros H.
  destruct (has_key (px_sid px) (st_sess st)); cbn [negb]; [|split; auto].
  destruct (has_key K_WEBRTC (scrub px (px_head px))); [split; auto|].
  cbn in H. rewrite H. cbn. split; auto.
Qed.

(* ---- content, id and headers ---- *)
Lemma prepare_payload st d msg :
  f_seq (prepare st d msg) = f_seq msg /\ f_content (prepare st d msg) = f_content msg /\
  f_head (prepare st d msg) = f_head msg.
Proof.
  unfold prepare. destruct (st_kind st); destruct (ss_chan d); try destruct (ss_uid d =? 0); cbn; auto.
Qed.

Lemma hdel_idem k (h : head) : hdel k (hdel k h) = hdel k h.
Proof.
  unfold hdel, remove_key. induction h as [|kv r IH]; cbn; [reflexivity|].
  destruct (negb (fst kv =? k)) eqn:E; cbn; [rewrite E; now f_equal|exact IH].
Qed.

Lemma hdel_hset k v (h : head) : hdel k (hset k v h) = hdel k h.
Proof. unfold hset, hdel at 1, remove_key. cbn. rewrite N.eqb_refl. cbn. apply hdel_idem. Qed.

Lemma hget_hdel_same k (h : head) : hget k (hdel k h) = None.
Proof. apply lookup_remove_key_same. Qed.

Lemma hget_hdel_other k k2 (h : head) : k2 <> k -> hget k2 (hdel k h) = hget k2 h.
Proof. apply lookup_remove_key_other. Qed.

Lemma hget_hset_same k v (h : head) : hget k (hset k v h) = Some v.
Proof. unfold hget, hset. cbn [lookup]. now rewrite N.eqb_refl. Qed.

Lemma hget_hset_other k k2 v (h : head) : k2 <> k -> hget k2 (hset k v h) = hget k2 h.
Proof.
  intros Hne. unfold hget, hset. cbn [lookup]. destruct (k2 =? k) eqn:E; [apply N.eqb_eq in E; congruence|].
  now apply lookup_remove_key_other.
Qed.

Definition obo (px : pubctx) : bool := negb (px_author px =? px_real px).

Lemma scrub_twice px h :
  hdel K_SENDER (scrub px (scrub px h)) = hdel K_SENDER h /\
  hget K_SENDER (scrub px (scrub px h)) = (if obo px then Some (px_real px) else None) /\
  (forall k, k <> K_SENDER -> hget k (scrub px (scrub px h)) = hget k h).
Proof.
  unfold scrub, obo. destruct (negb (px_author px =? px_real px)).
  - split; [now rewrite !hdel_hset|]. split.
    + apply hget_hset_same.
    + intros k Hk. now rewrite !hget_hset_other by assumption.
  - split; [now rewrite !hdel_idem|]. split.
    + apply hget_hdel_same.
    + intros k Hk. now rewrite !hget_hdel_other by assumption.
Qed.

Lemma copy_payload st px s f :
  In (s, f) (fanout st px) ->
  f_seq f = (st_lastid st + 1)%Z /\ f_content f = px_content px /\
  hdel K_SENDER (f_head f) = hdel K_SENDER (px_head px) /\
  hget K_SENDER (f_head f) = (if obo px then Some (px_real px) else None) /\
  (forall k, k <> K_SENDER -> hget k (f_head f) = hget k (px_head px)).
Proof.
  intros H. apply delivered_set in H. destruct H as [d [_ [_ [_ H]]]]. subst f.
  destruct (prepare_payload st d (data_msg st px)) as [H1 [H2 H3]]. rewrite H1, H2, H3. cbn.
  destruct (scrub_twice px (px_head px)) as [H4 [H5 H6]]. auto.
Qed.

(* ---- author ---- *)
Lemma prepare_from st d msg : f_from (prepare st d msg) = if ss_chan d then 0 else f_from msg.
Proof.
  unfold prepare. destruct (st_kind st); destruct (ss_chan d); try destruct (ss_uid d =? 0); cbn; auto.
Qed.

(* a channel reader: the session is a channel subscription, or the user it acts for is cached as one *)
Definition chan_reader (st : state) (d : psd) : bool := ss_chan d || user_is_chan st (ss_uid d).
(* the two notions agree *)
Definition chan_consistent (st : state) : Prop :=
  forall s d, In (s, d) (st_sess st) -> ss_chan d = user_is_chan st (ss_uid d).

Definition author_statement : Prop :=
  forall st px s f, wf_sess st -> In (s, f) (fanout st px) ->
    exists d, In (s, d) (st_sess st) /\ f_from f = if chan_reader st d then 0 else px_author px.

(* ---- topic name as seen ---- *)
Lemma prepare_topic st d msg :
  f_topic (prepare st d msg) =
  match st_kind st with
  | KP2P => if ss_uid d =? 0 then f_topic msg else original st (ss_uid d)
  | KChn => if ss_chan d then TChn else original st (ss_uid d)
  | KGrp => f_topic msg
  end.
Proof.
  unfold prepare. destruct (st_kind st); destruct (ss_chan d); try destruct (ss_uid d =? 0); cbn; auto.
Qed.

(* ---- push ---- *)
Lemma push_to_spec st u :
  In u (push_to st) <-> exists p, In (u, p) (st_users st) /\ push_wanted p = true.
Proof.
  unfold push_to. rewrite in_map_iff. split.
  - intros [[u' p] [H1 H2]]. cbn in H1. subst. apply filter_In in H2. now exists p.
  - intros [p [H1 H2]]. exists (u, p). split; [reflexivity|]. now apply filter_In.
Qed.

Lemma push_to_NoDup st : wf_users st -> NoDup (push_to st).
Proof. intros H. unfold push_to. now apply NoDup_keys_filter. Qed.

Lemma push_rcpt_spec st :
  let ch := match st_kind st with KChn => true | _ => false end in
  match push_rcpt st with
  | Some (to, c) => to = push_to st /\ c = ch /\ (to <> [] \/ ch = true)
  | None => push_to st = [] /\ ch = false
  end.
Proof.
  unfold push_rcpt. destruct (push_to st) as [|u r] eqn:E.
  - destruct (st_kind st); cbn; auto.
  - cbn. split; [reflexivity|]. split; [reflexivity|]. left. discriminate.
Qed.

Lemma push_wanted_spec p :
  push_wanted p = true <->
  has (eff p) bR = true /\ has (eff p) bP = true /\ pu_deleted p = false /\ pu_ischan p = false.
Proof.
  unfold push_wanted. rewrite !andb_true_iff, !negb_true_iff. tauto.
Qed.

(* ------------------------------------------------------------------ *)
(* Part 2.  Histories. *)

(* ---- the attached-session map stays a map; the id counter never goes back ---- *)
Lemma drop_session_sess st s :
  st_sess (drop_session st s) = remove_key s (st_sess st) /\ st_lastid (drop_session st s) = st_lastid st /\
  st_kind (drop_session st s) = st_kind st.
Proof.
  unfold drop_session. destruct (lookup s (st_sess st)) as [d|] eqn:E.
  - destruct (ss_chan d); cbn; auto.
  - now rewrite remove_key_absent.
Qed.

Lemma wf_remove_key st s : wf_sess st -> NoDup (map fst (remove_key s (st_sess st))).
Proof. intros H. unfold remove_key. now apply NoDup_keys_filter. Qed.

Lemma wf_drop_session st s : wf_sess st -> wf_sess (drop_session st s).
Proof. intros H. unfold wf_sess. destruct (drop_session_sess st s) as [-> _]. now apply wf_remove_key. Qed.

Lemma fold_drop_sessions l : forall st,
  (wf_sess st -> wf_sess (fold_left drop_session l st)) /\
  st_lastid (fold_left drop_session l st) = st_lastid st /\
  st_kind (fold_left drop_session l st) = st_kind st /\
  (forall k, In k (map fst (st_sess (fold_left drop_session l st))) <-> In k (map fst (st_sess st)) /\ ~ In k l).
Proof.
  induction l as [|s r IH]; intros st; cbn [fold_left].
  - repeat split; auto; tauto.
  - destruct (IH (drop_session st s)) as [H1 [H2 [H3 H4]]]. destruct (drop_session_sess st s) as [E1 [E2 E3]].
    split; [intros H; apply H1; now apply wf_drop_session|]. split; [congruence|]. split; [congruence|].
    intros k. rewrite H4, E1, keys_remove_key. cbn [In]. split.
    + intros [[Ha Hb] Hc]. split; [assumption|]. intros [Hd|Hd]; [congruence|contradiction].
    + intros [Ha Hb]. split; [split; [assumption|]|]; intros Hc; apply Hb; [left; congruence|now right].
Qed.

Lemma evict_user_sess st u b :
  st_sess (evict_user st u b) = filter (fun sd => negb (ss_uid (snd sd) =? u)) (st_sess st) /\
  st_lastid (evict_user st u b) = st_lastid st /\ st_kind (evict_user st u b) = st_kind st.
Proof. unfold evict_user. cbn. auto. Qed.

Lemma wf_evict_user st u b : wf_sess st -> wf_sess (evict_user st u b).
Proof. intros H. unfold wf_sess. destruct (evict_user_sess st u b) as [-> _]. now apply NoDup_keys_filter. Qed.

Lemma add_session_sess st s u c :
  st_sess (add_session st s u c) = (if has_key s (st_sess st) then st_sess st else st_sess st ++ [(s, mkPsd u c)]) /\
  st_lastid (add_session st s u c) = st_lastid st /\ st_kind (add_session st s u c) = st_kind st.
Proof. unfold add_session. destruct (has_key s (st_sess st)); cbn; auto. Qed.

Lemma wf_add_session st s u c : wf_sess st -> wf_sess (add_session st s u c).
Proof.
  intros H. unfold wf_sess. destruct (add_session_sess st s u c) as [-> _].
  destruct (has_key s (st_sess st)) eqn:E; [assumption|]. apply NoDup_keys_app_new; [assumption|]. now apply has_key_false.
Qed.

Lemma wf_set_users v st : wf_sess (set_users v st) <-> wf_sess st. Proof. reflexivity. Qed.
Lemma wf_set_chanrows v st : wf_sess (set_chanrows v st) <-> wf_sess st. Proof. reflexivity. Qed.
Lemma wf_set_gone v st : wf_sess (set_gone v st) <-> wf_sess st. Proof. reflexivity. Qed.
Lemma wf_set_full v st : wf_sess (set_full v st) <-> wf_sess st. Proof. reflexivity. Qed.
Lemma wf_set_lastid v st : wf_sess (set_lastid v st) <-> wf_sess st. Proof. reflexivity. Qed.

(* what every request other than a publish leaves alone *)
Definition frame_ok (st st' : state) : Prop :=
  (wf_sess st -> wf_sess st') /\ st_lastid st' = st_lastid st /\ st_kind st' = st_kind st.

Lemma frame_refl st : frame_ok st st. Proof. unfold frame_ok. auto. Qed.
Lemma frame_trans a b c : frame_ok a b -> frame_ok b c -> frame_ok a c.
Proof. unfold frame_ok. intros [A1 [A2 A3]] [B1 [B2 B3]]. repeat split; [auto|congruence|congruence]. Qed.
Lemma frame_set_users v st : frame_ok st (set_users v st). Proof. unfold frame_ok. auto. Qed.
Lemma frame_set_chanrows v st : frame_ok st (set_chanrows v st). Proof. unfold frame_ok. auto. Qed.
Lemma frame_set_gone v st : frame_ok st (set_gone v st). Proof. unfold frame_ok. auto. Qed.
Lemma frame_set_full v st : frame_ok st (set_full v st). Proof. unfold frame_ok. auto. Qed.
Lemma frame_evict st u b : frame_ok st (evict_user st u b).
Proof. destruct (evict_user_sess st u b) as [_ [H2 H3]]. split; [apply wf_evict_user|auto]. Qed.
Lemma frame_add st s u c : frame_ok st (add_session st s u c).
Proof. destruct (add_session_sess st s u c) as [_ [H2 H3]]. split; [apply wf_add_session|auto]. Qed.
Lemma frame_drop st s : frame_ok st (drop_session st s).
Proof. destruct (drop_session_sess st s) as [_ [H2 H3]]. split; [apply wf_drop_session|auto]. Qed.
Lemma frame_remove_sess st s : frame_ok st (set_sess (remove_key s (st_sess st)) st).
Proof. split; [intros H; now apply wf_remove_key|auto]. Qed.


(* ------------------------------------------------------------------ *)
(* every attached session acts for a current (not deleted) subscriber *)

Lemma lookup_upsert_same u f l :
  lookup u (upsert u f l) = Some (f (match lookup u l with Some p => p | None => zero_pud end)).
Proof.
  unfold upsert, has_key. destruct (lookup u l) as [p|] eqn:E.
  - now apply lookup_update_same.
  - rewrite lookup_app, E. cbn. now rewrite N.eqb_refl.
Qed.

Lemma lookup_upsert_other u u2 f l : u2 <> u -> lookup u2 (upsert u f l) = lookup u2 l.
Proof.
  intros Hne. unfold upsert. destruct (has_key u l).
  - now apply lookup_update_other.
  - rewrite lookup_app. destruct (lookup u2 l); [reflexivity|]. cbn.
    destruct (u2 =? u) eqn:E; [apply N.eqb_eq in E; congruence|reflexivity].
Qed.

Definition cnt (u : uid) (l : list (sid * psd)) : nat := length (filter (fun sd => ss_uid (snd sd) =? u) l).

Lemma cnt_filter_le u (q : sid * psd -> bool) l : (cnt u (filter q l) <= cnt u l)%nat.
Proof.
  unfold cnt. induction l as [|x r IH]; cbn; [lia|].
  destruct (q x); cbn; destruct (ss_uid (snd x) =? u); cbn; lia.
Qed.

Lemma cnt_filter_lt u (q : sid * psd -> bool) l x :
  In x l -> ss_uid (snd x) = u -> q x = false -> (cnt u (filter q l) + 1 <= cnt u l)%nat.
Proof.
  unfold cnt. induction l as [|y r IH]; cbn; [tauto|]. intros [->|Hin] Hu Hq.
  - rewrite Hq. rewrite Hu, N.eqb_refl. cbn. pose proof (cnt_filter_le u q r). unfold cnt in H. lia.
  - specialize (IH Hin Hu Hq). destruct (q y); cbn; destruct (ss_uid (snd y) =? u); cbn; lia.
Qed.

Lemma cnt_filter_uid u l : cnt u (filter (fun sd => negb (ss_uid (snd sd) =? u)) l) = 0%nat.
Proof.
  unfold cnt. induction l as [|y r IH]; cbn; [reflexivity|].
  destruct (ss_uid (snd y) =? u) eqn:E; cbn; [exact IH|]. now rewrite E.
Qed.

Lemma cnt_app u l s u2 c : cnt u (l ++ [(s, mkPsd u2 c)]) = (cnt u l + (if (u2 =? u)%N then 1 else 0))%nat.
Proof. unfold cnt. rewrite filter_app, app_length. cbn. destruct (u2 =? u); reflexivity. Qed.

Lemma cnt_zero u l : cnt u l = 0%nat <-> (forall s d, In (s, d) l -> ss_uid d <> u).
Proof.
  unfold cnt. induction l as [|[s d] r IH]; cbn; [tauto|].
  destruct (N.eqb_spec (ss_uid d) u) as [E|E]; cbn.
  - split; [discriminate|]. intros H. destruct (H s d); auto.
  - rewrite IH. split; intros H s' d'; [intros [Hin|Hin]; [now inv Hin|eauto]|eauto].
Qed.

Lemma cnt_pos_in u (l : list (sid * psd)) : cnt u l <> 0%nat -> exists s d, In (s, d) l /\ ss_uid d = u.
Proof.
  unfold cnt. induction l as [|[s d] r IH]; cbn; [congruence|]. destruct (ss_uid d =? u) eqn:E.
  - intros _. exists s, d. split; [now left|now apply N.eqb_eq].
  - intros H. destruct (IH H) as [s' [d' [Hin Hu]]]. exists s', d'. split; [now right|exact Hu].
Qed.

Lemma remove_key_as_filter {A} (k : N) (l : list (N * A)) :
  remove_key k l = filter (fun kv => negb (fst kv =? k)) l.
Proof. reflexivity. Qed.

Lemma cnt_remove_le u s (l : list (sid * psd)) : (cnt u (remove_key s l) <= cnt u l)%nat.
Proof. exact (cnt_filter_le u (fun kv => negb (fst kv =? s)) l). Qed.

Lemma cnt_remove_lt u s d (l : list (sid * psd)) :
  In (s, d) l -> ss_uid d = u -> (cnt u (remove_key s l) + 1 <= cnt u l)%nat.
Proof.
  intros Hin Hu. apply (cnt_filter_lt u (fun kv => negb (fst kv =? s)) l (s, d) Hin Hu). cbn. now rewrite N.eqb_refl.
Qed.

Definition att_ok (st : state) : Prop :=
  forall s d, In (s, d) (st_sess st) -> exists p, lookup (ss_uid d) (st_users st) = Some p /\ pu_deleted p = false.
Definition online_ok (st : state) : Prop :=
  forall u, (Z.of_nat (cnt u (st_sess st)) <= pu_online (get_pud st u))%Z.
Definition inv (st : state) : Prop := wf_sess st /\ att_ok st /\ online_ok st.

(* ---- the elementary changes of which every request other than a publish is composed ---- *)
Inductive change (st : state) : state -> Prop :=
| c_full v : change st (set_full v st)
| c_gone v : change st (set_gone v st)
| c_chanrows v : change st (set_chanrows v st)
| c_modes u w g : change st (set_users (update u (set_pud_modes w g) (st_users st)) st)
| c_evict u b : change st (evict_user st u b)
| c_add s u c : (forall p, lookup u (st_users st) = Some p -> pu_deleted p = false) -> change st (add_session st s u c)
| c_new u p : lookup u (st_users st) = None -> pu_deleted p = false -> (0 <= pu_online p)%Z ->
    change st (set_users (st_users st ++ [(u, p)]) st)
| c_remove_sess s : change st (set_sess (remove_key s (st_sess st)) st)
  (* a counted session leaves: [f] decrements the online counter of its user *)
| c_leave s d f : lookup s (st_sess st) = Some d ->
    (forall q, lookup (ss_uid d) (st_users st) = Some q -> f q = set_pud_online (pu_online q - 1) q) ->
    change st (set_users (upsert (ss_uid d) f (st_users st)) (set_sess (remove_key s (st_sess st)) st))
| c_remove_user u : (pu_online (get_pud st u) <= 0)%Z -> change st (set_users (remove_key u (st_users st)) st).

Inductive reach (st : state) : state -> Prop :=
| reach_refl : reach st st
| reach_step st1 st2 : reach st st1 -> change st1 st2 -> reach st st2.

Lemma change_reach st st' : change st st' -> reach st st'.
Proof. apply reach_step, reach_refl. Qed.

Lemma change_frame st st' : change st st' -> frame_ok st st'.
Proof.
  destruct 1; [apply frame_set_full|apply frame_set_gone|apply frame_set_chanrows|apply frame_set_users|apply frame_evict|apply frame_add|
               apply frame_set_users|apply frame_remove_sess| |apply frame_set_users].
  exact (frame_trans _ _ _ (frame_remove_sess _ _) (frame_set_users _ _)).
Qed.

Lemma reach_frame st st' : reach st st' -> frame_ok st st'.
Proof. induction 1 as [|st1 st2 _ IH H]; [apply frame_refl|]. exact (frame_trans _ _ _ IH (change_frame _ _ H)). Qed.

Lemma inv_same_core st st' :
  st_sess st' = st_sess st -> st_users st' = st_users st -> inv st -> inv st'.
Proof.
  unfold inv, wf_sess, att_ok, online_ok, get_pud. intros -> ->. tauto.
Qed.

(* [inv] user by user: whoever has an attached session is cached and not deleted, and the counter covers the sessions *)
Definition user_ok (st : state) (u : uid) : Prop :=
  (cnt u (st_sess st) <> 0%nat -> exists p, lookup u (st_users st) = Some p /\ pu_deleted p = false) /\
  (Z.of_nat (cnt u (st_sess st)) <= pu_online (get_pud st u))%Z.

Lemma inv_users st : inv st <-> wf_sess st /\ forall u, user_ok st u.
Proof.
  unfold inv, user_ok. split; intros [W H]; (split; [exact W|]).
  - destruct H as [A O]. intros u. split; [|apply O]. intros Hc. destruct (cnt_pos_in _ _ Hc) as [s [d [Hin <-]]]. exact (A s d Hin).
  - split; [|intros u; apply H]. intros s d Hin. apply H. intros Hz. exact (proj1 (cnt_zero _ _) Hz s d Hin eq_refl).
Qed.

Lemma user_ok_mono st st' u :
  lookup u (st_users st') = lookup u (st_users st) -> (cnt u (st_sess st') <= cnt u (st_sess st))%nat ->
  user_ok st u -> user_ok st' u.
Proof. unfold user_ok, get_pud. intros -> Hc [A B]. split; [intros H; apply A; lia|lia]. Qed.

(* a change that touches the cache entry of [u] only and attaches no session of anybody else *)
Lemma inv_touch st st' u :
  inv st -> wf_sess st' ->
  (forall u2, u2 <> u -> lookup u2 (st_users st') = lookup u2 (st_users st) /\ (cnt u2 (st_sess st') <= cnt u2 (st_sess st))%nat) ->
  (user_ok st u -> user_ok st' u) -> inv st'.
Proof.
  intros H W' Ho Hu. apply inv_users in H. destruct H as [_ U]. apply inv_users. split; [exact W'|]. intros u2.
  destruct (N.eq_dec u2 u) as [->|E]; [exact (Hu (U u))|]. destruct (Ho u2 E). now apply (user_ok_mono st).
Qed.

Lemma inv_update_modes st u w g :
  inv st -> inv (set_users (update u (set_pud_modes w g) (st_users st)) st).
Proof.
  intros H. apply (inv_touch st _ u H); [apply H| |]; cbn [st_users st_sess set_users].
  - intros u2 E. now rewrite lookup_update_other.
  - unfold user_ok, get_pud. cbn [st_users st_sess set_users]. destruct (lookup u (st_users st)) as [p|] eqn:Ep.
    + rewrite (lookup_update_same _ _ _ _ Ep). intros [A B]. split; [|exact B].
      intros Hc. destruct (A Hc) as [q [[= <-] Hd]]. eauto.
    + now rewrite (lookup_update_none _ _ _ Ep).
Qed.

(* evictUser touches the cache entry of [u] only *)
Lemma evict_other st u b u2 : u2 <> u -> lookup u2 (st_users (evict_user st u b)) = lookup u2 (st_users st).
Proof.
  intros Hne. unfold evict_user. cbn [st_users set_sess set_users]. destruct b.
  - destruct (st_kind st); [now apply lookup_remove_key_other|now apply lookup_remove_key_other|now apply lookup_upsert_other].
  - destruct (lookup u (st_users st)) as [p|]; [|reflexivity].
    destruct (pu_ischan p); [now apply lookup_remove_key_other|now apply lookup_update_other].
Qed.

(* ... which it deletes (group topics), marks deleted (p2p), or resets to no session online *)
Lemma evict_same st u b :
  lookup u (st_users (evict_user st u b)) =
  if b then match st_kind st with
            | KP2P => Some (let p := get_pud st u in mkPud (pu_want p) (pu_given p) true (pu_ischan p) (pu_peer p) 0%Z)
            | _ => None
            end
  else match lookup u (st_users st) with
       | Some p => if pu_ischan p then None else Some (set_pud_online 0%Z p)
       | None => None
       end.
Proof.
  unfold evict_user, get_pud. cbn [st_users set_sess set_users]. destruct b.
  - destruct (st_kind st); [apply lookup_remove_key_same|apply lookup_remove_key_same|apply lookup_upsert_same].
  - destruct (lookup u (st_users st)) as [p|] eqn:Ep; [|exact Ep].
    destruct (pu_ischan p); [apply lookup_remove_key_same|now apply lookup_update_same].
Qed.

Lemma inv_evict_user st u b : inv st -> inv (evict_user st u b).
Proof.
  intros H. destruct (evict_user_sess st u b) as [Hs _].
  apply (inv_touch st _ u H); [apply wf_evict_user, H| |]; rewrite ?Hs.
  - intros u2 E. split; [now apply evict_other|apply cnt_filter_le].
  - intros _. unfold user_ok. rewrite Hs, cnt_filter_uid. split; [congruence|].
    unfold get_pud. rewrite evict_same.
    destruct b; [destruct (st_kind st)|destruct (lookup u (st_users st)) as [p|]; [destruct (pu_ischan p)|]]; cbn; lia.
Qed.

Lemma inv_add_session st s u c :
  inv st -> (forall p, lookup u (st_users st) = Some p -> pu_deleted p = false) -> inv (add_session st s u c).
Proof.
  intros H Hu.
  assert (Husers : st_users (add_session st s u c) =
                   upsert u (fun p => set_pud_online (pu_online p + 1)%Z p) (st_users st)).
  { unfold add_session. destruct (has_key s (st_sess st)); reflexivity. }
  destruct (add_session_sess st s u c) as [Hsess _].
  apply (inv_touch st _ u H); [apply wf_add_session, H| |]; unfold user_ok, get_pud; rewrite Husers, Hsess.
  - intros u2 E. split; [now apply lookup_upsert_other|]. destruct (has_key s (st_sess st)); [lia|]. rewrite cnt_app.
    destruct (u =? u2) eqn:E2; [apply N.eqb_eq in E2; congruence|lia].
  - rewrite lookup_upsert_same. intros [_ B]. split.
    + intros _. eexists. split; [reflexivity|]. cbn. destruct (lookup u (st_users st)) as [p|] eqn:Ep; [now apply Hu|reflexivity].
    + cbn [pu_online set_pud_online]. destruct (has_key s (st_sess st)); [|rewrite cnt_app, N.eqb_refl]; lia.
Qed.

Lemma inv_new_user st u p :
  inv st -> lookup u (st_users st) = None -> pu_deleted p = false -> (0 <= pu_online p)%Z ->
  inv (set_users (st_users st ++ [(u, p)]) st).
Proof.
  intros H Hn Hd Ho. apply (inv_touch st _ u H); [apply H| |]; unfold user_ok, get_pud; cbn [st_users st_sess set_users].
  - intros u2 E. rewrite lookup_app. split; [|lia]. destruct (lookup u2 (st_users st)); [reflexivity|]. cbn.
    destruct (u2 =? u) eqn:E2; [apply N.eqb_eq in E2; congruence|reflexivity].
  - rewrite lookup_app, Hn. cbn [lookup]. rewrite N.eqb_refl. cbn. intros [_ B]. split; [eauto|lia].
Qed.

Lemma inv_remove_sess st s : inv st -> inv (set_sess (remove_key s (st_sess st)) st).
Proof.
  intros H. apply inv_users. split; [apply wf_remove_key, H|]. intros u.
  apply (user_ok_mono st); [reflexivity|apply cnt_remove_le|]. now apply inv_users.
Qed.

Lemma inv_leave st s d f :
  inv st -> lookup s (st_sess st) = Some d ->
  (forall q, lookup (ss_uid d) (st_users st) = Some q -> f q = set_pud_online (pu_online q - 1) q) ->
  inv (set_users (upsert (ss_uid d) f (st_users st)) (set_sess (remove_key s (st_sess st)) st)).
Proof.
  intros H Es Hf. pose proof (lookup_in _ _ _ Es) as Hin. destruct (proj1 (proj2 H) s d Hin) as [q [Hq Hd]].
  pose proof (cnt_remove_lt (ss_uid d) s d (st_sess st) Hin eq_refl) as Hlt.
  apply (inv_touch st _ (ss_uid d) H); [apply wf_remove_key, H| |]; unfold user_ok, get_pud; cbn [st_sess st_users set_users set_sess].
  - intros u2 E. split; [now apply lookup_upsert_other|apply cnt_remove_le].
  - rewrite lookup_upsert_same, Hq, (Hf q Hq). cbn. intros [_ B]. split; [eauto|lia].
Qed.

Lemma inv_remove_user st u :
  inv st -> cnt u (st_sess st) = 0%nat -> inv (set_users (remove_key u (st_users st)) st).
Proof.
  intros H Hc. apply (inv_touch st _ u H); [apply H| |]; unfold user_ok, get_pud; cbn [st_sess st_users set_users].
  - intros u2 E. now rewrite lookup_remove_key_other.
  - intros _. rewrite Hc, lookup_remove_key_same. cbn. split; [congruence|lia].
Qed.

Lemma change_inv st st' : change st st' -> inv st -> inv st'.
Proof.
  destruct 1; intros Hinv.
  - now apply (inv_same_core st).
  - now apply (inv_same_core st).
  - now apply (inv_same_core st).
  - now apply inv_update_modes.
  - now apply inv_evict_user.
  - now apply inv_add_session.
  - now apply inv_new_user.
  - now apply inv_remove_sess.
  - now apply inv_leave.
  - apply inv_remove_user; [exact Hinv|]. destruct Hinv as [_ [_ Ho]]. specialize (Ho u). lia.
Qed.

Lemma reach_inv st st' : reach st st' -> inv st -> inv st'.
Proof. induction 1 as [|st1 st2 _ IH H]; [auto|]. intros Hinv. exact (change_inv _ _ H (IH Hinv)). Qed.

(* ---- each request as a sequence of elementary changes ---- *)
Lemma drop_reach st s : reach st (drop_session st s).
Proof.
  unfold drop_session. destruct (lookup s (st_sess st)) as [d|] eqn:E; [|apply reach_refl].
  apply change_reach. destruct (ss_chan d); [apply c_remove_sess|]. now apply (c_leave st s d).
Qed.

Lemma evict_false_deleted st u p' :
  (forall q, lookup u (st_users st) = Some q -> pu_deleted q = false) ->
  lookup u (st_users (evict_user st u false)) = Some p' -> pu_deleted p' = false.
Proof.
  intros Hq. rewrite evict_same. destruct (lookup u (st_users st)) as [q|]; [|discriminate].
  destruct (pu_ischan q); [discriminate|]. intros [= <-]. cbn. now apply Hq.
Qed.

Lemma attach_reach st s u c st' : attach st s u c = Some st' -> reach st st'.
Proof.
  unfold attach. intros H.
  destruct (has_key s (st_sess st)); [inv H; apply reach_refl|].
  destruct (negb (chan_ok st c)); [inv H; apply reach_refl|].
  destruct (lookup u (st_users st)) as [p|] eqn:Ep.
  - destruct (pu_deleted p) eqn:Ed; [discriminate|].
    destruct (negb (pu_ischan p) && c); [inv H; apply reach_refl|].
    set (want := if has (pu_want p) bJ then pu_want p
                 else (if st_owner st =? u then N.lor (pu_given p) (st_defacs st)
                       else N.ldiff (N.lor (pu_given p) (st_defacs st)) bO)) in *.
    set (st1 := set_users (update u (set_pud_modes want (pu_given p)) (st_users st)) st) in *.
    assert (R1 : reach st st1) by apply change_reach, c_modes.
    assert (Hu1 : forall q, lookup u (st_users st1) = Some q -> pu_deleted q = false).
    { intros q Hq. unfold st1 in Hq. cbn [st_users set_users] in Hq. rewrite (lookup_update_same _ _ _ _ Ep) in Hq. inv Hq. exact Ed. }
    assert (R2 : reach st (evict_user st1 u false)) by (apply (reach_step _ _ _ R1), c_evict).
    destruct (negb (has want bJ)).
    + destruct (want =? pu_want p); inv H; [|exact R2].
      apply (reach_step _ _ _ R2), c_add. intros q. now apply evict_false_deleted.
    + destruct (negb (has (pu_given p) bJ)); inv H; [exact R1|]. apply (reach_step _ _ _ R1), c_add, Hu1.
  - (* a new cache entry [q], then the session *)
    assert (Hnew : forall q rows c', pu_deleted q = false -> pu_online q = 0%Z ->
              reach st (add_session (set_chanrows rows (set_users (st_users st ++ [(u, q)]) st)) s u c')).
    { intros q rows c' Hd Ho. eapply reach_step; [eapply reach_step; [apply change_reach, (c_new st u q Ep Hd)|apply c_chanrows]|apply c_add].
      { rewrite Ho. apply Z.le_refl. }
      intros q'. cbn [st_users set_chanrows set_users]. rewrite lookup_app, Ep. cbn [lookup]. rewrite N.eqb_refl. now intros [= <-]. }
    destruct (st_kind st); [| |inv H; apply reach_refl];
      (destruct c; [inv H; now apply Hnew|]; destruct (mem u (st_gone st)); [discriminate|];
       destruct (negb (has (st_defacs st) bJ)); inv H; [apply reach_refl|]; now apply (Hnew _ (st_chanrows st))).
Qed.

Lemma detach_reach st s u c st' : detach st s u c = Some st' -> reach st st'.
Proof.
  unfold detach. intros H. destruct (lookup s (st_sess st)) as [d|] eqn:Es; [|inv H; apply reach_refl].
  destruct (negb (ss_uid d =? u)) eqn:Eu; [inv H; apply reach_refl|]. apply negb_false_iff, N.eqb_eq in Eu. subst u.
  destruct (negb (eqb (ss_chan d) (c && chan_ok st c))); [inv H; apply change_reach, c_remove_sess|].
  set (st1 := set_sess (remove_key s (st_sess st)) st) in *.
  set (n := (pu_online (get_pud st1 (ss_uid d)) - 1)%Z) in *.
  set (st2 := set_users (upsert (ss_uid d) (set_pud_online n) (st_users st1)) st1) in *.
  assert (R2 : reach st st2).
  { apply change_reach, (c_leave st s d); [exact Es|]. intros q Hq. unfold n, get_pud, st1. cbn [st_users set_sess]. now rewrite Hq. }
  destruct (st_kind st); [| |inv H; exact R2];
    (destruct ((n =? 0)%Z && (c && chan_ok st c)) eqn:En; inv H; [|exact R2]; apply (reach_step _ _ _ R2), c_remove_user;
     apply andb_true_iff, proj1, Z.eqb_eq in En; unfold get_pud, st2; cbn [st_users set_users]; rewrite lookup_upsert_same; cbn; lia).
Qed.

Lemma evict_gone_reach st u : reach st (set_gone (u :: st_gone st) (evict_user st u true)).
Proof. eapply reach_step; [apply change_reach, c_evict|apply c_gone]. Qed.

Lemma unsub_reach st s u c st' : unsub st s u c = Some st' -> reach st st'.
Proof.
  unfold unsub. intros H. destruct (negb (has_key s (st_sess st))); [inv H; apply reach_refl|].
  destruct (st_owner st =? u); [inv H; apply reach_refl|]. destruct (negb (chan_ok st c)); [inv H; apply reach_refl|].
  destruct (lookup u (st_users st)) as [p|]; [|discriminate]. destruct (pu_deleted p); [discriminate|].
  assert (Rc : reach st (set_chanrows (remove_key u (st_chanrows st)) (evict_user st u true)))
    by (eapply reach_step; [apply change_reach, c_evict|apply c_chanrows]).
  destruct (st_kind st); [destruct (pu_ischan p)|destruct (pu_ischan p)|destruct (existsb _ _); [discriminate|]]; inv H;
    first [exact Rc|apply evict_gone_reach].
Qed.

(* a new grant, and evictUser when it has no J *)
Lemma modes_reach st u w g (b : bool) st' :
  (let st1 := set_users (update u (set_pud_modes w g) (st_users st)) st in
   if b then Some (evict_user st1 u false) else Some st1) = Some st' -> reach st st'.
Proof. cbv zeta. destruct b; intros H; inv H; [eapply reach_step; [|apply c_evict]|]; apply change_reach, c_modes. Qed.

Lemma set_want_reach st u m st' : set_want st u m = Some st' -> reach st st'.
Proof.
  unfold set_want. destruct (lookup u (st_users st)) as [p|]; [|discriminate].
  destruct (pu_deleted p || pu_ischan p); [discriminate|].
  destruct ((st_owner st =? u) && _); [intros H; inv H; apply reach_refl|].
  destruct (has (pu_given p) bO && has m bO && _); [discriminate|].
  destruct (negb (has (pu_given p) bO) && has m bO); [intros H; inv H; apply reach_refl|].
  apply modes_reach.
Qed.

Lemma set_given_reach st h u m st' : set_given st h u m = Some st' -> reach st st'.
Proof.
  unfold set_given. destruct (h =? u); [discriminate|].
  destruct (lookup h (st_users st)) as [hp|]; [|intros H; inv H; apply reach_refl].
  destruct (negb _); [intros H; inv H; apply reach_refl|]. cbv zeta.
  destruct (has _ bO); [destruct (st_owner st =? h); [discriminate|intros H; inv H; apply reach_refl]|].
  destruct (lookup u (st_users st)) as [p|]; [|discriminate]. destruct (pu_deleted p || pu_ischan p); [discriminate|].
  destruct (st_owner st =? u); [intros H; inv H; apply reach_refl|]. apply modes_reach.
Qed.

Lemma evict_op_reach st h u st' : evict st h u = Some st' -> reach st st'.
Proof.
  unfold evict. destruct (negb _); [intros H; inv H; apply reach_refl|].
  destruct ((u =? 0) || (u =? h)); [intros H; inv H; apply reach_refl|].
  destruct (st_kind st); [| |intros H; inv H; apply reach_refl];
    (destruct (lookup u (st_users st)) as [p|]; [|intros H; inv H; apply reach_refl]; destruct (pu_ischan p); [discriminate|];
     destruct (has (eff p) bO); [intros H; inv H; apply reach_refl|];
     destruct (negb (has (pu_want p) bJ)); intros H; inv H; [apply reach_refl|apply evict_gone_reach]).
Qed.

Lemma frame_attach st s u c st' : attach st s u c = Some st' -> frame_ok st st'.
Proof. intros H. exact (reach_frame _ _ (attach_reach _ _ _ _ _ H)). Qed.
Lemma frame_detach st s u c st' : detach st s u c = Some st' -> frame_ok st st'.
Proof. intros H. exact (reach_frame _ _ (detach_reach _ _ _ _ _ H)). Qed.
Lemma frame_unsub st s u c st' : unsub st s u c = Some st' -> frame_ok st st'.
Proof. intros H. exact (reach_frame _ _ (unsub_reach _ _ _ _ _ H)). Qed.
Lemma frame_set_want st u m st' : set_want st u m = Some st' -> frame_ok st st'.
Proof. intros H. exact (reach_frame _ _ (set_want_reach _ _ _ _ H)). Qed.
Lemma frame_set_given st h u m st' : set_given st h u m = Some st' -> frame_ok st st'.
Proof. intros H. exact (reach_frame _ _ (set_given_reach _ _ _ _ _ H)). Qed.
Lemma frame_evict_op st h u st' : evict st h u = Some st' -> frame_ok st st'.
Proof. intros H. exact (reach_frame _ _ (evict_op_reach _ _ _ _ H)). Qed.

Definition next_state (st : state) (ost : option state) : state := match ost with Some s1 => s1 | None => st end.

Lemma reach_opt st r : (forall st', r = Some st' -> reach st st') -> reach st (next_state st r).
Proof. intros H. destruct r; [now apply H|apply reach_refl]. Qed.

(* a request other than a publish emits nothing and is a sequence of elementary changes *)
Lemma step_quiet st o :
  (snd (step st o) = None /\ reach st (next_state st (fst (step st o)))) \/ exists px, o = OPub px.
Proof.
  destruct o; [left..|right; now exists px]; cbn [step fst snd next_state]; (split; [reflexivity|]).
  - apply reach_opt, attach_reach.
  - apply reach_opt, detach_reach.
  - exact (reach_step _ _ _ (drop_reach st s) (c_full _ _)).
  - apply reach_opt, unsub_reach.
  - apply reach_opt, set_want_reach.
  - apply reach_opt, set_given_reach.
  - apply reach_opt, evict_op_reach.
  - destruct (is_full st s); [apply reach_refl|apply change_reach, c_full].
  - apply change_reach, c_full.
Qed.

(* one request: the session map stays a map, the id counter moves forward by at most one, and every
   {data} frame it emits carries the new id, at most one per session *)
Lemma step_effect st o ost res :
  step st o = (ost, res) ->
  let st1 := next_state st ost in
  (wf_sess st -> wf_sess st1) /\
  (st_lastid st <= st_lastid st1)%Z /\
  (forall s f, In (s, f) (emitted res) -> f_seq f = (st_lastid st + 1)%Z /\ st_lastid st1 = (st_lastid st + 1)%Z) /\
  (wf_sess st -> NoDup (map fst (emitted res))).
Proof.
  intros H. destruct (step_quiet st o) as [Q|[px ->]].
  - rewrite H in Q. destruct Q as [Hn R]. cbn [fst snd] in Hn, R. subst res.
    apply reach_frame in R. destruct R as [F1 [F2 _]]. split; [exact F1|]. split; [lia|].
    split; [intros ? ? []|]. intros _. constructor.
  - cbn [step] in H. destruct (publish st px) as [r st'] eqn:E. inv H. cbn [next_state]. destruct (accepts st px) eqn:Ea.
    + rewrite (publish_accepted st px Ea) in E. inv E. cbn [emitted]. fold (fanout st px).
      destruct (fold_drop_sessions (overflowed (fanout_all st px)) (set_lastid (st_lastid st + 1)%Z st)) as [F1 [F2 _]].
      rewrite F2. cbn [st_lastid set_lastid]. split; [exact F1|]. split; [lia|]. split; [|apply delivered_NoDup].
      intros s f Hin. destruct (copy_payload st px s f Hin) as [-> _]. split; reflexivity.
    + destruct (publish_refused st px Ea) as [R1 R2]. rewrite E in R1, R2. cbn in R1, R2. subst st'.
      assert (Hem : emitted (Some r) = []) by (destruct R2 as [ -> | [ -> | -> ] ]; reflexivity).
      rewrite Hem. split; [auto|]. split; [lia|]. split; [intros ? ? []|]. intros _. constructor.
Qed.

Definition frames_to (s : sid) (tr : list (sid * frame)) : list frame :=
  map snd (filter (fun x => fst x =? s) tr).

Lemma frames_to_app s a b : frames_to s (a ++ b) = frames_to s a ++ frames_to s b.
Proof. unfold frames_to. now rewrite filter_app, map_app. Qed.

Lemma frames_to_in s f tr : In f (frames_to s tr) -> In (s, f) tr.
Proof.
  unfold frames_to. rewrite in_map_iff. intros [[s' f'] [H1 H2]]. cbn in H1. subst. apply filter_In in H2.
  destruct H2 as [H2 H3]. cbn in H3. apply N.eqb_eq in H3. now subst.
Qed.

Lemma frames_to_single s (tr : list (sid * frame)) :
  NoDup (map fst tr) -> frames_to s tr = [] \/ exists f, frames_to s tr = [f].
Proof.
  induction tr as [|[k f] r IH]; cbn; [auto|]. intros H. inv H. unfold frames_to. cbn [filter fst].
  destruct (k =? s) eqn:E.
  - apply N.eqb_eq in E. subst. right. exists f. cbn [map snd]. f_equal.
    fold (frames_to s r). destruct (frames_to s r) as [|g t] eqn:Eg; [reflexivity|].
    exfalso. apply H2. assert (Hin : In g (frames_to s r)) by (rewrite Eg; now left).
    apply frames_to_in in Hin. change s with (fst (s, g)). now apply in_map.
  - apply IH. assumption.
Qed.

Lemma run_order ops : forall st,
  wf_sess st ->
  let st' := fst (run st ops) in
  let tr := snd (run st ops) in
  wf_sess st' /\ (st_lastid st <= st_lastid st')%Z /\
  (forall s f, In (s, f) tr -> (st_lastid st < f_seq f <= st_lastid st')%Z) /\
  (forall s, StronglySorted Z.lt (map f_seq (frames_to s tr))).
Proof.
  induction ops as [|o r IH]; intros st Hwf; cbn [run].
  - cbn. split; [assumption|]. split; [lia|]. split; [intros ? ? []|]. intros s. constructor.
  - destruct (step st o) as [ost res] eqn:E. pose proof (step_effect st o ost res E) as Hs. cbn zeta in Hs.
    fold (next_state st ost). set (st1 := next_state st ost) in *.
    destruct Hs as [S1 [S3 [S4 S5]]]. specialize (IH st1 (S1 Hwf)). cbn zeta in IH.
    destruct (run st1 r) as [st2 tr] eqn:Er. cbn [fst snd] in *. destruct IH as [I1 [I2 [I3 I4]]].
    split; [assumption|]. split; [lia|]. split.
    + intros s f Hin. apply in_app_or in Hin. destruct Hin as [Hin|Hin].
      * destruct (S4 s f Hin) as [-> Hl]. lia.
      * specialize (I3 s f Hin). lia.
    + intros s. rewrite frames_to_app, map_app.
      destruct (frames_to_single s (emitted res) (S5 Hwf)) as [->|[f Hf]]; [cbn; apply I4|].
      rewrite Hf. cbn [map app]. constructor; [apply I4|].
      apply Forall_forall. intros q Hq. apply in_map_iff in Hq. destruct Hq as [g [<- Hg]].
      apply frames_to_in in Hg. specialize (I3 s g Hg).
      assert (Hin : In f (frames_to s (emitted res))) by (rewrite Hf; now left).
      apply frames_to_in in Hin. destruct (S4 s f Hin) as [-> Hl]. lia.
Qed.

Lemma step_inv st o ost res : step st o = (ost, res) -> inv st -> inv (next_state st ost).
Proof.
  intros H Hinv. destruct (step_quiet st o) as [Q|[px ->]].
  - rewrite H in Q. exact (reach_inv _ _ (proj2 Q) Hinv).
  - cbn [step] in H. destruct (publish st px) as [r st'] eqn:E. inv H. cbn [next_state]. destruct (accepts st px) eqn:Ea.
    + rewrite (publish_accepted st px Ea) in E. inv E.
      assert (Hl : inv (set_lastid (st_lastid st + 1)%Z st)) by now apply (inv_same_core st).
      revert Hl. generalize (set_lastid (st_lastid st + 1)%Z st).
      induction (overflowed (fanout_all st px)) as [|s l IH]; cbn [fold_left]; [auto|].
      intros st0 H0. apply IH. exact (reach_inv _ _ (drop_reach st0 s) H0).
    + destruct (publish_refused st px Ea) as [R1 _]. rewrite E in R1. cbn in R1. now subst.
Qed.

(* whoever receives a copy is, at that moment, an attached session of a current subscriber who may
   read (or a channel subscription) *)
Lemma recipients_are_subscribers st px s f :
  inv st -> In (s, f) (fanout st px) ->
  exists d p, In (s, d) (st_sess st) /\ lookup (ss_uid d) (st_users st) = Some p /\ pu_deleted p = false /\
              (has (eff p) bR = true \/ ss_chan d = true).
Proof.
  intros [_ [H2 _]] H. apply delivered_set in H. destruct H as [d [H1 [He _]]].
  destruct (H2 s d H1) as [p [Hp Hd]]. exists d, p. repeat split; try assumption.
  unfold eligible in He. cbn [fst snd] in He. apply andb_true_iff in He. destruct He as [He _].
  apply orb_true_iff in He. destruct He as [He|He]; [left|now right].
  unfold user_is_reader, get_pud in He. now rewrite Hp in He.
Qed.

(* the sessions whose copy was dropped are detached by the same publish, nobody else is *)
Lemma overflow_detached st px q a c p st' :
  publish st px = (PAccepted q a c p, st') ->
  q = (st_lastid st + 1)%Z /\ c = fanout_all st px /\ p = push_rcpt st /\ st_lastid st' = q /\
  forall k, In k (map fst (st_sess st')) <-> In k (map fst (st_sess st)) /\ ~ In k (overflowed (fanout_all st px)).
Proof.
  intros H. destruct (accepts st px) eqn:Ea.
  - rewrite (publish_accepted st px Ea) in H. inv H.
    destruct (fold_drop_sessions (overflowed (fanout_all st px)) (set_lastid (st_lastid st + 1)%Z st)) as [_ [F2 [_ F4]]].
    repeat split; auto; apply F4; assumption.
  - destruct (publish_refused st px Ea) as [_ R]. rewrite H in R. cbn in R. destruct R as [R|[R|R]]; discriminate.
Qed.

(* what Session.expandTopicName routes to this topic: the names a publisher can have written *)
Definition routes (st : state) (px : pubctx) : Prop :=
  match st_kind st with
  | KP2P => px_orig px = TP2P \/ exists p, lookup (px_author px) (st_users st) = Some p /\ px_orig px = TUsr (pu_peer p)
  | _ => px_orig px = TGrp \/ px_orig px = TChn
  end.

(* ------------------------------------------------------------------ *)
(* Part 3.  The {info} branch. *)
Definition info_eligible (st : state) (ix : infoctx) (sd : sid * psd) : bool :=
  negb (match ix_skip ix with Some k => fst sd =? k | None => false end) &&
  (ix_src ix || (negb (ss_chan (snd sd)) && user_is_reader st (ss_uid (snd sd)))) &&
  negb (mem (fst sd) (ix_skipsubs ix)) &&
  negb ((ix_what ix =? W_KP) && (ix_from ix =? ss_uid (snd sd))).

Definition icopy_of (st : state) (ix : infoctx) (sd : sid * psd) : sid * idelivery :=
  (fst sd, if is_full st (fst sd) then IOverflow
           else ISent (prepare_info st (snd sd) (mkIFrame (ix_topic ix) (ix_from ix) (ix_what ix) (ix_seq ix)))).

Lemma info_loop_spec st ix l :
  info_loop st ix l = map (icopy_of st ix) (filter (info_eligible st ix) l).
Proof.
  induction l as [|[s d] r IH]; cbn [info_loop filter map]; [reflexivity|].
  unfold info_eligible at 1. cbn [fst snd].
  destruct (match ix_skip ix with Some k => s =? k | None => false end); cbn [negb andb]; [exact IH|].
  destruct (ix_src ix); cbn [negb andb orb].
  - destruct (mem s (ix_skipsubs ix)); cbn [negb andb]; [exact IH|].
    destruct ((ix_what ix =? W_KP) && (ix_from ix =? ss_uid d)); cbn [negb map]; [exact IH|]. now rewrite IH.
  - destruct (ss_chan d); cbn [negb andb orb]; [exact IH|].
    destruct (user_is_reader st (ss_uid d)); cbn [negb andb orb]; [|exact IH].
    destruct (mem s (ix_skipsubs ix)); cbn [negb andb]; [exact IH|].
    destruct ((ix_what ix =? W_KP) && (ix_from ix =? ss_uid d)); cbn [negb map]; [exact IH|]. now rewrite IH.
Qed.

Lemma info_exact_set st ix :
  Permutation (map fst (info_fanout st ix)) (map fst (filter (info_eligible st ix) (st_sess st))) /\
  (wf_sess st -> NoDup (map fst (info_fanout st ix))) /\
  (forall s, In s (map fst (info_fanout st ix)) <->
             exists d, In (s, d) (st_sess st) /\ info_eligible st ix (s, d) = true).
Proof. unfold info_fanout. rewrite info_loop_spec. now apply keys_filter_exact. Qed.

Lemma isent_map st ix l :
  isent (map (icopy_of st ix) l) =
  map (fun sd => (fst sd, prepare_info st (snd sd) (mkIFrame (ix_topic ix) (ix_from ix) (ix_what ix) (ix_seq ix))))
      (filter (fun sd => negb (is_full st (fst sd))) l).
Proof.
  induction l as [|[s d] r IH]; [reflexivity|].
  cbn [map filter fst snd]. unfold icopy_of at 1. cbn [fst snd].
  destruct (is_full st s); cbn [isent negb map fst snd]; rewrite IH; reflexivity.
Qed.

(* who is eligible for the relay of a note (Src = "", SkipSid = the originating session, no SkipTopic) *)
Lemma note_eligible st nx s d :
  info_eligible st (info_of_note nx) (s, d) = true <->
  s <> nx_sid nx /\ ss_chan d = false /\ user_is_reader st (ss_uid d) = true /\ (nx_what nx = W_KP -> ss_uid d <> nx_from nx).
Proof.
  unfold info_eligible, info_of_note. cbn [ix_skip ix_src ix_skipsubs ix_what ix_from fst snd mem orb negb]. split.
  - intros H. apply andb_true_iff in H. destruct H as [H H4]. apply andb_true_iff in H. destruct H as [H _].
    apply andb_true_iff in H. destruct H as [H1 H]. apply andb_true_iff in H. destruct H as [H2 H3].
    apply negb_true_iff in H1, H2, H4. apply N.eqb_neq in H1. repeat split; auto.
    intros Hk Hu. rewrite Hk, Hu, !N.eqb_refl in H4. discriminate.
  - intros [H1 [H2 [H3 H4]]]. apply N.eqb_neq in H1. rewrite H1, H2, H3. cbn.
    destruct (nx_what nx =? W_KP) eqn:Ek; [|reflexivity]. apply N.eqb_eq in Ek. specialize (H4 Ek).
    cbn. destruct (nx_from nx =? ss_uid d) eqn:E; [apply N.eqb_eq in E; congruence|reflexivity].
Qed.

