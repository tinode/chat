(* C01: proofs about a {pub} that lists attachments (model Sys/TopicAttC01.v). *)
From Coq Require Import ZArith NArith List Bool Lia.
From Tinode Require Import Base.Util Pure.Acs Sys.Topic Sys.TopicTac Sys.TopicFrame Sys.TopicNum Sys.TopicNumThm Sys.TopicAttC01.
Import ListNotations.
Open Scope Z_scope.

(* the three outcomes of a publish with attachments *)
Definition att_refused (s : store) (c : cache) (sid : N) (h : hres) : Prop :=
  h_ca h = c /\ seqs (h_st h) = seqs s /\ msgs (h_st h) = msgs s /\
  (t_seqid (h_st h) = t_seqid s \/ t_seqid (h_st h) = c_lastid c + 1) /\ no_ack (h_out h) /\
  exists code, h_out h = [(sid, Ctrl code [])] /\ 400 <= code.
Definition att_accepted (s : store) (c : cache) (sid u content : N) (noecho : bool) (h : hres) : Prop :=
  c_lastid (h_ca h) = c_lastid c + 1 /\ t_seqid (h_st h) = c_lastid c + 1 /\
  msgs (h_st h) = msgs s ++ [mkMsg (c_lastid c + 1) u content 0] /\
  ~ In (c_lastid c + 1) (seqs s) /\
  h_out h = (sid, Ctrl 202 [(P_seq, c_lastid c + 1)]) ::
            fanout_data (h_ca h) (if noecho then sid else 0%N) (Data (c_lastid c + 1) u content)
            ++ push_out (h_ca h) (c_lastid c + 1) u.
(* refused at the attachment-link call: the rows are written, lastID is not advanced *)
Definition att_link_failed (s : store) (c : cache) (sid u content : N) (h : hres) : Prop :=
  h_ca h = c /\ t_seqid (h_st h) = c_lastid c + 1 /\
  msgs (h_st h) = msgs s ++ [mkMsg (c_lastid c + 1) u content 0] /\
  ~ In (c_lastid c + 1) (seqs s) /\
  h_out h = [(sid, Ctrl 500 [])].

Lemma no_ack_single sid code : no_ack [(sid, Ctrl code [])].
Proof. intros a b H. destruct H as [H|[]]. discriminate. Qed.

Lemma att_refused_intro s c sid s0 n0 code : 400 <= code -> msgs s0 = msgs s ->
  t_seqid s0 = t_seqid s \/ t_seqid s0 = c_lastid c + 1 ->
  att_refused s c sid (mkH s0 c n0 [(sid, Ctrl code [])]).
Proof.
  intros Hc M T. unfold att_refused, seqs. cbn. rewrite M. repeat split; auto using no_ack_single.
  exists code. split; [reflexivity|exact Hc].
Qed.

Lemma publish_att_cases f s c n sid u content noecho atts :
  let h := publish_att f s c n sid u content noecho atts in
  att_refused s c sid h \/ att_accepted s c sid u content noecho h \/
  (att_link_failed s c sid u content h /\ link_safe_c01a f c u n atts = false).
Proof.
  cbn zeta. unfold publish_att, link_safe_c01a, call.
  destruct (negb (is_writer (pud_mode (get_pud c u)))).
  { left. apply att_refused_intro; auto; lia. }
  destruct (negb (negb (fails f (S n)))).
  { left. apply att_refused_intro; auto; lia. }
  destruct (negb (negb (fails f (S (S n))))).
  { left. apply att_refused_intro; auto; lia. }
  destruct (ad_msg_save (st_seqid (c_lastid c + 1) s) (c_lastid c + 1) u content) as [s2|] eqn:SV.
  2:{ left. apply att_refused_intro; auto; lia. }
  right.
  destruct (msg_save_some _ _ _ _ _ SV) as [NI ->]. change (~ In (c_lastid c + 1) (seqs s)) in NI.
  (* the store after the optional SubsUpdate, the cache of an accepted publish, and the number of
     the link call: all that the three outcomes read *)
  assert (N3 : S (snd (if is_reader (pud_mode (get_pud c u)) then (negb (fails f (S (S (S n)))), S (S (S n))) else (true, S (S n))))
               = link_call_c01a c u n) by (unfold link_call_c01a; destruct (is_reader _); reflexivity).
  destruct (if is_reader (pud_mode (get_pud c u)) then _ else _) as [ok3 n3]. cbn [snd] in N3.
  set (s3 := if is_reader (pud_mode (get_pud c u)) && ok3 then ad_subs_update _ u _ else _).
  assert (S3 : t_seqid s3 = c_lastid c + 1 /\ msgs s3 = msgs s ++ [mkMsg (c_lastid c + 1) u content 0]).
  { subst s3. destruct (_ && ok3); [rewrite seqid_subs_update, msgs_subs_update|]; split; reflexivity. }
  set (c2 := if match alookup u (c_users c) with Some _ => true | None => false end then _ else _).
  assert (C2 : c_lastid c2 = c_lastid c + 1) by (subst c2; destruct (alookup u (c_users c)); reflexivity).
  clearbody s3 c2. destruct S3 as [S3a S3b].
  destruct (att_ids_c01a atts) as [|a ids]; [left; repeat split; assumption|].
  rewrite <- N3. destruct (fails f (S n3)), (forallb att_known_c01a (a :: ids)); cbn [negb orb andb];
    (left; repeat split; assumption) || (right; repeat split; assumption).
Qed.

Lemma acked_head sid n rest : acked ((sid, Ctrl 202 [(P_seq, n)]) :: rest) sid n.
Proof. left. reflexivity. Qed.

(* a number that is stored is never issued again: while lastID+1 is taken every publish is refused *)
Lemma publish_att_taken_number_refused f s c n sid u content noecho atts :
  In (c_lastid c + 1) (seqs s) ->
  att_refused s c sid (publish_att f s c n sid u content noecho atts).
Proof.
  intros T. destruct (publish_att_cases f s c n sid u content noecho atts) as [R|[A|[L _]]].
  - exact R.
  - exfalso. destruct A as (_ & _ & _ & NI & _). contradiction.
  - exfalso. destruct L as (_ & _ & _ & NI & _). contradiction.
Qed.

(* no listed URL names a file: the publish is the publish of the base model *)
Lemma publish_att_no_ids f s c n sid u content noecho atts :
  att_ids_c01a atts = [] ->
  publish_att f s c n sid u content noecho atts = publish f s c n sid u content noecho.
Proof.
  intros E. unfold publish_att, publish.
  destruct (negb (is_writer (pud_mode (get_pud c u)))); [reflexivity|].
  destruct (call f n) as [ok1 n1]. destruct (negb ok1); [reflexivity|].
  destruct (call f n1) as [ok2 n2]. destruct (negb ok2); [reflexivity|].
  destruct (ad_msg_save (st_seqid (c_lastid c + 1) s) (c_lastid c + 1) u content); [|reflexivity].
  rewrite E. reflexivity.
Qed.

Section ASim.
Variable dr : Z -> list (Z * Z) -> option (list (Z * Z)).
Variable nr : list (Z * Z) -> list (Z * Z).
Variable sm : sessmap.

Lemma astep_no_ids f x o : no_file_ids_c01a o = true ->
  astep dr nr sm f x o = step dr nr sm f x (base_op_c01a o).
Proof.
  destruct o as [bo|sid content noecho atts]; cbn [astep base_op_c01a no_file_ids_c01a]; [reflexivity|].
  intros E. destruct (att_ids_c01a atts) eqn:EA; [|discriminate].
  destruct (ca x) as [c|] eqn:CA; [|reflexivity].
  destruct (attached c sid) eqn:AT; [|reflexivity].
  rewrite (publish_att_no_ids _ _ _ _ _ _ _ _ _ EA).
  unfold step. rewrite CA. cbn. rewrite AT. cbn. reflexivity.
Qed.

Lemma arun_no_ids h : forall x,
  forallb (fun fo => no_file_ids_c01a (snd fo)) h = true ->
  arun dr nr sm x h = run dr nr sm x (map (fun fo => (fst fo, base_op_c01a (snd fo))) h).
Proof.
  induction h as [|[f o] r IH]; intros x E; [reflexivity|].
  cbn [forallb snd] in E. apply andb_true_iff in E. destruct E as [E1 E2].
  cbn [arun run map fst snd]. unfold astep_f, step_f. cbn [fst snd].
  rewrite (astep_no_ids f x o E1).
  destruct (step dr nr sm f x (base_op_c01a o)) as [x1 o1].
  destruct f; rewrite IH by exact E2; reflexivity.
Qed.
End ASim.

(* the witness: the owner publishes with one well-formed URL of a file that was never uploaded; no store fault *)
Definition att_wit_store : store := ad_sub_create (mkStore true 0 0 0 47 0 [] [] [] [(1%N, 47%N)]) 1%N 255%N 255%N.
Definition att_wit_cache : cache := load att_wit_store.
Definition att_wit : hres := publish_att NoFault att_wit_store att_wit_cache 0 1 1 7 false [AttUnknown].

Lemma att_wit_facts :
  h_out att_wit = [(1%N, Ctrl 500 [])] /\ c_lastid (h_ca att_wit) = 0 /\ map m_seq (msgs (h_st att_wit)) = [1] /\
  msgs att_wit_store = [].
Proof. vm_compute. repeat split; reflexivity. Qed.
