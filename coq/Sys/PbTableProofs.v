(* Proofs about the table-driven protobuf converters of Sys/PbTable.v. *)
From Coq Require Import List String Ascii ZArith NArith Bool Lia.
From Tinode Require Import Sys.PbTable.
Import ListNotations.
Local Open Scope Z_scope.

(* ---------- leaf kinds ---------- *)

Lemma wrap32_range : forall z, -2147483648 <= wrap32 z <= 2147483647.
Proof.
  intro z. unfold wrap32.
  pose proof (Z.mod_pos_bound (z + 2147483648) 4294967296 ltac:(lia)). lia.
Qed.

Lemma wrap32_id : forall z, -2147483648 <= z <= 2147483647 -> wrap32 z = z.
Proof.
  intros z H. unfold wrap32. rewrite Z.mod_small by lia. lia.
Qed.

Lemma wrap32_idem : forall z, wrap32 (wrap32 z) = wrap32 z.
Proof. intro z. apply wrap32_id. apply wrap32_range. Qed.

Lemma wrap32_congr : forall z, (wrap32 z - z) mod 4294967296 = 0.
Proof.
  intro z. unfold wrap32.
  rewrite (Z.mod_eq (z + 2147483648) 4294967296) by lia.
  replace (z + 2147483648 - 4294967296 * ((z + 2147483648) / 4294967296) - 2147483648 - z)
    with ((- ((z + 2147483648) / 4294967296)) * 4294967296) by lia.
  apply Z.mod_mul. lia.
Qed.

Lemma ms_ns_ms : forall ms, ms_of_ns (ns_of_ms ms) = ms.
Proof. intro ms. unfold ms_of_ns, ns_of_ms. apply Z.quot_mul. lia. Qed.

(* time -> ms -> time is the identity on millisecond-rounded times after the epoch *)
Lemma time_ms_roundtrip : forall ms, 0 < ms ->
  obind (fwd KTime (LTime (ns_of_ms ms))) (bwd KTime) = Some (LTime (ns_of_ms ms)).
Proof.
  intros ms H. cbn [fwd]. rewrite ms_ns_ms.
  destruct (Z.eqb_spec ms 0); [lia|]. cbn [obind bwd].
  destruct (Z.ltb_spec 0 ms); [reflexivity|lia].
Qed.

(* any time: what survives is the time truncated to milliseconds *)
Lemma time_truncation : forall ns, 0 < ms_of_ns ns ->
  obind (fwd KTime (LTime ns)) (bwd KTime) = Some (LTime (ns_of_ms (ms_of_ns ns))).
Proof.
  intros ns H. cbn [fwd].
  destruct (Z.eqb_spec (ms_of_ns ns) 0); [lia|]. cbn [obind bwd].
  destruct (Z.ltb_spec 0 (ms_of_ns ns)); [reflexivity|lia].
Qed.

Lemma opt_string_eqb_eq : forall a b, opt_string_eqb a b = true -> a = b.
Proof.
  intros [a|] [b|]; cbn; intro H; try discriminate; try reflexivity.
  apply String.eqb_eq in H. now subst.
Qed.

Lemma enum_ser_l_in : forall l s, existsb (fun x : string * Z => String.eqb (fst x) s) l = true ->
  exists s' n, In (s', n) l /\ s' = s.
Proof.
  induction l as [|[s' n] r IH]; cbn; intros s H; [discriminate|].
  apply orb_true_iff in H. destruct H as [H|H].
  - apply String.eqb_eq in H. exists s', n. auto.
  - destruct (IH s H) as (a & b & Hin & E). exists a, b. auto.
Qed.

(* a spelling of the domain, sent as its number, is read as a spelling with the same normal form *)
Lemma enum_roundtrip : forall e s, enum_rt_ok e = true ->
  existsb (fun x : string * Z => String.eqb (fst x) s) (e_ser e) = true ->
  obind (obind (fwd (KEnum e) (LStr s)) (bwd (KEnum e))) (norm (KEnum e)) = norm (KEnum e) (LStr s).
Proof.
  intros e s Hok Hin. unfold enum_rt_ok in Hok. rewrite forallb_forall in Hok.
  destruct (enum_ser_l_in _ _ Hin) as (s' & n & Hin' & E). subst s'.
  specialize (Hok _ Hin'). cbn [fst] in Hok.
  cbn [fwd]. destruct (Z.eqb_spec (enum_ser e s) 0) as [Hz|Hz].
  - apply opt_string_eqb_eq in Hok. cbn [obind norm]. now rewrite Hok.
  - cbn [obind bwd]. destruct (enum_deser e (enum_ser e s)) as [s'|].
    + apply opt_string_eqb_eq in Hok. cbn [obind norm]. now rewrite Hok.
    + apply opt_string_eqb_eq in Hok. cbn [obind norm]. now rewrite Hok.
Qed.

(* the round trip of one value of a well-formed kind is the identity up to normalisation *)
Lemma leaf_roundtrip : forall k v, kind_ok k = true -> wf_leaf k v = true ->
  obind (obind (fwd k v) (bwd k)) (norm k) = norm k v.
Proof.
  intros k v Hk Hwf. destruct k.
  - destruct v; reflexivity.
  - destruct v; try reflexivity. cbn [fwd norm].
    destruct (Z.eqb_spec (wrap32 z) 0) as [E|E]; [reflexivity|].
    cbn [obind bwd norm]. rewrite wrap32_idem.
    destruct (Z.eqb_spec (wrap32 z) 0); [contradiction|reflexivity].
  - destruct v; try reflexivity. destruct b; reflexivity.
  - destruct v; reflexivity.
  - destruct v; try reflexivity. cbn [fwd norm].
    destruct (Z.eqb_spec (ms_of_ns ns) 0) as [E|E].
    + rewrite E. reflexivity.
    + cbn [obind bwd]. destruct (Z.ltb_spec 0 (ms_of_ns ns)); [|reflexivity].
      cbn [obind norm]. rewrite ms_ns_ms.
      destruct (Z.ltb_spec 0 (ms_of_ns ns)); [reflexivity|lia].
  - destruct v; reflexivity.
  - destruct v; reflexivity.
  - destruct v; try discriminate. cbn [kind_ok] in Hk. unfold enum_ok in Hk.
    apply andb_true_iff in Hk. destruct Hk as [Hrt _]. cbn [wf_leaf] in Hwf.
    apply enum_roundtrip; assumption.
Qed.

(* normalisation is idempotent for the arithmetic kinds (so "=norm" is an equivalence with normal forms) *)
Lemma norm_idem_int : forall z, obind (norm KInt (LInt z)) (norm KInt) = norm KInt (LInt z).
Proof.
  intro z. cbn [norm]. destruct (Z.eqb_spec (wrap32 z) 0) as [E|E]; [reflexivity|].
  cbn [obind norm]. rewrite wrap32_idem. destruct (Z.eqb_spec (wrap32 z) 0); [contradiction|reflexivity].
Qed.

Lemma norm_idem_time : forall ns, obind (norm KTime (LTime ns)) (norm KTime) = norm KTime (LTime ns).
Proof.
  intro ns. cbn [norm]. destruct (Z.ltb_spec 0 (ms_of_ns ns)) as [H|H]; [|reflexivity].
  cbn [obind norm]. rewrite ms_ns_ms. destruct (Z.ltb_spec 0 (ms_of_ns ns)); [reflexivity|lia].
Qed.

(* ---------- tables ---------- *)

Lemma find_row_In : forall t sp k f, find_row t sp = Some (k, f) -> In (sp, k, f) t.
Proof.
  induction t as [|[[p k'] f'] r IH]; cbn; intros sp k f H; [discriminate|].
  destruct (String.eqb_spec p sp).
  - inversion H; subst. now left.
  - right. now apply IH.
Qed.

Lemma table_ok_leaf_ok : forall t sp k f, table_ok t = true -> find_row t sp = Some (k, f) ->
  fate_ok k f = true /\ kind_ok k = true.
Proof.
  intros t sp k f Hok Hf. apply find_row_In in Hf. unfold table_ok in Hok. rewrite forallb_forall in Hok.
  specialize (Hok _ Hf). cbn in Hok. now apply andb_true_iff in Hok.
Qed.

Lemma flat_map_flat_map : forall {A B C} (f : B -> list C) (g : A -> list B) (l : list A),
  flat_map f (flat_map g l) = flat_map (fun x => flat_map f (g x)) l.
Proof.
  intros A B C f g l. induction l as [|x r IH]; cbn; [reflexivity|].
  rewrite flat_map_app, IH. reflexivity.
Qed.

(* every leaf is converted on its own: the gRPC reading of a request is the concatenation of
   the readings of its leaves *)
Lemma rt_homomorphic : forall t m, deser t (ser t m) = flat_map (rt_leaf t) m.
Proof. intros t m. unfold deser, ser, rt_leaf, deser. apply flat_map_flat_map. Qed.

Lemma fate_ok_cases : forall k f, fate_ok k f = true -> f = Same \/ exists x, f = Transformed x.
Proof.
  intros k f H. destruct f; try discriminate; [now left|right; eauto].
Qed.

(* one safe leaf: its gRPC reading is its JSON reading up to the documented normalisation *)
Lemma request_leaf : forall t p v, leaf_ok t (fst p) = true -> wf_leaf_t t (p, v) = true ->
  norm_msg t (rt_leaf t (p, v)) = norm_msg t [(p, v)].
Proof.
  intros t p v Hok Hwf. unfold leaf_ok in Hok. unfold wf_leaf_t in Hwf. cbn [fst snd] in Hwf.
  unfold rt_leaf, norm_msg. cbn [flat_map ser1 norm1]. rewrite app_nil_r.
  destruct (find_row t (fst p)) as [[k f]|] eqn:Hf; [|discriminate].
  apply andb_true_iff in Hok. destruct Hok as [Hfate Hkind].
  pose proof (leaf_roundtrip k v Hkind Hwf) as RT.
  assert (Hser : ser1 t (p, v) = opt_list p (fwd k v)).
  { unfold ser1. rewrite Hf. destruct (fate_ok_cases _ _ Hfate) as [->|[x ->]]; reflexivity. }
  unfold ser1 in Hser. rewrite Hf in Hser. rewrite Hser. clear Hser.
  destruct (fwd k v) as [w|]; cbn [obind] in RT; cbn [opt_list deser flat_map deser1 fst].
  - rewrite Hf, app_nil_r. destruct (bwd k w) as [v'|]; cbn [obind] in RT; cbn [opt_list flat_map norm1 fst].
    + rewrite Hf, app_nil_r. now rewrite RT.
    + now rewrite <- RT.
  - now rewrite <- RT.
Qed.

Lemma norm_msg_app : forall t a b, norm_msg t (a ++ b) = norm_msg t a ++ norm_msg t b.
Proof. intros. unfold norm_msg. apply flat_map_app. Qed.

(* the generic theorem for requests *)
Lemma request_equiv : forall t, table_ok t = true -> forall m, wf_msg t m = true ->
  norm_msg t (deser t (ser t m)) = norm_msg t m.
Proof.
  intros t Hok m Hwf. rewrite rt_homomorphic.
  induction m as [|[p v] r IH]; [reflexivity|].
  cbn [wf_msg forallb] in Hwf. apply andb_true_iff in Hwf. destruct Hwf as [Hw Hr].
  cbn [flat_map]. rewrite norm_msg_app, (IH Hr).
  change (norm_msg t ((p, v) :: r)) with (norm_msg t ([(p, v)] ++ r)). rewrite norm_msg_app. f_equal.
  destruct (find_row t (fst p)) as [[k f]|] eqn:Hf.
  - apply request_leaf; [|exact Hw]. unfold leaf_ok. rewrite Hf.
    destruct (table_ok_leaf_ok _ _ _ _ Hok Hf) as [H1 H2]. now rewrite H1, H2.
  - unfold rt_leaf, norm_msg. cbn [ser1 flat_map norm1]. rewrite Hf. reflexivity.
Qed.

Lemma table_ok_no_panic : forall t, table_ok t = true -> forall m, panics t m = false.
Proof.
  intros t Hok m. unfold panics. induction m as [|[p v] r IH]; [reflexivity|].
  cbn [existsb fst]. rewrite IH, orb_false_r.
  destruct (find_row t (fst p)) as [[k f]|] eqn:Hf; [|reflexivity].
  destruct (table_ok_leaf_ok _ _ _ _ Hok Hf) as [H1 _]. destruct f; try reflexivity; discriminate.
Qed.

(* ---------- server replies ---------- *)

Lemma find_srow_In : forall t sp k q f, find_srow t sp = Some (k, q, f) -> In (sp, k, q, f) t.
Proof.
  induction t as [|[[[p k'] q'] f'] r IH]; cbn; intros sp k q f H; [discriminate|].
  destruct (String.eqb_spec p sp).
  - inversion H; subst. now left.
  - right. now apply IH.
Qed.

Lemma find_swire_In : forall t q p k f, find_swire t q = Some (p, k, f) -> In (p, k, q, f) t.
Proof.
  induction t as [|[[[p' k'] q'] f'] r IH]; cbn; intros q p k f H; [discriminate|].
  destruct (String.eqb_spec q' q).
  - inversion H; subst. now left.
  - right. now apply IH.
Qed.

(* reading the whole protobuf reply back: the in-schema part of the JSON rendering, normalised *)
Lemma reply_read_back : forall t, table_ok_srv t = true -> forall m, wf_smsg t m = true ->
  deser_srv t (ser_srv t m) = norm_srv t m.
Proof.
  intros t Hok m Hwf. unfold deser_srv, ser_srv, norm_srv. rewrite flat_map_flat_map.
  unfold table_ok_srv in Hok. apply andb_true_iff in Hok. destruct Hok as [Hrows Hsw].
  rewrite forallb_forall in Hrows. unfold swire_ok in Hsw. rewrite forallb_forall in Hsw.
  induction m as [|[p v] r IH]; [reflexivity|].
  cbn [wf_smsg forallb] in Hwf. apply andb_true_iff in Hwf. destruct Hwf as [Hw Hr].
  cbn [flat_map]. rewrite (IH Hr). f_equal.
  unfold ser_srv1, norm_srv1. unfold wf_sleaf_t in Hw. cbn [fst snd] in Hw.
  destruct (find_srow t (fst p)) as [[[k q] f]|] eqn:Hf; [|reflexivity].
  pose proof (find_srow_In _ _ _ _ _ Hf) as HIn.
  pose proof (Hrows _ HIn) as Hrow. pose proof (Hsw _ HIn) as Hwire. cbn in Hrow, Hwire.
  assert (Hgo : in_schema_f f = true -> fate_ok k f = true -> kind_ok k = true ->
    flat_map (deser_srv1 t) (opt_list (q, snd p) (fwd k v)) = opt_list p (norm k v)).
  { intros Hs Hfate Hkind. pose proof (leaf_roundtrip k v Hkind Hw) as RT.
    assert (Hwire' : match find_swire t q with Some (p', _, _) => String.eqb p' (fst p) | None => false end = true)
      by (destruct (fate_ok_cases _ _ Hfate) as [E|[x E]]; rewrite E in Hwire; exact Hwire).
    destruct (find_swire t q) as [[[p' k'] f']|] eqn:Hq; [|discriminate].
    assert (p' = fst p) by (now apply String.eqb_eq in Hwire'). subst p'.
    destruct (fwd k v) as [w|]; cbn [opt_list flat_map deser_srv1 fst snd].
    - rewrite Hq, Hf, Hs, String.eqb_refl, app_nil_r. cbn [andb obind] in *. rewrite RT.
      destruct p; reflexivity.
    - cbn [obind] in RT. now rewrite <- RT. }
  destruct f; cbn [in_schema_f]; try discriminate; try reflexivity.
  - apply andb_true_iff in Hrow. destruct Hrow as [Hfate Hkind]. now apply Hgo.
  - apply andb_true_iff in Hrow. destruct Hrow as [Hfate Hkind]. now apply Hgo.
Qed.
