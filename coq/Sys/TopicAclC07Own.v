(* C07 proofs: ownership bookkeeping.  The writer laws need the request to see a
   sane owner field (Topic.owner names a cached subscriber holding O; a zero owner would
   make the transfer's Subs.Update address EVERY row).  This file proves that invariant for
   every request: the store part under every fault plan, the cache part under every plan
   that does not crash and does not fail the topics.owner write in the middle of an ownership
   transfer (which splits cache and store).  A crash drops the cache, so TopicAclC07Thm.v has
   nothing to prove about it there. *)
From Coq Require Import ZArith NArith List Bool Lia.
From Tinode Require Import Base.Util Pure.Acs Sys.Topic Sys.TopicTac Sys.TopicFrame Sys.TopicMarks Sys.TopicOwner Sys.TopicAclC07
  Sys.TopicAclC07Proofs Sys.TopicAclC07Inv Sys.TopicAclC07Join.
Import ListNotations.
Open Scope Z_scope.

(* ---------- the permission part of a row ---------- *)
Definition arow (s : store) (u : N) : option (N * N * bool) :=
  option_map (fun r => (s_want r, s_given r, s_deleted r)) (find_sub u (subs s)).
Definition a_eff_owner (a : option (N * N * bool)) : bool :=
  match a with Some (w, g, d) => negb d && is_owner (N.land g w) | None => false end.
Definition a_grant_owner (a : option (N * N * bool)) : bool :=
  match a with Some (w, g, d) => negb d && is_owner g | None => false end.
Definition a_live (a : option (N * N * bool)) : bool :=
  match a with Some (w, g, d) => negb d | None => false end.

Lemma arow_create s u w g v : arow (ad_sub_create s u w g) v = if N.eqb v u then Some (w, g, false) else arow s v.
Proof. unfold arow. rewrite find_sub_create. destruct (N.eqb v u); reflexivity. Qed.
Definition aupd (up : subupd) (a : N * N * bool) : N * N * bool :=
  let '(w, g, d) := a in (oset (u_want up) w, oset (u_given up) g, d).
Lemma arow_update s u up v :
  arow (ad_subs_update s u up) v = if (u =? 0)%N || N.eqb v u then option_map (aupd up) (arow s v) else arow s v.
Proof.
  unfold arow. rewrite find_sub_update. destruct ((u =? 0)%N || N.eqb v u); [|reflexivity].
  destruct (find_sub v (subs s)); reflexivity.
Qed.
Lemma arow_update_marks s u a b d v : arow (ad_subs_update s u (mkUpd None None a b d)) v = arow s v.
Proof. rewrite arow_update. destruct (_ || _); [|reflexivity]. destruct (arow s v) as [[[w g] dd]|]; reflexivity. Qed.
Lemma arow_delete s u s' v : ad_subs_delete s u = Some s' ->
  arow s' v = if N.eqb v u then option_map (fun a => (fst (fst a), snd (fst a), true)) (arow s v) else arow s v.
Proof.
  intros H. unfold arow. rewrite (find_sub_delete _ _ _ v H). destruct (N.eqb v u); [|reflexivity].
  destruct (find_sub v (subs s)); reflexivity.
Qed.
Lemma arow_owner s u v : arow (st_owner u s) v = arow s v. Proof. reflexivity. Qed.

(* ---------- the invariant ---------- *)
Definition own_s (s : store) : Prop := arow s 0%N = None /\ exists u, a_eff_owner (arow s u) = true.
Definition own_c (s : store) (c : cache) : Prop :=
  c_owner c <> 0%N /\
  (exists w g, cwant c (c_owner c) = Some w /\ cgiven c (c_owner c) = Some g /\ is_owner (N.land g w) = true) /\
  a_eff_owner (arow s (c_owner c)) = true /\
  (forall u g, cgiven c u = Some g -> is_owner g = true -> a_grant_owner (arow s u) = true) /\
  (forall u g, cgiven c u = Some g -> a_live (arow s u) = true).
Definition inv_own (x : state) : Prop :=
  own_s (st x) /\ match ca x with Some c => own_c (st x) c | None => True end.

Lemma own_s_of_c s c : arow s 0%N = None -> own_c s c -> own_s s.
Proof. intros Z [_ [_ [E _]]]. split; [exact Z|eauto]. Qed.

Lemma own_c_sane s c : own_c s c -> owner_sane c.
Proof.
  intros [OZ [[w [g [W [G O]]]] _]]. split; [exact OZ|]. unfold cwant, cgiven in *.
  destruct (alookup (c_owner c) (c_users c)) as [p|]; [|discriminate]. exists p. split; [reflexivity|].
  cbn in *. inv W. inv G. exact O.
Qed.

(* bits *)
Lemma is_owner_lor a b : is_owner a = true -> is_owner (N.lor a b) = true.
Proof. rewrite !is_owner_bit, N.lor_spec. intros ->. reflexivity. Qed.
Lemma is_owner_lor_r a b : is_owner b = true -> is_owner (N.lor a b) = true.
Proof. rewrite !is_owner_bit, N.lor_spec. intros ->. apply orb_true_r. Qed.
Lemma is_owner_and a b : is_owner a = true -> is_owner b = true -> is_owner (N.land a b) = true.
Proof. rewrite !is_owner_bit, N.land_spec. intros -> ->. reflexivity. Qed.

(* ---------- generic preservation: rows and entries that keep their permission part ---------- *)
Lemma own_c_same s c s' c' :
  (forall v, arow s' v = arow s v) ->
  (forall v, cgiven c' v = cgiven c v /\ cwant c' v = cwant c v) -> c_owner c' = c_owner c ->
  own_c s c -> own_c s' c'.
Proof.
  intros HA HC HO [OZ [[w [g [W [G O]]]] [C2 [C3 C4]]]]. unfold own_c. rewrite HO.
  split; [exact OZ|]. split; [|split; [|split]].
  - exists w, g. destruct (HC (c_owner c)) as [-> ->]. auto.
  - rewrite HA. exact C2.
  - intros u g' E. rewrite HA. destruct (HC u) as [E' _]. rewrite E' in E. eauto.
  - intros u g' E. rewrite HA. destruct (HC u) as [E' _]. rewrite E' in E. eauto.
Qed.

Lemma own_s_same s s' : (forall v, arow s' v = arow s v) -> own_s s -> own_s s'.
Proof. intros HA [Z [u E]]. split; [rewrite HA; exact Z|exists u; rewrite HA; exact E]. Qed.

(* removal of a non-owner together with (possibly) the deletion of its row *)
Lemma own_c_remove s c t s' c' :
  c_owner c <> t ->
  (forall v, v <> t -> arow s' v = arow s v) ->
  (forall v, v <> t -> cgiven c' v = cgiven c v /\ cwant c' v = cwant c v) -> cgiven c' t = None ->
  c_owner c' = c_owner c ->
  own_c s c -> own_c s' c'.
Proof.
  intros NE HA HC HT HO [OZ [[w [g [W [G O]]]] [C2 [C3 C4]]]]. unfold own_c. rewrite HO.
  split; [exact OZ|]. split; [|split; [|split]].
  - exists w, g. destruct (HC _ NE) as [-> ->]. auto.
  - rewrite (HA _ NE). exact C2.
  - intros u g' E. assert (u <> t) as N by (intros ->; congruence). rewrite (HA _ N).
    destruct (HC u N) as [E' _]. rewrite E' in E. eauto.
  - intros u g' E. assert (u <> t) as N by (intros ->; congruence). rewrite (HA _ N).
    destruct (HC u N) as [E' _]. rewrite E' in E. eauto.
Qed.

Lemma own_s_other s s' t u :
  u <> t -> a_eff_owner (arow s u) = true -> arow s 0%N = None -> t <> 0%N ->
  (forall v, v <> t -> arow s' v = arow s v) -> own_s s'.
Proof.
  intros NE E Z TZ HA. split; [rewrite HA; [exact Z|intros H; apply TZ; symmetry; exact H]|].
  exists u. rewrite (HA _ NE). exact E.
Qed.

Lemma cg_owner c u v : cgiven (c_set_owner u c) v = cgiven c v. Proof. reflexivity. Qed.
Lemma cw_owner c u v : cwant (c_set_owner u c) v = cwant c v. Proof. reflexivity. Qed.

(* an eviction that keeps the entry *)
Lemma own_evict s c u k c' o : evict_user c u false k = (c', o) -> own_s s /\ own_c s c -> own_s s /\ own_c s c'.
Proof.
  intros EV [A B]. split; [exact A|]. apply (own_c_same s c); [reflexivity| |apply (evict_owner _ _ _ _ _ _ EV)|exact B].
  intros v. rewrite (evict_cgiven _ _ _ _ _ _ v EV), (evict_cwant _ _ _ _ _ _ v EV), andb_false_r. auto.
Qed.

(* ---------- thisUserSub: new subscription ---------- *)
Lemma tus_new_own f s c n u mw nb :
  alookup u (c_users c) = None -> u <> 0%N -> live_cached s c -> own_s s -> own_c s c ->
  own_s (h_st (fst (tus_new f s c n u mw nb))) /\ own_c (h_st (fst (tus_new f s c n u mw nb))) (h_ca (fst (tus_new f s c n u mw nb))).
Proof.
  intros Hnone Hnz LC OS OC. unfold tus_new.
  destruct (max_subs <=? _); [auto|].
  destruct (call f n) as [ok1 n1]. destruct (negb ok1); [auto|].
  set (given := if ((match ad_sub_get s u true with Some r => s_given r | None => ModeUnset end) =? ModeUnset)%N then c_auth c
                else match ad_sub_get s u true with Some r => s_given r | None => ModeUnset end).
  set (wantm := if (mw =? ModeUnset)%N then c_auth c else N.ldiff mw mO).
  destruct (negb (is_joiner given)); [auto|].
  destruct (match ad_sub_get s u true with Some r => s_deleted r | None => true end) eqn:NC.
  2:{ (* a live row of a user who is not cached: excluded by live_cached *)
      exfalso. unfold ad_sub_get in NC. destruct (find_sub u (subs s)) as [r|] eqn:EF; [|discriminate].
      cbn [negb] in NC. rewrite andb_false_r in NC.
      pose proof (LC r (find_sub_in _ _ _ EF) NC) as M. rewrite (find_sub_user _ _ _ EF) in M.
      unfold member in M. rewrite Hnone in M. discriminate. }
  destruct (call f n1) as [ok2 n2]. destruct (negb ok2); [auto|].
  set (s2 := ad_sub_create s u wantm given).
  set (c2 := c_set_users (aset u (mkPud wantm given 0 0 0 0)) c).
  assert (cgiven c u = None) as CGN by (unfold cgiven; rewrite Hnone; reflexivity).
  destruct OC as [OZ [[w [g [W [G O]]]] [C2 [C3 C4]]]].
  assert (c_owner c <> u) as NE by (intros E; rewrite E in G; congruence).
  assert (own_s s2 /\ own_c s2 c2) as R.
  { split.
    - apply (own_s_other s s2 u (c_owner c)); auto; [apply OS|].
      intros v N. subst s2. rewrite arow_create. apply N.eqb_neq in N. rewrite N. reflexivity.
    - unfold own_c. subst s2 c2. cbn [c_owner c_set_users].
      split; [exact OZ|]. split; [|split; [|split]].
      + exists w, g. rewrite cw_aset, cg_aset. apply N.eqb_neq in NE. rewrite NE. auto.
      + rewrite arow_create. apply N.eqb_neq in NE. rewrite NE. exact C2.
      + intros v g'. rewrite cg_aset, arow_create. eqb_cases v u; [cbn; intros H; inv H; auto|eauto].
      + intros v g'. rewrite cg_aset, arow_create. eqb_cases v u; [reflexivity|eauto]. }
  destruct (negb (is_joiner wantm)); [|exact R].
  destruct (evict_user c2 u false 0) as [c3 o3] eqn:EV. cbn [fst h_st h_ca]. exact (own_evict _ _ _ _ _ _ EV R).
Qed.

(* ---------- thisUserSub: existing subscription ---------- *)
Ltac eqbc v u E :=
  destruct (N.eqb v u) eqn:E; [apply N.eqb_eq in E|apply N.eqb_neq in E].
Lemma is_owner_unset : is_owner ModeUnset = false. Proof. reflexivity. Qed.

Lemma given_step_owner oldg mw g1 : given_step oldg mw g1 -> is_owner oldg = true -> is_owner g1 = true.
Proof. intros [->|[[_ [_ ->]]|[_ [_ [_ ->]]]]] H; auto; apply is_owner_lor; exact H. Qed.

Lemma tus_exist_own f s c n u mw p0 nb :
  alookup u (c_users c) = Some p0 -> u <> 0%N -> own_s s -> own_c s c ->
  let h := fst (tus_exist f s c n u mw p0 nb) in
  own_s (h_st h) /\
  ((fails f (S (S (S n))) = false \/ ~ pending_transferee c u) -> own_c (h_st h) (h_ca h)).
Proof.
  intros Hu Hnz OS OC. cbv zeta. unfold tus_exist.
  destruct (tus_chk c u mw (p_want p0) (p_given p0)) as [[[mw1 g1] oc]|] eqn:EC; [|auto].
  apply tus_chk_spec in EC. destruct EC as [-> [HGS [HOC HOWN]]].
  set (oldw := p_want p0) in *. set (oldg := p_given p0) in *.
  set (w1 := tus_w1 c u mw g1 oldw).
  set (upd := mkUpd (if (w1 =? oldw)%N then None else Some w1) (if (g1 =? oldg)%N then None else Some g1) None None None).
  set (need := negb ((w1 =? oldw)%N && (g1 =? oldg)%N)).
  pose proof OC as [OZ [[wo [go [WO [GO OO]]]] [C2 [C3 C4]]]].
  assert (cgiven c u = Some oldg) as CGu by (unfold cgiven; rewrite Hu; reflexivity).
  assert (cwant c u = Some oldw) as CWu by (unfold cwant; rewrite Hu; reflexivity).
  destruct (if need then call f n else (true, n)) as [ok1 n1] eqn:ECALL. destruct (negb ok1); [auto|].
  set (s1 := if need then ad_subs_update s u upd else s).
  assert (forall v, arow s1 v = if N.eqb v u then option_map (aupd upd) (arow s v) else arow s v) as S1.
  { intros v. subst s1. destruct need eqn:EN.
    - rewrite arow_update. replace (u =? 0)%N with false by (symmetry; apply N.eqb_neq; exact Hnz). reflexivity.
    - subst need. apply negb_false_iff in EN. apply andb_prop in EN. destruct EN as [E1 E2].
      subst upd. rewrite E1, E2. destruct (N.eqb v u); [|reflexivity].
      destruct (arow s v) as [[[w g] d]|]; reflexivity. }
  (* the stored row of [u] after the update *)
  destruct (arow s u) as [[[ws gs] ds]|] eqn:EAu; [|exfalso; pose proof (C4 u oldg CGu) as L; rewrite EAu in L; discriminate].
  assert (ds = false) as -> by (pose proof (C4 u oldg CGu) as L; rewrite EAu in L; cbn in L; destruct ds; [discriminate|reflexivity]).
  set (ws' := oset (u_want upd) ws). set (gs' := oset (u_given upd) gs).
  assert (arow s1 u = Some (ws', gs', false)) as S1u by (rewrite S1, N.eqb_refl, EAu; reflexivity).
  assert (is_owner g1 = true -> is_owner gs' = true) as GS'.
  { intros H. subst gs' upd. cbn [u_given]. destruct (g1 =? oldg)%N eqn:E; cbn; [|exact H].
    apply N.eqb_eq in E. rewrite E in H. pose proof (C3 u oldg CGu H) as L. rewrite EAu in L. exact L. }
  assert (c_owner c = u -> is_owner w1 = true /\ is_owner g1 = true /\ is_owner ws' = true /\ is_owner gs' = true) as OWN.
  { intros E. rewrite E in *. rewrite CGu in GO. rewrite CWu in WO. inv GO. inv WO.
    apply is_owner_land in OO. destruct OO as [Og Ow].
    rewrite EAu in C2. cbn in C2. apply is_owner_land in C2. destruct C2 as [Ogs Ows].
    assert (is_owner g1 = true) as Og1 by (eapply given_step_owner; eauto).
    assert (is_owner w1 = true) as Ow1.
    { subst w1. unfold tus_w1. destruct (mw =? ModeUnset)%N eqn:EU.
      - destruct (negb (is_joiner _)); [|exact Ow]. rewrite N.eqb_refl. apply is_owner_lor. exact Og1.
      - apply (HOWN eq_refl eq_refl). }
    repeat split; auto. subst ws' upd. cbn [u_want]. destruct (w1 =? _)%N; cbn; auto. }
  (* the result without a transfer: (s1, c + entry of u) *)
  assert (forall c3, c_owner c3 = c_owner c ->
            (forall v, v <> u -> cgiven c3 v = cgiven c v /\ cwant c3 v = cwant c v) ->
            forall c', (forall v, cgiven c' v = if N.eqb v u then Some g1 else cgiven c3 v) ->
                       (forall v, cwant c' v = if N.eqb v u then Some w1 else cwant c3 v) ->
                       c_owner c' = c_owner c3 -> own_c s1 c') as PLAIN.
  { intros c3 HO3 H3 c' RG RW RO. unfold own_c. rewrite RO, HO3. split; [exact OZ|]. split; [|split; [|split]].
    - rewrite RG, RW. eqbc (c_owner c) u NE.
      + destruct (OWN NE) as [A [B _]]. exists w1, g1. repeat split; auto. apply is_owner_and; auto.
      + destruct (H3 _ NE) as [-> ->]. exists wo, go. auto.
    - rewrite S1. eqbc (c_owner c) u NE.
      + destruct (OWN NE) as [_ [_ [A B]]]. rewrite NE, EAu. cbn. apply is_owner_and; auto.
      + exact C2.
    - intros v g'. rewrite RG, S1. eqbc v u NE.
      + intros H O. injection H as <-. rewrite NE, EAu. cbn. apply GS'. exact O.
      + destruct (H3 _ NE) as [-> _]. apply C3.
    - intros v g'. rewrite RG, S1. eqbc v u NE; [rewrite NE, EAu; reflexivity|]. destruct (H3 _ NE) as [-> _]. apply C4. }
  assert (own_s s1) as OS1.
  { split; [rewrite S1; apply N.eqb_neq in Hnz; rewrite N.eqb_sym, Hnz; apply OS|].
    exists (c_owner c). rewrite S1. eqbc (c_owner c) u NE; [|exact C2].
    destruct (OWN NE) as [_ [_ [A B]]]. rewrite NE, EAu. cbn. apply is_owner_and; auto. }
  destruct oc.
  - (* ownership transfer *)
    destruct (HOC eq_refl) as [OG [OW OM]].
    assert (pending_transferee c u) as PT by (exists p0; auto).
    assert (c_owner c <> u) as Hne.
    { intros E. rewrite E, CWu in WO. injection WO as <-.
      apply is_owner_land in OO. destruct OO as [_ B]. congruence. }
    assert ((mw =? ModeUnset)%N = false) as EU by (destruct (mw =? ModeUnset)%N eqn:E; [apply N.eqb_eq in E; rewrite E in OM; discriminate|reflexivity]).
    assert (w1 = mw) as Ew1 by (subst w1; unfold tus_w1; rewrite EU; reflexivity).
    assert (need = true) as EN.
    { subst need. apply negb_true_iff. apply andb_false_iff. left. apply N.eqb_neq. intros E. rewrite Ew1 in E. congruence. }
    rewrite EN in ECALL. unfold call in ECALL. injection ECALL as _ <-.
    assert (is_owner g1 = true) as Og1 by (eapply given_step_owner; eauto).
    assert (a_eff_owner (Some (ws', gs', false)) = true) as EFFu.
    { cbn. apply is_owner_and; [apply GS'; exact Og1|]. subst ws' upd. cbn [u_want].
      destruct (w1 =? oldw)%N eqn:E; [apply N.eqb_eq in E; congruence|]. cbn. rewrite Ew1. exact OM. }
    set (prev := c_owner c) in *. set (pp := get_pud c prev).
    set (pw := N.ldiff (p_want pp) mO). set (pg := N.ldiff (p_given pp) mO).
    assert (prev <> u) as Hne' by exact Hne.
    assert (forall v, v <> u -> arow s1 v = arow s v) as S1o.
    { intros v N. rewrite S1. apply N.eqb_neq in N. rewrite N. reflexivity. }
    destruct (call f (S n)) as [ok2 n2] eqn:EC2. unfold call in EC2. injection EC2 as Eok2 <-.
    destruct (negb ok2).
    { cbn [fst h_st h_ca]. split; [exact OS1|]. intros _.
      unfold own_c. split; [exact OZ|]. split; [eauto|]. split; [|split].
      - rewrite (S1o (c_owner c) Hne'). exact C2.
      - intros v g'. rewrite S1. eqbc v u NE; [|apply C3].
        rewrite NE, CGu, EAu. intros H _. cbn. apply GS'. exact Og1.
      - intros v g'. rewrite S1. eqbc v u NE; [|apply C4]. rewrite NE, EAu. reflexivity. }
    set (s2 := ad_subs_update s1 prev (mkUpd (Some pw) (Some pg) None None None)).
    assert (forall v, arow s2 v = if N.eqb v prev then option_map (aupd (mkUpd (Some pw) (Some pg) None None None)) (arow s1 v) else arow s1 v) as S2.
    { intros v. subst s2. rewrite arow_update.
      replace (prev =? 0)%N with false by (symmetry; apply N.eqb_neq; exact OZ). reflexivity. }
    assert (arow s2 u = Some (ws', gs', false)) as S2u.
    { rewrite S2. apply N.eqb_neq in Hne. rewrite N.eqb_sym, Hne. exact S1u. }
    assert (own_s s2) as OS2.
    { split; [|exists u; rewrite S2u; exact EFFu].
      rewrite S2. replace (N.eqb 0 prev) with false by (symmetry; apply N.eqb_neq; intros E; apply OZ; symmetry; exact E).
      apply OS1. }
    destruct (call f (S (S n))) as [ok3 n3] eqn:EC3. unfold call in EC3. injection EC3 as Eok3 <-.
    destruct (negb ok3) eqn:EF3.
    { cbn [fst h_st h_ca]. split; [exact OS2|]. intros [H|H]; [|contradiction].
      rewrite <- Eok3, H in EF3. discriminate. }
    set (c3 := c_set_owner u (c_set_users (aset prev (p_set_modes pw pg pp)) c)).
    destruct (tus_finish_res u w1 g1 oldw oldg nb (st_owner u s2) c3 (S (S (S n)))) as [R1 [R2 [R3 R4]]].
    rewrite R1. split; [exact OS2|]. intros _.
    unfold own_c. rewrite R4. subst c3. cbn [c_owner c_set_owner]. split; [exact Hnz|].
    split; [|split; [|split]].
    + exists w1, g1. rewrite R3, R2, N.eqb_refl. repeat split. apply is_owner_and; [exact Og1|rewrite Ew1; exact OM].
    + rewrite arow_owner, S2u. exact EFFu.
    + intros v g'. rewrite R2, arow_owner. eqbc v u NE.
      * intros H O. rewrite NE, S2u. cbn. apply GS'. exact Og1.
      * rewrite cg_owner, cg_aset. eqbc v prev NP.
        -- cbn. intros H O. injection H as <-. subst pg. rewrite is_owner_ldiff_mO in O. discriminate.
        -- rewrite S2, (proj2 (N.eqb_neq _ _) NP), (S1o _ NE). apply C3.
    + intros v g'. rewrite R2, arow_owner. eqbc v u NE; [rewrite NE, S2u; reflexivity|].
      rewrite cg_owner, cg_aset. eqbc v prev NP.
      * intros _. rewrite NP, S2, N.eqb_refl, (S1o _ Hne').
        pose proof (C4 prev go GO) as L. destruct (arow s prev) as [[[a b] d]|]; [exact L|discriminate].
      * rewrite S2, (proj2 (N.eqb_neq _ _) NP), (S1o _ NE). apply C4.
  - destruct (tus_finish_res u w1 g1 oldw oldg nb s1 c n1) as [R1 [R2 [R3 R4]]].
    rewrite R1. split; [exact OS1|]. intros _.
    apply (PLAIN c eq_refl (fun v _ => conj eq_refl eq_refl)); auto.
Qed.

Lemma tus_own f s c n u want nb :
  u <> 0%N -> live_cached s c -> own_s s -> own_c s c ->
  let h := fst (tus f s c n u want nb) in
  own_s (h_st h) /\ ((fails f (S (S (S n))) = false \/ ~ pending_transferee c u) -> own_c (h_st h) (h_ca h)).
Proof.
  intros Hnz LC OS OC. cbv zeta. unfold tus. destruct (tus_mw want) as [mw okw]. destruct (negb okw); [auto|].
  destruct (alookup u (c_users c)) as [p0|] eqn:E.
  - apply tus_exist_own; auto.
  - destruct (tus_new_own f s c n u mw nb E Hnz LC OS OC) as [A B]. auto.
Qed.

(* ---------- anotherUserSub ---------- *)
Lemma aus_own f s c n u t mode :
  t <> 0%N -> live_cached s c -> own_s s -> own_c s c ->
  own_s (h_st (fst (aus f s c n u t mode))) /\ own_c (h_st (fst (aus f s c n u t mode))) (h_ca (fst (aus f s c n u t mode))).
Proof.
  intros Htz LC OS OC. unfold aus.
  destruct (alookup u (c_users c)) as [hp|]; [|auto].
  destruct (negb (is_sharer _)); [auto|]. destruct (tus_mw mode) as [mg okg]. destruct (negb okg); [auto|].
  destruct (_ && _); [auto|]. destruct (_ && _); [auto|].
  pose proof OC as [OZ [[wo [go [WO [GO OO]]]] [C2 [C3 C4]]]].
  destruct (alookup t (c_users c)) as [pt|] eqn:Et.
  - unfold aus_exist.
    assert (cgiven c t = Some (p_given pt)) as CGt by (unfold cgiven; rewrite Et; reflexivity).
    assert (cwant c t = Some (p_want pt)) as CWt by (unfold cwant; rewrite Et; reflexivity).
    destruct (_ || _).
    + destruct (negb _); [|auto]. destruct (evict_user c t false 0) as [c4 o4] eqn:EV. cbn [fst h_st h_ca].
      exact (own_evict _ _ _ _ _ _ EV (conj OS OC)).
    + destruct (N.eqb (c_owner c) t && (negb (is_owner mg) || negb (is_joiner mg))) eqn:EO; [auto|].
      destruct (call f n) as [ok1 n1]. destruct (negb ok1); [auto|].
      set (s1 := ad_subs_update s t (mkUpd None (Some mg) None None None)).
      set (c1 := c_set_users (aset t (p_set_modes (p_want pt) mg pt)) c).
      assert (forall v, arow s1 v = if N.eqb v t then option_map (aupd (mkUpd None (Some mg) None None None)) (arow s v) else arow s v) as S1.
      { intros v. subst s1. rewrite arow_update.
        replace (t =? 0)%N with false by (symmetry; apply N.eqb_neq; exact Htz). reflexivity. }
      destruct (arow s t) as [[[ws gs] ds]|] eqn:EAt; [|exfalso; pose proof (C4 t _ CGt) as L; rewrite EAt in L; discriminate].
      assert (ds = false) as -> by (pose proof (C4 t _ CGt) as L; rewrite EAt in L; cbn in L; destruct ds; [discriminate|reflexivity]).
      assert (c_owner c = t -> is_owner mg = true) as OM.
      { intros E. rewrite E, N.eqb_refl in EO. cbn in EO. destruct (is_owner mg); [reflexivity|discriminate]. }
      assert (own_s s1 /\ own_c s1 c1) as R.
      { assert (a_eff_owner (arow s1 (c_owner c)) = true) as C2'.
        { rewrite S1. eqbc (c_owner c) t NE; [|exact C2].
          rewrite NE, EAt. cbn. rewrite NE, EAt in C2. cbn in C2. apply is_owner_land in C2. destruct C2 as [_ B].
          apply is_owner_and; auto. }
        split.
        - split; [|eauto]. rewrite S1. apply N.eqb_neq in Htz. rewrite N.eqb_sym, Htz. apply OS.
        - unfold own_c. subst c1. cbn [c_owner c_set_users]. split; [exact OZ|]. split; [|split; [|split]].
          + rewrite cw_aset, cg_aset. eqbc (c_owner c) t NE; [|eauto].
            cbn. exists (p_want pt), mg. repeat split. rewrite NE, CWt, CGt in *. inv WO. inv GO.
            apply is_owner_land in OO. destruct OO as [_ B]. apply is_owner_and; auto.
          + exact C2'.
          + intros v g'. rewrite cg_aset, S1. eqbc v t NE; [|apply C3].
            cbn. intros H O. inv H. rewrite EAt. cbn. exact O.
          + intros v g'. rewrite cg_aset, S1. eqbc v t NE; [|apply C4]. rewrite NE, EAt. reflexivity. }
      destruct (negb (is_joiner mg)); [|exact R].
      destruct (evict_user c1 t false 0) as [c4 o4] eqn:EV. cbn [fst h_st h_ca]. exact (own_evict _ _ _ _ _ _ EV R).
  - unfold aus_new.
    assert (cgiven c t = None) as CGN by (unfold cgiven; rewrite Et; reflexivity).
    assert (c_owner c <> t) as NE by (intros E; rewrite E in GO; congruence).
    destruct (max_subs <=? _); [auto|].
    destruct (call f n) as [ok1 n1]. destruct (negb ok1); [auto|].
    match goal with |- context [match ?w with (_, _) => _ end] => destruct w as [n2 [[code|wantm]|]] end; auto.
    destruct (negb (is_joiner wantm)); [auto|].
    destruct (call f n2) as [ok3 n3]. destruct (negb ok3); [auto|].
    match goal with |- context [ad_sub_create s t wantm ?g] => set (given := g) end.
    set (s3 := ad_sub_create s t wantm given).
    set (c3 := c_set_users (aset t (mkPud wantm given 0 0 0 0)) c).
    assert (own_s s3 /\ own_c s3 c3) as R.
    { split.
      - apply (own_s_other s s3 t (c_owner c)); auto; [apply OS|].
        intros v N. subst s3. rewrite arow_create. apply N.eqb_neq in N. rewrite N. reflexivity.
      - unfold own_c. subst s3 c3. cbn [c_owner c_set_users]. split; [exact OZ|]. split; [|split; [|split]].
        + exists wo, go. rewrite cw_aset, cg_aset. apply N.eqb_neq in NE. rewrite NE. auto.
        + rewrite arow_create. apply N.eqb_neq in NE. rewrite NE. exact C2.
        + intros v g'. rewrite cg_aset, arow_create. eqb_cases v t; [cbn; intros H; inv H; auto|eauto].
        + intros v g'. rewrite cg_aset, arow_create. eqb_cases v t; [reflexivity|eauto]. }
    destruct (negb (is_joiner given)); [|exact R].
    destruct (evict_user c3 t false 0) as [c4 o4] eqn:EV. cbn [fst h_st h_ca]. exact (own_evict _ _ _ _ _ _ EV R).
Qed.

(* ---------- requests that do not touch permissions ---------- *)
Lemma sdeleted_skel s v : sdeleted s v = option_map snd (find (fun e => N.eqb (fst e) v) (skel s)).
Proof.
  unfold sdeleted, find_sub, skel. induction (subs s) as [|r l IH]; cbn; [reflexivity|].
  destruct (N.eqb (s_user r) v); [reflexivity|exact IH].
Qed.
Lemma arow_parts s v :
  arow s v = match swant s v, sgiven s v, sdeleted s v with
             | Some w, Some g, Some d => Some (w, g, d)
             | _, _, _ => None
             end.
Proof. unfold arow, swant, sgiven, sdeleted. destruct (find_sub v (subs s)); reflexivity. Qed.
Lemma arow_same_of s s' : acl_same s s' -> skel s' = skel s -> forall v, arow s' v = arow s v.
Proof.
  intros A K v. rewrite !arow_parts. destruct (A v) as [-> ->]. rewrite !sdeleted_skel, K. reflexivity.
Qed.
Lemma cmodes_same_of c c' : cacl_shrink c c' -> cmono c c' ->
  forall v, cgiven c' v = cgiven c v /\ cwant c' v = cwant c v.
Proof.
  intros [_ S] M v. destruct (S v) as [H|[G [W _]]]; [exact H|].
  destruct (cgiven c v) eqn:E.
  - assert (member c v = true) as Mv by (rewrite cg_member, E; reflexivity).
    apply M in Mv. rewrite cg_member, G in Mv. discriminate.
  - rewrite G, W. split; [reflexivity|]. unfold cgiven, cwant in *. destruct (alookup v (c_users c)); [discriminate|reflexivity].
Qed.

Lemma neutral_own s c h :
  hsame s c h -> hneutral s c h -> c_owner (h_ca h) = c_owner c ->
  own_s s -> own_c s c -> own_s (h_st h) /\ own_c (h_st h) (h_ca h).
Proof.
  intros [A S] [K M] O OS OC. pose proof (arow_same_of _ _ A K) as AR. split.
  - apply (own_s_same s); auto.
  - apply (own_c_same s c); auto. apply cmodes_same_of; auto.
Qed.

Lemma leave_owner c sid u : c_owner (fst (leave c sid u)) = c_owner c.
Proof. unfold leave. repeat break_match; reflexivity. Qed.

(* unsubscription of somebody who is not the owner *)
Lemma del_sub_own f s c n sid u t :
  own_s s -> own_c s c ->
  own_s (h_st (del_sub f s c n sid u t)) /\ own_c (h_st (del_sub f s c n sid u t)) (h_ca (del_sub f s c n sid u t)).
Proof.
  intros OS OC. unfold del_sub. destruct (negb _); [auto|]. destruct (_ || _) eqn:ET; [auto|].
  destruct (alookup t (c_users c)) as [pt|] eqn:Et; [|auto].
  destruct (is_owner (pud_mode pt)) eqn:EOW; [auto|]. destruct (negb _); [auto|].
  destruct (call f n) as [ok1 n1]. destruct (negb ok1); [auto|].
  pose proof OC as [OZ [[wo [go [WO [GO OO]]]] [C2 _]]].
  assert (c_owner c <> t) as NE.
  { intros E. rewrite E in *. unfold cwant, cgiven in *. rewrite Et in *. cbn in *. inv WO. inv GO.
    unfold pud_mode in EOW. congruence. }
  assert (t <> 0%N) as TZ by (apply orb_false_iff in ET; destruct ET as [E _]; apply N.eqb_neq in E; exact E).
  destruct (evict_user c t true 0) as [c1 o1] eqn:EV.
  assert (forall s', (forall v, v <> t -> arow s' v = arow s v) -> own_s s' /\ own_c s' c1) as FIN.
  { intros s' HA. split; [apply (own_s_other s s' t (c_owner c)); auto; apply OS|].
    apply (own_c_remove s c t); auto.
    - intros v N. rewrite (evict_cgiven _ _ _ _ _ _ v EV), (evict_cwant _ _ _ _ _ _ v EV).
      apply N.eqb_neq in N. rewrite N. auto.
    - rewrite (evict_cgiven _ _ _ _ _ _ t EV), N.eqb_refl. reflexivity.
    - apply (evict_owner _ _ _ _ _ _ EV). }
  destruct (ad_subs_delete s t) as [s'|] eqn:ED; cbn [h_st h_ca]; apply FIN.
  - intros v N. rewrite (arow_delete _ _ _ v ED). apply N.eqb_neq in N. rewrite N. reflexivity.
  - reflexivity.
Qed.

Lemma leave_unsub_own f s c n sid u :
  u <> 0%N -> own_s s -> own_c s c ->
  own_s (h_st (leave_unsub f s c n sid u)) /\ own_c (h_st (leave_unsub f s c n sid u)) (h_ca (leave_unsub f s c n sid u)).
Proof.
  intros UZ OS OC. unfold leave_unsub. destruct (N.eqb (c_owner c) u) eqn:EO; [auto|]. apply N.eqb_neq in EO.
  destruct (call f n) as [ok1 n1]. destruct (negb ok1); [auto|].
  destruct (ad_subs_delete s u) as [s'|] eqn:ED; [|auto].
  destruct (evict_user c u true sid) as [c1 o1] eqn:EV. cbn [h_st h_ca].
  pose proof OC as [OZ [_ [C2 _]]].
  assert (forall v, v <> u -> arow s' v = arow s v) as HA.
  { intros v N. rewrite (arow_delete _ _ _ v ED). apply N.eqb_neq in N. rewrite N. reflexivity. }
  split; [apply (own_s_other s s' u (c_owner c)); auto; apply OS|].
  apply (own_c_remove s c u); auto.
  - intros v N. rewrite (evict_cgiven _ _ _ _ _ _ v EV), (evict_cwant _ _ _ _ _ _ v EV).
    apply N.eqb_neq in N. rewrite N. auto.
  - rewrite (evict_cgiven _ _ _ _ _ _ u EV), N.eqb_refl. reflexivity.
  - apply (evict_owner _ _ _ _ _ _ EV).
Qed.

(* {set sub} from a session that is not attached: only the O-less part of the own want moves *)
Lemma offline_set_sub_arow f s sid u t mode :
  u <> 0%N ->
  let s' := o_st (offline_set_sub f s sid u t mode) in
  forall v, arow s' v = arow s v \/
            (v = u /\ exists w g w', arow s v = Some (w, g, false) /\ arow s' v = Some (w', g, false) /\ is_owner w' = is_owner w).
Proof.
  intros Hnz. cbv zeta. unfold offline_set_sub. destruct mode as [|b mode']; [auto|].
  destruct (_ && _); [auto|]. destruct (call f 0) as [ok1 n1]. destruct (negb ok1); [auto|].
  destruct (ad_sub_get s u false) as [r|] eqn:EG; [|auto].
  destruct (unmarshal_text 0%N (b :: mode')) as [mw okw]. destruct (negb okw); [auto|].
  destruct (negb (Bool.eqb (is_owner mw) (is_owner (s_want r)))) eqn:EB; [auto|].
  destruct (mw =? s_want r)%N; [auto|]. destruct (call f n1) as [ok2 n2]. destruct (negb ok2); [auto|].
  cbn [o_st]. intros v. rewrite arow_update.
  replace (u =? 0)%N with false by (symmetry; apply N.eqb_neq; exact Hnz). cbn [orb].
  eqb_cases v u; [|auto]. right. split; [reflexivity|].
  unfold ad_sub_get in EG. unfold arow. destruct (find_sub u (subs s)) as [r'|]; [|discriminate].
  destruct (s_deleted r') eqn:ED; cbn in EG; [discriminate|]. inv EG.
  exists (s_want r), (s_given r), mw. cbn. rewrite ED. repeat split.
  apply negb_false_iff in EB. apply Bool.eqb_prop in EB. exact EB.
Qed.

(* ---------- loadSubscribers ---------- *)
Definition row_eff (r : subrow) : bool := negb (s_deleted r) && is_owner (N.land (s_given r) (s_want r)).
Lemma load_owner_spec rows : forall init,
  let o := fold_left (fun o r => if row_eff r then s_user r else o) rows init in
  (o = init /\ forall r, In r rows -> row_eff r = false) \/ (exists r, In r rows /\ row_eff r = true /\ o = s_user r).
Proof.
  induction rows as [|r rows IH]; intros init; cbn.
  - left. split; [reflexivity|intros r []].
  - destruct (IH (if row_eff r then s_user r else init)) as [[E H]|[r' [HI [HE E]]]].
    + destruct (row_eff r) eqn:ER.
      * right. exists r. auto.
      * left. split; [exact E|]. intros r' [<-|HI]; auto.
    + right. exists r'. auto.
Qed.


Lemma load_own s : rows_nodup s -> own_s s -> own_c s (load s).
Proof.
  intros ND [Z [u0 E0]]. unfold rows_nodup in ND.
  assert (forall u, alookup u (c_users (load s)) =
            match find_sub u (subs s) with
            | Some r => if s_deleted r then None else Some (mkPud (s_want r) (s_given r) (s_read r) (s_recv r) (s_delid r) 0)
            | None => None
            end) as LU.
  { intros u. unfold load, load_users. cbn [c_users]. rewrite (load_users_lookup_acc u _ ND).
    destruct (find_sub u (subs s)) as [r|]; [destruct (s_deleted r)|]; reflexivity. }
  pose proof (load_owner_spec (subs s) 0%N) as LO. cbv zeta in LO.
  assert (c_owner (load s) = fold_left (fun o r => if row_eff r then s_user r else o) (subs s) 0%N) as CO by reflexivity.
  destruct LO as [[_ H]|[r [HI [HE EO]]]].
  { exfalso. unfold arow in E0. destruct (find_sub u0 (subs s)) as [r|] eqn:EF; [|discriminate].
    pose proof (H r (find_sub_in _ _ _ EF)) as HF. cbn in E0. unfold row_eff in HF. congruence. }
  rewrite <- CO in EO.
  pose proof (find_sub_nodup _ _ ND HI) as FR.
  unfold row_eff in HE. apply andb_prop in HE. destruct HE as [HD HO]. apply negb_true_iff in HD.
  unfold own_c. rewrite EO. split; [|split; [|split; [|split]]].
  - intros E. unfold arow in Z. rewrite <- E, FR in Z. discriminate.
  - exists (s_want r), (s_given r). unfold cwant, cgiven. rewrite LU, FR, HD. cbn. auto.
  - unfold arow. rewrite FR. cbn. rewrite HD. exact HO.
  - intros u g. unfold cgiven, arow. rewrite LU. destruct (find_sub u (subs s)) as [r'|]; [|discriminate].
    destruct (s_deleted r') eqn:ED; [discriminate|]. cbn. intros H O. inv H. rewrite ED. exact O.
  - intros u g. unfold cgiven, arow. rewrite LU. destruct (find_sub u (subs s)) as [r'|]; [|discriminate].
    destruct (s_deleted r') eqn:ED; [discriminate|]. cbn. rewrite ED. reflexivity.
Qed.

(* ---------- one request ---------- *)
Lemma sub_reply_own f s c n sid u want bkg :
  u <> 0%N -> live_cached s c -> own_s s -> own_c s c ->
  let h := sub_reply f s c n sid u want bkg in
  own_s (h_st h) /\ ((fails f (S (S (S n))) = false \/ ~ pending_transferee c u) -> own_c (h_st h) (h_ca h)).
Proof.
  intros Hnz LC OS OC. cbv zeta. destruct (sub_reply_res f s c n sid u want bkg) as [ES [EC [EO _]]]. cbv zeta in ES, EC, EO.
  rewrite ES. set (nb := match alookup u (c_users c) with Some _ => false | None => true end) in *.
  destruct (tus_own f s c n u want nb Hnz LC OS OC) as [T1 T2]. split; [exact T1|]. intros HF.
  apply (own_c_same (h_st (fst (tus f s c n u want nb))) (h_ca (fst (tus f s c n u want nb)))); auto.
Qed.

Section OwnInv.
Variable dr : Z -> list (Z * Z) -> option (list (Z * Z)).
Variable nr : list (Z * Z) -> list (Z * Z).
Variable sm : sessmap.

(* the plans under which the cache part of inv_own is claimed for the state after the request;
   CrashAt is left out because the state after a crash has no cache (step_f) *)
Definition nosplit (f : fault) (x : state) (o : op) : Prop :=
  match f with NoFault => True | FailAt _ => ~ transfer_split sm f x o | CrashAt _ => False end.
Definition own_goal (f : fault) (x : state) (o : op) (x' : state) : Prop :=
  own_s (st x') /\ (nosplit f x o -> match ca x' with Some c' => own_c (st x') c' | None => True end).

Lemma own_goal_pair f x o s' c' n : own_s s' /\ own_c s' c' -> own_goal f x o (mkState s' (Some c') n).
Proof. intros [A B]. split; [exact A|intros _; exact B]. Qed.
Lemma own_goal_keep f x o n : inv_own x -> own_goal f x o (mkState (st x) (ca x) n).
Proof. intros [A B]. split; [exact A|intros _; exact B]. Qed.
Lemma own_goal_unloaded f x o s' n : own_s s' -> own_goal f x o (mkState s' None n).
Proof. intros A. split; [exact A|intros _; exact I]. Qed.

Lemma quiet_owner f s c h : quiet dr nr f s c h -> c_owner (h_ca h) = c_owner c.
Proof.
  intros Q. destruct Q; [unfold publish|unfold note|unfold get_data|unfold get_desc|unfold get_sub|unfold get_del|unfold del_msg];
    repeat break_match; reflexivity.
Qed.

Lemma step_own f x o :
  inv_lim x -> inv_sm x -> inv_own x -> logged_in sm o -> own_goal f x o (fst (step dr nr sm f x o)).
Proof.
  intros [[ND _] LC] SM [OS OC] LI.
  assert (forall c, ca x = Some c -> live_cached (st x) c /\ own_c (st x) c) as AT
    by (intros c E; rewrite E in LC, OC; split; assumption).
  assert (live_cached (st x) (view x) /\ own_c (st x) (view x)) as [LCv OCv].
  { unfold view. destruct (ca x); [split; assumption|split; [apply load_live_cached|apply load_own; assumption]]. }
  (* the third store call of the handler does not fail, or the request is not a transfer *)
  assert (forall u, own_request u o -> u = actor sm o -> nosplit f x o ->
            fails f (S (S (S (match ca x with Some _ => 0 | None => 2 end)))) = false \/ ~ pending_transferee (view x) u) as FOK.
  { intros u OR EU NS. unfold nosplit in NS. destruct f as [|k|k]; [left; reflexivity| |destruct NS].
    destruct (Nat.eqb (S (S (S (match ca x with Some _ => 0 | None => 2 end)))) k) eqn:EK; [|left; exact EK].
    right. intros PT. apply NS. apply Nat.eqb_eq in EK. subst. unfold transfer_split. repeat split; auto.
    destruct (ca x); reflexivity. }
  apply step_cases.
  - intros n. apply own_goal_keep. split; assumption.
  - intros n. apply own_goal_unloaded, OS.
  - intros c h E Q. destruct (AT c E) as [_ OCc]. apply own_goal_pair. apply (neutral_own (st x) c); auto;
      [eapply quiet_same|eapply quiet_neutral|eapply quiet_owner]; exact Q.
  - intros sid want bkg ->. cbv zeta.
    destruct (sub_reply_own f (st x) (view x) (match ca x with Some _ => 0 | None => 2 end) sid (sess_uid sm sid) want bkg LI LCv OS OCv)
      as [A B].
    split; [exact A|]. cbn [ca st]. intros NS. apply B. apply FOK; [left; eauto|reflexivity|exact NS].
  - intros sid c a b -> E ES. cbv zeta. destruct (AT c E) as [_ OCc]. apply own_goal_pair. apply leave_unsub_own; auto.
    (* the acting user of an attached session is a cached subscriber, hence not user 0 *)
    intros ->. apply alookup_in in ES. unfold inv_sm in SM. rewrite E in SM. apply SM in ES.
    rewrite cg_member in ES. destruct (cgiven c 0%N) eqn:EG; [|discriminate].
    destruct OCc as [_ [_ [_ [_ C4]]]]. pose proof (C4 _ _ EG) as L. destruct OS as [Z _]. rewrite Z in L. discriminate.
  - intros sid c a -> E. destruct (AT c E) as [_ OCc]. apply own_goal_pair. split; [exact OS|].
    unfold inv_sm in SM. rewrite E in SM.
    apply (own_c_same (st x) c); [reflexivity| |apply leave_owner|exact OCc].
    apply cmodes_same_of; [apply leave_same, SM|apply leave_mono].
  - intros sid t mode c n -> E HT. cbv zeta. destruct (AT c E) as [LCc OCc].
    destruct (tus_own f (st x) c 0 (sess_uid sm sid) mode false LI LCc OS OCc) as [A B].
    split; [exact A|]. cbn [ca st]. intros NS. apply B.
    unfold view in FOK. rewrite E in FOK. apply FOK; [right; eauto|reflexivity|exact NS].
  - intros sid t mode c n -> E E1 _. cbv zeta. destruct (AT c E) as [LCc OCc]. apply own_goal_pair. apply aus_own; auto.
  - intros sid t mode n ->. set (u := sess_uid sm sid).
    pose proof (offline_set_sub_arow f (st x) sid u t mode LI) as HA. cbv zeta in HA.
    set (s' := o_st (offline_set_sub f (st x) sid u t mode)) in *.
    (* effective owners stay effective owners, live rows stay live, grants stay *)
    assert (forall v, a_eff_owner (arow (st x) v) = true -> a_eff_owner (arow s' v) = true) as H1.
    { intros v H. destruct (HA v) as [->|[-> [w [g [w' [E1 [E2 E3]]]]]]]; [exact H|].
      rewrite E1 in H. rewrite E2. cbn in *. apply is_owner_land in H. destruct H as [A B].
      apply is_owner_and; [exact A|rewrite E3; exact B]. }
    assert (forall v, a_grant_owner (arow (st x) v) = true -> a_grant_owner (arow s' v) = true) as H2.
    { intros v H. destruct (HA v) as [->|[-> [w [g [w' [E1 [E2 E3]]]]]]]; [exact H|]. rewrite E1 in H. rewrite E2. exact H. }
    assert (forall v, a_live (arow (st x) v) = true -> a_live (arow s' v) = true) as H3.
    { intros v H. destruct (HA v) as [->|[-> [w [g [w' [E1 [E2 E3]]]]]]]; [exact H|]. rewrite E2. reflexivity. }
    destruct OS as [Z [u0 E0]]. split; cbn [st ca].
    + split; [|eauto]. destruct (HA 0%N) as [->|[E _]]; [exact Z|]. exfalso. apply LI. symmetry. exact E.
    + intros _. destruct (ca x) as [c|]; [|exact I].
      destruct OC as [OZ [C1 [C2 [C3 C4]]]]. unfold own_c. repeat split; eauto.
  - intros sid t c -> E. cbv zeta. destruct (AT c E) as [_ OCc]. apply own_goal_pair. apply del_sub_own; auto.
Qed.
End OwnInv.
