(* C14 lemmas about the interleaving model Sys/Lifecycle.v.  What the other Lifecycle* files and
   Props/PropC14.v build on: [estep] / [exec_estep] ([exec] by cases: when a step fires and what it yields),
   [ustep] / [ustep_cases] ([unreg_step] by cases), [cfg_simpl] (projections of an updated configuration)
   and the first invariant [inv_bal] (in-flight balance). *)
From Coq Require Import List Arith Bool Lia.
Import ListNotations.
Require Import Tinode.Sys.Lifecycle.

(* ---------- library ---------- *)

Lemma take_first_spec : forall (A : Type) i (l : list (inst * A)) a l',
  take_first i l = Some (a, l') ->
  exists l1 l2, l = l1 ++ (i, a) :: l2 /\ l' = l1 ++ l2 /\ has_tag i l1 = false.
Proof.
  induction l as [|[j b] r IH]; intros a l' H; simpl in H; [discriminate|].
  destruct (Nat.eqb_spec i j) as [->|Hne].
  - inversion H; subst. exists [], l'. auto.
  - destruct (take_first i r) as [[b' r']|] eqn:E; [|discriminate]. inversion H; subst.
    destruct (IH _ _ eq_refl) as (l1 & l2 & -> & -> & Ht).
    exists ((j, b) :: l1), l2. repeat split; auto. simpl.
    destruct (Nat.eqb_spec i j); [contradiction|]. exact Ht.
Qed.

Lemma take_first_none : forall (A : Type) i (l : list (inst * A)),
  take_first i l = None -> has_tag i l = false.
Proof.
  induction l as [|[j b] r IH]; intros H; simpl in *; auto.
  destruct (Nat.eqb_spec i j); [discriminate|].
  destruct (take_first i r) as [[? ?]|]; [discriminate|]. simpl. auto.
Qed.

Lemma has_tag_take_first : forall (A : Type) i (l : list (inst * A)),
  has_tag i l = true -> exists a l', take_first i l = Some (a, l').
Proof.
  intros A i l H. destruct (take_first i l) as [[a l']|] eqn:E; eauto.
  apply take_first_none in E. congruence.
Qed.

Lemma has_tag_app : forall (A : Type) i (l1 l2 : list (inst * A)),
  has_tag i (l1 ++ l2) = has_tag i l1 || has_tag i l2.
Proof. intros. unfold has_tag. apply existsb_app. Qed.

Lemma has_tag_false_in : forall (A : Type) i (l : list (inst * A)) x,
  has_tag i l = false -> In x l -> fst x <> i.
Proof.
  intros A i l x H Hin E. unfold has_tag in H.
  assert (existsb (fun x => Nat.eqb i (fst x)) l = true).
  { apply existsb_exists. exists x. split; auto. subst. apply Nat.eqb_refl. }
  congruence.
Qed.

Lemma has_tag_true_in : forall (A : Type) i (l : list (inst * A)),
  has_tag i l = true -> exists a, In (i, a) l.
Proof.
  intros A i l H. unfold has_tag in H. apply existsb_exists in H. destruct H as ([j a] & Hin & E).
  simpl in E. apply Nat.eqb_eq in E. subst. eauto.
Qed.

(* ---------- counting a session's client-initiated requests ---------- *)

Definition mine (s : sid) (r : req) : bool := r_init r && Nat.eqb (r_sid r) s.
Definition cntr (s : sid) (l : list req) : nat := length (filter (mine s) l).
Definition cntp (s : sid) (l : list (inst * req)) : nat := cntr s (map snd l).

Lemma cntr_app : forall s l1 l2, cntr s (l1 ++ l2) = cntr s l1 + cntr s l2.
Proof. intros. unfold cntr. rewrite filter_app, app_length. reflexivity. Qed.
Lemma cntp_app : forall s l1 l2, cntp s (l1 ++ l2) = cntp s l1 + cntp s l2.
Proof. intros. unfold cntp. rewrite map_app. apply cntr_app. Qed.
Lemma cntr_cons : forall s r l, cntr s (r :: l) = (if mine s r then 1 else 0) + cntr s l.
Proof. intros. unfold cntr. simpl. destruct (mine s r); reflexivity. Qed.
Lemma cntp_cons : forall s i r l, cntp s ((i, r) :: l) = (if mine s r then 1 else 0) + cntp s l.
Proof. intros. unfold cntp. simpl. apply cntr_cons. Qed.
Lemma cntr_nil : forall s, cntr s [] = 0. Proof. reflexivity. Qed.
Lemma cntp_nil : forall s, cntp s [] = 0. Proof. reflexivity. Qed.

Lemma cntp_take_first : forall s i l r l',
  take_first i l = Some (r, l') -> cntp s l = (if mine s r then 1 else 0) + cntp s l'.
Proof.
  intros s i l r l' H. apply take_first_spec in H. destruct H as (l1 & l2 & -> & -> & _).
  rewrite !cntp_app, cntp_cons. lia.
Qed.

Lemma cntp_requeue : forall s i l,
  cntp s (fst (requeue_reg i l)) + cntr s (snd (requeue_reg i l)) = cntp s l.
Proof.
  intros s i l. unfold requeue_reg. simpl. induction l as [|[j r] rest IH]; simpl; auto.
  destruct (Nat.eqb i j); simpl.
  - rewrite cntr_cons, cntp_cons. lia.
  - rewrite !cntp_cons. lia.
Qed.

Lemma cntp_all_internal : forall s (f : tid * inst -> inst * req) l,
  (forall x, r_init (snd (f x)) = false) -> cntp s (map f l) = 0.
Proof.
  intros s f l H. induction l as [|x r IH]; simpl; auto.
  destruct (f x) as [j q] eqn:E. rewrite cntp_cons, IH. unfold mine.
  specialize (H x). rewrite E in H. simpl in H. rewrite H. reflexivity.
Qed.

(* drain of the unreg queue: Done for every client-initiated item; counted exactly *)
Lemma drain_unreg_bal : forall i l f l' f',
  drain_unreg i l f = (l', f') ->
  forall s, cntp s l <= s_inflight (f s) ->
       s_inflight (f' s) + cntp s l = s_inflight (f s) + cntp s l'.
Proof.
  induction l as [|[j r] rest IH]; intros f l' f' H s Hle; simpl in H.
  - inversion H; subst. reflexivity.
  - destruct (Nat.eqb i j).
    + rewrite cntp_cons in *.
      specialize (IH _ _ _ H s).
      unfold upd in IH. unfold mine in *.
      destruct (Nat.eqb_spec s (r_sid r)) as [Heq|Hne].
      * subst s. rewrite Nat.eqb_refl in *. rewrite andb_true_r in *.
        destruct (r_init r); simpl in *.
        -- assert (Hx : s_inflight (s_reply (s_donereq (f (r_sid r))) (rep r CLocked)) = pred (s_inflight (f (r_sid r)))).
           { unfold s_reply. simpl. destruct (s_term (f (r_sid r))); reflexivity. }
           rewrite Hx in IH. lia.
        -- lia.
      * assert (Nat.eqb (r_sid r) s = false) by (apply Nat.eqb_neq; auto).
        rewrite H0 in *. rewrite andb_false_r in *. simpl in *. apply IH. lia.
    + destruct (drain_unreg i rest f) as [l2 f2] eqn:E. inversion H; subst.
      rewrite !cntp_cons in *. specialize (IH _ _ _ E s). lia.
Qed.

(* ---------- simplification of the updaters ---------- *)

Lemma upd_same : forall (A : Type) (f : nat -> A) k v, upd f k v k = v.
Proof. intros. unfold upd. rewrite Nat.eqb_refl. reflexivity. Qed.
Lemma upd_other : forall (A : Type) (f : nat -> A) k v x, x <> k -> upd f k v x = f x.
Proof. intros. unfold upd. destruct (Nat.eqb_spec x k); congruence. Qed.

Lemma s_reply_inflight : forall x p, s_inflight (s_reply x p) = s_inflight x.
Proof. intros. unfold s_reply. destruct (s_term x); reflexivity. Qed.
Lemma s_reply_subs : forall x p, s_subs (s_reply x p) = s_subs x.
Proof. intros. unfold s_reply. destruct (s_term x); reflexivity. Qed.
Lemma s_reply_term : forall x p, s_term (s_reply x p) = s_term x.
Proof. intros. unfold s_reply. destruct (s_term x) eqn:E; simpl; auto. Qed.
Lemma s_reply_done : forall x p, s_done (s_reply x p) = s_done x.
Proof. intros. unfold s_reply. destruct (s_term x); reflexivity. Qed.
Lemma s_reply_detachq : forall x p, s_detachq (s_reply x p) = s_detachq x.
Proof. intros. unfold s_reply. destruct (s_term x); reflexivity. Qed.
Lemma s_detach_inflight : forall x t, s_inflight (s_detach x t) = s_inflight x.
Proof. intros. unfold s_detach. destruct (s_term x); reflexivity. Qed.
Lemma s_detach_subs : forall x t, s_subs (s_detach x t) = s_subs x.
Proof. intros. unfold s_detach. destruct (s_term x); reflexivity. Qed.
Lemma s_detach_term : forall x t, s_term (s_detach x t) = s_term x.
Proof. intros. unfold s_detach. destruct (s_term x) eqn:E; simpl; auto. Qed.
Lemma s_detach_done : forall x t, s_done (s_detach x t) = s_done x.
Proof. intros. unfold s_detach. destruct (s_term x); reflexivity. Qed.

Global Hint Rewrite s_reply_inflight s_reply_subs s_reply_term s_reply_done s_reply_detachq
  s_detach_inflight s_detach_subs s_detach_term s_detach_done : lc.

(* ---------- the TopicUnreg step = an optional 404 queued to the requester, then unreg_step ---------- *)

Definition pre404 (c : config) (r : req) (err : bool) : config :=
  if err then on_sess c (r_sid r) (fun x => s_reply x (rep r CNotFound)) else c.

Lemma exec_unreg_inv : forall c i c', exec (TopicUnreg i) c = Some c' ->
  exists r rest aC eR, take_first i (c_tunreg c) = Some (r, rest) /\
    (eR = true -> r_init r = true /\ r_aschan r = true /\ c_ischan c (i_name (c_inst c i)) = false) /\
    unreg_step (pre404 c r eR) i aC eR = Some c'.
Proof.
  intros c i c' H. simpl in H.
  destruct (take_first i (c_tunreg c)) as [[r rest]|] eqn:E; [|discriminate].
  exists r, rest. unfold verify_chan in H.
  destruct (r_init r); [destruct (r_aschan r); [destruct (c_ischan c (i_name (c_inst c i))) eqn:Ec|]|].
  - exists true, false. split; [reflexivity|split; [discriminate|exact H]].
  - exists false, true. split; [reflexivity|split; [auto|exact H]].
  - exists false, false. split; [reflexivity|split; [discriminate|exact H]].
  - exists false, false. split; [reflexivity|split; [discriminate|exact H]].
Qed.

Lemma unreg_exec : forall c i r rest, take_first i (c_tunreg c) = Some (r, rest) ->
  exists aC eR, exec (TopicUnreg i) c = unreg_step (pre404 c r eR) i aC eR.
Proof.
  intros c i r rest E. simpl. rewrite E.
  destruct (if r_init r then verify_chan c (i_name (c_inst c i)) r else (false, false)) as [aC eR].
  exists aC, eR. reflexivity.
Qed.

Lemma pre404_frame : forall c r e,
  c_inst (pre404 c r e) = c_inst c /\ c_next (pre404 c r e) = c_next c /\ c_table (pre404 c r e) = c_table c /\
  c_hjoin (pre404 c r e) = c_hjoin c /\ c_hunreg (pre404 c r e) = c_hunreg c /\ c_inits (pre404 c r e) = c_inits c /\
  c_treg (pre404 c r e) = c_treg c /\ c_tunreg (pre404 c r e) = c_tunreg c /\ c_texit (pre404 c r e) = c_texit c /\
  c_store (pre404 c r e) = c_store c /\ c_owner (pre404 c r e) = c_owner c /\ c_user (pre404 c r e) = c_user c /\
  c_nextrid (pre404 c r e) = c_nextrid c /\ c_ischan (pre404 c r e) = c_ischan c.
Proof. intros. unfold pre404. destruct e; simpl; repeat split. Qed.

Lemma pre404_sess : forall c r e s,
  s_subs (c_sess (pre404 c r e) s) = s_subs (c_sess c s) /\ s_inflight (c_sess (pre404 c r e) s) = s_inflight (c_sess c s) /\
  s_term (c_sess (pre404 c r e) s) = s_term (c_sess c s) /\ s_done (c_sess (pre404 c r e) s) = s_done (c_sess c s) /\
  s_detachq (c_sess (pre404 c r e) s) = s_detachq (c_sess c s).
Proof.
  intros. unfold pre404. destruct e; simpl.
  - unfold upd. destruct (Nat.eqb_spec s (r_sid r)) as [->|].
    + autorewrite with lc. repeat split; reflexivity.
    + repeat split; reflexivity.
  - repeat split; reflexivity.
Qed.

(* evictUser: the sessions of the requester's user attached to instance i *)
Definition gone_of (c : config) (i : inst) (s : sid) : sid -> bool :=
  fun s' => mem s' (i_sessions (c_inst c i)) && Nat.eqb (c_user c s') (c_user c s).

(* remSession, delSub: session s and instance i forget each other; g is what else happens to the session *)
Definition unlink (c : config) (i : inst) (s : sid) (g : sess -> sess) : config :=
  on_sess (on_inst c i (fun y => i_setchansub (i_setsessions y (remove_nat s (i_sessions y))) (remove_nat s (i_chansub y)))) s
          (fun x => g (s_setsubs x (remove_key (i_name (c_inst c i)) (s_subs x)))).

(* [unreg_step] by cases *)
Inductive ustep (c : config) (i : inst) (aC eR : bool) : config -> Prop :=
| us_reply : forall r rest cd,
    i_phase (c_inst c i) = PRun -> take_first i (c_tunreg c) = Some (r, rest) -> r_init r = true ->
    (inactive (c_inst c i) = false -> r_kind r = KLeave true) ->
    ustep c i aC eR (on_sess (on_sess (set_tunreg c rest) (r_sid r) (fun x => s_reply x (rep r cd))) (r_sid r) s_donereq)
| us_evictuser : forall r rest,
    i_phase (c_inst c i) = PRun -> take_first i (c_tunreg c) = Some (r, rest) -> r_init r = true ->
    inactive (c_inst c i) = false -> r_kind r = KLeave true -> eR = false ->
    ustep c i aC eR
      (on_sess
         (on_inst
            (set_sess (set_tunreg c rest)
               (fun s' => let x := upd (c_sess c) (r_sid r) (s_reply (c_sess c (r_sid r)) (rep r COk)) s' in
                          if gone_of c i (r_sid r) s'
                          then (let x := s_detach x (i_name (c_inst c i)) in
                                if Nat.eqb s' (r_sid r) then x else s_reply x (mkRep None CEvicted (i_name (c_inst c i))))
                          else x))
            i (fun y => i_setchansub (i_setsessions y (filter (fun s' => negb (gone_of c i (r_sid r) s')) (i_sessions y)))
                                     (filter (fun s' => negb (gone_of c i (r_sid r) s')) (i_chansub y))))
         (r_sid r) s_donereq)
| us_detach : forall r rest c2 c',
    i_phase (c_inst c i) = PRun -> take_first i (c_tunreg c) = Some (r, rest) ->
    inactive (c_inst c i) = false -> (r_init r = false \/ r_kind r <> KLeave true) ->
    mem (r_sid r) (i_sessions (c_inst c i)) = true ->
    c2 = unlink (set_tunreg c rest) i (r_sid r)
           (fun x => if r_init r
                     then s_reply x (rep r (if Bool.eqb (mem (r_sid r) (i_chansub (c_inst c i))) aC then COk else CNotFound))
                     else x) ->
    c' = (if r_init r then on_sess c2 (r_sid r) s_donereq else c2) ->
    ustep c i aC eR c'
| us_absent : forall r rest,
    i_phase (c_inst c i) = PRun -> take_first i (c_tunreg c) = Some (r, rest) -> r_init r = true ->
    inactive (c_inst c i) = false -> r_kind r <> KLeave true ->
    mem (r_sid r) (i_sessions (c_inst c i)) = false ->
    ustep c i aC eR (on_sess (set_tunreg c rest) (r_sid r) s_donereq)
| us_skip : forall r rest,
    i_phase (c_inst c i) = PRun -> take_first i (c_tunreg c) = Some (r, rest) -> r_init r = false ->
    (inactive (c_inst c i) = false -> mem (r_sid r) (i_sessions (c_inst c i)) = false) ->
    ustep c i aC eR (set_tunreg c rest).

Lemma unreg_step_ustep : forall c i aC eR c', unreg_step c i aC eR = Some c' -> ustep c i aC eR c'.
Proof.
  intros c i aC eR c' Hs. unfold unreg_step in Hs.
  destruct (i_phase (c_inst c i)) eqn:Ep; try discriminate Hs.
  destruct (take_first i (c_tunreg c)) as [[r rest]|] eqn:E; [|discriminate Hs].
  cbn [negb is_run] in Hs. injection Hs as <-.
  cbn [c_inst set_tunreg c_user c_owner].
  destruct (inactive (c_inst c i)) eqn:Ein.
  { destruct (r_init r) eqn:Ei; [eapply us_reply|eapply us_skip]; eauto; congruence. }
  assert (HX : (r_init r = false \/ r_kind r <> KLeave true) -> forall c2,
            c2 = (if mem (r_sid r) (i_sessions (c_inst c i))
                  then unlink (set_tunreg c rest) i (r_sid r)
                         (fun x => if r_init r
                                   then s_reply x (rep r (if Bool.eqb (mem (r_sid r) (i_chansub (c_inst c i))) aC then COk else CNotFound))
                                   else x)
                  else set_tunreg c rest) ->
            ustep c i aC eR (if r_init r then on_sess c2 (r_sid r) s_donereq else c2)).
  { intros Hk c2 ->. destruct (mem (r_sid r) (i_sessions (c_inst c i))) eqn:Em.
    - eapply us_detach; eauto.
    - destruct (r_init r) eqn:Ei; [eapply us_absent|eapply us_skip]; eauto. destruct Hk; congruence. }
  revert HX. destruct (r_init r) eqn:Ei; intros HX.
  - destruct (r_kind r) as [|[|]|] eqn:Ek; try (refine (HX (or_intror _) _ eq_refl); discriminate).
    destruct (Nat.eqb _ _); [eapply us_reply; eauto|].
    destruct eR; [eapply us_reply; eauto|]. eapply us_evictuser; eauto.
  - exact (HX (or_introl eq_refl) _ eq_refl).
Qed.

(* the failure path of topicInit up to the last line: the table entry is gone, the join is answered 404, queued joins
   are back with the hub, the unreg queue is drained, the instance is dead *)
Definition init_failed (c : config) (i : inst) (inits' unreg' : list (inst * req)) (f' : sid -> sess) : config :=
  on_inst (set_sess (set_tunreg (set_hjoin (set_treg (set_table (set_inits c inits') (upd (c_table c) (i_name (c_inst c i)) None))
                                                     (fst (requeue_reg i (c_treg c))))
                                           (c_hjoin c ++ snd (requeue_reg i (c_treg c))))
                                unreg') f')
          i (fun x => i_setphase x PDead).

(* [exec] by cases: when a step fires and what it yields *)
Inductive estep (c : config) : label -> config -> Prop :=
| es_sub_already : forall s t ch j,
    s_term (c_sess c s) = false -> s_inflight (c_sess c s) = 0 -> lookup t (s_subs (c_sess c s)) = Some j ->
    estep c (ClientSub s t ch)
      (on_sess (set_nextrid c (S (c_nextrid c))) s (fun x => s_reply x (rep (mkReq s (c_nextrid c) KSub t true ch) CAlready)))
| es_sub : forall s t ch,
    s_term (c_sess c s) = false -> s_inflight (c_sess c s) = 0 -> lookup t (s_subs (c_sess c s)) = None ->
    estep c (ClientSub s t ch)
      (set_hjoin (on_sess (set_nextrid c (S (c_nextrid c))) s s_addreq) (c_hjoin c ++ [mkReq s (c_nextrid c) KSub t true ch]))
| es_leave : forall s t u ch j,
    s_term (c_sess c s) = false -> s_inflight (c_sess c s) = 0 -> lookup t (s_subs (c_sess c s)) = Some j ->
    estep c (ClientLeave s t u ch)
      (set_tunreg (on_sess (set_nextrid c (S (c_nextrid c))) s s_addreq) (c_tunreg c ++ [(j, mkReq s (c_nextrid c) (KLeave u) t true ch)]))
| es_leave_unattached : forall s t u ch,
    s_term (c_sess c s) = false -> s_inflight (c_sess c s) = 0 -> lookup t (s_subs (c_sess c s)) = None ->
    estep c (ClientLeave s t u ch)
      (on_sess (set_nextrid c (S (c_nextrid c))) s
         (fun x => s_reply x (rep (mkReq s (c_nextrid c) (KLeave u) t true ch) (if u then CAttachFirst else CNotJoined))))
| es_del : forall s t,
    s_term (c_sess c s) = false -> c_user c s = c_owner c t ->
    estep c (ClientDel s t)
      (set_hunreg (set_nextrid c (S (c_nextrid c))) (c_hunreg c ++ [HDel (mkReq s (c_nextrid c) KDel t true false)]))
| es_join_new : forall r rest,
    c_hjoin c = r :: rest -> c_table c (r_topic r) = None ->
    estep c HubJoin
      (set_inits (set_next (set_table (set_inst (set_hjoin c rest) (upd (c_inst c) (c_next c) (mkInst (r_topic r) [] PInit false [])))
                                      (upd (c_table c) (r_topic r) (Some (c_next c))))
                           (S (c_next c)))
                 (c_inits c ++ [(c_next c, r)]))
| es_join_locked : forall r rest i,
    c_hjoin c = r :: rest -> c_table c (r_topic r) = Some i -> inactive (c_inst c i) = true ->
    estep c HubJoin (on_sess (set_hjoin c rest) (r_sid r) (fun x => s_reply (s_donereq x) (rep r CLocked)))
| es_join : forall r rest i,
    c_hjoin c = r :: rest -> c_table c (r_topic r) = Some i -> inactive (c_inst c i) = false ->
    estep c HubJoin (set_treg (set_hjoin c rest) (c_treg c ++ [(i, r)]))
| es_init_deleted : forall i r inits',
    i_phase (c_inst c i) = PInit -> take_first i (c_inits c) = Some (r, inits') ->
    c_store c (i_name (c_inst c i)) = true -> i_deleted (c_inst c i) = true ->
    estep c (InitDone i true) (on_sess (on_inst (set_inits c inits') i (fun x => i_setphase x PDead)) (r_sid r) s_donereq)
| es_init_ok : forall i r inits',
    i_phase (c_inst c i) = PInit -> take_first i (c_inits c) = Some (r, inits') ->
    c_store c (i_name (c_inst c i)) = true -> i_deleted (c_inst c i) = false ->
    estep c (InitDone i true) (set_treg (on_inst (set_inits c inits') i (fun x => i_setphase x PRun)) (c_treg c ++ [(i, r)]))
| es_init_parked : forall i r inits' unreg' f' b exit',
    i_phase (c_inst c i) = PInit -> take_first i (c_inits c) = Some (r, inits') ->
    drain_unreg i (c_tunreg c) (upd (c_sess c) (r_sid r) (s_reply (c_sess c (r_sid r)) (rep r CNotFound))) = (unreg', f') ->
    take_first i (c_texit c) = Some (b, exit') ->
    estep c (InitDone i false) (set_texit (init_failed c i inits' unreg' f') exit')
| es_init_failed : forall i r inits' unreg' f',
    i_phase (c_inst c i) = PInit -> take_first i (c_inits c) = Some (r, inits') ->
    drain_unreg i (c_tunreg c) (upd (c_sess c) (r_sid r) (s_reply (c_sess c (r_sid r)) (rep r CNotFound))) = (unreg', f') ->
    take_first i (c_texit c) = None ->
    estep c (InitDone i false) (on_sess (init_failed c i inits' unreg' f') (r_sid r) s_donereq)
| es_reg_refused : forall i ok r reg' cd,
    i_phase (c_inst c i) = PRun -> take_first i (c_treg c) = Some (r, reg') ->
    estep c (TopicReg i ok) (on_sess (on_sess (set_treg c reg') (r_sid r) (fun x => s_reply x (rep r cd))) (r_sid r) s_donereq)
| es_reg : forall i r reg' (aC : bool),
    i_phase (c_inst c i) = PRun -> take_first i (c_treg c) = Some (r, reg') ->
    inactive (c_inst c i) = false -> lookup (i_name (c_inst c i)) (s_subs (c_sess c (r_sid r))) = None ->
    estep c (TopicReg i true)
      (on_sess
         (on_inst
            (on_sess (set_treg c reg') (r_sid r)
               (fun x => s_reply (s_setsubs x ((i_name (c_inst c i), i) :: s_subs x)) (rep r COk)))
            i (fun y => i_setchansub
                          (i_setsessions y (if mem (r_sid r) (i_sessions y) then i_sessions y else r_sid r :: i_sessions y))
                          (if mem (r_sid r) (i_sessions y) then i_chansub y
                           else if aC then r_sid r :: i_chansub y else i_chansub y)))
         (r_sid r) s_donereq)
| es_unreg : forall i r rest aC eR c',
    take_first i (c_tunreg c) = Some (r, rest) ->
    (eR = true -> r_init r = true /\ r_aschan r = true /\ c_ischan c (i_name (c_inst c i)) = false) ->
    ustep (pre404 c r eR) i aC eR c' ->
    estep c (TopicUnreg i) c'
| es_evict_inactive : forall i s,
    i_phase (c_inst c i) = PRun -> mem s (i_sessions (c_inst c i)) = true -> inactive (c_inst c i) = true ->
    estep c (Evict i s) c
| es_evict : forall i s,
    i_phase (c_inst c i) = PRun -> mem s (i_sessions (c_inst c i)) = true -> inactive (c_inst c i) = false ->
    estep c (Evict i s) (unlink c i s (fun x => x))
| es_idle : forall i,
    i_phase (c_inst c i) = PRun -> i_sessions (c_inst c i) = [] ->
    estep c (IdleTimeout i) (set_hunreg c (c_hunreg c ++ [HUnload (i_name (c_inst c i))]))
| es_unload : forall vis t rest i,
    c_hunreg c = HUnload t :: rest -> c_table c t = Some i ->
    estep c (HubUnreg vis)
      (set_texit (set_table (on_inst (set_hunreg c rest) i i_setdeleted) (upd (c_table c) t None)) (c_texit c ++ [(i, false)]))
| es_unload_gone : forall vis t rest,
    c_hunreg c = HUnload t :: rest -> c_table c t = None ->
    estep c (HubUnreg vis) (set_hunreg c rest)
| es_hdel_lost : forall r rest i,
    c_hunreg c = HDel r :: rest -> c_table c (r_topic r) = Some i -> i_phase (c_inst c i) = PInit ->
    estep c (HubUnreg false) (set_hunreg c rest)
| es_hdel : forall vis r rest i,
    c_hunreg c = HDel r :: rest -> c_table c (r_topic r) = Some i -> is_init (i_phase (c_inst c i)) && negb vis = false ->
    estep c (HubUnreg vis)
      (set_texit
         (set_table
            (on_sess (set_store (on_inst (set_hunreg c rest) i i_setdeleted) (upd (c_store c) (r_topic r) false))
               (r_sid r) (fun x => s_reply x (rep r COk)))
            (upd (c_table c) (r_topic r) None))
         (c_texit c ++ [(i, true)]))
| es_hdel_row : forall vis r rest,
    c_hunreg c = HDel r :: rest -> c_table c (r_topic r) = None -> c_store c (r_topic r) = true ->
    estep c (HubUnreg vis)
      (on_sess (set_store (set_hunreg c rest) (upd (c_store c) (r_topic r) false)) (r_sid r) (fun x => s_reply x (rep r COk)))
| es_hdel_none : forall vis r rest,
    c_hunreg c = HDel r :: rest -> c_table c (r_topic r) = None -> c_store c (r_topic r) = false ->
    estep c (HubUnreg vis) (on_sess (set_hunreg c rest) (r_sid r) (fun x => s_reply x (rep r CNoAction)))
| es_exit : forall i b exit',
    i_phase (c_inst c i) = PRun -> take_first i (c_texit c) = Some (b, exit') ->
    estep c (TopicExit i)
      (on_inst
         (set_sess (set_texit c exit')
            (fun s => if mem s (i_sessions (c_inst c i)) then s_detach (c_sess c s) (i_name (c_inst c i)) else c_sess c s))
         i (fun y => i_setphase y PDead))
| es_detach : forall s t rest,
    s_detachq (c_sess c s) = t :: rest ->
    estep c (SessDetach s) (on_sess c s (fun x => s_setdetachq (s_setsubs x (remove_key t (s_subs x))) rest))
| es_disc_begin : forall s,
    s_term (c_sess c s) = false ->
    estep c (DiscBegin s) (on_sess c s (fun x => mkSess (s_subs x) (s_inflight x) true false (s_out x) []))
| es_disc_end : forall s,
    s_term (c_sess c s) = true -> s_done (c_sess c s) = false -> s_inflight (c_sess c s) = 0 ->
    estep c (DiscEnd s)
      (on_sess
         (set_tunreg c (c_tunreg c ++ map (fun tj => (snd tj, mkReq s 0 (KLeave false) (fst tj) false false)) (s_subs (c_sess c s))))
         s (fun x => mkSess (s_subs x) (s_inflight x) true true (s_out x) (s_detachq x)))
| es_hdel_fail : forall r rest,
    c_hunreg c = HDel r :: rest ->
    match c_table c (r_topic r) with
    | Some i => is_init (i_phase (c_inst c i)) = false
    | None => c_store c (r_topic r) = true
    end ->
    estep c HubUnregFail (on_sess (set_hunreg c rest) (r_sid r) (fun x => s_reply x (rep r CInternal))).

Lemma exec_estep : forall l c c', exec l c = Some c' -> estep c l c'.
Proof.
  intros l c c' Hs. destruct l; cbn [exec] in Hs.
  - destruct (s_term (c_sess c s)) eqn:Et; [discriminate Hs|].
    destruct (Nat.eqb_spec (s_inflight (c_sess c s)) 0) as [E0|]; [|discriminate Hs]. cbn [orb negb] in Hs.
    destruct (lookup t (s_subs (c_sess c s))) eqn:El; injection Hs as <-; [eapply es_sub_already|eapply es_sub]; eauto.
  - destruct (s_term (c_sess c s)) eqn:Et; [discriminate Hs|].
    destruct (Nat.eqb_spec (s_inflight (c_sess c s)) 0) as [E0|]; [|discriminate Hs]. cbn [orb negb] in Hs.
    destruct (lookup t (s_subs (c_sess c s))) eqn:El; injection Hs as <-; [eapply es_leave|eapply es_leave_unattached]; eauto.
  - destruct (s_term (c_sess c s)) eqn:Et; [discriminate Hs|].
    destruct (Nat.eqb_spec (c_user c s) (c_owner c t)) as [E0|]; [|discriminate Hs]. injection Hs as <-. eapply es_del; eauto.
  - destruct (c_hjoin c) as [|r rest] eqn:E; [discriminate Hs|]. cbn [c_table set_hjoin c_inst c_next c_treg c_inits] in Hs.
    destruct (c_table c (r_topic r)) as [i|] eqn:Et.
    + destruct (inactive (c_inst c i)) eqn:Ein; injection Hs as <-; [eapply es_join_locked|eapply es_join]; eauto.
    + injection Hs as <-. eapply es_join_new; eauto.
  - destruct (i_phase (c_inst c i)) eqn:Ep; try discriminate Hs.
    destruct (take_first i (c_inits c)) as [[r inits']|] eqn:E; [|discriminate Hs]. destruct ok; cbn in Hs.
    + destruct (c_store c (i_name (c_inst c i))) eqn:Est; [|discriminate Hs].
      destruct (i_deleted (c_inst c i)) eqn:Ed; injection Hs as <-; [eapply es_init_deleted|eapply es_init_ok]; eauto.
    + destruct (drain_unreg i (c_tunreg c) _) as [unreg' f'] eqn:Edr.
      destruct (take_first i (c_texit c)) as [[b exit']|] eqn:Ex; injection Hs as <-.
      * exact (es_init_parked c i r inits' unreg' f' b exit' Ep E Edr Ex).
      * exact (es_init_failed c i r inits' unreg' f' Ep E Edr Ex).
  - destruct (i_phase (c_inst c i)) eqn:Ep; try discriminate Hs.
    destruct (take_first i (c_treg c)) as [[r reg']|] eqn:E; [|discriminate Hs]. injection Hs as <-.
    cbn [negb is_run c_inst set_treg c_sess].
    destruct (inactive (c_inst c i)) eqn:Ein; [eapply es_reg_refused; eauto|].
    destruct (lookup _ _) eqn:El; [eapply es_reg_refused; eauto|].
    destruct (verify_chan _ _ _) as [aC [|]]; [eapply es_reg_refused; eauto|].
    destruct ok; [eapply es_reg|eapply es_reg_refused]; eauto.
  - destruct (exec_unreg_inv _ _ _ Hs) as (r & rest & aC & eR & E & He & Hu).
    eapply es_unreg; eauto. apply unreg_step_ustep. exact Hu.
  - destruct (i_phase (c_inst c i)) eqn:Ep; try discriminate Hs.
    destruct (mem s (i_sessions (c_inst c i))) eqn:Em; [|discriminate Hs].
    destruct (inactive (c_inst c i)) eqn:Ein; injection Hs as <-; [eapply es_evict_inactive|eapply es_evict]; eauto.
  - destruct (i_phase (c_inst c i)) eqn:Ep; try discriminate Hs.
    destruct (i_sessions (c_inst c i)) eqn:Es; [|discriminate Hs]. injection Hs as <-. eapply es_idle; eauto.
  - destruct (c_hunreg c) as [|[t|r] rest] eqn:E; [discriminate Hs| |]; cbn [c_table set_hunreg c_inst c_store] in Hs.
    + destruct (c_table c t) as [i|] eqn:Et; injection Hs as <-; [eapply es_unload|eapply es_unload_gone]; eauto.
    + destruct (c_table c (r_topic r)) as [i|] eqn:Et.
      * destruct (is_init (i_phase (c_inst c i)) && negb ownerVisible) eqn:Ev; injection Hs as <-; [|eapply es_hdel; eauto].
        apply andb_true_iff in Ev. destruct Ev as [Ev1 Ev2]. destruct ownerVisible; [discriminate Ev2|].
        eapply es_hdel_lost; eauto. destruct (i_phase (c_inst c i)); auto; discriminate Ev1.
      * destruct (c_store c (r_topic r)) eqn:Est; injection Hs as <-; [eapply es_hdel_row|eapply es_hdel_none]; eauto.
  - destruct (i_phase (c_inst c i)) eqn:Ep; try discriminate Hs.
    destruct (take_first i (c_texit c)) as [[b exit']|] eqn:E; [|discriminate Hs]. injection Hs as <-. eapply es_exit; eauto.
  - destruct (s_detachq (c_sess c s)) eqn:E; [discriminate Hs|]. injection Hs as <-. eapply es_detach; eauto.
  - destruct (s_term (c_sess c s)) eqn:E; [discriminate Hs|]. injection Hs as <-. eapply es_disc_begin; eauto.
  - destruct (s_term (c_sess c s)) eqn:Et; [|discriminate Hs].
    destruct (s_done (c_sess c s)) eqn:Ed; [discriminate Hs|].
    destruct (Nat.eqb_spec (s_inflight (c_sess c s)) 0) as [E0|]; [|discriminate Hs]. injection Hs as <-. eapply es_disc_end; eauto.
  - destruct (c_hunreg c) as [|[t|r] rest] eqn:E; try discriminate Hs. cbn [c_table set_hunreg c_inst c_store] in Hs.
    assert (G : match c_table c (r_topic r) with Some i => is_init (i_phase (c_inst c i)) = false | None => c_store c (r_topic r) = true end /\
                c' = on_sess (set_hunreg c rest) (r_sid r) (fun x => s_reply x (rep r CInternal))).
    { destruct (c_table c (r_topic r)) as [i|]; [destruct (is_init _)|destruct (c_store _ _)]; try discriminate Hs; injection Hs as <-; auto. }
    destruct G as [G ->]. eapply es_hdel_fail; eauto.
Qed.

(* the cases of a step, with fixed names: the label's session s1, instance i, the request consumed r *)
Ltac estep_cases Hs :=
  apply exec_estep in Hs;
  destruct Hs as [s1 t ch j Ht E0 El|s1 t ch Ht E0 El|s1 t u ch j Ht E0 El|s1 t u ch Ht E0 El|s1 t Ht Eo
                 |r rest E Et|r rest i E Et Ein|r rest i E Et Ein
                 |i r inits' Ep E Est Ed|i r inits' Ep E Est Ed|i r inits' unreg' f' b exit' Ep E Edr Ex|i r inits' unreg' f' Ep E Edr Ex
                 |i ok r reg' cd Ep E|i r reg' aC Ep E Ein El|i r rest aC eR c' E He Hu
                 |i s1 Ep Em Ein|i s1 Ep Em Ein|i Ep Es|vis t rest i E Et|vis t rest E Et|r rest i E Et Ep|vis r rest i E Et Ev
                 |vis r rest E Et Est|vis r rest E Et Est|i b exit' Ep E|s1 t rest E|s1 Et|s1 Et Ed E0|r rest E G].

Ltac ustep_cases Hu :=
  destruct Hu as [r0 rest0 cd Ep E0 Hi Hk|r0 rest0 Ep E0 Hi Ein Hk He0|r0 rest0 c2 c0' Ep E0 Ein Hk Em -> ->|r0 rest0 Ep E0 Hi Ein Hk Em|r0 rest0 Ep E0 Hi Em].

(* projections of an explicitly updated configuration *)
Ltac cfg_simpl :=
  cbn [c_sess c_inst c_next c_table c_hjoin c_hunreg c_inits c_treg c_tunreg c_texit c_store c_owner c_user c_nextrid c_ischan
       on_sess on_inst set_sess set_inst set_next set_table set_hjoin set_hunreg set_inits set_treg set_tunreg set_texit set_store
       set_nextrid unlink init_failed] in *.

(* ---------- invariant 1: in-flight balance ---------- *)

(* every message in hub.join, in a topicInit and in topic.reg is a client request (msg.init) *)
Definition init_true (c : config) : Prop :=
  (forall r, In r (c_hjoin c) -> r_init r = true) /\
  (forall x, In x (c_inits c) -> r_init (snd x) = true) /\
  (forall x, In x (c_treg c) -> r_init (snd x) = true).

Definition pending (s : sid) (c : config) : nat :=
  cntr s (c_hjoin c) + cntp s (c_inits c) + cntp s (c_treg c) + cntp s (c_tunreg c).

Definition balanced (c : config) : Prop := forall s, s_inflight (c_sess c s) = pending s c.

Definition inv_bal (c : config) : Prop := init_true c /\ balanced c.

Lemma in_take_first : forall (A : Type) i (l : list (inst * A)) a l',
  take_first i l = Some (a, l') -> In (i, a) l /\ (forall x, In x l' -> In x l).
Proof.
  intros A i l a l' H. apply take_first_spec in H. destruct H as (l1 & l2 & -> & -> & _). split.
  - apply in_or_app. right. left. reflexivity.
  - intros x Hx. apply in_app_or in Hx. apply in_or_app. destruct Hx; [left|right; right]; auto.
Qed.

Lemma in_has_tag : forall (A : Type) (l : list (inst * A)) x, In x l -> has_tag (fst x) l = true.
Proof.
  intros. unfold has_tag. apply existsb_exists. exists x. split; auto. apply Nat.eqb_refl.
Qed.

Lemma requeue_in : forall i l,
  (forall x, In x (fst (requeue_reg i l)) -> In x l) /\
  (forall r, In r (snd (requeue_reg i l)) -> exists j, In (j, r) l).
Proof.
  intros i l. unfold requeue_reg. simpl. split.
  - intros x Hx. apply filter_In in Hx. tauto.
  - intros r Hr. apply in_map_iff in Hr. destruct Hr as ([j r'] & <- & Hin). apply filter_In in Hin.
    exists j. tauto.
Qed.

Lemma all_snoc : forall (A : Type) (P : A -> Prop) l a, (forall x, In x l -> P x) -> P a -> forall x, In x (l ++ [a]) -> P x.
Proof. intros A P l a H Ha x Hx. apply in_app_or in Hx. destruct Hx as [Hx|[<-|[]]]; auto. Qed.

Lemma init_true_step : forall c l c', init_true c -> step c l c' -> init_true c'.
Proof.
  intros c l c' H Hs. pose proof H as (H1 & H2 & H3). estep_cases Hs;
    try exact H;
    try (rewrite E in H1; pose proof (fun x h => H1 x (or_intror h)) as H1'; specialize (H1 r (or_introl eq_refl)));
    try (destruct (in_take_first _ _ _ _ _ E) as [Hin Hsub]).
  - split; [|split]; auto. apply all_snoc; auto.
  - split; [|split]; auto. apply all_snoc; auto.
  - split; [|split]; auto.
  - split; [|split]; auto. apply all_snoc; auto.
  - split; [|split]; auto.
  - split; [|split]; auto. apply all_snoc; auto.
  - destruct (requeue_in i (c_treg c)) as [Q1 Q2]. split; [|split]; cbn [init_failed c_hjoin c_inits c_treg set_texit on_inst set_inst set_sess set_tunreg set_hjoin set_treg]; auto.
    intros r' Hr'. apply in_app_or in Hr'. destruct Hr' as [Hr'|Hr']; auto. destruct (Q2 _ Hr') as [j Hj]. exact (H3 _ Hj).
  - destruct (requeue_in i (c_treg c)) as [Q1 Q2]. split; [|split]; cbn [init_failed c_hjoin c_inits c_treg on_sess on_inst set_inst set_sess set_tunreg set_hjoin set_treg]; auto.
    intros r' Hr'. apply in_app_or in Hr'. destruct Hr' as [Hr'|Hr']; auto. destruct (Q2 _ Hr') as [j Hj]. exact (H3 _ Hj).
  - split; [|split]; auto.
  - split; [|split]; auto.
  - assert (H0 : init_true (pre404 c r eR)).
    { destruct (pre404_frame c r eR) as (_ & _ & _ & E1 & _ & E2 & E3 & _). unfold init_true. rewrite E1, E2, E3. exact H. }
    destruct Hu; subst; try destruct (r_init r0); exact H0.
Qed.

(* the weak half of the balance holds on EVERY execution: the step excluded by reach_safe only forgets a Done *)
Definition bal_le (c : config) : Prop := forall s, pending s c <= s_inflight (c_sess c s).

Lemma mine_sid : forall s r, r_init r = true -> mine s r = Nat.eqb s (r_sid r).
Proof. intros s r H. unfold mine. rewrite H. apply Nat.eqb_sym. Qed.

Lemma mine_noninit : forall s r, r_init r = false -> mine s r = false.
Proof. intros s r H. unfold mine. rewrite H. reflexivity. Qed.

(* the session function of an explicitly updated configuration, session by session *)
Ltac sess_leaf :=
  cfg_simpl; unfold upd in *;
  repeat (rewrite ?Nat.eqb_refl in *;
          match goal with
          | |- context [Nat.eqb ?a ?b] => destruct (Nat.eqb_spec a b); try subst
          | H : context [Nat.eqb ?a ?b] |- _ => destruct (Nat.eqb_spec a b); try subst
          end);
  rewrite ?Nat.eqb_refl in *;
  repeat (autorewrite with lc in *;
          cbn [s_subs s_inflight s_term s_done s_out s_detachq s_donereq s_addreq s_setsubs s_setdetachq] in *).

Ltac bal_leaf :=
  unfold pending in *; cfg_simpl;
  rewrite ?cntr_app, ?cntp_app, ?cntr_cons, ?cntp_cons, ?cntr_nil, ?cntp_nil in *;
  try match goal with H : r_init _ = true |- _ => rewrite ?(mine_sid _ _ H) in * end;
  try match goal with H : r_init _ = false |- _ => rewrite ?(mine_noninit _ _ H) in * end;
  unfold mine in *; cbn [r_init r_sid andb] in *;
  sess_leaf; try lia.

Lemma bal_pre404 : forall c r e s, pending s (pre404 c r e) = pending s c /\ s_inflight (c_sess (pre404 c r e) s) = s_inflight (c_sess c s).
Proof.
  intros c r e s. destruct (pre404_sess c r e s) as (_ & -> & _).
  destruct (pre404_frame c r e) as (_ & _ & _ & E1 & _ & E2 & E3 & E4 & _).
  unfold pending. rewrite E1, E2, E3, E4. auto.
Qed.

Lemma bal_ustep : forall c i a e c', bal_le c -> ustep c i a e c' ->
  forall s, s_inflight (c_sess c' s) + pending s c = s_inflight (c_sess c s) + pending s c'.
Proof.
  intros c i a e c' Hb Hu s. specialize (Hb s).
  destruct Hu as [r rest cd Hp E Hi _|r rest Hp E Hi _ _ _|r rest c2 c' Hp E _ _ _ -> ->|r rest Hp E Hi _ _ _|r rest Hp E Hi _];
    pose proof (cntp_take_first s _ _ _ _ E) as Hc.
  - bal_leaf.
  - bal_leaf; destruct (gone_of _ _ _ _); autorewrite with lc; lia.
  - destruct (r_init r) eqn:Hi; bal_leaf.
  - bal_leaf.
  - bal_leaf.
Qed.

Lemma bal_step : forall c l c', init_true c -> bal_le c -> step c l c' -> forall s,
  s_inflight (c_sess c s) + pending s c' <= s_inflight (c_sess c' s) + pending s c /\
  (nil_done_block c l = false -> s_inflight (c_sess c' s) + pending s c = s_inflight (c_sess c s) + pending s c').
Proof.
  intros c l c' (H1 & H2 & H3) Hb Hs s. pose proof (Hb s) as Hbs.
  assert (Heq : s_inflight (c_sess c' s) + pending s c = s_inflight (c_sess c s) + pending s c' -> 
                s_inflight (c_sess c s) + pending s c' <= s_inflight (c_sess c' s) + pending s c /\
                (nil_done_block c l = false -> s_inflight (c_sess c' s) + pending s c = s_inflight (c_sess c s) + pending s c')).
  { intros X. split; [lia|auto]. }
  estep_cases Hs.
  - apply Heq; clear Heq. bal_leaf.
  - apply Heq; clear Heq. bal_leaf.
  - apply Heq; clear Heq. bal_leaf.
  - apply Heq; clear Heq. bal_leaf.
  - apply Heq; clear Heq. bal_leaf.
  - apply Heq; clear Heq. unfold pending in *. rewrite E in *. bal_leaf.
  - apply Heq; clear Heq. assert (Hi : r_init r = true) by (apply H1; rewrite E; left; reflexivity).
    unfold pending in *. rewrite E in *. bal_leaf.
  - apply Heq; clear Heq. unfold pending in *. rewrite E in *. bal_leaf.
  - apply Heq; clear Heq. assert (Hi : r_init r = true) by (apply (H2 (i, r)); exact (proj1 (in_take_first _ _ _ _ _ E))).
    pose proof (cntp_take_first s _ _ _ _ E) as Hc. bal_leaf.
  - apply Heq; clear Heq. pose proof (cntp_take_first s _ _ _ _ E) as Hc. bal_leaf.
  - assert (Hi : r_init r = true) by (apply (H2 (i, r)); exact (proj1 (in_take_first _ _ _ _ _ E))).
    pose proof (cntp_take_first s _ _ _ _ E) as Hc. pose proof (cntp_requeue s i (c_treg c)) as Hq.
    pose proof (drain_unreg_bal _ _ _ _ _ Edr s) as Hd. split.
    + clear Heq. bal_leaf.
    + intros Hn. cbn [nil_done_block] in Hn. pose proof (in_has_tag _ _ _ (proj1 (in_take_first _ _ _ _ _ Ex))) as Hx. cbn [fst] in Hx. congruence.
  - apply Heq; clear Heq. assert (Hi : r_init r = true) by (apply (H2 (i, r)); exact (proj1 (in_take_first _ _ _ _ _ E))).
    pose proof (cntp_take_first s _ _ _ _ E) as Hc. pose proof (cntp_requeue s i (c_treg c)) as Hq.
    pose proof (drain_unreg_bal _ _ _ _ _ Edr s) as Hd. bal_leaf.
  - apply Heq; clear Heq. assert (Hi : r_init r = true) by (apply (H3 (i, r)); exact (proj1 (in_take_first _ _ _ _ _ E))).
    pose proof (cntp_take_first s _ _ _ _ E) as Hc. bal_leaf.
  - apply Heq; clear Heq. assert (Hi : r_init r = true) by (apply (H3 (i, r)); exact (proj1 (in_take_first _ _ _ _ _ E))).
    pose proof (cntp_take_first s _ _ _ _ E) as Hc. bal_leaf.
  - apply Heq; clear Heq. destruct (bal_pre404 c r eR s) as [<- <-].
    apply (bal_ustep _ _ _ _ _ ltac:(intros s0; destruct (bal_pre404 c r eR s0) as [-> ->]; apply Hb) Hu).
  - apply Heq; clear Heq. reflexivity.
  - apply Heq; clear Heq. bal_leaf.
  - apply Heq; clear Heq. reflexivity.
  - apply Heq; clear Heq. bal_leaf.
  - apply Heq; clear Heq. reflexivity.
  - apply Heq; clear Heq. reflexivity.
  - apply Heq; clear Heq. bal_leaf.
  - apply Heq; clear Heq. bal_leaf.
  - apply Heq; clear Heq. bal_leaf.
  - apply Heq; clear Heq. bal_leaf. destruct (mem s _); autorewrite with lc; reflexivity.
  - apply Heq; clear Heq. bal_leaf.
  - apply Heq; clear Heq. bal_leaf.
  - apply Heq; clear Heq. unfold pending. cbn [c_hjoin c_inits c_treg c_tunreg on_sess set_sess set_tunreg].
    rewrite cntp_app, cntp_all_internal by reflexivity. bal_leaf.
  - apply Heq; clear Heq. bal_leaf.
Qed.
Lemma bal_le_step : forall c l c', init_true c -> bal_le c -> step c l c' -> bal_le c'.
Proof.
  intros c l c' IT Hb Hs s. destruct (bal_step _ _ _ IT Hb Hs s) as [A _]. specialize (Hb s). lia.
Qed.

Lemma balanced_le : forall c, balanced c -> bal_le c.
Proof. intros c H s. rewrite (H s). apply le_n. Qed.

Lemma balanced_step : forall c l c',
  inv_bal c -> nil_done_block c l = false -> step c l c' -> balanced c'.
Proof.
  intros c l c' [IT Hb] Hn Hs s.
  destruct (bal_step _ _ _ IT (balanced_le _ Hb) Hs s) as [_ B]. specialize (B Hn). specialize (Hb s). lia.
Qed.

Lemma inv_bal_init : forall st ow us ch, inv_bal (init_config st ow us ch).
Proof.
  intros. split.
  - repeat split; simpl; intros; contradiction.
  - intros s. reflexivity.
Qed.

Lemma reach_safe_reach : forall st ow us c, reach_safe st ow us c -> reach st ow us c.
Proof. induction 1; [constructor|econstructor; eauto]. Qed.

Lemma init_true_reach : forall st ow us c, reach st ow us c -> init_true c.
Proof.
  induction 1.
  - repeat split; simpl; intros; contradiction.
  - eapply init_true_step; eauto.
Qed.

Lemma bal_le_reach : forall st ow us c, reach st ow us c -> bal_le c.
Proof.
  induction 1.
  - intros s. apply Nat.le_0_l.
  - eapply bal_le_step; eauto. eapply init_true_reach; eauto.
Qed.

Lemma inv_bal_safe : forall st ow us c, reach_safe st ow us c -> inv_bal c.
Proof.
  induction 1.
  - apply inv_bal_init.
  - split.
    + eapply init_true_step; eauto. apply IHreach_safe.
    + eapply balanced_step; eauto.
Qed.

(* The realistic schedule that breaks the balance (observed on the real server as a parked
   topicInit goroutine, init_topic.go:97, and a session blocked in inflightReqs.Add):
   session 1 attaches and leaves topic 1 (instance 0 idle); the owner (session 2) sends
   {del topic}; the idle timer of instance 0 fires (its unload message is queued BEHIND the
   delete); the hub deletes instance 0; session 1 subscribes again: instance 1 starts loading;
   the hub now handles the stale unload message, which names the topic, not the instance:
   instance 1 is marked deleted and gets an exit message; the load of instance 1 fails (the
   topic row is gone) and the failure path sends on the nil `done` channel of that exit. *)
Definition stale_unload_trace : list label :=
  [ClientSub 1 1 false; HubJoin; InitDone 0 true; TopicReg 0 true; ClientLeave 1 1 false false; TopicUnreg 0;
   ClientDel 2 1; IdleTimeout 0; HubUnreg true; ClientSub 1 1 false; HubJoin; HubUnreg true; InitDone 1 false].

Definition ex_owner (t : tid) : uid := 2.
Definition ex_user (s : sid) : uid := s.
Definition ex_stored (t : tid) : bool := Nat.eqb t 1.
Definition ex_chan (t : tid) : bool := false.

Lemma stale_unload_unbalanced :
  exists c, run stale_unload_trace (init_config ex_stored ex_owner ex_user ex_chan) = Some c /\
            s_inflight (c_sess c 1) = 1 /\ pending 1 c = 0.
Proof. eexists. split; [vm_compute; reflexivity|]. split; reflexivity. Qed.

Lemma run_reach : forall st ow us ls c c', reach st ow us c -> run ls c = Some c' -> reach st ow us c'.
Proof.
  induction ls as [|l r IH]; intros c c' Hr H; simpl in H.
  - inversion H; subst; auto.
  - destruct (exec l c) as [c1|] eqn:E; [|discriminate]. eapply IH; [|exact H]. econstructor; eauto.
Qed.

(* ---------- progress: the consumer of every queued request is enabled ---------- *)

Lemma hubjoin_enabled : forall c, c_hjoin c <> [] -> exists c', step c HubJoin c'.
Proof.
  intros c H. unfold step. simpl. destruct (c_hjoin c) as [|r rest]; [congruence|]. simpl.
  destruct (c_table _ _) as [i|]; [destruct (inactive _)|]; eauto.
Qed.

Lemma hubunreg_enabled : forall c, c_hunreg c <> [] -> exists c', step c (HubUnreg true) c'.
Proof.
  intros c H. unfold step. cbn [exec]. destruct (c_hunreg c) as [|[t|r] rest]; [congruence| |]; cbn [c_table set_hunreg c_inst c_store].
  - destruct (c_table _ _); eauto.
  - destruct (c_table _ _) as [i|]; [destruct (_ && _)|destruct (c_store _ _)]; eauto.
Qed.

Lemma topicreg_enabled : forall c i, i_phase (c_inst c i) = PRun -> has_tag i (c_treg c) = true ->
  exists c', step c (TopicReg i true) c'.
Proof.
  intros c i Hp Ht. unfold step. simpl. rewrite Hp. simpl.
  destruct (has_tag_take_first _ _ _ Ht) as (r & l' & ->). eauto.
Qed.

Lemma topicunreg_enabled : forall c i, i_phase (c_inst c i) = PRun -> has_tag i (c_tunreg c) = true ->
  exists c', step c (TopicUnreg i) c'.
Proof.
  intros c i Hp Ht. unfold step.
  destruct (has_tag_take_first _ _ _ Ht) as (r & l' & E).
  destruct (unreg_exec c i r l' E) as (aC & eR & ->).
  destruct (pre404_frame c r eR) as (Ei & _ & _ & _ & _ & _ & _ & Eu & _).
  unfold unreg_step. rewrite Ei, Eu, Hp, E. simpl. eauto.
Qed.

Lemma topicexit_enabled : forall c i, i_phase (c_inst c i) = PRun -> has_tag i (c_texit c) = true ->
  exists c', step c (TopicExit i) c'.
Proof.
  intros c i Hp Ht. unfold step. simpl. rewrite Hp. simpl.
  destruct (has_tag_take_first _ _ _ Ht) as (r & l' & ->). eauto.
Qed.

Lemma sessdetach_enabled : forall c s, s_detachq (c_sess c s) <> [] -> exists c', step c (SessDetach s) c'.
Proof.
  intros c s H. unfold step. simpl. destruct (s_detachq (c_sess c s)); [congruence|]. eauto.
Qed.

Lemma initdone_enabled : forall c i, i_phase (c_inst c i) = PInit -> has_tag i (c_inits c) = true ->
  exists c', step c (InitDone i false) c'.
Proof.
  intros c i Hp Ht. unfold step. simpl. rewrite Hp. simpl.
  destruct (has_tag_take_first _ _ _ Ht) as (r & l' & ->). simpl.
  unfold requeue_reg. simpl.
  destruct (drain_unreg _ _ _) as [u f]. simpl.
  destruct (take_first i (c_texit c)) as [[b e]|]; eauto.
Qed.

(* ---------- no deadlock in the model (modulo items left in queues nobody reads) ---------- *)

Definition quiescent (c : config) : Prop :=
  c_hjoin c = [] /\ c_hunreg c = [] /\ c_inits c = [] /\ c_treg c = [] /\ c_tunreg c = [] /\ c_texit c = [] /\
  forall s, s_detachq (c_sess c s) = [].

(* an item whose reader does not exist (any more): the run loop of the instance has returned
   (topic.go:586-588 returns right after handleTopicTermination; nothing drains reg/unreg/exit) *)
Definition no_dead_items (c : config) : Prop :=
  (forall x, In x (c_inits c) -> i_phase (c_inst c (fst x)) = PInit) /\
  (forall x, In x (c_treg c) -> i_phase (c_inst c (fst x)) <> PDead) /\
  (forall x, In x (c_tunreg c) -> i_phase (c_inst c (fst x)) <> PDead) /\
  (forall x, In x (c_texit c) -> i_phase (c_inst c (fst x)) <> PDead).

(* every instance being initialised has its topicInit goroutine *)
Definition init_has_goroutine (c : config) : Prop :=
  forall i, i_phase (c_inst c i) = PInit -> has_tag i (c_inits c) = true.

Lemma has_tag_take_other : forall (A : Type) i j (l : list (inst * A)) a l',
  take_first j l = Some (a, l') -> i <> j -> has_tag i l' = has_tag i l.
Proof.
  intros A i j l a l' H Hne. apply take_first_spec in H. destruct H as (l1 & l2 & -> & -> & _).
  rewrite !has_tag_app. simpl. destruct (Nat.eqb_spec i j); [contradiction|]. reflexivity.
Qed.

(* instances only leave PInit, and the goroutine of an instance that stays there is still listed *)
Lemma init_has_goroutine_mono : forall c c',
  (forall j, i_phase (c_inst c' j) = PInit -> i_phase (c_inst c j) = PInit /\ has_tag j (c_inits c') = has_tag j (c_inits c)) ->
  init_has_goroutine c -> init_has_goroutine c'.
Proof. intros c c' M H j Hj. destruct (M j Hj) as [A ->]. exact (H j A). Qed.

Ltac inst_cases j i := cfg_simpl; unfold upd; destruct (Nat.eqb_spec j i) as [->|];
  cbn [i_name i_sessions i_phase i_deleted i_chansub i_setphase i_setsessions i_setchansub i_setdeleted].

Lemma init_has_goroutine_step : forall c l c', init_has_goroutine c -> step c l c' -> init_has_goroutine c'.
Proof.
  intros c l c' H Hs. estep_cases Hs;
    try exact H.
  - intros j. cbn [c_inst c_inits set_inits set_next set_table set_inst]. unfold upd. rewrite has_tag_app.
    destruct (Nat.eqb_spec j (c_next c)) as [->|]; [intros _|intros Hj; rewrite (H j Hj); reflexivity].
    cbn. rewrite Nat.eqb_refl. apply orb_true_r.
  - apply (init_has_goroutine_mono c); auto. intros j. inst_cases j i; [discriminate|]. split; auto. eapply has_tag_take_other; eauto.
  - apply (init_has_goroutine_mono c); auto. intros j. inst_cases j i; [discriminate|]. split; auto. eapply has_tag_take_other; eauto.
  - apply (init_has_goroutine_mono c); auto. intros j. inst_cases j i; [discriminate|]. split; auto. eapply has_tag_take_other; eauto.
  - apply (init_has_goroutine_mono c); auto. intros j. inst_cases j i; [discriminate|]. split; auto. eapply has_tag_take_other; eauto.
  - apply (init_has_goroutine_mono c); auto. intros j. inst_cases j i; auto.
  - assert (H0 : init_has_goroutine (pre404 c r eR)).
    { intros j. destruct (pre404_frame c r eR) as (-> & _ & _ & _ & _ & -> & _). apply H. }
    destruct Hu; subst; try destruct (r_init r0); try exact H0;
      (eapply init_has_goroutine_mono; [|exact H0]; intros j; inst_cases j i; auto).
  - apply (init_has_goroutine_mono c); auto. intros j. inst_cases j i; auto.
  - apply (init_has_goroutine_mono c); auto. intros j. inst_cases j i; auto.
  - apply (init_has_goroutine_mono c); auto. intros j. inst_cases j i; auto.
  - apply (init_has_goroutine_mono c); auto. intros j. inst_cases j i; [discriminate|auto].
Qed.

Lemma init_has_goroutine_reach : forall st ow us c, reach st ow us c -> init_has_goroutine c.
Proof.
  induction 1.
  - intros i. simpl. discriminate.
  - eapply init_has_goroutine_step; eauto.
Qed.

Lemma tagged_item_progress : forall c, init_has_goroutine c ->
  forall (A : Type) (l : list (inst * A)) x,
  In x l -> i_phase (c_inst c (fst x)) <> PDead ->
  (i_phase (c_inst c (fst x)) = PRun -> has_tag (fst x) l = true -> exists lb c', step c lb c') ->
  exists lb c', step c lb c'.
Proof.
  intros c Hg A l x Hin Hnd Hrun.
  destruct (i_phase (c_inst c (fst x))) eqn:Ep; try congruence.
  - destruct (initdone_enabled c (fst x) Ep (Hg _ Ep)) as [c' Hc]. eauto.
  - apply Hrun; auto. apply in_has_tag. auto.
Qed.

Lemma nil_or_in : forall (A : Type) (l : list A), l = [] \/ exists x, In x l.
Proof. intros A [|x l]; [left; auto|right; exists x; left; auto]. Qed.

Lemma no_stuck_partial : forall st ow us c,
  reach st ow us c -> no_dead_items c -> (forall l c', ~ step c l c') -> quiescent c.
Proof.
  intros st ow us c Hr (D1 & D2 & D3 & D4) Hstuck.
  pose proof (init_has_goroutine_reach _ _ _ _ Hr) as Hg.
  assert (Hno : forall P : Prop, (exists lb c', step c lb c') -> P).
  { intros P (lb & c' & Hs). exfalso. eapply Hstuck; eauto. }
  unfold quiescent. repeat split.
  - destruct (c_hjoin c) eqn:E; auto. apply Hno.
    destruct (hubjoin_enabled c) as [c' Hc]; [congruence|eauto].
  - destruct (c_hunreg c) eqn:E; auto. apply Hno.
    destruct (hubunreg_enabled c) as [c' Hc]; [congruence|eauto].
  - destruct (nil_or_in _ (c_inits c)) as [E|[x Hin]]; auto. apply Hno.
    destruct (initdone_enabled c (fst x) (D1 _ Hin) (in_has_tag _ _ _ Hin)) as [c' Hc]. eauto.
  - destruct (nil_or_in _ (c_treg c)) as [E|[x Hin]]; auto. apply Hno.
    eapply (tagged_item_progress c Hg _ _ x Hin (D2 _ Hin)).
    intros Hp Ht. destruct (topicreg_enabled c _ Hp Ht) as [c' Hc]. eauto.
  - destruct (nil_or_in _ (c_tunreg c)) as [E|[x Hin]]; auto. apply Hno.
    eapply (tagged_item_progress c Hg _ _ x Hin (D3 _ Hin)).
    intros Hp Ht. destruct (topicunreg_enabled c _ Hp Ht) as [c' Hc]. eauto.
  - destruct (nil_or_in _ (c_texit c)) as [E|[x Hin]]; auto. apply Hno.
    eapply (tagged_item_progress c Hg _ _ x Hin (D4 _ Hin)).
    intros Hp Ht. destruct (topicexit_enabled c _ Hp Ht) as [c' Hc]. eauto.
  - intros s. destruct (s_detachq (c_sess c s)) eqn:E; auto. apply Hno.
    destruct (sessdetach_enabled c s) as [c' Hc]; [congruence|eauto].
Qed.

(* The lost leave: the topic exits while the session still holds its subscription (the detach
   notice is waiting in Session.detach); the session's {leave} goes to the unreg channel of the
   instance whose run loop has returned.  Nothing is enabled any more, yet the request is still
   queued and the session's in-flight semaphore stays taken. *)
Definition lost_leave_trace : list label :=
  [ClientSub 1 1 false; HubJoin; InitDone 0 true; TopicReg 0 true;
   ClientDel 2 1; HubUnreg true; TopicExit 0; ClientLeave 1 1 false false; SessDetach 1].

Lemma lost_leave_stuck :
  exists c, run lost_leave_trace (init_config ex_stored ex_owner ex_user ex_chan) = Some c /\
            c_tunreg c <> [] /\ s_inflight (c_sess c 1) = 1 /\
            c_hjoin c = [] /\ c_hunreg c = [] /\ c_inits c = [] /\ c_treg c = [] /\ c_texit c = [] /\
            i_phase (c_inst c 0) = PDead /\ (forall x, In x (c_tunreg c) -> fst x = 0).
Proof.
  eexists. split; [vm_compute; reflexivity|]. simpl.
  repeat split; try discriminate; auto.
  intros x [<-|[]]. reflexivity.
Qed.
