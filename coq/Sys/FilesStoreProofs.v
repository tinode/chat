(* Lemmas about the store slice of Sys/Files.v: invariants over all histories,
   exactness of garbage collection, links kept while the parent exists. *)
From Coq Require Import NArith ZArith List Bool Lia.
From Tinode Require Import Pure.Url Sys.Files Sys.FilesGateProofs.
Import ListNotations.

(* ---- list helpers ---- *)
Lemma memN_In : forall x l, memN x l = true <-> In x l.
Proof.
  intros x l. unfold memN. rewrite existsb_exists. split.
  - intros [y [Hy He]]. apply N.eqb_eq in He. subst. exact Hy.
  - intros H. exists x. split; [exact H|apply N.eqb_refl].
Qed.

Lemma memN_false : forall x l, memN x l = false <-> ~ In x l.
Proof.
  intros x l. split.
  - intros H Hin. apply memN_In in Hin. congruence.
  - intros H. destruct (memN x l) eqn:E; [|reflexivity]. apply memN_In in E. contradiction.
Qed.

Lemma NoDup_snoc : forall (A : Type) (l : list A) (x : A), NoDup l -> ~ In x l -> NoDup (l ++ [x]).
Proof.
  intros A l x H Hx. apply (NoDup_Add (Add_app x l [])). rewrite app_nil_r. split; assumption.
Qed.

Lemma in_map_filter : forall (A : Type) (k : A -> N) (p : N -> bool) (l : list A) (d : N),
  In d (map k (filter (fun a => p (k a)) l)) <-> In d (map k l) /\ p d = true.
Proof.
  intros A k p l d. rewrite !in_map_iff. split.
  - intros [a [Hk Hin]]. apply filter_In in Hin. destruct Hin as [Hin Hp]. subst.
    split; [exists a; split; [reflexivity|exact Hin]|exact Hp].
  - intros [[a [Hk Hin]] Hp]. subst. exists a. split; [reflexivity|].
    apply filter_In. split; assumption.
Qed.

Lemma NoDup_map_filter : forall (A B : Type) (k : A -> B) (p : A -> bool) (l : list A),
  NoDup (map k l) -> NoDup (map k (filter p l)).
Proof.
  induction l as [|a l IH]; intros H; cbn [filter map]; [constructor|].
  cbn [map] in H. inversion H as [|? ? Ha Hl]; subst.
  destruct (p a); [|apply IH; exact Hl].
  cbn [map]. constructor; [|apply IH; exact Hl].
  intros Hin. apply Ha. apply in_map_iff in Hin. destruct Hin as [b [Hb Hin]].
  apply filter_In in Hin. destruct Hin as [Hin _]. apply in_map_iff. exists b. split; assumption.
Qed.

Lemma NoDup_map_inj : forall (A B : Type) (k : A -> B) (l : list A) (a b : A),
  NoDup (map k l) -> In a l -> In b l -> k a = k b -> a = b.
Proof.
  induction l as [|x l IH]; intros a b Hnd Ha Hb Hk; [destruct Ha|].
  cbn [map] in Hnd. inversion Hnd as [|? ? Hx Hl]; subst.
  destruct Ha as [Ha|Ha]; destruct Hb as [Hb|Hb]; subst.
  - reflexivity.
  - exfalso. apply Hx. rewrite Hk. apply in_map. exact Hb.
  - exfalso. apply Hx. rewrite <- Hk. apply in_map. exact Ha.
  - apply IH; assumption.
Qed.

Lemma firstn_In : forall (A : Type) (n : nat) (l : list A) (x : A), In x (firstn n l) -> In x l.
Proof.
  induction n as [|n IH]; intros l x H; [destruct H|].
  destruct l as [|a l]; [destruct H|]. cbn [firstn] in H. destruct H as [H|H]; [left; exact H|right; apply IH; exact H].
Qed.

(* ---- find_file / is_done ---- *)
Lemma find_file_filter : forall (p : N -> bool) (l : list file) (f : N),
  p f = true -> find_file f (filter (fun g => p (f_id g)) l) = find_file f l.
Proof.
  intros p l f Hp. unfold find_file. induction l as [|g l IH]; [reflexivity|].
  cbn [filter find]. destruct (p (f_id g)) eqn:Eg.
  - cbn [find]. destruct (f_id g =? f)%N; [reflexivity|exact IH].
  - destruct (f_id g =? f)%N eqn:Ef; [|exact IH].
    apply N.eqb_eq in Ef. subst. congruence.
Qed.

Lemma find_file_in : forall l f g, find_file f l = Some g -> In g l /\ f_id g = f.
Proof.
  intros l f g H. unfold find_file in H. apply find_some in H. destruct H as [H1 H2].
  apply N.eqb_eq in H2. split; assumption.
Qed.

Lemma is_done_app : forall l l' f, is_done f l = true -> is_done f (l ++ l') = true.
Proof.
  intros l l' f. unfold is_done, find_file. induction l as [|g l IH]; intros H; [discriminate|].
  cbn [app find] in *. destruct (f_id g =? f)%N; [exact H|apply IH; exact H].
Qed.

Lemma is_done_finish : forall l fid now f,
  is_done f l = true ->
  is_done f (map (fun g => if (f_id g =? fid)%N
                           then {| f_id := fid; f_done := true; f_upd := now; f_mime := f_mime g |}
                           else g) l) = true.
Proof.
  intros l fid now f. unfold is_done, find_file. induction l as [|g l IH]; intros H; [discriminate|].
  cbn [map find] in *.
  destruct (f_id g =? fid)%N eqn:Eg.
  - cbn [f_id]. apply N.eqb_eq in Eg. subst fid.
    destruct (f_id g =? f)%N; [reflexivity|apply IH; exact H].
  - destruct (f_id g =? f)%N; [exact H|apply IH; exact H].
Qed.

Lemma ids_finish : forall l fid now,
  map f_id (map (fun g => if (f_id g =? fid)%N
                          then {| f_id := fid; f_done := true; f_upd := now; f_mime := f_mime g |}
                          else g) l) = map f_id l.
Proof.
  intros l fid now. rewrite map_map. apply map_ext_in. intros g _.
  destruct (f_id g =? fid)%N eqn:E; [|reflexivity]. cbn [f_id]. apply N.eqb_eq in E. congruence.
Qed.

Lemma is_done_in_ids : forall l f, is_done f l = true -> In f (map f_id l).
Proof.
  intros l f H. unfold is_done in H. destruct (find_file f l) as [g|] eqn:E; [|discriminate].
  apply find_file_in in E. destruct E as [Hin Hid]. subst. apply in_map. exact Hin.
Qed.

Lemma find_file_filter_none : forall (p : N -> bool) (l : list file) (f : N),
  p f = false -> find_file f (filter (fun g => p (f_id g)) l) = None.
Proof.
  intros p l f Hp. unfold find_file. induction l as [|g l IH]; [reflexivity|].
  cbn [filter]. destruct (p (f_id g)) eqn:Eg; [|exact IH].
  cbn [find]. destruct (f_id g =? f)%N eqn:Ef; [|exact IH].
  apply N.eqb_eq in Ef. subst. congruence.
Qed.

Lemma is_done_filter : forall (p : N -> bool) (l : list file) (f : N),
  is_done f (filter (fun g => p (f_id g)) l) = true -> p f = true /\ is_done f l = true.
Proof.
  intros p l f H. unfold is_done in *. destruct (p f) eqn:Ep.
  - rewrite (find_file_filter p l f Ep) in H. split; [reflexivity|exact H].
  - rewrite (find_file_filter_none p l f Ep) in H. discriminate.
Qed.

Lemma is_done_snoc_inv : forall l g f,
  f_done g = false -> is_done f (l ++ [g]) = true -> is_done f l = true.
Proof.
  intros l g f Hg. unfold is_done, find_file. induction l as [|x l IH]; intros H.
  - cbn [app find] in H. destruct (f_id g =? f)%N; [congruence|discriminate].
  - cbn [app find] in *. destruct (f_id x =? f)%N; [exact H|apply IH; exact H].
Qed.

Lemma is_done_finish_inv : forall l fid now f,
  is_done f (map (fun g => if (f_id g =? fid)%N
                           then {| f_id := fid; f_done := true; f_upd := now; f_mime := f_mime g |}
                           else g) l) = true ->
  f = fid \/ is_done f l = true.
Proof.
  intros l fid now f. unfold is_done, find_file. induction l as [|g l IH]; intros H; [discriminate|].
  cbn [map find] in *.
  destruct (f_id g =? fid)%N eqn:Eg.
  - cbn [f_id] in H. apply N.eqb_eq in Eg.
    destruct (fid =? f)%N eqn:Ef.
    + left. apply N.eqb_eq in Ef. congruence.
    + rewrite Eg, Ef. apply IH. exact H.
  - destruct (f_id g =? f)%N; [right; exact H|apply IH; exact H].
Qed.

Lemma filter_all : forall (A : Type) (p : A -> bool) (l : list A),
  (forall x, In x l -> p x = true) -> filter p l = l.
Proof.
  induction l as [|a l IH]; intros H; [reflexivity|]. cbn [filter].
  rewrite (H a (or_introl eq_refl)). f_equal. apply IH. intros x Hx. apply H. right. exact Hx.
Qed.

(* ---- link_single does not touch files, disk, msgs, topics, users ---- *)
Lemma link_single_files : forall s tg fids, files (link_single s tg fids) = files s.
Proof. intros s tg [|f r]; [reflexivity|]. unfold link_single. destruct (_ && _); reflexivity. Qed.
Lemma link_single_disk : forall s tg fids, disk (link_single s tg fids) = disk s.
Proof. intros s tg [|f r]; [reflexivity|]. unfold link_single. destruct (_ && _); reflexivity. Qed.
Lemma link_single_msgs : forall s tg fids, msgs (link_single s tg fids) = msgs s.
Proof. intros s tg [|f r]; [reflexivity|]. unfold link_single. destruct (_ && _); reflexivity. Qed.
Lemma link_single_topics : forall s tg fids, topics (link_single s tg fids) = topics s.
Proof. intros s tg [|f r]; [reflexivity|]. unfold link_single. destruct (_ && _); reflexivity. Qed.
Lemma link_single_users : forall s tg fids, users (link_single s tg fids) = users s.
Proof. intros s tg [|f r]; [reflexivity|]. unfold link_single. destruct (_ && _); reflexivity. Qed.
Lemma link_single_next : forall s tg fids, next_mid (link_single s tg fids) = next_mid s.
Proof. intros s tg [|f r]; [reflexivity|]. unfold link_single. destruct (_ && _); reflexivity. Qed.

(* ---- GC candidates ---- *)
Lemma gc_removed_sub : forall s older limit g,
  In g (gc_removed s older limit) ->
  In g (files s) /\ linked (f_id g) (links s) = false /\ gc_older_ok older g = true.
Proof.
  intros s older limit g H. unfold gc_removed in H.
  assert (Hc : In g (filter (gc_candidate s older) (files s))).
  { destruct (0 <? limit)%Z; [apply firstn_In in H; exact H|exact H]. }
  apply filter_In in Hc. destruct Hc as [Hin Hc]. unfold gc_candidate in Hc.
  apply andb_true_iff in Hc. destruct Hc as [Hl Ho].
  split; [exact Hin|]. split; [|exact Ho].
  destruct (linked (f_id g) (links s)); [discriminate|reflexivity].
Qed.

Lemma linked_In : forall f t ls, In (f, t) ls -> linked f ls = true.
Proof.
  intros f t ls H. unfold linked. apply existsb_exists. exists (f, t). split; [exact H|apply N.eqb_refl].
Qed.

Lemma linked_not_removed : forall s older limit f t,
  In (f, t) (links s) -> memN f (map f_id (gc_removed s older limit)) = false.
Proof.
  intros s older limit f t H. apply memN_false. intros Hin.
  apply in_map_iff in Hin. destruct Hin as [g [Hg Hin]].
  apply gc_removed_sub in Hin. destruct Hin as [_ [Hl _]].
  subst. rewrite (linked_In _ _ _ H) in Hl. discriminate.
Qed.

(* ------------------------------------------------------------------ *)
(* invariants                                                           *)

Definition inv_ids (s : state) : Prop := NoDup (file_ids s).
(* stored bytes belong to upload records; every completed upload has its bytes (a record in
   status 'started' may have lost them: failed FinishUpload) *)
Definition inv_disk (s : state) : Prop :=
  (forall d, In d (disk s) -> In d (file_ids s)) /\
  (forall f, is_done f (files s) = true -> In f (disk s)).
Definition inv_msgs (s : state) : Prop :=
  NoDup (map fst (msgs s)) /\ forall m, In m (map fst (msgs s)) -> (m < next_mid s)%N.
Definition inv_links (s : state) : Prop :=
  forall f t, In (f, t) (links s) -> In f (file_ids s) /\ target_live s t = true.
Definition inv_att (s : state) : Prop :=
  forall f t, In (f, t) (att s) -> In (f, t) (links s) /\ is_done f (files s) = true.

(* What an operation does to the upload records and the stored bytes: nothing, or one of five changes,
   each with the guard under which [step] makes it. *)
Inductive files_step (s : state) : op -> list file -> list N -> Prop :=
| FS_same : forall o, files_step s o (files s) (disk s)
| FS_start : forall fid now mime, memN fid (file_ids s) = false -> fid <> 0%N ->
    files_step s (OStart fid now mime)
      (files s ++ [{| f_id := fid; f_done := false; f_upd := now; f_mime := mime |}]) (fid :: disk s)
| FS_done : forall fid now g, find_file fid (files s) = Some g -> f_done g = false -> memN fid (disk s) = true ->
    files_step s (OFinish fid true now)
      (map (fun g => if (f_id g =? fid)%N then {| f_id := fid; f_done := true; f_upd := now; f_mime := f_mime g |} else g)
           (files s)) (disk s)
| FS_fail : forall fid now g, find_file fid (files s) = Some g -> f_done g = false ->
    files_step s (OFinish fid false now)
      (filter (fun g => negb (f_id g =? fid)%N) (files s)) (filter (fun d => negb (d =? fid)%N) (disk s))
| FS_gc : forall older limit,
    files_step s (OGC older limit)
      (filter (fun f => negb (memN (f_id f) (map f_id (gc_removed s older limit)))) (files s))
      (filter (fun d => negb (memN d (map f_id (gc_removed s older limit)))) (disk s))
| FS_drop : forall fid, is_done fid (files s) = false ->
    files_step s (ODropBytes fid) (files s) (filter (fun d => negb (d =? fid)%N) (disk s)).

Lemma files_step_step : forall s o, files_step s o (files (step s o)) (disk (step s o)).
Proof.
  intros s o. destruct o; cbn [step]; try rewrite link_single_files, link_single_disk; cbn [files disk]; try apply FS_same.
  - destruct (memN fid (file_ids s)) eqn:E1; [apply FS_same|]. destruct (N.eqb_spec fid 0); [apply FS_same|].
    cbn [orb files disk]. now apply FS_start.
  - destruct (find_file fid (files s)) as [g|] eqn:Eg; [|apply FS_same].
    destruct (f_done g) eqn:Ed; [apply FS_same|]. destruct ok; [|cbn [files disk]; now apply FS_fail with g].
    destruct (memN fid (disk s)) eqn:Em; [|apply FS_same]. unfold set_files. cbn [files disk]. now apply FS_done with g.
  - destruct (memN t (topics s)); cbn [files disk]; apply FS_same.
  - destruct (memN u (users s)); cbn [files disk]; apply FS_same.
  - destruct (memN topic (topics s)); cbn [files disk]; apply FS_same.
  - cbn [files disk]. apply FS_gc.
  - destruct (is_done fid (files s)) eqn:E; [apply FS_same|]. cbn [files disk]. now apply FS_drop.
Qed.

Lemma step_inv_ids : forall s o, inv_ids s -> inv_ids (step s o).
Proof.
  intros s o H. unfold inv_ids, file_ids in *. destruct (files_step_step s o) as [o|fid now mime Hf _|fid now g _ _ _|fid now g _ _|older limit|fid _]; try exact H.
  - rewrite map_app. apply NoDup_snoc; [exact H|]. apply memN_false. exact Hf.
  - rewrite ids_finish. exact H.
  - apply NoDup_map_filter. exact H.
  - apply NoDup_map_filter. exact H.
Qed.

(* removing the records and the bytes of the same ids *)
Lemma inv_disk_filter : forall (keep : N -> bool) fs ds,
  (forall d, In d ds -> In d (map f_id fs)) -> (forall f, is_done f fs = true -> In f ds) ->
  (forall d, In d (filter keep ds) -> In d (map f_id (filter (fun f => keep (f_id f)) fs))) /\
  (forall f, is_done f (filter (fun f => keep (f_id f)) fs) = true -> In f (filter keep ds)).
Proof.
  intros keep fs ds Ha Hb. split.
  - intros d Hd. apply filter_In in Hd. destruct Hd as [Hd Hk].
    apply (in_map_filter file f_id keep). split; [apply Ha; exact Hd|exact Hk].
  - intros f Hf. apply (is_done_filter keep) in Hf. destruct Hf as [Hk Hf].
    apply filter_In. split; [apply Hb; exact Hf|exact Hk].
Qed.

Lemma step_inv_disk : forall s o, inv_disk s -> inv_disk (step s o).
Proof.
  intros s o [Ha Hb]. unfold inv_disk, file_ids in *.
  destruct (files_step_step s o) as [o|fid now mime _ _|fid now g _ _ Ed|fid now g _ _|older limit|fid Ed].
  - split; assumption.
  - split.
    + intros d Hd. rewrite map_app, in_app_iff. cbn [map f_id In].
      destruct Hd as [Hd|Hd]; [right; left; exact Hd|left; apply Ha; exact Hd].
    + intros f Hf. right. apply Hb. eapply is_done_snoc_inv; [|exact Hf]. reflexivity.
  - rewrite ids_finish. split; [exact Ha|].
    intros f0 Hf0. apply is_done_finish_inv in Hf0. destruct Hf0 as [Hf0|Hf0].
    + subst f0. apply memN_In. exact Ed.
    + apply Hb. exact Hf0.
  - exact (inv_disk_filter (fun x => negb (x =? fid)%N) _ _ Ha Hb).
  - exact (inv_disk_filter (fun x => negb (memN x (map f_id (gc_removed s older limit)))) _ _ Ha Hb).
  - split.
    + intros d Hd. apply filter_In in Hd. apply Ha. tauto.
    + intros f0 Hf0. apply filter_In. split; [apply Hb; exact Hf0|].
      apply negb_true_iff. apply N.eqb_neq. intros ->. congruence.
Qed.

(* What an operation does to the message rows: nothing, one new row with the next id, or some rows deleted *)
Inductive msgs_step (s : state) : list (N * N) -> N -> Prop :=
| MS_same : msgs_step s (msgs s) (next_mid s)
| MS_publish : forall topic, msgs_step s ((next_mid s, topic) :: msgs s) (N.succ (next_mid s))
| MS_delete : forall keep, msgs_step s (filter keep (msgs s)) (next_mid s).

Lemma msgs_step_step : forall s o, msgs_step s (msgs (step s o)) (next_mid (step s o)).
Proof.
  intros s o. destruct o; cbn [step]; try rewrite link_single_msgs, link_single_next;
  [ destruct (_ || _)
  | destruct (find_file fid (files s)) as [f|]; [destruct (f_done f); [|destruct ok; [destruct (memN fid (disk s))|]]|]
  | destruct (memN t (topics s)) | destruct (memN u (users s)) | destruct (memN topic (topics s))
  | | | | | | | destruct (is_done fid (files s)) ];
  cbn [msgs next_mid set_files]; first [apply MS_same | apply MS_publish | apply MS_delete].
Qed.

Lemma step_next_mid_mono : forall s o, (next_mid s <= next_mid (step s o))%N.
Proof. intros s o. destruct (msgs_step_step s o); lia. Qed.

Lemma step_inv_msgs : forall s o, inv_msgs s -> inv_msgs (step s o).
Proof.
  intros s o [Hnd Hlt]. unfold inv_msgs. destruct (msgs_step_step s o) as [|topic|keep].
  - split; assumption.
  - cbn [map fst]. split.
    + constructor; [|exact Hnd]. intros Hin. apply Hlt in Hin. lia.
    + intros m [Hm|Hm]; [subst; lia|]. apply Hlt in Hm. lia.
  - split; [apply NoDup_map_filter; exact Hnd|].
    intros m Hm. apply Hlt. apply in_map_iff in Hm. destruct Hm as [x [Hx Hin]].
    apply filter_In in Hin. destruct Hin as [Hin _]. apply in_map_iff. exists x. split; assumption.
Qed.

(* ---- links point to existing records and existing parents ---- *)
Lemma target_live_ext : forall s s' t,
  msgs s' = msgs s -> topics s' = topics s -> users s' = users s -> target_live s' t = target_live s t.
Proof. intros s s' t H1 H2 H3. unfold target_live. rewrite H1, H2, H3. reflexivity. Qed.

Ltac live_same := unfold target_live in *; cbn [msgs topics users set_files] in *.

Lemma memN_cons : forall x a l, memN x (a :: l) = ((x =? a)%N || memN x l).
Proof. reflexivity. Qed.

Lemma in_fst_find : forall (m : N) (ms : list (N * N)),
  In m (map fst ms) -> exists y, find (fun x => (fst x =? m)%N) ms = Some y /\ In y ms /\ fst y = m.
Proof.
  intros m ms H. destruct (find (fun x => (fst x =? m)%N) ms) as [y|] eqn:E.
  - exists y. split; [reflexivity|]. apply find_some in E. destruct E as [E1 E2].
    apply N.eqb_eq in E2. split; assumption.
  - exfalso. apply in_map_iff in H. destruct H as [x [Hx Hin]].
    pose proof (find_none _ _ E x Hin) as Hn. cbv beta in Hn. rewrite Hx, N.eqb_refl in Hn. discriminate.
Qed.

Lemma link_single_inv_links : forall s tg fids, inv_links s -> inv_links (link_single s tg fids).
Proof.
  intros s tg fids H. unfold link_single. destruct fids as [|f r]; [exact H|].
  destruct (memN f (file_ids s) && target_live s tg) eqn:E; [|exact H].
  apply andb_true_iff in E. destruct E as [E1 E2].
  intros f0 t Hin. cbn [links] in Hin. unfold file_ids. cbn [files].
  live_same.
  apply in_app_iff in Hin. destruct Hin as [Hin|[Hin|[]]].
  - apply filter_In in Hin. destruct Hin as [Hin _]. exact (H f0 t Hin).
  - inversion Hin; subst. split; [apply memN_In; exact E1|exact E2].
Qed.

Lemma step_inv_links : forall s o, inv_links s -> inv_links (step s o).
Proof.
  intros s o H. destruct o; cbn [step].
  - (* OStart *)
    destruct (_ || _); [exact H|]. intros f t Hin. cbn [links] in Hin.
    destruct (H f t Hin) as [H1 H2]. unfold file_ids. cbn [files]. split.
    + rewrite map_app. apply in_app_iff. left. exact H1.
    + live_same. exact H2.
  - (* OFinish *)
    destruct (find_file fid (files s)) as [g|]; [|exact H].
    destruct (f_done g); [exact H|]. destruct ok.
    + destruct (memN fid (disk s)); [|exact H].
      intros f t Hin. unfold set_files in *. cbn [links] in Hin. destruct (H f t Hin) as [H1 H2].
      unfold file_ids. cbn [files]. rewrite ids_finish. split; [exact H1|].
      live_same. exact H2.
    + intros f t Hin. cbn [links] in Hin. apply filter_In in Hin. destruct Hin as [Hin Hne].
      cbn [fst] in Hne. destruct (H f t Hin) as [H1 H2]. unfold file_ids. cbn [files]. split.
      * apply (in_map_filter file f_id (fun x => negb (x =? fid)%N)). split; assumption.
      * live_same. exact H2.
  - (* OAddTopic *)
    destruct (memN t (topics s)); [exact H|]. intros f tg Hin. cbn [links] in Hin.
    destruct (H f tg Hin) as [H1 H2]. split; [exact H1|].
    destruct tg; unfold target_live in *; cbn [msgs topics users] in *; try exact H2.
    rewrite memN_cons, H2. apply orb_true_r.
  - (* OAddUser *)
    destruct (memN u (users s)); [exact H|]. intros f tg Hin. cbn [links] in Hin.
    destruct (H f tg Hin) as [H1 H2]. split; [exact H1|].
    destruct tg; unfold target_live in *; cbn [msgs topics users] in *; try exact H2.
    rewrite memN_cons, H2. apply orb_true_r.
  - (* OPublish *)
    destruct (memN topic (topics s)); [|exact H]. cbv zeta. intros f tg Hin. cbn [links] in Hin.
    unfold file_ids. cbn [files].
    apply in_app_iff in Hin. destruct Hin as [Hin|Hin].
    + destruct (H f tg Hin) as [H1 H2]. split; [exact H1|].
      destruct tg; unfold target_live in *; cbn [msgs topics users map fst] in *; try exact H2.
      rewrite memN_cons, H2. apply orb_true_r.
    + destruct (match fids with [] => false | _ :: _ => forallb (fun f0 => memN f0 (file_ids s)) fids end) eqn:Eok;
        [|destruct Hin].
      apply in_map_iff in Hin. destruct Hin as [f0 [Hf0 Hin]]. inversion Hf0; subst.
      split.
      * destruct fids as [|a r]; [discriminate|].
        rewrite forallb_forall in Eok. apply memN_In. apply Eok. exact Hin.
      * unfold target_live. cbn [msgs map fst]. rewrite memN_cons, N.eqb_refl. reflexivity.
  - apply link_single_inv_links. exact H.
  - apply link_single_inv_links. exact H.
  - (* ODelMsgs *)
    intros f tg Hin. cbn [links] in Hin. unfold drop_target in Hin. apply filter_In in Hin.
    destruct Hin as [Hin Hk]. cbn [snd] in Hk. destruct (H f tg Hin) as [H1 H2].
    split; [exact H1|].
    destruct tg as [m|x|x]; unfold target_live in *; cbn [msgs topics users] in *; try exact H2.
    apply memN_In. apply memN_In in H2.
    apply (in_map_filter (N * N) fst (fun x => negb (memN x mids))). split; [exact H2|exact Hk].
  - (* ODelTopic *)
    intros f tg Hin. cbn [links] in Hin. unfold drop_target in Hin. apply filter_In in Hin.
    destruct Hin as [Hin Hk]. cbn [snd] in Hk. destruct (H f tg Hin) as [H1 H2].
    split; [exact H1|].
    destruct tg as [m|x|x]; unfold target_live in *; cbn [msgs topics users] in *; try exact H2.
    + apply memN_In. apply memN_In in H2.
      destruct (in_fst_find m (msgs s) H2) as [y [Hf [Hy Hm]]].
      unfold msg_topic in Hk. rewrite Hf in Hk.
      apply in_map_iff. exists y. split; [exact Hm|]. apply filter_In. split; [exact Hy|exact Hk].
    + apply memN_In. apply memN_In in H2. apply filter_In. split; [exact H2|exact Hk].
  - (* ODelUser *)
    intros f tg Hin. cbn [links] in Hin. unfold drop_target in Hin. apply filter_In in Hin.
    destruct Hin as [Hin Hk]. cbn [snd] in Hk. destruct (H f tg Hin) as [H1 H2].
    split; [exact H1|].
    destruct tg as [m|x|x]; unfold target_live in *; cbn [msgs topics users] in *; try exact H2.
    apply memN_In. apply memN_In in H2. apply filter_In. split; [exact H2|exact Hk].
  - (* OGC *)
    intros f tg Hin. cbn [links] in Hin. destruct (H f tg Hin) as [H1 H2].
    unfold file_ids. cbn [files]. split.
    + apply (in_map_filter file f_id (fun x => negb (memN x (map f_id (gc_removed s older limit))))).
      split; [exact H1|]. rewrite (linked_not_removed s older limit f tg Hin). reflexivity.
    + live_same. exact H2.
  - (* ODropBytes *)
    destruct (is_done fid (files s)); exact H.
Qed.

(* ---- accepted attachments of completed uploads stay linked ---- *)
Lemma link_single_inv_att : forall s tg fids, inv_att s -> inv_att (link_single s tg fids).
Proof.
  intros s tg fids H. unfold link_single. destruct fids as [|f r]; [exact H|].
  destruct (memN f (file_ids s) && target_live s tg); [|exact H].
  intros f0 t Hin. cbn [att links files] in *.
  apply in_app_iff in Hin. destruct Hin as [Hin|Hin].
  - apply filter_In in Hin. destruct Hin as [Hin Hk]. destruct (H f0 t Hin) as [H1 H2].
    split; [|exact H2]. apply in_app_iff. left. apply filter_In. split; assumption.
  - destruct (is_done f (files s)) eqn:Ed; [|destruct Hin].
    destruct Hin as [Hin|[]]. inversion Hin; subst. split; [|exact Ed].
    apply in_app_iff. right. left. reflexivity.
Qed.

Lemma drop_att : forall s gone f t,
  inv_att s -> In (f, t) (drop_target gone (att s)) ->
  In (f, t) (drop_target gone (links s)) /\ is_done f (files s) = true.
Proof.
  intros s gone f t H Hin. unfold drop_target in *. apply filter_In in Hin. destruct Hin as [Hin Hk].
  destruct (H f t Hin) as [H1 H2]. split; [|exact H2]. apply filter_In. split; assumption.
Qed.

Lemma step_inv_att : forall s o, inv_att s -> inv_att (step s o).
Proof.
  intros s o H. destruct o; cbn [step].
  - destruct (_ || _); [exact H|]. intros f t Hin. cbn [att links files] in *.
    destruct (H f t Hin) as [H1 H2]. split; [exact H1|apply is_done_app; exact H2].
  - destruct (find_file fid (files s)) as [g|] eqn:Eg; [|exact H].
    destruct (f_done g) eqn:Edg; [exact H|]. destruct ok.
    + destruct (memN fid (disk s)); [|exact H].
      intros f t Hin. unfold set_files in *. cbn [att links files] in *.
      destruct (H f t Hin) as [H1 H2]. split; [exact H1|apply is_done_finish; exact H2].
    + intros f t Hin. cbn [att links files] in *. destruct (H f t Hin) as [H1 H2].
      assert (Hne : negb (f =? fid)%N = true).
      { destruct (f =? fid)%N eqn:E; [|reflexivity]. apply N.eqb_eq in E. subst f.
        unfold is_done in H2. rewrite Eg in H2. congruence. }
      split.
      * apply filter_In. split; [exact H1|exact Hne].
      * unfold is_done. rewrite (find_file_filter (fun x => negb (x =? fid)%N) (files s) f Hne). exact H2.
  - destruct (memN t (topics s)); exact H.
  - destruct (memN u (users s)); exact H.
  - destruct (memN topic (topics s)); [|exact H]. cbv zeta. intros f t Hin. cbn [att links files] in *.
    apply in_app_iff in Hin. destruct Hin as [Hin|Hin].
    + destruct (H f t Hin) as [H1 H2]. split; [apply in_app_iff; left; exact H1|exact H2].
    + destruct (match fids with [] => false | _ :: _ => forallb (fun f0 => memN f0 (file_ids s)) fids end);
        [|destruct Hin].
      apply in_map_iff in Hin. destruct Hin as [f0 [Hf0 Hin]]. inversion Hf0; subst.
      apply filter_In in Hin. destruct Hin as [Hin Hd]. split; [|exact Hd].
      apply in_app_iff. right. apply in_map_iff. exists f. split; [reflexivity|exact Hin].
  - apply link_single_inv_att. exact H.
  - apply link_single_inv_att. exact H.
  - intros f tg Hin. cbn [att links files] in *. exact (drop_att s _ f tg H Hin).
  - intros f tg Hin. cbn [att links files] in *. exact (drop_att s _ f tg H Hin).
  - intros f tg Hin. cbn [att links files] in *. exact (drop_att s _ f tg H Hin).
  - intros f tg Hin. cbn [att links files] in *. destruct (H f tg Hin) as [H1 H2].
    split; [exact H1|].
    unfold is_done.
    rewrite (find_file_filter (fun x => negb (memN x (map f_id (gc_removed s older limit)))) (files s) f).
    + exact H2.
    + rewrite (linked_not_removed s older limit f tg H1). reflexivity.
  - destruct (is_done fid (files s)); exact H.
Qed.

(* ---- every history ---- *)
Definition inv (s : state) : Prop :=
  inv_ids s /\ inv_disk s /\ inv_msgs s /\ inv_links s /\ inv_att s.

Lemma inv_init : inv init.
Proof.
  unfold inv, inv_ids, inv_disk, inv_msgs, inv_links, inv_att, init, file_ids. cbn.
  repeat split; try constructor; try tauto; intros; try contradiction; discriminate.
Qed.

Lemma inv_step : forall s o, inv s -> inv (step s o).
Proof.
  intros s o [H1 [H2 [H3 [H4 H5]]]].
  unfold inv. split; [apply step_inv_ids; exact H1|]. split; [apply step_inv_disk; exact H2|].
  split; [apply step_inv_msgs; exact H3|]. split; [apply step_inv_links; exact H4|apply step_inv_att; exact H5].
Qed.

Lemma inv_run_from : forall h s, inv s -> inv (run_from s h).
Proof.
  induction h as [|o h IH]; intros s H; [exact H|]. cbn [run_from fold_left]. apply IH. apply inv_step. exact H.
Qed.

Lemma inv_run : forall h, inv (run h).
Proof. intros h. apply (inv_run_from h init). exact inv_init. Qed.

(* ------------------------------------------------------------------ *)
(* garbage collection is exact                                          *)

Lemma gc_exact_step : forall s older limit,
  inv_ids s ->
  let s' := step s (OGC older limit) in
  let rem := gc_removed s older limit in
  (forall f, In f (files s) -> (In f (files s') <-> ~ In f rem)) /\
  (forall f, In f (files s') -> In f (files s)) /\
  (forall f, In f rem ->
     In f (files s) /\ linked (f_id f) (links s) = false /\ gc_older_ok older f = true) /\
  ((limit <= 0)%Z -> forall f, In f (files s) -> linked (f_id f) (links s) = false ->
     gc_older_ok older f = true -> In f rem) /\
  ((0 < limit)%Z ->
     length rem = Nat.min (Z.to_nat limit) (length (filter (gc_candidate s older) (files s)))) /\
  (forall f, In f (files s) -> linked (f_id f) (links s) = true -> In f (files s')) /\
  (forall f, In f rem ->
     In (f_id f) (gc_deleted_locations s older limit) /\ ~ In (f_id f) (disk s')) /\
  (forall d, In d (disk s) -> ~ In d (gc_deleted_locations s older limit) -> In d (disk s')) /\
  links s' = links s /\ msgs s' = msgs s /\ topics s' = topics s /\ users s' = users s.
Proof.
  intros s older limit Hnd s' rem.
  assert (Hsub := gc_removed_sub s older limit).
  assert (Hiff : forall f, In f (files s) -> (In f (files s') <-> ~ In f rem)).
  { intros f Hf. subst s'. cbn [step files]. rewrite filter_In. split.
    - intros [_ Hk] Hin. apply negb_true_iff in Hk. apply memN_false in Hk. apply Hk.
      apply in_map. exact Hin.
    - intros Hn. split; [exact Hf|]. apply negb_true_iff. apply memN_false. intros Hin.
      apply in_map_iff in Hin. destruct Hin as [g [Hg Hin]].
      assert (g = f).
      { apply (NoDup_map_inj file N f_id (files s)); try assumption.
        apply (Hsub g Hin). }
      subst g. exact (Hn Hin). }
  split; [exact Hiff|].
  split. { intros f Hf. subst s'. cbn [step files] in Hf. apply filter_In in Hf. tauto. }
  split; [exact Hsub|].
  split.
  { intros Hl f Hf Hlk Ho. subst rem. unfold gc_removed.
    assert (E : (0 <? limit)%Z = false) by (apply Z.ltb_ge; exact Hl). rewrite E.
    apply filter_In. split; [exact Hf|]. unfold gc_candidate. rewrite Hlk. exact Ho. }
  split.
  { intros Hl. subst rem. unfold gc_removed.
    assert (E : (0 <? limit)%Z = true) by (apply Z.ltb_lt; exact Hl). rewrite E.
    apply firstn_length. }
  split.
  { intros f Hf Hlk. apply Hiff; [exact Hf|]. intros Hin. apply Hsub in Hin.
    destruct Hin as [_ [Hl _]]. congruence. }
  split.
  { intros f Hf. split; [unfold gc_deleted_locations; apply in_map; exact Hf|].
    subst s'. cbn [step disk]. rewrite filter_In. intros [_ Hk].
    apply negb_true_iff in Hk. apply memN_false in Hk. apply Hk. apply in_map. exact Hf. }
  split.
  { intros d Hd Hn. subst s'. cbn [step disk]. apply filter_In. split; [exact Hd|].
    apply negb_true_iff. apply memN_false. exact Hn. }
  subst s'. cbn [step links msgs topics users]. repeat split; reflexivity.
Qed.

(* ------------------------------------------------------------------ *)
(* links are kept while the parent exists                               *)

Lemma run_app : forall h1 h2, run (h1 ++ h2) = run_from (run h1) h2.
Proof. intros h1 h2. unfold run, run_from. apply fold_left_app. Qed.

Lemma next_mid_mono_run : forall h s, (next_mid s <= next_mid (run_from s h))%N.
Proof.
  induction h as [|o h IH]; intros s; cbn [run_from fold_left]; [lia|].
  pose proof (step_next_mid_mono s o). pose proof (IH (step s o)). unfold run_from in *. lia.
Qed.

Lemma live_msg_back : forall s o m,
  (m < next_mid s)%N -> target_live (step s o) (TMsg m) = true -> target_live s (TMsg m) = true.
Proof.
  intros s o m Hm. unfold target_live. destruct (msgs_step_step s o) as [|topic|keep]; intros H.
  - exact H.
  - cbn [map fst] in H. rewrite memN_cons in H. apply orb_true_iff in H. destruct H as [H|H]; [|exact H].
    apply N.eqb_eq in H. lia.
  - apply memN_In. apply memN_In in H.
    apply in_map_iff in H. destruct H as [x [Hx Hin]]. apply filter_In in Hin.
    apply in_map_iff. exists x. tauto.
Qed.

Lemma live_back_run : forall h s m,
  (m < next_mid s)%N -> target_live (run_from s h) (TMsg m) = true -> target_live s (TMsg m) = true.
Proof.
  induction h as [|o h IH]; intros s m Hm H; cbn [run_from fold_left] in H; [exact H|].
  apply (live_msg_back s o m Hm). apply IH; [|exact H].
  pose proof (step_next_mid_mono s o). lia.
Qed.

Lemma link_single_att_keep : forall s tg fids f t,
  target_eqb t tg = false -> In (f, t) (att s) -> In (f, t) (att (link_single s tg fids)).
Proof.
  intros s tg fids f t He Hin. unfold link_single. destruct fids as [|f0 r]; [exact Hin|].
  destruct (_ && _); [|exact Hin]. cbn [att]. apply in_app_iff. left.
  apply filter_In. split; [exact Hin|]. cbn [snd]. rewrite He. reflexivity.
Qed.

Lemma drop_keep : forall gone f t ls,
  gone t = false -> In (f, t) ls -> In (f, t) (drop_target gone ls).
Proof.
  intros gone f t ls Hg Hin. unfold drop_target. apply filter_In. split; [exact Hin|].
  cbn [snd]. rewrite Hg. reflexivity.
Qed.

Lemma att_persist_msg : forall s o f m,
  inv_msgs s -> In (f, TMsg m) (att s) -> target_live (step s o) (TMsg m) = true ->
  In (f, TMsg m) (att (step s o)).
Proof.
  intros s o f m [Hnd _] Hin Hl. unfold target_live in Hl.
  destruct o; cbn [step] in *.
  - destruct (_ || _); exact Hin.
  - destruct (find_file fid (files s)) as [g|]; [|exact Hin].
    destruct (f_done g); [exact Hin|]. destruct ok; [destruct (memN fid (disk s))|]; exact Hin.
  - destruct (memN t (topics s)); exact Hin.
  - destruct (memN u (users s)); exact Hin.
  - destruct (memN topic (topics s)); [|exact Hin]. cbn [att]. apply in_app_iff. left. exact Hin.
  - apply link_single_att_keep; [reflexivity|exact Hin].
  - apply link_single_att_keep; [reflexivity|exact Hin].
  - cbn [att msgs] in *. apply drop_keep; [|exact Hin].
    apply memN_In in Hl.
    apply (in_map_filter (N * N) fst (fun x => negb (memN x mids))) in Hl.
    destruct Hl as [_ Hl]. apply negb_true_iff in Hl. exact Hl.
  - cbn [att msgs] in *. apply drop_keep; [|exact Hin].
    apply memN_In in Hl. apply in_map_iff in Hl. destruct Hl as [y [Hy Hyin]].
    apply filter_In in Hyin. destruct Hyin as [Hyin Hyt].
    unfold msg_topic.
    assert (Hm : In m (map fst (msgs s))) by (apply in_map_iff; exists y; split; assumption).
    destruct (in_fst_find m (msgs s) Hm) as [y' [Hf [Hy' Hm']]]. rewrite Hf.
    assert (y' = y).
    { apply (NoDup_map_inj (N * N) N fst (msgs s)); try assumption. congruence. }
    subst y'. apply negb_true_iff in Hyt. exact Hyt.
  - cbn [att]. apply drop_keep; [reflexivity|exact Hin].
  - exact Hin.
  - destruct (is_done fid (files s)); exact Hin.
Qed.

Lemma msg_link_persists : forall h s f m,
  inv s -> (m < next_mid s)%N -> In (f, TMsg m) (att s) ->
  target_live (run_from s h) (TMsg m) = true -> In (f, TMsg m) (att (run_from s h)).
Proof.
  induction h as [|o h IH]; intros s f m Hinv Hm Hin Hl; cbn [run_from fold_left] in *; [exact Hin|].
  assert (Hm' : (m < next_mid (step s o))%N) by (pose proof (step_next_mid_mono s o); lia).
  apply IH; try assumption.
  - apply inv_step. exact Hinv.
  - destruct Hinv as [_ [_ [Hmsgs _]]]. apply att_persist_msg; try assumption.
    apply (live_back_run h (step s o) m Hm'). exact Hl.
Qed.

Lemma att_stored : forall s f t, inv s -> In (f, t) (att s) ->
  In (f, t) (links s) /\ In f (file_ids s) /\ In f (disk s) /\ is_done f (files s) = true.
Proof.
  intros s f t [_ [Hdisk [_ [Hlinks Hatt]]]] Hin.
  destruct (Hatt f t Hin) as [H1 H2]. destruct (Hlinks f t H1) as [H3 _].
  split; [exact H1|]. split; [exact H3|]. split; [apply (proj2 Hdisk); exact H2|exact H2].
Qed.

Lemma publish_att : forall s topic fids f,
  memN topic (topics s) = true -> forallb (fun x => memN x (file_ids s)) fids = true ->
  In f fids -> is_done f (files s) = true ->
  In (f, TMsg (next_mid s)) (att (step s (OPublish topic fids))) /\
  next_mid (step s (OPublish topic fids)) = N.succ (next_mid s).
Proof.
  intros s topic fids f Ht Hall Hin Hd. cbn [step]. rewrite Ht. cbv zeta. cbn [att next_mid].
  split; [|reflexivity]. apply in_app_iff. right.
  destruct fids as [|a r]; [destruct Hin|]. rewrite Hall.
  apply in_map_iff. exists f. split; [reflexivity|]. apply filter_In. split; assumption.
Qed.

Lemma linked_msg : forall h1 topic fids h2 f,
  let s1 := run h1 in
  memN topic (topics s1) = true ->
  forallb (fun x => memN x (file_ids s1)) fids = true ->
  In f fids -> is_done f (files s1) = true ->
  let mid := next_mid s1 in
  let s2 := run (h1 ++ OPublish topic fids :: h2) in
  target_live s2 (TMsg mid) = true ->
  In (f, TMsg mid) (links s2) /\ In f (file_ids s2) /\ In f (disk s2) /\ is_done f (files s2) = true.
Proof.
  intros h1 topic fids h2 f s1 Ht Hall Hin Hd mid s2 Hl.
  assert (Hs2 : s2 = run_from (step s1 (OPublish topic fids)) h2).
  { subst s2 s1. rewrite run_app. reflexivity. }
  destruct (publish_att s1 topic fids f Ht Hall Hin Hd) as [Hatt Hnext].
  assert (Hinv1 : inv (step s1 (OPublish topic fids))) by (apply inv_step; apply inv_run).
  rewrite Hs2 in *.
  apply att_stored; [apply inv_run_from; exact Hinv1|].
  apply msg_link_persists; try assumption. rewrite Hnext. subst mid. lia.
Qed.

(* an accepted publish whose list names a missing upload links nothing *)
Lemma publish_missing_links_nothing : forall s topic fids,
  forallb (fun x => memN x (file_ids s)) fids = false ->
  links (step s (OPublish topic fids)) = links s.
Proof.
  intros s topic fids H. cbn [step]. destruct (memN topic (topics s)); [|reflexivity].
  cbv zeta. cbn [links]. destruct fids as [|a r]; [apply app_nil_r|]. rewrite H. apply app_nil_r.
Qed.

(* ---- avatars ---- *)
Lemma avatar_persist : forall s o f tg,
  match tg with TMsg _ => False | _ => True end ->
  avatar_kept tg o = true -> In (f, tg) (att s) -> In (f, tg) (att (step s o)).
Proof.
  intros s o f tg Htg Hk Hin.
  destruct o; cbn [step].
  - destruct (_ || _); exact Hin.
  - destruct (find_file fid (files s)) as [g|]; [|exact Hin].
    destruct (f_done g); [exact Hin|]. destruct ok; [destruct (memN fid (disk s))|]; exact Hin.
  - destruct (memN t (topics s)); exact Hin.
  - destruct (memN u (users s)); exact Hin.
  - destruct (memN topic (topics s)); [|exact Hin]. cbn [att]. apply in_app_iff. left. exact Hin.
  - apply link_single_att_keep; [|exact Hin].
    destruct tg as [m|x|x]; cbn [target_eqb avatar_kept] in *; try reflexivity.
    apply negb_true_iff in Hk. rewrite N.eqb_sym. exact Hk.
  - apply link_single_att_keep; [|exact Hin].
    destruct tg as [m|x|x]; cbn [target_eqb avatar_kept] in *; try reflexivity.
    apply negb_true_iff in Hk. rewrite N.eqb_sym. exact Hk.
  - cbn [att]. apply drop_keep; [|exact Hin]. destruct tg; [destruct Htg|reflexivity|reflexivity].
  - cbn [att]. apply drop_keep; [|exact Hin].
    destruct tg as [m|x|x]; cbn [avatar_kept] in *; [destruct Htg| |reflexivity].
    apply negb_true_iff in Hk. rewrite N.eqb_sym. exact Hk.
  - cbn [att]. apply drop_keep; [|exact Hin].
    destruct tg as [m|x|x]; cbn [avatar_kept] in *; [destruct Htg|reflexivity|].
    apply negb_true_iff in Hk. rewrite N.eqb_sym. exact Hk.
  - exact Hin.
  - destruct (is_done fid (files s)); exact Hin.
Qed.

Lemma avatar_persists_run : forall h s f tg,
  match tg with TMsg _ => False | _ => True end ->
  forallb (avatar_kept tg) h = true -> In (f, tg) (att s) -> In (f, tg) (att (run_from s h)).
Proof.
  induction h as [|o h IH]; intros s f tg Htg Hk Hin; cbn [run_from fold_left]; [exact Hin|].
  cbn [forallb] in Hk. apply andb_true_iff in Hk. destruct Hk as [Hk1 Hk2].
  apply IH; try assumption. apply avatar_persist; assumption.
Qed.

Lemma link_single_att : forall s tg f rest,
  memN f (file_ids s) = true -> target_live s tg = true -> is_done f (files s) = true ->
  In (f, tg) (att (link_single s tg (f :: rest))).
Proof.
  intros s tg f rest H1 H2 H3. unfold link_single. rewrite H1, H2. cbn [andb att].
  rewrite H3. apply in_app_iff. right. left. reflexivity.
Qed.

Lemma linked_avatar : forall h1 tg f rest h2,
  match tg with TMsg _ => False | _ => True end ->
  let s1 := run h1 in
  memN f (file_ids s1) = true -> target_live s1 tg = true -> is_done f (files s1) = true ->
  forallb (avatar_kept tg) h2 = true ->
  let s2 := run_from (link_single s1 tg (f :: rest)) h2 in
  In (f, tg) (links s2) /\ In f (file_ids s2) /\ In f (disk s2) /\ is_done f (files s2) = true.
Proof.
  intros h1 tg f rest h2 Htg s1 H1 H2 H3 Hk s2.
  assert (Hinv : inv (link_single s1 tg (f :: rest))).
  { destruct tg as [m|t|u]; [destruct Htg| |].
    - exact (inv_step s1 (OTopicAvatar t (f :: rest)) (inv_run h1)).
    - exact (inv_step s1 (OUserAvatar u (f :: rest)) (inv_run h1)). }
  apply att_stored; [apply inv_run_from; exact Hinv|].
  apply avatar_persists_run; try assumption. apply link_single_att; assumption.
Qed.

(* an avatar update whose first resolvable id names no record changes nothing (rolled back) *)
Lemma avatar_missing_keeps : forall s tg f rest,
  memN f (file_ids s) = false -> link_single s tg (f :: rest) = s.
Proof. intros s tg f rest H. unfold link_single. rewrite H. reflexivity. Qed.

(* ---- download ---- *)
Lemma download_with_names_record : forall chk s serve url f,
  download_with chk s serve url = Some f ->
  get_id_from_url serve url = f_id f /\ f_id f <> 0%N /\ In f (files s) /\ In (f_id f) (disk s) /\
  (chk = true -> f_done f = true).
Proof.
  intros chk s serve url f H. unfold download_with in H.
  destruct (get_id_from_url serve url =? 0)%N eqn:Ez; [discriminate|].
  destruct (find_file (get_id_from_url serve url) (files s)) as [g|] eqn:Eg; [|discriminate].
  destruct ((negb chk || f_done g) && memN (get_id_from_url serve url) (disk s)) eqn:Ed; [|discriminate].
  apply andb_true_iff in Ed. destruct Ed as [Ec Ed].
  inversion H; subst g. apply find_file_in in Eg. destruct Eg as [Hin Hid].
  apply N.eqb_neq in Ez. apply memN_In in Ed. rewrite Hid in *.
  repeat split; try assumption. intros ->. exact Ec.
Qed.

(* every URL, every state of the store slice: what a download serves is a COMPLETED upload *)
Lemma download_completed : forall s serve url f,
  download s serve url = Some f ->
  f_done f = true /\ is_done (f_id f) (files s) = true /\
  get_id_from_url serve url = f_id f /\ f_id f <> 0%N /\ In f (files s) /\ In (f_id f) (disk s).
Proof.
  intros s serve url f H.
  assert (H' := H). unfold download, download_with in H'.
  destruct (get_id_from_url serve url =? 0)%N; [discriminate|].
  destruct (find_file (get_id_from_url serve url) (files s)) as [g|] eqn:Eg; [|discriminate].
  destruct ((negb true || f_done g) && _) eqn:Ed; [|discriminate]. inversion H'; subst g.
  destruct (download_with_names_record true s serve url f H) as [H1 [H2 [H3 [H4 H5]]]].
  split; [exact (H5 eq_refl)|]. split; [|repeat split; assumption].
  unfold is_done. rewrite <- H1, Eg. exact (H5 eq_refl).
Qed.

(* ---- provenance of records: every record was started by an upload with its content type,
   every completed record was finished successfully ---- *)
Lemma step_file_origin : forall s o f,
  In f (files (step s o)) ->
  In f (files s) \/
  (o = OStart (f_id f) (f_upd f) (f_mime f) /\ f_done f = false) \/
  (o = OFinish (f_id f) true (f_upd f) /\ f_done f = true /\
   exists g, In g (files s) /\ f_id g = f_id f /\ f_mime g = f_mime f).
Proof.
  intros s o f. destruct (files_step_step s o) as [o|fid now mime _ _|fid now g _ _ _|fid now g _ _|older limit|fid _]; intros H.
  - left; exact H.
  - apply in_app_iff in H. destruct H as [H|[H|[]]]; [left; exact H|]. subst f. right. left. split; reflexivity.
  - apply in_map_iff in H. destruct H as [x [Hx Hin]].
    destruct (f_id x =? fid)%N eqn:Ex; [|left; subst; exact Hin].
    apply N.eqb_eq in Ex. right. right. subst f. cbn [f_id f_upd f_mime f_done].
    split; [reflexivity|]. split; [reflexivity|]. exists x.
    split; [exact Hin|]. split; [exact Ex|reflexivity].
  - apply filter_In in H. left. tauto.
  - apply filter_In in H. left. tauto.
  - left; exact H.
Qed.

Lemma file_provenance : forall h f,
  In f (files (run h)) ->
  (exists t0, In (OStart (f_id f) t0 (f_mime f)) h) /\
  (f_done f = true -> In (OFinish (f_id f) true (f_upd f)) h).
Proof.
  induction h as [|o h IH] using rev_ind; intros f Hin; [destruct Hin|].
  rewrite run_app in Hin. cbn [run_from fold_left] in Hin.
  destruct (step_file_origin _ _ _ Hin) as [H|[[Ho Hd]|[Ho [Hd [g [Hg [Hid Hm]]]]]]].
  - destruct (IH f H) as [[t0 H1] H2]. split.
    + exists t0. apply in_app_iff. left. exact H1.
    + intros Hd. apply in_app_iff. left. exact (H2 Hd).
  - split.
    + exists (f_upd f). apply in_app_iff. right. left. exact Ho.
    + intros Hd'. congruence.
  - destruct (IH g Hg) as [[t0 H1] _]. rewrite Hid, Hm in H1. split.
    + exists t0. apply in_app_iff. left. exact H1.
    + intros _. apply in_app_iff. right. left. exact Ho.
Qed.

(* ---- nothing else is removed ---- *)
Lemma record_removed_only_by : forall s o f,
  inv_ids s -> In f (files s) -> ~ In (f_id f) (file_ids (step s o)) ->
  (exists older limit, o = OGC older limit /\ In f (gc_removed s older limit)) \/
  (exists now, o = OFinish (f_id f) false now /\ f_done f = false).
Proof.
  intros s o f Hnd Hin. unfold file_ids.
  assert (Hid : In (f_id f) (map f_id (files s))) by (apply in_map; exact Hin).
  destruct (files_step_step s o) as [o|fid now mime _ _|fid now g _ _ _|fid now g Eg Edg|older limit|fid _]; intros Hgone.
  - contradiction.
  - exfalso. apply Hgone. rewrite map_app. apply in_app_iff. left. exact Hid.
  - exfalso. apply Hgone. rewrite ids_finish. exact Hid.
  - right. exists now. destruct (f_id f =? fid)%N eqn:Ef.
    + apply N.eqb_eq in Ef. subst fid. split; [reflexivity|].
      apply find_file_in in Eg. destruct Eg as [Hg Hgid].
      assert (g = f) by (apply (NoDup_map_inj file N f_id (files s)); assumption).
      subst g. exact Edg.
    + exfalso. apply Hgone. apply in_map. apply filter_In. split; [exact Hin|]. rewrite Ef. reflexivity.
  - left. exists older, limit. split; [reflexivity|].
    destruct (memN (f_id f) (map f_id (gc_removed s older limit))) eqn:Em.
    + apply memN_In in Em. apply in_map_iff in Em. destruct Em as [g [Hg Hgin]].
      assert (g = f).
      { apply (NoDup_map_inj file N f_id (files s)); try assumption.
        apply (gc_removed_sub s older limit g Hgin). }
      subst g. exact Hgin.
    + exfalso. apply Hgone. apply in_map. apply filter_In. split; [exact Hin|]. rewrite Em. reflexivity.
  - contradiction.
Qed.

Lemma bytes_removed_only_by : forall s o d,
  In d (disk s) -> ~ In d (disk (step s o)) ->
  (exists older limit, o = OGC older limit /\ In d (gc_deleted_locations s older limit)) \/
  (exists now, o = OFinish d false now /\ is_done d (files s) = false) \/
  (o = ODropBytes d /\ is_done d (files s) = false).
Proof.
  intros s o d Hin.
  destruct (files_step_step s o) as [o|fid now mime _ _|fid now g _ _ _|fid now g Eg Edg|older limit|fid Ed]; intros Hgone.
  - contradiction.
  - exfalso. apply Hgone. right. exact Hin.
  - contradiction.
  - right. left. exists now. destruct (d =? fid)%N eqn:Ef.
    + apply N.eqb_eq in Ef. subst fid. split; [reflexivity|]. unfold is_done. rewrite Eg. exact Edg.
    + exfalso. apply Hgone. apply filter_In. split; [exact Hin|]. rewrite Ef. reflexivity.
  - left. exists older, limit. split; [reflexivity|]. unfold gc_deleted_locations.
    destruct (memN d (map f_id (gc_removed s older limit))) eqn:Em; [apply memN_In; exact Em|].
    exfalso. apply Hgone. apply filter_In. split; [exact Hin|]. rewrite Em. reflexivity.
  - right. right. destruct (d =? fid)%N eqn:Ef.
    + apply N.eqb_eq in Ef. subst fid. split; [reflexivity|exact Ed].
    + exfalso. apply Hgone. apply filter_In. split; [exact Hin|]. rewrite Ef. reflexivity.
Qed.

(* ---- deleting a message / topic / user removes its link rows ---- *)
Lemma del_msgs_unlinks : forall s mids f m,
  In m mids -> ~ In (f, TMsg m) (links (step s (ODelMsgs mids))).
Proof.
  intros s mids f m Hm Hin. cbn [step links] in Hin. unfold drop_target in Hin.
  apply filter_In in Hin. destruct Hin as [_ Hk]. cbn [snd] in Hk.
  apply memN_In in Hm. rewrite Hm in Hk. discriminate.
Qed.

Lemma del_topic_unlinks : forall s t f,
  ~ In (f, TTopic t) (links (step s (ODelTopic t))) /\
  (forall m, msg_topic m (msgs s) = Some t -> ~ In (f, TMsg m) (links (step s (ODelTopic t)))).
Proof.
  intros s t f. split.
  - intros Hin. cbn [step links] in Hin. unfold drop_target in Hin.
    apply filter_In in Hin. destruct Hin as [_ Hk]. cbn [snd] in Hk. rewrite N.eqb_refl in Hk. discriminate.
  - intros m Hm Hin. cbn [step links] in Hin. unfold drop_target in Hin.
    apply filter_In in Hin. destruct Hin as [_ Hk]. cbn [snd] in Hk. rewrite Hm, N.eqb_refl in Hk. discriminate.
Qed.

Lemma del_user_unlinks : forall s u f, ~ In (f, TUser u) (links (step s (ODelUser u))).
Proof.
  intros s u f Hin. cbn [step links] in Hin. unfold drop_target in Hin.
  apply filter_In in Hin. destruct Hin as [_ Hk]. cbn [snd] in Hk. rewrite N.eqb_refl in Hk. discriminate.
Qed.

(* deletions touch no upload record and no stored bytes *)
Lemma deletions_keep_files : forall s o,
  match o with ODelMsgs _ | ODelTopic _ | ODelUser _ => True | _ => False end ->
  files (step s o) = files s /\ disk (step s o) = disk s.
Proof. intros s o H. destruct o; try destruct H; split; reflexivity. Qed.

(* ---- an upload without a link row is collected by the next unlimited GC run past its time ---- *)
Lemma unreferenced_collected : forall s f older limit,
  inv_ids s -> In f (files s) -> linked (f_id f) (links s) = false -> gc_older_ok older f = true ->
  (limit <= 0)%Z ->
  ~ In (f_id f) (file_ids (step s (OGC older limit))) /\ ~ In (f_id f) (disk (step s (OGC older limit))).
Proof.
  intros s f older limit Hnd Hin Hl Ho Hlim.
  destruct (gc_exact_step s older limit Hnd) as [_ [_ [_ [Hall _]]]].
  assert (Hrem : In f (gc_removed s older limit)) by (apply Hall; assumption).
  assert (Hm : memN (f_id f) (map f_id (gc_removed s older limit)) = true).
  { apply memN_In. apply in_map. exact Hrem. }
  split.
  - unfold file_ids. cbn [step files]. intros H.
    apply (in_map_filter file f_id (fun x => negb (memN x (map f_id (gc_removed s older limit))))) in H.
    destruct H as [_ H]. rewrite Hm in H. discriminate.
  - cbn [step disk]. intros H. apply filter_In in H. destruct H as [_ H]. rewrite Hm in H. discriminate.
Qed.

Lemma linked_true_In : forall f ls, linked f ls = true -> exists t, In (f, t) ls.
Proof.
  intros f ls H. unfold linked in H. apply existsb_exists in H. destruct H as [[g t] [Hin He]].
  cbn [fst] in He. apply N.eqb_eq in He. subst g. exists t. exact Hin.
Qed.

Lemma find_file_snoc : forall l g id,
  find_file id (l ++ [g]) =
  match find_file id l with Some x => Some x | None => if (f_id g =? id)%N then Some g else None end.
Proof.
  intros l g id. unfold find_file. induction l as [|x l IH]; cbn [app find]; [reflexivity|].
  destruct (f_id x =? id)%N; [reflexivity|exact IH].
Qed.

(* ---- the upload whose FinishUpload failed (500): exactly what is left ---- *)
Lemma failed_upload_exact : forall s fid now mime,
  inv s -> memN fid (file_ids s) = false -> fid <> 0%N ->
  let s' := apply_effect s EResidueNoBytes fid now mime in
  let rec := {| f_id := fid; f_done := false; f_upd := now; f_mime := mime |} in
  files s' = files s ++ [rec] /\ disk s' = disk s /\ links s' = links s /\ msgs s' = msgs s /\
  next_mid s' = next_mid s /\ topics s' = topics s /\ users s' = users s /\
  (forall serve url, download s' serve url = download s serve url) /\
  linked fid (links s') = false /\
  (forall older limit, (limit <= 0)%Z -> gc_older_ok older rec = true ->
     ~ In fid (file_ids (step s' (OGC older limit))) /\ ~ In fid (disk (step s' (OGC older limit)))).
Proof.
  intros s fid now mime Hinv Hfresh Hnz s' rec.
  assert (Hinv' : inv s').
  { subst s'. cbn [apply_effect]. apply inv_step. apply inv_step. exact Hinv. }
  destruct Hinv as [Hids [[Hda Hdb] [_ [Hlinks _]]]].
  assert (Hz : (fid =? 0)%N = false) by (apply N.eqb_neq; exact Hnz).
  assert (Hstart : step s (OStart fid now mime) =
    {| files := files s ++ [rec]; links := links s; msgs := msgs s; next_mid := next_mid s;
       topics := topics s; users := users s; disk := fid :: disk s; att := att s |}).
  { cbn [step]. rewrite Hfresh, Hz. reflexivity. }
  assert (Hnd : is_done fid (files s ++ [rec]) = false).
  { destruct (is_done fid (files s ++ [rec])) eqn:E; [|reflexivity].
    apply (is_done_snoc_inv (files s) rec fid eq_refl) in E. apply is_done_in_ids in E.
    apply memN_false in Hfresh. contradiction. }
  assert (Hnotdisk : ~ In fid (disk s)).
  { intros H. apply Hda in H. apply memN_false in Hfresh. contradiction. }
  assert (Hs' : s' =
    {| files := files s ++ [rec]; links := links s; msgs := msgs s; next_mid := next_mid s;
       topics := topics s; users := users s; disk := disk s; att := att s |}).
  { subst s'. cbn [apply_effect]. rewrite Hstart. cbn [step files]. rewrite Hnd.
    cbn [files links msgs next_mid topics users att disk filter]. rewrite N.eqb_refl. cbn [negb].
    rewrite filter_all; [reflexivity|].
    intros x Hx. apply negb_true_iff. apply N.eqb_neq. intros ->. contradiction. }
  assert (Hlk : linked fid (links s) = false).
  { destruct (linked fid (links s)) eqn:E; [|reflexivity]. apply linked_true_In in E. destruct E as [t Ht].
    apply Hlinks in Ht. destruct Ht as [Ht _]. apply memN_false in Hfresh. contradiction. }
  rewrite Hs' in *. cbn [files disk links msgs next_mid topics users].
  repeat (split; [reflexivity|]).
  split.
  { intros serve url. unfold download, download_with. cbn [files disk].
    destruct (get_id_from_url serve url =? 0)%N; [reflexivity|].
    rewrite find_file_snoc. destruct (find_file (get_id_from_url serve url) (files s)) as [x|]; [reflexivity|].
    subst rec. cbn [f_id]. destruct (fid =? get_id_from_url serve url)%N; reflexivity. }
  split; [exact Hlk|].
  intros older limit Hlim Ho.
  assert (Hin : In rec (files s ++ [rec])) by (apply in_app_iff; right; left; reflexivity).
  destruct Hinv' as [Hids' _].
  exact (unreferenced_collected _ rec older limit Hids' Hin Hlk Ho Hlim).
Qed.

Lemma record_removed_only_by_run : forall h o f,
  let s := run h in
  In f (files s) -> ~ In (f_id f) (file_ids (step s o)) ->
  (exists older limit, o = OGC older limit /\ In f (gc_removed s older limit) /\
     linked (f_id f) (links s) = false /\ gc_older_ok older f = true) \/
  (exists now, o = OFinish (f_id f) false now /\ f_done f = false).
Proof.
  intros h o f s H1 H2. destruct (inv_run h) as [Hids _].
  destruct (record_removed_only_by s o f Hids H1 H2) as [[older [limit [Ho Hr]]]|H]; [left|right; exact H].
  exists older, limit. split; [exact Ho|]. split; [exact Hr|].
  destruct (gc_removed_sub s older limit f Hr) as [_ [Ha Hb]]. split; assumption.
Qed.

(* ---- the whole download request: gate and store slice together ---- *)
Lemma serve_request_served : forall s r serve url o f,
  serve_request s r serve url = (o, Some f) ->
  o = Reply 200 EServed /\ s_meth r = MGet /\ first_some (s_keys r) = Some KValid /\
  (exists u, auth_of (s_creds r) (s_sid r) = AuthUid u /\ u <> 0%N) /\
  download s serve url = Some f /\
  f_done f = true /\ In f (files s) /\ get_id_from_url serve url = f_id f /\ In (f_id f) (disk s).
Proof.
  intros s r serve url o f H. unfold serve_request in H.
  remember (download s serve url) as d eqn:Ed.
  set (r' := {| s_meth := s_meth r; s_keys := s_keys r; s_creds := s_creds r; s_sid := s_sid r;
                s_handler := s_handler r; s_hdr := s_hdr r;
                s_found := match d with Some _ => true | None => false end |}) in *.
  injection H as Ho Hf.
  destruct (effect_of (serve_gate r')) eqn:Ee; try discriminate.
  assert (Hw : effect_of (serve_gate r') <> ENone) by (rewrite Ee; discriminate).
  destruct (serve_gate_work r' Hw) as [Hm [Hk [Ha [_ [_ [_ Hg]]]]]].
  split; [rewrite <- Ho; exact Hg|]. split; [exact Hm|]. split; [exact (key_check_source _ Hk)|]. split; [exact Ha|].
  split; [exact Hf|]. rewrite Ed in Hf.
  destruct (download_completed s serve url f Hf) as [H1 [_ [H3 [_ [H5 H6]]]]].
  repeat split; assumption.
Qed.

Lemma serve_request_nothing : forall s r serve url o,
  serve_request s r serve url = (o, None) -> effect_of o = ENone.
Proof.
  intros s r serve url o H. unfold serve_request in H.
  remember (download s serve url) as d eqn:Ed.
  set (r' := {| s_meth := s_meth r; s_keys := s_keys r; s_creds := s_creds r; s_sid := s_sid r;
                s_handler := s_handler r; s_hdr := s_hdr r;
                s_found := match d with Some _ => true | None => false end |}) in *.
  injection H as Ho Hf. rewrite <- Ho.
  destruct (effect_eq_none (effect_of (serve_gate r'))) as [He|He]; [exact He|]. exfalso.
  destruct (serve_gate_work r' He) as [_ [_ [_ [_ [_ [Hfound Hg]]]]]].
  rewrite Hg in Hf. cbn [effect_of] in Hf. subst r'. cbn [s_found] in Hfound.
  destruct d; discriminate.
Qed.

(* ---- end to end: a listed URL stays downloadable while the message exists ---- *)
Lemma resolve_In : forall serve urls f,
  In f (resolve serve urls) <-> f <> 0%N /\ exists u, In u urls /\ get_id_from_url serve u = f.
Proof.
  intros serve urls f. unfold resolve. rewrite filter_In, in_map_iff. split.
  - intros [[u [Hu Hin]] Hnz]. split; [apply N.eqb_neq; apply negb_true_iff; exact Hnz|].
    exists u. split; assumption.
  - intros [Hnz [u [Hin Hu]]]. split; [exists u; split; assumption|].
    apply negb_true_iff. apply N.eqb_neq. exact Hnz.
Qed.

Definition inv_nz (s : state) : Prop := forall f, In f (files s) -> f_id f <> 0%N.

Lemma step_inv_nz : forall s o, inv_nz s -> inv_nz (step s o).
Proof.
  intros s o H f. unfold inv_nz in H.
  destruct (files_step_step s o) as [o|fid now mime _ Hnz|fid now g _ _ _|fid now g _ _|older limit|fid _]; intros Hin.
  - exact (H f Hin).
  - apply in_app_iff in Hin. destruct Hin as [Hin|[Hin|[]]]; [exact (H f Hin)|]. subst f. exact Hnz.
  - apply in_map_iff in Hin. destruct Hin as [x [Hx Hin]].
    destruct (f_id x =? fid)%N eqn:Ex; [|rewrite <- Hx; exact (H x Hin)].
    apply N.eqb_eq in Ex. rewrite <- Hx. cbn [f_id]. rewrite <- Ex. exact (H x Hin).
  - apply filter_In in Hin. exact (H f (proj1 Hin)).
  - apply filter_In in Hin. exact (H f (proj1 Hin)).
  - exact (H f Hin).
Qed.

Lemma inv_nz_run : forall h, inv_nz (run h).
Proof.
  intros h. unfold run. assert (G : forall l s, inv_nz s -> inv_nz (fold_left step l s)).
  { induction l as [|o l IH]; intros s Hs; [exact Hs|]. cbn [fold_left]. apply IH. apply step_inv_nz. exact Hs. }
  apply G. intros f [].
Qed.

(* a completed upload whose bytes are present is served by every URL that yields its id *)
Lemma download_of_done : forall s serve url,
  get_id_from_url serve url <> 0%N -> is_done (get_id_from_url serve url) (files s) = true ->
  In (get_id_from_url serve url) (disk s) ->
  exists g, download s serve url = Some g /\ f_id g = get_id_from_url serve url /\ f_done g = true.
Proof.
  intros s serve url Hnz Hd Hdisk. unfold download, download_with.
  apply N.eqb_neq in Hnz. rewrite Hnz. unfold is_done in Hd.
  destruct (find_file (get_id_from_url serve url) (files s)) as [g|] eqn:Eg; [|discriminate].
  apply memN_In in Hdisk. rewrite Hd, Hdisk. cbn [negb orb andb].
  exists g. split; [reflexivity|]. split; [exact (proj2 (find_file_in _ _ _ Eg))|exact Hd].
Qed.

Lemma listed_url_linked : forall h1 serve topic urls h2 url,
  let s1 := run h1 in
  let fids := resolve serve urls in
  memN topic (topics s1) = true ->
  forallb (fun x => memN x (file_ids s1)) fids = true ->
  In url urls -> is_done (get_id_from_url serve url) (files s1) = true ->
  let mid := next_mid s1 in
  let s2 := run (h1 ++ OPublish topic fids :: h2) in
  target_live s2 (TMsg mid) = true ->
  let f := get_id_from_url serve url in
  In (f, TMsg mid) (links s2) /\ In f (file_ids s2) /\ In f (disk s2) /\
  exists g, download s2 serve url = Some g /\ f_id g = f /\ f_done g = true.
Proof.
  intros h1 serve topic urls h2 url s1 fids Ht Hall Hin Hd mid s2 Hl. cbv zeta.
  set (f := get_id_from_url serve url) in *.
  assert (Hnz : f <> 0%N).
  { unfold is_done in Hd. destruct (find_file f (files s1)) as [g|] eqn:Eg; [|discriminate].
    destruct (find_file_in _ _ _ Eg) as [Hg Hid]. rewrite <- Hid. exact (inv_nz_run h1 g Hg). }
  assert (Hf : In f fids).
  { apply resolve_In. split; [exact Hnz|]. exists url. split; [exact Hin|reflexivity]. }
  destruct (linked_msg h1 topic fids h2 f Ht Hall Hf Hd Hl) as [H1 [H2 [H3 H4]]].
  split; [exact H1|]. split; [exact H2|]. split; [exact H3|].
  exact (download_of_done s2 serve url Hnz H4 H3).
Qed.
