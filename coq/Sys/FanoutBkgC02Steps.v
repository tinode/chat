(* Sys/FanoutBkgC02.v: every request keeps the invariants of FanoutBkgC02Proofs.v for every fault plan;
   a request whose store call failed changes nothing. *)
From Coq Require Import ZArith NArith List Bool Lia Permutation.
From Coq Require Import ZifyBool ZifyNat ZifyN.
From Tinode Require Import Sys.Fanout Sys.FanoutProofs Sys.FanoutBkgC02 Sys.FanoutBkgC02Proofs.
Import ListNotations.
Open Scope N_scope.

Lemma has_lor_l a c b : has a b = true -> has (N.lor a c) b = true.
Proof.
  unfold has. rewrite !negb_true_iff, !N.eqb_neq. intros H E. apply H.
  rewrite N.land_lor_distr_l in E. apply N.lor_eq_0_iff in E. tauto.
Qed.

(* the grant computed by thisUserSub never loses J *)
Lemma own_modes_given st u p mw want given :
  own_modes st u p mw = OwnModes want given -> has (pu_given p) bJ = true -> has given bJ = true.
Proof.
  unfold own_modes. destruct mw as [m|]; [|intros H; inv H; auto].
  destruct ((st_owner st =? u) && _); [discriminate|]. destruct (has (pu_given p) bO && has m bO && _); [discriminate|].
  destruct (negb (has (pu_given p) bO) && has m bO); [discriminate|]. intros H Hg. inv H.
  destruct (has (pu_given p) bO); [destruct (_ && _)|destruct (st_kind st); [destruct (_ && _ && _)|destruct (_ && _ && _)|]];
    auto using has_lor_l.
Qed.

Lemma own_modes_chan st u p want given :
  own_modes st u p None = OwnModes want given -> has (pu_want p) bJ = true -> want = pu_want p /\ given = pu_given p.
Proof. unfold own_modes. intros H Hj. rewrite Hj in H. inv H. auto. Qed.

(* ---- the stored rows: store.Subs.Update and TopicShare ---- *)
Lemma rows_update_lookup (rows : list (uid * (mode * mode))) u wg u2 old : lookup u rows = Some old ->
  lookup u2 (row_upd u wg rows) = if u2 =? u then Some wg else lookup u2 rows.
Proof.
  intros Ho. unfold row_upd. destruct (N.eqb_spec u2 u) as [->|E].
  - now rewrite (lookup_update_same _ _ _ _ Ho).
  - now apply lookup_update_other.
Qed.

Lemma rows_set_lookup (rows : list (uid * (mode * mode))) u wg u2 : lookup u rows = None ->
  lookup u2 (row_set u wg rows) = if u2 =? u then Some wg else lookup u2 rows.
Proof.
  intros Hn. unfold row_set, has_key. rewrite Hn, lookup_app. destruct (N.eqb_spec u2 u) as [->|E].
  - rewrite Hn. cbn. now rewrite N.eqb_refl.
  - destruct (lookup u2 rows); [reflexivity|]. cbn. destruct (u2 =? u) eqn:E2; [apply N.eqb_eq in E2; congruence|reflexivity].
Qed.

(* the stored row of an ordinary subscriber follows his cached grant *)
Lemma coh_modes x u p w g :
  lookup u (st_users (x_st x)) = Some p -> pu_deleted p = false -> pu_ischan p = false -> coh x ->
  forall u2, lookup u2 (row_upd u (w, g) (x_rows x)) =
             live_modes (set_users (update u (set_pud_modes w g) (st_users (x_st x))) (x_st x)) u2.
Proof.
  intros Hp Hd Hnc Hc u2. rewrite (live_modes_modes (x_st x) u p w g Hp u2 Hd Hnc).
  assert (Hold : lookup u (x_rows x) = Some (pu_want p, pu_given p)) by (rewrite (Hc u); unfold live_modes; now rewrite Hp, Hd, Hnc).
  rewrite (rows_update_lookup _ _ _ _ _ Hold). destruct (u2 =? u); [reflexivity|apply Hc].
Qed.

(* ------------------------------------------------------------------ *)
(* what every request keeps, store calls aside: [xinv], perUser a map, and [joined] unless the request
   is the recorded ban bypass *)
Definition xkeeps (byp : bool) (x x' : xstate) : Prop :=
  (xinv x -> xinv x') /\ (wf_users (x_st x) -> wf_users (x_st x')) /\
  (xinv x -> joined (x_st x) -> byp = false -> joined (x_st x')).

Lemma xkeeps_refl b x : xkeeps b x x.
Proof. unfold xkeeps. auto. Qed.

Lemma xkeeps_trans b x x1 x2 : xkeeps b x x1 -> xkeeps b x1 x2 -> xkeeps b x x2.
Proof. intros [A1 [B1 C1]] [A2 [B2 C2]]. split; [auto|]. split; [auto|]. intros Hi Hj Hb. apply C2; auto. Qed.

Lemma xkeeps_intro byp x x' :
  (sinv (x_bkg x) (x_st x) -> coh x -> sinv (x_bkg x') (x_st x') /\ coh x') ->
  (wf_users (x_st x) -> wf_users (x_st x')) ->
  (sinv (x_bkg x) (x_st x) -> joined (x_st x) -> byp = false -> joined (x_st x')) ->
  xkeeps byp x x'.
Proof.
  intros Hi Hw Hj. split; [|split; [exact Hw|]].
  - intros H. apply xinv_split in H. apply xinv_split. now apply Hi.
  - intros H. apply xinv_split in H. now apply Hj.
Qed.

(* a change of the cached topic alone that moves no cached grant *)
Lemma xkeeps_st byp x st' :
  (sinv (x_bkg x) (x_st x) -> sinv (x_bkg x) st' /\ forall u, live_modes st' u = live_modes (x_st x) u) ->
  (wf_users (x_st x) -> wf_users st') ->
  (sinv (x_bkg x) (x_st x) -> joined (x_st x) -> byp = false -> joined st') ->
  xkeeps byp x (set_xst st' x).
Proof.
  intros Hi Hw Hj. apply xkeeps_intro; [|exact Hw|exact Hj].
  intros Hs Hc. destruct (Hi Hs) as [Hs' Hl]. split; [exact Hs'|]. intros u. cbn [x_rows x_st set_xst]. rewrite Hl. apply Hc.
Qed.

(* one request with its store calls: besides, if one of them failed nothing changed *)
Definition step_ok (x : xstate) (rc : option xstate * calls) (byp : bool) : Prop :=
  match fst rc with
  | None => True
  | Some x' => xkeeps byp x x' /\ (existsb snd (snd rc) = true -> x' = x)
  end.

Lemma step_ok_same x cl b : step_ok x (Some x, cl) b.
Proof. split; [apply xkeeps_refl|reflexivity]. Qed.
Lemma step_ok_none x cl b : step_ok x (None, cl) b.
Proof. exact I. Qed.

Lemma step_ok_keeps x x' cl byp : existsb snd cl = false -> xkeeps byp x x' -> step_ok x (Some x', cl) byp.
Proof. intros Hcl H. split; [exact H|]. cbn [snd]. rewrite Hcl. discriminate. Qed.

(* ---- the changes of which {sub} and {set sub} are composed ---- *)
(* evictUser(u, false) *)
Lemma xk_evict b x u : xkeeps b x (set_xst (evict_user (x_st x) u false) x).
Proof.
  apply xkeeps_st; auto using joined_evict with wf_keep.
  intros Hs. split; [now apply sinv_evict|]. intros u2. apply live_modes_evict_false.
Qed.

(* subscriptionReply attaches the session; [joined] asks for J in want and given of an ordinary subscriber *)
Lemma xk_add b x s u c p :
  has_key s (st_sess (x_st x)) = false -> is_bkg x s && c = false ->
  lookup u (st_users (x_st x)) = Some p -> pu_deleted p = false -> pu_ischan p = c ->
  (b = false -> c = false -> has (pu_want p) bJ = true /\ has (pu_given p) bJ = true) ->
  xkeeps b x (set_xst (xadd_session (x_st x) (is_bkg x s) s u c) x).
Proof.
  intros Hk Hbc Hp Hd Hc HJ. apply xkeeps_st; [|auto with wf_keep|].
  - intros Hs. split; [|intros u2; apply (live_modes_xadd _ _ _ _ _ p Hp)].
    apply (sinv_xadd _ _ s u c p Hk Hp Hd Hc); [| |exact Hs].
    + intros ->. destruct (is_bkg x s); [discriminate|reflexivity].
    + intros Hm. unfold is_bkg in Hbc. rewrite Hm in Hbc. destruct c; [discriminate|reflexivity].
  - intros _ Hj Hb. apply (joined_xadd _ _ s u c p Hk Hp Hd Hc Hj). auto.
Qed.

(* store.Subs.Update and `t.perUser[uid] = userData` with a new grant of an ordinary subscriber, then
   evictUser if [ev]; without it [joined] asks that J is not lost *)
Lemma xk_modes b x u p w g (ev : bool) :
  lookup u (st_users (x_st x)) = Some p -> pu_deleted p = false -> pu_ischan p = false ->
  (ev = false -> (has (pu_want p) bJ = true -> has w bJ = true) /\ (has (pu_given p) bJ = true -> has g bJ = true)) ->
  let st1 := set_users (update u (set_pud_modes w g) (st_users (x_st x))) (x_st x) in
  xkeeps b x (set_xrows (row_upd u (w, g) (x_rows x)) (set_xst (if ev then evict_user st1 u false else st1) x)).
Proof.
  intros Hp Hd Hnc HJ st1. apply xkeeps_intro; cbn [x_st x_bkg x_rows set_xst set_xrows].
  - intros Hs Hc. pose proof (sinv_modes _ u p w g Hp _ Hs) as S1. pose proof (coh_modes x u p w g Hp Hd Hnc Hc) as C1.
    destruct ev; [|split; [exact S1|exact C1]]. split; [now apply sinv_evict|].
    intros u2. cbn [x_st x_rows set_xst set_xrows]. rewrite live_modes_evict_false. apply C1.
  - intros H. destruct ev; unfold st1; auto with wf_keep.
  - intros _ Hj _. destruct ev; [now apply joined_modes_evict|]. destruct (HJ eq_refl) as [Hw Hg].
    apply (joined_modes (x_st x) u p w g Hp Hj). intros _ Hcnt.
    destruct (cnt_pos_in _ _ Hcnt) as [s' [d' [Hin Hu]]]. rewrite <- Hu in Hp. destruct (Hj s' d' p Hin Hp Hnc). auto.
Qed.

(* a new cache entry [q] for [u]; the row of an ordinary subscriber is stored with it *)
Lemma xk_new b x u q st0 rows' :
  lookup u (st_users (x_st x)) = None -> pu_deleted q = false -> (0 <= pu_online q)%Z ->
  st_sess st0 = st_sess (x_st x) -> st_users st0 = st_users (x_st x) ++ [(u, q)] ->
  (lookup u (x_rows x) = None ->
   forall u2, lookup u2 rows' = if (u2 =? u) && negb (pu_ischan q) then Some (pu_want q, pu_given q) else lookup u2 (x_rows x)) ->
  xkeeps b x (set_xrows rows' (set_xst st0 x)).
Proof.
  intros Hn Hd Ho Hs0 Hu0 Hr. set (stn := set_users (st_users (x_st x) ++ [(u, q)]) (x_st x)).
  apply xkeeps_intro; cbn [x_st x_bkg x_rows set_xst set_xrows].
  - intros Hs Hc. split; [apply (sinv_same _ stn); [exact Hs0|exact Hu0|]; now apply sinv_new|].
    assert (Hnr : lookup u (x_rows x) = None) by (rewrite (Hc u); unfold live_modes; now rewrite Hn).
    intros u2. cbn [x_st x_rows set_xst set_xrows]. rewrite (live_modes_same stn st0 Hu0). unfold stn.
    rewrite (live_modes_new (x_st x) u q Hn), (Hr Hnr), Hd. cbn [orb].
    destruct (N.eqb_spec u2 u) as [->|E]; cbn [andb]; [|apply Hc]. destruct (pu_ischan q); cbn [negb]; [exact Hnr|reflexivity].
  - intros H. unfold wf_users. rewrite Hu0. now apply (wfu_new (x_st x)).
  - intros [_ [Ha _]] Hj _. apply (joined_same stn); [exact Hs0|exact Hu0|]. exact (joined_new (x_st x) u q Hn Ha Hj).
Qed.

Lemma xattach_existing_ok x f s u c mw p :
  has_key s (st_sess (x_st x)) = false -> is_bkg x s && c = false ->
  lookup u (st_users (x_st x)) = Some p -> pu_deleted p = false -> pu_ischan p = c ->
  (pu_ischan p = true -> mw = None /\ has (pu_want p) bJ = true) ->
  step_ok x (xattach_existing x f s u c mw p)
    (match own_modes (x_st x) u p mw with
     | OwnModes want given => negb (has want bJ) && (want =? pu_want p) && (given =? pu_given p)
     | _ => false end).
Proof.
  intros Hk Hbc Hp Hd Hc Hch. unfold xattach_existing, own_apply.
  destruct (own_modes (x_st x) u p mw) as [| |want given] eqn:Eo; [apply step_ok_same|apply step_ok_none|].
  destruct ((want =? pu_want p) && (given =? pu_given p)) eqn:Eu.
  - (* nothing to store *)
    apply andb_true_iff in Eu. destruct Eu as [E1 E2]. apply N.eqb_eq in E1, E2. subst want given.
    destruct (negb (has (pu_want p) bJ)) eqn:Ew.
    + (* the ban bypass: evictUser, and the session is attached all the same *)
      assert (Hnc : pu_ischan p = false).
      { destruct (pu_ischan p) eqn:E; [|reflexivity]. destruct (Hch eq_refl) as [_ Hj]. rewrite Hj in Ew. discriminate. }
      assert (Hle : lookup u (st_users (evict_user (x_st x) u false)) = Some (set_pud_online 0%Z p)).
      { now rewrite evict_same, Hp, Hnc. }
      apply step_ok_keeps; [reflexivity|]. eapply xkeeps_trans; [apply xk_evict|].
      apply (xk_add _ (set_xst (evict_user (x_st x) u false) x) s u c _ (has_key_evict (x_st x) u false s Hk) Hbc Hle Hd Hc).
      intros Hb. rewrite !N.eqb_refl in Hb. discriminate.
    + destruct (negb (has (pu_given p) bJ)) eqn:Eg; [apply step_ok_same|]. apply negb_false_iff in Ew, Eg.
      apply step_ok_keeps; [reflexivity|]. apply (xk_add _ _ s u c p); auto.
  - destruct (fails f 0); [apply step_ok_same|].
    assert (Hnc : pu_ischan p = false).
    { destruct (pu_ischan p) eqn:E; [|reflexivity]. destruct (Hch eq_refl) as [-> Hj].
      destruct (own_modes_chan _ _ _ _ _ Eo Hj) as [-> ->]. rewrite !N.eqb_refl in Eu. discriminate. }
    assert (HJ : has want bJ = true -> (has (pu_want p) bJ = true -> has want bJ = true) /\ (has (pu_given p) bJ = true -> has given bJ = true)).
    { intros Hw. split; [auto|]. exact (own_modes_given _ _ _ _ _ _ Eo). }
    destruct (negb (has want bJ)) eqn:Ew.
    + apply step_ok_keeps; [reflexivity|]. apply (xk_modes _ x u p want given true); auto. discriminate.
    + apply negb_false_iff in Ew. destruct (negb (has given bJ)) eqn:Eg.
      * apply step_ok_keeps; [reflexivity|]. apply (xk_modes _ x u p want given false); auto.
      * apply negb_false_iff in Eg. apply step_ok_keeps; [reflexivity|].
        set (x1 := set_xrows (row_upd u (want, given) (x_rows x)) _). apply (xkeeps_trans _ _ x1).
        -- apply (xk_modes _ x u p want given false); auto.
        -- apply (xk_add _ x1 s u c (set_pud_modes want given p)); auto. apply (modes_lookup_same (x_st x) u p want given Hp).
Qed.

(* ---- new subscriber ---- *)
(* after the new cache entry: evictUser (a want without J) or the session *)
Lemma join_new_ok b x s u q st0 rows' c (bk : bool) :
  has_key s (st_sess (x_st x)) = false -> bk = is_bkg x s -> bk && c = false ->
  st_sess st0 = st_sess (x_st x) -> lookup u (st_users st0) = Some q ->
  pu_deleted q = false -> pu_ischan q = c -> has (pu_given q) bJ = true ->
  xkeeps b x (set_xrows rows' (set_xst st0 x)) ->
  xkeeps b x (set_xrows rows' (set_xst (if has (pu_want q) bJ then xadd_session st0 bk s u c else evict_user st0 u false) x)).
Proof.
  intros Hk -> Hbc Hs0 Hl Hd Hc Hg H1. apply (xkeeps_trans _ _ _ _ H1). destruct (has (pu_want q) bJ) eqn:Ew.
  - apply (xk_add _ (set_xrows rows' (set_xst st0 x)) s u c q); auto. cbn [x_st set_xst set_xrows]. now rewrite Hs0.
  - apply (xk_evict _ (set_xrows rows' (set_xst st0 x))).
Qed.

Lemma xattach_new_sub_ok x f s u mw :
  has_key s (st_sess (x_st x)) = false -> lookup u (st_users (x_st x)) = None ->
  step_ok x (xattach_new_sub x f s u mw) false.
Proof.
  intros Hk Hn. unfold xattach_new_sub. destruct (fails f 0); [apply step_ok_same|].
  destruct (negb (has (st_defacs (x_st x)) bJ)) eqn:Eg; [apply step_ok_same|]. apply negb_false_iff in Eg.
  destruct (fails f 1); [apply step_ok_same|].
  set (want := match mw with Some m => N.ldiff m bO | None => st_defacs (x_st x) end).
  set (q := mkPud want (st_defacs (x_st x)) false false 0 0%Z).
  set (st1 := set_users (st_users (x_st x) ++ [(u, q)]) (x_st x)).
  assert (H1 : xkeeps false x (set_xrows (row_set u (want, st_defacs (x_st x)) (x_rows x)) (set_xst st1 x))).
  { apply (xk_new _ x u q); auto; [apply Z.le_refl|]. intros Hr u2. cbn [pu_ischan pu_want pu_given q negb]. rewrite andb_true_r.
    now apply rows_set_lookup. }
  pose proof (join_new_ok false x s u q st1 _ false (is_bkg x s) Hk eq_refl (andb_false_r _) eq_refl
                (new_lookup_same (x_st x) u q Hn) eq_refl eq_refl Eg H1) as H2.
  cbn [pu_want q] in H2. revert H2. destruct (has want bJ); intros H2; cbn [negb]; apply step_ok_keeps; auto.
Qed.

(* ---- first connection of a channel reader ---- *)
Lemma xattach_new_chan_ok x f s u mw :
  has_key s (st_sess (x_st x)) = false -> lookup u (st_users (x_st x)) = None -> is_bkg x s = false ->
  step_ok x (xattach_new_chan x f s u mw) false.
Proof.
  intros Hk Hn Hb. unfold xattach_new_chan. destruct (fails f 0); [apply step_ok_same|].
  set (want := match mw with Some m => _ | None => _ end).
  set (cp := mkPud want mode_chnreader false true 0 0%Z).
  assert (Hjoin : forall st0, st_sess st0 = st_sess (x_st x) -> st_users st0 = st_users (x_st x) ++ [(u, cp)] ->
            xkeeps false x (set_xst (if has want bJ then xadd_session st0 false s u true else evict_user st0 u false) x)).
  { intros st0 Hs0 Hu0.
    apply (join_new_ok false x s u cp st0 (x_rows x) true false Hk (eq_sym Hb) eq_refl Hs0); try reflexivity.
    - rewrite Hu0. exact (new_lookup_same (x_st x) u cp Hn).
    - apply (xk_new _ x u cp); auto; [apply Z.le_refl|]. intros _ u2. cbn [pu_ischan cp negb]. now rewrite andb_false_r. }
  destruct (if has_key u (st_chanrows (x_st x)) then _ else [CShare]) as [|c0 r]; [|destruct (fails f 1); [apply step_ok_same|]];
    (apply step_ok_keeps; [reflexivity|now apply Hjoin]).
Qed.

(* ---- {sub} ---- *)
Lemma xattach_ok x f s u c mw :
  step_ok x (xattach x f s u c mw) (ban_bypass x (XAttach f s u c mw)).
Proof.
  unfold xattach. destruct (has_key s (st_sess (x_st x))) eqn:Hk; [apply step_ok_same|].
  destruct (negb (chan_ok (x_st x) c)); [apply step_ok_same|].
  destruct (is_bkg x s && c) eqn:Hbc; [apply step_ok_none|].
  cbn [ban_bypass]. destruct (lookup u (st_users (x_st x))) as [p|] eqn:Hp.
  - destruct (pu_deleted p) eqn:Hd; [apply step_ok_none|].
    destruct (negb (pu_ischan p) && c) eqn:G1; [apply step_ok_same|].
    destruct (pu_ischan p && negb c) eqn:G2; [apply step_ok_none|].
    destruct (pu_ischan p && match mw with Some _ => true | None => negb (has (pu_want p) bJ) end) eqn:G3; [apply step_ok_none|].
    apply xattach_existing_ok; auto.
    + destruct (pu_ischan p), c; cbn in *; congruence.
    + intros E. rewrite E in G3. cbn in G3. destruct mw; [discriminate|]. apply negb_false_iff in G3. auto.
  - destruct (st_kind (x_st x)); [| |apply step_ok_same];
      (destruct c; [apply xattach_new_chan_ok; auto; now rewrite andb_true_r in Hbc|];
       destruct (mem u (st_gone (x_st x))); [apply step_ok_none|]; now apply xattach_new_sub_ok).
Qed.

(* ---- {leave} ---- *)
Lemma xdetach_ok x s u c : step_ok x (xdetach x s u c, []) false.
Proof.
  unfold xdetach. destruct (lookup s (st_sess (x_st x))) as [d|] eqn:Es; [|apply step_ok_same].
  destruct (negb (ss_uid d =? u)) eqn:Eu; [apply step_ok_same|]. apply negb_false_iff, N.eqb_eq in Eu. subst u.
  pose proof (lookup_in _ _ _ Es) as Hin.
  set (asChan := c && chan_ok (x_st x) c).
  set (st1 := set_sess (remove_key s (st_sess (x_st x))) (x_st x)).
  destruct (negb (eqb (ss_chan d) asChan)) eqn:Ec.
  { apply step_ok_keeps; [reflexivity|]. apply xkeeps_st; [|exact (fun H => H)|intros _ Hj _; now apply joined_remove_sess].
    intros Hs. split; [now apply sinv_remove_sess|reflexivity]. }
  apply negb_false_iff, eqb_prop in Ec.
  set (n := if is_bkg x s then pu_online (get_pud st1 (ss_uid d)) else (pu_online (get_pud st1 (ss_uid d)) - 1)%Z).
  set (st2 := if is_bkg x s then st1 else set_users (upsert (ss_uid d) (set_pud_online n) (st_users st1)) st1).
  assert (H2 : sinv (x_bkg x) (x_st x) ->
            sinv (x_bkg x) st2 /\ (forall u2, live_modes st2 u2 = live_modes (x_st x) u2) /\ (joined (x_st x) -> joined st2)).
  { intros Hs. destruct (leave_keeps (x_bkg x) (x_st x) s d st2 Es Hs) as [S2 [J2 L2]]; [|auto].
    unfold st2. destruct (is_bkg x s); [now left|right]. exists (set_pud_online n). split; [reflexivity|]. split; [|reflexivity].
    intros q Hq. unfold n, get_pud, st1. cbn [st_users set_sess pu_online set_pud_online]. rewrite Hq. apply Z.le_refl. }
  (* a channel subscription is counted: its user's counter is now [n] *)
  assert (C2 : sinv (x_bkg x) (x_st x) -> ss_chan d = true ->
            exists q2, lookup (ss_uid d) (st_users st2) = Some q2 /\ pu_ischan q2 = true /\ pu_online q2 = n).
  { intros [_ [B [_ D]]] E. destruct (B s d Hin) as [q [Hq [_ Hc]]]. unfold st2. destruct (is_bkg x s) eqn:Eb.
    - rewrite (D s d Hin Eb) in E. discriminate.
    - exists (set_pud_online n q). cbn [st_users set_users]. rewrite lookup_upsert_same. unfold st1. cbn [st_users set_sess]. rewrite Hq.
      cbn. rewrite Hc. auto. }
  assert (Hw2 : wf_users (x_st x) -> wf_users st2).
  { intros H. unfold st2. destruct (is_bkg x s); [exact H|]. now apply (wfu_upsert st1). }
  assert (Hst2 : step_ok x (Some (set_xst st2 x), []) false).
  { apply step_ok_keeps; [reflexivity|]. apply xkeeps_st; [|exact Hw2|]; intros Hs; destruct (H2 Hs) as [S2 [L2 J2]]; auto. }
  (* `delete(t.perUser, uid)` when the last channel subscription of a channel reader has left *)
  assert (Hdel : (n =? 0)%Z && asChan = true -> step_ok x (Some (set_xst (set_users (remove_key (ss_uid d) (st_users st2)) st2) x), []) false).
  { intros Hz. apply andb_true_iff in Hz. destruct Hz as [Hz Ha]. apply Z.eqb_eq in Hz. rewrite <- Ec in Ha.
    assert (Hcnt : sinv (x_bkg x) (x_st x) -> sinv (x_bkg x) st2 /\ cnt (ss_uid d) (st_sess st2) = 0%nat /\ live_modes st2 (ss_uid d) = None).
    { intros Hs. destruct (H2 Hs) as [S2 _]. destruct (C2 Hs Ha) as [q2 [Hq2 [Hc2 Ho2]]]. split; [exact S2|].
      destruct S2 as [_ [_ [C _]]]. specialize (C _ q2 Hq2 Hc2). split; [clear -C Ho2 Hz; lia|].
      unfold live_modes. rewrite Hq2, Hc2. now rewrite orb_true_r. }
    apply step_ok_keeps; [reflexivity|]. apply xkeeps_st; [|auto with wf_keep|].
    - intros Hs. destruct (Hcnt Hs) as [[A [B [C D]]] [Hz0 Hl]]. destruct (H2 Hs) as [_ [L2 _]]. split.
      + now apply sinv_remove_user.
      + intros u2. rewrite live_modes_remove_user; auto.
    - intros Hs Hj _. destruct (Hcnt Hs) as [_ [Hz0 _]]. destruct (H2 Hs) as [_ [_ J2]]. apply joined_remove_user; auto. }
  destruct (st_kind (x_st x)); [| |exact Hst2]; (destruct ((n =? 0)%Z && asChan); [now apply Hdel|exact Hst2]).
Qed.

(* ---- connection closed; background timer; publish ---- *)
Lemma bkg_ok_rm l k st : bkg_ok l st -> bkg_ok (rm k l) st.
Proof. intros H s d Hin Hm. apply (H s d Hin). now apply (mem_rm s k l). Qed.

Lemma xdisc_ok x s : step_ok x (Some (xdisc x s), []) false.
Proof.
  assert (Hk : sinv (x_bkg x) (x_st x) ->
            let st' := xdrop_session (rm s (x_bkg x)) (x_st x) s in
            sinv (rm s (x_bkg x)) st' /\ (joined (x_st x) -> joined st') /\ forall u, live_modes st' u = live_modes (x_st x) u).
  { intros [A [B [C D]]]. apply xdrop_keeps. split; [exact A|]. split; [exact B|]. split; [exact C|now apply bkg_ok_rm]. }
  unfold xdisc. apply step_ok_keeps; [reflexivity|]. apply xkeeps_intro; cbn [x_st x_bkg x_rows]; [|apply wfu_xdrop|].
  - intros Hs Hc. destruct (Hk Hs) as [S1 [_ L1]]. split.
    + now apply (sinv_same _ (xdrop_session (rm s (x_bkg x)) (x_st x) s)).
    + intros u. cbn [x_rows x_st]. rewrite (Hc u). symmetry. apply L1.
  - intros Hs Hj _. destruct (Hk Hs) as [_ [J1 _]].
    apply (joined_same (xdrop_session (rm s (x_bkg x)) (x_st x) s)); [reflexivity|reflexivity|auto].
Qed.

Lemma xforeground_ok x s : step_ok x (Some (xforeground x s), []) false.
Proof.
  unfold xforeground. destruct (negb (is_bkg x s)); [apply step_ok_same|].
  assert (Hx1 : step_ok x (Some (set_xbkg (rm s (x_bkg x)) x), []) false).
  { apply step_ok_keeps; [reflexivity|]. apply xkeeps_intro; cbn [x_st x_bkg set_xbkg]; auto. intros [A [B [C D]]] Hc. split; [|exact Hc].
    split; [exact A|]. split; [exact B|]. split; [exact C|now apply bkg_ok_rm]. }
  (* sessToForeground: the session is counted from now on *)
  assert (Hup : forall d, lookup s (st_sess (x_st x)) = Some d ->
            step_ok x (Some (set_xst (set_users (upsert (ss_uid d) (fun p => set_pud_online (pu_online p + 1)%Z p) (st_users (x_st x))) (x_st x))
                               (set_xbkg (rm s (x_bkg x)) x)), []) false).
  { intros d Es. pose proof (lookup_in _ _ _ Es) as Hin.
    apply step_ok_keeps; [reflexivity|]. apply xkeeps_intro; cbn [x_st x_bkg x_rows set_xst set_xbkg]; [|apply wfu_upsert|].
    - intros Hs Hc. destruct Hs as [A [B [C D]]]. destruct (B s d Hin) as [p [Hp [Hd Hch]]]. split.
      + apply (sinv_online _ _ p); auto; [|split; [exact A|]; split; [exact B|]; split; [exact C|now apply bkg_ok_rm]].
        intros E. specialize (C _ p Hp E). cbn [pu_online set_pud_online]. clear -C. lia.
      + intros u2. cbn [x_rows x_st set_xst set_xbkg]. rewrite (live_modes_online (x_st x) (ss_uid d) p); auto.
    - intros [_ [B _]] Hj _. destruct (B s d Hin) as [p [Hp _]]. apply (joined_online (x_st x) (ss_uid d) p); auto. }
  destruct (st_kind (x_st x)); [| |exact Hx1];
    (destruct (lookup s (st_sess (x_st x))) as [d|]; [|exact Hx1]; destruct (ss_chan d); [exact Hx1|now apply Hup]).
Qed.

Lemma xpublish_fst x px : fst (xpublish x px) = fst (publish (x_st x) px).
Proof. unfold xpublish. destruct (fst (publish (x_st x) px)); reflexivity. Qed.

Lemma wfu_xdrop_fold bkg l : forall st, wf_users st -> wf_users (fold_left (xdrop_session bkg) l st).
Proof. induction l as [|s r IH]; intros st H; cbn; [exact H|]. apply IH. now apply wfu_xdrop. Qed.

Lemma xpublish_ok x px : step_ok x (Some (snd (xpublish x px)), []) false.
Proof.
  unfold xpublish. destruct (fst (publish (x_st x) px)) as [| | |seq ack copies push]; try apply step_ok_same.
  cbn [snd].
  assert (Hf : sinv (x_bkg x) (x_st x) ->
            let st' := fold_left (xdrop_session (x_bkg x)) (overflowed copies) (set_lastid seq (x_st x)) in
            sinv (x_bkg x) st' /\ (joined (x_st x) -> joined st') /\ forall u, live_modes st' u = live_modes (x_st x) u).
  { intros Hs. destruct (xdrop_fold (x_bkg x) (x_bkg x) (overflowed copies) (set_lastid seq (x_st x))) as [F1 [F5 [F6 _]]]; auto. }
  apply step_ok_keeps; [reflexivity|]. apply xkeeps_st; [|exact (wfu_xdrop_fold _ _ (set_lastid seq (x_st x)))|]; intros Hs; destruct (Hf Hs) as [S [J L]]; auto.
Qed.

(* ---- {set sub mode} on the own subscription ---- *)
Lemma xset_want_ok x f u m : step_ok x (xset_want x f u m) false.
Proof.
  unfold xset_want, own_apply. destruct (lookup u (st_users (x_st x))) as [p|] eqn:Hp; [|apply step_ok_none].
  destruct (pu_deleted p || pu_ischan p) eqn:Edc; [apply step_ok_none|]. apply orb_false_iff in Edc. destruct Edc as [Hd Hnc].
  destruct (own_modes (x_st x) u p (Some m)) as [| |want given] eqn:Eo; [apply step_ok_same|apply step_ok_none|].
  destruct ((want =? pu_want p) && (given =? pu_given p)).
  - destruct (negb (has want bJ)); [|apply step_ok_same]. apply step_ok_keeps; [reflexivity|apply xk_evict].
  - destruct (fails f 0); [apply step_ok_same|].
    destruct (negb (has want bJ)) eqn:Ew; (apply step_ok_keeps; [reflexivity|]).
    + apply (xk_modes _ x u p want given true Hp Hd Hnc). discriminate.
    + apply (xk_modes _ x u p want given false Hp Hd Hnc). intros _. apply negb_false_iff in Ew.
      split; [auto|exact (own_modes_given _ _ _ _ _ _ Eo)].
Qed.

(* ---- {set sub user mode}: another user's grant ---- *)
Lemma xset_given_ok x f h u m : step_ok x (xset_given x f h u m) false.
Proof.
  unfold xset_given. destruct (h =? u); [apply step_ok_none|].
  destruct (lookup h (st_users (x_st x))) as [hp|]; [|apply step_ok_same].
  destruct (negb (has (eff hp) bO || has (eff hp) bA)); [apply step_ok_same|].
  set (m' := match st_kind (x_st x) with KP2P => N.lor (N.land m mode_cp2p) bA | _ => m end).
  destruct (has m' bO). { destruct (st_owner (x_st x) =? h); [apply step_ok_none|apply step_ok_same]. }
  destruct (lookup u (st_users (x_st x))) as [p|] eqn:Hp; [|apply step_ok_none].
  destruct (pu_deleted p || pu_ischan p) eqn:Edc; [apply step_ok_none|]. apply orb_false_iff in Edc. destruct Edc as [Hd Hnc].
  destruct (m' =? pu_given p).
  - destruct (negb (has m' bJ)); [|apply step_ok_same]. apply step_ok_keeps; [reflexivity|apply xk_evict].
  - destruct (st_owner (x_st x) =? u); [apply step_ok_same|]. destruct (fails f 0); [apply step_ok_same|].
    destruct (negb (has m' bJ)) eqn:Ej; (apply step_ok_keeps; [reflexivity|]).
    + apply (xk_modes _ x u p (pu_want p) m' true Hp Hd Hnc). discriminate.
    + apply (xk_modes _ x u p (pu_want p) m' false Hp Hd Hnc). intros _. apply negb_false_iff in Ej. auto.
Qed.

(* ---- {leave unsub}, {del sub} ---- *)
(* store.Subs.Delete of the row under the topic's own name, evictUser(u, true) *)
Lemma remove_user_ok x u :
  step_ok x (Some (set_xrows (remove_key u (x_rows x)) (set_xst (set_gone (u :: st_gone (x_st x)) (evict_user (x_st x) u true)) x)),
             [(CDel, false)]) false.
Proof.
  apply step_ok_keeps; [reflexivity|]. apply xkeeps_intro; cbn [x_st x_bkg x_rows set_xst set_xrows]; [|apply wfu_evict|].
  - intros Hs Hc. split; [apply (sinv_same _ (evict_user (x_st x) u true)); [reflexivity|reflexivity|now apply sinv_evict]|].
    intros u2. cbn [x_st x_rows set_xst set_xrows]. rewrite (live_modes_same (evict_user (x_st x) u true)) by reflexivity.
    rewrite live_modes_evict_true. destruct (N.eqb_spec u2 u) as [->|E].
    + apply lookup_remove_key_same.
    + rewrite lookup_remove_key_other by assumption. apply Hc.
  - intros _ Hj _. apply (joined_same (evict_user (x_st x) u true)); [reflexivity|reflexivity|now apply joined_evict].
Qed.

Lemma xunsub_ok x f s u c : step_ok x (xunsub x f s u c) false.
Proof.
  unfold xunsub. destruct (negb (has_key s (st_sess (x_st x)))); [apply step_ok_same|].
  destruct (st_owner (x_st x) =? u); [apply step_ok_same|]. destruct (negb (chan_ok (x_st x) c)); [apply step_ok_same|].
  destruct (lookup u (st_users (x_st x))) as [p|] eqn:Hp; [|apply step_ok_none].
  destruct (pu_deleted p) eqn:Hd; [apply step_ok_none|].
  (* a channel reader has no row under the topic's own name *)
  assert (Hchan : pu_ischan p = true ->
            step_ok x (Some (set_xst (set_chanrows (remove_key u (st_chanrows (x_st x))) (evict_user (x_st x) u true)) x), [(CDel, false)]) false).
  { intros Hc. apply step_ok_keeps; [reflexivity|]. apply xkeeps_st; [|apply wfu_evict|].
    - intros Hs. split; [apply (sinv_same _ (evict_user (x_st x) u true)); [reflexivity|reflexivity|now apply sinv_evict]|].
      intros u2. rewrite (live_modes_same (evict_user (x_st x) u true)) by reflexivity.
      rewrite live_modes_evict_true. destruct (N.eqb_spec u2 u) as [->|E]; [|reflexivity].
      unfold live_modes. rewrite Hp, Hc. now rewrite orb_true_r.
    - intros _ Hj _. apply (joined_same (evict_user (x_st x) u true)); [reflexivity|reflexivity|now apply joined_evict]. }
  destruct (st_kind (x_st x)); [| |destruct (existsb _ _); [apply step_ok_none|]];
    (destruct (fails f 0); [apply step_ok_same|]); try apply remove_user_ok;
    (destruct (pu_ischan p); [now apply Hchan|apply remove_user_ok]).
Qed.

Lemma xevict_ok x f h u : step_ok x (xevict x f h u) false.
Proof.
  unfold xevict. destruct (negb _); [apply step_ok_same|]. destruct ((u =? 0) || (u =? h)); [apply step_ok_same|].
  destruct (st_kind (x_st x)); [| |apply step_ok_same];
    (destruct (lookup u (st_users (x_st x))) as [p|]; [|apply step_ok_same]; destruct (pu_ischan p); [apply step_ok_none|];
     destruct (has (eff p) bO); [apply step_ok_same|]; destruct (negb (has (pu_want p) bJ)); [apply step_ok_same|];
     destruct (fails f 0); [apply step_ok_same|apply remove_user_ok]).
Qed.

(* ---- every request ---- *)
Lemma xstep_ok x o : step_ok x (xr_state (xstep x o), xr_calls (xstep x o)) (ban_bypass x o).
Proof.
  assert (Hfull : forall v, step_ok x (Some (set_xst (set_full v (x_st x)) x), []) false).
  { intros v. apply step_ok_keeps; [reflexivity|]. apply xkeeps_st; auto. }
  destruct o; cbn [xstep].
  - pose proof (xattach_ok x f s u chan mw) as H. destruct (xattach x f s u chan mw) as [r cl]. exact H.
  - exact (xdetach_ok x s u chan).
  - exact (xdisc_ok x s).
  - exact (xforeground_ok x s).
  - pose proof (xunsub_ok x f s u chan) as H. destruct (xunsub x f s u chan) as [r cl]. exact H.
  - pose proof (xset_want_ok x f u m) as H. destruct (xset_want x f u m) as [r cl]. exact H.
  - pose proof (xset_given_ok x f h u m) as H. destruct (xset_given x f h u m) as [r cl]. exact H.
  - pose proof (xevict_ok x f h u) as H. destruct (xevict x f h u) as [r cl]. exact H.
  - cbn [xr_state xr_calls ban_bypass]. destruct (is_full (x_st x) s); [apply step_ok_same|apply Hfull].
  - apply Hfull.
  - pose proof (xpublish_ok x px) as H. destruct (xpublish x px) as [r x'] eqn:E. exact H.
Qed.
