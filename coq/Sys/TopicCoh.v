(* C03: the cached access modes (perUserData.modeWant / modeGiven, on which the publish
   decision is taken) are the STORED ones (the authoritative grant) in every reachable
   state, for every fault plan - except after the two triggers named below, which the
   faithful model reproduces.  Lemmas; the theorems are in Props/PropC03.v. *)
From Coq Require Import ZArith NArith List Bool Lia.
From Tinode Require Import Base.Util Pure.Acs Sys.Topic Sys.TopicTac Sys.TopicFrame Sys.TopicNum Sys.TopicMarks Sys.TopicMeta.
Import ListNotations.
Open Scope Z_scope.

(* the two views of a user's grant *)
Definition smodes (s : store) (u : N) : option (N * N) :=
  match find_sub u (subs s) with
  | Some r => if s_deleted r then None else Some (s_want r, s_given r)
  | None => None
  end.
Definition cmodes (c : cache) (u : N) : option (N * N) :=
  match alookup u (c_users c) with Some p => Some (p_want p, p_given p) | None => None end.

Definition coh (s : store) (c : cache) : Prop := forall u, cmodes c u = smodes s u.
Definition sess_users (c : cache) : Prop :=
  forall sid u b, In (sid, (u, b)) (c_sess c) -> alookup u (c_users c) <> None.
Definition wf_store (s : store) : Prop := NoDup (map s_user (subs s)).

Definition cohP (s : store) (c : cache) : Prop := wf_store s /\ coh s c /\ sess_users c.

(* writer according to the store / according to the cache *)
Definition stored_writer (s : store) (u : N) : bool :=
  match smodes s u with Some (w, g) => is_writer (N.land g w) | None => false end.

Lemma cmodes_writer c u : is_writer (pud_mode (get_pud c u)) =
  match cmodes c u with Some (w, g) => is_writer (N.land g w) | None => false end.
Proof. unfold cmodes, get_pud, pud_mode. destruct (alookup u (c_users c)); reflexivity. Qed.

Lemma coh_writer s c u : coh s c -> is_writer (pud_mode (get_pud c u)) = stored_writer s u.
Proof. intros H. rewrite cmodes_writer. unfold stored_writer. now rewrite H. Qed.


(* store primitives seen through smodes *)
Lemma find_sub_user u l r : find_sub u l = Some r -> s_user r = u.
Proof. exact (TopicMarks.find_sub_user u l r). Qed.

Lemma smodes_ext s s' u : subs s' = subs s -> smodes s' u = smodes s u.
Proof. unfold smodes. now intros ->. Qed.

Lemma smodes_sub_create s u w g u' :
  smodes (ad_sub_create s u w g) u' = if N.eqb u' u then Some (w, g) else smodes s u'.
Proof. unfold smodes. rewrite find_sub_create. destruct (N.eqb u' u); reflexivity. Qed.

Definition upd_modes (up : subupd) (m : N * N) : N * N :=
  (match u_want up with Some v => v | None => fst m end, match u_given up with Some v => v | None => snd m end).

Lemma smodes_subs_update s u up u' : u <> 0%N ->
  smodes (ad_subs_update s u up) u' = if N.eqb u' u then option_map (upd_modes up) (smodes s u') else smodes s u'.
Proof.
  intros Hu. unfold smodes. rewrite find_sub_update. destruct (N.eqb_spec u 0); [contradiction|]. cbn [orb].
  destruct (N.eqb u' u); [|reflexivity].
  destruct (find_sub u' (subs s)) as [r|]; cbn; [|reflexivity].
  destruct (s_deleted r); reflexivity.
Qed.

Lemma smodes_subs_update_marks s u up u' : u_want up = None -> u_given up = None ->
  smodes (ad_subs_update s u up) u' = smodes s u'.
Proof.
  intros Hw Hg. unfold smodes. rewrite find_sub_update. destruct (_ || _); [|reflexivity].
  destruct (find_sub u' (subs s)) as [r|]; cbn [option_map]; [|reflexivity].
  unfold apply_upd. rewrite Hw, Hg. reflexivity.
Qed.

Lemma sub_get_live s u : ad_sub_get s u false = None <-> smodes s u = None.
Proof.
  unfold ad_sub_get, smodes. destruct (find_sub u (subs s)) as [r|]; [|tauto].
  destruct (s_deleted r); cbn; split; intros H; try reflexivity; discriminate.
Qed.

Lemma smodes_subs_delete s u s' u' : ad_subs_delete s u = Some s' ->
  smodes s' u' = if N.eqb u' u then None else smodes s u'.
Proof.
  intros H. unfold smodes. rewrite (find_sub_delete _ _ _ u' H). destruct (N.eqb u' u); [|reflexivity].
  destruct (find_sub u' (subs s)); reflexivity.
Qed.
Lemma subs_delete_none s u : ad_subs_delete s u = None -> smodes s u = None.
Proof.
  unfold ad_subs_delete. destruct (ad_sub_get s u false) eqn:G; [discriminate|]. intros _. now apply sub_get_live.
Qed.
Lemma subs_delete_some s u : smodes s u <> None -> ad_subs_delete s u <> None.
Proof. intros H E. apply H. now apply subs_delete_none. Qed.

Lemma need_create_absent s u : smodes s u = None ->
  match ad_sub_get s u true with Some r => s_deleted r | None => true end = true.
Proof.
  unfold smodes, ad_sub_get. destruct (find_sub u (subs s)) as [r|]; [|reflexivity].
  destruct (s_deleted r) eqn:D; cbn; [intros _; exact D|discriminate].
Qed.

Lemma msg_save_subs s q u ct s' : ad_msg_save s q u ct = Some s' -> subs s' = subs s.
Proof. unfold ad_msg_save. destruct (existsb _ _); [discriminate|]. intros H. inv H. reflexivity. Qed.

Lemma wf_sub_create s u w g : wf_store s -> wf_store (ad_sub_create s u w g).
Proof. apply nodup_sub_create. Qed.
Lemma wf_subs_update s u up : wf_store s -> wf_store (ad_subs_update s u up).
Proof. apply nodup_subs_update. Qed.
Lemma wf_subs_delete s u s' : ad_subs_delete s u = Some s' -> wf_store s -> wf_store s'.
Proof. apply nodup_subs_delete. Qed.
Lemma wf_ext s s' : subs s' = subs s -> wf_store s -> wf_store s'.
Proof. unfold wf_store. now intros ->. Qed.

(* cache primitives seen through cmodes *)
Lemma cmodes_aset c u p u' :
  cmodes (c_set_users (aset u p) c) u' = if N.eqb u' u then Some (p_want p, p_given p) else cmodes c u'.
Proof. unfold cmodes. cbn [c_users c_set_users]. rewrite alookup_aset. destruct (N.eqb u' u); reflexivity. Qed.
Lemma cmodes_aremove c u u' :
  cmodes (c_set_users (aremove u) c) u' = if N.eqb u' u then None else cmodes c u'.
Proof. unfold cmodes. cbn [c_users c_set_users]. rewrite alookup_aremove_eq. destruct (N.eqb u' u); reflexivity. Qed.
Lemma cmodes_map_delid c d u' :
  cmodes (c_set_users (map (fun e => (fst e, p_set_delid d (snd e)))) c) u' = cmodes c u'.
Proof.
  unfold cmodes. cbn [c_users c_set_users]. rewrite (alookup_map (p_set_delid d)).
  destruct (alookup u' (c_users c)); reflexivity.
Qed.
Lemma cmodes_get_pud c u : alookup u (c_users c) <> None ->
  Some (p_want (get_pud c u), p_given (get_pud c u)) = cmodes c u.
Proof. unfold get_pud, cmodes. destruct (alookup u (c_users c)); [reflexivity|congruence]. Qed.

Lemma cmodes_evict c u b k c' o u' : evict_user c u b k = (c', o) ->
  cmodes c' u' = if b && N.eqb u' u then None else cmodes c u'.
Proof.
  unfold evict_user. intros H. inv H. destruct b; cbn [andb].
  - rewrite cmodes_aremove. reflexivity.
  - cbn [c_users c_set_sess]. destruct (alookup u (c_users c)) as [p|] eqn:E; [|reflexivity].
    rewrite cmodes_aset. destruct (N.eqb_spec u' u); [|reflexivity].
    subst u'. unfold cmodes. rewrite E. reflexivity.
Qed.
Lemma sess_evict c u b k c' o e : evict_user c u b k = (c', o) ->
  In e (c_sess c') -> In e (c_sess c) /\ fst (snd e) <> u.
Proof.
  unfold evict_user. intros H. inv H. intros Hin.
  assert (Hin' : In e (filter (fun e => negb (N.eqb (fst (snd e)) u)) (c_sess c))).
  { destruct b; [exact Hin|]. cbn [c_users c_set_sess] in Hin.
    destruct (alookup u (c_users c)); exact Hin. }
  apply filter_In in Hin'. destruct Hin' as [H1 Hf]. split; [exact H1|].
  intros E. rewrite E, N.eqb_refl in Hf. discriminate.
Qed.

Lemma cmodes_sess f c u : cmodes (c_set_sess f c) u = cmodes c u. Proof. reflexivity. Qed.
Lemma cmodes_owner v c u : cmodes (c_set_owner v c) u = cmodes c u. Proof. reflexivity. Qed.
Lemma smodes_owner v s u : smodes (st_owner v s) u = smodes s u. Proof. reflexivity. Qed.
Lemma smodes_delid v s u : smodes (st_delid v s) u = smodes s u. Proof. reflexivity. Qed.
Lemma smodes_delete_list s d fu rs u : smodes (ad_msg_delete_list s d fu rs) u = smodes s u.
Proof. apply smodes_ext. apply delete_list_subs. Qed.

Lemma wf_owner v s : wf_store s -> wf_store (st_owner v s). Proof. auto. Qed.
Lemma wf_seqid v s : wf_store s -> wf_store (st_seqid v s). Proof. auto. Qed.
Lemma wf_delid v s : wf_store s -> wf_store (st_delid v s). Proof. auto. Qed.
Lemma wf_dellog f s : wf_store s -> wf_store (st_dellog f s). Proof. auto. Qed.
Lemma wf_msgs f s : wf_store s -> wf_store (st_msgs f s). Proof. auto. Qed.
Lemma wf_delete_list s d fu rs : wf_store s -> wf_store (ad_msg_delete_list s d fu rs).
Proof. apply wf_ext. apply delete_list_subs. Qed.
#[export] Hint Resolve wf_sub_create wf_subs_update wf_owner wf_seqid wf_delid wf_dellog wf_msgs wf_delete_list : cohdb.

Lemma cmodes_some c u p : alookup u (c_users c) = Some p -> cmodes c u = Some (p_want p, p_given p).
Proof. unfold cmodes. now intros ->. Qed.
Lemma cmodes_none c u : alookup u (c_users c) = None -> cmodes c u = None.
Proof. unfold cmodes. now intros ->. Qed.

(* sess_users through the cache primitives *)
Lemma su_aset c u p : sess_users c -> sess_users (c_set_users (aset u p) c).
Proof.
  intros S sid u' b Hin. cbn [c_users c_set_users c_sess] in *. rewrite alookup_aset.
  destruct (N.eqb u' u); [discriminate|]. eapply S. exact Hin.
Qed.
Lemma su_sess_filter c P : sess_users c -> sess_users (c_set_sess (filter P) c).
Proof. intros S sid u b Hin. cbn in *. apply filter_In in Hin. destruct Hin as [Hin _]. eapply S. exact Hin. Qed.
Lemma su_sess_aremove c sid0 : sess_users c -> sess_users (c_set_sess (aremove sid0) c).
Proof. intros S sid u b Hin. cbn in *. apply in_aremove in Hin. eapply S. exact Hin. Qed.
Lemma su_sess_aset c sid0 u0 b0 : alookup u0 (c_users c) <> None -> sess_users c ->
  sess_users (c_set_sess (aset sid0 (u0, b0)) c).
Proof.
  intros HU S sid u b Hin. cbn in *. apply in_aset in Hin. destruct Hin as [E|Hin]; [inv E; exact HU|].
  eapply S. exact Hin.
Qed.
Lemma su_owner c v : sess_users c -> sess_users (c_set_owner v c). Proof. auto. Qed.
Lemma su_lastid c v : sess_users c -> sess_users (c_set_lastid v c). Proof. auto. Qed.
Lemma su_delid c v : sess_users c -> sess_users (c_set_delid v c). Proof. auto. Qed.
Lemma su_map_delid c d : sess_users c -> sess_users (c_set_users (map (fun e => (fst e, p_set_delid d (snd e)))) c).
Proof.
  intros S sid u b Hin. cbn [c_users c_set_users c_sess] in *. rewrite (alookup_map (p_set_delid d)).
  specialize (S sid u b Hin). destruct (alookup u (c_users c)); [discriminate|congruence].
Qed.
Lemma su_evict c u b k c' o : evict_user c u b k = (c', o) -> sess_users c -> sess_users c'.
Proof.
  intros E S sid u' b' Hin. destruct (sess_evict _ _ _ _ _ _ _ E Hin) as [Hin0 Hne]. cbn in Hne.
  specialize (S sid u' b' Hin0).
  assert (M := cmodes_evict c u b k c' o u' E). unfold cmodes in M.
  destruct (N.eqb_spec u' u); [contradiction|]. rewrite andb_false_r in M.
  destruct (alookup u' (c_users c')); [discriminate|]. destruct (alookup u' (c_users c)); [discriminate|congruence].
Qed.
#[export] Hint Resolve su_aset su_sess_filter su_sess_aremove su_owner su_lastid su_delid su_map_delid : cohdb.

(* [oc_path c u want]: the own {sub}/{set sub} of [u] asks for O while the cached given has O and the
   cached want has not, i.e. thisUserSub takes (or refuses on the way to) the ownership-transfer branch,
   the only handler that writes the store in several steps and applies the cache afterwards. *)
Definition oc_path (c : cache) (u : N) (want : list N) : bool :=
  match alookup u (c_users c) with
  | None => false
  | Some p0 =>
    let '(mw, okw) := match want with [] => (ModeUnset, true) | _ => unmarshal_text ModeUnset want end in
    okw && negb (mw =? ModeUnset)%N && is_owner (p_given p0) && is_owner mw && negb (is_owner (p_want p0))
  end.
(* the transfer is covered when no store fault is planned for the request and the topic has a cached
   owner other than the requester *)
Definition oc_safe (f : fault) (c : cache) (u : N) : bool :=
  match f with NoFault => true | _ => false end && negb (c_owner c =? 0)%N && negb (c_owner c =? u)%N &&
  match alookup (c_owner c) (c_users c) with Some _ => true | None => false end.

Lemma cmodes_settled c u c' o u' : settled c u c' o -> cmodes c' u' = cmodes c u'.
Proof. intros [[-> _]|E]; [reflexivity|exact (cmodes_evict _ _ _ _ _ _ u' E)]. Qed.
Lemma su_settled c u c' o : settled c u c' o -> sess_users c -> sess_users c'.
Proof. intros [[-> _]|E]; [auto|exact (su_evict _ _ _ _ _ _ E)]. Qed.
Lemma cmodes_modes c u w g u' :
  cmodes (c_set_users (aset u (p_set_modes w g (get_pud c u))) c) u' = if N.eqb u' u then Some (w, g) else cmodes c u'.
Proof. apply cmodes_aset. Qed.

Lemma own_write_smodes s u p0 w g s1 u' : u <> 0%N -> own_write s u p0 w g s1 ->
  smodes s u = Some (p_want p0, p_given p0) ->
  wf_store s -> wf_store s1 /\ smodes s1 u' = if N.eqb u' u then Some (w, g) else smodes s u'.
Proof.
  intros NZ [[-> [-> ->]]|[ow [og [-> [-> ->]]]]] E W.
  - split; [exact W|]. destruct (N.eqb_spec u' u); [subst u'; exact E|reflexivity].
  - split; [now apply wf_subs_update|]. rewrite smodes_subs_update by exact NZ.
    destruct (N.eqb_spec u' u); [subst u'; rewrite E|]; reflexivity.
Qed.

Lemma takes_over_oc c u want p0 : takes_over c u want p0 -> oc_path c u want = true.
Proof. intros [L [mw [UW [E1 [E2 [E3 E4]]]]]]. unfold oc_path. rewrite L, UW, E1, E2, E3, E4. reflexivity. Qed.
Lemma oc_safe_inv f c u : oc_safe f c u = true ->
  f = NoFault /\ c_owner c <> 0%N /\ c_owner c <> u /\ alookup (c_owner c) (c_users c) <> None.
Proof.
  unfold oc_safe. intros H. repeat (apply andb_true_iff in H; destruct H as [H ?]).
  repeat split; try (apply N.eqb_neq, negb_true_iff; assumption).
  - destruct f; [reflexivity|discriminate|discriminate].
  - destruct (alookup (c_owner c) (c_users c)); discriminate.
Qed.

Lemma tus_coh f s c u want h r : tus_spec f s c u want h r ->
  u <> 0%N -> (oc_path c u want = true -> oc_safe f c u = true) -> cohP s c -> cohP (h_st h) (h_ca h).
Proof.
  intros SP HU HOC [W [C S]].
  destruct SP as [n' code _|w g s' c' n' o ch L S' ST|p0 w g s1 c' n' o r' L OW ST _
                 |p0 w g s1 c' n' o r' TO OW ST _|p0 w g s1 s' n' TO NF OW S']; cbn [h_st h_ca].
  - split; [|split]; assumption.
  - destruct S' as [->|[-> [r0 [G D]]]].
    + split; [now apply wf_sub_create|split]; [|exact (su_settled _ _ _ _ ST (su_aset _ _ _ S))].
      intros u'. rewrite (cmodes_settled _ _ _ _ u' ST), cmodes_aset, smodes_sub_create, C. reflexivity.
    + (* the cache is the live rows: a user without an entry has no live row *)
      exfalso. pose proof (need_create_absent s u) as X. rewrite <- C, (cmodes_none _ _ L), G in X.
      specialize (X eq_refl). congruence.
  - assert (smodes s u = Some (p_want p0, p_given p0)) as E by (rewrite <- C; now apply cmodes_some).
    split; [exact (proj1 (own_write_smodes _ _ _ _ _ _ u HU OW E W))|split]; [|exact (su_settled _ _ _ _ ST (su_aset _ _ _ S))].
    intros u'. rewrite (cmodes_settled _ _ _ _ u' ST), cmodes_modes, (proj2 (own_write_smodes _ _ _ _ _ _ u' HU OW E W)), C. reflexivity.
  - destruct (oc_safe_inv _ _ _ (HOC (takes_over_oc _ _ _ _ TO))) as [_ [P0 [PU PM]]].
    destruct TO as [L _].
    assert (smodes s u = Some (p_want p0, p_given p0)) as E by (rewrite <- C; now apply cmodes_some).
    split; [apply wf_owner, wf_subs_update; exact (proj1 (own_write_smodes _ _ _ _ _ _ u HU OW E W))|split].
    + intros u'. rewrite (cmodes_settled _ _ _ _ u' ST), cmodes_modes. unfold disown. rewrite cmodes_owner, cmodes_modes.
      rewrite smodes_owner, smodes_subs_update by exact P0. rewrite (proj2 (own_write_smodes _ _ _ _ _ _ u' HU OW E W)).
      destruct (N.eqb_spec u' u) as [->|NE].
      * destruct (N.eqb_spec u (c_owner c)); [congruence|reflexivity].
      * destruct (N.eqb_spec u' (c_owner c)) as [->|_]; [|apply C].
        rewrite <- C, <- (cmodes_get_pud _ _ PM). reflexivity.
    + apply (su_settled _ _ _ _ ST). apply su_aset. unfold disown. apply su_owner, su_aset, S.
  - exfalso. apply NF. exact (proj1 (oc_safe_inv _ _ _ (HOC (takes_over_oc _ _ _ _ TO)))).
Qed.

Lemma aus_coh s c target h r : aus_spec s c target h r -> target <> 0%N -> cohP s c -> cohP (h_st h) (h_ca h).
Proof.
  intros SP HT [W [C S]].
  destruct SP as [n' code _|w g c' n' o L ST|c' n' o ST|pt g c' n' o L ST]; cbn [h_st h_ca].
  - split; [|split]; assumption.
  - split; [now apply wf_sub_create|split]; [|exact (su_settled _ _ _ _ ST (su_aset _ _ _ S))].
    intros u'. rewrite (cmodes_settled _ _ _ _ u' ST), cmodes_aset, smodes_sub_create, C. reflexivity.
  - split; [exact W|split]; [|exact (su_settled _ _ _ _ ST S)].
    intros u'. rewrite (cmodes_settled _ _ _ _ u' ST). apply C.
  - split; [now apply wf_subs_update|split]; [|exact (su_settled _ _ _ _ ST (su_aset _ _ _ S))].
    intros u'. rewrite (cmodes_settled _ _ _ _ u' ST), cmodes_aset, smodes_subs_update by exact HT.
    destruct (N.eqb_spec u' target) as [->|_]; [|apply C]. rewrite <- C, (cmodes_some _ _ _ L). reflexivity.
Qed.

Definition member (c : cache) (u : N) : Prop := alookup u (c_users c) <> None.
Lemma member_cmodes c u : member c u <-> cmodes c u <> None.
Proof. unfold member, cmodes. destruct (alookup u (c_users c)); split; congruence. Qed.
Lemma member_aset c u p : member (c_set_users (aset u p) c) u.
Proof. unfold member. cbn. rewrite alookup_aset, N.eqb_refl. discriminate. Qed.
Lemma member_evict c u k c' o u' : evict_user c u false k = (c', o) -> member c u' -> member c' u'.
Proof. intros E M. apply member_cmodes. rewrite (cmodes_evict _ _ _ _ _ _ u' E). cbn. now apply member_cmodes. Qed.

Lemma sub_reply_coh f s c n sid u want bkg : u <> 0%N -> (oc_path c u want = true -> oc_safe f c u = true) -> cohP s c ->
  cohP (h_st (sub_reply f s c n sid u want bkg)) (h_ca (sub_reply f s c n sid u want bkg)).
Proof.
  intros HU HOC HP. destruct (sub_reply_shape f s c n sid u want bkg) as (h & r & SP & -> & _ & E2).
  pose proof (tus_coh _ _ _ _ _ _ _ SP HU HOC HP) as [W [C S]].
  destruct E2 as [->|[[ch ->] ->]]; [split; [|split]; assumption|].
  pose proof (tus_present _ _ _ _ _ _ _ SP) as M. unfold attach.
  destruct bkg; (split; [exact W|split]); try exact C; try (apply su_aset); try (apply su_sess_aset; assumption).
  intros u'. rewrite cmodes_aset, cmodes_sess, <- C. destruct (N.eqb_spec u' u) as [->|_]; [|reflexivity].
  exact (cmodes_get_pud (c_set_sess _ (h_ca h)) u M).
Qed.

Lemma set_sub_coh f s c n sid u target mode : u <> 0%N ->
  ((target =? 0)%N || N.eqb target u = true -> oc_path c u mode = true -> oc_safe f c u = true) -> cohP s c ->
  cohP (h_st (set_sub f s c n sid u target mode)) (h_ca (set_sub f s c n sid u target mode)).
Proof.
  intros HU HOC HP. destruct (set_sub_shape f s c n sid u target mode) as (h & r & SP & -> & -> & _).
  destruct SP as [[SELF SP]|[T0 SP]]; [exact (tus_coh _ _ _ _ _ _ _ SP HU (HOC SELF) HP)|exact (aus_coh _ _ _ _ _ SP T0 HP)].
Qed.

Lemma unsub_coh s c sid v h : unsub_spec s c sid v h -> cohP s c -> cohP (h_st h) (h_ca h).
Proof.
  intros [n' code _|s1 c1 n' code o1 k _ D EV] [W [C S]]; cbn [h_st h_ca]; [split; [|split]; assumption|].
  destruct D as [D|[D [_ M]]].
  - split; [exact (wf_subs_delete _ _ _ D W)|split]; [|exact (su_evict _ _ _ _ _ _ EV S)].
    intros u'. rewrite (cmodes_evict _ _ _ _ _ _ u' EV), (smodes_subs_delete _ _ _ u' D), C. reflexivity.
  - (* the row of a cached user is live: Subs.Delete cannot miss it *)
    exfalso. apply subs_delete_none in D. rewrite <- C in D. apply member_cmodes in M. contradiction.
Qed.
Lemma del_sub_coh f s c n sid u t : cohP s c -> cohP (h_st (del_sub f s c n sid u t)) (h_ca (del_sub f s c n sid u t)).
Proof. exact (unsub_coh _ _ _ _ _ (del_sub_shape f s c n sid u t)). Qed.
Lemma leave_unsub_coh f s c n sid u : cohP s c -> cohP (h_st (leave_unsub f s c n sid u)) (h_ca (leave_unsub f s c n sid u)).
Proof. exact (unsub_coh _ _ _ _ _ (leave_unsub_shape f s c n sid u)). Qed.

Lemma leave_coh s c sid u : cohP s c -> cohP s (fst (leave c sid u)).
Proof.
  intros [W [C S]]. unfold leave.
  destruct (alookup sid (c_sess c)) as [[su bkg]|] eqn:A; cbn [fst]; [|split; [|split]; assumption].
  assert (alookup su (c_users c) <> None) as M by (apply alookup_in in A; exact (S _ _ _ A)).
  assert (sess_users (c_set_sess (aremove sid) c)) as S1 by now apply su_sess_aremove.
  cbn [c_users c_set_sess]. destruct (alookup su (c_users c)) as [p|] eqn:L; [|contradiction].
  destruct bkg; (split; [exact W|split]); try assumption; [|now apply su_aset].
  intros u'. rewrite cmodes_aset, cmodes_sess, <- C. destruct (N.eqb_spec u' su) as [->|_]; [|reflexivity].
  rewrite (cmodes_some _ _ _ L). reflexivity.
Qed.

Definition same_modes (s : store) (c : cache) (h : hres) : Prop :=
  (wf_store s -> wf_store (h_st h)) /\ (forall u, smodes (h_st h) u = smodes s u) /\
  (forall u, cmodes (h_ca h) u = cmodes c u) /\ c_sess (h_ca h) = c_sess c.
Lemma same_modes_refl s c n o : same_modes s c (mkH s c n o).
Proof. repeat split; auto. Qed.
Lemma same_modes_coh s c h : same_modes s c h -> cohP s c -> cohP (h_st h) (h_ca h).
Proof.
  intros [A [B [D E]]] [W [C S]]. split; [auto|split].
  - intros u. rewrite D, B. apply C.
  - intros sid u b Hin. rewrite E in Hin. specialize (S sid u b Hin).
    specialize (D u). unfold cmodes in D. destruct (alookup u (c_users (h_ca h))); [discriminate|].
    destruct (alookup u (c_users c)); [discriminate|congruence].
Qed.

Lemma cmodes_marks c c' u rd rc u' : c_users c' = c_users c -> (alookup u (c_users c) <> None) ->
  cmodes (c_set_users (aset u (p_set_marks rd rc (get_pud c u))) c') u' = cmodes c u'.
Proof.
  intros E M. rewrite cmodes_aset. unfold cmodes at 1. rewrite E. fold (cmodes c u').
  destruct (N.eqb_spec u' u); [subst u'|reflexivity].
  cbn [p_want p_given p_set_marks]. now apply cmodes_get_pud.
Qed.

Lemma publish_same f s c n sid u ct ne : same_modes s c (publish f s c n sid u ct ne).
Proof.
  destruct (publish_shape f s c n sid u ct ne) as [s' n' code _ S'|s' n' _ M _ S']; unfold same_modes; cbn [h_st h_ca].
  - repeat split; auto; destruct S' as [->| ->]; auto.
  - repeat split; try (intros u'; apply cmodes_marks; [reflexivity|exact M]);
      destruct S' as [->| ->]; auto.
    + intros W. apply wf_subs_update. exact W.
    + intros u'. rewrite smodes_subs_update_marks by reflexivity. reflexivity.
Qed.

Lemma reader_member c u : is_reader (pud_mode (get_pud c u)) = true -> alookup u (c_users c) <> None.
Proof. unfold get_pud. destruct (alookup u (c_users c)); [discriminate|]. cbn. discriminate. Qed.

Lemma note_same f s c n sid u what seq : same_modes s c (note f s c n sid u what seq).
Proof.
  unfold note.
  repeat break_match; try apply same_modes_refl.
  all: unfold same_modes; cbn [h_st h_ca]; repeat split.
  all: try (intros W; apply wf_subs_update; assumption).
  all: try (intros u'; rewrite smodes_subs_update_marks by reflexivity; reflexivity).
  all: intros u'; rewrite cmodes_marks; [reflexivity|reflexivity|].
  all: apply reader_member; apply negb_false_iff; assumption.
Qed.

Lemma flag_member c u bit : has (user_mode c u) bit = true -> alookup u (c_users c) <> None.
Proof. unfold user_mode, get_pud. destruct (alookup u (c_users c)); [discriminate|]. cbn. discriminate. Qed.
Lemma cmodes_pdelid c c' u d u' : c_users c' = c_users c -> (alookup u (c_users c) <> None) ->
  cmodes (c_set_users (aset u (p_set_delid d (get_pud c' u))) c') u' = cmodes c u'.
Proof.
  intros E M. rewrite cmodes_aset. unfold cmodes at 1. rewrite E. fold (cmodes c u').
  destruct (N.eqb_spec u' u); [subst u'|reflexivity].
  cbn [p_want p_given p_set_delid]. unfold get_pud. rewrite E. fold (get_pud c u). now apply cmodes_get_pud.
Qed.

Lemma del_msg_same dr f s c n sid u req hard : same_modes s c (del_msg dr f s c n sid u req hard).
Proof.
  unfold del_msg.
  destruct (hard && is_deleter (user_mode c u)) eqn:EH; destruct (is_reader (user_mode c u)) eqn:ER; cbn [negb andb];
    repeat break_match; try apply same_modes_refl.
  all: unfold same_modes; cbn [h_st h_ca]; repeat split.
  all: try solve [intros W; eauto 10 with cohdb].
  all: try solve [intros u'; rewrite ?smodes_subs_update_marks by reflexivity;
                  rewrite ?smodes_delid, ?smodes_delete_list, ?cmodes_map_delid; reflexivity].
  (* what is left is the soft branch: the requester has R, so he has a row *)
  all: intros u'; rewrite (cmodes_pdelid c); [reflexivity|reflexivity|].
  all: eapply flag_member; exact ER.
Qed.

Lemma offline_set_sub_wf f s sid u t m : wf_store s -> wf_store (o_st (offline_set_sub f s sid u t m)).
Proof. intros W. unfold offline_set_sub. repeat break_match; cbn [o_st]; eauto with cohdb. Qed.

Lemma load_coh s : wf_store s -> cohP s (load s).
Proof.
  intros W. split; [exact W|split].
  - intros u. unfold cmodes, load, load_users. cbn [c_users]. rewrite (load_users_lookup_acc u _ W). unfold smodes.
    destruct (find_sub u (subs s)) as [r|]; [|reflexivity]. destruct (s_deleted r); reflexivity.
  - intros sid u b []. 
Qed.


(* every request keeps the invariants, unless it is one of the two triggers *)
Section CohStep.
Variable dr : Z -> list (Z * Z) -> option (list (Z * Z)).
Variable nr : list (Z * Z) -> list (Z * Z).
Variable sm : sessmap.

Definition cohx (x : state) : Prop :=
  match ca x with Some c => cohP (st x) c | None => wf_store (st x) end.

Definition sub_safe (f : fault) (c : cache) (u : N) (want : list N) : bool :=
  negb (oc_path c u want) || oc_safe f c u.

(* the requests that are not a trigger.  {sub} and {set sub} come from a logged-in session (uid <> 0).
   A {sub} that attaches, and a {set sub} of an attached session on its own subscription, do not take
   the transfer branch uncovered ([sub_safe]).  A {set sub} from a session that is not attached, while
   the topic is loaded, carries no mode: replyOfflineTopicSetSub would write it to the store only. *)
Definition safe_step (x : state) (fo : fault * op) : bool :=
  let f := fst fo in
  match snd fo with
  | OSub sid want _ =>
    let u := sess_uid sm sid in
    negb (u =? 0)%N &&
    match ca x with
    | Some c => attached c sid || sub_safe f c u want
    | None => sub_safe f (load (st x)) u want
    end
  | OSetSub sid target mode =>
    let u := sess_uid sm sid in
    negb (u =? 0)%N &&
    match ca x with
    | Some c => if attached c sid
                then negb ((target =? 0)%N || N.eqb target u) || sub_safe f c u mode
                else match mode with [] => true | _ => false end
    | None => true
    end
  | _ => true
  end.

Lemma sub_safe_imp f c u w : sub_safe f c u w = true -> oc_path c u w = true -> oc_safe f c u = true.
Proof. unfold sub_safe. intros H E. rewrite E in H. exact H. Qed.

Lemma step_cohx f x o : safe_step x (f, o) = true -> cohx x -> cohx (fst (step dr nr sm f x o)).
Proof.
  intros SF I. destruct x as [s cx n0]. unfold cohx, safe_step in *. cbn [st ca fst snd] in *.
  destruct (step_shape dr nr sm f (mkState s cx n0) o) as [c h LD HD|n' o' _| |sid _|sid _|sid t m -> NA];
    cbn [fst st ca] in *; auto.
  - assert (cohP s c) as Pc by (destruct LD as [->|[-> [-> _]]]; [exact I|exact (load_coh s I)]).
    destruct HD; cbn [h_st h_ca].
    + apply andb_true_iff in SF. destruct SF as [HU SF]. apply negb_true_iff, N.eqb_neq in HU.
      apply sub_reply_coh; auto. apply sub_safe_imp.
      destruct LD as [->|[-> [-> _]]]; [rewrite H in SF|]; exact SF.
    + now apply leave_unsub_coh.
    + now apply leave_coh.
    + exact (same_modes_coh _ _ _ (publish_same _ _ _ _ _ _ _ _) Pc).
    + exact (same_modes_coh _ _ _ (note_same _ _ _ _ _ _ _ _) Pc).
    + destruct (queried_same _ _ _ _ _ _ _ H) as [-> ->]. exact Pc.
    + exact (same_modes_coh _ _ _ (del_msg_same _ _ _ _ _ _ _ _ _) Pc).
    + apply andb_true_iff in SF. destruct SF as [HU SF]. apply negb_true_iff, N.eqb_neq in HU.
      destruct LD as [->|[_ [_ [? [? [? D]]]]]]; [|discriminate D]. rewrite H in SF.
      apply set_sub_coh; auto. intros SELF. rewrite SELF in SF. apply sub_safe_imp. exact SF.
    + now apply del_sub_coh.
  - destruct cx; [destruct I|]; auto.
  - apply andb_true_iff in SF. destruct SF as [_ SF]. destruct cx as [c|]; [|now apply offline_set_sub_wf].
    rewrite (NA c eq_refl) in SF. destruct m; [exact I|discriminate].
Qed.

Lemma step_f_cohx x fo : safe_step x fo = true -> cohx x -> cohx (fst (step_f dr nr sm x fo)).
Proof.
  intros SF I. unfold step_f. destruct fo as [f o].
  pose proof (step_cohx f x o SF I) as I1. cbn [fst snd].
  destruct (step dr nr sm f x o) as [x1 o1]. cbn [fst] in *.
  destruct f; cbn [fst]; auto.
  unfold cohx in *. cbn [st ca]. destruct (ca x1); [destruct I1|]; auto.
Qed.

Fixpoint safe_run (x : state) (h : list (fault * op)) : Prop :=
  match h with
  | [] => True
  | fo :: r => safe_step x fo = true /\ safe_run (fst (step_f dr nr sm x fo)) r
  end.

Lemma run_cohx h : forall x, safe_run x h -> cohx x -> cohx (fst (run dr nr sm x h)).
Proof.
  induction h as [|fo h IH]; intros x SR I; cbn [run fst]; [exact I|].
  destruct SR as [SF SR]. pose proof (step_f_cohx x fo SF I) as I1.
  destruct (step_f dr nr sm x fo) as [x1 o1]. cbn [fst] in *.
  specialize (IH x1 SR I1). destruct (run dr nr sm x1 h) as [x2 os]. exact IH.
Qed.

(* consequences for the publish decision *)
Definition accepts_stored (x : state) (sid : N) : bool :=
  match ca x with
  | Some c => attached c sid && stored_writer (st x) (sess_uid sm sid)
  | None => false
  end.

Lemma accepts_stored_eq x sid : cohx x ->
  match ca x with
  | Some c => attached c sid && is_writer (pud_mode (get_pud c (sess_uid sm sid)))
  | None => false
  end = accepts_stored x sid.
Proof.
  unfold cohx, accepts_stored. destruct (ca x) as [c|]; [|reflexivity].
  intros [_ [C _]]. now rewrite (coh_writer _ _ _ C).
Qed.

(* a request that leaves every stored grant as it was leaves every cached write bit as it was *)
Lemma grant_kept_decision_kept x fo : cohx x -> safe_step x fo = true ->
  (forall u, smodes (st (fst (step_f dr nr sm x fo))) u = smodes (st x) u) ->
  match ca x, ca (fst (step_f dr nr sm x fo)) with
  | Some c, Some c' => forall u, is_writer (pud_mode (get_pud c' u)) = is_writer (pud_mode (get_pud c u))
  | _, _ => True
  end.
Proof.
  intros I SF E. pose proof (step_f_cohx x fo SF I) as I'. unfold cohx in *.
  destruct (ca x) as [c|]; [|exact Logic.I]. destruct (ca (fst (step_f dr nr sm x fo))) as [c'|]; [|exact Logic.I].
  destruct I as [_ [C _]]. destruct I' as [_ [C' _]]. intros u.
  rewrite (coh_writer _ _ _ C), (coh_writer _ _ _ C'). unfold stored_writer. now rewrite E.
Qed.
End CohStep.

