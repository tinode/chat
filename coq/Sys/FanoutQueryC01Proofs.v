(* Proofs about Sys/FanoutQueryC01.v: description and history queries of attached sessions - channel
   subscriptions, p2p participants, sessions acting on behalf of a user - show the acknowledged numbers. *)
From Coq Require Import ZArith NArith List Bool Lia Permutation.
From Tinode Require Import Sys.Fanout Sys.FanoutProofs Sys.FanoutQueryC01.
From Tinode Require Sys.Topic Sys.TopicTac Sys.TopicOut Sys.TopicImsC01 Sys.TopicHistProofs.
Import ListNotations.
Open Scope N_scope.

(* ------------------------------------------------------------------ *)
(* description                                                          *)
Lemma q_desc_reader st s u name i p :
  chan_ok st (name_chan_c01q name) = true -> lookup u (st_users st) = Some p -> has (eff p) bR = true ->
  q_get_desc st s u name i = [(s, QDesc true true (st_lastid st))].
Proof. intros H1 H2 H3. unfold q_get_desc. rewrite H1, H2, H3. reflexivity. Qed.

Lemma q_desc_current st s u name i e full seq :
  In e (q_get_desc st s u name i) -> snd e = QDesc full true seq -> seq = st_lastid st.
Proof.
  unfold q_get_desc. repeat break_match; intros [<-|[]]; cbn; intros H; try discriminate; now inv H.
Qed.

(* ------------------------------------------------------------------ *)
(* history                                                              *)
(* every {data} of an answer is a stored row; it goes to the requesting session under the name the acting user
   knows the topic by; the author is withheld exactly when the request used the channel name *)
Lemma q_get_data_author x s u name a b l k t f q c :
  In (k, QData t f q c) (q_get_data x s u name a b l) ->
  k = s /\ t = original (q_st x) u /\
  exists m, In m (q_msgs x) /\ Topic.m_seq m = q /\ Topic.m_content m = c /\
            f = (if name_chan_c01q name then 0 else Topic.m_from m).
Proof.
  unfold q_get_data.
  destruct (negb (chan_ok (q_st x) (name_chan_c01q name))); [intros [E|[]]; discriminate|].
  destruct (has (eff (get_pud (q_st x) u)) bR); [|intros [E|[]]; discriminate].
  destruct (Topic.ad_msg_get_all (store_of_c01q (q_msgs x)) u a b l) as [|m0 ms] eqn:EG; [intros [E|[]]; discriminate|].
  intros H. apply in_app_or in H. destruct H as [H|[E|[]]]; [|discriminate].
  apply in_map_iff in H. destruct H as (m & E & Hin). inv E. split; [reflexivity|]. split; [reflexivity|].
  exists m. split; [|auto].
  assert (In m (Topic.ad_msg_get_all (store_of_c01q (q_msgs x)) u a b l)) as K by (rewrite EG; exact Hin).
  exact (TopicOut.get_all_in _ _ _ _ _ _ K).
Qed.

Lemma q_data_from_store x s u name a b l s' t f q c :
  In (s', QData t f q c) (q_get_data x s u name a b l) ->
  exists m, In m (q_msgs x) /\ Topic.m_seq m = q /\ Topic.m_content m = c /\ (f = 0 \/ f = Topic.m_from m).
Proof.
  intros H. destruct (q_get_data_author _ _ _ _ _ _ _ _ _ _ _ _ H) as (_ & _ & m & Hm & Q & C & F).
  exists m. repeat split; auto. destruct (name_chan_c01q name); auto.
Qed.

Definition rows_live (ms : list Topic.msgrow) : Prop := forall m, In m ms -> Topic.m_delid m = 0%Z /\ (0 <= Topic.m_seq m)%Z.

(* an unbounded query of a reader shows every stored row (at most the adapter's page of 100) *)
Lemma q_history_complete ms u :
  rows_live ms -> (length ms <= 100)%nat ->
  Permutation (Topic.ad_msg_get_all (store_of_c01q ms) u 0%Z 0%Z 0%Z) ms.
Proof.
  intros L H. unfold Topic.ad_msg_get_all, store_of_c01q. cbn [Topic.msgs Topic.dellog].
  rewrite filter_all_true.
  - assert (Z.to_nat (Topic.eff_limit Topic.max_msg_results 0) = 100%nat) as -> by reflexivity.
    rewrite firstn_all2; [apply TopicHistProofs.sort_desc_perm|]. rewrite (Permutation_length (TopicHistProofs.sort_desc_perm ms)). exact H.
  - intros m Hm. destruct (L m Hm) as [D S]. rewrite D. cbn.
    destruct (0 <=? Topic.m_seq m)%Z eqn:E; [reflexivity|]. apply Z.leb_gt in E. lia.
Qed.

(* ------------------------------------------------------------------ *)
(* steps                                                                *)

(* a request of the base model other than a publish: no outcome, lastID unchanged *)
Lemma step_nonpub_lastid st o ost res :
  step st o = (ost, res) -> (forall px, o <> OPub px) ->
  res = None /\ st_lastid (next_state st ost) = st_lastid st.
Proof.
  intros H NP.
  assert (Hopt : forall (r : option state), (forall st', r = Some st' -> frame_ok st st') ->
          st_lastid (next_state st r) = st_lastid st).
  { intros [y|] Hy; cbn [next_state]; [|reflexivity]. destruct (Hy y eq_refl) as (_ & E & _). exact E. }
  destruct o; cbn [step] in H; try (inv H; split; [reflexivity|]).
  - apply Hopt. apply frame_attach.
  - apply Hopt. apply frame_detach.
  - cbn [next_state]. destruct (frame_trans _ _ _ (frame_drop st s) (frame_set_full (rm s (st_full st)) (drop_session st s))) as (_ & E & _). exact E.
  - apply Hopt. apply frame_unsub.
  - apply Hopt. apply frame_set_want.
  - apply Hopt. apply frame_set_given.
  - apply Hopt. apply frame_evict_op.
  - cbn [next_state]. destruct (is_full st s); reflexivity.
  - reflexivity.
  - exfalso. exact (NP px eq_refl).
Qed.

Definition numbered_c01q (n : nat) (ms : list Topic.msgrow) : Prop :=
  map Topic.m_seq ms = map Z.of_nat (seq 1 n) /\ (forall m, In m ms -> Topic.m_delid m = 0%Z).
(* the stored rows are numbered 1 .. lastID, one row per number *)
Definition qinv (x : qstate) : Prop := exists n, st_lastid (q_st x) = Z.of_nat n /\ numbered_c01q n (q_msgs x).

Lemma qinv_init st : st_lastid st = 0%Z -> qinv (qinit st).
Proof. intros H. exists 0%nat. split; [exact H|]. split; [reflexivity|intros m []]. Qed.

Lemma numbered_live n ms : numbered_c01q n ms -> rows_live ms /\ length ms = n /\ NoDup (map Topic.m_seq ms).
Proof.
  intros [E D]. split; [|split].
  - intros m Hm. split; [exact (D m Hm)|].
    assert (In (Topic.m_seq m) (map Topic.m_seq ms)) as K by (apply in_map; exact Hm).
    rewrite E in K. apply in_map_iff in K. destruct K as (k & <- & _). lia.
  - rewrite <- (map_length Topic.m_seq ms), E, map_length, seq_length. reflexivity.
  - rewrite E. apply FinFun.Injective_map_NoDup; [intros a b; lia|apply seq_NoDup].
Qed.

(* an accepted publish stores the row (acknowledged number, author, content) and makes that number lastID *)
Lemma qstep_pub_accepted x px q a c p st' :
  publish (q_st x) px = (PAccepted q a c p, st') ->
  qstep x (QBase (OPub px)) =
    (Some (mkQ st' (q_msgs x ++ [Topic.mkMsg q (px_author px) (px_content px) 0%Z])), Some (PAccepted q a c p), []) /\
  q = (st_lastid (q_st x) + 1)%Z /\ st_lastid st' = q.
Proof.
  intros H. destruct (overflow_detached (q_st x) px q a c p st' H) as (Q & _ & _ & L & _).
  split; [|split; assumption]. unfold qstep. cbn [step]. rewrite H. reflexivity.
Qed.

(* every other request stores nothing *)
Lemma qstep_stores_nothing x o ox res out :
  qstep x o = (ox, res, out) ->
  (forall px q a c p, o = QBase (OPub px) -> res <> Some (PAccepted q a c p)) ->
  q_msgs (qnext x ox) = q_msgs x /\ st_lastid (q_st (qnext x ox)) = st_lastid (q_st x).
Proof.
  intros H NA. destruct o as [bo|s u name i|s u name a b l]; unfold qstep in H.
  - destruct (step (q_st x) bo) as [ost r] eqn:ES. inv H.
    assert (stored_c01q (q_msgs x) bo res = q_msgs x) as SM.
    { unfold stored_c01q. destruct bo; try reflexivity. destruct res as [[| | |q a c p]|]; try reflexivity.
      exfalso. exact (NA px q a c p eq_refl eq_refl). }
    destruct bo; try (destruct (step_nonpub_lastid _ _ _ _ ES) as [_ L]; [intros px E; discriminate|];
                      destruct ost as [st'|]; cbn [option_map qnext q_msgs q_st next_state] in *; rewrite ?SM; split; auto).
    cbn [step] in ES. destruct (publish (q_st x) px) as [r st'] eqn:EP. inv ES. cbn [option_map qnext q_msgs q_st]. rewrite SM.
    split; [reflexivity|]. destruct (accepts (q_st x) px) eqn:EA.
    + rewrite (publish_accepted _ _ EA) in EP. inv EP. exfalso. eapply NA; reflexivity.
    + destruct (publish_refused _ _ EA) as [R _]. rewrite EP in R. cbn in R. now subst.
  - destruct (has_key s (st_sess (q_st x))); inv H; split; reflexivity.
  - destruct (has_key s (st_sess (q_st x))); inv H; split; reflexivity.
Qed.

Lemma qstep_inv x o : qinv x -> qinv (qnext x (fst (fst (qstep x o)))).
Proof.
  intros (n & L & E & D).
  destruct (qstep x o) as [[ox res] out] eqn:H. cbn [fst].
  assert ((exists px q a c p, o = QBase (OPub px) /\ res = Some (PAccepted q a c p)) \/
          (forall px q a c p, o = QBase (OPub px) -> res <> Some (PAccepted q a c p))) as [(px & q & a & c & p & -> & ->)|NA].
  { destruct o as [[]|?|?]; try (right; intros; discriminate).
    destruct res as [[| | |q a c p]|]; try (right; intros; discriminate). left. repeat eexists. }
  - unfold qstep in H. cbn [step] in H. destruct (publish (q_st x) px) as [r st'] eqn:EP. inv H.
    destruct (qstep_pub_accepted x px q a c p st' EP) as (_ & Q & L').
    cbn [option_map qnext]. exists (S n). cbn [q_st q_msgs stored_c01q]. split; [lia|]. split.
    + rewrite map_app, E, seq_S, map_app. cbn [map Topic.m_seq]. f_equal. f_equal. lia.
    + intros m Hm. apply in_app_or in Hm. destruct Hm as [Hm|[<-|[]]]; [exact (D m Hm)|reflexivity].
  - destruct (qstep_stores_nothing x o ox res out H NA) as [M L']. exists n. rewrite M, L'. repeat split; assumption.
Qed.

Lemma qrun_inv ops : forall x, qinv x -> qinv (fst (qrun x ops)).
Proof.
  induction ops as [|o r IH]; intros x I; cbn [qrun fst]; [exact I|].
  pose proof (qstep_inv x o I) as I1. destruct (qstep x o) as [[ox res] out]. cbn [fst] in I1.
  specialize (IH _ I1). destruct (qrun (qnext x ox) r) as [x2 outs]. exact IH.
Qed.

(* stored rows are never changed or removed: the log only grows *)
Lemma qstep_prefix x o : exists tl, q_msgs (qnext x (fst (fst (qstep x o)))) = q_msgs x ++ tl.
Proof.
  destruct o as [bo|s u name i|s u name a b l]; unfold qstep.
  - destruct (step (q_st x) bo) as [ost res]. cbn [fst]. destruct ost as [st'|]; cbn [option_map qnext q_msgs]; [|exists []; now rewrite app_nil_r].
    unfold stored_c01q. destruct bo; try (exists []; now rewrite app_nil_r).
    destruct res as [[| | |q a c p]|]; try (exists []; now rewrite app_nil_r). eexists. reflexivity.
  - destruct (has_key s (st_sess (q_st x))); cbn [fst qnext]; exists []; now rewrite app_nil_r.
  - destruct (has_key s (st_sess (q_st x))); cbn [fst qnext]; exists []; now rewrite app_nil_r.
Qed.

Lemma qrun_prefix ops : forall x, exists tl, q_msgs (fst (qrun x ops)) = q_msgs x ++ tl.
Proof.
  induction ops as [|o r IH]; intros x; cbn [qrun fst]; [exists []; now rewrite app_nil_r|].
  destruct (qstep_prefix x o) as [t1 E1]. destruct (qstep x o) as [[ox res] out]. cbn [fst] in E1.
  destruct (IH (qnext x ox)) as [t2 E2]. destruct (qrun (qnext x ox) r) as [x2 outs]. cbn [fst] in *.
  exists (t1 ++ t2). rewrite E2, E1, app_assoc. reflexivity.
Qed.

(* non-vacuity: a channel-enabled group; owner 1 attached as grpXXX, reader 3 attached as chnXXX; two publishes;
   the reader's description (ims not before the last update) shows 2, his history shows rows 2 and 1 without author *)
Definition wq_st : state :=
  mkState KChn 1 47 [(1, mkPud 255 255 false false 0 1%Z); (3, mkPud 11 11 false true 0 1%Z)]
          [(1, mkPsd 1 false); (3, mkPsd 3 true)] 0%Z [] [(3, 11)] [].
Definition wq_ops : list qop :=
  [QBase (OPub (mkPx 1 1 1 TGrp false true 101 [])); QBase (OPub (mkPx 1 1 1 TGrp false true 102 []));
   QGetDesc 3 3 TChn TopicImsC01.ImsNotBefore; QGetData 3 3 TChn 0%Z 0%Z 0%Z].
Lemma wq_ok :
  snd (qrun (qinit wq_st) wq_ops) =
  [[]; []; [(3, QDesc true true 2%Z)]; [(3, QData TChn 0 2%Z 102); (3, QData TChn 0 1%Z 101); (3, QCtrl 208%Z)]].
Proof. vm_compute. reflexivity. Qed.
