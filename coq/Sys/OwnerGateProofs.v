(* C06: the owner-only gates: trusted content needs root, and the owner is not locked out. *)
From Coq Require Import ZArith NArith List Bool.
From Tinode Require Import Sys.OwnerGate.
Import ListNotations.
Open Scope Z_scope.

Lemma gate_trusted_root r code : gate GSetTrusted r = GAll code -> g_root r = true.
Proof. destruct r as [l a oc os sb rt]. cbn. unfold gate_desc. cbn. destruct a, rt, oc; cbn; auto; discriminate. Qed.

Lemma gate_owner_served k r : g_attached r = true -> g_loaded r = true -> g_owner_c r = true -> g_root r = true ->
  k <> GSetDefacs true -> gate k r = GAll 200.
Proof.
  destruct r as [l a oc os sb rt]. cbn. intros -> -> -> -> NK.
  destruct k as [| | |[|]|]; cbn; try reflexivity. congruence.
Qed.
