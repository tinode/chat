(* Shared by the topic proofs: tactics, the projection [seqs] with the frame lemmas of the store
   primitives, and a few list lemmas. *)
From Coq Require Import ZArith NArith List Bool Lia.
From Tinode Require Import Base.Util Pure.Acs Sys.Topic.
Import ListNotations.
Open Scope Z_scope.

Ltac break_match :=
  match goal with
  | |- context [match ?x with _ => _ end] => destruct x eqn:?
  end.
Ltac break_match_hyp :=
  match goal with
  | H : context [match ?x with _ => _ end] |- _ => destruct x eqn:?
  end.
Ltac inv H := inversion H; subst; clear H.

(* the projection the numbering properties read *)
Definition seqs (s : store) : list Z := map m_seq (msgs s).

Lemma seqs_subs f s : seqs (st_subs f s) = seqs s. Proof. reflexivity. Qed.
Lemma seqs_dellog f s : seqs (st_dellog f s) = seqs s. Proof. reflexivity. Qed.
Lemma seqs_owner v s : seqs (st_owner v s) = seqs s. Proof. reflexivity. Qed.
Lemma seqs_seqid v s : seqs (st_seqid v s) = seqs s. Proof. reflexivity. Qed.
Lemma seqs_delid v s : seqs (st_delid v s) = seqs s. Proof. reflexivity. Qed.

Lemma seqs_sub_create s u w g : seqs (ad_sub_create s u w g) = seqs s.
Proof. unfold ad_sub_create. repeat break_match; reflexivity. Qed.
Lemma seqid_sub_create s u w g : t_seqid (ad_sub_create s u w g) = t_seqid s.
Proof. unfold ad_sub_create. repeat break_match; reflexivity. Qed.
Lemma seqs_subs_update s u up : seqs (ad_subs_update s u up) = seqs s.
Proof. unfold ad_subs_update. break_match; reflexivity. Qed.
Lemma seqid_subs_update s u up : t_seqid (ad_subs_update s u up) = t_seqid s.
Proof. unfold ad_subs_update. break_match; reflexivity. Qed.
Lemma seqs_subs_delete s u s' : ad_subs_delete s u = Some s' -> seqs s' = seqs s /\ t_seqid s' = t_seqid s.
Proof. unfold ad_subs_delete. break_match; intros H; inv H. split; reflexivity. Qed.
Lemma seqs_delete_list s d fu rs : seqs (ad_msg_delete_list s d fu rs) = seqs s.
Proof.
  unfold ad_msg_delete_list, seqs. break_match; cbn; [|reflexivity].
  rewrite map_map. apply map_ext. intros m. break_match; reflexivity.
Qed.
Lemma seqid_delete_list s d fu rs : t_seqid (ad_msg_delete_list s d fu rs) = t_seqid s.
Proof. unfold ad_msg_delete_list. break_match; reflexivity. Qed.
Lemma delete_list_subs s d fu rs : subs (ad_msg_delete_list s d fu rs) = subs s.
Proof. unfold ad_msg_delete_list. break_match; reflexivity. Qed.

(* MessageSave succeeds only with a number that no stored message has *)
Lemma msg_save_some s seq u content s2 : ad_msg_save s seq u content = Some s2 ->
  ~ In seq (seqs s) /\ s2 = st_msgs (fun l => l ++ [mkMsg seq u content 0]) s.
Proof.
  unfold ad_msg_save. destruct (existsb _ _) eqn:EX; [discriminate|]. intros E. inv E. split; [|reflexivity].
  intros Hin. apply in_map_iff in Hin. destruct Hin as [m [Hm1 Hm2]].
  rewrite (proj2 (existsb_exists _ _)) in EX; [discriminate|]. exists m. split; [exact Hm2|]. apply Z.eqb_eq, Hm1.
Qed.

#[export] Hint Rewrite seqs_subs seqs_dellog seqs_owner seqs_seqid seqs_delid seqs_sub_create seqid_sub_create
  seqs_subs_update seqid_subs_update seqs_delete_list seqid_delete_list : topic.

Lemma NoDup_app_single {A} (l : list A) (x : A) : NoDup l -> ~ In x l -> NoDup (l ++ [x]).
Proof.
  intros H1 H2. apply (NoDup_Add (Add_app x l [])). rewrite app_nil_r. split; assumption.
Qed.

Lemma nodup_map_filter {A B} (g : A -> B) (p : A -> bool) l : NoDup (map g l) -> NoDup (map g (filter p l)).
Proof.
  induction l as [|x l IH]; cbn; [auto|]. intros ND. inversion ND as [|? ? NI ND']; subst.
  destruct (p x); cbn; [|auto]. constructor; [|auto].
  intros HI. apply NI. apply in_map_iff in HI. destruct HI as [y [E HI]]. apply filter_In in HI.
  apply in_map_iff. exists y. tauto.
Qed.

Lemma firstn_In {A} (n : nat) (l : list A) (x : A) : In x (firstn n l) -> In x l.
Proof. intros H. rewrite <- (firstn_skipn n l). apply in_or_app. now left. Qed.
