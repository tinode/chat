(* C03: proofs about the wrapper model Sys/TopicLife.v (deletion window, suspension, me/fnd/sys). *)
From Coq Require Import ZArith NArith List Bool Lia.
From Tinode Require Import Base.Util Pure.Acs Sys.Topic Sys.TopicTac Sys.TopicFrame Sys.TopicNum Sys.TopicOut
  Sys.TopicNumThm Sys.TopicPub Sys.TopicMarks Sys.TopicMeta Sys.TopicCoh Sys.TopicLife.
Import ListNotations.
Open Scope Z_scope.

Section LifeProofs.
Variable dr : Z -> list (Z * Z) -> option (list (Z * Z)).
Variable nr : list (Z * Z) -> list (Z * Z).
Variable sm : sessmap.

Notation xstep := (TopicLife.xstep dr nr sm).
Notation xcore := (TopicLife.xcore dr nr sm).
Notation xrun := (TopicLife.xrun dr nr sm).
Notation base_step := (TopicLife.base_step dr nr sm).

(* the conjunction the property lists, for the group topic *)
Definition xaccepts (x : xstate) (sid : N) : bool :=
  match x_del x with
  | Some _ => false                               (* being deleted *)
  | None => negb (x_ro x) && accepts sm (xb x) sid  (* not suspended; attached; W in want and given *)
  end.

(* invariants of reachable states *)
Definition xwf (x : xstate) : Prop :=
  (ca (xb x) = None -> x_ro x = false) /\ (x_del x <> None -> ca (xb x) <> None).
Definition sys_inv (x : xstate) : Prop :=
  (forall m, In m (x_sys_msgs x) -> m_seq m <= x_sys_lastid x) /\ x_sys_lastid x <= x_sys_seqid x.
(* 'sys' is never read-only; every peer-to-peer topic satisfies the numbering invariant and has no read-only bit
   while it is not loaded *)
Definition pt_inv (p : ptopic) : Prop := inv_num (pt_b p) /\ (ca (pt_b p) = None -> pt_ro p = false).
Definition xp_inv (x : xstate) : Prop := x_sys_ro x = false /\ Forall pt_inv (x_p2p x).
Definition xinv (x : xstate) : Prop := inv_num (xb x) /\ xwf x /\ sys_inv x /\ xp_inv x.

Lemma accepts_attached b sid : accepts sm b sid = true -> match ca b with Some c => attached c sid = true | None => False end.
Proof. unfold accepts. destruct (ca b); [|discriminate]. intros H. apply andb_true_iff in H. tauto. Qed.

Lemma unattached_rejects b sid : match ca b with Some c => attached c sid | None => false end = false -> accepts sm b sid = false.
Proof. unfold accepts. destruct (ca b); [|reflexivity]. intros ->. reflexivity. Qed.

Lemma step_f_nofault b o : step_f dr nr sm b (NoFault, o) = step dr nr sm NoFault b o.
Proof. unfold step_f. cbn [fst snd]. destruct (step dr nr sm NoFault b o). reflexivity. Qed.

(* a read-only topic answers an attached session's publish with 403; everybody else's goes to the
   topic's own publish, whose decision is [accepts] *)
Lemma gate_accept_iff b (ro : bool) sid content noecho : inv_num b ->
  ((exists n, first_reply (if ro && match ca b with Some c => attached c sid | None => false end
                           then [(sid, Ctrl 403 [])] else snd (step_f dr nr sm b (NoFault, OPub sid content noecho))) sid
              = Some (Ctrl 202 [(P_seq, n)]))
   <-> negb ro && accepts sm b sid = true).
Proof.
  intros I. rewrite step_f_nofault. pose proof (accept_iff dr nr sm b sid content noecho I) as A.
  destruct ro; cbn [andb negb]; [|exact A].
  destruct (match ca b with Some c => attached c sid | None => false end) eqn:AT.
  - unfold first_reply. rewrite N.eqb_refl. split; [intros [n H]; discriminate|discriminate].
  - rewrite (unattached_rejects b sid AT) in A. split; [intros H; apply A in H; discriminate|discriminate].
Qed.

(* ---------- a rejected publish ---------- *)
(* exactly one error reply, to the sender; nothing stored anywhere; and unless the fault plan is a crash
   (the process dies after replying) nothing in memory changes either *)
Definition stores_same (x x' : xstate) : Prop :=
  st (xb x') = st (xb x) /\ x_susp x' = x_susp x /\ x_sys_seqid x' = x_sys_seqid x /\ x_sys_msgs x' = x_sys_msgs x /\
  map (fun p => st (pt_b p)) (x_p2p x') = map (fun p => st (pt_b p)) (x_p2p x).
Definition is_crash (f : fault) : bool := match f with CrashAt _ => true | _ => false end.

Lemma stores_same_after_crash f x y : stores_same x y -> stores_same x (after_crash f y).
Proof.
  intros [A [B [C [D E]]]]. destruct f; cbn [after_crash]; try (repeat split; assumption).
  unfold mem_reset. repeat split; cbn; try assumption. rewrite map_map. exact E.
Qed.

(* every event but a publish to the group topic is served after a held delete has finished *)
Lemma xstep_finish x e : match e with EBase _ (OPub _ _ _) => False | _ => True end ->
  xstep x e = (fst (xcore (fst (del_finish x)) e), snd (del_finish x) ++ snd (xcore (fst (del_finish x)) e)).
Proof.
  intros NP. unfold TopicLife.xstep. destruct (x_del x) eqn:D.
  - destruct (del_finish x) as [x1 o1]. cbn [fst snd].
    destruct e as [f []| | | | | | | | |]; try contradiction; destruct (xcore x1 _); reflexivity.
  - unfold del_finish. rewrite D. cbn [fst snd app]. destruct (xcore x e). reflexivity.
Qed.

(* ---------- invariants ---------- *)
Lemma inv_num_drop b n : inv_num b -> inv_num (mkState (st b) None n).
Proof. destruct b as [s [c|] n0]; intros I; [apply (inv_num_unload s c n0 n); exact I|exact I]. Qed.

Lemma xp_inv_mem_reset x : xp_inv x -> xp_inv (mem_reset x).
Proof.
  intros [_ P]. split; [reflexivity|]. unfold mem_reset. cbn [x_p2p].
  apply Forall_map. eapply Forall_impl; [|exact P]. intros p [I _]. split; cbn [pt_b pt_ro ca]; [|reflexivity].
  apply inv_num_drop. exact I.
Qed.

Lemma xinv_mem_reset x : inv_num (xb x) -> sys_inv x -> xp_inv x -> xinv (mem_reset x).
Proof.
  intros I [S1 S2] P. split; [|split; [|split]].
  - unfold mem_reset. cbn [xb]. apply inv_num_drop. exact I.
  - unfold xwf, mem_reset. cbn. split; [reflexivity|congruence].
  - unfold sys_inv, mem_reset. cbn. split; [intros m Hm; specialize (S1 m Hm); lia|lia].
  - apply xp_inv_mem_reset. exact P.
Qed.
Lemma xinv_after_crash f x : xinv x -> xinv (after_crash f x).
Proof. intros X. destruct f; cbn; auto. destruct X as [I [_ [S P]]]. now apply xinv_mem_reset. Qed.

Lemma inv_num_wipe s n : inv_num (mkState (wipe s) None n).
Proof. unfold inv_num. cbn. split; [intros n0 []|]. split; [constructor|lia]. Qed.

Lemma del_after_crash f x : x_del x = None -> x_del (after_crash f x) = None.
Proof. destruct f; cbn; auto. Qed.

Lemma xinv_del_finish x : xinv x -> xinv (fst (del_finish x)) /\ x_del (fst (del_finish x)) = None.
Proof.
  intros X. unfold del_finish. destruct (x_del x) as [[sid f]|] eqn:D; [|split; [exact X|exact D]].
  destruct X as [I [[W1 W2] S]].
  destruct (fails f 1); cbn [fst].
  - split; [|apply del_after_crash; reflexivity]. apply xinv_after_crash. split; [|split].
    + cbn. exact I.
    + split; cbn; [exact W1|congruence].
    + exact S.
  - split; [|apply del_after_crash; reflexivity]. apply xinv_after_crash. split; [|split].
    + cbn. apply inv_num_wipe.
    + split; cbn; [reflexivity|congruence].
    + exact S.
Qed.

Lemma xinv_base_step x f o : x_del x = None -> xinv x -> xinv (fst (base_step x f o)) /\ x_del (fst (base_step x f o)) = None.
Proof.
  intros D [I [[W1 W2] S]]. unfold TopicLife.base_step.
  destruct (if x_ro x && x_attached x (op_sid o) then _ else None) as [code|]; cbn [fst].
  - split; [|apply del_after_crash; exact D].
    destruct f; cbn [after_crash].
    + split; [exact I|split]; [split; cbn; [exact W1|rewrite D; congruence]|exact S].
    + split; [exact I|split]; [split; cbn; [exact W1|rewrite D; congruence]|exact S].
    + destruct S as [S P]. apply xinv_mem_reset; [cbn; apply inv_num_drop; exact I|exact S|exact P].
  - pose proof (step_f_inv_num dr nr sm (xb x) (f, o) I) as I1.
    destruct (step_f dr nr sm (xb x) (f, o)) as [b1 o1]. cbn [fst] in *.
    assert (X2 : xinv (match ca b1 with None => set_ro false (set_b b1 x) | Some _ => set_b b1 x end)).
    { split; [destruct (ca b1); exact I1|]. split; [|destruct (ca b1); exact S].
      destruct (ca b1) eqn:CB; split; cbn; try rewrite CB; try rewrite D; congruence. }
    assert (D2 : x_del (match ca b1 with None => set_ro false (set_b b1 x) | Some _ => set_b b1 x end) = None)
      by (destruct (ca b1); exact D).
    split.
    + destruct o; try (apply xinv_after_crash; exact X2).
      destruct X2 as [A [_ [B P]]]. now apply xinv_mem_reset.
    + destruct o; try (apply del_after_crash; exact D2). reflexivity.
Qed.

Lemma xinv_publish_sys x f sid c : xinv x -> xinv (fst (publish_sys sm x f sid c)).
Proof.
  intros X. unfold publish_sys. destruct (sess_uid sm sid =? 0)%N; [exact X|].
  destruct (x_sys_ro x); [cbn [fst]; apply xinv_after_crash; exact X|].
  destruct X as [I [W [[S1 S2] P]]].
  repeat break_match; cbn [fst]; apply xinv_after_crash; (split; [exact I|split; [exact W|split; [|exact P]]]);
    unfold sys_inv, set_sys; cbn; try (split; [exact S1|lia]).
  split; [|lia]. intros m Hm. apply in_app_or in Hm. destruct Hm as [Hm|[Hm|[]]]; [specialize (S1 m Hm); lia|subst m; cbn; lia].
Qed.

(* ---------- hub.topicsStateForUser ---------- *)
Lemma state_pred_grp m o u : state_pred CatGrp m o u = N.eqb o u.
Proof. reflexivity. Qed.
Lemma state_pred_sys m o u : state_pred CatSys m o u = N.eqb o u.
Proof. reflexivity. Qed.
Lemma state_pred_p2p m o u : state_pred CatP2P m o u = m || N.eqb o u.
Proof. reflexivity. Qed.
Lemma state_pred_me m o u : state_pred CatMe m o u = false.
Proof. reflexivity. Qed.
Lemma state_pred_fnd m o u : state_pred CatFnd m o u = false.
Proof. reflexivity. Qed.

Lemma mark_topics_xb x u b : xb (mark_topics x u b) = xb x.
Proof. unfold mark_topics. repeat break_match; reflexivity. Qed.
Lemma mark_topics_del x u b : x_del (mark_topics x u b) = x_del x.
Proof. unfold mark_topics. repeat break_match; reflexivity. Qed.
Lemma mark_topics_susp x u b : x_susp (mark_topics x u b) = x_susp x.
Proof. unfold mark_topics. repeat break_match; reflexivity. Qed.
Lemma mark_topics_sys x u b : x_sys_seqid (mark_topics x u b) = x_sys_seqid x /\
  x_sys_lastid (mark_topics x u b) = x_sys_lastid x /\ x_sys_msgs (mark_topics x u b) = x_sys_msgs x /\
  x_sys_subs (mark_topics x u b) = x_sys_subs x /\ x_me (mark_topics x u b) = x_me x /\ x_fnd (mark_topics x u b) = x_fnd x.
Proof. unfold mark_topics. repeat break_match; repeat split; reflexivity. Qed.
Lemma mark_topics_p2p x u b : x_p2p (mark_topics x u b) = map (mark_p2p u b) (x_p2p x).
Proof. unfold mark_topics. repeat break_match; reflexivity. Qed.
(* the group topic: marked iff it is loaded and u is its owner *)
Lemma mark_topics_ro x u b : x_ro (mark_topics x u b) =
  match ca (xb x) with Some c => if N.eqb (c_owner c) u then b else x_ro x | None => x_ro x end.
Proof.
  unfold mark_topics. destruct (ca (xb x)) as [c|]; [rewrite state_pred_grp; destruct (N.eqb (c_owner c) u)|];
    destruct (state_pred CatSys _ _ _); reflexivity.
Qed.
(* 'sys' has no owner: never marked by the suspension of an account *)
Lemma mark_topics_sys_ro x u b : u <> 0%N -> x_sys_ro (mark_topics x u b) = x_sys_ro x.
Proof.
  intros U. unfold mark_topics. rewrite state_pred_sys.
  destruct (N.eqb_spec 0 u) as [E|_]; [exfalso; apply U; symmetry; exact E|].
  repeat break_match; reflexivity.
Qed.
Lemma mark_p2p_b u b p : pt_b (mark_p2p u b p) = pt_b p.
Proof. unfold mark_p2p. repeat break_match; reflexivity. Qed.
Lemma mark_p2p_ro u b p : pt_ro (mark_p2p u b p) =
  match ca (pt_b p) with
  | Some c => if is_member c u || N.eqb (c_owner c) u then b else pt_ro p
  | None => pt_ro p
  end.
Proof. unfold mark_p2p. destruct (ca (pt_b p)) as [c|]; [rewrite state_pred_p2p; destruct (_ || _)|]; reflexivity. Qed.
Lemma mark_p2p_inv u b p : pt_inv p -> pt_inv (mark_p2p u b p).
Proof.
  intros [I R]. split; [rewrite mark_p2p_b; exact I|]. rewrite mark_p2p_b, mark_p2p_ro. intros E. rewrite E. exact (R E).
Qed.

Lemma xinv_mark_topics x u b : u <> 0%N -> xinv x -> xinv (mark_topics x u b).
Proof.
  intros U [I [[W1 W2] [[S1 S2] [R P]]]]. destruct (mark_topics_sys x u b) as [E1 [E2 [E3 _]]].
  split; [rewrite mark_topics_xb; exact I|]. split; [|split].
  - split; rewrite mark_topics_xb.
    + intros E. rewrite mark_topics_ro, E. exact (W1 E).
    + rewrite mark_topics_del. exact W2.
  - unfold sys_inv. rewrite E1, E2, E3. split; assumption.
  - split; [rewrite (mark_topics_sys_ro x u b U); exact R|].
    rewrite mark_topics_p2p. apply Forall_map. eapply Forall_impl; [|exact P]. intros p. apply mark_p2p_inv.
Qed.

Lemma xinv_suspend x f u b : xinv x -> xinv (suspend x f u b).
Proof.
  intros X. unfold suspend.
  destruct (call f 0) as [ok1 n1]. destruct (negb ok1); [exact X|].
  destruct (N.eqb_spec u 0) as [E|U]; [exact X|].
  destruct (alookup u (users (st (xb x)))); [|exact X].
  destruct (Bool.eqb (memN u (x_susp x)) b); [exact X|].
  destruct (call f n1) as [ok2 n2]. destruct (negb ok2); [exact X|].
  apply xinv_mark_topics; [exact U|exact X].
Qed.

(* ---------- peer-to-peer topics ---------- *)
Lemma Forall_upd_nth {A} (P : A -> Prop) k v l : Forall P l -> P v -> Forall P (upd_nth k v l).
Proof.
  revert k. induction l as [|a r IH]; intros k F V; [destruct k; constructor|].
  inversion F; subst. destruct k; cbn; constructor; auto.
Qed.
Lemma nth_error_Forall {A} (P : A -> Prop) l k v : Forall P l -> nth_error l k = Some v -> P v.
Proof. intros F E. apply nth_error_In in E. rewrite Forall_forall in F. auto. Qed.

Lemma xinv_set_p2p x l : xinv x -> Forall pt_inv l -> xinv (set_p2p l x).
Proof. intros (I & W & S & R & _) F. exact (conj I (conj W (conj S (conj R F)))). Qed.

Lemma xinv_p2p_step x k f po : xinv x -> xinv (fst (TopicLife.p2p_step dr nr sm x k f po)) /\
  (x_del x = None -> x_del (fst (TopicLife.p2p_step dr nr sm x k f po)) = None).
Proof.
  intros X. unfold p2p_step. destruct (nth_error (x_p2p x) k) as [p|] eqn:E; [|split; [exact X|auto]].
  destruct (negb _); [split; [exact X|auto]|].
  assert (PI : pt_inv p) by (destruct X as [_ [_ [_ [_ P]]]]; exact (nth_error_Forall _ _ _ _ P E)).
  assert (P : Forall pt_inv (x_p2p x)) by (destruct X as [_ [_ [_ [_ P]]]]; exact P).
  destruct (pt_ro p && pt_attached p (op_sid (p2p_op po)) && is_ppub po) eqn:BL; cbn [fst].
  - split; [|intros D; apply del_after_crash; exact D].
    apply xinv_after_crash. apply xinv_set_p2p; [exact X|]. apply Forall_upd_nth; [exact P|].
    destruct PI as [I R]. split; cbn [pt_b pt_ro ca]; [destruct (pt_b p); exact I|exact R].
  - pose proof (step_f_inv_num dr nr sm (pt_b p) (f, p2p_op po) (proj1 PI)) as I1.
    destruct (step_f dr nr sm (pt_b p) (f, p2p_op po)) as [b1 o1]. cbn [fst] in *.
    split; [|intros D; apply del_after_crash; exact D].
    apply xinv_after_crash. apply xinv_set_p2p; [exact X|]. apply Forall_upd_nth; [exact P|].
    split; cbn [pt_b pt_ro]; [exact I1|]. intros C. rewrite C. reflexivity.
Qed.

Lemma xinv_xcore x e : x_del x = None -> xinv x -> xinv (fst (xcore x e)).
Proof.
  intros D X. destruct e; cbn [TopicLife.xcore].
  - apply xinv_base_step; assumption.
  - destruct (ca (xb x)) eqn:CA; [|exact X].
    destruct (negb (sess_uid sm sid =? 0)%N && (c_owner c =? sess_uid sm sid)%N); cbn [fst]; [|exact X].
    destruct X as [I [[W1 W2] S]]. split; [exact I|split; [|exact S]]. split; cbn; [exact W1|intros _; congruence].
  - exact X.
  - cbn [fst]. apply xinv_after_crash. apply xinv_suspend. exact X.
  - destruct (_ || _); exact X.
  - destruct (_ || _); exact X.
  - exact X.
  - exact X.
  - apply xinv_publish_sys. exact X.
  - apply xinv_p2p_step. exact X.
Qed.

Lemma xinv_xstep x e : xinv x -> xinv (fst (xstep x e)).
Proof.
  intros X. destruct (xinv_del_finish x X) as [X1 D1].
  assert (G : match e with EBase _ (OPub _ _ _) => False | _ => True end -> xinv (fst (xstep x e))).
  { intros NP. rewrite (xstep_finish x e NP). cbn [fst]. apply xinv_xcore; assumption. }
  destruct e as [f []| | | | | | | | |]; try exact (G I).
  unfold TopicLife.xstep. destruct (x_del x) as [d|] eqn:D; [|apply xinv_xcore; assumption]. cbn [fst].
  destruct X as [I [[W1 W2] S]]. split; [exact I|split; [|exact S]]. split; cbn; assumption.
Qed.

Lemma xinv_xrun h : forall x, xinv x -> xinv (fst (xrun x h)).
Proof.
  induction h as [|e h IH]; intros x X; cbn [TopicLife.xrun fst]; [exact X|].
  pose proof (xinv_xstep x e X) as X1. destruct (xstep x e) as [x1 o1]. cbn [fst] in X1.
  specialize (IH x1 X1). destruct (xrun x1 h) as [x2 os]. exact IH.
Qed.

Lemma xinv_init_pop s subs ps : fresh s -> Forall fresh ps -> xinv (xinit_pop s subs ps).
Proof.
  intros F FP. split; [apply fresh_inv; exact F|]. split; [split; cbn; congruence|].
  split; [split; cbn; [intros m []|lia]|]. split; [reflexivity|]. unfold xinit_pop. cbn [x_p2p].
  apply Forall_map. eapply Forall_impl; [|exact FP]. intros s' F'. split; cbn [pt_b pt_ro ca]; [apply fresh_inv; exact F'|reflexivity].
Qed.
Lemma xinv_init s : fresh s -> xinv (xinit s).
Proof. intros F. apply xinv_init_pop; [exact F|constructor]. Qed.

(* ---------- suspension ---------- *)
Definition susp_upd (l : list N) (u : N) (b : bool) : list N :=
  if b then u :: l else filter (fun v => negb (N.eqb v u)) l.

(* a request that changes the state of an existing account marks the loaded topics; any other request
   (unknown account, account already in that state, a failed store call) changes nothing at all *)
Lemma suspend_success x u b a : u <> 0%N -> alookup u (users (st (xb x))) = Some a -> memN u (x_susp x) = negb b ->
  suspend x NoFault u b = mark_topics (set_susp (susp_upd (x_susp x) u b) x) u b.
Proof.
  intros U US MS. unfold suspend. cbn [call fails negb].
  destruct (N.eqb_spec u 0) as [E|_]; [contradiction|]. rewrite US, MS.
  destruct b; reflexivity.
Qed.
Lemma suspend_cases x f u b : suspend x f u b = x \/
  (u <> 0%N /\ memN u (x_susp x) = negb b /\ suspend x f u b = mark_topics (set_susp (susp_upd (x_susp x) u b) x) u b).
Proof.
  unfold suspend. destruct (call f 0) as [ok1 n1]. destruct (negb ok1); [left; reflexivity|].
  destruct (N.eqb_spec u 0) as [E|U]; [left; reflexivity|].
  destruct (alookup u (users (st (xb x)))); [|left; reflexivity].
  destruct (Bool.eqb (memN u (x_susp x)) b) eqn:EB; [left; reflexivity|].
  destruct (call f n1) as [ok2 n2]. destruct (negb ok2); [left; reflexivity|].
  right. split; [exact U|]. split; [|destruct b; reflexivity].
  destruct (memN u (x_susp x)), b; cbn in *; congruence.
Qed.

(* a suspension as an event of a history *)
Lemma xstep_suspend x f u b : x_del x = None -> xstep x (ESuspend f u b) = (after_crash f (suspend x f u b), []).
Proof. intros D. unfold TopicLife.xstep. rewrite D. reflexivity. Qed.

(* ---------- publishes to a peer-to-peer topic ---------- *)
Definition p2p_addressable (p : ptopic) (sid : N) : bool :=
  negb (sess_uid sm sid =? 0)%N && p2p_party p (sess_uid sm sid).
(* the conjunction the property lists, for a peer-to-peer topic *)
Definition p2p_accepts (p : ptopic) (sid : N) : bool :=
  p2p_addressable p sid && negb (pt_ro p) && accepts sm (pt_b p) sid.

(* the stores of the peer-to-peer topics *)
Definition p2p_stores (x : xstate) : list store := map (fun p => st (pt_b p)) (x_p2p x).
Lemma p2p_stores_mem_reset x : p2p_stores (mem_reset x) = p2p_stores x.
Proof. unfold p2p_stores, mem_reset. cbn [x_p2p]. rewrite map_map. apply map_ext. reflexivity. Qed.
Lemma p2p_stores_after_crash f x : p2p_stores (after_crash f x) = p2p_stores x.
Proof. destruct f; cbn [after_crash]; auto using p2p_stores_mem_reset. Qed.
Lemma upd_nth_same_store k p p' l : nth_error l k = Some p -> st (pt_b p') = st (pt_b p) ->
  map (fun q => st (pt_b q)) (upd_nth k p' l) = map (fun q => st (pt_b q)) l.
Proof.
  revert k. induction l as [|a r IH]; intros k E S; [destruct k; discriminate|].
  destruct k; cbn in *; [inversion E; subst; rewrite S; reflexivity|]. rewrite (IH k E S). reflexivity.
Qed.

(* ---------- the cached grant is the stored grant, along every history of the wrapper model ---------- *)
Definition xaccepts_stored (x : xstate) (sid : N) : bool :=
  match x_del x with
  | Some _ => false
  | None => negb (x_ro x) && accepts_stored sm (xb x) sid
  end.

Lemma xaccepts_stored_eq x sid : cohx (xb x) -> xaccepts x sid = xaccepts_stored x sid.
Proof.
  intros C. unfold xaccepts, xaccepts_stored. destruct (x_del x); [reflexivity|].
  f_equal. unfold accepts. apply (accepts_stored_eq sm (xb x) sid C).
Qed.

(* the same two triggers as for the group-topic model, looked at in the state in which the request is served *)
Definition xsafe_step (x : xstate) (e : xev) : bool :=
  match e with
  | EBase f o =>
    match x_del x, o with
    | Some _, OPub _ _ _ => true
    | _, _ => safe_step sm (xb (fst (del_finish x))) (f, o)
    end
  | _ => true
  end.

Lemma cohx_drop b n : cohx b -> cohx (mkState (st b) None n).
Proof. unfold cohx. cbn. destruct (ca b); [intros [W _]; exact W|auto]. Qed.
Lemma cohx_ncalls s c n n' : cohx (mkState s c n) -> cohx (mkState s c n').
Proof. auto. Qed.
Lemma cohx_wipe s n : cohx (mkState (wipe s) None n).
Proof. unfold cohx, wf_store. cbn. constructor. Qed.
Lemma cohx_after_crash f x : cohx (xb x) -> cohx (xb (after_crash f x)).
Proof. destruct f; cbn [after_crash]; auto. intros C. unfold mem_reset. cbn [xb]. now apply cohx_drop. Qed.

Lemma cohx_del_finish x : cohx (xb x) -> cohx (xb (fst (del_finish x))).
Proof.
  intros C. unfold del_finish. destruct (x_del x) as [[sid f]|]; [|exact C].
  destruct (fails f 1); cbn [fst]; apply cohx_after_crash; cbn [xb set_del set_ro set_b].
  - destruct (xb x) as [s c n]. exact C.
  - apply cohx_wipe.
Qed.

Lemma xb_suspend x f u b : xb (suspend x f u b) = xb x.
Proof. destruct (suspend_cases x f u b) as [->|[_ [_ ->]]]; [reflexivity|rewrite mark_topics_xb; reflexivity]. Qed.

Lemma xb_p2p_step x k f po : xb (fst (TopicLife.p2p_step dr nr sm x k f po)) = xb (after_crash f x) \/ xb (fst (TopicLife.p2p_step dr nr sm x k f po)) = xb x.
Proof.
  unfold TopicLife.p2p_step. destruct (nth_error (x_p2p x) k); [|right; reflexivity].
  destruct (negb _); [right; reflexivity|].
  destruct (_ && _ && _); cbn [fst]; [left; destruct f; reflexivity|].
  destruct (step_f dr nr sm (pt_b p) (f, p2p_op po)). cbn [fst]. left. destruct f; reflexivity.
Qed.

Lemma cohx_publish_sys x f sid c : cohx (xb x) -> cohx (xb (fst (publish_sys sm x f sid c))).
Proof.
  intros C. unfold publish_sys. repeat break_match; cbn [fst]; try exact C; apply cohx_after_crash; exact C.
Qed.

Lemma cohx_base_step x f o : safe_step sm (xb x) (f, o) = true -> cohx (xb x) -> cohx (xb (fst (base_step x f o))).
Proof.
  intros SF C. unfold TopicLife.base_step.
  destruct (if x_ro x && x_attached x (op_sid o) then _ else None) as [code|]; cbn [fst].
  - apply cohx_after_crash. cbn [xb set_b]. destruct f; [destruct (xb x); exact C|destruct (xb x); exact C|].
    apply (cohx_drop (xb x) 0 C).
  - pose proof (step_f_cohx dr nr sm (xb x) (f, o) SF C) as C1.
    destruct (step_f dr nr sm (xb x) (f, o)) as [b1 o1]. cbn [fst] in *.
    assert (C2 : cohx (xb (match ca b1 with None => set_ro false (set_b b1 x) | Some _ => set_b b1 x end)))
      by (destruct (ca b1); exact C1).
    destruct o; try (apply cohx_after_crash; exact C2).
    unfold mem_reset. cbn [xb]. apply cohx_drop. exact C2.
Qed.

Lemma cohx_xcore x e : (match e with EBase f o => safe_step sm (xb x) (f, o) | _ => true end) = true ->
  cohx (xb x) -> cohx (xb (fst (xcore x e))).
Proof.
  intros SF C. destruct e; cbn [TopicLife.xcore].
  - now apply cohx_base_step.
  - repeat break_match; exact C.
  - exact C.
  - cbn [fst]. apply cohx_after_crash. rewrite xb_suspend. exact C.
  - repeat break_match; exact C.
  - repeat break_match; exact C.
  - exact C.
  - exact C.
  - now apply cohx_publish_sys.
  - destruct (xb_p2p_step x k f o) as [->| ->]; [apply cohx_after_crash|]; exact C.
Qed.

Lemma cohx_xstep x e : xsafe_step x e = true -> cohx (xb x) -> cohx (xb (fst (xstep x e))).
Proof.
  intros SF C.
  assert (G : match e with EBase _ (OPub _ _ _) => False | _ => True end ->
              (match e with EBase f o => safe_step sm (xb (fst (del_finish x))) (f, o) | _ => true end) = true ->
              cohx (xb (fst (xstep x e)))).
  { intros NP SF'. rewrite (xstep_finish x e NP). cbn [fst]. apply cohx_xcore; [exact SF'|apply cohx_del_finish, C]. }
  destruct e as [f o| | | | | | | | |]; try exact (G I eq_refl).
  unfold xsafe_step in SF. destruct o; try (apply (G I); destruct (x_del x); exact SF).
  unfold TopicLife.xstep. destruct (x_del x) as [d|] eqn:D.
  - cbn [fst xb set_b]. destruct (xb x); exact C.
  - apply cohx_xcore; [|exact C]. unfold del_finish in SF. rewrite D in SF. exact SF.
Qed.

Fixpoint xsafe_run (x : xstate) (h : list xev) : Prop :=
  match h with
  | [] => True
  | e :: r => xsafe_step x e = true /\ xsafe_run (fst (xstep x e)) r
  end.

Lemma cohx_xrun h : forall x, xsafe_run x h -> cohx (xb x) -> cohx (xb (fst (xrun x h))).
Proof.
  induction h as [|e h IH]; intros x SR C; cbn [TopicLife.xrun fst]; [exact C|].
  destruct SR as [SF SR]. pose proof (cohx_xstep x e SF C) as C1.
  destruct (xstep x e) as [x1 o1]. cbn [fst] in *.
  specialize (IH x1 SR C1). destruct (xrun x1 h) as [x2 os]. exact IH.
Qed.
End LifeProofs.
