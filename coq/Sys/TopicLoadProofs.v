(* Proofs about Sys/TopicLoad.v: what every load path leaves in lastID / delID, the numbering
   invariant of p2p and sys histories (any faults, crashes, unloads, restarts, the deletion
   and re-creation of a p2p topic), the characterisation of publish, and "everything ever
   shown is at most the persisted mark". *)
From Coq Require Import ZArith NArith List Bool Lia.
From Tinode Require Import Base.Util Pure.Acs Sys.Topic Sys.TopicTac Sys.TopicFrame Sys.TopicNum Sys.TopicOut Sys.TopicLoad.
Import ListNotations.
Open Scope Z_scope.

(* ------------------------------------------------------------------ *)
(* store primitives leave the topic row's counters and the messages alone *)
Lemma sc_exists s u w g : t_exists (ad_sub_create s u w g) = t_exists s.
Proof. destruct (sframe_sub_create s u w g) as [H _]. exact H. Qed.
Lemma sc_delid s u w g : t_delid (ad_sub_create s u w g) = t_delid s.
Proof. destruct (sframe_sub_create s u w g) as [_ [_ [H _]]]. exact H. Qed.
Lemma sc_msgs s u w g : msgs (ad_sub_create s u w g) = msgs s.
Proof. destruct (sframe_sub_create s u w g) as [_ [_ [_ [_ [_ [H _]]]]]]. exact H. Qed.
Lemma su_exists s u up : t_exists (ad_subs_update s u up) = t_exists s.
Proof. destruct (sframe_subs_update s u up) as [H _]. exact H. Qed.
Lemma su_delid s u up : t_delid (ad_subs_update s u up) = t_delid s.
Proof. destruct (sframe_subs_update s u up) as [_ [_ [H _]]]. exact H. Qed.
#[export] Hint Rewrite sc_exists sc_delid sc_msgs seqid_sub_create su_exists su_delid seqid_subs_update msgs_subs_update : lload.

(* ------------------------------------------------------------------ *)
(* what a successful load leaves in the cache, per kind and branch      *)

(* initTopicP2P, every branch: existing topic with both subscriptions, one subscription
   missing or soft-deleted (recreated), brand-new topic *)
Lemma init_p2p_ok f s n u1 u2 s' c n' ns :
  init_p2p f s n u1 u2 = LOk s' c n' ns ->
  l_lastid c = t_seqid s' /\ l_delid c = t_delid s' /\ l_sess c = [] /\ t_exists s' = true /\ msgs s' = msgs s /\
  (if t_exists s then t_seqid s' = t_seqid s /\ t_delid s' = t_delid s else t_seqid s' = 0 /\ t_delid s' = 0).
Proof.
  unfold init_p2p. destruct (call f n) as [ok1 n1]. destruct (negb ok1); [discriminate|].
  destruct (if t_exists s then call f n1 else (true, n1)) as [ok2 n2]. destruct (negb ok2); [discriminate|].
  destruct (t_exists s && _); [discriminate|]. destruct (t_exists s && _) eqn:E4.
  - intros [= <- <- _ _]. apply andb_prop in E4 as [-> _]. cbn. auto 10.
  - destruct (call f n2) as [ok3 n3]. destruct (negb ok3); [discriminate|]. destruct (u1 =? u2)%N; [discriminate|].
    destruct (alookup u1 (users s)) as [acc1|]; [|discriminate]. destruct (alookup u2 (users s)) as [acc2|]; [|discriminate].
    destruct (call f n3) as [ok4 n4]. destruct (negb ok4); [discriminate|].
    (* the modes written do not matter *)
    match goal with |- LOk (if _ then if _ then ad_sub_create s u1 ?w1 ?g1 else ad_sub_create s u2 ?w2 ?g2 else _) _ _ _ = _ -> _ =>
      generalize w1; generalize g1; generalize w2; generalize g2 end.
    intros g2 w2 g1 w1 [= <- <- _ _].
    cbn [l_lastid l_delid l_sess]. destruct (t_exists s) eqn:EX; [destruct (match _ with Some _ => true | None => false end)|];
      autorewrite with lload; cbn [p2p_row t_exists t_seqid t_delid msgs]; auto 10.
Qed.

Lemma init_sys_ok f s n s' c n' ns :
  init_sys f s n = LOk s' c n' ns ->
  s' = s /\ l_lastid c = t_seqid s /\ l_delid c = t_delid s /\ l_sess c = [] /\ t_exists s = true.
Proof.
  unfold init_sys. destruct (call f n) as [ok1 n1]. destruct (negb ok1); [discriminate|].
  destruct (t_exists s); [|discriminate]. destruct (call f n1) as [ok2 n2]. destruct (negb ok2); [discriminate|].
  intros [= <- <- _ _]. cbn. auto.
Qed.

Lemma init_me_fnd_ok f s n s' c n' ns :
  init_me_fnd f s n = LOk s' c n' ns -> s' = s /\ l_lastid c = 0 /\ l_delid c = 0.
Proof. unfold init_me_fnd. intros H. repeat (break_match_hyp; try discriminate); inv H. auto. Qed.

(* after ANY load of a topic that carries messages, lastID and delID are the stored seqid and
   delid, which the load does not change (initTopicSys: delID since /repo 91f0ab5) *)
Lemma init_topic_ok k f s n u1 u2 s' c n' ns :
  init_topic k f s n u1 u2 = LOk s' c n' ns -> carries_messages k = true ->
  l_lastid c = t_seqid s' /\ l_delid c = t_delid s' /\ (t_exists s = true -> t_seqid s' = t_seqid s /\ t_delid s' = t_delid s).
Proof.
  destruct k; cbn [init_topic carries_messages]; intros H C; try discriminate.
  - apply init_p2p_ok in H. destruct H as (H1 & H2 & _ & _ & _ & H3). split; [exact H1|]. split; [exact H2|].
    intros E. rewrite E in H3. exact H3.
  - unfold init_grp in H. destruct (try_load f s n) as [n1 [c0|code]] eqn:TL; [|discriminate].
    apply try_load_cases in TL. subst c0. injection H as <- <- _ _. cbn. auto.
  - apply init_sys_ok in H. destruct H as (-> & H1 & H2 & _). auto.
Qed.

(* the two loads a p2p / sys history performs, as one *)
Lemma lload_ok k f s n u other s' c n' ns :
  lload k f s n u other = LOk s' c n' ns ->
  l_lastid c = t_seqid s' /\ t_exists s' = true /\ msgs s' = msgs s /\ t_seqid s' = (if t_exists s then t_seqid s else 0).
Proof.
  destruct k; cbn [lload]; intros H.
  - apply init_p2p_ok in H. destruct H as (H1 & _ & _ & H2 & H3 & H4). repeat split; try assumption.
    destruct (t_exists s); apply H4.
  - apply init_sys_ok in H. destruct H as (-> & H1 & _ & _ & H2). rewrite H2. auto.
Qed.

Lemma load_sys_delid f s n s' c n' ns : init_sys f s n = LOk s' c n' ns -> l_delid c = t_delid s.
Proof. intros H. apply init_sys_ok in H. tauto. Qed.

(* the loader as it was before /repo 91f0ab5 left delID at 0 whatever the stored row said *)
Lemma load_sys_unrepaired_delid_zero f s n s' c n' ns :
  init_sys_unrepaired f s n = LOk s' c n' ns -> s' = s /\ l_delid c = 0.
Proof.
  unfold init_sys_unrepaired. intros H. repeat (break_match_hyp; try discriminate); inv H. cbn. auto.
Qed.

(* ------------------------------------------------------------------ *)
(* numbering invariant                                                  *)
Definition sinv (s : store) : Prop :=
  (forall n, In n (seqs s) -> 1 <= n <= t_seqid s) /\ NoDup (seqs s) /\ 0 <= t_seqid s /\
  (t_exists s = false -> msgs s = [] /\ t_seqid s = 0).
Definition cinv (s : store) (c : lcache) : Prop :=
  0 <= l_lastid c /\ l_lastid c <= t_seqid s <= l_lastid c + 1 /\ (forall n, In n (seqs s) -> n <= l_lastid c).
(* (a) every stored number lies in 1..seqid, (b) numbers are unique, (c) a topic row that does
   not exist has no messages, (d) while loaded lastID <= seqid <= lastID+1 and every stored
   number is at most lastID *)
Definition linv (x : lstate) : Prop :=
  sinv (x_st x) /\ match x_ca x with Some c => cinv (x_st x) c | None => True end.

(* the handlers other than publish leave the numbering slice of the store alone *)
Definition nsame (s s' : store) : Prop := t_exists s' = t_exists s /\ t_seqid s' = t_seqid s /\ msgs s' = msgs s.
Lemma nsame_refl s : nsame s s. Proof. repeat split. Qed.
Lemma nsame_trans a b c : nsame a b -> nsame b c -> nsame a c.
Proof. unfold nsame. intuition congruence. Qed.
Lemma sframe_nsame s s' : sframe s s' -> nsame s s'.
Proof. intros [H1 [H2 [_ [_ [_ [H3 _]]]]]]. repeat split; assumption. Qed.
Lemma nsame_sub_create s u w g : nsame s (ad_sub_create s u w g).
Proof. apply sframe_nsame, sframe_sub_create. Qed.
Lemma nsame_subs_update s u up : nsame s (ad_subs_update s u up).
Proof. apply sframe_nsame, sframe_subs_update. Qed.
Lemma nsame_seqs s s' : nsame s s' -> seqs s' = seqs s.
Proof. intros [_ [_ H]]. unfold seqs. now rewrite H. Qed.

Lemma sinv_nsame s s' : nsame s s' -> sinv s -> sinv s'.
Proof.
  intros N [A [B [C D]]]. pose proof (nsame_seqs _ _ N) as E. destruct N as [N1 [N2 N3]].
  unfold sinv. rewrite E, N1, N2, N3. auto.
Qed.
Lemma cinv_nsame s s' c c' : nsame s s' -> l_lastid c' = l_lastid c -> cinv s c -> cinv s' c'.
Proof.
  intros N L [A [B C]]. pose proof (nsame_seqs _ _ N) as E. destruct N as [_ [N2 _]].
  unfold cinv. rewrite E, N2, L. auto.
Qed.

(* ------------------------------------------------------------------ *)
(* message numbers a frame shows to a client                            *)
Definition lframe_seqs (fr : lframe) : list Z :=
  match fr with
  | LCtrl _ (Some n) => [n]
  | LData n _ _ => [n]
  | LDesc n => [n]
  | _ => []
  end.
Definition lout_seqs (o : lout) : list Z := flat_map (fun e => lframe_seqs (snd e)) o.
Definition lshown_le (bound : Z) (o : lout) : Prop := forall n, In n (lout_seqs o) -> n <= bound.
Definition lplain (fr : lframe) : bool := match fr with LCtrl _ None => true | _ => false end.
Definition all_lout (P : lframe -> bool) (o : lout) : Prop := forall e, In e o -> P (snd e) = true.

Lemma all_lout_nil P : all_lout P []. Proof. intros e []. Qed.
Lemma all_lout_one P sid fr : P fr = true -> all_lout P [(sid, fr)].
Proof. intros H e [<-|[]]. exact H. Qed.
Lemma l_evict_lastid c u : l_lastid (l_evict c u) = l_lastid c. Proof. reflexivity. Qed.

(* what {sub} leaves behind: the numbering slice of the store, lastID, and nothing but plain replies *)
Definition lh_keeps (s : store) (c : lcache) (h : lh) : Prop :=
  nsame s (lh_st h) /\ l_lastid (lh_ca h) = l_lastid c /\ all_lout lplain (lh_out h).

Lemma lsub_spec k root f s c n sid u ns : lh_keeps s c (lsub k root f s c n sid u ns).
Proof.
  (* every outcome is a record (s1, c1, n1, one plain reply) whose store is s up to a subscription
     row and whose cache is c up to users and attachments *)
  assert (R : forall s1 c1 n1 code, nsame s s1 -> l_lastid c1 = l_lastid c -> lh_keeps s c (mkLH s1 c1 n1 [(sid, LCtrl code None)])).
  { intros s1 c1 n1 code N L. split; [exact N|]. split; [exact L|apply all_lout_one; reflexivity]. }
  assert (A : forall (b : bool) c', l_lastid (if b then l_set_sess (aset sid u) c' else c') = l_lastid c') by (intros []; reflexivity).
  assert (K : forall n1 code, lh_keeps s c (mkLH s c n1 [(sid, LCtrl code None)])) by (intros; apply R; [apply nsame_refl|reflexivity]).
  unfold lsub. destruct (alookup u (l_users c)) as [p|].
  - destruct (lp_deleted p).
    + destruct (negb (is_joiner (lp_given p))); [apply K|].
      destruct (call f n) as [ok1 n1]. destruct (negb ok1); [apply K|].
      destruct (negb (is_joiner _)); (apply R; [apply nsame_sub_create|rewrite A; reflexivity]).
    + destruct (if negb _ then call f n else (true, n)) as [ok1 n1]. destruct (negb ok1); [apply K|].
      assert (N : forall (b : bool) up, nsame s (if b then ad_subs_update s u up else s))
        by (intros [] up; [apply nsame_subs_update|apply nsame_refl]).
      destruct (negb (is_joiner _)); [apply R; [apply N|rewrite A; reflexivity]|].
      destruct (negb (is_joiner _)); (apply R; [apply N|]); [reflexivity|rewrite A; reflexivity].
  - destruct k; [apply K|]. destruct (negb root); [apply K|].
    destruct (call f n) as [ok1 n1]. destruct (negb ok1); [apply K|]. apply R; [apply nsame_sub_create|rewrite A; reflexivity].
Qed.

Lemma lleave_unsub_cases k f s c n sid u s1 co n1 o1 :
  lleave_unsub k f s c n sid u = (s1, co, n1, o1) ->
  all_lout lplain o1 /\
  ((nsame s s1 /\ exists c1, co = Some c1 /\ l_lastid c1 = l_lastid c) \/
   (k = LP2P /\ co = None /\ t_exists s1 = false /\ msgs s1 = [] /\ t_seqid s1 = 0)).
Proof.
  unfold lleave_unsub. intros H.
  repeat (break_match_hyp; try discriminate); inv H; (split; [apply all_lout_one; reflexivity|]);
    try (left; split; [first [apply nsame_refl | apply sframe_nsame; eapply sframe_subs_delete; eassumption]
                      | eexists; split; [reflexivity|reflexivity]]).
  right. cbn. repeat split; auto.
Qed.

(* ------------------------------------------------------------------ *)
(* publish: either nothing is numbered, or the message got lastID+1     *)
Definition lacked (o : lout) (sid : N) (n : Z) : Prop := In (sid, LCtrl 202 (Some n)) o.
Definition lno_ack (o : lout) : Prop := forall sid n, ~ lacked o sid n.

Lemma lfanout_frames c skip fr x : In x (lfanout c skip fr) -> snd x = fr.
Proof.
  unfold lfanout. rewrite in_flat_map. intros [e [_ H]].
  repeat break_match_hyp; cbn in H; intuition; subst; reflexivity.
Qed.

Definition lpub_refused (s : store) (c : lcache) (sid : N) (h : lh) : Prop :=
  lh_ca h = c /\ msgs (lh_st h) = msgs s /\ t_exists (lh_st h) = t_exists s /\
  (t_seqid (lh_st h) = t_seqid s \/ (t_exists s = true /\ t_seqid (lh_st h) = l_lastid c + 1)) /\ lno_ack (lh_out h) /\
  exists code, lh_out h = [(sid, LCtrl code None)] /\ 400 <= code.
Definition lpub_numbered (s : store) (c : lcache) (sid u content : N) (noecho : bool) (h : lh) : Prop :=
  l_lastid (lh_ca h) = l_lastid c + 1 /\ t_seqid (lh_st h) = l_lastid c + 1 /\ t_exists (lh_st h) = true /\
  msgs (lh_st h) = msgs s ++ [mkMsg (l_lastid c + 1) u content 0] /\
  ~ In (l_lastid c + 1) (seqs s) /\
  lh_out h = (sid, LCtrl 202 (Some (l_lastid c + 1))) ::
             lfanout (lh_ca h) (if noecho then sid else 0%N) (LData (l_lastid c + 1) u content).

Lemma lpub_refused_intro s c sid s0 n0 code :
  400 <= code -> msgs s0 = msgs s -> t_exists s0 = t_exists s ->
  (t_seqid s0 = t_seqid s \/ (t_exists s = true /\ t_seqid s0 = l_lastid c + 1)) ->
  lpub_refused s c sid (mkLH s0 c n0 [(sid, LCtrl code None)]).
Proof.
  intros Hc H1 H2 H3. unfold lpub_refused. cbn. repeat split; auto.
  - intros a b [H|[]]. discriminate.
  - exists code. split; [reflexivity|exact Hc].
Qed.

(* a numbered publish needs the topic row: MessageSave fails on the foreign key otherwise *)
Lemma lpublish_cases_row k f s c n sid u content noecho :
  let h := lpublish k f s c n sid u content noecho in
  lpub_refused s c sid h \/ (t_exists s = true /\ lpub_numbered s c sid u content noecho h).
Proof.
  cbn zeta. unfold lpublish.
  destruct (match k with LSys => false | LP2P => negb (is_writer (lp_mode (lget c u))) end).
  { left. apply lpub_refused_intro; auto; lia. }
  destruct (call f n) as [ok1 n1]. destruct (negb ok1). { left. apply lpub_refused_intro; auto; lia. }
  destruct (call f n1) as [ok2 n2]. destruct (t_exists s) eqn:EX.
  2:{ left. destruct (negb ok2); cbn [negb]; apply lpub_refused_intro; auto; lia. }
  destruct (negb ok2); cbn [negb]. { left. apply lpub_refused_intro; auto 6; lia. }
  destruct (ad_msg_save (st_seqid (l_lastid c + 1) s) (l_lastid c + 1) u content) as [s2|] eqn:SV.
  2:{ left. apply lpub_refused_intro; auto 6; lia. }
  right. split; [reflexivity|].
  destruct (msg_save_some _ _ _ _ _ SV) as [NI ->]. change (~ In (l_lastid c + 1) (seqs s)) in NI.
  destruct (if is_reader (lp_mode (lget c u)) then call f n2 else (true, n2)) as [ok3 n3].
  unfold lpub_numbered. destruct (is_reader (lp_mode (lget c u)) && ok3);
    cbn [lh_st lh_ca lh_out l_lastid l_set_lastid]; autorewrite with lload; cbn [t_seqid t_exists msgs st_msgs st_seqid];
    repeat split; auto.
Qed.

Lemma lpublish_cases k f s c n sid u content noecho :
  let h := lpublish k f s c n sid u content noecho in
  lpub_refused s c sid h \/ lpub_numbered s c sid u content noecho h.
Proof. destruct (lpublish_cases_row k f s c n sid u content noecho) as [H|[_ H]]; [left|right]; exact H. Qed.

Lemma lpublish_inv k f s c n sid u content noecho :
  sinv s -> cinv s c ->
  sinv (lh_st (lpublish k f s c n sid u content noecho)) /\
  cinv (lh_st (lpublish k f s c n sid u content noecho)) (lh_ca (lpublish k f s c n sid u content noecho)).
Proof.
  intros [A [B [C D]]] [C0 [C1 C2]].
  destruct (lpublish_cases k f s c n sid u content noecho) as [[E1 [E2 [E3 [E4 _]]]]|[E1 [E2 [E3 [E4 [E5 _]]]]]].
  - assert (seqs (lh_st (lpublish k f s c n sid u content noecho)) = seqs s) as ES by (unfold seqs; now rewrite E2).
    unfold sinv, cinv. rewrite ES, E1, E2, E3. split.
    + split; [|split; [exact B|split]].
      * intros m Hm. specialize (A m Hm). specialize (C2 m Hm). destruct E4 as [E4|[_ E4]]; rewrite E4; lia.
      * destruct E4 as [E4|[_ E4]]; rewrite E4; lia.
      * intros NE. destruct E4 as [E4|[E4 _]]; [rewrite E4; auto|congruence].
    + repeat split; auto; destruct E4 as [E4|[_ E4]]; rewrite E4; lia.
  - assert (seqs (lh_st (lpublish k f s c n sid u content noecho)) = seqs s ++ [l_lastid c + 1]) as ES.
    { unfold seqs. rewrite E4, map_app. reflexivity. }
    unfold sinv, cinv. rewrite ES, E1, E2, E3. split.
    + split; [|split; [|split]].
      * intros m Hm. apply in_app_or in Hm. destruct Hm as [Hm|[Hm|[]]].
        -- specialize (A m Hm). specialize (C2 m Hm). lia.
        -- lia.
      * apply NoDup_app_single; assumption.
      * lia.
      * discriminate.
    + repeat split; try lia. intros m Hm. apply in_app_or in Hm. destruct Hm as [Hm|[Hm|[]]].
      * specialize (C2 m Hm). lia.
      * lia.
Qed.

Lemma load_cinv s c : sinv s -> l_lastid c = t_seqid s -> cinv s c.
Proof.
  intros [A [B [C D]]] E. unfold cinv. rewrite E. split; [exact C|]. split; [lia|].
  intros m Hm. apply A in Hm. lia.
Qed.

Lemma lload_seqid k f s n u other s' c n' ns : sinv s -> lload k f s n u other = LOk s' c n' ns -> t_seqid s' = t_seqid s.
Proof.
  intros (_ & _ & _ & D) H. apply lload_ok in H. destruct H as (_ & _ & _ & ->).
  destruct (t_exists s); [reflexivity|]. symmetry. apply D. reflexivity.
Qed.

Lemma lload_inv k f s n u other s' c n' ns :
  sinv s -> lload k f s n u other = LOk s' c n' ns -> sinv s' /\ cinv s' c.
Proof.
  intros I H. pose proof (lload_seqid _ _ _ _ _ _ _ _ _ _ I H) as E. apply lload_ok in H. destruct H as (H1 & H2 & H3 & _).
  assert (sinv s') as I'.
  { destruct I as (A & B & C & _). unfold sinv, seqs. rewrite H3, E, H2.
    split; [exact A|]. split; [exact B|]. split; [exact C|discriminate]. }
  split; [exact I'|]. apply load_cinv; assumption.
Qed.

Lemma boot_lastid k s c : boot k s = Some c -> l_lastid c = t_seqid s.
Proof.
  unfold boot. destruct k; [discriminate|].
  destruct (init_sys NoFault s 0) as [code n1|s1 c1 n1 ns] eqn:E; [discriminate|].
  intros [= <-]. apply init_sys_ok in E. apply E.
Qed.

Lemma boot_inv k s : sinv s -> match boot k s with Some c => cinv s c | None => True end.
Proof.
  intros S. destruct (boot k s) as [c|] eqn:E; [|exact I]. apply load_cinv; [exact S|exact (boot_lastid k s c E)].
Qed.


(* ------------------------------------------------------------------ *)
(* one request                                                          *)

(* what a frame may show when nothing is numbered: nothing, a stored number, 0 or the cached lastID *)
Definition lreads (s : store) (cx : option lcache) (fr : lframe) : Prop :=
  match fr with
  | LCtrl _ None => True
  | LCtrl _ (Some _) => False
  | LData m _ _ => In m (seqs s)
  | LDesc v => v = 0 \/ exists c, cx = Some c /\ v = l_lastid c
  end.
Definition all_reads (s : store) (cx : option lcache) (o : lout) : Prop := forall e, In e o -> lreads s cx (snd e).

Lemma plain_reads s cx o : all_lout lplain o -> all_reads s cx o.
Proof. intros H e He. specialize (H e He). destruct (snd e) as [code [m|]| |]; try discriminate. exact I. Qed.

Lemma lget_data_reads f s c n sid u cx :
  lh_st (lget_data f s c n sid u) = s /\ lh_ca (lget_data f s c n sid u) = c /\ all_reads s cx (lh_out (lget_data f s c n sid u)).
Proof.
  assert (P : forall code, all_reads s cx [(sid, LCtrl code None)]) by (intros code e [<-|[]]; exact I).
  unfold lget_data. destruct (is_reader _); [|repeat split; apply P].
  destruct (call f n) as [ok1 n1]. destruct (negb ok1); [repeat split; apply P|].
  destruct (ad_msg_get_all s u 0 0 0) as [|m0 ms] eqn:G; [repeat split; apply P|]. rewrite <- G. repeat split.
  intros e He. apply in_app_or in He. destruct He as [He|He]; [|exact (P _ e He)].
  apply in_map_iff in He. destruct He as [m [<- Hm]]. apply in_map. eapply get_all_in. exact Hm.
Qed.

Lemma loffline_desc_reads k f s cx sid other : all_reads s cx (snd (loffline_desc k f s sid other)).
Proof.
  unfold loffline_desc. destruct (call f 0) as [ok1 n1]. destruct (negb ok1); [intros e [<-|[]]; exact I|].
  destruct (negb _); [intros e [<-|[]]; exact I|]. destruct (call f n1) as [ok2 n2].
  destruct (negb ok2); intros e [<-|[]]; [exact I|left; reflexivity].
Qed.

Lemma lplain_shown b o : all_lout lplain o -> lshown_le b o.
Proof.
  intros H n Hn. unfold lout_seqs in Hn. apply in_flat_map in Hn. destruct Hn as [e [He Hn]].
  specialize (H e He). destruct (snd e) as [code [m|]| |]; cbn in *; try discriminate; destruct Hn.
Qed.
Lemma lshown_le_mono b b' o : b <= b' -> lshown_le b o -> lshown_le b' o.
Proof. intros H1 H2 n Hn. specialize (H2 n Hn). lia. Qed.

Lemma reads_shown s cx o : sinv s -> match cx with Some c => cinv s c | None => True end ->
  all_reads s cx o -> lshown_le (t_seqid s) o.
Proof.
  intros (A & _ & S0 & _) C R n Hn. unfold lout_seqs in Hn. apply in_flat_map in Hn. destruct Hn as [e [He Hn]].
  specialize (R e He). destruct (snd e) as [code [m|]|m a b|v]; cbn in R, Hn; try contradiction; destruct Hn as [<-|[]].
  - apply A in R. lia.
  - destruct R as [->|(c & -> & ->)]; [exact S0|]. destruct C as (_ & C & _). lia.
Qed.

Lemma lfanout_shown c skip seq u content b : seq <= b -> lshown_le b (lfanout c skip (LData seq u content)).
Proof.
  intros H n Hn. unfold lout_seqs in Hn. apply in_flat_map in Hn. destruct Hn as [e [He Hn]].
  apply lfanout_frames in He. rewrite He in Hn. cbn in Hn. destruct Hn as [<-|[]]. exact H.
Qed.

Lemma lpublish_shown k f s c n sid u content noecho :
  sinv s -> cinv s c ->
  lshown_le (t_seqid (lh_st (lpublish k f s c n sid u content noecho))) (lh_out (lpublish k f s c n sid u content noecho)) /\
  t_seqid s <= t_seqid (lh_st (lpublish k f s c n sid u content noecho)).
Proof.
  intros [A [B [C D]]] [C0 [C1 C2]].
  destruct (lpublish_cases k f s c n sid u content noecho) as [[E1 [E2 [E3 [E4 [_ [code [E5 E6]]]]]]]|[E1 [E2 [E3 [E4 [E5 E6]]]]]].
  - split; [rewrite E5; apply lplain_shown, all_lout_one; reflexivity|].
    destruct E4 as [E4|[_ E4]]; rewrite E4; lia.
  - rewrite E2. split; [|lia]. rewrite E6.
    intros m Hm. unfold lout_seqs in Hm. cbn [flat_map snd lframe_seqs app] in Hm. destruct Hm as [<-|Hm]; [lia|].
    revert m Hm. apply lfanout_shown. lia.
Qed.

Lemma lpublish_exists k f s c n sid u content noecho :
  t_exists (lh_st (lpublish k f s c n sid u content noecho)) = t_exists s.
Proof.
  destruct (lpublish_cases_row k f s c n sid u content noecho) as [(_ & _ & E & _)|(EX & _ & _ & E & _)]; [exact E|].
  rewrite E, EX. reflexivity.
Qed.

(* only a publish handled by the topic acknowledges a number or moves lastID *)
Definition lnonack (fr : lframe) : bool := match fr with LCtrl 202 (Some _) => false | _ => true end.
Lemma reads_nonack s cx o : all_reads s cx o -> all_lout lnonack o.
Proof.
  intros H e He. specialize (H e He). destruct (snd e) as [code [m|]| |]; try reflexivity; [contradiction|].
  unfold lnonack. destruct code as [|p|p]; try reflexivity. do 8 (destruct p; try reflexivity).
Qed.

Section Step.
Variable k : lkind.
Variable sm : sessmap.
Variable roots : list N.
Variable ua ub : N.

(* one request either leaves the store alone, numbers nothing and keeps, drops or re-attaches the
   cache at the same lastID; or is a {sub} served by the topic, loaded for it if need be; or is
   replyLeaveUnsub, or a publish handled by the topic, or the restart of the process *)
Inductive lstep_spec (f : fault) (s : store) (cx : option lcache) : lop -> lstate -> lout -> Prop :=
| ls_read o c' n1 out :
    c' = cx \/ c' = None \/ (exists c c1, cx = Some c /\ c' = Some c1 /\ l_lastid c1 = l_lastid c) ->
    all_reads s cx out -> lstep_spec f s cx o (mkLS s c' n1) out
| ls_sub o s1 c h :
    (cx = Some c /\ s1 = s) \/ (cx = None /\ exists u other n1 ns, lload k f s 0 u other = LOk s1 c n1 ns) ->
    lh_keeps s1 c h -> lstep_spec f s cx o (mkLS (lh_st h) (Some (lh_ca h)) (lh_n h)) (lh_out h)
| ls_unsub o c sid u s1 co n1 o1 :
    cx = Some c -> lleave_unsub k f s c 0 sid u = (s1, co, n1, o1) -> lstep_spec f s cx o (mkLS s1 co n1) o1
| ls_pub c sid content noecho h :
    cx = Some c -> lattached c sid = true \/ k = LSys -> h = lpublish k f s c 0 sid (sess_uid sm sid) content noecho ->
    lstep_spec f s cx (LPub sid content noecho) (mkLS (lh_st h) (Some (lh_ca h)) (lh_n h)) (lh_out h)
| ls_restart : lstep_spec f s cx LRestart (mkLS s (boot k s) 0) [].

Lemma lstep_shape f s cx n0 o :
  lstep_spec f s cx o (fst (lstep k sm roots ua ub f (mkLS s cx n0) o)) (snd (lstep k sm roots ua ub f (mkLS s cx n0) o)).
Proof.
  assert (KP : forall n1 sid code, lstep_spec f s cx o (mkLS s cx n1) [(sid, LCtrl code None)])
    by (intros; apply ls_read; [auto|]; intros e [<-|[]]; exact I).
  destruct o; unfold lstep; cbn [x_st x_ca].
  - destruct cx as [c|].
    + destruct (lattached c sid); cbn [fst snd]; [apply KP|]. apply (ls_sub _ _ _ _ s c); [auto|apply lsub_spec].
    + destruct (lload k f s 0 _ _) as [code n1|s1 c n1 ns] eqn:LD; cbn [fst snd]; [apply KP|].
      apply (ls_sub _ _ _ _ s1 c); [right; eauto 8|apply lsub_spec].
  - destruct cx as [c|]; [destruct (lattached c sid)|]; cbn [fst snd]; try apply KP.
    destruct unsub.
    + destruct (lleave_unsub k f s c 0 sid _) as [[[s1 co] n1] o1] eqn:LU. cbn [fst snd]. eapply ls_unsub; [reflexivity|exact LU].
    + cbn [fst snd lh_st lh_ca lh_n lh_out]. apply ls_read; [right; right; eauto|]. intros e [<-|[]]; exact I.
  - destruct cx as [c|]; [|destruct k; cbn [fst snd]; apply KP].
    destruct (lattached c sid || _) eqn:AT; cbn [fst snd]; [|apply KP].
    eapply ls_pub; [reflexivity| |reflexivity]. destruct (lattached c sid); [auto|]. destruct k; [discriminate|auto].
  - destruct cx as [c|]; [destruct (lattached c sid)|]; cbn [fst snd]; try apply KP.
    destruct (lget_data_reads f s c 0 sid (sess_uid sm sid) (Some c)) as (E1 & E2 & R). rewrite E1, E2.
    apply ls_read; [auto|exact R].
  - pose proof (loffline_desc_reads k f s cx sid (peer ua ub (sess_uid sm sid))) as R.
    destruct (loffline_desc k f s sid _) as [n1 o1]. cbn [snd] in R.
    destruct cx as [c|]; [destruct (lattached c sid)|]; cbn [fst snd]; try (apply ls_read; [auto|exact R]).
    apply ls_read; [auto|]. intros e [<-|[]]. cbn. destruct (is_reader _); [right; eauto|auto].
  - destruct k; destruct cx as [c|]; try destruct (l_sess c); cbn [fst snd]; (apply ls_read; [auto|intros e []]).
  - apply ls_restart.
Qed.

Lemma ls_inv f s cx o x' out : lstep_spec f s cx o x' out ->
  sinv s -> match cx with Some c => cinv s c | None => True end -> linv x'.
Proof.
  intros [o0 c' n1 out0 R _|o0 s1 c h L (N & E & _)|o0 c sid u s1 co n1 o1 -> LU|c sid content noecho h -> _ ->|] S C.
  - split; [exact S|]. cbn. destruct R as [->|[->|(c & c1 & -> & -> & E)]]; [exact C|exact I|].
    eapply cinv_nsame; [apply nsame_refl|exact E|exact C].
  - assert (sinv s1 /\ cinv s1 c) as [S1 C1].
    { destruct L as [[-> ->]|[-> (u & other & n1 & ns & LD)]]; [split; assumption|exact (lload_inv _ _ _ _ _ _ _ _ _ _ S LD)]. }
    split; cbn; [eapply sinv_nsame|eapply cinv_nsame]; eassumption.
  - apply lleave_unsub_cases in LU. destruct LU as [_ [[N [c1 [-> L]]]|[_ [-> [E1 [E2 E3]]]]]].
    + split; cbn; [eapply sinv_nsame|eapply cinv_nsame]; eassumption.
    + split; cbn; [|exact I]. unfold sinv, seqs. rewrite E2, E3. cbn.
      repeat split; auto; try lia; try constructor; intros m [].
  - destruct (lpublish_inv k f s c 0 sid (sess_uid sm sid) content noecho S C) as [S1 C1]. split; assumption.
  - split; cbn; [exact S|apply boot_inv, S].
Qed.

(* every number a step shows is at most the persisted mark after it; the mark does not
   decrease unless the step deletes the topic row (last unsubscribe of a p2p topic) *)
Lemma ls_shown f s cx o x' out : lstep_spec f s cx o x' out ->
  sinv s -> match cx with Some c => cinv s c | None => True end ->
  lshown_le (t_seqid (x_st x')) out /\
  ((t_exists s = true -> t_exists (x_st x') = true) -> t_seqid s <= t_seqid (x_st x')).
Proof.
  intros [o0 c' n1 out0 _ R|o0 s1 c h L ((_ & N & _) & _ & O)|o0 c sid u s1 co n1 o1 -> LU|c sid content noecho h -> _ ->|] S C; cbn [x_st].
  - split; [exact (reads_shown _ _ _ S C R)|lia].
  - rewrite N. split; [apply lplain_shown, O|]. intros _.
    destruct L as [[_ ->]|[_ (u & other & n1 & ns & LD)]]; [lia|]. rewrite (lload_seqid _ _ _ _ _ _ _ _ _ _ S LD). lia.
  - apply lleave_unsub_cases in LU. destruct LU as [LO [[[_ [N _]] _]|[_ [_ [E1 [E2 E3]]]]]].
    all: split; [apply lplain_shown; exact LO|].
    + intros _. rewrite N. lia.
    + intros H. destruct (t_exists s) eqn:EX; [specialize (H eq_refl); congruence|].
      destruct S as [_ [_ [_ D]]]. destruct (D EX) as [_ D2]. rewrite D2, E3. lia.
  - destruct (lpublish_shown k f s c 0 sid (sess_uid sm sid) content noecho S C) as [H1 H2]. split; [exact H1|intros _; exact H2].
  - split; [apply lplain_shown, all_lout_nil|lia].
Qed.

Lemma lstep_f_inv x fo : linv x -> linv (fst (lstep_f k sm roots ua ub x fo)).
Proof.
  intros [S C]. destruct x as [s cx n0]. unfold lstep_f.
  pose proof (ls_inv _ _ _ _ _ _ (lstep_shape (fst fo) s cx n0 (snd fo)) S C) as I1.
  destruct (lstep k sm roots ua ub (fst fo) _ (snd fo)) as [x1 o1]. cbn [fst] in *.
  destruct (fst fo); cbn [fst]; auto.
  destruct I1 as [S1 _]. split; cbn [x_st x_ca]; [exact S1|apply boot_inv; exact S1].
Qed.

Lemma lrun_inv h : forall x, linv x -> linv (fst (lrun k sm roots ua ub x h)).
Proof.
  induction h as [|fo h IH]; intros x I; cbn [lrun fst]; [exact I|].
  pose proof (lstep_f_inv x fo I) as I1.
  destruct (lstep_f k sm roots ua ub x fo) as [x1 o1]. cbn [fst] in I1.
  specialize (IH x1 I1). destruct (lrun k sm roots ua ub x1 h) as [x2 os]. exact IH.
Qed.

Lemma lstep_f_shown x fo : linv x ->
  let r := lstep_f k sm roots ua ub x fo in
  lshown_le (t_seqid (x_st (fst r))) (snd r) /\
  ((t_exists (x_st x) = true -> t_exists (x_st (fst r)) = true) -> t_seqid (x_st x) <= t_seqid (x_st (fst r))).
Proof.
  intros [S C]. destruct x as [s cx n0]. cbn zeta. unfold lstep_f.
  pose proof (ls_shown _ _ _ _ _ _ (lstep_shape (fst fo) s cx n0 (snd fo)) S C) as SH.
  destruct (lstep k sm roots ua ub (fst fo) _ (snd fo)) as [x1 o1]. cbn [fst snd] in *.
  destruct (fst fo); cbn [fst snd x_st]; exact SH.
Qed.

(* the history never deletes the topic row (for a p2p topic: the two parties never have
   both their subscriptions deleted) *)
Fixpoint keeps_row (x : lstate) (h : list (fault * lop)) : Prop :=
  match h with
  | [] => True
  | fo :: r => let x1 := fst (lstep_f k sm roots ua ub x fo) in
               (t_exists (x_st x) = true -> t_exists (x_st x1) = true) /\ keeps_row x1 r
  end.

(* every number shown anywhere in the history is at most the persisted mark at its end *)
Lemma lrun_shown h : forall x, linv x -> keeps_row x h ->
  Forall (lshown_le (t_seqid (x_st (fst (lrun k sm roots ua ub x h))))) (snd (lrun k sm roots ua ub x h)) /\
  t_seqid (x_st x) <= t_seqid (x_st (fst (lrun k sm roots ua ub x h))).
Proof.
  induction h as [|fo h IH]; intros x I K; cbn [lrun fst snd].
  - split; [constructor|lia].
  - destruct K as [K1 K2]. cbn zeta in K2.
    pose proof (lstep_f_inv x fo I) as I1. pose proof (lstep_f_shown x fo I) as [S1 S2]. cbn zeta in *.
    destruct (lstep_f k sm roots ua ub x fo) as [x1 o1]. cbn [fst snd] in *.
    destruct (IH x1 I1 K2) as [R1 R2]. destruct (lrun k sm roots ua ub x1 h) as [x2 os]. cbn [fst snd] in *.
    specialize (S2 K1). split; [|lia]. constructor; [|exact R1]. eapply lshown_le_mono; [exact R2|exact S1].
Qed.

(* a publish handled by the topic: the characterisation of [lpublish] applies *)
Lemma lstep_pub f s c n0 sid content noecho :
  lattached c sid = true \/ k = LSys ->
  lstep k sm roots ua ub f (mkLS s (Some c) n0) (LPub sid content noecho) =
  (let h := lpublish k f s c 0 sid (sess_uid sm sid) content noecho in
   (mkLS (lh_st h) (Some (lh_ca h)) (lh_n h), lh_out h)).
Proof.
  intros H. unfold lstep. cbn [x_st x_ca].
  destruct H as [->| ->]; [reflexivity|]. rewrite Bool.orb_true_r. reflexivity.
Qed.

(* no request deletes the row of 'sys' *)
Lemma ls_sys_exists f s cx o x' out : lstep_spec f s cx o x' out -> k = LSys -> t_exists (x_st x') = t_exists s.
Proof.
  intros [o0 c' n1 out0 _ _|o0 s1 c h L ((N & _) & _)|o0 c sid u s1 co n1 o1 -> LU|c sid content noecho h -> _ ->|] K; cbn [x_st].
  - reflexivity.
  - rewrite N. destruct L as [[_ ->]|[_ (u & other & n1 & ns & LD)]]; [reflexivity|].
    subst k. apply init_sys_ok in LD. destruct LD as [-> _]. reflexivity.
  - apply lleave_unsub_cases in LU. destruct LU as [_ [[[N _] _]|[E _]]]; [exact N|congruence].
  - apply lpublish_exists.
  - reflexivity.
Qed.
End Step.

(* the 'sys' topic row is never deleted: every sys history keeps its row *)
Lemma sys_keeps_row sm roots ua ub h : forall x, keeps_row LSys sm roots ua ub x h.
Proof.
  induction h as [|fo h IH]; intros x; cbn [keeps_row]; [exact I|]. split; [|apply IH].
  unfold lstep_f. destruct x as [s cx n0].
  pose proof (ls_sys_exists _ _ _ _ _ _ _ _ (lstep_shape LSys sm roots ua ub (fst fo) s cx n0 (snd fo)) eq_refl) as E.
  destruct (lstep LSys sm roots ua ub (fst fo) _ (snd fo)) as [x1 o1]. cbn [fst x_st] in *.
  destruct (fst fo); cbn [fst x_st]; congruence.
Qed.

(* the initial state of a history: the stored topic is absent (p2p) or has no messages yet *)
Definition lfresh (s : store) : Prop := msgs s = [] /\ t_seqid s = 0.
Lemma lfresh_sinv s : lfresh s -> sinv s.
Proof. intros [E1 E2]. unfold sinv, seqs. rewrite E1, E2. cbn. repeat split; auto; try lia; try constructor; intros m []. Qed.
