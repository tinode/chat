(* C08: the hypotheses of the self-raise theorems are satisfiable -
   concrete states (vm_compute) in which an approver / a pending owner asks beyond his grant. *)
From Coq Require Import ZArith NArith List Bool Lia.
From Tinode Require Import Base.Util Pure.Acs Sys.Topic Sys.TopicTac Sys.TopicFrame Sys.TopicNum Sys.TopicNumThm Sys.TopicInst
  Sys.TopicCohC08 Sys.TopicCohC08Proofs Sys.TopicCohC08Step Sys.TopicCohC08Run Sys.TopicCohC08Wit
  Sys.PermBranchC08c Sys.PermBranchC08cProofs.
Import ListNotations.
Open Scope Z_scope.

Lemma wit_wf_31_31_c08c : wf_store (wit_store 31 31). Proof. exact (wit_wf 31 31 eq_refl). Qed.
Lemma wit_wf_47_191_c08c : wf_store (wit_store 47 191). Proof. exact (wit_wf 47 191 eq_refl). Qed.

Definition m_JRWPAS_c08c : list N := [74; 82; 87; 80; 65; 83]%N.
Definition m_FULL_c08c : list N := [74; 82; 87; 80; 65; 83; 68; 79]%N.

(* user 2 (JRWPA/JRWPA) attaches through session 2 and asks JRWPAS for himself: approver self-raise *)
Definition wit_admin_state_c08c : state := fst (wit_run 31 31 [(NoFault, OSub 2 [] false)]).
Lemma wit_admin_branch_c08c :
  perm_branch_c08c wit_sm wit_admin_state_c08c (OSetSub 2 0 m_JRWPAS_c08c) = PB_t_raise_admin.
Proof. vm_compute. reflexivity. Qed.
Lemma wit_admin_result_c08c :
  snd (step_i wit_sm NoFault wit_admin_state_c08c (OSetSub 2 0 m_JRWPAS_c08c)) = [(2%N, CtrlAcs 200 0 63 63)] /\
  option_map (fun r => (s_want r, s_given r))
    (find_sub 2 (subs (st (fst (step_i wit_sm NoFault wit_admin_state_c08c (OSetSub 2 0 m_JRWPAS_c08c)))))) = Some (63%N, 63%N).
Proof. vm_compute. split; reflexivity. Qed.

(* user 2 (JRWPS / JRWPAS+O, no D: a pending ownership offer) accepts with the full mode: acceptance that
   also raises his grant by D *)
Definition wit_owner_state_c08c : state := fst (wit_run 47 191 [(NoFault, OSub 2 [] false)]).
Lemma wit_owner_branch_c08c :
  perm_branch_c08c wit_sm wit_owner_state_c08c (OSetSub 2 0 m_FULL_c08c) = PB_t_accept_raise.
Proof. vm_compute. reflexivity. Qed.
