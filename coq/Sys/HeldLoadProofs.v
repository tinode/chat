(* C13 lemmas about Sys/HeldLoad.v: who is answered, with which id, when a topic load ends with requests queued *)
From Coq Require Import List NArith Arith Bool Lia.
Import ListNotations.
Require Import Tinode.Sys.HeldLoad.
Open Scope N_scope.

Definition is_deltopic (m : cmsg) : bool := match m_kind m with KDelTopic _ => true | _ => false end.
Definition is_owner_del (m : cmsg) : bool := match m_kind m with KDelTopic true => true | _ => false end.

(* one routed request: what can happen to it *)
(* answered at once | dropped (a note, or t.clientMsg is full) | queued in t.clientMsg (a {pub} or a note) |
   the P2P topic is deleted under the loader | queued in t.meta (a {del what=topic}) *)
Definition routed (ti : tinfo) (h : held) (m : cmsg) (o : held * list reply) : Prop :=
  (exists code, o = (h, [own m code])) \/
  (o = (h, []) /\ (is_note m = true \/ (client_cap <= length (h_client h))%nat)) \/
  (o = (mkHeld (h_join h) (h_registered h) (h_deleted h) (h_client h ++ [m]) (h_meta h), []) /\
   (m_kind m = KPub \/ is_note m = true)) \/
  (o = (mkHeld (h_join h) false true (h_client h) (h_meta h), [own m 200]) /\ ti_p2p ti = true /\ is_deltopic m = true) \/
  (o = (mkHeld (h_join h) (h_registered h) (h_deleted h) (h_client h) (h_meta h ++ [m]), []) /\ is_deltopic m = true).

Lemma route_cli_cases ti h m : m_kind m = KPub \/ is_note m = true -> routed ti h m (hub_route_cli h m).
Proof.
  intros K. unfold routed, hub_route_cli. destruct (h_registered h).
  - destruct (Nat.ltb_spec (length (h_client h)) client_cap); auto.
  - unfold is_note in *. destruct (m_kind m); try (left; eexists; reflexivity). auto.
Qed.

Lemma route_cases ti h m : routed ti h m (route ti h m).
Proof.
  assert (Now : forall code, routed ti h m (h, [own m code])) by (intros code; left; now exists code).
  unfold route. destruct (m_kind m) as [|w valid|any ds|any tc|owner|known|unsub|] eqn:K.
  - destruct (ti_sys ti); [|apply Now]. apply route_cli_cases. now left.
  - assert (Nt : is_note m = true) by (unfold is_note; now rewrite K).
    destruct valid; cbn [negb]; [|right; left; auto].
    destruct w as [ | | |[|]| | ]; try apply Now; apply route_cli_cases; now right.
  - destruct any; cbn [negb]; [destruct ds|]; apply Now.
  - destruct any; cbn [negb]; [destruct tc|]; apply Now.
  - assert (Dt : is_deltopic m = true) by (unfold is_deltopic; now rewrite K).
    destruct (h_registered h) eqn:Rg; [|apply Now].
    destruct (ti_p2p ti) eqn:P; [do 3 right; left; auto|do 4 right; rewrite Rg; auto].
  - destruct known; apply Now.
  - apply Now.
  - destruct (h_registered h); apply Now.
Qed.

Lemma eqs_refl a : eqs a a = true.
Proof. induction a as [|x a IH]; [reflexivity|]. cbn. now rewrite N.eqb_refl. Qed.

Lemma answers_own m code : answers (own m code) m = true.
Proof. unfold answers, own. cbn. now rewrite N.eqb_refl, eqs_refl. Qed.

(* a reply built from request m with m's id *)
Definition from (ms : list cmsg) (r : reply) : Prop := exists m code, In m ms /\ r = own m code.

Lemma from_own ms m code : In m ms -> from ms (own m code).
Proof. intros H. now exists m, code. Qed.

Lemma from_mono ms ms' : (forall m, In m ms -> In m ms') -> forall r, from ms r -> from ms' r.
Proof. intros H r [m [code [Hin ->]]]. apply from_own. auto. Qed.

Lemma from_all_own reqs rs : Forall (from reqs) rs -> all_own reqs rs = true.
Proof.
  intros H. unfold all_own. apply forallb_forall. intros r Hr. rewrite Forall_forall in H.
  destruct (H r Hr) as [m [code [Hin ->]]]. apply existsb_exists. exists m. split; [exact Hin|apply answers_own].
Qed.

Lemma from_map code l reqs : (forall m, In m l -> In m reqs) -> Forall (from reqs) (map (fun m => own m code) l).
Proof. intros H. apply Forall_forall. intros r Hr. apply in_map_iff in Hr as [m [<- Hm]]. apply from_own. auto. Qed.

Lemma from_flat_map (f : cmsg -> list reply) l reqs :
  (forall m, Forall (from [m]) (f m)) -> (forall m, In m l -> In m reqs) -> Forall (from reqs) (flat_map f l).
Proof.
  intros Hf Hl. apply Forall_forall. intros r Hr. apply in_flat_map in Hr as [m [Hm Hr]].
  apply (from_mono [m]); [|exact (proj1 (Forall_forall _ _) (Hf m) r Hr)]. intros x [<-|[]]. now apply Hl.
Qed.

(* one routed request: the replies are m's own; the queues grow by m at most; the join is untouched *)
Lemma route_spec ti h m h' rs : route ti h m = (h', rs) ->
  h_join h' = h_join h /\ Forall (from [m]) rs /\
  (forall x, In x (h_client h') -> In x (h_client h) \/ x = m) /\
  (forall x, In x (h_meta h') -> In x (h_meta h) \/ x = m).
Proof.
  assert (Own : forall code, Forall (from [m]) [own m code]).
  { intros code. constructor; [|constructor]. apply from_own. now left. }
  assert (Grow : forall (l : list cmsg) x, In x (l ++ [m]) -> In x l \/ x = m).
  { intros l x Hx. apply in_app_or in Hx as [Hx|[<-|[]]]; auto. }
  destruct (route_cases ti h m) as [[code E]|[[E _]|[[E _]|[[E _]|[E _]]]]]; rewrite E; intros H; injection H as <- <-;
    cbn [h_join h_client h_meta]; auto.
Qed.

Lemma route_all_spec ti : forall ms h h' rs, route_all ti h ms = (h', rs) ->
  h_join h' = h_join h /\ Forall (from ms) rs /\
  (forall x, In x (h_client h') -> In x (h_client h) \/ In x ms) /\
  (forall x, In x (h_meta h') -> In x (h_meta h) \/ In x ms).
Proof.
  induction ms as [|m r IH]; intros h h' rs H; cbn [route_all] in H.
  - injection H as <- <-. auto.
  - destruct (route ti h m) as [h1 rs1] eqn:R1. destruct (route_all ti h1 r) as [h2 rs2] eqn:R2. injection H as <- <-.
    destruct (route_spec _ _ _ _ _ R1) as [J1 [F1 [C1 M1]]]. destruct (IH _ _ _ R2) as [J2 [F2 [C2 M2]]].
    split; [congruence|]. split.
    + apply Forall_app. split.
      * eapply Forall_impl; [|exact F1]. apply from_mono. intros x [<-|[]]. now left.
      * eapply Forall_impl; [|exact F2]. apply from_mono. intros x Hx. now right.
    + split; intros x Hx.
      * destruct (C2 x Hx) as [Hc|Hc]; [destruct (C1 x Hc) as [Hd| ->]; [now left|right; now left]|right; now right].
      * destruct (M2 x Hx) as [Hc|Hc]; [destruct (M1 x Hc) as [Hd| ->]; [now left|right; now left]|right; now right].
Qed.

(* every reply carries the id of a request of the session it goes to (code as it is) *)
Lemma run_held_from ti join ms rel : Forall (from (join :: ms)) (run_held true ti join ms rel).
Proof.
  unfold run_held. destruct (route_all ti (init_held join) ms) as [h rs] eqn:R.
  destruct (route_all_spec _ _ _ _ _ R) as [J [F [C M]]]. cbn in J, C, M.
  assert (Cq : forall x, In x (h_client h) -> In x (join :: ms)) by (intros x Hx; destruct (C x Hx) as [[]|Hc]; now right).
  assert (Mq : forall x, In x (h_meta h) -> In x (join :: ms)) by (intros x Hx; destruct (M x Hx) as [[]|Hc]; now right).
  assert (Jq : forall code, from (join :: ms) (own (h_join h) code)) by (intros code; rewrite J; apply from_own; now left).
  apply Forall_app. split.
  - eapply Forall_impl; [|exact F]. apply from_mono. intros x Hx. now right.
  - destruct rel as [|e].
    + unfold release_ok. destruct (h_deleted h); [constructor|]. constructor; [apply Jq|].
      apply Forall_app. split; apply from_flat_map; auto; intros m.
      * unfold client_reply. destruct (m_kind m); try constructor. destruct (is_empty (m_id m)); constructor; [|constructor].
        apply from_own. now left.
      * unfold meta_reply. destruct (m_kind m) as [| | | |[|]| | |]; constructor; try constructor; apply from_own; now left.
    + unfold release_fail. constructor; [apply Jq|]. apply Forall_app. split; apply from_map; assumption.
Qed.

(* the variant that answers the queued client messages with join.Id *)
Lemma variant_foreign_id : all_own [w_join; w_pub] (run_held false ti_sys_topic w_join [w_pub] (RelFail 500)) = false.
Proof. vm_compute. reflexivity. Qed.

Lemma as_is_on_witness : run_held true ti_sys_topic w_join [w_pub] (RelFail 500) = [mkRep 1 500 [115;49]; mkRep 2 503 [112;55]].
Proof. vm_compute. reflexivity. Qed.

(* a p2p topic deleted while it is being loaded: topicInit returns at `if t.isDeleted()` without a word *)
Lemma join_lost : answered (run_held true ti_p2p_topic w_join [w_del] RelOk) w_join = false.
Proof. vm_compute. reflexivity. Qed.

(* the trigger: a load SUCCEEDS after a {del what=topic} arrived for the topic - any for a P2P topic (the topic is
   deleted under the loader), the owner's for a group topic (replyDelTopic does not expect the owner) *)
Definition lost_trigger (ti : tinfo) (ms : list cmsg) (rel : release) : bool :=
  ((ti_p2p ti && existsb is_deltopic ms) || existsb is_owner_del ms) && match rel with RelOk => true | RelFail _ => false end.

Lemma answered_app_l rs1 rs2 m : answered rs1 m = true -> answered (rs1 ++ rs2) m = true.
Proof. unfold answered. rewrite existsb_app. intros ->. reflexivity. Qed.

Lemma answered_app_r rs1 rs2 m : answered rs2 m = true -> answered (rs1 ++ rs2) m = true.
Proof. unfold answered. rewrite existsb_app. intros ->. apply orb_true_r. Qed.

Lemma answered_in rs m code : In (own m code) rs -> answered rs m = true.
Proof. intros H. unfold answered. apply existsb_exists. exists (own m code). split; [exact H|apply answers_own]. Qed.

(* one routed request other than a note: answered at once, or queued *)
Lemma route_progress ti h m h' rs : route ti h m = (h', rs) -> is_note m = false ->
  (length (h_client h) < client_cap)%nat ->
  answered rs m = true \/ (In m (h_client h') /\ m_kind m = KPub) \/ In m (h_meta h').
Proof.
  intros R Nn Cap.
  destruct (route_cases ti h m) as [[code E]|[[E [K|K]]|[[E K]|[[E _]|[E _]]]]]; [|congruence|lia|..];
    rewrite E in R; injection R as <- <-; cbn [h_client h_meta].
  - left. apply (answered_in _ m code). now left.
  - destruct K as [K|K]; [|congruence]. right; left. split; [apply in_or_app; right; now left|exact K].
  - left. apply (answered_in _ m 200). now left.
  - right; right. apply in_or_app; right; now left.
Qed.

(* queues only grow; deletion only by a {del what=topic} on a p2p topic *)
Lemma route_mono ti h m h' rs : route ti h m = (h', rs) ->
  (forall x, In x (h_client h) -> In x (h_client h')) /\ (forall x, In x (h_meta h) -> In x (h_meta h')) /\
  (length (h_client h') <= S (length (h_client h)))%nat /\
  (h_deleted h' = true -> h_deleted h = true \/ (ti_p2p ti = true /\ is_deltopic m = true)).
Proof.
  assert (Grow : forall (l : list cmsg) x, In x l -> In x (l ++ [m])) by (intros l x Hx; apply in_or_app; now left).
  destruct (route_cases ti h m) as [[code E]|[[E _]|[[E _]|[[E K]|[E _]]]]]; rewrite E; intros H; injection H as <- <-;
    cbn [h_client h_meta h_deleted]; rewrite ?app_length, ?Nat.add_1_r; auto.
Qed.

Lemma route_all_progress ti : forall ms h h' rs, route_all ti h ms = (h', rs) ->
  (length (h_client h) + length ms <= client_cap)%nat ->
  (forall m, In m ms -> is_note m = false ->
     answered rs m = true \/ (In m (h_client h') /\ m_kind m = KPub) \/ In m (h_meta h')) /\
  (forall x, In x (h_client h) -> In x (h_client h')) /\ (forall x, In x (h_meta h) -> In x (h_meta h')) /\
  (h_deleted h' = true -> h_deleted h = true \/ (ti_p2p ti = true /\ existsb is_deltopic ms = true)).
Proof.
  induction ms as [|m r IH]; intros h h' rs H Cap; cbn [route_all] in H.
  - injection H as <- <-. split; [intros m []|auto].
  - destruct (route ti h m) as [h1 rs1] eqn:R1. destruct (route_all ti h1 r) as [h2 rs2] eqn:R2. injection H as <- <-.
    cbn [length] in Cap.
    destruct (route_mono _ _ _ _ _ R1) as [Mc [Mm [Ml Md]]].
    destruct (IH _ _ _ R2) as [P2 [Kc [Km Kd]]]; [lia|].
    split; [|split; [auto|split; [auto|]]].
    + intros x [<-|Hx] Nn.
      * destruct (route_progress _ _ _ _ _ R1 Nn) as [A|[[A B]|A]]; [lia|left; now apply answered_app_l|right; left; split; auto|right; right; auto].
      * destruct (P2 x Hx Nn) as [A|[A|A]]; [left; now apply answered_app_r|right; now left|right; now right].
    + intros D. cbn [existsb]. destruct (Kd D) as [D1|[D1 D2]].
      * destruct (Md D1) as [D3|[D3 D4]]; [now left|right; split; [exact D3|now rewrite D4]].
      * right. split; [exact D1|rewrite D2; apply orb_true_r].
Qed.

(* the end of the load answers the join and whatever is queued, unless the topic was deleted under the loader or the
   owner's {del what=topic} sits in t.meta *)
Lemma release_answers h rel x :
  (rel = RelOk -> h_deleted h = false /\ forall y, In y (h_meta h) -> is_owner_del y = false) ->
  pub_has_id x = true -> x = h_join h \/ (In x (h_client h) /\ m_kind x = KPub) \/ In x (h_meta h) ->
  answered (match rel with RelOk => release_ok h | RelFail e => release_fail true e h end) x = true.
Proof.
  intros Tr Px Hx. destruct rel as [|e].
  - destruct (Tr eq_refl) as [Del Own]. unfold release_ok. rewrite Del. destruct Hx as [->|[[Hc Hk]|Hm]].
    + eapply answered_in. now left.
    + eapply answered_in. right. apply in_or_app. left. apply in_flat_map. exists x. split; [exact Hc|]. unfold client_reply. rewrite Hk.
      unfold pub_has_id in Px. rewrite Hk in Px. destruct (is_empty (m_id x)); [discriminate Px|]. now left.
    + eapply answered_in. right. apply in_or_app. right. apply in_flat_map. exists x. split; [exact Hm|].
      pose proof (Own x Hm) as O. unfold is_owner_del in O. unfold meta_reply.
      destruct (m_kind x) as [| | | |[|]| | |]; try discriminate O; now left.
  - unfold release_fail. destruct Hx as [->|[[Hc Hk]|Hm]]; eapply (answered_in _ _ _).
    + now left.
    + right. apply in_or_app. left. apply in_map_iff. exists x. split; [reflexivity|exact Hc].
    + right. apply in_or_app. right. apply in_map_iff. exists x. split; [reflexivity|exact Hm].
Qed.

(* unless a P2P topic is deleted while its load succeeds or the owner's {del what=topic} was queued - and as long as
   the queue of the paused topic (192 slots) is not overrun - every request other than a note, the {sub} included,
   is answered with its own id *)
Lemma held_answered ti join ms rel m h rs :
  route_all ti (init_held join) ms = (h, rs) ->
  lost_trigger ti ms rel = false -> (length ms <= client_cap)%nat ->
  In m (join :: ms) -> is_note m = false -> pub_has_id m = true ->
  answered (rs ++ match rel with RelOk => release_ok h | RelFail e => release_fail true e h end) m = true.
Proof.
  intros R Tr Cap Hin Nn Pid.
  destruct (route_all_spec _ _ _ _ _ R) as [J [_ [_ Mm]]]. cbn in J, Mm.
  destruct (route_all_progress _ _ _ _ _ R) as [P [_ [_ Kd]]]; [exact Cap|]. cbn in Kd.
  assert (AtEnd : m = h_join h \/ (In m (h_client h) /\ m_kind m = KPub) \/ In m (h_meta h) ->
            answered (match rel with RelOk => release_ok h | RelFail e => release_fail true e h end) m = true).
  { apply release_answers; [|exact Pid]. intros ->. unfold lost_trigger in Tr. rewrite andb_true_r in Tr.
    apply orb_false_elim in Tr as [T1 T2]. split.
    - destruct (h_deleted h); [|reflexivity]. destruct (Kd eq_refl) as [D1|[D1 D2]]; [discriminate|]. now rewrite D1, D2 in T1.
    - intros y Hy. destruct (is_owner_del y) eqn:O; [|reflexivity]. rewrite <- T2. symmetry. apply existsb_exists.
      exists y. split; [|exact O]. destruct (Mm y Hy) as [[]|Hc]. exact Hc. }
  destruct Hin as [<-|Hin].
  - apply answered_app_r, AtEnd. now left.
  - destruct (P m Hin Nn) as [A|A]; [now apply answered_app_l|]. apply answered_app_r, AtEnd. now right.
Qed.
