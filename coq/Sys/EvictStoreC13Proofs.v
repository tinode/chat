(* C13  Proofs about coq/Sys/EvictStoreC13.v: a cached session has an empty stop channel, hence
   SessionStore.EvictUser never waits on a full stop channel. *)
From Coq Require Import List NArith Bool.
Import ListNotations.
Require Import Tinode.Sys.EvictStoreC13.

Lemma sess_ok_cached (s : sess) : sess_ok s = true -> s_cached s = true -> s_stopfull s = false.
Proof. unfold sess_ok. intros H C. rewrite C in H. apply negb_true_iff. exact H. Qed.

Lemma upd_inv (sid : N) (f : sess -> sess) (l : list sess) :
  forallb sess_ok l = true ->
  (forall s, find_sess sid l = Some s -> sess_ok s = true -> sess_ok (f s) = true) ->
  forallb sess_ok (upd sid f l) = true.
Proof.
  induction l as [|s r IH]; intros H Hf; [reflexivity|].
  cbn [forallb] in H. apply andb_true_iff in H. destruct H as [H1 H2].
  cbn [upd find_sess] in *. destruct (N.eqb (s_sid s) sid); cbn [forallb]; apply andb_true_iff; split.
  - exact (Hf s eq_refl H1).
  - exact H2.
  - exact H1.
  - exact (IH H2 Hf).
Qed.

Lemma upd_store_inv (sid : N) (f : sess -> sess) (st : store) :
  store_inv st = true ->
  (forall s, find_sess sid (sessions st) = Some s -> sess_ok s = true -> sess_ok (f s) = true) ->
  store_inv (with_sessions st (upd sid f (sessions st))) = true.
Proof. exact (upd_inv sid f (sessions st)). Qed.

Lemma find_upd (x y : N) (f : sess -> sess) (l : list sess) :
  (forall s, s_sid (f s) = s_sid s) ->
  find_sess x (upd y f l) = if N.eqb x y then option_map f (find_sess x l) else find_sess x l.
Proof.
  intro Hf. induction l as [|s r IH]; [destruct (N.eqb x y); reflexivity|].
  cbn [upd find_sess]. destruct (N.eqb (s_sid s) y) eqn:E1; cbn [find_sess].
  - rewrite Hf. apply N.eqb_eq in E1. subst y. rewrite (N.eqb_sym x).
    destruct (N.eqb (s_sid s) x); reflexivity.
  - destruct (N.eqb (s_sid s) x) eqn:E2; [|exact IH].
    apply N.eqb_eq in E2. subst x. rewrite E1. reflexivity.
Qed.

Lemma upd_upd (sid : N) (f g : sess -> sess) (l : list sess) :
  (forall s, s_sid (f s) = s_sid s) ->
  upd sid g (upd sid f l) = upd sid (fun s => g (f s)) l.
Proof.
  intros Hf. induction l as [|s r IH]; [reflexivity|].
  cbn [upd]. destruct (N.eqb (s_sid s) sid) eqn:E; cbn [upd].
  - rewrite Hf, E. reflexivity.
  - rewrite E, IH. reflexivity.
Qed.

Lemma upd_none (sid : N) (f : sess -> sess) (l : list sess) :
  find_sess sid l = None -> upd sid f l = l.
Proof.
  induction l as [|s r IH]; [reflexivity|].
  cbn [find_sess upd]. destruct (N.eqb (s_sid s) sid); [discriminate|].
  intro H. rewrite (IH H). reflexivity.
Qed.

Lemma sess_ok_uncached (s : sess) : sess_ok (set_uncached s) = true.
Proof. reflexivity. Qed.

Lemma sess_ok_unstop (s : sess) : sess_ok (set_stop false s) = true.
Proof. apply orb_true_r. Qed.

Lemma sess_ok_login (u : N) (r : bool) (s : sess) : sess_ok s = true -> sess_ok (set_login u r s) = true.
Proof. intro H. exact H. Qed.

(* a stop notice put on a session that is not cached keeps the invariant *)
Lemma sess_ok_stop_uncached (s : sess) : sess_ok (set_uncached (set_stop true s)) = true.
Proof. reflexivity. Qed.

Lemma store_delete_inv (sid : N) (st : store) : store_inv st = true -> store_inv (store_delete sid st) = true.
Proof. intro H. apply (upd_store_inv sid set_uncached st H). intros s _ _. apply sess_ok_uncached. Qed.

(* what a history may do: it keeps the invariant and EvictUser does not wait *)
Definition step_good (o : outcome) : Prop :=
  match o with
  | Ok st1 => store_inv st1 = true
  | Blocks BEvict _ => False
  | _ => True
  end.

Lemma step_good_bind (o : outcome) (k : store -> outcome) :
  step_good o -> (forall st, store_inv st = true -> step_good (k st)) ->
  step_good (match o with Ok st => k st | Blocks b x => Blocks b x | Fatal x => Fatal x end).
Proof. intros Ho Hk. destruct o as [st| |]; [exact (Hk st Ho)|exact Ho|exact Ho]. Qed.

Lemma evict_match_cached (uid skip : N) (s : sess) : evict_match uid skip s = true -> s_cached s = true.
Proof. unfold evict_match. destruct (s_cached s); [reflexivity|discriminate]. Qed.

(* EvictUser ranges over cached sessions, whose channel is empty, and uncaches each one it notifies *)
Lemma evict_loop_inv (uid skip : N) (l : list sess) :
  forallb sess_ok l = true ->
  match evict_loop false uid skip l with inr l1 => forallb sess_ok l1 = true | inl _ => False end.
Proof.
  induction l as [|s r IH]; intro H; [reflexivity|].
  cbn [forallb] in H. apply andb_true_iff in H. destruct H as [H1 H2].
  specialize (IH H2). cbn [evict_loop].
  destruct (evict_loop false uid skip r) as [b|r1]; [destruct IH|].
  destruct (evict_match uid skip s) eqn:M.
  - unfold stop_session. rewrite (sess_ok_cached s H1 (evict_match_cached uid skip s M)). exact IH.
  - cbn [forallb]. rewrite H1. exact IH.
Qed.

Lemma evict_user_inv (uid skip : N) (st : store) :
  store_inv st = true -> step_good (evict_user false uid skip st).
Proof.
  intro H. unfold evict_user. pose proof (evict_loop_inv uid skip (sessions st) H) as L.
  destruct (evict_loop false uid skip (sessions st)); [destruct L|exact L].
Qed.

Lemma take_stop_inv (sid : N) (st : store) : store_inv st = true -> store_inv (take_stop sid st) = true.
Proof.
  intro H. unfold take_stop.
  destruct (find_sess sid (sessions st)) as [s|]; [|exact H].
  case (s_stopfull s); [|exact H].
  assert (H1 : store_inv (with_sessions st (upd sid (set_stop false) (sessions st))) = true).
  { apply upd_store_inv; [exact H|]. intros x _ _. apply sess_ok_unstop. }
  case (is_lp (s_proto s)); [apply store_delete_inv|]; exact H1.
Qed.

(* the requester's own notice, taken at once: in between, the session is cached with a full channel *)
Lemma stop_self_inv (sid : N) (st : store) : store_inv st = true -> step_good (stop_self sid true st).
Proof.
  intro H. unfold stop_self.
  destruct (find_sess sid (sessions st)) as [s|] eqn:F; [|exact H].
  destruct (stop_session s); [|exact I].
  unfold step_good, take_stop, with_sessions. cbn [sessions lru users].
  rewrite find_upd, N.eqb_refl, F by reflexivity. cbn [option_map set_stop s_stopfull s_proto].
  rewrite upd_upd by reflexivity.
  assert (H1 : store_inv (with_sessions st (upd sid (fun x => set_stop false (set_stop true x)) (sessions st))) = true).
  { apply upd_store_inv; [exact H|]. intros x _ _. apply sess_ok_unstop. }
  case (is_lp (s_proto s)); [apply store_delete_inv|]; exact H1.
Qed.

Lemma with_users_inv (st : store) (us : list (N * ustate)) :
  store_inv st = true -> store_inv (mkStore (sessions st) (lru st) us) = true.
Proof. intro H. exact H. Qed.

(* NewSession's expiry: cleanUp(true) of an expired session never waits (it has just purged the channel), and the
   notice it leaves is on a session the expiry loop has removed from the cache *)
Definition all_uncached (xs : list N) (l : list sess) : bool :=
  forallb (fun x => match find_sess x l with Some s => negb (s_cached s) | None => true end) xs.

(* [all_uncached xs l], one id at a time *)
Definition unc (x : N) (l : list sess) : Prop :=
  match find_sess x l with Some s => s_cached s = false | None => True end.

Lemma cleanup_expired_eq (x : N) (l : list sess) :
  cleanup_expired x l = inr (upd x (fun s => set_stop true (set_stop false s)) l).
Proof.
  unfold cleanup_expired. destruct (find_sess x l) eqn:F; [reflexivity|].
  rewrite upd_none by exact F. reflexivity.
Qed.

Lemma cleanup_expired_ok (x : N) (l : list sess) :
  exists l1, cleanup_expired x l = inr l1.
Proof. eexists. apply cleanup_expired_eq. Qed.

Lemma unc_upd (x y : N) (f : sess -> sess) (l : list sess) :
  (forall s, s_sid (f s) = s_sid s) ->
  (forall s, s_cached s = false -> s_cached (f s) = false) ->
  unc x l -> unc x (upd y f l).
Proof.
  intros Hf Hc H. unfold unc in *. rewrite find_upd by exact Hf.
  destruct (N.eqb x y); [|exact H].
  destruct (find_sess x l); [apply Hc|]; exact H.
Qed.

Lemma uncache_all_ind (P : list sess -> Prop) :
  (forall y l, P l -> P (upd y set_uncached l)) -> forall xs l, P l -> P (uncache_all xs l).
Proof.
  intros Hu xs. induction xs as [|y r IH]; intros l H; [exact H|].
  apply IH. apply Hu. exact H.
Qed.

Lemma uncache_all_unc (xs : list N) (l : list sess) : forall x, In x xs -> unc x (uncache_all xs l).
Proof.
  revert l. induction xs as [|y r IH]; intros l x Hx; [destruct Hx|].
  cbn [uncache_all]. destruct Hx as [->|Hx]; [|apply IH; exact Hx].
  apply uncache_all_ind.
  - intros z l0. apply unc_upd; reflexivity.
  - unfold unc. rewrite find_upd, N.eqb_refl by reflexivity.
    destruct (find_sess x l); [reflexivity|exact I].
Qed.

Lemma cleanup_all_inv (xs : list N) (l : list sess) :
  forallb sess_ok l = true ->
  (forall x, In x xs -> unc x l) ->
  match cleanup_all xs l with inr l1 => forallb sess_ok l1 = true | inl _ => False end.
Proof.
  revert l. induction xs as [|x r IH]; intros l H U; [exact H|].
  cbn [cleanup_all]. rewrite cleanup_expired_eq. apply IH.
  - apply upd_inv; [exact H|]. intros s F _.
    pose proof (U x (or_introl eq_refl)) as Ux. unfold unc in Ux. rewrite F in Ux.
    unfold sess_ok. cbn [set_stop s_cached]. rewrite Ux. reflexivity.
  - intros y Hy. apply unc_upd; [reflexivity| |apply U; right; exact Hy]. intros s C. exact C.
Qed.

Lemma new_session_inv (sid : N) (p : proto) (expired : list N) (st : store) :
  store_inv st = true ->
  match new_session sid p expired st with
  | Ok st1 => store_inv st1 = true
  | Blocks _ _ => False
  | Fatal _ => True
  end.
Proof.
  intro H. unfold new_session.
  destruct (find_sess sid (sessions st)); [exact I|].
  case (negb (is_suffix_rev expired (lru st))); [exact H|].
  set (l0 := mkSess sid 0 false p true (is_lp p) false :: sessions st).
  assert (H0 : forallb sess_ok (uncache_all expired l0) = true).
  { apply uncache_all_ind; [|exact H]. intros y l Hl. apply upd_inv; [exact Hl|]. intros s _ _. apply sess_ok_uncached. }
  pose proof (cleanup_all_inv expired _ H0 (uncache_all_unc expired l0)) as C.
  destruct (cleanup_all expired (uncache_all expired l0)); [destruct C|exact C].
Qed.

Lemma acc_state_inv (rsid target : N) (a : accstate) (sok : bool) (st : store) :
  store_inv st = true -> step_good (acc_state false rsid target a sok st).
Proof.
  intro H. unfold acc_state.
  destruct (find_sess rsid (sessions st)) as [r|]; [|exact H].
  case (N.eqb (s_uid r) 0); [exact H|].
  case (negb (N.eqb _ (s_uid r)) && negb (s_root r)); [exact H|].
  case (negb (s_root r)); [exact H|].
  destruct (get_user _ (users st)) as [cur|]; [|exact H].
  destruct a as [ns|]; [|exact H].
  case ns; [| | |exact H];
    (case (ustate_eqb cur _); [exact H|]; apply step_good_bind;
     [case (ustate_eqb _ StateOK); [exact H|apply evict_user_inv; exact H]
     |intros st1 H1; case sok; exact H1]).
Qed.

Lemma del_user_req_inv (rsid target : N) (sok : bool) (st : store) :
  store_inv st = true -> step_good (del_user_req false rsid target sok true st).
Proof.
  intro H. unfold del_user_req.
  destruct (find_sess rsid (sessions st)) as [r|]; [|exact H].
  case (N.eqb (s_uid r) 0); [exact H|].
  case (negb _ && negb (s_root r)); [exact H|].
  apply step_good_bind; [apply evict_user_inv; exact H|].
  intros st1 H1. case sok; cbn [negb]; [|exact H1].
  case (N.eqb (s_uid r) _); [|exact H1].
  apply stop_self_inv. exact H1.
Qed.

Lemma step_inv (l : label) (st : store) :
  prompt_label l = true -> store_inv st = true -> step_good (step false l st).
Proof.
  intros P H. destruct l; cbn [step prompt_label] in *.
  - pose proof (new_session_inv sid p expired st H) as S.
    destruct (new_session sid p expired st) as [st1|b x|x]; [exact S|destruct S|exact I].
  - apply upd_store_inv; [exact H|]. intros s _ Hs. exact Hs.
  - unfold store_get.
    destruct (find_sess sid (sessions st)) as [s|]; [|exact H].
    case (s_cached s && is_lp (s_proto s)); exact H.
  - apply store_delete_inv. exact H.
  - apply evict_user_inv. exact H.
  - apply take_stop_inv. exact H.
  - subst taken. apply stop_self_inv. exact H.
  - apply upd_store_inv; [exact H|]. intros s _ _. apply sess_ok_unstop.
  - destruct (find_sess sid (sessions (store_delete sid st))) as [s|]; [|exact H].
    destruct (stop_session s); [|exact I].
    apply upd_store_inv; [apply store_delete_inv; exact H|].
    (* Delete has just taken the session out of the cache *)
    intros x F _. revert F. unfold store_delete. cbn [sessions]. rewrite find_upd, N.eqb_refl by reflexivity.
    destruct (find_sess sid (sessions st)) as [s1|]; [|discriminate].
    intro F. injection F as <-. reflexivity.
  - apply acc_state_inv. exact H.
  - subst taken. apply del_user_req_inv. exact H.
Qed.

Lemma run_inv (ls : list label) (st : store) :
  forallb prompt_label ls = true -> store_inv st = true -> step_good (run false ls st).
Proof.
  revert st. induction ls as [|l r IH]; intros st P H; [exact H|].
  cbn [forallb] in P. apply andb_true_iff in P. destruct P as [P1 P2].
  cbn [run]. apply step_good_bind; [exact (step_inv l st P1 H)|].
  intros st1 H1. exact (IH st1 P2 H1).
Qed.

Lemma init_inv (us : list (N * ustate)) : store_inv (init_store us) = true.
Proof. reflexivity. Qed.

(* the invariant, read out: a cached session has an empty stop channel *)
Lemma store_inv_spec (st : store) (s : sess) :
  store_inv st = true -> In s (sessions st) -> s_cached s = true -> s_stopfull s = false.
Proof.
  intros H Hin. apply sess_ok_cached. exact (proj1 (forallb_forall _ _) H s Hin).
Qed.

(* user 7 over long polling (no poll outstanding), root user 9 over a websocket *)
Definition wit_users : list (N * ustate) := [(7, StateOK); (9, StateOK)]%N.
Definition wit_pop : list label :=
  [LNew 1 LPOLL []; LLogin 1 7 false; LNew 2 WEBSOCK []; LLogin 2 9 true]%N.

(* the variant that keeps evicted sessions cached: suspend, un-suspend, suspend *)
Definition wit_keep : list label :=
  wit_pop ++ [LAccState 2 7 (AState StateSuspended) true; LAccState 2 7 (AState StateOK) true;
              LAccState 2 7 (AState StateSuspended) true]%N.
(* ... or suspend, then delete *)
Definition wit_keep_del : list label :=
  wit_pop ++ [LAccState 2 7 (AState StateSuspended) true; LDelUser 2 7 true true]%N.

Lemma wit_keep_blocks : run true wit_keep (init_store wit_users) = Blocks BEvict 1%N.
Proof. vm_compute. reflexivity. Qed.
Lemma wit_keep_del_blocks : run true wit_keep_del (init_store wit_users) = Blocks BEvict 1%N.
Proof. vm_compute. reflexivity. Qed.
Lemma wit_keep_prompt : forallb prompt_label wit_keep = true /\ forallb prompt_label wit_keep_del = true.
Proof. split; vm_compute; reflexivity. Qed.
Lemma wit_keep_fine_as_is :
  blocks_any (run false wit_keep (init_store wit_users)) = false /\
  blocks_any (run false wit_keep_del (init_store wit_users)) = false.
Proof. split; vm_compute; reflexivity. Qed.

(* the code as it is: user 7 deletes the own account through the long-polling session and does not poll again
   (the notice of replyDelUser stays in the channel of a session that is still cached); root deletes user 7 *)
Definition wit_self : list label := wit_pop ++ [LDelUser 1 0 true false; LDelUser 2 7 true true]%N.
Lemma wit_self_blocks : run false wit_self (init_store wit_users) = Blocks BEvict 1%N.
Proof. vm_compute. reflexivity. Qed.
