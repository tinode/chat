(* C07 proofs: invariants of the group-topic model that hold under EVERY fault plan:
   the subscriber limit (live rows <= maxSubscriberCount, every live row cached, one row per
   user).  The facts about attached sessions are in TopicAclC07Join.v. *)
From Coq Require Import ZArith NArith List Bool Lia.
From Tinode Require Import Base.Util Pure.Acs Sys.Topic Sys.TopicTac Sys.TopicFrame Sys.TopicMarks Sys.TopicAclC07 Sys.TopicAclC07Proofs.
Import ListNotations.
Open Scope Z_scope.

(* ---------- the skeleton of the subscription table: (user, deleted) ---------- *)
Definition skel (s : store) : list (N * bool) := map (fun r => (s_user r, s_deleted r)) (subs s).
Definition klive (k : list (N * bool)) : list (N * bool) := filter (fun e => negb (snd e)) k.
Definition set_flag (u : N) (b : bool) (k : list (N * bool)) : list (N * bool) :=
  map (fun e => if N.eqb (fst e) u then (fst e, b) else e) k.

Lemma rows_nodup_skel s : rows_nodup s <-> NoDup (map fst (skel s)).
Proof. unfold rows_nodup, skel. rewrite map_map. cbn. reflexivity. Qed.
Lemma live_count_skel s : live_count s = length (klive (skel s)).
Proof.
  unfold live_count, live_rows, klive, skel. induction (subs s) as [|r l IH]; cbn; [reflexivity|].
  destruct (negb (s_deleted r)); cbn; rewrite IH; reflexivity.
Qed.
Lemma live_cached_skel s c : live_cached s c <-> (forall u, In (u, false) (skel s) -> member c u = true).
Proof.
  unfold live_cached, skel. split.
  - intros H u HI. apply in_map_iff in HI. destruct HI as [r [E HI]]. inv E. apply H; auto.
  - intros H r HI D. apply H. apply in_map_iff. exists r. rewrite D. auto.
Qed.

Lemma set_flag_fst u b k : map fst (set_flag u b k) = map fst k.
Proof. unfold set_flag. rewrite map_map. apply map_ext. intros e. destruct (N.eqb (fst e) u); reflexivity. Qed.
Lemma set_flag_absent u b k : ~ In u (map fst k) -> set_flag u b k = k.
Proof.
  unfold set_flag. induction k as [|e k IH]; cbn; [reflexivity|]. intros H.
  destruct (N.eqb (fst e) u) eqn:E; [apply N.eqb_eq in E; exfalso; apply H; now left|].
  f_equal. apply IH. intros HI. apply H. now right.
Qed.
Lemma klive_set_true u k : (length (klive (set_flag u true k)) <= length (klive k))%nat.
Proof.
  unfold klive, set_flag. induction k as [|[v d] k IH]; cbn; [lia|].
  destruct (N.eqb v u); cbn; destruct d; cbn; lia.
Qed.
Lemma klive_set_false u k : NoDup (map fst k) -> (length (klive (set_flag u false k)) <= S (length (klive k)))%nat.
Proof.
  induction k as [|[v d] k IH]; [cbn; lia|]. intros ND. cbn [map fst] in ND. inversion ND as [|? ? NI ND']; subst.
  change (set_flag u false ((v, d) :: k)) with ((if N.eqb v u then (v, false) else (v, d)) :: set_flag u false k).
  destruct (N.eqb v u) eqn:E.
  - apply N.eqb_eq in E. subst v. rewrite (set_flag_absent u false k NI). unfold klive. destruct d; cbn; lia.
  - specialize (IH ND'). unfold klive in *. destruct d; cbn; lia.
Qed.
Lemma in_set_flag v u b k : In (v, false) (set_flag u b k) ->
  (v = u /\ b = false) \/ (v <> u /\ In (v, false) k).
Proof.
  unfold set_flag. intros HI. apply in_map_iff in HI. destruct HI as [[w d] [E HI]]. cbn in E.
  destruct (N.eqb w u) eqn:E2.
  - apply N.eqb_eq in E2. inv E. left. auto.
  - apply N.eqb_neq in E2. inv E. right. auto.
Qed.


Lemma member_in c u : member c u = true -> In u (map fst (c_users c)).
Proof.
  unfold member. destruct (alookup u (c_users c)) eqn:E; [|discriminate]. intros _.
  apply alookup_in in E. apply in_map_iff. exists (u, p). auto.
Qed.

(* live rows never outnumber the cached users *)
Lemma live_le_cached s c : rows_nodup s -> live_cached s c -> (live_count s <= length (c_users c))%nat.
Proof.
  intros ND LC. rewrite live_count_skel. rewrite <- (map_length fst (klive (skel s))), <- (map_length fst (c_users c)).
  apply NoDup_incl_length.
  - apply nodup_map_filter. apply rows_nodup_skel. exact ND.
  - intros u HI. apply in_map_iff in HI. destruct HI as [[v d] [E HI]]. cbn in E. subst v.
    apply filter_In in HI. destruct HI as [HI D]. cbn in D. destruct d; [discriminate|].
    apply member_in. apply (proj1 (live_cached_skel s c) LC). exact HI.
Qed.

(* ---------- skeleton through the store primitives ---------- *)
Lemma skel_update s u up : skel (ad_subs_update s u up) = skel s.
Proof.
  unfold ad_subs_update, skel. destruct (u =? 0)%N; cbn [subs st_subs]; unfold upd_sub; rewrite map_map; apply map_ext;
    intros r; try destruct (N.eqb (s_user r) u); reflexivity.
Qed.
Lemma skel_owner s u : skel (st_owner u s) = skel s. Proof. reflexivity. Qed.
Lemma find_sub_none_skel u s : find_sub u (subs s) = None -> ~ In u (map fst (skel s)).
Proof.
  unfold find_sub, skel. rewrite map_map. cbn. intros H HI. apply in_map_iff in HI. destruct HI as [r [E HI]].
  eapply find_none in H; [|exact HI]. cbn in H. rewrite E, N.eqb_refl in H. discriminate.
Qed.
Lemma skel_create s u w g :
  skel (ad_sub_create s u w g) =
  match find_sub u (subs s) with Some _ => set_flag u false (skel s) | None => skel s ++ [(u, false)] end.
Proof.
  unfold ad_sub_create.
  assert (forall s', skel (if is_owner (N.land w g) then st_owner u s' else s') = skel s') as Ho
    by (intros; destruct (is_owner _); reflexivity).
  rewrite Ho. destruct (find_sub u (subs s)); unfold skel; cbn [subs st_subs].
  - unfold upd_sub, set_flag. rewrite !map_map. apply map_ext. intros r. cbn.
    destruct (N.eqb (s_user r) u) eqn:E; [apply N.eqb_eq in E; subst|]; reflexivity.
  - rewrite map_app. reflexivity.
Qed.
Lemma skel_delete s u s' : ad_subs_delete s u = Some s' -> skel s' = set_flag u true (skel s).
Proof.
  unfold ad_subs_delete. destruct (ad_sub_get s u false); intros H; inv H.
  unfold skel. cbn [subs st_subs st_dellog]. unfold upd_sub, set_flag. rewrite !map_map. apply map_ext.
  intros r. cbn. destruct (N.eqb (s_user r) u); reflexivity.
Qed.
Lemma skel_msg_save s q a b s' : ad_msg_save s q a b = Some s' -> skel s' = skel s.
Proof. unfold ad_msg_save. destruct (existsb _ _); intros H; inv H. reflexivity. Qed.
Lemma skel_delete_list s d fu rs : skel (ad_msg_delete_list s d fu rs) = skel s.
Proof. unfold ad_msg_delete_list. destruct (fu =? 0)%N; reflexivity. Qed.

(* ---------- the limit invariant on (store, cache) ---------- *)
Definition lim0 (s : store) : Prop := rows_nodup s /\ Z.of_nat (live_count s) <= max_subs.
Definition lim (s : store) (c : cache) : Prop := lim0 s /\ live_cached s c.
Definition cmono (c c' : cache) : Prop := forall v, member c v = true -> member c' v = true.
Lemma cmono_refl c : cmono c c. Proof. intros v H; exact H. Qed.
Lemma cmono_trans a b c : cmono a b -> cmono b c -> cmono a c.
Proof. intros H1 H2 v H. auto. Qed.

Lemma lim_same s c s' c' : skel s' = skel s -> cmono c c' -> lim s c -> lim s' c'.
Proof.
  intros E M [[ND LE] LC]. split; [split|].
  - apply rows_nodup_skel. rewrite E. apply rows_nodup_skel. exact ND.
  - rewrite live_count_skel, E, <- live_count_skel. exact LE.
  - apply live_cached_skel. rewrite E. intros u HI. apply M. apply (proj1 (live_cached_skel s c) LC). exact HI.
Qed.

Lemma lim_create s c u w g c' :
  lim s c -> Z.of_nat (length (c_users c)) < max_subs -> cmono c c' -> member c' u = true ->
  lim (ad_sub_create s u w g) c'.
Proof.
  intros [[ND LE] LC] LT M MU.
  pose proof (live_le_cached s c ND LC) as LL.
  apply rows_nodup_skel in ND. rewrite live_count_skel in LL.
  split; [split|].
  - apply rows_nodup_skel. rewrite skel_create. destruct (find_sub u (subs s)) eqn:E.
    + rewrite set_flag_fst. exact ND.
    + rewrite map_app. cbn. apply NoDup_app_single; [exact ND|]. apply find_sub_none_skel. exact E.
  - rewrite live_count_skel, skel_create. destruct (find_sub u (subs s)).
    + pose proof (klive_set_false u (skel s) ND). lia.
    + unfold klive. rewrite filter_app, app_length. cbn. unfold klive in LL. lia.
  - apply live_cached_skel. rewrite skel_create. intros v HI. destruct (find_sub u (subs s)).
    + apply in_set_flag in HI. destruct HI as [[-> _]|[_ HI]]; [exact MU|].
      apply M. apply (proj1 (live_cached_skel s c) LC). exact HI.
    + apply in_app_or in HI. destruct HI as [HI|[HI|[]]]; [|inv HI; exact MU].
      apply M. apply (proj1 (live_cached_skel s c) LC). exact HI.
Qed.

(* eviction with unsub: the row is gone from the live set (deleted now, or was not live) *)
Lemma lim_delete s c u s' c' :
  lim s c -> (skel s' = set_flag u true (skel s) \/ (skel s' = skel s /\ ~ In (u, false) (skel s))) ->
  (forall v, v <> u -> member c v = true -> member c' v = true) ->
  lim s' c'.
Proof.
  intros [[ND LE] LC] HS M. apply rows_nodup_skel in ND. destruct HS as [E|[E NI]].
  - split; [split|].
    + apply rows_nodup_skel. rewrite E, set_flag_fst. exact ND.
    + rewrite live_count_skel, E. rewrite live_count_skel in LE. pose proof (klive_set_true u (skel s)). lia.
    + apply live_cached_skel. rewrite E. intros v HI. apply in_set_flag in HI.
      destruct HI as [[_ D]|[NE HI]]; [discriminate|]. apply M; [exact NE|].
      apply (proj1 (live_cached_skel s c) LC). exact HI.
  - split; [split|].
    + apply rows_nodup_skel. rewrite E. exact ND.
    + rewrite live_count_skel, E, <- live_count_skel. exact LE.
    + apply live_cached_skel. rewrite E. intros v HI. apply M.
      * intros ->. apply NI. exact HI.
      * apply (proj1 (live_cached_skel s c) LC). exact HI.
Qed.

(* ---------- members through the cache updates ---------- *)
Lemma cmono_aset c u p : cmono c (c_set_users (aset u p) c).
Proof. intros v H. rewrite member_aset, H. apply orb_true_r. Qed.
Lemma member_evict c u b k c' o v : evict_user c u b k = (c', o) ->
  member c' v = if N.eqb v u && b then false else member c v.
Proof.
  intros EV. unfold member. rewrite (evict_lookup _ _ _ _ _ _ v EV).
  destruct (N.eqb v u), b; cbn; try reflexivity. destruct (alookup v (c_users c)); reflexivity.
Qed.
Lemma cmono_evict_false c u k c' o : evict_user c u false k = (c', o) -> cmono c c'.
Proof. intros EV v H. rewrite (member_evict _ _ _ _ _ _ v EV), andb_false_r. exact H. Qed.
Lemma cmono_sess c f : cmono c (c_set_sess f c). Proof. intros v H; exact H. Qed.
Lemma cmono_owner c u : cmono c (c_set_owner u c). Proof. intros v H; exact H. Qed.
Lemma cmono_lastid c z : cmono c (c_set_lastid z c). Proof. intros v H; exact H. Qed.
Lemma cmono_delid c z : cmono c (c_set_delid z c). Proof. intros v H; exact H. Qed.
Lemma cmono_map_delid c d : cmono c (c_set_users (map (fun e => (fst e, p_set_delid d (snd e)))) c).
Proof.
  intros v. unfold member. cbn [c_users c_set_users]. rewrite alookup_map. destruct (alookup v (c_users c)); auto.
Qed.

Ltac cmono_solve :=
  first [ assumption | apply cmono_refl
        | eapply cmono_trans; [|first [apply cmono_aset | apply cmono_sess | apply cmono_owner | apply cmono_lastid
                                       | apply cmono_delid | apply cmono_map_delid | eapply cmono_evict_false; eassumption]];
          cmono_solve ].

(* ---------- thisUserSub / anotherUserSub keep the limit ---------- *)
Lemma tus_finish_mono u w1 g1 oldw oldg nb s3 c3 n3 :
  cmono c3 (h_ca (fst (tus_finish u w1 g1 oldw oldg nb s3 c3 n3))) /\
  h_st (fst (tus_finish u w1 g1 oldw oldg nb s3 c3 n3)) = s3.
Proof.
  unfold tus_finish. repeat break_match; cbn [fst h_ca h_st]; split; try reflexivity; cmono_solve.
Qed.

Lemma tus_lim f s c n u want nb :
  lim s c -> lim (h_st (fst (tus f s c n u want nb))) (h_ca (fst (tus f s c n u want nb))).
Proof.
  intros L. unfold tus. destruct (tus_mw want) as [mw okw]. destruct (negb okw); [exact L|].
  destruct (alookup u (c_users c)) as [p0|] eqn:Eu.
  - unfold tus_exist. destruct (tus_chk _ _ _ _ _) as [[[mw1 g1] oc]|]; [|exact L].
    destruct (if negb _ then call f n else (true, n)) as [ok1 n1]. destruct (negb ok1); [exact L|].
    set (s1 := if negb _ then ad_subs_update s u _ else s).
    assert (skel s1 = skel s) as E1 by (subst s1; destruct (negb _); [apply skel_update|reflexivity]).
    destruct oc.
    + destruct (call f n1) as [ok2 n2]. destruct (negb ok2); [apply (lim_same s c); [exact E1|apply cmono_refl|exact L]|].
      destruct (call f n2) as [ok3 n3].
      destruct (negb ok3); [apply (lim_same s c); [cbn [fst h_st]; rewrite skel_update; exact E1|apply cmono_refl|exact L]|].
      match goal with |- context [tus_finish ?a ?b ?cc ?d ?e ?ff ?s3 ?c3 ?n3] =>
        destruct (tus_finish_mono a b cc d e ff s3 c3 n3) as [M ->] end.
      apply (lim_same s c); [|eapply cmono_trans; [|exact M]|exact L].
      * rewrite skel_owner, skel_update. exact E1.
      * cmono_solve.
    + match goal with |- context [tus_finish ?a ?b ?cc ?d ?e ?ff ?s3 ?c3 ?n3] =>
        destruct (tus_finish_mono a b cc d e ff s3 c3 n3) as [M ->] end.
      apply (lim_same s c); [exact E1|exact M|exact L].
  - unfold tus_new. destruct (max_subs <=? Z.of_nat (length (c_users c))) eqn:EM; [exact L|].
    apply Z.leb_gt in EM.
    destruct (call f n) as [ok1 n1]. destruct (negb ok1); [exact L|].
    destruct (negb (is_joiner _)); [exact L|].
    destruct (match ad_sub_get s u true with Some r => s_deleted r | None => true end) eqn:NC.
    + destruct (call f n1) as [ok2 n2]. destruct (negb ok2); [exact L|].
      destruct (negb (is_joiner _)).
      * destruct (evict_user _ u false 0) as [c3 o3] eqn:EV. cbn [fst h_st h_ca].
        apply lim_create with (c := c); [exact L|exact EM|cmono_solve|].
        rewrite (member_evict _ _ _ _ _ _ u EV), andb_false_r, member_aset, N.eqb_refl. reflexivity.
      * cbn [fst h_st h_ca]. apply lim_create with (c := c); [exact L|exact EM|cmono_solve|].
        rewrite member_aset, N.eqb_refl. reflexivity.
    + cbn [negb]. destruct (negb (is_joiner _)).
      * destruct (evict_user _ u false 0) as [c3 o3] eqn:EV. cbn [fst h_st h_ca].
        apply (lim_same s c); [reflexivity|cmono_solve|exact L].
      * cbn [fst h_st h_ca]. apply (lim_same s c); [reflexivity|cmono_solve|exact L].
Qed.

Lemma aus_lim f s c n u t mode :
  lim s c -> lim (h_st (fst (aus f s c n u t mode))) (h_ca (fst (aus f s c n u t mode))).
Proof.
  intros L. unfold aus. destruct (alookup u (c_users c)); [|exact L].
  destruct (negb (is_sharer _)); [exact L|]. destruct (tus_mw mode) as [mg okg]. destruct (negb okg); [exact L|].
  destruct (_ && _); [exact L|]. destruct (_ && _); [exact L|].
  destruct (alookup t (c_users c)) as [pt|].
  - unfold aus_exist. destruct (_ || _).
    + destruct (negb _); [|exact L]. destruct (evict_user c t false 0) as [c4 o4] eqn:EV. cbn [fst h_st h_ca].
      apply (lim_same s c); [reflexivity|cmono_solve|exact L].
    + destruct (_ && _); [exact L|]. destruct (call f n) as [ok1 n1]. destruct (negb ok1); [exact L|].
      destruct (negb _).
      * destruct (evict_user _ t false 0) as [c4 o4] eqn:EV. cbn [fst h_st h_ca].
        apply (lim_same s c); [apply skel_update|cmono_solve|exact L].
      * cbn [fst h_st h_ca]. apply (lim_same s c); [apply skel_update|cmono_solve|exact L].
  - unfold aus_new. destruct (max_subs <=? Z.of_nat (length (c_users c))) eqn:EM; [exact L|].
    apply Z.leb_gt in EM.
    destruct (call f n) as [ok1 n1]. destruct (negb ok1); [exact L|].
    match goal with |- context [match ?w with (_, _) => _ end] => destruct w as [n2 [[code|wantm]|]] end; try exact L.
    destruct (negb (is_joiner wantm)); [exact L|].
    destruct (call f n2) as [ok3 n3]. destruct (negb ok3); [exact L|].
    destruct (negb (is_joiner _)).
    + destruct (evict_user _ t false 0) as [c4 o4] eqn:EV. cbn [fst h_st h_ca].
      apply lim_create with (c := c); [exact L|exact EM|cmono_solve|].
      rewrite (member_evict _ _ _ _ _ _ t EV), andb_false_r, member_aset, N.eqb_refl. reflexivity.
    + cbn [fst h_st h_ca]. apply lim_create with (c := c); [exact L|exact EM|cmono_solve|].
      rewrite member_aset, N.eqb_refl. reflexivity.
Qed.

(* ---------- requests that never add or remove a subscription ---------- *)
Definition hneutral (s : store) (c : cache) (h : hres) : Prop := skel (h_st h) = skel s /\ cmono c (h_ca h).
Lemma skel_seqid s z : skel (st_seqid z s) = skel s. Proof. reflexivity. Qed.
Lemma skel_delid s z : skel (st_delid z s) = skel s. Proof. reflexivity. Qed.
Ltac skel_solve :=
  repeat match goal with H : ad_msg_save _ _ _ _ = Some _ |- _ => apply skel_msg_save in H end;
  repeat first [rewrite skel_update | rewrite skel_owner | rewrite skel_seqid | rewrite skel_delid | rewrite skel_delete_list];
  first [reflexivity | assumption | congruence].
Ltac neutral_solve := cbn [h_st h_ca]; split; [skel_solve | cmono_solve].

Lemma publish_neutral f s c n sid u ct ne : hneutral s c (publish f s c n sid u ct ne).
Proof. unfold publish, hneutral. repeat break_match; neutral_solve. Qed.
Lemma note_neutral f s c n sid u what seq : hneutral s c (note f s c n sid u what seq).
Proof. unfold note, hneutral. repeat break_match; neutral_solve. Qed.
Lemma get_data_neutral f s c n sid u a b l : hneutral s c (get_data f s c n sid u a b l).
Proof. unfold get_data, hneutral. repeat break_match; neutral_solve. Qed.
Lemma get_desc_neutral s c n sid u : hneutral s c (get_desc s c n sid u).
Proof. unfold get_desc, hneutral. repeat break_match; neutral_solve. Qed.
Lemma get_sub_neutral f s c n sid u : hneutral s c (get_sub f s c n sid u).
Proof. unfold get_sub, hneutral. repeat break_match; neutral_solve. Qed.
Lemma get_del_neutral nr f s c n sid u a b l : hneutral s c (get_del nr f s c n sid u a b l).
Proof. unfold get_del, hneutral. repeat break_match; neutral_solve. Qed.
Lemma del_msg_neutral dr f s c n sid u req hard : hneutral s c (del_msg dr f s c n sid u req hard).
Proof. unfold del_msg, hneutral. repeat break_match; neutral_solve. Qed.

Lemma lim_neutral s c h : hneutral s c h -> lim s c -> lim (h_st h) (h_ca h).
Proof. intros [E M] L. apply (lim_same s c); auto. Qed.

(* unsubscription: the row leaves the live set together with the cache entry *)
Lemma sub_get_none_not_live s u : rows_nodup s -> ad_sub_get s u false = None -> ~ In (u, false) (skel s).
Proof.
  unfold ad_sub_get. intros ND H HI. unfold skel in HI. apply in_map_iff in HI. destruct HI as [r [E HI]].
  injection E as E1 H1. subst u.
  destruct (find_sub (s_user r) (subs s)) as [r'|] eqn:EF.
  - (* the first row of the user is the row itself: one row per user *)
    assert (r' = r) as ->.
    { pose proof (find_sub_in _ _ _ EF) as HI'. pose proof (find_sub_user _ _ _ EF) as EU.
      unfold rows_nodup in ND. clear EF H. induction (subs s) as [|x l IH]; [destruct HI|].
      cbn in ND. inversion ND as [|? ? NI ND']; subst.
      destruct HI as [->|HI], HI' as [->|HI']; auto.
      - exfalso. apply NI. rewrite <- EU. apply in_map. exact HI'.
      - exfalso. apply NI. rewrite EU. apply in_map. exact HI. }
    rewrite H1 in H. cbn in H. discriminate.
  - unfold find_sub in EF. eapply find_none in EF; [|exact HI]. cbn in EF. rewrite N.eqb_refl in EF. discriminate.
Qed.

Lemma unsub_lim s c sid v h : unsub_spec s c sid v h -> lim s c -> lim (h_st h) (h_ca h).
Proof.
  intros [n' code _|s1 c1 n' code o1 k _ D EV] L; [exact L|]. cbn [h_st h_ca]. apply (lim_delete s c v); [exact L| |].
  - destruct D as [D|[D [-> _]]]; [left; apply skel_delete; exact D|right]. split; [reflexivity|].
    apply sub_get_none_not_live; [apply L|]. unfold ad_subs_delete in D. destruct (ad_sub_get s v false); [discriminate|reflexivity].
  - intros w NE H. rewrite (member_evict _ _ _ _ _ _ w EV). apply N.eqb_neq in NE. rewrite NE. exact H.
Qed.

Lemma leave_mono c sid u : cmono c (fst (leave c sid u)).
Proof. unfold leave. repeat break_match; cbn [fst]; cmono_solve. Qed.

Lemma sub_reply_lim f s c n sid u want bkg :
  lim s c -> lim (h_st (sub_reply f s c n sid u want bkg)) (h_ca (sub_reply f s c n sid u want bkg)).
Proof.
  intros L. destruct (sub_reply_res f s c n sid u want bkg) as [ES [EC _]]. cbv zeta in ES, EC. rewrite ES.
  eapply lim_same; [reflexivity| |apply tus_lim; exact L].
  intros v. rewrite !cg_member, (proj1 (EC v)). auto.
Qed.

Lemma skel_offline_set_sub f s sid u t mode : skel (o_st (offline_set_sub f s sid u t mode)) = skel s.
Proof. unfold offline_set_sub. repeat break_match; cbn [o_st]; try reflexivity. apply skel_update. Qed.

(* loadSubscribers caches every live row *)
Lemma load_users_member rows : forall acc u,
  (member (mkCache 0 0 0 0 0 acc []) u = true \/ In (u, false) (map (fun r => (s_user r, s_deleted r)) rows)) ->
  member (mkCache 0 0 0 0 0 (fold_left (fun acc r =>
    if s_deleted r then acc
    else aset (s_user r) (mkPud (s_want r) (s_given r) (s_read r) (s_recv r) (s_delid r) 0) acc) rows acc) []) u = true.
Proof.
  induction rows as [|r rows IH]; intros acc u H; cbn.
  - destruct H as [H|[]]. exact H.
  - apply IH. destruct H as [H|[H|H]].
    + left. destruct (s_deleted r); [exact H|]. unfold member in *. cbn [c_users] in *. rewrite alookup_aset.
      destruct (N.eqb u (s_user r)); [reflexivity|exact H].
    + inv H. left. rewrite H2. unfold member. cbn [c_users]. rewrite alookup_aset, N.eqb_refl. reflexivity.
    + right. exact H.
Qed.
Lemma load_live_cached s : live_cached s (load s).
Proof.
  apply live_cached_skel. intros u HI. unfold load, load_users.
  pose proof (load_users_member (subs s) [] u (or_intror HI)) as H. unfold member in *. cbn [c_users] in *. exact H.
Qed.
Lemma lim_load s : lim0 s -> lim s (load s).
Proof. intros L. split; [exact L|apply load_live_cached]. Qed.

Section LimitInv.
Variable dr : Z -> list (Z * Z) -> option (list (Z * Z)).
Variable nr : list (Z * Z) -> list (Z * Z).
Variable sm : sessmap.

Definition inv_lim (x : state) : Prop :=
  lim0 (st x) /\ match ca x with Some c => live_cached (st x) c | None => True end.

Lemma inv_lim_of_lim s c n : lim s c -> inv_lim (mkState s (Some c) n).
Proof. intros [L0 LC]. split; assumption. Qed.
Lemma inv_lim_unloaded s n : lim0 s -> inv_lim (mkState s None n).
Proof. intros L. split; [exact L|exact I]. Qed.

Lemma lim_view x : inv_lim x -> lim (st x) (view x).
Proof. intros [L0 LC]. unfold view. destruct (ca x); [split; assumption|apply lim_load; exact L0]. Qed.

Lemma quiet_neutral f s c h : quiet dr nr f s c h -> hneutral s c h.
Proof.
  intros Q. destruct Q; [apply publish_neutral|apply note_neutral|apply get_data_neutral|apply get_desc_neutral
                        |apply get_sub_neutral|apply get_del_neutral|apply del_msg_neutral].
Qed.

Lemma step_inv_lim f x o : inv_lim x -> inv_lim (fst (step dr nr sm f x o)).
Proof.
  intros IL. pose proof IL as [L0 LC].
  assert (forall c, ca x = Some c -> lim (st x) c) as LM by (intros c E; rewrite E in LC; split; assumption).
  apply step_cases.
  - intros n. exact IL.
  - intros n. apply inv_lim_unloaded. exact L0.
  - intros c h E Q. apply inv_lim_of_lim. apply (lim_neutral (st x) c); [eapply quiet_neutral; exact Q|apply LM; exact E].
  - intros sid want bkg _. apply inv_lim_of_lim, sub_reply_lim, lim_view, IL.
  - intros sid c a b _ E _. apply inv_lim_of_lim. eapply unsub_lim; [apply leave_unsub_shape|apply LM, E].
  - intros sid c a _ E. apply inv_lim_of_lim. apply (lim_same (st x) c); [reflexivity|apply leave_mono|apply LM, E].
  - intros sid t mode c n _ E _. apply inv_lim_of_lim, tus_lim, LM, E.
  - intros sid t mode c n _ E _ _. apply inv_lim_of_lim, aus_lim, LM, E.
  - intros sid t mode n _. pose proof (skel_offline_set_sub f (st x) sid (sess_uid sm sid) t mode) as E.
    destruct L0 as [ND LE]. split; [split|]; cbn [st ca].
    + apply rows_nodup_skel. rewrite E. apply rows_nodup_skel. exact ND.
    + rewrite live_count_skel, E, <- live_count_skel. exact LE.
    + destruct (ca x) as [c|]; [|exact I]. apply live_cached_skel. rewrite E. apply live_cached_skel. exact LC.
  - intros sid t c _ E. apply inv_lim_of_lim. eapply unsub_lim; [apply del_sub_shape|apply LM, E].
Qed.

Lemma step_f_inv_lim x fo : inv_lim x -> inv_lim (fst (step_f dr nr sm x fo)).
Proof. exact (TopicFrame.step_f_inv dr nr sm inv_lim step_inv_lim (fun s c n H => inv_lim_unloaded s n (proj1 H)) x fo). Qed.

Lemma run_inv_lim h : forall x, inv_lim x -> inv_lim (fst (run dr nr sm x h)).
Proof. exact (TopicFrame.run_inv dr nr sm inv_lim step_f_inv_lim h). Qed.
End LimitInv.
