(* C18  Soundness of the collecting check [wf_tx] w.r.t. the oracle semantics
   [exec], for EVERY program and EVERY oracle (no bound on loop counts, on the
   number of failing statements or on program size), and the invariant of the
   monitor behind the reading of [atomic_run] on the driver-level trace.  At the
   end: [all_or_nothing], the property as a statement about a finished run. *)
From Coq Require Import List Bool Arith String Lia.
From Tinode Require Import Sys.TxIR.
Import ListNotations.

(* ---------- abstraction commutes with the primitive state changes ---------- *)
Lemma abs_emit e st : abs (emit e st) = aemit e (abs st).
Proof. reflexivity. Qed.
Lemma abs_cset f st : abs (cset f st) = aset f (abs st).
Proof. reflexivity. Qed.
Lemma abs_cpush d st : abs (cpush d st) = apush d (abs st).
Proof. reflexivity. Qed.
Lemma abs_ckinc st : abs (ckinc st) = abs st.
Proof. reflexivity. Qed.
Lemma abs_ask o a st : abs (snd (ask o a st)) = abs st.
Proof. reflexivity. Qed.
Lemma abs_nodefers st : abs (cnodefers st) = anodefers (abs st).
Proof. reflexivity. Qed.

Lemma aemit_ev_exec x k pt : aemit (ev_exec x k) pt = aemit (ev_exec x 0) pt.
Proof. destruct x; reflexivity. Qed.

Lemma in_dedup x l : In x l -> In x (dedup l).
Proof. intros H. apply nodup_In. exact H. Qed.

Lemma memp_in x l : memp x l = true -> In x l.
Proof. unfold memp. destruct (in_dec apoint_eq_dec x l); [auto|discriminate]. Qed.

Definition stuck_in (l : list (apoint * sig)) : Prop := exists q, In (q, SgStuck) l.

(* an outcome (or a stuck point) of one branch is one of the collected alternatives *)
Lemma covers_flat_map {A} (f : A -> list (apoint * sig)) l y x :
  In y l -> In x (f y) \/ stuck_in (f y) ->
  In x (dedup (flat_map f l)) \/ stuck_in (dedup (flat_map f l)).
Proof.
  intros Hy [H|[q Hq]]; [left|right; exists q]; apply in_dedup, in_flat_map; exists y; auto.
Qed.

Section Sound.
Variable ctxrb sticky : bool.
Variable fuel : nat.
Variable o : nat -> nat.

Notation CE := (cexec ctxrb sticky o).
Notation AE := (aexec ctxrb sticky fuel).

Lemma ceval_sound e st :
  In (fst (ceval o e st), abs (snd (ceval o e st))) (aeval e (abs st)).
Proof.
  destruct e; simpl; auto.
  destruct (bool_of (o (c_n st))); simpl; auto.
Qed.

Lemma ccond_sound c : forall st,
  abs (snd (ccond o c st)) = abs st /\ In (fst (ccond o c st)) (acond c (abs st)).
Proof.
  induction c; intros st; simpl.
  - auto.
  - auto.
  - change (a_env (abs st)) with (c_env st).
    destruct (is_codev (look v (c_env st))); simpl.
    + split; [reflexivity|]. destruct (bool_of (o (c_n st))); simpl; auto.
    + auto.
  - split; [reflexivity|]. destruct (bool_of (o (c_n st))); simpl; auto.
  - destruct (IHc st) as [Ha Hb]. destruct (ccond o c st) as [b st1]. simpl in *.
    split; [exact Ha|]. apply in_map. exact Hb.
  - destruct (IHc1 st) as [Ha Hb]. destruct (ccond o c1 st) as [b st1]. simpl in *.
    destruct b.
    + destruct (IHc2 st1) as [Hc Hd]. split; [congruence|].
      apply in_flat_map. exists true. split; [exact Hb|]. rewrite <- Ha. exact Hd.
    + simpl. split; [exact Ha|]. apply in_flat_map. exists false. split; [exact Hb|]. simpl. auto.
  - destruct (IHc1 st) as [Ha Hb]. destruct (ccond o c1 st) as [b st1]. simpl in *.
    destruct b.
    + simpl. split; [exact Ha|]. apply in_flat_map. exists true. split; [exact Hb|]. simpl. auto.
    + destruct (IHc2 st1) as [Hc Hd]. split; [congruence|].
      apply in_flat_map. exists false. split; [exact Hb|]. rewrite <- Ha. exact Hd.
Qed.

Lemma c_begin_sound v st : In (abs (c_begin o v st)) (a_begin v (abs st)).
Proof.
  unfold c_begin, a_begin. change (a_ph (abs st)) with (mon (c_tr st)).
  destruct (is_p0 (mon (c_tr st))); simpl.
  - destruct (bool_of (o (c_n st))); simpl; auto.
  - auto.
Qed.

Lemma c_exec_sound b st : In (abs (c_exec sticky o b st)) (a_exec sticky b (abs st)).
Proof.
  unfold c_exec, a_exec. change (a_ph (abs st)) with (mon (c_tr st)).
  change (a_flt (abs st)) with (faulted (c_tr st)).
  destruct (is_open (mon (c_tr st))); simpl.
  - rewrite abs_ckinc, abs_cset, abs_emit, aemit_ev_exec.
    match goal with |- In (aset (bind b ?x) _) _ =>
      apply (in_map (fun y => aset (bind b y) (aemit (ev_exec y 0) (abs st))) _ x) end.
    destruct (sticky && faulted (c_tr st)); simpl; auto.
    destruct (outcome_of (o (c_n st))); simpl; auto.
  - auto.
Qed.

Lemma c_pure_sound b st : In (abs (c_pure o b st)) (a_pure b (abs st)).
Proof.
  unfold c_pure, a_pure. simpl. destruct (bool_of (o (c_n st))); simpl; auto.
Qed.

Lemma c_commit_sound b st : In (abs (c_commit sticky o b st)) (a_commit sticky b (abs st)).
Proof.
  unfold c_commit, a_commit. change (a_ph (abs st)) with (mon (c_tr st)).
  change (a_flt (abs st)) with (faulted (c_tr st)).
  destruct (is_open (mon (c_tr st))); simpl.
  - destruct (sticky && faulted (c_tr st)); simpl.
    + auto.
    + destruct (bool_of (o (c_n st))); simpl; auto.
  - auto.
Qed.

Lemma c_rollback_sound st : abs (c_rollback st) = a_rollback (abs st).
Proof.
  unfold c_rollback, a_rollback. change (a_ph (abs st)) with (mon (c_tr st)).
  destruct (mon (c_tr st)); reflexivity.
Qed.

Lemma c_cancel_sound st : In (abs (c_cancel ctxrb o st)) (a_cancel ctxrb (abs st)).
Proof.
  unfold c_cancel, a_cancel. simpl. destruct (bool_of (o (c_n st))); simpl; auto.
Qed.

(* ---------- loops ---------- *)
Lemma agrow_incl F : forall n heads frontier, incl heads (agrow F n heads frontier).
Proof.
  induction n; intros heads frontier; simpl.
  - apply incl_refl.
  - destruct (nodup apoint_eq_dec
                (filter (fun x => negb (memp x heads)) (flat_map (fun h => normals (F h)) frontier))) eqn:E.
    + apply incl_refl.
    + intros x Hx. apply IHn. apply in_or_app. left. exact Hx.
Qed.

Lemma in_normals q sg l : In (q, sg) l -> (sg = SgNormal \/ sg = SgCont) -> In q (normals l).
Proof.
  intros H Hs. unfold normals. apply in_flat_map. exists (q, sg). split; [exact H|].
  destruct Hs; subst; simpl; auto.
Qed.

Lemma in_exits q sg sg' l : In (q, sg) l ->
  (sg = SgBreak /\ sg' = SgNormal) \/ (exists x, sg = SgRet x /\ sg' = SgRet x) \/ (sg = SgStuck /\ sg' = SgStuck) ->
  In (q, sg') (exits l).
Proof.
  intros H Hs. unfold exits. apply in_flat_map. exists (q, sg). split; [exact H|].
  destruct Hs as [[-> ->]|[[x [-> ->]]|[-> ->]]]; simpl; auto.
Qed.

Definition loop_out (F : apoint -> list (apoint * sig)) (heads : list apoint) :=
  map (fun h => (h, SgNormal)) heads ++ flat_map (fun h => exits (F h)) heads.

Lemma loop_out_exit F heads h q sg sg' : In h heads -> In (q, sg) (F h) ->
  (sg = SgBreak /\ sg' = SgNormal) \/ (exists x, sg = SgRet x /\ sg' = SgRet x) \/ (sg = SgStuck /\ sg' = SgStuck) ->
  In (q, sg') (loop_out F heads).
Proof.
  intros Hh H Hs. unfold loop_out. apply in_or_app. right. apply in_flat_map.
  exists h. split; [exact Hh|]. eapply in_exits; eassumption.
Qed.

Lemma citer_sound (f : cstate -> cstate * sig) (F : apoint -> list (apoint * sig)) heads :
  (forall st, In (abs (fst (f st)), snd (f st)) (F (abs st)) \/ stuck_in (F (abs st))) ->
  (forall h, In h heads -> forall x, In x (normals (F h)) -> In x heads) ->
  forall n st, In (abs st) heads ->
    In (abs (fst (citer f n st)), snd (citer f n st)) (loop_out F heads) \/ stuck_in (loop_out F heads).
Proof.
  intros Hf Hclosed. induction n; intros st Hin; simpl.
  - left. unfold loop_out. apply in_or_app. left.
    apply (in_map (fun h => (h, SgNormal))). exact Hin.
  - destruct (Hf st) as [H|[q Hq]].
    + destruct (f st) as [st1 sg]. simpl in H.
      destruct sg; simpl.
      * apply IHn, (Hclosed _ Hin). eapply in_normals; eauto.
      * left. eapply loop_out_exit; eauto.
      * apply IHn, (Hclosed _ Hin). eapply in_normals; eauto.
      * left. eapply loop_out_exit; eauto 6.
      * left. eapply loop_out_exit; eauto 6.
    + right. exists q. eapply loop_out_exit; eauto.
Qed.

Lemma closedb_spec F heads : closedb F heads = true ->
  forall h, In h heads -> forall x, In x (normals (F h)) -> In x heads.
Proof.
  unfold closedb. intros H h Hh x Hx.
  rewrite forallb_forall in H. specialize (H h Hh). rewrite forallb_forall in H.
  apply memp_in. apply H. exact Hx.
Qed.

(* ---------- the main simulation ---------- *)
Lemma aexec_sound : forall s nm st,
  In (abs (fst (CE nm s st)), snd (CE nm s st)) (AE nm s (abs st)) \/ stuck_in (AE nm s (abs st)).
Proof.
  induction s as [ | s1 IHs1 s2 IHs2 | v | b | b | b | | | v e | locals cnm body IHbody b | c s1 IHs1 s2 IHs2 | body IHbody | | | e | d | src ]; intros fnm st.
  - (* SSkip *) left. simpl. auto.
  - (* SSeq *)
    simpl. destruct (IHs1 fnm st) as [H|[q Hq]].
    + destruct (CE fnm s1 st) as [st1 sg]. simpl in H. apply (covers_flat_map _ _ _ _ H).
      destruct sg; simpl; auto.
    + right. exists q. apply in_dedup, in_flat_map. exists (q, SgStuck). split; [exact Hq|simpl; auto].
  - (* SBegin *) left. cbn [cexec aexec fst snd]. apply (in_map (fun q => (q, SgNormal))). apply c_begin_sound.
  - (* SExec *) left. cbn [cexec aexec fst snd]. apply (in_map (fun q => (q, SgNormal))). apply c_exec_sound.
  - (* SPure *) left. cbn [cexec aexec fst snd]. apply (in_map (fun q => (q, SgNormal))). apply c_pure_sound.
  - (* SCommit *) left. cbn [cexec aexec fst snd]. apply (in_map (fun q => (q, SgNormal))). apply c_commit_sound.
  - (* SRollback *) left. simpl. rewrite c_rollback_sound. auto.
  - (* SCancel *) left. cbn [cexec aexec fst snd]. apply (in_map (fun q => (q, SgNormal))). apply c_cancel_sound.
  - (* SSet *)
    left. simpl. pose proof (ceval_sound e st) as H. destruct (ceval o e st) as [x st1]. simpl in *.
    rewrite abs_cset.
    apply (in_map (fun r => (aset (upd v (fst r)) (snd r), SgNormal)) _ (x, abs st1)). exact H.
  - (* SCall *)
    simpl. destruct (IHbody cnm st) as [H|[q Hq]].
    + left. destruct (CE cnm body st) as [st1 sg]. simpl in H. apply in_dedup.
      match goal with |- In _ (map ?h _) => pose proof (in_map h _ _ H) as Hm end.
      destruct sg; simpl in *; exact Hm.
    + right. exists q. apply in_dedup.
      match goal with |- In _ (map ?h _) => pose proof (in_map h _ _ Hq) as Hm end.
      simpl in Hm. exact Hm.
  - (* SIf *)
    simpl. destruct (ccond_sound c st) as [Ha Hb]. destruct (ccond o c st) as [bv st1]. simpl in *.
    apply (covers_flat_map _ _ _ _ Hb). rewrite <- Ha. destruct bv; [apply IHs1|apply IHs2].
  - (* SLoop *)
    simpl. unfold aloop.
    set (F := AE fnm body). set (heads := agrow F fuel [abs st] [abs st]).
    destruct (closedb F heads) eqn:Hc.
    + pose proof (closedb_spec _ _ Hc) as Hclosed.
      assert (Hin : In (abs (snd (ask o 0 st))) heads).
      { rewrite abs_ask. apply (agrow_incl F fuel [abs st] [abs st]). simpl. auto. }
      destruct (citer_sound (CE fnm body) F heads (IHbody fnm) Hclosed (fst (ask o 0 st)) _ Hin) as [H|[q Hq]].
      * left. apply in_dedup. exact H.
      * right. exists q. apply in_dedup. exact Hq.
    + right. exists (abs st). apply in_dedup. simpl. auto.
  - (* SBreak *) left. simpl. auto.
  - (* SContinue *) left. simpl. auto.
  - (* SReturn *)
    left. simpl. pose proof (ceval_sound e st) as H. destruct (ceval o e st) as [x st1]. simpl in *.
    rewrite abs_cset.
    apply (in_map (fun r => (aset (bind fnm (fst r)) (snd r), SgRet (fst r))) _ (x, abs st1)). exact H.
  - (* SDefer *) left. simpl. auto.
  - (* SUnknown *) left. simpl. auto.
Qed.

Lemma existsb_stuck l : stuck_in l -> existsb is_stuck l = true.
Proof. intros [q Hq]. apply existsb_exists. exists (q, SgStuck). split; [exact Hq|reflexivity]. Qed.

Lemma crun_defers_sound defers : forall ds st pts pts',
  In (abs st) pts ->
  arun_defers ctxrb sticky fuel defers ds pts = Some pts' ->
  In (abs (crun_defers ctxrb sticky o defers ds st)) pts'.
Proof.
  induction ds; intros st pts pts' Hin Hrun; simpl in *.
  - inversion Hrun; subst. exact Hin.
  - unfold astep_defer in Hrun.
    set (s := nth a defers SSkip) in *.
    destruct (existsb is_stuck (flat_map (AE None s) pts)) eqn:Hst; [discriminate|].
    eapply IHds; [|exact Hrun].
    apply nodup_In. destruct (aexec_sound s None st) as [H|[q Hq]].
    + apply in_map_iff. exists (abs (fst (CE None s st)), snd (CE None s st)). split; [reflexivity|].
      apply in_flat_map. exists (abs st). auto.
    + rewrite existsb_stuck in Hst; [discriminate|]. exists q. apply in_flat_map. exists (abs st). auto.
Qed.
End Sound.

(* ---------- the generic theorem ---------- *)
Theorem tx_atomic_wf : forall p, wf_tx p = true -> forall o, atomic_run (exec p o) = true.
Proof.
  intros p Hwf o. unfold wf_tx in Hwf. rewrite forallb_forall in Hwf.
  unfold exec.
  pose proof (aexec_sound (p_ctxrb p) (p_sticky p) loop_fuel o (p_body p) (p_named p) cinit) as Hs.
  destruct (cexec (p_ctxrb p) (p_sticky p) o (p_named p) (p_body p) cinit) as [st1 sg] eqn:E.
  simpl in Hs. change (abs cinit) with ainit in Hs.
  destruct Hs as [H|[q Hq]].
  - specialize (Hwf _ H). unfold check_result in Hwf. simpl in Hwf.
    destruct sg; try discriminate.
    destruct (arun_defers (p_ctxrb p) (p_sticky p) loop_fuel (p_defers p) (c_defers st1) [anodefers (abs st1)]) as [pts|] eqn:Hr;
      [|discriminate].
    rewrite forallb_forall in Hwf.
    assert (Hin : In (abs (cnodefers st1)) [anodefers (abs st1)]) by (simpl; auto).
    pose proof (crun_defers_sound (p_ctxrb p) (p_sticky p) loop_fuel o (p_defers p) (c_defers st1) (cnodefers st1) _ _ Hin Hr) as Hfin.
    specialize (Hwf _ Hfin).
    unfold atomic_run. simpl. rewrite rev_involutive. exact Hwf.
  - specialize (Hwf _ Hq). discriminate.
Qed.

Theorem tx_atomic : forall p, wf_prog p = true -> forall o, atomic_run (exec p o) = true.
Proof.
  intros p H o. unfold wf_prog in H. apply andb_true_iff in H. destruct H as [_ H].
  exact (tx_atomic_wf p H o).
Qed.

(* ---------- what [atomic_run] says about the driver-level trace ---------- *)
Definition is_begin (e : event) := match e with EvBegin => true | _ => false end.
Definition is_commit (e : event) := match e with EvCommit => true | _ => false end.
(* the transaction ends without taking effect: explicit ROLLBACK, a COMMIT that
   failed, or the context cancel that database/sql turns into a rollback *)
Definition is_abort (e : event) :=
  match e with EvRollback | EvCommitFail | EvCancel true => true | _ => false end.
Definition is_term (e : event) := is_commit e || is_abort e.
Definition is_stmt (e : event) :=
  match e with EvExec _ | EvExecFail _ | EvExecCode _ => true | _ => false end.
(* events that reach the driver *)
Definition is_driver (e : event) :=
  match e with EvCancel false | EvCodeErr => false | _ => true end.
Definition cnt (f : event -> bool) (l : list event) : nat := List.length (filter f l).

(* invariant of the monitor, on newest-first traces *)
Definition mon_inv (l : list event) : Prop :=
  match mon l with
  | P0 => cnt is_begin l = 0 /\ cnt is_term l = 0 /\ cnt is_stmt l = 0
  | POpen => cnt is_begin l = 1 /\ cnt is_term l = 0
  | PCommitted => cnt is_begin l = 1 /\ cnt is_term l = 1 /\ cnt is_abort l = 0 /\
                  find is_driver l = Some EvCommit
  | PAborted => cnt is_begin l = 1 /\ cnt is_term l = 1 /\ cnt is_commit l = 0 /\ cnt is_abort l = 1
  | PBad => True
  end.

Lemma cnt_term_split l : cnt is_term l = cnt is_commit l + cnt is_abort l.
Proof.
  unfold cnt. induction l as [|e l IH]; simpl; auto.
  unfold is_term at 1. destruct e as [| | k | k | k | | | | [] | |]; simpl; lia.
Qed.

Lemma mon_inv_all : forall l, mon_inv l.
Proof.
  induction l as [|e l IH]; unfold mon_inv in *; simpl.
  - auto.
  - pose proof (cnt_term_split l) as Hs.
    destruct e as [| | k | k | k | | | | [] | |]; destruct (mon l); simpl in *; unfold cnt in *; simpl;
      intuition (try lia; try congruence).
Qed.

(* the monitor reads the trace newest first; the counts do not depend on the order *)
Lemma cnt_rev f l : cnt f (rev l) = cnt f l.
Proof.
  unfold cnt. induction l; simpl; auto.
  rewrite filter_app, app_length. simpl. destruct (f a); simpl; lia.
Qed.
Lemma existsb_rev (f : event -> bool) l : existsb f (rev l) = existsb f l.
Proof.
  induction l; simpl; auto. rewrite existsb_app. simpl. rewrite IHl. rewrite orb_false_r. apply orb_comm.
Qed.

(* the statement of the property on a finished run (chronological trace [tr], result [x]) *)
Definition all_or_nothing (tr : list event) (x : errval) : Prop :=
  (* the transaction is closed exactly once, or was never begun: never left open, never two terminators *)
  ((cnt is_begin tr = 0 /\ cnt is_term tr = 0 /\ cnt is_stmt tr = 0) \/ (cnt is_begin tr = 1 /\ cnt is_term tr = 1)) /\
  (* a fault (failed Begin / statement / Commit): nothing is committed, the error is reported,
     and a begun transaction is rolled back *)
  (faulted tr = true -> cnt is_commit tr = 0 /\ x <> VNil /\ (cnt is_begin tr = 1 -> cnt is_abort tr = 1)) /\
  (* a successful Commit is the last thing the driver sees, nothing is rolled back, nil is returned *)
  (cnt is_commit tr = 1 -> x = VNil /\ cnt is_abort tr = 0 /\ find is_driver (rev tr) = Some EvCommit) /\
  (* a rollback is never silent *)
  (cnt is_abort tr = 1 -> x <> VNil) /\
  (* when nothing fails and the code raises no error of its own, a begun transaction is committed *)
  (faulted tr = false -> coded tr = false -> cnt is_begin tr = 1 -> cnt is_commit tr = 1 /\ x = VNil).
