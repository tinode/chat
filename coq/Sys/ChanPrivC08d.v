(* C08: desc.private on a CHANNEL-ENABLED group topic.  Full subscribers have their subscription row under
   grpXXX, channel readers under chnXXX.  Go code modelled (server/topic.go), statement by statement, private part only:
     replySetDesc     sub["Private"] by mergeInterfaces against perUser[asUid].private; the row written is
                      (GrpToChn(t.name) if asChan else t.name, asUid), asChan = the request named the topic chnXXX;
                      then the cache; {ctrl 200}; nothing to write -> {ctrl 304};
     replyGetDesc     desc.private = perUser[asUid].private;
     thisUserSub      a channel reader (not permanently cached) is cached on attach with private = the request's
                      set.desc.private (nil when absent; the existing row under chnXXX is neither read nor written);
     loadSubscribers  the rows under grpXXX, with their private;
     store contract   SubsUpdate on a missing row: success, no effect (db/mysql/adapter.go, UPDATE ... 0 rows).
   Content values are the tokens of Sys/TopicDesc.v (0 = null, 1 = the DEL marker).  Definitions and proofs. *)
From Coq Require Import ZArith NArith List Bool.
From Tinode Require Import Base.Util Sys.Topic Sys.TopicDesc Sys.TopicMarks.
Import ListNotations.
Open Scope N_scope.

Record cstore_c08d := mkCS { cs_grp : list (N * N); cs_chn : list (N * N) }.       (* uid -> private, per name *)
Record ccache_c08d := mkCC { cc_users : list (N * (bool * N)) }.                   (* perUser: uid -> (isChan, private) *)

(* SubsUpdate(name, uid, {Private}) : a missing row is not an error *)
Definition cs_update_c08d (s : cstore_c08d) (aschan : bool) (u v : N) : cstore_c08d :=
  let upd l := match alookup u l with Some _ => aset u v l | None => l end in
  if aschan then mkCS (cs_grp s) (upd (cs_chn s)) else mkCS (upd (cs_grp s)) (cs_chn s).
Definition cs_own_c08d (s : cstore_c08d) (ischan : bool) (u : N) : option N :=
  alookup u (if ischan then cs_chn s else cs_grp s).

Definition cload_c08d (s : cstore_c08d) : ccache_c08d := mkCC (map (fun e => (fst e, (false, snd e))) (cs_grp s)).

Inductive cop_c08d :=
| CAttachReader (u : N) (priv : N)            (* {sub chnXXX} of a channel reader whose row exists *)
| CSetPriv (u : N) (aschan : bool) (tok : N)  (* {set desc private} from an attached session, topic named grp / chn *)
| CGetDesc (u : N)
| CDetachReader (u : N)
| CReload.

Inductive cframe_c08d := CCtrl (code : Z) | CDesc (priv : N).

Definition cstep_c08d (s : cstore_c08d) (c : ccache_c08d) (o : cop_c08d) : cstore_c08d * ccache_c08d * list cframe_c08d :=
  match o with
  | CAttachReader u priv =>
    match alookup u (cc_users c), alookup u (cs_chn s) with
    | None, Some _ => (s, mkCC (aset u (true, if (priv =? 1) then 0 else priv) (cc_users c)), [CCtrl 200])
    | _, _ => (s, c, [])                                          (* outside this model *)
    end
  | CSetPriv u aschan tok =>
    match alookup u (cc_users c) with
    | None => (s, c, [])
    | Some (ischan, cur) =>
      let '(nv, changed) := merge_val cur tok in
      if negb changed then (s, c, [CCtrl 304]) else
      (cs_update_c08d s aschan u nv, mkCC (aset u (ischan, nv) (cc_users c)), [CCtrl 200])
    end
  | CGetDesc u =>
    match alookup u (cc_users c) with
    | Some (_, p) => (s, c, [CDesc p])
    | None => (s, c, [])
    end
  | CDetachReader u =>
    match alookup u (cc_users c) with
    | Some (true, _) => (s, mkCC (aremove u (cc_users c)), [CCtrl 200])
    | _ => (s, c, [])
    end
  | CReload => (s, cload_c08d s, [])
  end.

(* ACK => STORED when the name used agrees with the kind of the requester: the requester's OWN row holds the value *)
Lemma chan_set_ack_stored_c08d s c u aschan tok ischan cur row :
  alookup u (cc_users c) = Some (ischan, cur) -> cs_own_c08d s ischan u = Some row ->
  aschan = ischan ->
  let '(s', c', fr) := cstep_c08d s c (CSetPriv u aschan tok) in
  fr = [CCtrl 200] ->
  cs_own_c08d s' ischan u = Some (fst (merge_val cur tok)) /\
  alookup u (cc_users c') = Some (ischan, fst (merge_val cur tok)).
Proof.
  intros LC LR E. subst aschan. unfold cstep_c08d. rewrite LC.
  destruct (merge_val cur tok) as [nv ch]. destruct ch; cbn [negb]; [|discriminate].
  intros _. cbn [fst]. split.
  - unfold cs_own_c08d, cs_update_c08d in *. destruct ischan; cbn [cs_grp cs_chn] in *; rewrite LR, alookup_aset, N.eqb_refl; reflexivity.
  - cbn [cc_users]. rewrite alookup_aset, N.eqb_refl. reflexivity.
Qed.

(* the full statement (whatever name was used) is refuted: a full subscriber naming the topic chnXXX *)
Definition chan_ack_stored_statement_c08d : Prop :=
  forall s c u aschan tok ischan cur row,
    alookup u (cc_users c) = Some (ischan, cur) -> cs_own_c08d s ischan u = Some row ->
    let '(s', _, fr) := cstep_c08d s c (CSetPriv u aschan tok) in
    fr = [CCtrl 200] -> cs_own_c08d s' ischan u = Some (fst (merge_val cur tok)).
Lemma chan_ack_stored_refuted_c08d : ~ chan_ack_stored_statement_c08d.
Proof.
  intros H. specialize (H (mkCS [(2, 21)] []) (mkCC [(2, (false, 21))]) 2 true 7 false 21 21 eq_refl eq_refl).
  cbv in H. specialize (H eq_refl). discriminate H.
Qed.

(* a channel reader's stored private is not what an attach caches: after attach without set.desc.private
   {get desc} reports null whatever the row holds *)
Lemma chan_reader_attach_null_c08d s c u row :
  alookup u (cc_users c) = None -> alookup u (cs_chn s) = Some row ->
  let '(s1, c1, _) := cstep_c08d s c (CAttachReader u 0) in
  snd (cstep_c08d s1 c1 (CGetDesc u)) = [CDesc 0].
Proof.
  intros LC LR. unfold cstep_c08d. rewrite LC, LR. cbn [N.eqb cc_users snd].
  rewrite alookup_aset, N.eqb_refl. reflexivity.
Qed.

(* full subscribers using their own name: coherence with the rows under grpXXX is kept, so a reload is invisible *)
Definition member_coh_c08d (s : cstore_c08d) (c : ccache_c08d) (u : N) : Prop :=
  forall cur, alookup u (cc_users c) = Some (false, cur) -> alookup u (cs_grp s) = Some cur.
Lemma member_set_coh_c08d s c u v tok :
  member_coh_c08d s c v ->
  let '(s', c', _) := cstep_c08d s c (CSetPriv u false tok) in member_coh_c08d s' c' v.
Proof.
  intros CO. unfold cstep_c08d. destruct (alookup u (cc_users c)) as [[ischan cur]|] eqn:LC; [|exact CO].
  destruct (merge_val cur tok) as [nv ch]. destruct ch; cbn [negb]; [|exact CO].
  unfold member_coh_c08d in *. cbn [cc_users cs_update_c08d cs_grp]. intros cur'. rewrite alookup_aset.
  destruct (N.eqb_spec v u) as [->|NE]; intros L.
  - injection L as -> <-. rewrite (CO _ LC), alookup_aset, N.eqb_refl. reflexivity.
  - destruct (alookup u (cs_grp s)); [rewrite alookup_aset; destruct (N.eqb_spec v u); [contradiction|]|]; apply CO; exact L.
Qed.
