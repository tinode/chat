(* C06: one request, histories, and the faulted requests they may contain.
   Topic.another_user_sub writes the cache only after store.Subs.Update went through, so a
   {set sub} naming another user that is not acknowledged leaves the store AND the cache as they
   were (aus_err_same_c06x, step_failed_offer_c06x: no invariant needed, any fault plan).
   Hence the ownership invariant and the step laws hold when the faulted requests either do not
   name O at all (fault_safe) or are a {set sub} naming ANOTHER user with any mode, O included
   (fault_safe_c06x): the only faults left outside are those inside the actor's OWN
   {sub}/{set sub} naming O - the three-write acceptance of a transfer, which is the known finding. *)
From Coq Require Import ZArith NArith List Bool Lia.
From Tinode Require Import Base.Util Pure.Acs Sys.Topic Sys.TopicTac Sys.TopicFrame Sys.TopicNum Sys.TopicMarks
  Sys.TopicOwner Sys.TopicOwnerProofs.
Import ListNotations.
Local Open Scope N_scope.

(* every error return of anotherUserSub is taken before anything is written *)
Lemma aus_err_same_c06x f s c n sid u t mode : forall code,
  snd (another_user_sub f s c n sid u t mode) = SubErr code ->
  h_st (fst (another_user_sub f s c n sid u t mode)) = s /\
  h_ca (fst (another_user_sub f s c n sid u t mode)) = c.
Proof.
  intros code H. pose proof (aus_shape f s c n sid u t mode) as SP.
  destruct (another_user_sub f s c n sid u t mode) as [h r]. cbn [fst snd] in *. subst r.
  inversion SP. split; reflexivity.
Qed.

(* a reply that acknowledges a {set sub}: 200 with the new acs, or 304 *)
Definition acks_c06x (fr : frame) : bool :=
  match fr with
  | CtrlAcs _ _ _ _ => true
  | Ctrl code _ => (code <? 400)%Z
  | _ => false
  end.

Section OfferC06x.
Variable dr : Z -> list (Z * Z) -> option (list (Z * Z)).
Variable nr : list (Z * Z) -> list (Z * Z).
Variable sm : sessmap.

(* An attached session's {set sub} naming another user that is not acknowledged (refused, or the
   store call failed and the request is never answered) changes neither the store nor the cache,
   whatever the state and the fault plan. *)
Lemma step_failed_offer_c06x f x sid t mode c :
  ca x = Some c -> attached c sid = true -> t <> 0 -> t <> sess_uid sm sid ->
  (forall fr, In (sid, fr) (snd (step dr nr sm f x (OSetSub sid t mode))) -> acks_c06x fr = false) ->
  st (fst (step dr nr sm f x (OSetSub sid t mode))) = st x /\
  ca (fst (step dr nr sm f x (OSetSub sid t mode))) = ca x.
Proof.
  intros EC AT T0 TU. destruct x as [s cx n0]. cbn [ca st] in *. subst cx.
  unfold step. cbn [st ca]. rewrite AT. cbn [negb]. unfold set_sub.
  assert ((t =? 0) || N.eqb t (sess_uid sm sid) = false) as SELF.
  { apply orb_false_iff. split; now apply N.eqb_neq. }
  rewrite SELF.
  pose proof (aus_err_same_c06x f s c 0 sid (sess_uid sm sid) t mode) as ES.
  destruct (another_user_sub f s c 0 sid (sess_uid sm sid) t mode) as [h r]. cbn [fst snd] in *.
  destruct r as [code|ch]; cbn [fst snd st ca h_st h_ca h_out h_n].
  - intros _. destruct (ES code eq_refl) as [-> ->]. split; reflexivity.
  - intros NA. exfalso.
    specialize (NA (match ch with Some (w, g) => CtrlAcs 200 t w g | None => Ctrl 304 [] end)).
    assert (acks_c06x (match ch with Some (w, g) => CtrlAcs 200 t w g | None => Ctrl 304 [] end) = true) as AK
      by (destruct ch as [[w g]|]; reflexivity).
    rewrite NA in AK; [discriminate|]. apply in_or_app. right. left. reflexivity.
Qed.

(* ---------- one request, histories ---------- *)
(* fault-free, or the request does not name O, or it is a {set sub} naming another user *)
Definition fault_safe_c06x (fo : fault * op) : Prop :=
  fault_safe fo \/ exists t, is_set_op sm (snd fo) t.
Definition hist_ok_c06x (h : list (fault * op)) : Prop :=
  Forall (fun fo => actor_ok sm (snd fo) /\ fault_safe_c06x fo) h.

Lemma hist_ok_weaken_c06x h : hist_ok sm h -> hist_ok_c06x h.
Proof.
  unfold hist_ok, hist_ok_c06x. intros H. eapply Forall_impl; [|exact H].
  intros fo [A B]. split; [exact A|left; exact B].
Qed.

Lemma set_sub_other_inv_c06x (is_set : N -> Prop) (asks : Prop) f s c n sid u target mode :
  oinv sm s c -> target <> 0 -> target <> u -> is_set target ->
  let h := set_sub f s c n sid u target mode in
  oinv sm (h_st h) (h_ca h) /\ ssum u is_set asks s (h_st h).
Proof.
  intros I E1 E2 HS. cbn zeta. unfold set_sub.
  assert ((target =? 0) || N.eqb target u = false) as SELF.
  { apply orb_false_iff. split; now apply N.eqb_neq. }
  rewrite SELF.
  pose proof (aus_inv sm is_set asks f s c n sid u target mode I E2 E1 HS) as TI. cbn zeta in TI.
  destruct (another_user_sub f s c n sid u target mode) as [h r]. cbn [fst snd] in TI. destruct TI as [I2 SS].
  destruct r; cbn [h_st h_ca]; auto.
Qed.

Lemma step_owner_c06x f x o : oinv_state sm x -> actor_ok sm o -> fault_safe_c06x (f, o) ->
  oinv_state sm (fst (step dr nr sm f x o)) /\ step_sum sm o (st x) (st (fst (step dr nr sm f x o))).
Proof.
  intros I AO FS. destruct x as [s cx n0]. unfold oinv_state in *. cbn [st ca] in *.
  assert (step_sum sm o s s) as SAME by (apply SumSame; reflexivity).
  assert (forall c (h : hres), cx = Some c -> sneutral s (h_st h) /\ cneutral c (h_ca h) ->
            oinv sm (h_st h) (h_ca h) /\ step_sum sm o s (h_st h)) as NEU.
  { intros c h -> [SN CN]. split; [apply (oinv_neutral sm s c); auto|now apply sneutral_sum]. }
  destruct o; unfold step, oinv_state; cbn [st ca negb].
  - (* OSub *)
    cbn in AO. destruct FS as [FS|[t [sid' [mode' [E _]]]]]; [|discriminate E]. cbn in FS.
    assert (is_owner (req_mode want) = true -> asks_op sm (OSub sid want bkg)) as AS by (intros H; left; eauto).
    destruct cx as [c|].
    + destruct (attached c sid); cbn [fst st ca]; [split; assumption|].
      apply (sub_reply_inv sm (is_set_op sm (OSub sid want bkg)) (asks_op sm (OSub sid want bkg))); auto.
    + destruct (try_load f s 0) as [n1 [c|code]] eqn:TL; cbn [fst st ca]; [|split; assumption].
      apply try_load_cases in TL. subst c.
      apply (sub_reply_inv sm (is_set_op sm (OSub sid want bkg)) (asks_op sm (OSub sid want bkg))); auto. now apply sinv_load.
  - (* OLeave *)
    destruct cx as [c|]; [destruct (attached c sid) eqn:AT|]; cbn [negb fst st ca]; try (split; assumption).
    rewrite (cinv_acting sm s c sid (proj2 I)).
    destruct unsub; cbn [fst st ca].
    + apply leave_unsub_inv; auto.
    + destruct (leave c sid _) as [c1 o1] eqn:EL. cbn [fst st ca h_st h_ca]. split; [|exact SAME].
      change c1 with (fst (c1, o1)). rewrite <- EL. now apply leave_inv.
  - (* OPub *)
    destruct cx as [c|]; [destruct (attached c sid)|]; cbn [negb fst st ca]; try (split; assumption).
    apply (NEU c); auto. apply publish_neutral.
  - (* ONote *)
    destruct cx as [c|]; [destruct (attached c sid)|]; cbn [negb fst st ca];
      repeat match goal with |- context [if ?b then _ else _] => destruct b end; cbn [fst st ca]; try (split; assumption).
    all: apply (NEU c); auto; apply note_neutral.
  - (* OGetData *)
    destruct cx as [c|]; [destruct (attached c sid)|]; cbn [negb fst st ca]; try (split; assumption).
    destruct (get_data_same f s c 0 sid (sess_uid sm sid) since before limit) as [-> ->]. split; assumption.
  - (* OGetDesc *)
    destruct cx as [c|]; [destruct (attached c sid)|]; cbn [negb fst st ca]; try rewrite offline_get_desc_frame; try (split; assumption).
    destruct (get_desc_same s c 0 sid (sess_uid sm sid)) as [-> ->]. split; assumption.
  - (* OGetSub *)
    destruct cx as [c|]; [destruct (attached c sid)|]; cbn [negb fst st ca]; try rewrite offline_get_sub_frame; try (split; assumption).
    destruct (get_sub_same f s c 0 sid (sess_uid sm sid)) as [-> ->]. split; assumption.
  - (* OGetDel *)
    destruct cx as [c|]; [destruct (attached c sid)|]; cbn [negb fst st ca]; try (split; assumption).
    destruct (get_del_same nr f s c 0 sid (sess_uid sm sid) since before limit) as [-> ->]. split; assumption.
  - (* ODelMsg *)
    destruct cx as [c|]; [destruct (attached c sid)|]; cbn [negb fst st ca]; try (split; assumption).
    apply (NEU c); auto. apply del_msg_neutral.
  - (* OSetSub *)
    cbn in AO.
    assert (target = 0 \/ target = sess_uid sm sid -> f = NoFault \/ is_owner (req_mode mode) = false) as FS'.
    { intros ST. destruct FS as [FS|[t [sid' [mode' [E [T0 TU]]]]]]; [exact FS|]. inv E. destruct ST; contradiction. }
    assert (target = 0 \/ target = sess_uid sm sid -> is_owner (req_mode mode) = true -> asks_op sm (OSetSub sid target mode)) as AS
      by (intros H1 H2; right; eauto 6).
    assert (target <> 0 -> target <> sess_uid sm sid -> is_set_op sm (OSetSub sid target mode) target) as HS
      by (intros H1 H2; eexists _, _; eauto).
    assert (forall (P : store -> Prop), P s -> (forall w g mw, smode s (sess_uid sm sid) = Some (w, g, false) -> is_owner mw = is_owner w ->
               P (ad_subs_update s (sess_uid sm sid) (mkUpd (Some mw) None None None None))) ->
              P (o_st (offline_set_sub f s sid (sess_uid sm sid) target mode))) as OFF.
    { intros P P0 P1. destruct (offline_set_sub_cases f s sid (sess_uid sm sid) target mode) as [->|[w [g [mw [SU [EW [_ ->]]]]]]]; eauto. }
    destruct cx as [c|]; [destruct (attached c sid)|]; cbn [negb fst st ca].
    + apply (set_sub_inv sm (is_set_op sm (OSetSub sid target mode)) (asks_op sm (OSetSub sid target mode))); auto.
    + apply (OFF (fun s' => oinv sm s' c /\ step_sum sm (OSetSub sid target mode) s s')); [split; assumption|].
      intros w g mw SU EW. destruct I as [SI CI].
      destruct (sinv_offline sm (is_set_op sm (OSetSub sid target mode)) (asks_op sm (OSetSub sid target mode)) s _ w g mw SI AO SU EW) as [S1 [S2 S3]].
      split; [split; auto|exact S3].
    + apply (OFF (fun s' => sinv s' /\ step_sum sm (OSetSub sid target mode) s s')); [split; assumption|].
      intros w g mw SU EW.
      destruct (sinv_offline sm (is_set_op sm (OSetSub sid target mode)) (asks_op sm (OSetSub sid target mode)) s _ w g mw I AO SU EW) as [S1 [S2 S3]].
      split; assumption.
  - (* ODelSub *)
    destruct cx as [c|]; [destruct (attached c sid)|]; cbn [negb fst st ca]; try (split; assumption).
    apply del_sub_inv; auto.
  - (* OUnload *)
    destruct cx as [c|]; [destruct (c_sess c)|]; cbn [fst st ca]; split; auto. now apply oinv_sinv in I.
  - (* ORestart *)
    cbn [fst st ca]. split; auto. destruct cx; [now apply oinv_sinv in I|exact I].
Qed.

(* a crash discards the cache; the stored part of the invariant stays *)
Lemma step_f_owner_c06x x fo : oinv_state sm x -> actor_ok sm (snd fo) -> fault_safe_c06x fo ->
  oinv_state sm (fst (step_f dr nr sm x fo)) /\ step_sum sm (snd fo) (st x) (st (fst (step_f dr nr sm x fo))).
Proof.
  intros I AO FS. unfold step_f. destruct fo as [f o]. cbn [fst snd] in *.
  destruct (step_owner_c06x f x o I AO FS) as [I1 S1].
  destruct (step dr nr sm f x o) as [x1 o1]. cbn [fst] in *.
  destruct f; cbn [fst st]; auto. split; [|exact S1]. now apply oinv_state_sinv in I1.
Qed.

Lemma run_owner_c06x h : forall x, oinv_state sm x -> hist_ok_c06x h -> oinv_state sm (fst (run dr nr sm x h)).
Proof.
  induction h as [|fo h IH]; intros x I H; cbn [run fst]; [exact I|].
  inversion H as [|? ? [AO FS] H']; subst.
  destruct (step_f_owner_c06x x fo I AO FS) as [I1 _].
  destruct (step_f dr nr sm x fo) as [x1 o1]. cbn [fst] in I1.
  specialize (IH x1 I1 H'). destruct (run dr nr sm x1 h) as [x2 os]. exact IH.
Qed.

Lemma run_one_owner_c06x s h : sinv s -> hist_ok_c06x h -> one_owner (fst (run dr nr sm (mkState s None 0) h)).
Proof. intros SI H. apply oinv_state_one_owner with (sm := sm). apply run_owner_c06x; [exact SI|exact H]. Qed.

(* ownership moves only by the acceptance of a grant that is IN THE STORE: if topics.owner changes
   at a step, the actor asked for O in his own request, his stored live row had O in given (not in
   want) before the step, he is the new owner and the previous owner keeps O nowhere *)
Lemma step_transfer_c06x x fo : oinv_state sm x -> actor_ok sm (snd fo) -> fault_safe_c06x fo ->
  let x' := fst (step_f dr nr sm x fo) in
  t_owner (st x') <> t_owner (st x) ->
  asks_op sm (snd fo) /\ t_owner (st x') = op_user sm (snd fo) /\
  (exists w g, smode (st x) (op_user sm (snd fo)) = Some (w, g, false) /\ is_owner g = true /\ is_owner w = false) /\
  (exists w' g', smode (st x') (t_owner (st x)) = Some (w', g', false) /\ is_owner w' = false /\ is_owner g' = false).
Proof.
  intros I AO FS. cbn zeta. intros NE. destruct (step_f_owner_c06x x fo I AO FS) as [_ SS].
  destruct SS as [A B|A B C|t T1 T2 A B C|T1 T2 T3 T4 T5 T6]; try congruence. auto.
Qed.

(* whoever topics.owner names after the step has a live stored row with O in want and given *)
Lemma step_owner_stays_c06x x fo : oinv_state sm x -> actor_ok sm (snd fo) -> fault_safe_c06x fo ->
  let x' := fst (step_f dr nr sm x fo) in
  exists w g, smode (st x') (t_owner (st x')) = Some (w, g, false) /\ is_owner w = true /\ is_owner g = true.
Proof.
  intros I AO FS. cbn zeta. destruct (step_f_owner_c06x x fo I AO FS) as [I1 _].
  apply oinv_state_sinv in I1. destruct I1 as [_ _ _ _ P].
  specialize (P (t_owner (st (fst (step_f dr nr sm x fo))))).
  destruct (smode _ (t_owner (st (fst (step_f dr nr sm x fo))))) as [[[w g] d]|]; cbn in P; [|congruence].
  rewrite N.eqb_refl in P. destruct P as [-> [W G]]. eauto.
Qed.

(* ---------- further step laws, read off the summary ---------- *)
(* a request by another user leaves the owner's stored row alone, unless it is that user's
   acceptance of a transfer *)
Lemma step_owner_kept_c06x x fo : oinv_state sm x -> actor_ok sm (snd fo) -> fault_safe_c06x fo ->
  op_user sm (snd fo) <> t_owner (st x) ->
  let x' := fst (step_f dr nr sm x fo) in
  (smode (st x') (t_owner (st x)) = smode (st x) (t_owner (st x)) /\ t_owner (st x') = t_owner (st x)) \/
  (asks_op sm (snd fo) /\ t_owner (st x') = op_user sm (snd fo) /\
   exists w g, smode (st x) (op_user sm (snd fo)) = Some (w, g, false) /\ is_owner g = true /\ is_owner w = false).
Proof.
  intros I AO FS NA. cbn zeta. destruct (step_f_owner_c06x x fo I AO FS) as [_ SS].
  destruct SS as [A B|A B C|t T1 T2 A B C|T1 T2 T3 T4 T5 T6].
  - left. auto.
  - left. split; [|exact B]. apply A. congruence.
  - left. split; [|exact B]. apply A. congruence.
  - right. auto.
Qed.

(* O enters a stored grant only by {set sub} of the current owner naming that user; a
   re-subscription restores a previous grant *)
Lemma step_grant_c06x x fo v w' g' d' : oinv_state sm x -> actor_ok sm (snd fo) -> fault_safe_c06x fo ->
  let x' := fst (step_f dr nr sm x fo) in
  smode (st x') v = Some (w', g', d') -> is_owner g' = true -> ~ had_given_O (smode (st x) v) ->
  op_user sm (snd fo) = t_owner (st x) /\ is_set_op sm (snd fo) v.
Proof.
  intros I AO FS. cbn zeta. intros E OG NH. destruct (step_f_owner_c06x x fo I AO FS) as [_ SS].
  destruct SS as [A B|A B C|t T1 T2 A B C|T1 T2 T3 [w [g [T4 [T4' _]]]] [w2 [g2 [T5 [_ T5']]]] T6].
  - exfalso. apply NH. rewrite <- A. eexists _, _, _. eauto.
  - exfalso. apply NH. destruct (N.eq_dec v (op_user sm (snd fo))) as [->|NE].
    + eapply C; eauto.
    + rewrite <- (A v NE). eexists _, _, _. eauto.
  - destruct (N.eq_dec v t) as [->|NE].
    + destruct (C _ _ _ E OG) as [H|H]; [contradiction|exact H].
    + exfalso. apply NH. rewrite <- (A v NE). eexists _, _, _. eauto.
  - exfalso. destruct (N.eq_dec v (op_user sm (snd fo))) as [->|N1].
    + apply NH. eexists _, _, _. eauto.
    + destruct (N.eq_dec v (t_owner (st x))) as [->|N2].
      * rewrite T5 in E. inv E. congruence.
      * apply NH. rewrite <- (T6 v N1 N2). eexists _, _, _. eauto.
Qed.

(* the owner's own requests never move ownership: the owner cannot give it up *)
Lemma step_owner_self_c06x x fo : oinv_state sm x -> actor_ok sm (snd fo) -> fault_safe_c06x fo ->
  op_user sm (snd fo) = t_owner (st x) -> t_owner (st (fst (step_f dr nr sm x fo))) = t_owner (st x).
Proof.
  intros I AO FS EA. destruct (step_f_owner_c06x x fo I AO FS) as [_ SS].
  destruct SS as [A B|A B C|t T1 T2 A B C|T1 T2 T3 T4 T5 T6]; auto. congruence.
Qed.
End OfferC06x.
