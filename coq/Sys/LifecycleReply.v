(* C14: every subscribe / leave / delete request is answered exactly once (a leave that crosses the
   session's eviction may be answered by the eviction notice alone); the steps of the real code at
   which a request vanishes silently are named one by one ([lossy]). *)
From Coq Require Import List Arith Bool Lia.
Import ListNotations.
Require Import Tinode.Sys.Lifecycle Tinode.Sys.LifecycleProofs Tinode.Sys.LifecycleAttach Tinode.Sys.LifecycleTerm.

(* ---------- ghost: the requests issued so far ---------- *)

Definition issue (c : config) (l : label) : list req :=
  match l with
  | ClientSub s t ch => [mkReq s (c_nextrid c) KSub t true ch]
  | ClientLeave s t u ch => [mkReq s (c_nextrid c) (KLeave u) t true ch]
  | ClientDel s t => [mkReq s (c_nextrid c) KDel t true false]
  | _ => []
  end.

(* ---------- counting one request id ---------- *)

Definition hit (n : rid) (r : req) : bool := r_init r && Nat.eqb (r_rid r) n.
Definition cR (n : rid) (l : list req) : nat := length (filter (hit n) l).
Definition cP (n : rid) (l : list (inst * req)) : nat := cR n (map snd l).
Definition dels (l : list hmsg) : list req := flat_map (fun m => match m with HDel r => [r] | HUnload _ => [] end) l.
Definition cH (n : rid) (l : list hmsg) : nat := cR n (dels l).
Definition hitp (n : rid) (p : reply) : bool := match p_rid p with Some k => Nat.eqb k n | None => false end.
Definition ans (n : rid) (x : sess) : nat := length (filter (hitp n) (s_out x)).

Definition queuedN (n : rid) (c : config) : nat :=
  cR n (c_hjoin c) + cP n (c_inits c) + cP n (c_treg c) + cP n (c_tunreg c) + cH n (c_hunreg c).

(* replies received for request q plus copies of q still in a queue *)
Definition acct (q : req) (c : config) : nat := ans (r_rid q) (c_sess c (r_sid q)) + queuedN (r_rid q) c.

Lemma cR_app : forall n l1 l2, cR n (l1 ++ l2) = cR n l1 + cR n l2.
Proof. intros. unfold cR. rewrite filter_app, app_length. reflexivity. Qed.
Lemma cP_app : forall n l1 l2, cP n (l1 ++ l2) = cP n l1 + cP n l2.
Proof. intros. unfold cP. rewrite map_app. apply cR_app. Qed.
Lemma cH_app : forall n l1 l2, cH n (l1 ++ l2) = cH n l1 + cH n l2.
Proof. intros. unfold cH, dels. rewrite flat_map_app. apply cR_app. Qed.
Lemma cR_cons : forall n r l, cR n (r :: l) = (if hit n r then 1 else 0) + cR n l.
Proof. intros. unfold cR. simpl. destruct (hit n r); reflexivity. Qed.
Lemma cP_cons : forall n i r l, cP n ((i, r) :: l) = (if hit n r then 1 else 0) + cP n l.
Proof. intros. unfold cP. simpl. apply cR_cons. Qed.
Lemma cH_cons_del : forall n r l, cH n (HDel r :: l) = (if hit n r then 1 else 0) + cH n l.
Proof. intros. unfold cH. simpl. apply cR_cons. Qed.
Lemma cH_cons_unl : forall n t l, cH n (HUnload t :: l) = cH n l.
Proof. reflexivity. Qed.
Lemma cR_nil : forall n, cR n [] = 0. Proof. reflexivity. Qed.
Lemma cP_nil : forall n, cP n [] = 0. Proof. reflexivity. Qed.
Lemma cH_nil : forall n, cH n [] = 0. Proof. reflexivity. Qed.

Lemma cP_take_first : forall n i l r l',
  take_first i l = Some (r, l') -> cP n l = (if hit n r then 1 else 0) + cP n l'.
Proof.
  intros n i l r l' H. apply take_first_spec in H. destruct H as (l1 & l2 & -> & -> & _).
  rewrite !cP_app, cP_cons. lia.
Qed.

Lemma cP_requeue : forall n i l,
  cP n (fst (requeue_reg i l)) + cR n (snd (requeue_reg i l)) = cP n l.
Proof.
  intros n i l. unfold requeue_reg. simpl. induction l as [|[j r] rest IH]; simpl; auto.
  destruct (Nat.eqb i j); simpl.
  - rewrite cR_cons, cP_cons. lia.
  - rewrite !cP_cons. lia.
Qed.

Lemma cP_all_internal : forall n (f : tid * inst -> inst * req) l,
  (forall x, r_init (snd (f x)) = false) -> cP n (map f l) = 0.
Proof.
  intros n f l H. induction l as [|x r IH]; simpl; auto.
  destruct (f x) as [j q] eqn:E. rewrite cP_cons, IH. unfold hit.
  specialize (H x). rewrite E in H. simpl in H. rewrite H. reflexivity.
Qed.

Lemma ans_reply : forall n x p, ans n (s_reply x p) = if s_term x then ans n x else ans n x + (if hitp n p then 1 else 0).
Proof.
  intros. unfold s_reply. destruct (s_term x); auto. unfold ans. simpl.
  rewrite filter_app, app_length. simpl. destruct (hitp n p); reflexivity.
Qed.

Lemma hitp_rep : forall n r cd, hitp n (rep r cd) = Nat.eqb (r_rid r) n.
Proof. reflexivity. Qed.

(* ---------- the requests in the queues ---------- *)

Definition inq (r : req) (c : config) : Prop :=
  In r (c_hjoin c) \/ In r (map snd (c_inits c)) \/ In r (map snd (c_treg c)) \/ In r (map snd (c_tunreg c)) \/
  In (HDel r) (c_hunreg c).

Lemma cR_pos_in : forall n l, 0 < cR n l -> exists r, In r l /\ hit n r = true.
Proof.
  induction l as [|r rest IH]; intros H; [unfold cR in H; simpl in H; lia|].
  rewrite cR_cons in H. destruct (hit n r) eqn:E.
  - exists r. split; [left; reflexivity|exact E].
  - destruct (IH H) as (x & A & B). exists x. split; [right; exact A|exact B].
Qed.

Lemma in_dels : forall r l, In r (dels l) <-> In (HDel r) l.
Proof.
  intros r l. unfold dels. rewrite in_flat_map. split.
  - intros ([t|q] & A & B); simpl in B; [contradiction|]. destruct B as [->|[]]. exact A.
  - intros H. exists (HDel r). split; [exact H|left; reflexivity].
Qed.

Lemma queuedN_pos_inq : forall n c, 0 < queuedN n c -> exists r, inq r c /\ hit n r = true.
Proof.
  intros n c H. unfold queuedN in H.
  destruct (Nat.eq_dec (cR n (c_hjoin c)) 0) as [E1|E1];
    [|destruct (cR_pos_in n (c_hjoin c)) as (r & A & B); [lia|exists r; split; [left; exact A|exact B]]].
  destruct (Nat.eq_dec (cP n (c_inits c)) 0) as [E2|E2];
    [|destruct (cR_pos_in n (map snd (c_inits c))) as (r & A & B); [unfold cP in E2; lia|exists r; split; [right; left; exact A|exact B]]].
  destruct (Nat.eq_dec (cP n (c_treg c)) 0) as [E3|E3];
    [|destruct (cR_pos_in n (map snd (c_treg c))) as (r & A & B); [unfold cP in E3; lia|exists r; split; [right; right; left; exact A|exact B]]].
  destruct (Nat.eq_dec (cP n (c_tunreg c)) 0) as [E4|E4];
    [|destruct (cR_pos_in n (map snd (c_tunreg c))) as (r & A & B); [unfold cP in E4; lia|exists r; split; [right; right; right; left; exact A|exact B]]].
  destruct (cR_pos_in n (dels (c_hunreg c))) as (r & A & B); [unfold cH in H; lia|].
  exists r. split; [right; right; right; right; apply in_dels; exact A|exact B].
Qed.

Lemma map_snd_sub : forall (l l' : list (inst * req)), (forall x, In x l' -> In x l) ->
  forall r, In r (map snd l') -> In r (map snd l).
Proof.
  intros l l' H r Hin. apply in_map_iff in Hin. destruct Hin as (x & <- & Hx). apply in_map. auto.
Qed.

Lemma drain_unreg_sub : forall i l f l' f', drain_unreg i l f = (l', f') -> forall x, In x l' -> In x l.
Proof.
  induction l as [|[j r] rest IH]; intros f l' f' H x Hin; simpl in H.
  - inversion H; subst. contradiction.
  - destruct (Nat.eqb i j).
    + right. eapply IH; eauto.
    + destruct (drain_unreg i rest f) as [l2 f2] eqn:E. inversion H; subst.
      destruct Hin as [<-|Hin]; [left; reflexivity|right; eapply IH; eauto].
Qed.

Lemma take_first_snd : forall i (l : list (inst * req)) q l', take_first i l = Some (q, l') ->
  In q (map snd l) /\ forall r, In r (map snd l') -> In r (map snd l).
Proof.
  intros i l q l' E. destruct (in_take_first _ _ _ _ _ E) as [Hq Hsub]. split.
  - exact (in_map snd _ _ Hq).
  - apply map_snd_sub. exact Hsub.
Qed.

Lemma inq_pre404 : forall c r0 e r, inq r (pre404 c r0 e) <-> inq r c.
Proof.
  intros c r0 e r. destruct (pre404_frame c r0 e) as (_ & _ & _ & E1 & E2 & E3 & E4 & E5 & _).
  unfold inq. rewrite E1, E2, E3, E4, E5. tauto.
Qed.

(* topicInit failed: joins go back to the hub, the drain only removes *)
Lemma inq_init_failed : forall c i r inits' unreg' f' c2,
  take_first i (c_inits c) = Some (r, inits') ->
  drain_unreg i (c_tunreg c) (upd (c_sess c) (r_sid r) (s_reply (c_sess c (r_sid r)) (rep r CNotFound))) = (unreg', f') ->
  c_hjoin c2 = c_hjoin c ++ snd (requeue_reg i (c_treg c)) -> c_inits c2 = inits' -> c_treg c2 = fst (requeue_reg i (c_treg c)) ->
  c_tunreg c2 = unreg' -> (forall x, In x (c_hunreg c2) -> In x (c_hunreg c)) ->
  forall q, inq q c2 -> inq q c.
Proof.
  intros c i r inits' unreg' f' c2 E Ed E1 E2 E3 E4 E5 q H. unfold inq in *. rewrite E1, E2, E3, E4 in H.
  destruct (take_first_snd _ _ _ _ E) as [_ Hsub]. destruct (requeue_in i (c_treg c)) as [Q1 Q2].
  destruct H as [H|[H|[H|[H|H]]]].
  - apply in_app_or in H. destruct H as [H|H]; [tauto|]. destruct (Q2 _ H) as [j Hj]. right. right. left. exact (in_map snd _ _ Hj).
  - right. left. auto.
  - right. right. left. exact (map_snd_sub _ _ Q1 _ H).
  - right. right. right. left. eapply map_snd_sub; [|exact H]. eapply drain_unreg_sub; eauto.
  - right. right. right. right. auto.
Qed.

(* queues only shrink *)
Lemma inq_sub : forall c c' q,
  incl (c_hjoin c') (c_hjoin c) -> incl (map snd (c_inits c')) (map snd (c_inits c)) ->
  incl (map snd (c_treg c')) (map snd (c_treg c)) -> incl (map snd (c_tunreg c')) (map snd (c_tunreg c)) ->
  incl (c_hunreg c') (c_hunreg c) -> inq q c' -> inq q c.
Proof. intros c c' q I1 I2 I3 I4 I5 H. unfold inq in *. destruct H as [H|[H|[H|[H|H]]]]; auto 6. Qed.

Ltac inq_leaf := unfold inq in *; cfg_simpl; try match goal with E : _ = _ :: _ |- _ => rewrite E end;
  rewrite ?map_app, ?in_app_iff in *; cbn [map snd In issue] in *; intuition (subst; auto).

(* every client request found in a queue was issued: queues only move requests around *)
Lemma inq_step : forall c l c', step c l c' -> forall r, r_init r = true -> inq r c' -> inq r c \/ In r (issue c l).
Proof.
  intros c l c' Hs q Hqi Hq. estep_cases Hs; try (left; exact Hq);
    try (destruct (take_first_snd _ _ _ _ E) as [Hr Hsub]);
    try (left; revert Hq; apply inq_sub; cfg_simpl; try apply incl_refl;
         first [exact Hsub | rewrite E; exact (incl_tl _ (incl_refl _))]).
  - inq_leaf.
  - inq_leaf.
  - inq_leaf. right. left. congruence.
  - inq_leaf.
  - inq_leaf.
  - inq_leaf.
  - left. revert Hq. apply (inq_init_failed c i r inits' unreg' f' _ E Edr); auto.
  - left. revert Hq. apply (inq_init_failed c i r inits' unreg' f' _ E Edr); auto.
  - left. apply (inq_pre404 c r eR q). revert Hq.
    ustep_cases Hu; try destruct (r_init r0); (apply inq_sub; cfg_simpl; try apply incl_refl; exact (proj2 (take_first_snd _ _ _ _ E0))).
  - inq_leaf. discriminate.
  - assert (Hn : ~ In q (map snd (map (fun tj => (snd tj, mkReq s1 0 (KLeave false) (fst tj) false false)) (s_subs (c_sess c s1))))).
    { rewrite map_map. intros X. apply in_map_iff in X. destruct X as (x & <- & _). discriminate Hqi. }
    inq_leaf.
Qed.

(* ---------- the eviction-notice exception and the silent steps ---------- *)

Definition is_notice (t : tid) (p : reply) : bool :=
  match p_rid p, p_code p with
  | None, CEvicted => Nat.eqb (p_topic p) t
  | _, _ => false
  end.
Definition noticed (q : req) (c : config) : bool := existsb (is_notice (r_topic q)) (s_out (c_sess c (r_sid q))).
Definition is_leave (q : req) : bool := match r_kind q with KLeave _ => true | _ => false end.

(* The steps at which the code drops a client request without a word:
   - topicInit finds the topic marked deleted and just returns (init_topic.go:111-114);
   - the hub forwards the owner's {del} to a topic that is still loading, where replyDelTopic only logs;
   - handleLeaveRequest finds the session gone from Topic.sessions and says nothing - unless the session was
     told by an eviction notice for that topic, which the property accepts as the answer to a {leave}. *)
Definition lossy (c : config) (l : label) : bool :=
  match l with
  | InitDone i true => i_deleted (c_inst c i)
  | HubUnreg vis =>
      match c_hunreg c with
      | HDel r :: _ => match c_table c (r_topic r) with
                       | Some i => is_init (i_phase (c_inst c i)) && negb vis
                       | None => false
                       end
      | _ => false
      end
  | TopicUnreg i =>
      match take_first i (c_tunreg c) with
      | Some (r, _) =>
          r_init r && negb (inactive (c_inst c i)) && (match r_kind r with KLeave true => false | _ => true end) &&
          negb (mem (r_sid r) (i_sessions (c_inst c i))) && negb (is_leave r && noticed r c)
      | None => false
      end
  | _ => false
  end.

(* The step at which the code answers one request TWICE: a {leave} that addresses a topic WITHOUT channel
   functionality by a channel name: verifyChannelAccess fails, handleLeaveRequest queues the 404 and goes on
   (topic.go:697-702), and the rest of the function answers again (200 / 403 / 404 / 503). *)
Definition noisy (c : config) (l : label) : bool :=
  match l with
  | TopicUnreg i =>
      match take_first i (c_tunreg c) with
      | Some (r, _) => r_init r && r_aschan r && negb (c_ischan c (i_name (c_inst c i)))
      | None => false
      end
  | _ => false
  end.

(* ... and the request whose account it raises *)
Definition extra (c : config) (l : label) (q : req) : nat :=
  match l with
  | TopicUnreg i =>
      match take_first i (c_tunreg c) with
      | Some (r, _) => if noisy c l && hit (r_rid q) r then 1 else 0
      | None => 0
      end
  | _ => 0
  end.

Lemma extra_quiet : forall c l q, noisy c l = false -> extra c l q = 0.
Proof.
  intros c l q H. destruct l; simpl in *; auto.
  destruct (take_first i (c_tunreg c)) as [[r rest]|]; auto. rewrite H. reflexivity.
Qed.

Definition uniq (q : req) (c : config) : Prop := forall r, inq r c -> hit (r_rid q) r = true -> r = q.

(* what one step may do to the account of an already issued request q *)
Definition conserves (c : config) (l : label) (c' : config) (q : req) : Prop :=
  acct q c' <= acct q c + extra c l q /\
  (s_term (c_sess c' (r_sid q)) = false -> lossy c l = false -> noisy c l = false ->
   acct q c' = acct q c \/ (acct q c' + 1 = acct q c /\ is_leave q = true /\ noticed q c' = true)).

(* the form all steps but the noisy one satisfy *)
Definition conserves0 (c : config) (l : label) (c' : config) (q : req) : Prop :=
  acct q c' <= acct q c /\
  (s_term (c_sess c' (r_sid q)) = false -> lossy c l = false ->
   acct q c' = acct q c \/ (acct q c' + 1 = acct q c /\ is_leave q = true /\ noticed q c' = true)).

Lemma conserves0_conserves : forall c l c' q, conserves0 c l c' q -> conserves c l c' q.
Proof. intros c l c' q [A B]. split; [lia|auto]. Qed.

Ltac acct_simpl :=
  unfold acct, queuedN; cfg_simpl; unfold upd;
  rewrite ?cR_app, ?cP_app, ?cH_app, ?cR_cons, ?cP_cons, ?cH_cons_del, ?cH_cons_unl, ?cR_nil, ?cP_nil, ?cH_nil.

Lemma hit_new : forall q s k t n ch, r_rid q <> n -> hit (r_rid q) (mkReq s n k t true ch) = false.
Proof. intros. unfold hit. simpl. destruct (Nat.eqb_spec n (r_rid q)); [congruence|reflexivity]. Qed.

Lemma hitp_new : forall q s k t b cd n ch, r_rid q <> n -> hitp (r_rid q) (rep (mkReq s n k t b ch) cd) = false.
Proof. intros. rewrite hitp_rep. simpl. destruct (Nat.eqb_spec n (r_rid q)); [congruence|reflexivity]. Qed.

Lemma ans_ext : forall n x y, s_out x = s_out y -> ans n x = ans n y.
Proof. intros n x y H. unfold ans. rewrite H. reflexivity. Qed.

(* the consumed request r is answered: what the outbox of q's session gains *)
Lemma ans_upd_reply : forall q r (f : sid -> sess) (g : sess -> sess) cd,
  r_init r = true -> (hit (r_rid q) r = true -> r = q) ->
  (forall x, s_out (g x) = s_out x /\ s_term (g x) = s_term x) ->
  ans (r_rid q) (upd f (r_sid r) (s_reply (g (f (r_sid r))) (rep r cd)) (r_sid q)) =
  ans (r_rid q) (f (r_sid q)) + (if s_term (f (r_sid q)) then 0 else if hit (r_rid q) r then 1 else 0).
Proof.
  intros q r f g cd Hi Hu Hg. unfold upd.
  destruct (Nat.eqb_spec (r_sid q) (r_sid r)) as [E|Hne].
  - rewrite <- E. rewrite ans_reply. destruct (Hg (f (r_sid q))) as [Ho Ht]. rewrite Ht.
    rewrite (ans_ext _ (g (f (r_sid q))) (f (r_sid q)) Ho).
    destruct (s_term (f (r_sid q))); [lia|]. rewrite hitp_rep. unfold hit. rewrite Hi. simpl. reflexivity.
  - destruct (hit (r_rid q) r) eqn:Eh; [|destruct (s_term (f (r_sid q))); lia].
    exfalso. apply Hne. rewrite (Hu eq_refl). reflexivity.
Qed.

Lemma g_id : forall x : sess, s_out x = s_out x /\ s_term x = s_term x. Proof. auto. Qed.
Lemma g_done : forall x : sess, s_out (s_donereq x) = s_out x /\ s_term (s_donereq x) = s_term x. Proof. auto. Qed.

Lemma cons_same : forall c l c' q, acct q c' = acct q c -> conserves0 c l c' q.
Proof. intros c l c' q X. split; [lia|auto]. Qed.

(* the consumed request r gets its reply *)
Lemma cons_answered : forall c l c' q r g cd,
  queuedN (r_rid q) c' + (if hit (r_rid q) r then 1 else 0) = queuedN (r_rid q) c ->
  ans (r_rid q) (c_sess c' (r_sid q)) =
    ans (r_rid q) (upd (c_sess c) (r_sid r) (s_reply (g (c_sess c (r_sid r))) (rep r cd)) (r_sid q)) ->
  s_term (c_sess c' (r_sid q)) = s_term (c_sess c (r_sid q)) ->
  r_init r = true -> (hit (r_rid q) r = true -> r = q) ->
  (forall x, s_out (g x) = s_out x /\ s_term (g x) = s_term x) ->
  conserves0 c l c' q.
Proof.
  intros c l c' q r g cd Hq Hs Hterm Hri Hu Hg. unfold conserves0, acct. rewrite Hs, Hterm.
  rewrite (ans_upd_reply q r (c_sess c) g cd Hri Hu Hg). split.
  - destruct (s_term (c_sess c (r_sid q))); destruct (hit (r_rid q) r); lia.
  - intros Ht0 _. left. rewrite Ht0. destruct (hit (r_rid q) r); lia.
Qed.

Ltac sess_eq := simpl; unfold on_sess, upd; simpl;
  repeat match goal with |- context [Nat.eqb ?a ?b] => destruct (Nat.eqb_spec a b); subst; simpl end;
  autorewrite with lc; simpl; try reflexivity; try congruence;
  try (apply ans_ext; simpl; autorewrite with lc; simpl; congruence).

(* the consumed request r vanishes at a step named in [lossy] *)
Lemma cons_dropped : forall c l c' q r,
  queuedN (r_rid q) c' + (if hit (r_rid q) r then 1 else 0) = queuedN (r_rid q) c ->
  ans (r_rid q) (c_sess c' (r_sid q)) = ans (r_rid q) (c_sess c (r_sid q)) ->
  lossy c l = true -> conserves0 c l c' q.
Proof.
  intros c l c' q r Hq Ha Hl. unfold conserves0, acct. rewrite Ha. split.
  - destruct (hit (r_rid q) r); lia.
  - intros _ X. congruence.
Qed.

Lemma g_setsubs : forall l x, s_out (s_setsubs x l) = s_out x /\ s_term (s_setsubs x l) = s_term x. Proof. auto. Qed.

Lemma in_map_snd : forall (i : inst) (r : req) l, In (i, r) l -> In r (map snd l).
Proof. intros i r l H. apply (in_map snd) in H. exact H. Qed.

Definition dels_init (c : config) : Prop := forall r, In (HDel r) (c_hunreg c) -> r_init r = true.

Lemma ans_detach : forall n x t, ans n (s_detach x t) = ans n x.
Proof. intros. unfold s_detach. destruct (s_term x); reflexivity. Qed.
Lemma ans_notice : forall n x cd t, ans n (s_reply x (mkRep None cd t)) = ans n x.
Proof. intros. rewrite ans_reply. destruct (s_term x); auto. Qed.
Lemma ans_donereq : forall n x, ans n (s_donereq x) = ans n x.
Proof. reflexivity. Qed.
Lemma hit_noninit : forall n r, r_init r = false -> hit n r = false.
Proof. intros n r H. unfold hit. now rewrite H. Qed.

Lemma cons_ustep : forall c i a e c' q, ustep c i a e c' -> uniq q c -> conserves0 c (TopicUnreg i) c' q.
Proof.
  intros c i a e c' q Hu U. ustep_cases Hu;
    destruct (in_take_first _ _ _ _ _ E0) as [Hin _];
    assert (Hu : hit (r_rid q) r0 = true -> r0 = q) by (apply U; right; right; right; left; eapply in_map_snd; eauto);
    pose proof (cP_take_first (r_rid q) _ _ _ _ E0) as Hc;
    assert (Hq : forall c2, c_hjoin c2 = c_hjoin c -> c_inits c2 = c_inits c -> c_treg c2 = c_treg c -> c_tunreg c2 = rest0 ->
                 c_hunreg c2 = c_hunreg c -> queuedN (r_rid q) c2 + (if hit (r_rid q) r0 then 1 else 0) = queuedN (r_rid q) c)
      by (intros c2 E1 E2 E3 E4 E5; unfold queuedN; rewrite E1, E2, E3, E4, E5; lia).
  - apply (cons_answered _ _ _ q r0 (fun x => x) cd); auto using g_id; first [apply Hq; reflexivity | sess_eq].
  - (* evictUser: the requester gets its 200, every session of the user its detach, the others the notice *)
    apply (cons_answered _ _ _ q r0 (fun x => x) COk); auto using g_id;
      first [apply Hq; reflexivity
            | sess_leaf; try destruct (gone_of _ _ _ _); rewrite ?ans_donereq, ?ans_notice, ?ans_detach; autorewrite with lc; auto; congruence ].
  - destruct (r_init r0) eqn:Hri.
    + apply (cons_answered _ _ _ q r0 (fun x => s_setsubs x (remove_key (i_name (c_inst c i)) (s_subs x)))
               (if Bool.eqb (mem (r_sid r0) (i_chansub (c_inst c i))) a then COk else CNotFound)); auto using g_setsubs;
        first [apply Hq; reflexivity | sess_eq].
    + rewrite (hit_noninit _ _ Hri) in *. apply cons_same. unfold acct.
      match goal with |- ans _ (c_sess ?c2 _) + _ = _ => rewrite <- (Hq c2 eq_refl eq_refl eq_refl eq_refl eq_refl) end.
      f_equal; [sess_eq|lia].
  - (* the session is not attached any more: nothing is said *)
    assert (Ha : ans (r_rid q) (c_sess (on_sess (set_tunreg c rest0) (r_sid r0) s_donereq) (r_sid q)) = ans (r_rid q) (c_sess c (r_sid q))) by sess_eq.
    assert (Hq' := Hq (on_sess (set_tunreg c rest0) (r_sid r0) s_donereq) eq_refl eq_refl eq_refl eq_refl eq_refl).
    unfold conserves0, acct. rewrite Ha. split; [destruct (hit (r_rid q) r0); lia|].
    intros Ht Hl. destruct (hit (r_rid q) r0) eqn:Eh; [|left; lia].
    right. pose proof (Hu eq_refl) as Hrq. subst r0.
    cbn [lossy] in Hl. rewrite E0, Hi, Ein, Em in Hl. unfold is_leave in *.
    destruct (r_kind q) as [|[|]|]; try congruence; cbn [negb andb] in Hl; try discriminate Hl.
    apply negb_false_iff in Hl. split; [lia|split; [reflexivity|]].
    unfold noticed in *. cfg_simpl. unfold upd. rewrite Nat.eqb_refl. exact Hl.
  - rewrite (hit_noninit _ _ Hi) in *. apply cons_same. unfold acct. rewrite <- (Hq (set_tunreg c rest0) eq_refl eq_refl eq_refl eq_refl eq_refl). cfg_simpl. lia.
Qed.

Lemma is_notice_rep : forall t r cd, is_notice t (rep r cd) = false.
Proof. reflexivity. Qed.

Lemma noticed_pre404 : forall c r0 e q, noticed q (pre404 c r0 e) = noticed q c.
Proof.
  intros c r0 e q. unfold noticed, pre404. destruct e; auto. simpl. unfold upd.
  destruct (Nat.eqb_spec (r_sid q) (r_sid r0)) as [->|]; auto.
  unfold s_reply. destruct (s_term (c_sess c (r_sid r0))); auto. simpl.
  rewrite existsb_app. simpl. rewrite orb_false_r. reflexivity.
Qed.

Lemma lossy_unreg_pre404 : forall c r0 e i, lossy (pre404 c r0 e) (TopicUnreg i) = lossy c (TopicUnreg i).
Proof.
  intros c r0 e i. simpl. destruct (pre404_frame c r0 e) as (Ei & _ & _ & _ & _ & _ & _ & Eu & _). rewrite Ei, Eu.
  destruct (take_first i (c_tunreg c)) as [[r rest]|]; auto. rewrite noticed_pre404. reflexivity.
Qed.

Lemma cons_topicunreg : forall c i c' q r0 rest0 aC eR, take_first i (c_tunreg c) = Some (r0, rest0) ->
  (eR = true -> r_init r0 = true /\ r_aschan r0 = true /\ c_ischan c (i_name (c_inst c i)) = false) ->
  ustep (pre404 c r0 eR) i aC eR c' -> uniq q c -> conserves c (TopicUnreg i) c' q.
Proof.
  intros c i c' q r0 rest0 aC eR E He Hu U.
  assert (U1 : uniq q (pre404 c r0 eR)).
  { intros r Hr Hh. apply U; auto. apply (inq_pre404 c r0 eR r). exact Hr. }
  pose proof (cons_ustep _ _ _ _ _ q Hu U1) as [A B].
  destruct eR.
  - (* the 404 of l.697-702 was queued: the request is answered a second time below *)
    destruct (He eq_refl) as (Hri & Hch & Hic).
    assert (Hn : noisy c (TopicUnreg i) = true) by (simpl; rewrite E, Hri, Hch, Hic; reflexivity).
    destruct (in_take_first _ _ _ _ _ E) as [Hin _].
    assert (Hu0 : hit (r_rid q) r0 = true -> r0 = q).
    { apply U. right. right. right. left. eapply in_map_snd; eauto. }
    assert (X : acct q (pre404 c r0 true) <= acct q c + (if hit (r_rid q) r0 then 1 else 0)).
    { unfold acct, queuedN. destruct (pre404_frame c r0 true) as (_ & _ & _ & -> & -> & -> & -> & -> & _).
      unfold pre404. simpl. rewrite (ans_upd_reply q r0 (c_sess c) (fun x => x) CNotFound Hri Hu0 g_id).
      destruct (s_term (c_sess c (r_sid q))); destruct (hit (r_rid q) r0); lia. }
    split.
    + unfold extra. rewrite E, Hn. simpl. lia.
    + intros _ _ Hq. congruence.
  - unfold pre404 in *. split; [lia|]. intros Ht Hl _. apply B; auto.
Qed.

(* the drain of a failed topic's unreg queue answers every client request it removes *)
Lemma drain_acct : forall q i l f l' f',
  drain_unreg i l f = (l', f') ->
  (forall x, In x l -> hit (r_rid q) (snd x) = true -> snd x = q) ->
  s_term (f' (r_sid q)) = s_term (f (r_sid q)) /\
  cP (r_rid q) l' + ans (r_rid q) (f' (r_sid q)) <= cP (r_rid q) l + ans (r_rid q) (f (r_sid q)) /\
  (s_term (f (r_sid q)) = false -> cP (r_rid q) l' + ans (r_rid q) (f' (r_sid q)) = cP (r_rid q) l + ans (r_rid q) (f (r_sid q))).
Proof.
  intros q i. induction l as [|[j r] rest IH]; intros f l' f' H Hu; simpl in H.
  - inversion H; subst. repeat split; auto.
  - assert (Hu' : forall x, In x rest -> hit (r_rid q) (snd x) = true -> snd x = q) by (intros; apply Hu; auto; right; auto).
    assert (Hur : hit (r_rid q) r = true -> r = q) by (apply (Hu (j, r)); left; reflexivity).
    rewrite cP_cons. destruct (Nat.eqb i j).
    + destruct (IH _ _ _ H Hu') as (A & B & C). clear IH.
      destruct (r_init r) eqn:Hri.
      * pose proof (ans_upd_reply q r f s_donereq CLocked Hri Hur g_done) as X.
        assert (Y : s_term (upd f (r_sid r) (s_reply (s_donereq (f (r_sid r))) (rep r CLocked)) (r_sid q)) = s_term (f (r_sid q))).
        { unfold upd. destruct (Nat.eqb_spec (r_sid q) (r_sid r)) as [Eq|]; auto. rewrite s_reply_term. simpl. rewrite Eq. reflexivity. }
        rewrite X in B, C. rewrite Y in A, C. split; [exact A|split].
        -- destruct (s_term (f (r_sid q))); destruct (hit (r_rid q) r); lia.
        -- intros Ht. specialize (C Ht). rewrite Ht in C. destruct (hit (r_rid q) r); lia.
      * rewrite (hit_noninit _ _ Hri).
        assert (X : upd f (r_sid r) (f (r_sid r)) (r_sid q) = f (r_sid q)).
        { unfold upd. destruct (Nat.eqb_spec (r_sid q) (r_sid r)) as [Eq|]; auto; rewrite Eq; reflexivity. }
        rewrite X in A, B, C. auto.
    + destruct (drain_unreg i rest f) as [l2 f2] eqn:E. inversion H; subst.
      destruct (IH _ _ _ E Hu') as (A & B & C). rewrite cP_cons. split; [exact A|split].
      * lia.
      * intros Ht. specialize (C Ht). lia.
Qed.

(* topicInit failed: the join is answered 404, the drain answers what it removes, the rest is requeued *)
Lemma cons_init_failed : forall c i r inits' unreg' f' c2 q,
  take_first i (c_inits c) = Some (r, inits') -> r_init r = true -> uniq q c ->
  drain_unreg i (c_tunreg c) (upd (c_sess c) (r_sid r) (s_reply (c_sess c (r_sid r)) (rep r CNotFound))) = (unreg', f') ->
  queuedN (r_rid q) c2 = cR (r_rid q) (c_hjoin c ++ snd (requeue_reg i (c_treg c))) + cP (r_rid q) inits' +
                         cP (r_rid q) (fst (requeue_reg i (c_treg c))) + cP (r_rid q) unreg' + cH (r_rid q) (c_hunreg c) ->
  ans (r_rid q) (c_sess c2 (r_sid q)) = ans (r_rid q) (f' (r_sid q)) ->
  s_term (c_sess c2 (r_sid q)) = s_term (f' (r_sid q)) ->
  conserves0 c (InitDone i false) c2 q.
Proof.
  intros c i r inits' unreg' f' c2 q E Hri U Ed E1 E2 E3.
  destruct (in_take_first _ _ _ _ _ E) as [Hin _].
  assert (Hu : hit (r_rid q) r = true -> r = q) by (apply U; right; left; eapply in_map_snd; eauto).
  pose proof (cP_take_first (r_rid q) _ _ _ _ E) as Hc.
  pose proof (cP_requeue (r_rid q) i (c_treg c)) as Hrq.
  assert (Hud : forall x, In x (c_tunreg c) -> hit (r_rid q) (snd x) = true -> snd x = q).
  { intros x Hx Hh. apply U; auto. right. right. right. left. apply in_map. exact Hx. }
  destruct (drain_acct q _ _ _ _ _ Ed Hud) as (A & B & C).
  pose proof (ans_upd_reply q r (c_sess c) (fun x => x) CNotFound Hri Hu g_id) as X.
  assert (Y : s_term (upd (c_sess c) (r_sid r) (s_reply (c_sess c (r_sid r)) (rep r CNotFound)) (r_sid q)) = s_term (c_sess c (r_sid q))).
  { unfold upd. destruct (Nat.eqb_spec (r_sid q) (r_sid r)) as [Eq|]; auto. rewrite s_reply_term. rewrite Eq. reflexivity. }
  rewrite X in B, C. rewrite Y in A, C.
  unfold conserves0, acct. rewrite E1, E2, E3, A, cR_app. unfold queuedN. split.
  - destruct (s_term (c_sess c (r_sid q))); destruct (hit (r_rid q) r); lia.
  - intros Ht _. left. specialize (C Ht). rewrite Ht in C. destruct (hit (r_rid q) r); lia.
Qed.

(* the hub takes a {del} from its queue and answers it *)
Lemma cons_hdel_answered : forall c l c' q r rest cd,
  c_hunreg c = HDel r :: rest -> dels_init c -> uniq q c ->
  c_hjoin c' = c_hjoin c -> c_inits c' = c_inits c -> c_treg c' = c_treg c -> c_tunreg c' = c_tunreg c -> c_hunreg c' = rest ->
  c_sess c' = upd (c_sess c) (r_sid r) (s_reply (c_sess c (r_sid r)) (rep r cd)) ->
  conserves0 c l c' q.
Proof.
  intros c l c' q r rest cd E DI U E1 E2 E3 E4 E5 Es.
  apply (cons_answered _ _ _ q r (fun x => x) cd); auto using g_id.
  - unfold queuedN. rewrite E1, E2, E3, E4, E5, E, cH_cons_del. lia.
  - rewrite Es. reflexivity.
  - rewrite Es. unfold upd. destruct (Nat.eqb_spec (r_sid q) (r_sid r)) as [->|]; auto. apply s_reply_term.
  - apply DI. rewrite E. left. reflexivity.
  - apply U. right. right. right. right. rewrite E. left. reflexivity.
Qed.

Lemma conserves_step : forall c l c' q,
  step c l c' -> init_true c -> dels_init c -> uniq q c -> (r_rid q <> c_nextrid c \/ issue c l = []) -> conserves c l c' q.
Proof.
  intros c l c' q Hs (H1 & H2 & H3) DI U Hn. estep_cases Hs;
    try (assert (Hne : r_rid q <> c_nextrid c) by (destruct Hn as [Hn|Hn]; [exact Hn|discriminate Hn]));
    try (apply cons_topicunreg with (1 := E) (2 := He) (3 := Hu) (4 := U));
    apply conserves0_conserves.
  - apply cons_same. acct_simpl. destruct (Nat.eqb_spec (r_sid q) s1) as [->|]; auto. rewrite ans_reply, Ht, hitp_new; auto.
  - apply cons_same. acct_simpl. rewrite hit_new by auto. destruct (Nat.eqb_spec (r_sid q) s1) as [->|]; unfold ans; cbn [s_out s_addreq]; lia.
  - apply cons_same. acct_simpl. rewrite hit_new by auto. destruct (Nat.eqb_spec (r_sid q) s1) as [->|]; unfold ans; cbn [s_out s_addreq]; lia.
  - apply cons_same. acct_simpl. destruct (Nat.eqb_spec (r_sid q) s1) as [->|]; auto. rewrite ans_reply, Ht, hitp_new; auto.
  - apply cons_same. acct_simpl. rewrite hit_new by auto. lia.
  - apply cons_same. acct_simpl. rewrite E, cR_cons. lia.
  - apply (cons_answered _ _ _ q r s_donereq CLocked); auto using g_done; try sess_eq.
    + unfold queuedN. cfg_simpl. rewrite E, cR_cons. lia.
    + apply H1. rewrite E. left. reflexivity.
    + apply U. left. rewrite E. left. reflexivity.
  - apply cons_same. acct_simpl. rewrite E, cR_cons. lia.
  - pose proof (cP_take_first (r_rid q) _ _ _ _ E) as Hc.
    apply (cons_dropped _ _ _ q r); [unfold queuedN; cfg_simpl; lia|sess_eq|exact Ed].
  - pose proof (cP_take_first (r_rid q) _ _ _ _ E) as Hc. apply cons_same. acct_simpl. lia.
  - apply (cons_init_failed c i r inits' unreg' f' _ q E); auto; try (apply (H2 (i, r)); exact (proj1 (in_take_first _ _ _ _ _ E))).
  - apply (cons_init_failed c i r inits' unreg' f' _ q E); auto; try (apply (H2 (i, r)); exact (proj1 (in_take_first _ _ _ _ _ E)));
      cfg_simpl; unfold upd; destruct (Nat.eqb_spec (r_sid q) (r_sid r)) as [->|]; reflexivity.
  - pose proof (cP_take_first (r_rid q) _ _ _ _ E) as Hc. destruct (in_take_first _ _ _ _ _ E) as [Hin _].
    apply (cons_answered _ _ _ q r (fun x => x) cd); auto using g_id; try sess_eq.
    + unfold queuedN. cfg_simpl. lia.
    + exact (H3 _ Hin).
    + apply U. right. right. left. eapply in_map_snd; eauto.
  - pose proof (cP_take_first (r_rid q) _ _ _ _ E) as Hc. destruct (in_take_first _ _ _ _ _ E) as [Hin _].
    apply (cons_answered _ _ _ q r (fun x => s_setsubs x ((i_name (c_inst c i), i) :: s_subs x)) COk); auto using g_setsubs; try sess_eq.
    + unfold queuedN. cfg_simpl. lia.
    + exact (H3 _ Hin).
    + apply U. right. right. left. eapply in_map_snd; eauto.
  - apply cons_same. reflexivity.
  - apply cons_same. unfold acct, queuedN. cfg_simpl. f_equal. sess_eq.
  - apply cons_same. acct_simpl. lia.
  - apply cons_same. acct_simpl. rewrite E, cH_cons_unl. lia.
  - apply cons_same. acct_simpl. rewrite E, cH_cons_unl. lia.
  - apply (cons_dropped _ _ _ q r); [unfold queuedN; cfg_simpl; rewrite E, cH_cons_del; lia|reflexivity|].
    cbn [lossy]. rewrite E, Et, Ep. reflexivity.
  - apply (cons_hdel_answered c _ _ q r rest COk E DI U); reflexivity.
  - apply (cons_hdel_answered c _ _ q r rest COk E DI U); reflexivity.
  - apply (cons_hdel_answered c _ _ q r rest CNoAction E DI U); reflexivity.
  - apply cons_same. unfold acct, queuedN. cfg_simpl. f_equal. destruct (mem (r_sid q) (i_sessions (c_inst c i))); auto. apply ans_detach.
  - apply cons_same. unfold acct, queuedN. cfg_simpl. f_equal. sess_eq.
  - apply cons_same. unfold acct, queuedN. cfg_simpl. f_equal. sess_eq.
  - apply cons_same. unfold acct, queuedN. cfg_simpl. rewrite cP_app, cP_all_internal by reflexivity. f_equal; [sess_eq|lia].
  - apply (cons_hdel_answered c _ _ q r rest CInternal E DI U); reflexivity.
Qed.


(* ---------- the invariant over instrumented executions ---------- *)

Inductive reachI (st : tid -> bool) (ow : tid -> uid) (us : sid -> uid) : config -> list req -> Prop :=
| ri_init : forall ch, reachI st ow us (init_config st ow us ch) []
| ri_step : forall c iss l c', reachI st ow us c iss -> step c l c' -> reachI st ow us c' (issue c l ++ iss).

(* executions in which the step that answers twice does not occur *)
Inductive reachI_nd (st : tid -> bool) (ow : tid -> uid) (us : sid -> uid) : config -> list req -> Prop :=
| rn_init : forall ch, reachI_nd st ow us (init_config st ow us ch) []
| rn_step : forall c iss l c', reachI_nd st ow us c iss -> noisy c l = false -> step c l c' ->
                               reachI_nd st ow us c' (issue c l ++ iss).

(* executions in which none of the silent steps occurs, nor the one that answers twice *)
Inductive reachI_ok (st : tid -> bool) (ow : tid -> uid) (us : sid -> uid) : config -> list req -> Prop :=
| rk_init : forall ch, reachI_ok st ow us (init_config st ow us ch) []
| rk_step : forall c iss l c', reachI_ok st ow us c iss -> lossy c l = false -> noisy c l = false -> step c l c' ->
                               reachI_ok st ow us c' (issue c l ++ iss).

Lemma reachI_ok_reachI : forall st ow us c iss, reachI_ok st ow us c iss -> reachI st ow us c iss.
Proof. induction 1; [constructor|econstructor; eauto]. Qed.

Lemma reachI_nd_reachI : forall st ow us c iss, reachI_nd st ow us c iss -> reachI st ow us c iss.
Proof. induction 1; [constructor|econstructor; eauto]. Qed.

Lemma reachI_ok_nd : forall st ow us c iss, reachI_ok st ow us c iss -> reachI_nd st ow us c iss.
Proof. induction 1; [constructor|econstructor; eauto]. Qed.

Lemma reachI_reach : forall st ow us c iss, reachI st ow us c iss -> reach st ow us c.
Proof. induction 1; [constructor|econstructor; eauto]. Qed.

Lemma reach_reachI : forall st ow us c, reach st ow us c -> exists iss, reachI st ow us c iss.
Proof. induction 1 as [ch|c l c' Hr [iss IH] Hs]; [exists []; constructor|]. exists (issue c l ++ iss). econstructor; eauto. Qed.

Definition fresh (c : config) : Prop :=
  forall s n, c_nextrid c <= n -> ans n (c_sess c s) = 0 /\ queuedN n c = 0.

Lemma cR_in_pos : forall n l r, In r l -> hit n r = true -> 0 < cR n l.
Proof.
  induction l as [|x rest IH]; intros r Hin Hh; [contradiction|]. rewrite cR_cons.
  destruct Hin as [->|Hin]; [rewrite Hh; lia|]. specialize (IH _ Hin Hh). lia.
Qed.

Lemma inq_hit_pos : forall n c r, inq r c -> hit n r = true -> 0 < queuedN n c.
Proof.
  intros n c r H Hh. unfold queuedN, cP, cH. destruct H as [H|[H|[H|[H|H]]]].
  - pose proof (cR_in_pos n _ _ H Hh). lia.
  - pose proof (cR_in_pos n _ _ H Hh). lia.
  - pose proof (cR_in_pos n _ _ H Hh). lia.
  - pose proof (cR_in_pos n _ _ H Hh). lia.
  - apply in_dels in H. pose proof (cR_in_pos n _ _ H Hh). lia.
Qed.

Lemma nextrid_step : forall c l c', step c l c' ->
  (issue c l = [] /\ c_nextrid c' = c_nextrid c) \/
  (exists q, issue c l = [q] /\ r_rid q = c_nextrid c /\ r_init q = true /\ c_nextrid c' = S (c_nextrid c) /\
             s_term (c_sess c (r_sid q)) = false).
Proof.
  intros c l c' Hs. estep_cases Hs; try (left; split; reflexivity); try (right; eexists; repeat split; exact Ht).
  left. split; [reflexivity|]. destruct (pre404_frame c r eR) as (_ & _ & _ & _ & _ & _ & _ & _ & _ & _ & _ & _ & <- & _).
  ustep_cases Hu; try destruct (r_init r0); reflexivity.
Qed.

Lemma dels_init_step : forall c l c', dels_init c -> step c l c' -> dels_init c'.
Proof.
  intros c l c' H Hs. estep_cases Hs; try exact H;
    try (intros q Hq; apply H; rewrite E; right; exact Hq).
  - intros q Hq. cfg_simpl. apply in_app_or in Hq. destruct Hq as [Hq|[Hq|[]]]; [auto|]. inversion Hq. reflexivity.
  - assert (H0 : dels_init (pre404 c r eR)).
    { intros q. destruct (pre404_frame c r eR) as (_ & _ & _ & _ & -> & _). apply H. }
    ustep_cases Hu; try destruct (r_init r0); exact H0.
  - intros q Hq. cfg_simpl. apply in_app_or in Hq. destruct Hq as [Hq|[Hq|[]]]; [auto|discriminate Hq].
Qed.

Record inv_rep (c : config) (iss : list req) : Prop := mkIR {
  ir_inq : forall r, r_init r = true -> inq r c -> In r iss;
  ir_iss : forall q, In q iss -> r_rid q < c_nextrid c /\ r_init q = true;
  ir_nodup : NoDup (map r_rid iss);
  ir_dels : dels_init c;
  ir_fresh : fresh c }.

Lemma NoDup_map_inj : forall (A B : Type) (f : A -> B) (l : list A) a b,
  NoDup (map f l) -> In a l -> In b l -> f a = f b -> a = b.
Proof.
  induction l as [|x r IH]; intros a b Hn Ha Hb E; [contradiction|].
  simpl in Hn. inversion Hn as [|? ? Hx Hr]; subst.
  destruct Ha as [->|Ha]; destruct Hb as [->|Hb]; auto.
  - exfalso. apply Hx. rewrite E. apply in_map. exact Hb.
  - exfalso. apply Hx. rewrite <- E. apply in_map. exact Ha.
Qed.

Lemma hit_true : forall n r, hit n r = true -> r_init r = true /\ r_rid r = n.
Proof. intros n r H. unfold hit in H. apply andb_true_iff in H. destruct H as [A B]. apply Nat.eqb_eq in B. auto. Qed.

Lemma uniq_of_inv : forall c iss q, inv_rep c iss -> In q iss -> uniq q c.
Proof.
  intros c iss q [I1 I2 I3 _ _] Hq r Hr Hh. destruct (hit_true _ _ Hh) as [A B].
  eapply NoDup_map_inj; eauto.
Qed.

Lemma uniq_fresh : forall c q, fresh c -> c_nextrid c <= r_rid q -> uniq q c.
Proof.
  intros c q F Hn r Hr Hh. exfalso. destruct (F (r_sid q) (r_rid q) Hn) as [_ Q].
  pose proof (inq_hit_pos _ _ _ Hr Hh). lia.
Qed.

(* the request just issued is counted once *)
Lemma new_acct : forall c l c' q, step c l c' -> fresh c -> issue c l = [q] -> acct q c' = 1.
Proof.
  intros c l c' q Hs F Hi. estep_cases Hs; try discriminate Hi; injection Hi as <-;
    destruct (F s1 (c_nextrid c) (le_n _)) as [A Q]; unfold queuedN in Q; acct_simpl; cbn [r_sid r_rid];
    rewrite ?Nat.eqb_refl, ?ans_reply, ?Ht, ?hitp_rep; unfold hit, ans in *; cbn [r_init r_rid andb s_out s_addreq];
    rewrite ?Nat.eqb_refl; lia.
Qed.

Lemma inv_rep_init : forall st ow us ch, inv_rep (init_config st ow us ch) [].
Proof.
  intros. constructor; simpl; intros; try contradiction.
  - unfold inq in H0. simpl in H0. tauto.
  - constructor.
  - intros r Hr. contradiction.
  - intros s n Hn. split; reflexivity.
Qed.

(* a request id that has not been issued yet is not the one the noisy step answers twice *)
Lemma extra_fresh : forall c l q, fresh c -> c_nextrid c <= r_rid q -> extra c l q = 0.
Proof.
  intros c l q F Hn. destruct l; simpl; auto.
  destruct (take_first i (c_tunreg c)) as [[r rest]|] eqn:E; auto.
  destruct (hit (r_rid q) r) eqn:Hh; [|rewrite andb_false_r; reflexivity]. exfalso.
  destruct (in_take_first _ _ _ _ _ E) as [Hin _].
  destruct (F (r_sid q) (r_rid q) Hn) as [_ Q].
  assert (X : inq r c) by (right; right; right; left; eapply in_map_snd; eauto).
  pose proof (inq_hit_pos _ _ _ X Hh). lia.
Qed.

Lemma inv_rep_step : forall c iss l c', inv_rep c iss -> init_true c -> step c l c' -> inv_rep c' (issue c l ++ iss).
Proof.
  intros c iss l c' I IT Hs. pose proof I as [I1 I2 I3 I4 I5].
  pose proof (nextrid_step _ _ _ Hs) as Hn.
  constructor.
  - intros r Hi Hr. apply in_or_app. destruct (inq_step _ _ _ Hs r Hi Hr); auto.
  - intros q Hq. apply in_app_or in Hq. destruct Hn as [(E & En)|(q0 & E & A & B & En & _)]; rewrite E in Hq; simpl in Hq.
    + destruct Hq as [[]|Hq]. rewrite En. apply I2; auto.
    + destruct Hq as [[<-|[]]|Hq]; [rewrite En; split; auto; lia|]. destruct (I2 _ Hq). rewrite En. split; auto; lia.
  - destruct Hn as [(E & En)|(q0 & E & A & B & En & _)]; rewrite E; simpl; auto.
    constructor; auto. intros Hin. apply in_map_iff in Hin. destruct Hin as (x & Ex & Hx). destruct (I2 _ Hx). lia.
  - eapply dels_init_step; eauto.
  - intros s n Hle.
    assert (Hle0 : c_nextrid c <= n) by (destruct Hn as [(_ & En)|(q0 & _ & _ & _ & En & _)]; lia).
    set (q := mkReq s n KSub 0 true false).
    assert (U : uniq q c) by (apply uniq_fresh; auto).
    assert (Hd : r_rid q <> c_nextrid c \/ issue c l = []).
    { destruct Hn as [(E & _)|(q0 & _ & _ & _ & En & _)]; [right; exact E|left; simpl; lia]. }
    destruct (conserves_step _ _ _ q Hs IT I4 U Hd) as [Hc _].
    rewrite (extra_fresh c l q I5 Hle0) in Hc.
    destruct (I5 s n Hle0) as [A Q]. unfold acct in Hc. simpl in Hc. lia.
Qed.

Lemma inv_rep_reach : forall st ow us c iss, reachI st ow us c iss -> inv_rep c iss.
Proof.
  induction 1; [apply inv_rep_init|]. apply inv_rep_step; auto.
  eapply init_true_reach. eapply reachI_reach; eauto.
Qed.

(* ---------- the outbox only grows ---------- *)

Lemma in_out_reply : forall x p p0, In p (s_out x) -> In p (s_out (s_reply x p0)).
Proof. intros x p p0 H. unfold s_reply. destruct (s_term x); auto. simpl. apply in_or_app. auto. Qed.
Lemma in_out_detach : forall x p t, In p (s_out x) -> In p (s_out (s_detach x t)).
Proof. intros x p t H. unfold s_detach. destruct (s_term x); auto. Qed.

Lemma drain_unreg_out : forall i l f l' f', drain_unreg i l f = (l', f') ->
  forall s p, In p (s_out (f s)) -> In p (s_out (f' s)).
Proof.
  induction l as [|[j r] rest IH]; intros f l' f' H s p Hin; simpl in H.
  - inversion H; subst. auto.
  - destruct (Nat.eqb i j).
    + eapply IH; eauto. unfold upd. destruct (Nat.eqb_spec s (r_sid r)) as [->|]; auto.
      destruct (r_init r); auto. apply in_out_reply. exact Hin.
    + destruct (drain_unreg i rest f) as [l2 f2] eqn:E. inversion H; subst. eapply IH; eauto.
Qed.

(* one session is updated and keeps what it had in its outbox *)
Lemma out_upd : forall (f : sid -> sess) s x' s0 p,
  (In p (s_out (f s)) -> In p (s_out x')) -> In p (s_out (f s0)) -> In p (s_out (upd f s x' s0)).
Proof. intros f s x' s0 p H Hin. unfold upd. destruct (Nat.eqb_spec s0 s) as [->|]; auto. Qed.

Ltac out_leaf H :=
  cbn [c_sess on_sess on_inst set_sess set_inst set_next set_table set_hjoin set_hunreg set_inits set_treg set_tunreg set_texit
       set_store set_nextrid unlink init_failed];
  repeat (apply out_upd; [let X := fresh in intros X; repeat first [apply in_out_reply | apply in_out_detach]; exact X|]);
  try exact H.

Lemma out_grows : forall c l c', step c l c' -> forall s p, In p (s_out (c_sess c s)) -> In p (s_out (c_sess c' s)).
Proof.
  intros c l c' Hs s0 p Hin. estep_cases Hs; try exact Hin; try (out_leaf Hin; fail).
  - out_leaf Hin. eapply drain_unreg_out; eauto. out_leaf Hin.
  - out_leaf Hin. eapply drain_unreg_out; eauto. out_leaf Hin.
  - assert (H0 : In p (s_out (c_sess (pre404 c r eR) s0))).
    { unfold pre404. destruct eR; auto. out_leaf Hin. }
    ustep_cases Hu; try destruct (r_init r0); out_leaf H0.
    all: destruct (gone_of _ _ _ _); [destruct (Nat.eqb s0 (r_sid r0))|]; repeat first [apply in_out_reply | apply in_out_detach]; out_leaf H0.
  - out_leaf Hin. destruct (mem s0 _); auto using in_out_detach.
Qed.

Lemma noticed_mono : forall c l c' q, step c l c' -> noticed q c = true -> noticed q c' = true.
Proof.
  intros c l c' q Hs H. unfold noticed in *. apply existsb_exists in H. destruct H as (p & A & B).
  apply existsb_exists. exists p. split; auto. eapply out_grows; eauto.
Qed.

Lemma term_mono : forall c l c' s, step c l c' -> s_term (c_sess c s) = true -> s_term (c_sess c' s) = true.
Proof.
  intros c l c' s Hs H.
  destruct (step_sess_flags _ _ _ Hs s) as [(_ & B & _)|[(_ & A & _)|(_ & _ & _ & _ & B & _)]]; congruence.
Qed.

(* ---------- answered exactly once ---------- *)

(* request q has its one answer or is still in a queue, or - for a {leave} - the session got the eviction
   notice of that topic instead *)
Definition good (q : req) (c : config) : Prop :=
  acct q c = 1 \/ (acct q c = 0 /\ is_leave q = true /\ noticed q c = true).

Lemma good_reach_ok : forall st ow us c iss, reachI_ok st ow us c iss ->
  forall q, In q iss -> s_term (c_sess c (r_sid q)) = false -> good q c.
Proof.
  induction 1 as [ch|c iss l c' Hr IH Hl Hnz Hs]; [contradiction|].
  pose proof (reachI_ok_reachI _ _ _ _ _ Hr) as HrI.
  pose proof (inv_rep_reach _ _ _ _ _ HrI) as I. pose proof I as [I1 I2 I3 I4 I5].
  assert (IT : init_true c) by (eapply init_true_reach; eapply reachI_reach; eauto).
  intros q Hq Ht. apply in_app_or in Hq.
  destruct (nextrid_step _ _ _ Hs) as [(E & En)|(q0 & E & A & B & En & _)]; rewrite E in Hq; simpl in Hq.
  - destruct Hq as [[]|Hq].
    assert (Ht0 : s_term (c_sess c (r_sid q)) = false).
    { destruct (s_term (c_sess c (r_sid q))) eqn:X; auto. rewrite (term_mono _ _ _ _ Hs X) in Ht. discriminate. }
    destruct (conserves_step _ _ _ q Hs IT I4 (uniq_of_inv _ _ _ I Hq) (or_intror E)) as [Hc Hk].
    rewrite (extra_quiet _ _ q Hnz) in Hc.
    destruct (IH q Hq Ht0) as [G|(G1 & G2 & G3)].
    + destruct (Hk Ht Hl Hnz) as [X|(X & Y & Z)]; [left; lia|right; repeat split; auto; lia].
    + right. repeat split; auto; [lia|eapply noticed_mono; eauto].
  - destruct Hq as [[<-|[]]|Hq]; [left; eapply new_acct; eauto|].
    assert (Ht0 : s_term (c_sess c (r_sid q)) = false).
    { destruct (s_term (c_sess c (r_sid q))) eqn:X; auto. rewrite (term_mono _ _ _ _ Hs X) in Ht. discriminate. }
    assert (Hd : r_rid q <> c_nextrid c) by (destruct (I2 _ Hq); lia).
    destruct (conserves_step _ _ _ q Hs IT I4 (uniq_of_inv _ _ _ I Hq) (or_introl Hd)) as [Hc Hk].
    rewrite (extra_quiet _ _ q Hnz) in Hc.
    destruct (IH q Hq Ht0) as [G|(G1 & G2 & G3)].
    + destruct (Hk Ht Hl Hnz) as [X|(X & Y & Z)]; [left; lia|right; repeat split; auto; lia].
    + right. repeat split; auto; [lia|eapply noticed_mono; eauto].
Qed.

(* on EVERY execution: one step adds at most one to the account of a request, and only the step named in [noisy] *)
Lemma at_most_one_more : forall st ow us c iss l c' q, reachI st ow us c iss -> In q iss -> step c l c' ->
  acct q c' <= acct q c + extra c l q /\ extra c l q <= 1.
Proof.
  intros st ow us c iss l c' q H Hq Hs.
  pose proof (inv_rep_reach _ _ _ _ _ H) as I. pose proof I as [I1 I2 I3 I4 I5].
  assert (IT : init_true c) by (eapply init_true_reach; eapply reachI_reach; eauto).
  assert (Hd : r_rid q <> c_nextrid c \/ issue c l = []) by (left; destruct (I2 _ Hq); lia).
  destruct (conserves_step _ _ _ q Hs IT I4 (uniq_of_inv _ _ _ I Hq) Hd) as [Hc _]. split; auto.
  destruct l; simpl; auto. destruct (take_first _ _) as [[r rest]|]; auto. destruct (_ && _); auto.
Qed.

(* at quiescence nothing is queued: the request of a live session has exactly one reply (or the notice) *)
Lemma quiescent_queued0 : forall c n, quiescent c -> queuedN n c = 0.
Proof. intros c n (A & B & C & D & E & _). unfold queuedN. rewrite A, B, C, D, E. reflexivity. Qed.

Lemma answered_at_quiescence : forall st ow us c iss, reachI_ok st ow us c iss -> quiescent c ->
  forall q, In q iss -> s_term (c_sess c (r_sid q)) = false ->
    ans (r_rid q) (c_sess c (r_sid q)) = 1 \/
    (ans (r_rid q) (c_sess c (r_sid q)) = 0 /\ is_leave q = true /\ noticed q c = true).
Proof.
  intros st ow us c iss Hr Hq q Hin Ht.
  pose proof (quiescent_queued0 c (r_rid q) Hq) as Q.
  destruct (good_reach_ok _ _ _ _ _ Hr q Hin Ht) as [G|(G1 & G2 & G3)]; unfold acct in *; [left|right; repeat split; auto]; lia.
Qed.

(* ---------- witness: {leave unsub}{leave} pipelined on one connection ---------- *)

Fixpoint runI (ls : list label) (c : config) (iss : list req) : option (config * list req) :=
  match ls with
  | [] => Some (c, iss)
  | l :: r => match exec l c with Some c' => runI r c' (issue c l ++ iss) | None => None end
  end.

Definition run_end (ls : list label) (c : config) : config * list req :=
  match runI ls c [] with Some p => p | None => (c, []) end.

Lemma runI_reachI : forall st ow us ls c iss c' iss',
  reachI st ow us c iss -> runI ls c iss = Some (c', iss') -> reachI st ow us c' iss'.
Proof.
  induction ls as [|l r IH]; intros c iss c' iss' Hr H; simpl in H.
  - inversion H; subst. exact Hr.
  - destruct (exec l c) as [c1|] eqn:E; [|discriminate]. eapply IH; [|exact H]. econstructor; eauto.
Qed.

(* session 1 (not the owner) attaches to topic 1, unsubscribes, and sends {leave} before its write loop has
   applied the detach notice: the second request reaches the topic, which no longer lists the session *)
Definition leave_after_unsub_trace : list label :=
  [ClientSub 1 1 false; HubJoin; InitDone 0 true; TopicReg 0 true;
   ClientLeave 1 1 true false; TopicUnreg 0; ClientLeave 1 1 false false; TopicUnreg 0; SessDetach 1].

(* The end of the run is evaluated once and named: with the evaluated configuration written into the statement
   of every conjunct, checking the proof term costs ten times as much. *)
Definition leave_after_unsub_end :=
  Eval vm_compute in run_end leave_after_unsub_trace (init_config ex_stored ex_owner ex_user ex_chan).

Lemma leave_after_unsub_lost : exists c iss q,
  runI leave_after_unsub_trace (init_config ex_stored ex_owner ex_user ex_chan) [] = Some (c, iss) /\
  In q iss /\ r_kind q = KLeave false /\ s_term (c_sess c (r_sid q)) = false /\
  acct q c = 0 /\ noticed q c = false /\ quiescent c.
Proof.
  exists (fst leave_after_unsub_end), (snd leave_after_unsub_end), (mkReq 1 3 (KLeave false) 1 true false).
  split; [vm_compute; reflexivity|]. split; [left; reflexivity|].
  unfold quiescent. repeat split. intros s. destruct s as [|[|[|s]]]; reflexivity.
Qed.

(* ---------- witness: a group topic without channel functionality left by its channel name ---------- *)

(* session 1 attaches to topic 1 (no channel functionality: ex_chan) by its group name and sends {leave} addressed
   as chnXXX: the topic answers 404 (verifyChannelAccess) AND 200 (the session is detached) *)
Definition chn_leave_twice_trace : list label :=
  [ClientSub 1 1 false; HubJoin; InitDone 0 true; TopicReg 0 true; ClientLeave 1 1 false true; TopicUnreg 0].

Definition chn_leave_twice_end :=
  Eval vm_compute in run_end chn_leave_twice_trace (init_config ex_stored ex_owner ex_user ex_chan).

Lemma chn_leave_twice : exists c iss q,
  runI chn_leave_twice_trace (init_config ex_stored ex_owner ex_user ex_chan) [] = Some (c, iss) /\
  In q iss /\ acct q c = 2 /\ ans (r_rid q) (c_sess c (r_sid q)) = 2 /\ quiescent c /\
  s_out (c_sess c 1) = [mkRep (Some 1) COk 1; mkRep (Some 2) CNotFound 1; mkRep (Some 2) COk 1] /\
  lookup 1 (s_subs (c_sess c 1)) = None /\ i_sessions (c_inst c 0) = [].
Proof.
  exists (fst chn_leave_twice_end), (snd chn_leave_twice_end), (mkReq 1 2 (KLeave false) 1 true true).
  split; [vm_compute; reflexivity|]. split; [left; reflexivity|].
  unfold quiescent. repeat split. intros s. destruct s as [|[|[|s]]]; reflexivity.
Qed.

(* ---------- witness: a channel subscription left by the group name ---------- *)

(* topic 1 WITH channel functionality; session 1 attaches as chnXXX and sends {leave} addressed as grpXXX: answered
   404 once, and detached on BOTH sides (remSession and delSub come before the name-form check) *)
Definition ex_chan1 (t : tid) : bool := Nat.eqb t 1.
Definition chan_leave_by_group_name_trace : list label :=
  [ClientSub 1 1 true; HubJoin; InitDone 0 true; TopicReg 0 true; ClientLeave 1 1 false false; TopicUnreg 0].

