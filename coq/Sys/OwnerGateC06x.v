(* C06, "only the owner can delete the topic for everybody", with the POPULATION of the topic:
   hub.go topicUnreg, reason == StopDeleted, translated statement by statement for group AND p2p
   topics with the subscriber counts it reads (t.subsCount() when the topic is loaded, len(subs)
   of store.Topics.GetSubs when it is not).  The shortcut "last subscriber deletes the topic"
   is guarded by the topic category: (p2p AND count < 2); Props/PropC06.v proves that a
   group topic is deleted for everybody by its owner only, whatever the counts.
   Definitions only; fault-free store.  Outcome classes of OwnerGate.v (GAll / GOwn / GNone). *)
From Coq Require Import ZArith NArith List Bool.
From Tinode Require Import Sys.OwnerGate.
Import ListNotations.
Open Scope Z_scope.

Record dreq_c06x := mkDreqC06x {
  dx_p2p : bool;         (* t.cat == types.TopicCatP2P / topicCat(topic) == TopicCatP2P *)
  dx_loaded : bool;      (* hub.topicGet(topic) != nil *)
  dx_owner_c : bool;     (* !asUid.IsZero() && t.owner == asUid (a p2p topic has no owner: false) *)
  dx_count_c : N;        (* t.subsCount(): group len(perUser); p2p entries not marked deleted *)
  dx_subscribed : bool;  (* the requester has a live subscription (cached when loaded, stored otherwise) *)
  dx_owner_s : bool;     (* the requester's stored subscription has O in want & given *)
  dx_count_s : N }.      (* len(subs) returned by store.Topics.GetSubs(topic) *)

Definition gate_del_c06x (r : dreq_c06x) : gout :=
  if dx_loaded r then
    (* Case 1.1: topic is online *)
    if dx_owner_c r || (dx_p2p r && (dx_count_c r <? 2)%N) then
      GAll 200                                          (* 1.1.1 store.Topics.Delete, NoErrReply *)
    else
      (* 1.1.2 t.meta <- msg: replyDelTopic -> replyLeaveUnsub: store.Subs.Delete(t.name, asUid) *)
      if dx_subscribed r then GOwn 200 else GNone 304   (* ErrNotFound -> InfoNoActionReply *)
  else
    (* Case 1.2: topic is offline *)
    if (dx_count_s r =? 0)%N then
      (* len(subs) == 0: a p2p topic without subscribers is removed; InfoNoActionReply *)
      if dx_p2p r then GAll 304 else GNone 304
    else if negb (dx_subscribed r) then GNone 304        (* sub == nil: "tell him all is fine" *)
    else if negb (dx_owner_s r) then
      (* 1.2.2.1 not the owner, but possibly the last subscription of a p2p topic *)
      if dx_p2p r && (dx_count_s r <? 2)%N then GAll 200 (* store.Topics.Delete *)
      else GOwn 200                                      (* store.Subs.Delete(topic, asUid) *)
    else GAll 200.                                       (* 1.2.1.1 owner: store.Topics.Delete *)

(* who the code takes for the owner on the path the request travels *)
Definition dx_is_owner (r : dreq_c06x) : bool := if dx_loaded r then dx_owner_c r else dx_owner_s r.

(* the request of OwnerGate.v that forgets category and counts *)
Definition dx_greq (r : dreq_c06x) : greq :=
  mkGreq (dx_loaded r) false (dx_owner_c r) (dx_owner_s r) (dx_subscribed r) false.
