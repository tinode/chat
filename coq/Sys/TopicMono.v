(* C09: neither mark ever decreases; invalid notes are dropped silently.
   Proofs over the topic model Sys/Topic.v; the relations between two caches that the
   statements use ([T], [F], [mono], [same_marks]) are defined here. *)
From Coq Require Import ZArith NArith List Bool Lia.
From Tinode Require Import Base.Util Pure.Acs Sys.Topic Sys.TopicTac Sys.TopicFrame Sys.TopicNum Sys.TopicMarks.
Import ListNotations.
Open Scope Z_scope.

(* the marks of one user in the cache, as a function *)
Definition mk (c : cache) (u : N) : option (Z * Z) :=
  match alookup u (c_users c) with Some p => Some (p_read p, p_recv p) | None => None end.

(* what a request other than publish / note may do to one user's cached marks:
   keep them, drop the entry (unsubscribe), or create a fresh entry for a user who had none *)
Inductive okT : option (Z * Z) -> option (Z * Z) -> Prop :=
| okT_kept a : okT a a
| okT_gone a : okT a None
| okT_new : okT None (Some (0, 0)).
Definition T (c c' : cache) : Prop := forall u, okT (mk c u) (mk c' u).
(* every entry comes from an entry with the same marks *)
Definition F (c c' : cache) : Prop := forall u, mk c' u = mk c u \/ mk c' u = None.

Lemma mk_aset k q c u : mk (c_set_users (aset k q) c) u = if N.eqb u k then Some (p_read q, p_recv q) else mk c u.
Proof. unfold mk. cbn [c_users c_set_users]. rewrite alookup_aset. destruct (N.eqb u k); reflexivity. Qed.
Lemma mk_mapdel d c u : mk (c_set_users (map (fun e => (fst e, p_set_delid d (snd e)))) c) u = mk c u.
Proof. unfold mk. cbn [c_users c_set_users]. rewrite alookup_map. destruct (alookup u (c_users c)); reflexivity. Qed.

Lemma T_refl c : T c c. Proof. intros u. constructor. Qed.
Lemma F_refl c : F c c. Proof. intros u. now left. Qed.
Lemma T_F a b c : T a b -> F b c -> T a c.
Proof. intros H1 H2 u. destruct (H2 u) as [E|E]; rewrite E; [apply H1|constructor]. Qed.
Lemma F_T a b : F a b -> T a b.
Proof. intros H u. destruct (H u) as [E|E]; rewrite E; constructor. Qed.

Lemma F_trans a b c : F a b -> F b c -> F a c.
Proof. intros H1 H2 u. destruct (H2 u) as [E|E]; rewrite E; [apply H1|now right]. Qed.

Lemma mk_evict c u b k c' o u0 : evict_user c u b k = (c', o) ->
  mk c' u0 = if b && N.eqb u0 u then None else mk c u0.
Proof.
  intros E. unfold mk. rewrite (evict_lookup _ _ _ _ _ _ u0 E).
  destruct (N.eqb u0 u), b; cbn [andb]; try reflexivity. destruct (alookup u0 (c_users c)); reflexivity.
Qed.
Lemma F_evict c u b k c' o : evict_user c u b k = (c', o) -> F c c'.
Proof. intros E u0. rewrite (mk_evict _ _ _ _ _ _ u0 E). destruct (b && N.eqb u0 u); auto. Qed.
Lemma F_settled c u c' o : settled c u c' o -> F c c'.
Proof. intros [[-> _]|E]; [apply F_refl|exact (F_evict _ _ _ _ _ _ E)]. Qed.

(* rewriting an entry that exists, marks untouched *)
Lemma F_aset c u p q : alookup u (c_users c) = Some p -> p_read q = p_read p -> p_recv q = p_recv p ->
  F c (c_set_users (aset u q) c).
Proof.
  intros L E1 E2 u0. rewrite mk_aset. destruct (N.eqb u0 u) eqn:E; [|now left].
  apply N.eqb_eq in E. subst u0. left. unfold mk. rewrite L, E1, E2. reflexivity.
Qed.
(* ... or that may be missing: then it appears with blank marks *)
Lemma T_aset c u q : p_read q = p_read (get_pud c u) -> p_recv q = p_recv (get_pud c u) ->
  T c (c_set_users (aset u q) c).
Proof.
  intros E1 E2 u0. rewrite mk_aset. destruct (N.eqb u0 u) eqn:E; [|constructor].
  apply N.eqb_eq in E. subst u0. rewrite E1, E2. unfold mk, get_pud. destruct (alookup u (c_users c)); constructor.
Qed.
Lemma T_modes c u w g : T c (c_set_users (aset u (p_set_modes w g (get_pud c u))) c).
Proof. apply T_aset; reflexivity. Qed.
Lemma T_new c u w g : alookup u (c_users c) = None -> T c (c_set_users (aset u (mkPud w g 0 0 0 0)) c).
Proof.
  intros L u0. rewrite mk_aset. destruct (N.eqb u0 u) eqn:E; [|constructor].
  apply N.eqb_eq in E. subst u0. unfold mk. rewrite L. constructor.
Qed.

Lemma tus_T f s c u want h r : tus_spec f s c u want h r -> T c (h_ca h).
Proof.
  intros [n' code _|w g s' c' n' o ch L _ ST|p0 w g s1 c' n' o r' _ _ ST _
         |p0 w g s1 c' n' o r' [L _] _ ST _|p0 w g s1 s' n' _ _ _ _];
    try apply F_settled in ST; cbn [h_ca]; try apply T_refl.
  - eapply T_F; [apply T_new; exact L|exact ST].
  - eapply T_F; [apply T_modes|exact ST].
  - (* the previous owner's entry, then the new owner's, which is there *)
    eapply T_F; [apply (T_modes c (c_owner c))|]. eapply F_trans; [|exact ST].
    assert (exists p, alookup u (c_users (disown u c)) = Some p) as [p Lp].
    { unfold disown. cbn [c_users c_set_users c_set_owner]. rewrite alookup_aset, L. destruct (N.eqb u (c_owner c)); eauto. }
    apply (F_trans _ (disown u c)); [intros u0; now left|].
    apply (F_aset _ _ p); [exact Lp| |]; unfold get_pud; rewrite Lp; reflexivity.
Qed.
Lemma aus_T s c t h r : aus_spec s c t h r -> T c (h_ca h).
Proof.
  intros [n' code _|w g c' n' o L ST|c' n' o ST|pt g c' n' o L ST];
    try apply F_settled in ST; cbn [h_ca]; try apply T_refl.
  - eapply T_F; [apply T_new; exact L|exact ST].
  - apply F_T. exact ST.
  - apply F_T. eapply F_trans; [|exact ST]. apply (F_aset _ _ pt); [exact L| |]; reflexivity.
Qed.

Lemma sub_reply_T f s c n sid u want bkg : T c (h_ca (sub_reply f s c n sid u want bkg)).
Proof.
  destruct (sub_reply_shape f s c n sid u want bkg) as (h & r & SP & _ & _ & E2).
  pose proof (tus_T _ _ _ _ _ _ _ SP) as HT. destruct E2 as [->|[[ch ->] ->]]; [exact HT|].
  eapply T_F; [exact HT|]. unfold attach. destruct bkg; [exact (F_refl (h_ca h))|].
  destruct (alookup u (c_users (h_ca h))) as [p|] eqn:L; [|exact (False_ind _ (tus_present _ _ _ _ _ _ _ SP L))].
  apply (F_aset (c_set_sess _ (h_ca h)) _ p); [exact L| |]; unfold get_pud; cbn [c_users c_set_sess]; rewrite L; reflexivity.
Qed.

Lemma set_sub_T f s c n sid u t m : T c (h_ca (set_sub f s c n sid u t m)).
Proof.
  destruct (set_sub_shape f s c n sid u t m) as (h & r & SP & _ & E2 & _). rewrite E2.
  destruct SP as [[_ SP]|[_ SP]]; [exact (tus_T _ _ _ _ _ _ _ SP)|exact (aus_T _ _ _ _ _ SP)].
Qed.
Lemma unsub_T s c sid v h : unsub_spec s c sid v h -> T c (h_ca h).
Proof. intros [n' code _|s1 c1 n' code o1 k _ _ EV]; [apply T_refl|exact (F_T _ _ (F_evict _ _ _ _ _ _ EV))]. Qed.
Lemma del_sub_T f s c n sid u t : T c (h_ca (del_sub f s c n sid u t)).
Proof. exact (unsub_T _ _ _ _ _ (del_sub_shape f s c n sid u t)). Qed.
Lemma leave_unsub_T f s c n sid u : T c (h_ca (leave_unsub f s c n sid u)).
Proof. exact (unsub_T _ _ _ _ _ (leave_unsub_shape f s c n sid u)). Qed.
Lemma leave_T c sid u : T c (fst (leave c sid u)).
Proof.
  unfold leave. destruct (alookup sid (c_sess c)) as [[su bkg]|]; cbn [fst]; [|apply T_refl].
  destruct bkg; [destruct (alookup su _); exact (T_refl c)|]. cbn [c_users c_set_sess].
  destruct (alookup su (c_users c)) eqn:L;
    apply (T_aset (c_set_sess (aremove sid) c)); unfold get_pud; cbn [c_users c_set_sess]; rewrite L; reflexivity.
Qed.
Lemma del_msg_T dr f s c n sid u req hard : T c (h_ca (del_msg dr f s c n sid u req hard)).
Proof.
  unfold del_msg. repeat break_match; cbn [h_ca]; try apply T_refl.
  - intros u0. rewrite mk_mapdel. constructor.
  - apply (T_aset (c_set_delid (c_delid c + 1) c)); reflexivity.
Qed.

Section StepMono.
Variable dr : Z -> list (Z * Z) -> option (list (Z * Z)).
Variable nr : list (Z * Z) -> list (Z * Z).
Variable sm : sessmap.

Lemma handled_T f s c o h : handled dr nr sm f s c o h ->
  (forall sid a b, o <> OPub sid a b) -> (forall sid a b, o <> ONote sid a b) -> T c (h_ca h).
Proof.
  intros HD NP NN. destruct HD; cbn [h_ca]; try (exfalso; first [eapply NP; reflexivity|eapply NN; reflexivity]).
  - apply sub_reply_T.
  - apply leave_unsub_T.
  - apply leave_T.
  - rewrite (proj2 (queried_same _ _ _ _ _ _ _ H)). apply T_refl.
  - apply del_msg_T.
  - apply set_sub_T.
  - apply del_sub_T.
Qed.
(* any request that is not a publish or a note, topic loaded before and after *)
Lemma step_T f x o c c' :
  ca x = Some c -> ca (fst (step dr nr sm f x o)) = Some c' ->
  (forall sid a b, o <> OPub sid a b) -> (forall sid a b, o <> ONote sid a b) ->
  T c c'.
Proof.
  intros Hc Hc' NP NN.
  destruct (step_shape dr nr sm f x o) as [c0 h LD HD|n' o' _| |sid _|sid _|sid t m _ _]; cbn [fst ca] in Hc';
    rewrite ?Hc in Hc'; try discriminate Hc'; inv Hc'; try apply T_refl.
  destruct LD as [LD|[LD _]]; rewrite Hc in LD; [|discriminate]. injection LD as <-.
  exact (handled_T _ _ _ _ _ HD NP NN).
Qed.

Lemma T_kept c c' : T c c' -> marks_kept c c'.
Proof.
  intros H u p' L'. specialize (H u). unfold mk in H. rewrite L' in H.
  destruct (alookup u (c_users c)) as [p|]; inversion H; subst; [left; exists p|right]; auto.
Qed.
(* Any request that is not a publish or a note: if the topic was and stays loaded, every
   cached user's marks are as they were (or the entry is a fresh subscription). *)
Lemma step_marks_kept f x o c c' :
  ca x = Some c -> ca (fst (step dr nr sm f x o)) = Some c' ->
  (forall sid a b, o <> OPub sid a b) -> (forall sid a b, o <> ONote sid a b) ->
  marks_kept c c'.
Proof. intros Hc Hc' NP NN. exact (T_kept _ _ (step_T f x o c c' Hc Hc' NP NN)). Qed.

(* neither mark of a user who is in the cache before and after the request decreases *)
Definition mono (c c' : cache) : Prop :=
  forall u p p', alookup u (c_users c) = Some p -> alookup u (c_users c') = Some p' ->
    p_read p <= p_read p' /\ p_recv p <= p_recv p'.
(* ... and for every request other than that user's publish / note they are unchanged *)
Definition same_marks (c c' : cache) : Prop :=
  forall u p p', alookup u (c_users c) = Some p -> alookup u (c_users c') = Some p' ->
    p_read p' = p_read p /\ p_recv p' = p_recv p.

Lemma T_same c c' : T c c' -> same_marks c c'.
Proof.
  intros H u p p' L L'. specialize (H u). unfold mk in H. rewrite L, L' in H.
  inversion H; subst; auto.
Qed.
Lemma same_mono c c' : same_marks c c' -> mono c c'.
Proof. intros H u p p' L L'. destruct (H u p p' L L') as [-> ->]. lia. Qed.
Lemma mono_refl c : mono c c.
Proof. intros u p p' L L'. rewrite L in L'. inv L'. lia. Qed.

Lemma mono_aset c u rd rc : p_read (get_pud c u) <= rd -> p_recv (get_pud c u) <= rc ->
  mono c (c_set_users (aset u (p_set_marks rd rc (get_pud c u))) c).
Proof.
  intros H1 H2 u0 p p' L L'. cbn [c_users c_set_users] in L'. rewrite alookup_aset in L'.
  destruct (N.eqb u0 u) eqn:E.
  - apply N.eqb_eq in E. subst u0. inv L'. unfold get_pud in *. rewrite L in *. cbn. lia.
  - rewrite L in L'. inv L'. lia.
Qed.

Lemma step_mono f x o c c' :
  inv_marks x -> ca x = Some c -> ca (fst (step dr nr sm f x o)) = Some c' -> mono c c'.
Proof.
  intros IM Hc Hc'.
  destruct (step_shape dr nr sm f x o) as [c0 h LD HD|n' o' _| |sid _|sid _|sid t m _ _]; cbn [fst ca] in Hc';
    rewrite ?Hc in Hc'; try discriminate Hc'; inv Hc'; try apply mono_refl.
  destruct LD as [LD|[LD _]]; rewrite Hc in LD; [|discriminate]. injection LD as <-.
  pose proof HD as HD'.
  destruct HD; try (apply same_mono, T_same, (handled_T _ _ _ _ _ HD'); discriminate); cbn [h_ca].
  - destruct IM as [[_ [_ C]] [_ MC]]. rewrite Hc in C, MC. destruct C as [C0 _].
    destruct (publish_ca f (st x) c 0 sid (sess_uid sm sid) ct ne) as [E|[E|E]]; rewrite E.
    + apply mono_refl.
    + exact (mono_refl c).
    + pose proof (get_pud_ok (c_lastid c) c (sess_uid sm sid) C0 MC) as [P1 P2].
      apply (mono_aset (c_set_lastid _ c)); unfold get_pud in *; cbn [c_users c_set_lastid]; lia.
  - destruct (note_cases f (st x) c 0 sid (sess_uid sm sid) what seq) as [[_ [E _]]|[_ [_ [_ [rd [rc [E [R1 [R2 _]]]]]]]]]; rewrite E.
    + apply mono_refl.
    + apply mono_aset; assumption.
  - rewrite (proj2 (queried_same _ _ _ _ _ _ _ H)). apply mono_refl.
Qed.
End StepMono.

(* invalid notes: dropped without any reply or side effect *)

(* what Session.note and handleNoteBroadcast drop: unknown kind; a typing note with a seq;
   read/recv with seq <= 0; and, for a note that reaches the topic (attached session, or a
   recv routed through the hub): seq beyond lastID, typing without W, read/recv without R
   (a sender without a subscription has no permissions), read/recv not above the sender's
   current mark (stale, duplicate) *)
Definition note_dropped (c : cache) (att : bool) (u what : N) (seq : Z) : bool :=
  negb (N.eqb what K_kp || (N.eqb what K_read || N.eqb what K_recv))
  || (N.eqb what K_kp && negb (seq =? 0))
  || ((N.eqb what K_read || N.eqb what K_recv) && (seq <=? 0))
  || ((att || N.eqb what K_recv) &&
      ((c_lastid c <? seq)
       || (N.eqb what K_kp && negb (is_writer (pud_mode (get_pud c u))))
       || ((N.eqb what K_read || N.eqb what K_recv) && negb (is_reader (pud_mode (get_pud c u))))
       || (N.eqb what K_read && (seq <=? p_read (get_pud c u)))
       || (N.eqb what K_recv && (seq <=? p_recv (get_pud c u))))).

Section Silent.
Variable dr : Z -> list (Z * Z) -> option (list (Z * Z)).
Variable nr : list (Z * Z) -> list (Z * Z).
Variable sm : sessmap.

Lemma step_note_silent f s c n0 sid what seq :
  note_dropped c (attached c sid) (sess_uid sm sid) what seq = true ->
  step dr nr sm f (mkState s (Some c) n0) (ONote sid what seq) = (mkState s (Some c) 0, []).
Proof.
  (* by cases on the three kind tests, of which at most one holds; then on the tests of [note] *)
  intros H. unfold note_dropped in H. unfold step. cbn [st ca].
  destruct (attached c sid); cbn [negb orb andb] in *;
  destruct (N.eqb what K_kp) eqn:EK; destruct (N.eqb what K_read) eqn:ER; destruct (N.eqb what K_recv) eqn:EC;
    cbn [negb orb andb] in *;
    try (apply N.eqb_eq in EK; subst what; vm_compute in ER; discriminate);
    try (apply N.eqb_eq in EK; subst what; vm_compute in EC; discriminate);
    try (apply N.eqb_eq in ER; subst what; vm_compute in EC; discriminate);
    try discriminate; try reflexivity;
    unfold note; rewrite ?EK, ?ER, ?EC; cbn [negb orb andb]; revert H;
    repeat match goal with
           | |- context [if ?b then _ else _] => let E := fresh "E" in destruct b eqn:E; cbn [negb orb andb]
           end;
    intros H; try discriminate; try reflexivity.
Qed.

(* topic not loaded: nothing changes; the only possible reply is 409 to a read/typing note *)
Lemma step_note_unloaded f s n0 sid what seq :
  fst (step dr nr sm f (mkState s None n0) (ONote sid what seq)) = mkState s None 0 /\
  (snd (step dr nr sm f (mkState s None n0) (ONote sid what seq)) = [] \/
   snd (step dr nr sm f (mkState s None n0) (ONote sid what seq)) = [(sid, Ctrl 409 [])]).
Proof. unfold step. cbn [st ca negb]. repeat break_match; cbn [fst snd]; auto. Qed.
End Silent.

Lemma Forall2_map_r {A} (R : A -> A -> Prop) (g : A -> A) l : (forall x, In x l -> R x (g x)) -> Forall2 R l (map g l).
Proof. induction l as [|x l IH]; intros H; cbn; constructor; [apply H; now left|apply IH; intros y Hy; apply H; now right]. Qed.

Definition row_le (r r' : subrow) : Prop :=
  s_user r' = s_user r /\ s_deleted r' = s_deleted r /\ s_read r <= s_read r' /\ s_recv r <= s_recv r'.

(* the stored marks: a note never lowers a stored mark of its sender, PROVIDED the sender's
   stored marks are not ahead of the cached ones (a hypothesis here; Sys/TopicCoh2.v proves it
   of every reachable state) *)
Lemma note_store_forward f s c n sid u what seq :
  u <> 0%N ->
  (forall r, In r (subs s) -> s_user r = u -> s_read r <= p_read (get_pud c u) /\ s_recv r <= p_recv (get_pud c u)) ->
  Forall2 row_le (subs s) (subs (h_st (note f s c n sid u what seq))).
Proof.
  intros NZ CO.
  assert (forall l : list subrow, Forall2 row_le l l) as RF.
  { induction l; constructor; auto. repeat split; lia. }
  destruct (note_cases f s c n sid u what seq) as [[E _]|[_ [_ [_ [rd [rc [_ [R1 [R2 [_ [_ [_ [E2 _]]]]]]]]]]]]].
  - rewrite E. apply RF.
  - assert ((u =? 0)%N = false) as NZ' by (apply N.eqb_neq; exact NZ).
    destruct E2 as [[_ [L [-> ->]]]|[_ [L ->]]]; unfold ad_subs_update; rewrite NZ'; cbn [subs st_subs]; unfold upd_sub;
      apply Forall2_map_r; intros r Hr; destruct (N.eqb (s_user r) u) eqn:EU;
      try (repeat split; lia); apply N.eqb_eq in EU; destruct (CO r Hr EU) as [C1 C2];
      unfold row_le, apply_upd; cbn; repeat split; lia.
Qed.
