(* C01: message numbering.  Invariant over every reachable state of every
   history (any faults, crashes, unloads, restarts), and its consequences. *)
From Coq Require Import ZArith NArith List Bool Lia.
From Tinode Require Import Base.Util Pure.Acs Sys.Topic Sys.TopicTac Sys.TopicFrame.
Import ListNotations.
Open Scope Z_scope.

(* (a) every stored message number is at most the persisted high-water mark;
   (b) message numbers are unique; (c) while loaded, lastID <= seqid <= lastID+1
   and every stored number is at most lastID. *)
Definition inv_num (x : state) : Prop :=
  (forall n, In n (seqs (st x)) -> 1 <= n <= t_seqid (st x)) /\
  NoDup (seqs (st x)) /\
  match ca x with
  | Some c => 0 <= c_lastid c /\ c_lastid c <= t_seqid (st x) <= c_lastid c + 1 /\
              (forall n, In n (seqs (st x)) -> n <= c_lastid c)
  | None => 0 <= t_seqid (st x)
  end.

Definition num_same (s : store) (c : cache) (h : hres) : Prop :=
  t_seqid (h_st h) = t_seqid s /\ seqs (h_st h) = seqs s /\ c_lastid (h_ca h) = c_lastid c.

Lemma hframe_num s c h : hframe s c h -> num_same s c h.
Proof.
  intros [[_ [H1 [_ [_ [_ [H2 _]]]]]] [H3 _]]. repeat split; auto. unfold seqs. now rewrite H2.
Qed.

Lemma inv_num_same s c h n :
  inv_num (mkState s (Some c) n) -> num_same s c h -> forall n', inv_num (mkState (h_st h) (Some (h_ca h)) n').
Proof.
  unfold inv_num, num_same. cbn. intros [A [B C]] [E1 [E2 E3]] n'. rewrite E1, E2, E3. auto.
Qed.

(* the acknowledgement of an accepted message: {ctrl 202} with its number *)
Definition acked (o : out) (sid : N) (n : Z) : Prop := In (sid, Ctrl 202 [(P_seq, n)]) o.
Definition no_ack (o : out) : Prop := forall sid n, ~ acked o sid n.

Lemma msgs_subs_update s u up : msgs (ad_subs_update s u up) = msgs s.
Proof. unfold ad_subs_update. break_match; reflexivity. Qed.

Lemma fanout_data_frames c skip fr x : In x (fanout_data c skip fr) -> snd x = fr.
Proof.
  unfold fanout_data. rewrite in_flat_map. intros [[s0 [u0 b0]] [_ H]].
  repeat break_match_hyp; cbn in H; intuition; subst; reflexivity.
Qed.

(* publish: either nothing is numbered (rejected, or a store call failed before the
   row was stored: lastID and the stored numbers are unchanged, the persisted
   high-water mark is unchanged or already lastID+1), or the message got lastID+1 *)
Lemma publish_cases f s c n sid u content noecho :
  let h := publish f s c n sid u content noecho in
  (h_ca h = c /\ seqs (h_st h) = seqs s /\ msgs (h_st h) = msgs s /\
   (t_seqid (h_st h) = t_seqid s \/ t_seqid (h_st h) = c_lastid c + 1) /\ no_ack (h_out h) /\
   exists code, h_out h = [(sid, Ctrl code [])] /\ 400 <= code)
  \/
  (c_lastid (h_ca h) = c_lastid c + 1 /\ t_seqid (h_st h) = c_lastid c + 1 /\
   msgs (h_st h) = msgs s ++ [mkMsg (c_lastid c + 1) u content 0] /\
   ~ In (c_lastid c + 1) (seqs s) /\
   h_out h = (sid, Ctrl 202 [(P_seq, c_lastid c + 1)]) ::
             fanout_data (h_ca h) (if noecho then sid else 0%N) (Data (c_lastid c + 1) u content)
             ++ push_out (h_ca h) (c_lastid c + 1) u).
Proof.
  cbn zeta. destruct (publish_shape f s c n sid u content noecho) as [s' n' code H S'|s' n' _ _ NI S']; [left|right];
    cbn [h_st h_ca h_out c_lastid c_set_users c_set_lastid].
  - repeat split; try (destruct S' as [->| ->]; reflexivity).
    + destruct S' as [->| ->]; auto.
    + intros a b [E|[]]. discriminate E.
    + exists code. auto.
  - destruct S' as [->| ->]; rewrite ?seqid_subs_update, ?msgs_subs_update; repeat split; auto.
Qed.

Lemma del_msg_num dr f s c n sid u req hard : num_same s c (del_msg dr f s c n sid u req hard).
Proof.
  unfold del_msg, num_same. repeat break_match; cbn [h_st h_ca c_lastid c_set_delid c_set_users];
    autorewrite with topic; cbn [t_seqid st_delid]; autorewrite with topic; auto.
Qed.

Lemma publish_inv f s c n sid u content noecho n0 n' :
  inv_num (mkState s (Some c) n0) ->
  inv_num (mkState (h_st (publish f s c n sid u content noecho)) (Some (h_ca (publish f s c n sid u content noecho))) n').
Proof.
  intros [A [B [C0 [C1 C2]]]]. cbn [st ca] in *.
  destruct (publish_cases f s c n sid u content noecho) as [[E1 [E2 [_ [E3 _]]]]|[E1 [E2 [E3 [E4 _]]]]];
    unfold inv_num; cbn [st ca].
  - rewrite E1, E2. split; [|split]; auto.
    + intros m Hm. specialize (A m Hm). specialize (C2 m Hm). destruct E3 as [E3|E3]; rewrite E3; lia.
    + repeat split; auto; destruct E3 as [E3|E3]; rewrite E3; lia.
  - assert (seqs (h_st (publish f s c n sid u content noecho)) = seqs s ++ [c_lastid c + 1]) as ES.
    { unfold seqs. rewrite E3, map_app. reflexivity. }
    rewrite ES, E1, E2. split; [|split].
    + intros m Hm. apply in_app_or in Hm. destruct Hm as [Hm|[Hm|[]]].
      * specialize (A m Hm). specialize (C2 m Hm). lia.
      * lia.
    + apply NoDup_app_single; [assumption|]. exact E4.
    + repeat split; try lia. intros m Hm. apply in_app_or in Hm. destruct Hm as [Hm|[Hm|[]]].
      * specialize (C2 m Hm). lia.
      * lia.
Qed.

Lemma load_inv s n : (forall m, In m (seqs s) -> 1 <= m <= t_seqid s) -> NoDup (seqs s) -> 0 <= t_seqid s ->
  inv_num (mkState s (Some (load s)) n).
Proof.
  intros A B C. unfold inv_num. cbn [st ca load c_lastid].
  split; [exact A|]. split; [exact B|].
  split; [lia|]. split; [lia|]. intros m Hm. apply A in Hm. lia.
Qed.

Lemma inv_num_unload s c n n' : inv_num (mkState s (Some c) n) -> inv_num (mkState s None n').
Proof. intros [A [B [C0 [C1 C2]]]]. unfold inv_num. cbn [st ca] in *. split; [exact A|]. split; [exact B|]. lia. Qed.

Lemma inv_num_ncalls s c n n' : inv_num (mkState s c n) -> inv_num (mkState s c n').
Proof. auto. Qed.

(* in this file from here on and in every file that imports it, [cbn]/[simpl] leave the
   handlers folded: a step is taken apart by the outcome lemma of its handler *)
#[global] Arguments publish : simpl never.
#[global] Arguments note : simpl never.
#[global] Arguments get_data : simpl never.
#[global] Arguments get_desc : simpl never.
#[global] Arguments get_sub : simpl never.
#[global] Arguments get_del : simpl never.
#[global] Arguments del_msg : simpl never.
#[global] Arguments del_sub : simpl never.
#[global] Arguments leave_unsub : simpl never.
#[global] Arguments leave : simpl never.
#[global] Arguments sub_reply : simpl never.
#[global] Arguments set_sub : simpl never.
#[global] Arguments offline_get_desc : simpl never.
#[global] Arguments offline_get_sub : simpl never.
#[global] Arguments offline_set_sub : simpl never.
#[global] Arguments try_load : simpl never.
#[global] Arguments load : simpl never.

Lemma inv_num_store s s' c n n' :
  t_seqid s' = t_seqid s -> seqs s' = seqs s -> inv_num (mkState s c n) -> inv_num (mkState s' c n').
Proof. intros E1 E2 I. unfold inv_num in *. cbn [st ca] in *. now rewrite E1, E2. Qed.

Lemma sframe_seqs s s' : sframe s s' -> t_seqid s' = t_seqid s /\ seqs s' = seqs s.
Proof. intros [_ [H1 [_ [_ [_ [H2 _]]]]]]. split; auto. unfold seqs. now rewrite H2. Qed.

Lemma try_load_cases f s n n1 r : try_load f s n = (n1, r) ->
  match r with inl c => c = load s | inr _ => True end.
Proof. unfold try_load. repeat break_match; intros H; inv H; auto. Qed.

Section StepNum.
Variable dr : Z -> list (Z * Z) -> option (list (Z * Z)).
Variable nr : list (Z * Z) -> list (Z * Z).
Variable sm : sessmap.

Lemma step_inv_num f x o : inv_num x -> inv_num (fst (step dr nr sm f x o)).
Proof.
  intros I. destruct x as [s cx n0].
  destruct (step_shape dr nr sm f (mkState s cx n0) o) as [c h LD HD|n' o' _| |sid _|sid _|sid t m _ _];
    cbn [fst st ca] in *; try exact I.
  - assert (inv_num (mkState s (Some c) n0)) as IC.
    { destruct LD as [->|[-> [-> _]]]; [exact I|]. destruct I as [A [B C]]. apply load_inv; auto. }
    destruct (handled_frame _ _ _ _ _ _ _ _ HD) as [HF|[(sid & ct & ne & ->)|(sid & req & hard & ->)]].
    + exact (inv_num_same _ _ _ _ IC (hframe_num _ _ _ HF) _).
    + exact (publish_inv _ _ _ _ _ _ _ _ _ _ IC).
    + exact (inv_num_same _ _ _ _ IC (del_msg_num _ _ _ _ _ _ _ _ _) _).
  - destruct cx; [exact (inv_num_unload _ _ _ _ I)|exact I].
  - destruct (sframe_seqs _ _ (offline_set_sub_frame f s sid (sess_uid sm sid) t m)) as [E1 E2].
    exact (inv_num_store _ _ _ _ _ E1 E2 I).
Qed.
End StepNum.
