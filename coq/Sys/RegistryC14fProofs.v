(* C14: proofs about the session registry and the online counters (RegistryC14f.v) *)
From Coq Require Import List NArith ZArith Bool Lia ZifyBool ZifyN.
Import ListNotations.
Require Import Tinode.Sys.RegistryC14f.
Local Open Scope N_scope.

Lemma rdel_In x y l : In x (rdel y l) <-> In x l /\ x <> y.
Proof. unfold rdel. rewrite filter_In, negb_true_iff, N.eqb_neq. tauto. Qed.

Lemma memN_In x l : memN x l = true <-> In x l.
Proof.
  unfold memN. rewrite existsb_exists. split.
  - intros [y [H1 H2]]. apply N.eqb_eq in H2. subst; auto.
  - intro; exists x; split; auto. apply N.eqb_refl.
Qed.

Lemma rdel_all_In x xs l : In x (rdel_all xs l) <-> In x l /\ ~ In x xs.
Proof.
  unfold rdel_all. rewrite filter_In, negb_true_iff. rewrite <- (memN_In x xs).
  destruct (memN x xs); intuition congruence.
Qed.

Lemma expire_back_app h ex back : forall e k, expire_back_c14f h ex back = (e, k) -> back = e ++ k.
Proof.
  induction back as [|s r IH]; cbn; intros e k H.
  - inversion H; auto.
  - destruct (r_touched_of h s <? ex)%Z.
    + destruct (expire_back_c14f h ex r) as [e' k'] eqn:E. inversion H; subst. cbn. f_equal. apply IH; auto.
    + inversion H; auto.
Qed.

Lemma nodup_app_disj {A} (l1 l2 : list A) : NoDup (l1 ++ l2) -> forall x, In x l1 -> ~ In x l2.
Proof.
  induction l1; cbn; intros H x Hin. contradiction.
  inversion H; subst. destruct Hin.
  - subst. intro. apply H2. apply in_or_app; auto.
  - eapply IHl1; eauto.
Qed.

Lemma nodup_app_r {A} (l1 l2 : list A) : NoDup (l1 ++ l2) -> NoDup l2.
Proof. induction l1; cbn; intros H; auto. inversion H; auto. Qed.

Lemma is_lp_cons s h x : r_is_lp (s :: h) x = if rs_sid s =? x then rs_lp s else r_is_lp h x.
Proof. unfold r_is_lp; cbn. destruct (rs_sid s =? x); auto. Qed.

Lemma rfind_lp h sid s : rfind_c14f h sid = Some s -> r_is_lp h sid = rs_lp s.
Proof. unfold r_is_lp. intros ->. auto. Qed.

Definition rinv_c14f (st : rstore_c14f) : Prop :=
  reg_exact_c14f st /\ (forall x, In x (r_term st) -> x < r_next st).

Lemma rinv_init life : rinv_c14f (init_c14f life).
Proof.
  unfold rinv_c14f, reg_exact_c14f, init_c14f; cbn. repeat split; try constructor; try tauto; try lia.
Qed.

Lemma rinv_new st lp uid now : rinv_c14f st -> rinv_c14f (fst (new_session_c14f st lp uid now)).
Proof.
  intros [[C [L [I3 I4]]] I5]. unfold new_session_c14f.
  set (sid := r_next st). set (s := mkRS sid uid lp now).
  set (lru1 := if lp then sid :: r_lru st else r_lru st).
  destruct (expire_back_c14f (s :: r_heap st) (now - r_life st)%Z (rev lru1)) as [e k] eqn:E.
  apply expire_back_app in E.
  assert (Hlt : forall x, In x (r_lru st) -> x < sid /\ r_is_lp (r_heap st) x = true /\ In x (r_cache st)).
  { intros x Hx. apply I4 in Hx. destruct Hx as [Hc Hl]. pose proof (proj1 (I3 x) Hc) as Hq. unfold sid. tauto. }
  assert (Hns : ~ In sid (r_cache st)). { intro Hc. apply I3 in Hc. unfold sid in Hc. lia. }
  assert (Hnl : ~ In sid (r_lru st)). { intro Hc. apply Hlt in Hc. lia. }
  assert (L1 : NoDup lru1). { unfold lru1. destruct lp; auto. constructor; auto. }
  assert (Hsplit : forall x, In x lru1 <-> In x e \/ In x k).
  { intro x. rewrite in_rev, E, in_app_iff. tauto. }
  assert (ND : NoDup (e ++ k)). { rewrite <- E. apply NoDup_rev; auto. }
  assert (Hdis := nodup_app_disj _ _ ND).
  assert (Hl1 : forall x, In x lru1 <-> (x = sid /\ lp = true) \/ In x (r_lru st)).
  { intro x. unfold lru1. destruct lp; cbn; intuition congruence. }
  assert (Hlp : forall x, r_is_lp (s :: r_heap st) x = if sid =? x then lp else r_is_lp (r_heap st) x).
  { intro x. rewrite is_lp_cons. reflexivity. }
  split; [split; [|split; [|split]]|]; cbn [fst r_cache r_lru r_term r_next r_heap].
  - apply NoDup_filter. constructor; auto.
  - apply NoDup_rev. eapply nodup_app_r; eauto.
  - intro x. rewrite rdel_all_In, in_app_iff. cbn [In]. rewrite I3. fold sid.
    split.
    + intros [[Hx|[Hx Ht]] Hne].
      * subst x. split; [lia|]. intros [H|H]; [tauto|]. apply I5 in H. fold sid in H. lia.
      * split; [lia|]. tauto.
    + intros [Hx Hn]. split; [|tauto].
      destruct (N.eq_dec sid x); [left; auto|right]. split; [lia|tauto].
  - intro x. rewrite <- in_rev, rdel_all_In. cbn [In]. rewrite Hlp. split.
    + intro Hk. assert (Hne : ~ In x e). { intro He. eapply Hdis; eauto. }
      assert (H1 : In x lru1) by (apply Hsplit; auto).
      apply Hl1 in H1. destruct H1 as [[-> ->]|H1].
      * rewrite N.eqb_refl. tauto.
      * apply Hlt in H1. destruct H1 as [Hl [Hp Hc]].
        replace (sid =? x) with false by lia. tauto.
    + intros [[Hc Hne] Hp]. assert (H1 : In x lru1).
      { apply Hl1. destruct (N.eq_dec sid x) as [->|Hd].
        - rewrite N.eqb_refl in Hp. left; auto.
        - replace (sid =? x) with false in Hp by lia. right. apply I4. split; auto.
          destruct Hc; [contradiction|auto]. }
      apply Hsplit in H1. tauto.
  - intro x. rewrite in_app_iff. intros [He|Ht].
    + assert (H1 : In x lru1) by (apply Hsplit; auto). apply Hl1 in H1.
      destruct H1 as [[-> _]|H1]; [lia|]. apply Hlt in H1. lia.
    + apply I5 in Ht. fold sid in Ht. lia.
Qed.

Lemma rinv_get st sid now : rinv_c14f st -> rinv_c14f (fst (get_c14f st sid now)).
Proof.
  intros [[C [L [I3 I4]]] I5]. unfold get_c14f.
  destruct (memN sid (r_cache st)) eqn:M; [|split; [split|]; auto].
  destruct (r_is_lp (r_heap st) sid) eqn:P; [|split; [split|]; auto].
  apply memN_In in M. cbn [fst].
  split; [split; [|split; [|split]]|]; cbn [r_cache r_lru r_term r_next r_heap]; auto.
  - constructor. rewrite rdel_In. tauto. apply NoDup_filter; auto.
  - intro x. cbn [In]. rewrite rdel_In, is_lp_cons. cbn [rs_sid rs_lp]. rewrite I4.
    destruct (N.eq_dec sid x) as [->|Hd].
    + rewrite N.eqb_refl. tauto.
    + replace (sid =? x) with false by lia. intuition congruence.
Qed.

Lemma rinv_disc st sid : rinv_c14f st -> rinv_c14f (disconnect_c14f st sid).
Proof.
  intros [[C [L [I3 I4]]] I5]. unfold disconnect_c14f.
  destruct (sid <? r_next st) eqn:Hlt; [|split; [split|]; auto].
  split; [split; [|split; [|split]]|]; cbn [r_cache r_lru r_term r_next r_heap].
  - apply NoDup_filter; auto.
  - destruct (r_is_lp (r_heap st) sid); auto. apply NoDup_filter; auto.
  - intro x. rewrite rdel_In, I3. cbn [In]. intuition congruence.
  - intro x. rewrite rdel_In. destruct (r_is_lp (r_heap st) sid) eqn:P.
    + rewrite rdel_In, I4. tauto.
    + rewrite I4. split; [|tauto]. intros [Hc Hp]. repeat split; auto. intros ->. congruence.
  - intro x. cbn [In]. intros [<-|H]; [lia|auto].
Qed.

Lemma rinv_evict st uid skip : rinv_c14f st -> rinv_c14f (fst (evict_c14f st uid skip)).
Proof.
  intros [[C [L [I3 I4]]] I5]. unfold evict_c14f. cbn [fst].
  split; [split; [|split; [|split]]|]; cbn [r_cache r_lru r_term r_next r_heap].
  - apply NoDup_filter; auto.
  - apply NoDup_filter; auto.
  - intro x. rewrite filter_In, in_app_iff, filter_In, I3.
    destruct (victim_c14f (r_heap st) uid skip x); cbn; intuition congruence.
  - intro x. rewrite !filter_In, I4.
    destruct (victim_c14f (r_heap st) uid skip x); destruct (r_is_lp (r_heap st) x); cbn; intuition congruence.
  - intro x. rewrite in_app_iff, filter_In, I3. intros [[[H _] _]|H]; auto.
Qed.

Lemma rinv_age st sid d : rinv_c14f st -> rinv_c14f (age_c14f st sid d).
Proof.
  intros [[C [L [I3 I4]]] I5]. unfold age_c14f.
  destruct (rfind_c14f (r_heap st) sid) as [s|] eqn:F; [|split; [split|]; auto].
  apply rfind_lp in F.
  split; [split; [|split; [|split]]|]; cbn [r_cache r_lru r_term r_next r_heap]; auto.
  intro x. rewrite is_lp_cons. cbn [rs_sid rs_lp]. rewrite I4.
  destruct (N.eq_dec sid x) as [->|Hd].
  - rewrite N.eqb_refl, F. tauto.
  - replace (sid =? x) with false by lia. tauto.
Qed.

Lemma rinv_step st o : rinv_c14f st -> rinv_c14f (rstep_c14f st o).
Proof.
  destruct o; cbn [rstep_c14f].
  - apply rinv_new. - apply rinv_get. - apply rinv_disc. - apply rinv_evict. - apply rinv_age.
Qed.

Lemma rinv_run h : forall st, rinv_c14f st -> rinv_c14f (rrun_c14f st h).
Proof. induction h as [|o h IH]; cbn; intros st H; auto. apply IH. apply rinv_step; auto. Qed.

(* ---------------------------------------------------------------- PART B: online counters *)
Local Open Scope Z_scope.

Lemma oget_oset m a v u : oget (oset m a v) u = if (a =? u)%N then v else oget m u.
Proof.
  induction m as [|[k w] r IH]; cbn.
  - destruct (a =? u)%N; auto.
  - destruct (k =? a)%N eqn:K; cbn.
    + apply N.eqb_eq in K; subst. destruct (a =? u)%N; auto.
    + rewrite IH. destruct (k =? u)%N eqn:K2; auto.
      apply N.eqb_eq in K2; subst. replace (a =? u)%N with false; auto.
      symmetry. apply N.eqb_neq. apply N.eqb_neq in K. congruence.
Qed.

Lemma okeys_oset m a v k : In k (map fst (oset m a v)) <-> k = a \/ In k (map fst m).
Proof.
  induction m as [|[k' w] r IH]; cbn.
  - intuition.
  - destruct (k' =? a)%N eqn:K; cbn.
    + apply N.eqb_eq in K; subst. intuition.
    + rewrite IH. intuition.
Qed.

Lemma orem_absent m sid : ~ In sid (map fst m) -> orem m sid = m.
Proof.
  induction m as [|[k v] r IH]; cbn; intros H; auto.
  destruct (k =? sid)%N eqn:K; cbn.
  - apply N.eqb_eq in K. subst. tauto.
  - f_equal. apply IH. tauto.
Qed.

Lemma ofind_in m sid u : ofind m sid = Some u -> In sid (map fst m).
Proof.
  induction m as [|[k v] r IH]; cbn; intros H; [discriminate|].
  destruct (k =? sid)%N eqn:K; [apply N.eqb_eq in K; auto|right; auto].
Qed.

Lemma ofind_none m sid : ofind m sid = None -> ~ In sid (map fst m).
Proof.
  induction m as [|[k v] r IH]; cbn; intros H; [tauto|].
  destruct (k =? sid)%N eqn:K; [discriminate|]. apply N.eqb_neq in K. intros [E|E]; [congruence|]. apply IH; auto.
Qed.

Lemma ocount_cons s a m u : ocount ((s, a) :: m) u = (if (a =? u)%N then 1 else 0) + ocount m u.
Proof. unfold ocount. cbn. destruct (a =? u)%N; cbn [length]; lia. Qed.

Lemma ocount_orem m sid uid u : NoDup (map fst m) -> ofind m sid = Some uid ->
  ocount (orem m sid) u = ocount m u - (if (uid =? u)%N then 1 else 0).
Proof.
  induction m as [|[k v] r IH]; cbn [map fst ofind]; intros ND F; [discriminate|].
  inversion ND; subst.
  destruct (k =? sid)%N eqn:K.
  - inversion F; subst. apply N.eqb_eq in K; subst.
    unfold orem. cbn [filter fst]. rewrite N.eqb_refl. cbn [negb].
    change (filter (fun p => negb (fst p =? sid)%N) r) with (orem r sid).
    rewrite orem_absent; auto. rewrite ocount_cons. lia.
  - unfold orem. cbn [filter fst]. rewrite K. cbn [negb].
    change (filter (fun p => negb (fst p =? sid)%N) r) with (orem r sid).
    rewrite !ocount_cons. rewrite IH; auto. lia.
Qed.

Lemma orem_keys m sid k : In k (map fst (orem m sid)) -> In k (map fst m).
Proof.
  unfold orem. rewrite !in_map_iff. intros [p [E H]]. apply filter_In in H. exists p; tauto.
Qed.

Lemma orem_nodup m sid : NoDup (map fst m) -> NoDup (map fst (orem m sid)).
Proof.
  induction m as [|[k v] r IH]; cbn; intros ND; auto. inversion ND; subst.
  destruct (k =? sid)%N; cbn; auto. constructor; auto. intro H. apply orem_keys in H. auto.
Qed.

Definition oinv_c14f (t : otopic_c14f) : Prop :=
  NoDup (map fst (o_sess t)) /\ forall u, oget (o_per t) u = ocount (o_sess t) u.

Lemma oinv_step t o : oinv_c14f t -> oinv_c14f (ostep_c14f t o).
Proof.
  intros [ND H]. destruct o as [sid a|sid su]; cbn [ostep_c14f].
  - unfold oattach_c14f. destruct (ofind (o_sess t) sid) eqn:F; [split; auto|].
    apply ofind_none in F. split; cbn [o_sess o_per].
    + cbn. constructor; auto.
    + intro u. rewrite oget_oset, ocount_cons, <- !H. destruct (a =? u)%N eqn:E; [apply N.eqb_eq in E; subst|]; lia.
  - unfold oleave_c14f. destruct (ofind (o_sess t) sid) as [uid|] eqn:F; [|split; auto].
    split; cbn [o_sess o_per].
    + apply orem_nodup; auto.
    + intro u. rewrite oget_oset. rewrite (ocount_orem _ _ uid); auto. rewrite <- !H.
      destruct (uid =? u)%N eqn:E; [apply N.eqb_eq in E; subst|]; lia.
Qed.

Lemma oget_init members u : oget (map (fun u => (u, 0)) members) u = 0.
Proof. induction members; cbn; auto. destruct (a =? u)%N; auto. Qed.

Lemma oinv_init members : oinv_c14f (oinit_c14f members).
Proof. split; cbn. constructor. intro u. rewrite oget_init. reflexivity. Qed.

Lemma oinv_run h : forall t, oinv_c14f t -> oinv_c14f (orun_c14f t h).
Proof. induction h; cbn; intros; auto. apply IHh. apply oinv_step; auto. Qed.

Lemma online_counts_c14f members h u :
  oget (o_per (orun_c14f (oinit_c14f members) h)) u = ocount (o_sess (orun_c14f (oinit_c14f members) h)) u.
Proof. apply (oinv_run h). apply oinv_init. Qed.

Lemma okeys_step t o k : In k (map fst (o_per (ostep_c14f t o))) ->
  In k (map fst (o_per t)) \/ (exists s, o = OAttach s k) \/ In k (map snd (o_sess t)).
Proof.
  destruct o as [sid a|sid su]; cbn [ostep_c14f].
  - unfold oattach_c14f. destruct (ofind (o_sess t) sid); auto. cbn [o_per]. rewrite okeys_oset.
    intros [->|H]; eauto.
  - unfold oleave_c14f. destruct (ofind (o_sess t) sid) as [uid|] eqn:F; auto. cbn [o_per]. rewrite okeys_oset.
    intros [->|H]; auto. right. right.
    clear -F. induction (o_sess t) as [|[k v] r IH]; cbn in *; [discriminate|].
    destruct (k =? sid)%N; [inversion F; auto|right; auto].
Qed.
