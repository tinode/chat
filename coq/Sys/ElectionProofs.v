(* Invariants of Sys/Election.v, by induction over ALL executions (any number of
   configured nodes, any interleaving of ticks, deliveries in any order, losses,
   RPC errors and timeouts). *)
From Coq Require Import List Bool Arith Lia.
From Tinode Require Import Sys.Election.
Import ListNotations.

(* ------------------------------------------------------------------ *)
(* counting                                                            *)

Definition count {A} (P : A -> bool) (l : list A) : nat := length (filter P l).

Lemma count_cons {A} (P : A -> bool) x l : count P (x :: l) = (if P x then 1 else 0) + count P l.
Proof. unfold count. cbn. destruct (P x); reflexivity. Qed.

Lemma count_le_length {A} (P : A -> bool) l : count P l <= length l.
Proof. induction l as [|x l IH]; [auto|]. rewrite count_cons. cbn [length]. destruct (P x); lia. Qed.

Lemma count_ext_in {A} (P Q : A -> bool) l : (forall x, In x l -> P x = Q x) -> count P l = count Q l.
Proof.
  induction l as [|x l IH]; intros H; [reflexivity|].
  rewrite !count_cons, (H x) by now left. rewrite IH; auto. intros y Hy. apply H. now right.
Qed.

Lemma count_mono {A} (P Q : A -> bool) l : (forall x, P x = true -> Q x = true) -> count P l <= count Q l.
Proof.
  intros H. induction l as [|x l IH]; [auto|]. rewrite !count_cons.
  destruct (P x) eqn:E; [rewrite (H _ E)|destruct (Q x)]; lia.
Qed.

Lemma count_zero {A} (P : A -> bool) l : (forall x, In x l -> P x = false) -> count P l = 0.
Proof.
  induction l as [|x l IH]; intros H; [reflexivity|].
  rewrite count_cons, (H x) by now left. rewrite IH; auto. intros y Hy. apply H. now right.
Qed.

(* P and Q differ at most at the point m *)
Lemma count_upd_le (P Q : nat -> bool) m l :
  NoDup l -> (forall x, x <> m -> Q x = P x) -> count Q l <= count P l + 1.
Proof.
  intros ND H. induction ND as [|x l Hx ND IH]; [cbn; lia|].
  rewrite !count_cons. destruct (Nat.eq_dec x m) as [->|Ne].
  - rewrite (count_ext_in Q P l).
    + destruct (Q m), (P m); lia.
    + intros y Hy. apply H. intros ->. contradiction.
  - rewrite (H x Ne). lia.
Qed.

Lemma count_upd_true_in (P Q : nat -> bool) m l :
  In m l -> P m = false -> Q m = true -> (forall x, x <> m -> Q x = P x) -> count P l + 1 <= count Q l.
Proof.
  intros Hin Pm Qm H. induction l as [|x l IH]; [destruct Hin|].
  rewrite !count_cons. destruct (Nat.eq_dec x m) as [->|Ne].
  - rewrite Pm, Qm.
    assert (count P l <= count Q l); [|lia].
    clear IH Hin. induction l as [|y l IH]; [auto|]. rewrite !count_cons.
    destruct (Nat.eq_dec y m) as [->|Ne]; [rewrite Pm, Qm|rewrite (H y Ne)]; lia.
  - rewrite (H x Ne). destruct Hin as [->|Hin]; [congruence|]. specialize (IH Hin). lia.
Qed.

Lemma count_upd_false_in (P Q : nat -> bool) m l :
  In m l -> P m = true -> Q m = false -> (forall x, x <> m -> Q x = P x) -> count Q l + 1 <= count P l.
Proof. intros Hin Pm Qm H. apply (count_upd_true_in Q P m l); auto. intros x Hx. symmetry. auto. Qed.

Lemma count_upd_false_le (P Q : nat -> bool) m l :
  Q m = false -> (forall x, x <> m -> Q x = P x) -> count Q l <= count P l.
Proof.
  intros Qm H. apply count_mono. intros x Hx. destruct (Nat.eq_dec x m) as [->|Ne]; [congruence|].
  now rewrite <- (H x Ne).
Qed.

Lemma count_disjoint {A} (P Q : A -> bool) l :
  (forall x, P x = true -> Q x = true -> False) -> count P l + count Q l <= length l.
Proof.
  intros H. induction l as [|x l IH]; [auto|]. rewrite !count_cons. cbn [length].
  destruct (P x) eqn:Px, (Q x) eqn:Qx; try lia. exfalso. eauto.
Qed.

Lemma mem_In n l : mem n l = true <-> In n l.
Proof.
  unfold mem. rewrite existsb_exists. split.
  - intros (x & Hx & E). apply Nat.eqb_eq in E. now subst.
  - intros H. exists n. split; [assumption|apply Nat.eqb_refl].
Qed.

Lemma peers_In cfg n p : In p (peers cfg n) <-> In p (cfg_nodes cfg) /\ p <> n.
Proof.
  unfold peers. rewrite filter_In, negb_true_iff, Nat.eqb_neq. tauto.
Qed.

Lemma peers_length cfg n :
  NoDup (cfg_nodes cfg) -> In n (cfg_nodes cfg) -> S (node_count cfg n) = length (cfg_nodes cfg).
Proof.
  unfold node_count, peers. induction (cfg_nodes cfg) as [|x l IH]; intros ND Hin; [destruct Hin|].
  inversion ND as [|? ? Hx ND']; subst. cbn [filter length].
  destruct (Nat.eqb_spec x n) as [->|Ne]; cbn [negb].
  - f_equal. clear IH Hin ND. induction l as [|y l IH]; [reflexivity|].
    cbn [filter length]. inversion ND'; subst.
    destruct (Nat.eqb_spec y n) as [->|Ne]; cbn [negb length].
    + exfalso. apply Hx. now left.
    + f_equal. apply IH; auto. intros H. apply Hx. now right.
  - cbn [length]. f_equal. apply IH; auto. destruct Hin; [congruence|assumption].
Qed.

Lemma div2_majority n : n < 2 * (Nat.div2 n + 1) /\ 2 * (Nat.div2 n + 1 - 1) <= n.
Proof. pose proof (Nat.div2_odd n). destruct (Nat.odd n); cbn [Nat.b2n] in *; lia. Qed.

(* ------------------------------------------------------------------ *)

Definition vote_is (o : option node) (c : node) : bool :=
  match o with Some x => x =? c | None => false end.
Definition granted_flying (r : rpc) : bool :=
  match r with RepFlying (Granted _) => true | _ => false end.

Section Inv.
  Variable cfg : config.
  Hypothesis nodup : NoDup (cfg_nodes cfg).

  (* number of configured nodes that have given their vote of term t to c *)
  Definition V (s : state) (c : node) (t : nat) : nat :=
    count (fun m => vote_is (votes s t m) c) (cfg_nodes cfg).
  (* number of yes-replies to c's election of term t still in flight *)
  Definition F (s : state) (c : node) (t : nat) : nat :=
    count (fun p => granted_flying (rpcs s c t p)) (peers cfg c).

  Record inv (s : state) : Prop := mkInv {
    inv_vote_term : forall t m c, votes s t m = Some c -> t <= term (loc s m);
    inv_electing : forall c vc i, electing (loc s c) = Some (vc, i) ->
      In c (cfg_nodes cfg) /\ vc + F s c (term (loc s c)) <= V s c (term (loc s c));
    inv_leader : forall c, leader (loc s c) = Some c ->
      In c (cfg_nodes cfg) /\ expect_votes cfg c <= V s c (term (loc s c));
    inv_hnet : forall h, In h (hnet s) -> h_to h <> h_leader h;
    inv_rpc_peer : forall c t p, rpcs s c t p <> NoCall -> In p (peers cfg c)
  }.

  Lemma peers_nodup c : NoDup (peers cfg c).
  Proof. unfold peers. now apply NoDup_filter. Qed.

  Lemma inv_init : inv (init cfg).
  Proof.
    constructor; cbn; try discriminate; try contradiction; intros; congruence.
  Qed.

  (* ---- how V and F react to the primitive updates ---- *)

  Lemma V_set_vote_other s t m c c' t' :
    votes s t m = None -> ~ (c' = c /\ t' = t) -> V (set_vote s t m c) c' t' = V s c' t'.
  Proof.
    intros Hn Hne. unfold V. apply count_ext_in. intros x _. cbn.
    destruct (Nat.eqb_spec t' t) as [->|]; cbn; [|reflexivity].
    destruct (Nat.eqb_spec x m) as [->|]; cbn; [|reflexivity].
    rewrite Hn. cbn. apply Nat.eqb_neq. intros ->. apply Hne. auto.
  Qed.

  Lemma V_set_vote_same s t m c :
    votes s t m = None -> In m (cfg_nodes cfg) -> V s c t + 1 <= V (set_vote s t m c) c t.
  Proof.
    intros Hn Hin. unfold V. apply (count_upd_true_in _ _ m); auto.
    - now rewrite Hn.
    - cbn [votes set_vote]. rewrite !Nat.eqb_refl. cbn. apply Nat.eqb_refl.
    - intros x Hx. cbn [votes set_vote]. rewrite Nat.eqb_refl. apply Nat.eqb_neq in Hx. now rewrite Hx.
  Qed.

  Lemma V_set_vote_ge s t m c c' t' :
    votes s t m = None -> V s c' t' <= V (set_vote s t m c) c' t'.
  Proof.
    intros Hn. unfold V. apply count_mono. intros x. cbn.
    destruct ((t' =? t) && (x =? m)) eqn:E; [|auto].
    apply andb_true_iff in E as [E1 E2]. apply Nat.eqb_eq in E1, E2. subst. now rewrite Hn.
  Qed.

  Lemma F_set_rpc_other s c t m r c' t' :
    ~ (c' = c /\ t' = t) -> F (set_rpc s c t m r) c' t' = F s c' t'.
  Proof.
    intros Hne. unfold F. apply count_ext_in. intros x _. cbn.
    destruct (Nat.eqb_spec c' c) as [->|]; cbn; [|reflexivity].
    destruct (Nat.eqb_spec t' t) as [->|]; cbn; [|reflexivity].
    exfalso. auto.
  Qed.

  Lemma set_rpc_at s c t m r x :
    rpcs (set_rpc s c t m r) c t x = if x =? m then r else rpcs s c t x.
  Proof. cbn. now rewrite !Nat.eqb_refl. Qed.

  Lemma F_set_rpc_le1 s c t m r : F (set_rpc s c t m r) c t <= F s c t + 1.
  Proof.
    unfold F. apply (count_upd_le _ _ m); [apply peers_nodup|].
    intros x Hx. rewrite set_rpc_at. apply Nat.eqb_neq in Hx. now rewrite Hx.
  Qed.

  Lemma F_set_rpc_nongranted s c t m r :
    granted_flying r = false -> F (set_rpc s c t m r) c t <= F s c t.
  Proof.
    intros Hr. unfold F. apply (count_upd_false_le _ _ m).
    - rewrite set_rpc_at, Nat.eqb_refl. exact Hr.
    - intros x Hx. rewrite set_rpc_at. apply Nat.eqb_neq in Hx. now rewrite Hx.
  Qed.

  Lemma F_set_rpc_consume s c t m r :
    granted_flying (rpcs s c t m) = true -> In m (peers cfg c) -> granted_flying r = false ->
    F (set_rpc s c t m r) c t + 1 <= F s c t.
  Proof.
    intros Hg Hin Hr. unfold F. apply (count_upd_false_in _ _ m); auto.
    - rewrite set_rpc_at, Nat.eqb_refl. exact Hr.
    - intros x Hx. rewrite set_rpc_at. apply Nat.eqb_neq in Hx. now rewrite Hx.
  Qed.

  Lemma F_set_rpc_any s c t m r c' t' :
    granted_flying r = false -> F (set_rpc s c t m r) c' t' <= F s c' t'.
  Proof.
    intros Hr. destruct (Nat.eq_dec c' c) as [->|]; [destruct (Nat.eq_dec t' t) as [->|]|].
    - now apply F_set_rpc_nongranted.
    - rewrite F_set_rpc_other; [lia|tauto].
    - rewrite F_set_rpc_other; [lia|tauto].
  Qed.

  Lemma set_rpc_peer s c t m r :
    (forall c' t' p, rpcs s c' t' p <> NoCall -> In p (peers cfg c')) -> In m (peers cfg c) ->
    forall c' t' p, rpcs (set_rpc s c t m r) c' t' p <> NoCall -> In p (peers cfg c').
  Proof.
    intros H Hm c' t' p. cbn.
    destruct ((c' =? c) && (t' =? t) && (p =? m)) eqn:E; [|apply H].
    intros _. apply andb_true_iff in E as [E E3]. apply andb_true_iff in E as [E1 _].
    apply Nat.eqb_eq in E1, E3. now subst.
  Qed.

  (* ---- loop_or_exit ---- *)

  Lemma loop_or_exit_spec n l vc i :
    let l' := loop_or_exit cfg n l vc i in
    term l' = term l /\
    ((electing l' = Some (vc, i) /\ leader l' = leader l) \/
     (electing l' = None /\ leader l' = Some n /\ expect_votes cfg n <= vc) \/
     (electing l' = None /\ leader l' = leader l)).
  Proof.
    unfold loop_or_exit.
    destruct ((i <? node_count cfg n) && (vc <? expect_votes cfg n)); cbn; [auto|].
    destruct (expect_votes cfg n <=? vc) eqn:E; cbn; [|auto].
    apply Nat.leb_le in E. split; [reflexivity|]. right. left. auto.
  Qed.

  (* the invariant for everybody but node c, whose local state is about to be replaced *)
  Record inv_except (s : state) (c : node) : Prop := mkInvE {
    ie_vote_term : forall t m x, votes s t m = Some x -> m <> c -> t <= term (loc s m);
    ie_electing : forall c' vc i, c' <> c -> electing (loc s c') = Some (vc, i) ->
      In c' (cfg_nodes cfg) /\ vc + F s c' (term (loc s c')) <= V s c' (term (loc s c'));
    ie_leader : forall c', c' <> c -> leader (loc s c') = Some c' ->
      In c' (cfg_nodes cfg) /\ expect_votes cfg c' <= V s c' (term (loc s c'));
    ie_hnet : forall h, In h (hnet s) -> h_to h <> h_leader h;
    ie_rpc_peer : forall c' t p, rpcs s c' t p <> NoCall -> In p (peers cfg c')
  }.

  Lemma inv_weaken s c : inv s -> inv_except s c.
  Proof. intros [I1 I2 I3 I4 I5]. constructor; eauto. Qed.

  (* replace the local state of c by the result of electLeader's loop test *)
  Lemma inv_set_loop s c l vc i :
    inv_except s c ->
    In c (cfg_nodes cfg) ->
    (forall t x, votes s t c = Some x -> t <= term l) ->
    vc + F s c (term l) <= V s c (term l) ->
    (leader l = Some c -> expect_votes cfg c <= V s c (term l)) ->
    inv (set_loc s c (loop_or_exit cfg c l vc i)).
  Proof.
    intros [I1 I2 I3 I4 I5] Hc Hv Hcount Hl.
    destruct (loop_or_exit_spec c l vc i) as (Et & Hcases).
    set (l' := loop_or_exit cfg c l vc i) in *.
    constructor; unfold V, F in *; cbn [loc rpcs votes hnet set_loc] in *.
    - intros t m x Hx. unfold upd. destruct (Nat.eqb_spec m c) as [->|]; [|eauto].
      rewrite Et. eauto.
    - intros c' vc' i'. unfold upd. destruct (Nat.eqb_spec c' c) as [->|]; [|now apply I2].
      rewrite Et. intros He. split; [assumption|].
      destruct Hcases as [(E & _)|[(E & _)|(E & _)]]; rewrite E in He; try discriminate.
      injection He as <- <-. exact Hcount.
    - intros c'. unfold upd. destruct (Nat.eqb_spec c' c) as [->|]; [|now apply I3].
      rewrite Et. intros Hld. split; [assumption|].
      destruct Hcases as [(_ & E)|[(_ & _ & E)|(_ & E)]].
      + apply Hl. congruence.
      + lia.
      + apply Hl. congruence.
    - exact I4.
    - exact I5.
  Qed.

  (* replace the local state of n by one with the same or a later term that is
     neither electing nor a self-leader unless it was so before in the same term;
     votes and calls untouched; health messages replaced by well-formed ones *)
  Lemma inv_set_loc_same s n l' hn :
    inv s ->
    term (loc s n) <= term l' ->
    (forall e, electing l' = Some e -> electing (loc s n) = Some e /\ term l' = term (loc s n)) ->
    (leader l' = Some n -> leader (loc s n) = Some n /\ term l' = term (loc s n)) ->
    (forall h, In h hn -> h_to h <> h_leader h) ->
    inv (set_loc (set_hnet s hn) n l').
  Proof.
    intros [I1 I2 I3 I4 I5] Ht He Hl Hh.
    constructor; unfold V, F in *; cbn [loc rpcs votes hnet set_loc set_hnet] in *.
    - intros t m x Hx. unfold upd. destruct (Nat.eqb_spec m n) as [->|]; [|eauto].
      specialize (I1 _ _ _ Hx). lia.
    - intros c vc i. unfold upd. destruct (Nat.eqb_spec c n) as [->|]; [|apply I2].
      intros E. destruct (He _ E) as [E1 E2]. rewrite E2. now apply (I2 n vc i).
    - intros c. unfold upd. destruct (Nat.eqb_spec c n) as [->|]; [|apply I3].
      intros E. destruct (Hl E) as [E1 E2]. rewrite E2. now apply I3.
    - exact Hh.
    - exact I5.
  Qed.

  (* ---- the steps ---- *)

  Lemma inv_tick s n d ok : inv s -> inv (tick cfg s n d ok).
  Proof.
    intros Hinv. unfold tick.
    destruct (mem n (cfg_nodes cfg)) eqn:Hmem; cbn [negb]; [|assumption].
    apply mem_In in Hmem.
    destruct (electing (loc s n)) as [e|] eqn:El; [assumption|].
    destruct (is_leader (loc s n) n) eqn:Ld.
    - (* leader: health checks *)
      unfold send_health.
      destruct (health_results (cfg_fail_limit cfg) ok (peers cfg n) (fail_count (loc s n)) false) as [fc rh].
      set (l' := if rh then _ else _).
      assert (Hf : term l' = term (loc s n) /\ leader l' = leader (loc s n) /\ electing l' = electing (loc s n))
        by (unfold l'; destruct rh; cbn; auto).
      destruct Hf as (Ht & Hl & He).
      apply inv_set_loc_same; auto.
      + lia.
      + intros e. rewrite He. auto.
      + rewrite Hl. auto.
      + intros h Hh. apply in_app_or in Hh as [Hh|Hh]; [now apply (inv_hnet _ Hinv)|].
        apply in_map_iff in Hh as (p & <- & Hp). cbn. apply filter_In in Hp as [Hp _].
        apply peers_In in Hp. tauto.
    - destruct (cfg_vote_timeout cfg <=? S (missed (loc s n))).
      + (* start an election *)
        unfold start_election.
        set (t := S (term (loc s n))).
        set (l1 := with_missed (with_term_leader (loc s n) t None) 0).
        set (s1 := mkState (loc s) _ (hnet s) (votes s)).
        assert (Hnone : votes s t n = None).
        { destruct (votes s t n) eqn:E; [|reflexivity]. apply (inv_vote_term _ Hinv) in E. unfold t in E. lia. }
        assert (HV : forall c' t', V s c' t' <= V (set_vote s1 t n n) c' t').
        { intros c' t'. apply (V_set_vote_ge s1 t n n c' t'). exact Hnone. }
        destruct Hinv as [I1 I2 I3 I4 I5].
        apply inv_set_loop; auto.
        * constructor; cbn.
          -- intros t' m x Hx Hm. apply Nat.eqb_neq in Hm. rewrite Hm, andb_false_r in Hx. eauto.
          -- intros c' vc i Hc' E. destruct (I2 _ _ _ E) as [Hin Hle]. split; [assumption|].
             specialize (HV c' (term (loc s c'))).
             assert (HF : F (set_vote s1 t n n) c' (term (loc s c')) = F s c' (term (loc s c'))).
             { unfold F. apply count_ext_in. intros x _. cbn.
               apply Nat.eqb_neq in Hc'. now rewrite Hc'. }
             rewrite HF. lia.
          -- intros c' Hc' E. destruct (I3 _ E) as [Hin Hle]. split; [assumption|].
             specialize (HV c' (term (loc s c'))). lia.
          -- exact I4.
          -- intros c' t' p. cbn.
             destruct ((c' =? n) && (t' =? t) && mem p (peers cfg n)) eqn:E; [|apply I5].
             intros _. apply andb_true_iff in E as [E E3]. apply andb_true_iff in E as [E1 E2].
             apply Nat.eqb_eq in E1. subst. now apply mem_In.
        * intros t' x. cbn. destruct ((t' =? t) && (n =? n)) eqn:E.
          -- apply andb_true_iff in E as [E _]. apply Nat.eqb_eq in E. subst. intros _. cbn. lia.
          -- intros Hx. apply I1 in Hx. cbn. unfold t. lia.
        * cbn [term l1 with_missed with_term_leader].
          assert (HF : F (set_vote s1 t n n) n t = 0).
          { unfold F. apply count_zero. intros p Hp. cbn.
            rewrite !Nat.eqb_refl. apply mem_In in Hp. rewrite Hp. reflexivity. }
          pose proof (V_set_vote_same s1 t n n Hnone Hmem). lia.
        * cbn. discriminate.
      + (* one more missed heartbeat *)
        replace (set_loc s n (with_missed (loc s n) (S (missed (loc s n)))))
          with (set_loc (set_hnet s (hnet s)) n (with_missed (loc s n) (S (missed (loc s n)))))
          by (destruct s; reflexivity).
        apply inv_set_loc_same; cbn; auto.
        apply (inv_hnet _ Hinv).
  Qed.

  Lemma inv_deliver_req s c t m : inv s -> inv (deliver_req cfg s c t m).
  Proof.
    intros Hinv. unfold deliver_req.
    destruct (rpcs s c t m) eqn:R; try assumption.
    destruct (mem m (cfg_nodes cfg)) eqn:Hmem; cbn [negb]; [|assumption].
    apply mem_In in Hmem.
    destruct (electing (loc s m)) as [e|] eqn:El; [assumption|].
    assert (Hpeer : In m (peers cfg c)) by (apply (inv_rpc_peer _ Hinv c t m); congruence).
    destruct (term (loc s m) <? t) eqn:Lt.
    - (* vote yes *)
      apply Nat.ltb_lt in Lt.
      assert (Hnone : votes s t m = None).
      { destruct (votes s t m) eqn:E; [|reflexivity]. apply (inv_vote_term _ Hinv) in E. lia. }
      set (s1 := set_loc s m (with_term_leader (loc s m) t None)).
      assert (Hnone1 : votes s1 t m = None) by exact Hnone.
      destruct Hinv as [I1 I2 I3 I4 I5].
      constructor.
      + intros t' m' x. cbn. unfold upd.
        destruct ((t' =? t) && (m' =? m)) eqn:E.
        * apply andb_true_iff in E as [E1 E2]. apply Nat.eqb_eq in E1, E2. subst.
          rewrite Nat.eqb_refl. cbn. lia.
        * intros Hx. apply I1 in Hx. destruct (Nat.eqb_spec m' m) as [->|]; cbn; lia.
      + intros c' vc i E.
        assert (Hc' : c' <> m).
        { intros ->. revert E. cbn. unfold upd. rewrite Nat.eqb_refl. cbn. rewrite ?El. intros E; discriminate E. }
        assert (Eloc : loc (set_rpc (set_vote s1 t m c) c t m (RepFlying (Granted t))) c' = loc s c').
        { cbn. unfold upd. apply Nat.eqb_neq in Hc'. now rewrite Hc'. }
        rewrite Eloc in *.
        destruct (I2 _ _ _ E) as [Hin Hle]. split; [assumption|].
        set (T := term (loc s c')) in *.
        change (vc + F (set_rpc (set_vote s1 t m c) c t m (RepFlying (Granted t))) c' T
                <= V (set_vote s1 t m c) c' T).
        destruct (Nat.eq_dec c' c) as [->|Hc]; [destruct (Nat.eq_dec T t) as [->|HT]|].
        * pose proof (F_set_rpc_le1 (set_vote s1 t m c) c t m (RepFlying (Granted t))).
          pose proof (V_set_vote_same s1 t m c Hnone1 Hmem).
          change (F (set_vote s1 t m c) c t) with (F s c t) in *.
          change (V s1 c t) with (V s c t) in *. lia.
        * rewrite F_set_rpc_other by tauto.
          pose proof (V_set_vote_ge s1 t m c c T Hnone1).
          change (F (set_vote s1 t m c) c T) with (F s c T).
          change (V s1 c T) with (V s c T) in *. lia.
        * rewrite F_set_rpc_other by tauto.
          pose proof (V_set_vote_ge s1 t m c c' T Hnone1).
          change (F (set_vote s1 t m c) c' T) with (F s c' T).
          change (V s1 c' T) with (V s c' T) in *. lia.
      + intros c' E.
        assert (Hc' : c' <> m).
        { intros ->. revert E. cbn. unfold upd. rewrite Nat.eqb_refl. cbn. rewrite ?El. intros E; discriminate E. }
        assert (Eloc : loc (set_rpc (set_vote s1 t m c) c t m (RepFlying (Granted t))) c' = loc s c').
        { cbn. unfold upd. apply Nat.eqb_neq in Hc'. now rewrite Hc'. }
        rewrite Eloc in *.
        destruct (I3 _ E) as [Hin Hle]. split; [assumption|].
        pose proof (V_set_vote_ge s1 t m c c' (term (loc s c')) Hnone1).
        change (V s1 c' (term (loc s c'))) with (V s c' (term (loc s c'))) in *.
        change (expect_votes cfg c' <= V (set_vote s1 t m c) c' (term (loc s c'))). lia.
      + exact I4.
      + now apply set_rpc_peer.
    - (* vote no *)
      destruct Hinv as [I1 I2 I3 I4 I5].
      constructor; auto.
      + intros c' vc i E. destruct (I2 _ _ _ E) as [Hin Hle]. split; [assumption|].
        pose proof (F_set_rpc_any s c t m (RepFlying (Denied (term (loc s m)))) c' (term (loc s c')) eq_refl).
        cbn [loc set_rpc] in *.
        change (V (set_rpc s c t m (RepFlying (Denied (term (loc s m))))) c' (term (loc s c'))) with (V s c' (term (loc s c'))).
        lia.
      + now apply set_rpc_peer.
  Qed.

  (* a call moves to a state that is not a yes-reply in flight *)
  Lemma inv_set_rpc_nongranted s c t m r :
    inv s -> rpcs s c t m <> NoCall -> granted_flying r = false -> inv (set_rpc s c t m r).
  Proof.
    intros [I1 I2 I3 I4 I5] Hnc Hr. constructor; auto.
    - intros c' vc i E. destruct (I2 _ _ _ E) as [Hin Hle]. split; [assumption|].
      pose proof (F_set_rpc_any s c t m r c' (term (loc s c')) Hr).
      cbn [loc set_rpc] in *.
      change (V (set_rpc s c t m r) c' (term (loc s c'))) with (V s c' (term (loc s c'))). lia.
    - apply set_rpc_peer; [exact I5|]. now apply I5 with t.
  Qed.

  Lemma inv_deliver_rep s c t m : inv s -> inv (deliver_rep cfg s c t m).
  Proof.
    intros Hinv. unfold deliver_rep.
    destruct (rpcs s c t m) as [| |r|] eqn:R; try assumption.
    assert (Hs1 : inv (set_rpc s c t m Finished)) by (apply inv_set_rpc_nongranted; [assumption|congruence|reflexivity]).
    set (s1 := set_rpc s c t m Finished) in *.
    destruct (electing (loc s c)) as [[vc i]|] eqn:El; [|assumption].
    destruct (Nat.eqb_spec (term (loc s c)) t) as [Et|]; [|assumption].
    assert (Hpeer : In m (peers cfg c)) by (apply (inv_rpc_peer _ Hinv c t m); congruence).
    destruct (inv_electing _ Hinv _ _ _ El) as [Hc Hle]. rewrite Et in Hle.
    assert (HF : F s1 c t <= F s c t) by (apply F_set_rpc_any; reflexivity).
    assert (HV : V s1 c t = V s c t) by reflexivity.
    set (vi := match r with Granted _ => _ | Denied rt => _ | RpcError => _ end).
    destruct vi as [vc' i'] eqn:Evi.
    apply inv_set_loop; auto.
    - now apply inv_weaken.
    - intros t' x Hx. apply (inv_vote_term _ Hinv) in Hx. exact Hx.
    - rewrite Et, HV. unfold vi in Evi. destruct r as [rt|rt|].
      + injection Evi as <- <-.
        pose proof (F_set_rpc_consume s c t m Finished) as Hcons.
        rewrite R in Hcons. specialize (Hcons eq_refl Hpeer eq_refl). fold s1 in Hcons. lia.
      + destruct (term (loc s c) <? rt); injection Evi as <- <-; lia.
      + injection Evi as <- <-. lia.
    - intros Hld. rewrite Et. destruct (inv_leader _ Hinv _ Hld) as [_ H]. rewrite Et in H. rewrite HV. exact H.
  Qed.

  Lemma inv_lose_rpc s c t m : inv s -> inv (lose_rpc s c t m).
  Proof.
    intros Hinv. unfold lose_rpc.
    destruct (rpcs s c t m) eqn:R; try assumption; apply inv_set_rpc_nongranted; auto; congruence.
  Qed.

  Lemma inv_fail_rpc s c t m : inv s -> inv (fail_rpc s c t m).
  Proof.
    intros Hinv. unfold fail_rpc.
    destruct (rpcs s c t m) eqn:R; try assumption; apply inv_set_rpc_nongranted; auto; congruence.
  Qed.

  Lemma inv_timeout s c : inv s -> inv (election_timeout cfg s c).
  Proof.
    intros Hinv. unfold election_timeout.
    destruct (electing (loc s c)) as [[vc i]|] eqn:El; [|assumption].
    destruct (inv_electing _ Hinv _ _ _ El) as [Hc Hle].
    apply inv_set_loop; auto.
    - now apply inv_weaken.
    - intros t' x Hx. apply (inv_vote_term _ Hinv) in Hx. exact Hx.
    - intros Hld. now destruct (inv_leader _ Hinv _ Hld).
  Qed.

  Lemma In_remove_nth {A} (x : A) i l : In x (remove_nth i l) -> In x l.
  Proof.
    revert i. induction l as [|y l IH]; intros i; [destruct i; auto|].
    destruct i as [|i]; cbn; [auto|]. intros [->|H]; eauto.
  Qed.

  (* an accepted check: whatever leader the node followed before (none, the same, another one)
     and whether the term is the node's own or a later one *)
  Lemma handle_health_adopts l h : term l <= h_term h ->
    let l' := handle_health l h in
    term l' = h_term h /\ leader l' = Some (h_leader h) /\ missed l' = 0 /\ electing l' = electing l /\
    active_nodes l' = active_nodes l /\ fail_count l' = fail_count l /\
    (if list_eqb (h_sig h) (sig_of (ring_nodes l)) then
       ring_nodes l' = ring_nodes l /\ rehash_skipped l' = rehash_skipped l
     else if rehash_skipped l then ring_nodes l' = h_nodes h /\ rehash_skipped l' = false
     else (* the first mismatching check only raises the flag *)
       ring_nodes l' = ring_nodes l /\ rehash_skipped l' = true).
  Proof.
    intros Ht. unfold handle_health.
    assert (E : h_term h <? term l = false) by (apply Nat.ltb_ge; exact Ht). rewrite E.
    destruct (term l <? h_term h) eqn:E2.
    - cbn. destruct (list_eqb _ _); cbn; [auto 10|]. destruct (rehash_skipped l); cbn; auto 10.
    - apply Nat.ltb_ge in E2. assert (Eq : term l = h_term h) by lia.
      unfold is_leader. destruct (leader l) as [x|] eqn:Ld.
      + destruct (Nat.eqb_spec x (h_leader h)) as [->|]; cbn; rewrite ?Ld;
          (destruct (list_eqb _ _); cbn; [auto 10|]; destruct (rehash_skipped l); cbn; auto 10).
      + cbn. destruct (list_eqb _ _); cbn; [auto 10|]. destruct (rehash_skipped l); cbn; auto 10.
  Qed.

  Lemma handle_health_spec l h :
    let l' := handle_health l h in
    term l <= term l' /\ electing l' = electing l /\
    ((leader l' = leader l /\ term l' = term l) \/ leader l' = Some (h_leader h)).
  Proof.
    destruct (Nat.ltb_spec (h_term h) (term l)) as [Hlt|Hge].
    - unfold handle_health. apply Nat.ltb_lt in Hlt. rewrite Hlt. auto.
    - destruct (handle_health_adopts l h Hge) as (T & L & _ & E & _). cbv zeta. rewrite T. auto.
  Qed.

  Lemma inv_deliver_health s idx : inv s -> inv (deliver_health s idx).
  Proof.
    intros Hinv. unfold deliver_health.
    destruct (nth_error (hnet s) idx) as [h|] eqn:Hn; [|assumption].
    destruct (electing (loc s (h_to h))) eqn:El; [assumption|].
    destruct (handle_health_spec (loc s (h_to h)) h) as (Ht & He & Hl).
    apply inv_set_loc_same; auto.
    - intros e. rewrite He, El. discriminate.
    - intros Hld. destruct Hl as [[E1 E2]|E]; [rewrite <- E1; auto|].
      exfalso. apply nth_error_In in Hn. apply (inv_hnet _ Hinv) in Hn. congruence.
    - intros h' Hh'. apply In_remove_nth in Hh'. now apply (inv_hnet _ Hinv).
  Qed.

  Lemma inv_step s e : inv s -> inv (step cfg s e).
  Proof.
    intros Hinv. destruct e; cbn [step].
    - now apply inv_tick.
    - now apply inv_deliver_req.
    - now apply inv_deliver_rep.
    - now apply inv_lose_rpc.
    - now apply inv_fail_rpc.
    - now apply inv_timeout.
    - now apply inv_deliver_health.
    - destruct Hinv as [I1 I2 I3 I4 I5].
      constructor; [exact I1|exact I2|exact I3| |exact I5].
      intros h Hh. apply In_remove_nth in Hh. now apply I4.
  Qed.

  Lemma inv_fold evs : forall s, inv s -> inv (fold_left (step cfg) evs s).
  Proof. induction evs as [|e evs IH]; cbn; auto using inv_step. Qed.

  Lemma inv_run evs : inv (run cfg evs).
  Proof. apply inv_fold, inv_init. Qed.

  (* ---- the local state of one node across a step ---- *)

  (* the failover fields (activeNodes, failCount) *)
  Definition failover_fields (l : local) : list node * (node -> nat) := (active_nodes l, fail_count l).

  (* the event is a heartbeat tick that node n handles as leader (sendHealthChecks) *)
  Definition leader_tick (s : state) (e : event) (n : node) : bool :=
    match e with
    | Tick n' _ _ => (n' =? n) && mem n (cfg_nodes cfg) &&
                     match electing (loc s n) with Some _ => false | None => is_leader (loc s n) n end
    | _ => false
    end.

  (* what every branch of the run loop except sendHealthChecks does to a local state *)
  Definition keeps (l l' : local) : Prop := term l <= term l' /\ failover_fields l' = failover_fields l.

  Lemma keeps_refl l : keeps l l.
  Proof. split; reflexivity. Qed.

  Lemma keeps_upd (f : node -> local) x l' n : keeps (f x) l' -> keeps (f n) (upd f x l' n).
  Proof. intros H. unfold upd. destruct (Nat.eqb_spec n x) as [->|]; [exact H|apply keeps_refl]. Qed.

  Lemma keeps_loop_or_exit n l vc i : keeps l (loop_or_exit cfg n l vc i).
  Proof.
    split; [now rewrite (proj1 (loop_or_exit_spec n l vc i))|].
    unfold loop_or_exit. destruct (_ && _); [reflexivity|]. destruct (_ <=? _); reflexivity.
  Qed.

  Lemma keeps_handle_health l h : keeps l (handle_health l h).
  Proof.
    split; [apply handle_health_spec|].
    unfold handle_health. destruct (h_term h <? term l); [reflexivity|].
    destruct (term l <? h_term h); [|destruct (is_leader l (h_leader h))];
      (destruct (negb _); [destruct (rehash_skipped _)|]; reflexivity).
  Qed.

  (* one case analysis of the step for the local state of a node: its term never decreases, and its
     failover fields change only when it handles a tick as leader *)
  Lemma step_loc_frame s e n :
    term (loc s n) <= term (loc (step cfg s e) n) /\
    (leader_tick s e n = false -> failover_fields (loc (step cfg s e) n) = failover_fields (loc s n)).
  Proof.
    assert (K : forall l', keeps (loc s n) l' ->
                term (loc s n) <= term l' /\ (leader_tick s e n = false -> failover_fields l' = failover_fields (loc s n)))
      by (intros l' [H1 H2]; auto).
    destruct e; cbn [step].
    - unfold tick. destruct (mem n0 (cfg_nodes cfg)) eqn:Hm; cbn [negb]; [|apply K, keeps_refl].
      destruct (electing (loc s n0)) eqn:El; [apply K, keeps_refl|].
      destruct (is_leader (loc s n0) n0) eqn:Ld.
      + unfold send_health. destruct (health_results _ _ _ _ _) as [fc rh]. cbn [loc set_loc set_hnet]. unfold upd.
        destruct (Nat.eqb_spec n n0) as [->|Hne]; [|apply K, keeps_refl].
        cbn [leader_tick]. rewrite Nat.eqb_refl, Hm, El, Ld. split; [destruct rh; cbn; lia|discriminate].
      + apply K. destruct (_ <=? _).
        * unfold start_election. cbn [loc set_loc set_vote]. apply keeps_upd.
          destruct (keeps_loop_or_exit n0 (with_missed (with_term_leader (loc s n0) (S (term (loc s n0))) None) 0) 1 0) as [T F].
          split; [cbn [term with_missed with_term_leader] in T; lia|rewrite F; reflexivity].
        * cbn [loc set_loc]. apply keeps_upd. split; reflexivity.
    - apply K. unfold deliver_req. destruct (rpcs s c t m); try apply keeps_refl. destruct (negb _); [apply keeps_refl|].
      destruct (electing _); [apply keeps_refl|]. destruct (term (loc s m) <? t) eqn:E; cbn [loc set_loc set_vote set_rpc]; [|apply keeps_refl].
      apply Nat.ltb_lt in E. apply keeps_upd. split; [cbn; lia|reflexivity].
    - apply K. unfold deliver_rep. destruct (rpcs s c t m); try apply keeps_refl.
      destruct (electing (loc s c)) as [[vc i]|]; cbn [loc set_rpc]; [|apply keeps_refl].
      destruct (term (loc s c) =? t); cbn [loc set_rpc]; [|apply keeps_refl].
      destruct (match r with Granted _ => _ | Denied rt => _ | RpcError => _ end) as [vc' i'].
      cbn [loc set_loc set_rpc]. apply keeps_upd, keeps_loop_or_exit.
    - apply K. unfold lose_rpc. destruct (rpcs s c t m); apply keeps_refl.
    - apply K. unfold fail_rpc. destruct (rpcs s c t m); apply keeps_refl.
    - apply K. unfold election_timeout. destruct (electing (loc s c)) as [[vc i]|]; [|apply keeps_refl].
      cbn [loc set_loc]. apply keeps_upd, keeps_loop_or_exit.
    - apply K. unfold deliver_health. destruct (nth_error _ _) as [h|]; [|apply keeps_refl].
      destruct (electing _); [apply keeps_refl|]. cbn [loc set_loc set_hnet]. apply keeps_upd, keeps_handle_health.
    - apply K, keeps_refl.
  Qed.

  Lemma step_term_monotone s e n : term (loc s n) <= term (loc (step cfg s e) n).
  Proof. apply step_loc_frame. Qed.

  Lemma fold_term_monotone evs : forall s n, term (loc s n) <= term (loc (fold_left (step cfg) evs s) n).
  Proof.
    induction evs as [|e evs IH]; cbn; intros s n; [lia|].
    etransitivity; [apply (step_term_monotone s e n)|apply IH].
  Qed.

  Lemma run_app evs evs' : run cfg (evs ++ evs') = fold_left (step cfg) evs' (run cfg evs).
  Proof. unfold run. apply fold_left_app. Qed.

  (* ---- a vote, once given, is never changed: at most one vote per node per term ---- *)

  Lemma step_votes_stable s e t m c : inv s -> votes s t m = Some c -> votes (step cfg s e) t m = Some c.
  Proof.
    intros Hinv Hv. destruct e; cbn [step].
    - unfold tick. destruct (negb _); [assumption|]. destruct (electing _); [assumption|].
      destruct (is_leader _ _).
      + unfold send_health. destruct (health_results _ _ _ _ _) as [fc rh]. exact Hv.
      + destruct (_ <=? _); [|exact Hv].
        unfold start_election. cbn.
        destruct ((t =? S (term (loc s n))) && (m =? n)) eqn:E; [|exact Hv].
        apply andb_true_iff in E as [E1 E2]. apply Nat.eqb_eq in E1, E2. subst.
        apply (inv_vote_term _ Hinv) in Hv. lia.
    - unfold deliver_req. destruct (rpcs s c0 t0 m0); try assumption. destruct (negb _); [assumption|].
      destruct (electing _); [assumption|]. destruct (term (loc s m0) <? t0) eqn:E; [|exact Hv].
      apply Nat.ltb_lt in E. cbn.
      destruct ((t =? t0) && (m =? m0)) eqn:E2; [|exact Hv].
      apply andb_true_iff in E2 as [E1 E2]. apply Nat.eqb_eq in E1, E2. subst.
      apply (inv_vote_term _ Hinv) in Hv. lia.
    - unfold deliver_rep. destruct (rpcs s c0 t0 m0); try assumption.
      destruct (electing (loc s c0)) as [[vc i]|]; [|exact Hv].
      destruct (term (loc s c0) =? t0); [|exact Hv].
      destruct (match r with Granted _ => _ | Denied rt => _ | RpcError => _ end) as [vc' i']. exact Hv.
    - unfold lose_rpc. destruct (rpcs s c0 t0 m0); exact Hv.
    - unfold fail_rpc. destruct (rpcs s c0 t0 m0); exact Hv.
    - unfold election_timeout. destruct (electing (loc s c0)) as [[vc i]|]; exact Hv.
    - unfold deliver_health. destruct (nth_error _ _) as [h|]; [|exact Hv]. destruct (electing _); exact Hv.
    - exact Hv.
  Qed.

  Lemma fold_votes_stable evs : forall s t m c, inv s -> votes s t m = Some c ->
    votes (fold_left (step cfg) evs s) t m = Some c.
  Proof.
    induction evs as [|e evs IH]; cbn; intros s t m c Hinv Hv; [assumption|].
    apply IH; [now apply inv_step|now apply step_votes_stable].
  Qed.

  (* the ghost is tied to the behaviour: a yes-reply is produced only by a node
     that had not voted in that term (not even for itself), and records the vote *)
  Lemma grant_spec s c t m rt :
    inv s -> rpcs s c t m = ReqFlying ->
    rpcs (deliver_req cfg s c t m) c t m = RepFlying (Granted rt) ->
    votes s t m = None /\ votes (deliver_req cfg s c t m) t m = Some c /\ rt = t /\
    term (loc s m) < t /\ term (loc (deliver_req cfg s c t m) m) = t.
  Proof.
    intros Hinv R. unfold deliver_req. rewrite R.
    destruct (negb _); [rewrite R; discriminate|].
    destruct (electing _); [rewrite R; discriminate|].
    destruct (term (loc s m) <? t) eqn:E.
    - apply Nat.ltb_lt in E. cbn. rewrite !Nat.eqb_refl. cbn. intros [= <-].
      repeat split; auto.
      + destruct (votes s t m) eqn:Ev; [|reflexivity]. apply (inv_vote_term _ Hinv) in Ev. lia.
      + unfold upd. now rewrite Nat.eqb_refl.
    - cbn. rewrite !Nat.eqb_refl. cbn. discriminate.
  Qed.

  (* a node votes no (or not at all) once its term has reached the request's term *)
  Lemma no_second_grant s c t m :
    t <= term (loc s m) -> granted_flying (rpcs (deliver_req cfg s c t m) c t m) = true ->
    granted_flying (rpcs s c t m) = true.
  Proof.
    intros Ht. unfold deliver_req. destruct (rpcs s c t m) eqn:R; try (rewrite R; auto).
    destruct (negb _); [rewrite R; auto|]. destruct (electing _); [rewrite R; auto|].
    assert (E : term (loc s m) <? t = false) by (apply Nat.ltb_ge; lia). rewrite E.
    cbn. rewrite !Nat.eqb_refl. cbn. auto.
  Qed.

  (* ---- a leader has the votes of a strict majority of ALL configured nodes ---- *)

  Lemma expect_votes_majority n :
    In n (cfg_nodes cfg) ->
    length (cfg_nodes cfg) < 2 * expect_votes cfg n /\ 2 * (expect_votes cfg n - 1) <= length (cfg_nodes cfg).
  Proof.
    intros Hin. unfold expect_votes. pose proof (peers_length cfg n nodup Hin) as H.
    replace (node_count cfg n + 1) with (length (cfg_nodes cfg)) by lia. apply div2_majority.
  Qed.

  Lemma leader_has_majority evs n :
    let s := run cfg evs in
    leader (loc s n) = Some n ->
    length (cfg_nodes cfg) < 2 * V s n (term (loc s n)).
  Proof.
    intros s Hl. destruct (inv_leader _ (inv_run evs) _ Hl) as [Hin Hle].
    pose proof (expect_votes_majority n Hin). fold s in Hle. lia.
  Qed.

  (* ---- election safety ---- *)

  Lemma safety evs n n' :
    let s := run cfg evs in
    leader (loc s n) = Some n -> leader (loc s n') = Some n' ->
    term (loc s n) = term (loc s n') -> n = n'.
  Proof.
    intros s H1 H2 Et.
    pose proof (leader_has_majority evs n H1) as M1.
    pose proof (leader_has_majority evs n' H2) as M2.
    fold s in M1, M2. rewrite <- Et in M2.
    destruct (Nat.eq_dec n n') as [|Ne]; [assumption|exfalso].
    pose proof (count_disjoint (fun m => vote_is (votes s (term (loc s n)) m) n)
                               (fun m => vote_is (votes s (term (loc s n)) m) n') (cfg_nodes cfg)) as D.
    unfold V in M1, M2. assert (Hd : forall x, vote_is (votes s (term (loc s n)) x) n = true ->
                                               vote_is (votes s (term (loc s n)) x) n' = true -> False).
    { intros x. destruct (votes s (term (loc s n)) x) as [y|]; cbn; [|discriminate].
      intros A B. apply Nat.eqb_eq in A, B. congruence. }
    specialize (D Hd). lia.
  Qed.

  (* ---- partition ---- *)

  Lemma is_partitioned_iff s n :
    In n (cfg_nodes cfg) ->
    (is_partitioned cfg s n = true <-> 2 * length (active_nodes (loc s n)) <= length (cfg_nodes cfg)).
  Proof.
    intros Hin. unfold is_partitioned. rewrite Nat.leb_le.
    pose proof (peers_length cfg n nodup Hin) as H.
    replace (node_count cfg n + 1) with (length (cfg_nodes cfg)) by lia.
    pose proof (Nat.div2_odd (length (cfg_nodes cfg))). destruct (Nat.odd _); cbn [Nat.b2n] in *; lia.
  Qed.

  Lemma health_results_flag limit ok ps : forall fc rh,
    snd (health_results limit ok ps fc true) = true /\
    (snd (health_results limit ok ps fc rh) = true <->
     rh = true \/ snd (health_results limit ok ps fc false) = true).
  Proof.
    induction ps as [|p ps IH]; intros fc rh; cbn.
    - split; [reflexivity|]. destruct rh; intuition congruence.
    - destruct (mem p ok).
      + destruct (IH (upd fc p 0) true) as [T _]. split; [exact T|].
        destruct rh; cbn [orb]; [rewrite T; tauto|]. intuition congruence.
      + destruct (IH (upd fc p (S (fc p))) true) as [T _]. split; [exact T|].
        destruct rh; cbn [orb]; [rewrite T; tauto|]. intuition congruence.
  Qed.

  Lemma health_results_crossing limit ok ps : forall fc,
    NoDup ps ->
    (exists p, In p ps /\ mem p ok = false /\ S (fc p) = limit) ->
    snd (health_results limit ok ps fc false) = true.
  Proof.
    induction ps as [|q ps IH]; intros fc ND (p & Hin & Hok & Hlim); [destruct Hin|].
    apply NoDup_cons_iff in ND as [Hq ND']. cbn [health_results].
    destruct Hin as [->|Hin].
    - rewrite Hok, Hlim, Nat.eqb_refl. exact (proj1 (health_results_flag _ _ _ _ false)).
    - assert (Hne : p <> q) by (intros ->; contradiction).
      destruct (mem q ok).
      + destruct (limit <=? fc q); [exact (proj1 (health_results_flag _ _ _ _ false))|].
        apply IH; auto. exists p. unfold upd. apply Nat.eqb_neq in Hne. rewrite Hne. auto.
      + destruct (S (fc q) =? limit); [exact (proj1 (health_results_flag _ _ _ _ false))|].
        apply IH; auto. exists p. unfold upd. apply Nat.eqb_neq in Hne. rewrite Hne. auto.
  Qed.

  (* when some peer reaches the configured number of consecutive failed checks at
     this tick, the leader recomputes its active list = itself + the peers below
     the limit, and answers 502 if that is no more than half of the configured nodes *)
  Lemma partitioned_stops s n d ok :
    In n (cfg_nodes cfg) ->
    electing (loc s n) = None -> leader (loc s n) = Some n ->
    (exists p, In p (peers cfg n) /\ mem p ok = false /\ S (fail_count (loc s n) p) = cfg_fail_limit cfg) ->
    let s' := tick cfg s n d ok in
    let reach := filter (fun p => fail_count (loc s' n) p <? cfg_fail_limit cfg) (peers cfg n) in
    active_nodes (loc s' n) = n :: reach /\
    (2 * (1 + length reach) <= length (cfg_nodes cfg) -> dispatch cfg s' n = Err502).
  Proof.
    intros Hin El Ld Hx s'.
    assert (Hs' : active_nodes (loc s' n) =
                  n :: filter (fun p => fail_count (loc s' n) p <? cfg_fail_limit cfg) (peers cfg n)).
    { unfold s', tick. apply mem_In in Hin. rewrite Hin. cbn [negb]. rewrite El.
      unfold is_leader. rewrite Ld, Nat.eqb_refl. unfold send_health.
      pose proof (health_results_crossing (cfg_fail_limit cfg) ok (peers cfg n) (fail_count (loc s n))
                    (peers_nodup n) Hx) as Hc.
      destruct (health_results _ _ _ _ _) as [fc rh]. cbn in Hc. subst rh.
      cbn. unfold upd. rewrite Nat.eqb_refl. reflexivity. }
    split; [exact Hs'|].
    intros Hhalf. unfold dispatch.
    assert (P : is_partitioned cfg s' n = true).
    { apply is_partitioned_iff; [assumption|]. rewrite Hs'. cbn [length]. lia. }
    now rewrite P.
  Qed.
End Inv.

(* ------------------------------------------------------------------ *)
(* concrete executions (3 nodes 0,1,2; vote_after = 1, node_fail_after = 1) *)

Definition cfg3 : config := mkConfig [0; 1; 2] 1 1.

(* 0 is elected in term 1, loses contact with 2, recomputes its ring as {0,1};
   1 receives a check that still carries the old signature, then one with the
   new signature *)
Definition evs_lag : list event :=
  [Tick 0 [] []; DeliverReq 0 1 1; DeliverRep 0 1 1;
   Tick 0 [1] [1]; Tick 0 [1] [1]; DeliverHealth 0].

Definition adopts_ring_statement (cfg : config) : Prop :=
  forall evs idx h,
    let s := run cfg evs in
    nth_error (hnet s) idx = Some h ->
    electing (loc s (h_to h)) = None -> term (loc s (h_to h)) <= h_term h ->
    sig_of (ring_nodes (loc (deliver_health s idx) (h_to h))) = h_sig h.

(* then 1 adopts {0,1}; 0 falls silent, 1 is elected in term 2 with the vote of 2
   (which is back).  The new leader 1 advertises the signature of its ring {0,1}
   together with ITS OWN activeNodes, which is still the list from failoverInit
   {0,2,1}: followers never learn a node list that matches the signature. *)
Definition evs_new_leader : list event :=
  evs_lag ++ [DeliverHealth 0; Tick 0 [1] [1]; DeliverHealth 0;
              Tick 1 [] []; DeliverReq 1 2 2; DeliverRep 1 2 2].
Definition health_round : list event := [Tick 1 [0; 2] [0; 2]; DeliverHealth 0; DeliverHealth 0].
Fixpoint rounds (k : nat) : list event := match k with O => [] | S k' => health_round ++ rounds k' end.

Definition leader_list_matches_ring_statement (cfg : config) : Prop :=
  forall evs n,
    let s := run cfg evs in
    leader (loc s n) = Some n ->
    sig_of (active_nodes (loc s n)) = sig_of (ring_nodes (loc s n)).

(* all three nodes are up, every check is delivered and answered, everybody has
   accepted leader 1 in term 2, and still node 2 keeps a ring different from the
   leader's: after every one of the first 41 rounds of health checks *)
Definition diverged (s : state) : bool :=
  is_leader (loc s 1) 1 && is_leader (loc s 0) 1 && is_leader (loc s 2) 1 &&
  (term (loc s 0) =? 2) && (term (loc s 1) =? 2) && (term (loc s 2) =? 2) &&
  (fail_count (loc s 1) 0 =? 0) && (fail_count (loc s 1) 2 =? 0) &&
  list_eqb (sig_of (ring_nodes (loc s 0))) [0; 1] &&
  list_eqb (sig_of (ring_nodes (loc s 1))) [0; 1] &&
  list_eqb (sig_of (ring_nodes (loc s 2))) [0; 1; 2].

(* [diverged] after each of the next k rounds, computed along one execution *)
Fixpoint diverged_rounds (k : nat) (s : state) : bool :=
  match k with
  | O => true
  | S k' => let s' := fold_left (step cfg3) health_round s in diverged s' && diverged_rounds k' s'
  end.

Lemma diverged_rounds_spec k : forall s j, diverged_rounds k s = true -> j < k ->
  diverged (fold_left (step cfg3) (rounds (S j)) s) = true.
Proof.
  induction k as [|k IH]; intros s j H Hj; [lia|].
  cbn [diverged_rounds] in H. apply andb_true_iff in H as [H1 H2].
  cbn [rounds]. rewrite fold_left_app. destruct j as [|j]; [exact H1|]. apply IH; [exact H2|lia].
Qed.

(* satisfiability: a leader does get elected, and a partitioned leader answers 502 *)
Example leader_elected :
  let s := run cfg3 [Tick 0 [] []; DeliverReq 0 1 1; DeliverRep 0 1 1] in
  leader (loc s 0) = Some 0 /\ term (loc s 0) = 1 /\ votes s 1 1 = Some 0 /\ votes s 1 0 = Some 0.
Proof. vm_compute. auto. Qed.

Example partitioned_leader_502 :
  let s := run cfg3 [Tick 0 [] []; DeliverReq 0 1 1; DeliverRep 0 1 1; Tick 0 [] []] in
  active_nodes (loc s 0) = [0] /\ dispatch cfg3 s 0 = Err502.
Proof. vm_compute. auto. Qed.

(* ---- the panic site of the healthCheck case (repaired by the nil check) ---- *)

Lemma gc_proxy_sessions_repaired cfg self active : gc_proxy_sessions true cfg self active = true.
Proof.
  unfold gc_proxy_sessions. apply forallb_forall. intros p _. unfold gc_for_node.
  destruct (p =? self); reflexivity.
Qed.

(* unrepaired: it returns iff the list contains this node *)
Lemma gc_proxy_sessions_unrepaired cfg self active :
  gc_proxy_sessions false cfg self active = mem self active.
Proof.
  unfold gc_proxy_sessions. cbn [filter].
  assert (Hrest : forallb (gc_for_node false self)
                    (filter (fun p => negb (mem p active)) (peers cfg self)) = true).
  { apply forallb_forall. intros p Hp. apply filter_In in Hp as [Hp _].
    apply peers_In in Hp as [_ Hne]. unfold gc_for_node. apply Nat.eqb_neq in Hne. now rewrite Hne. }
  destruct (mem self active); cbn [negb forallb]; [exact Hrest|].
  unfold gc_for_node at 1. now rewrite Nat.eqb_refl.
Qed.

(* the repaired handler never panics: in ANY state, for any message *)
Lemma health_never_panics_any cfg s idx : health_panics cfg s idx = false.
Proof.
  unfold health_panics, health_panics_gen.
  destruct (nth_error (hnet s) idx) as [h|]; [|reflexivity].
  destruct (electing _); [reflexivity|].
  rewrite gc_proxy_sessions_repaired. cbn [negb]. apply andb_false_r.
Qed.

(* an unrepaired execution that has not panicked is an execution of [step]:
   every invariant and theorem about [run] holds for it *)
Lemma run_unrepaired_from_some cfg evs : forall s s',
  run_unrepaired_from cfg s evs = Some s' -> s' = fold_left (step cfg) evs s.
Proof.
  induction evs as [|e evs IH]; cbn; intros s s' H; [congruence|].
  destruct (step_unrepaired cfg s e) as [s1|] eqn:E; [|discriminate].
  assert (s1 = step cfg s e).
  { unfold step_unrepaired in E. destruct e; try congruence.
    destruct (health_panics_unrepaired cfg s idx); congruence. }
  subst. now apply IH.
Qed.

Lemma run_unrepaired_some cfg evs s : run_unrepaired cfg evs = Some s -> s = run cfg evs.
Proof. apply run_unrepaired_from_some. Qed.

(* the code before the nil check (findings/C17_nilcheck.diff): a follower that the leader
   had dropped from the active list twice crashed on the health check it received
   when reachable again: rehashSkipped is still set from the first time (it is
   never cleared by a matching check), so the list without the receiver is adopted
   at once and gcProxySessions dereferenced c.nodes[self] = nil *)
Definition health_never_panics_unrepaired_statement (cfg : config) : Prop :=
  forall evs idx, health_panics_unrepaired cfg (run cfg evs) idx = false.

Definition evs_flap : list event :=
  [Tick 0 [] []; DeliverReq 0 1 1; DeliverRep 0 1 1;   (* 0 leads term 1 *)
   Tick 0 [] [1];                                      (* the check of 2 fails: 2 dropped *)
   Tick 0 [2] [1; 2]; DeliverHealth 0;                 (* 2 is back: one check with the list {0,1}: flag raised *)
   Tick 0 [2] [1; 2]; DeliverHealth 0;                 (* list {0,1,2} again: matches, flag stays *)
   Tick 0 [] [1];                                      (* 2 dropped a second time *)
   Tick 0 [2] [1; 2]].                                 (* back again: the check carries {0,1} *)

(* the same as an execution of the unrepaired step function: it ends in a panic,
   while the repaired code completes it and the node adopts the ring {0,1} *)
Lemma flap_unrepaired_panics : run_unrepaired cfg3 (evs_flap ++ [DeliverHealth 0]) = None.
Proof. vm_compute. reflexivity. Qed.

Lemma flap_repaired_adopts :
  let s := run cfg3 (evs_flap ++ [DeliverHealth 0]) in
  ring_nodes (loc s 2) = [0; 1] /\ leader (loc s 2) = Some 0 /\ term (loc s 2) = 1.
Proof. vm_compute. auto. Qed.
