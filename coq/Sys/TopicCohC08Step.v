(* C08: each handler keeps the coherence invariant [good] when the request is free of the
   known triggers and the fault plan is one the handler tolerates (no_fault_or_first below;
   per request: TopicCohC08.fault_ok).  The step and history forms are in TopicCohC08Run.v. *)
From Coq Require Import ZArith NArith List Bool Lia.
From Tinode Require Import Base.Util Pure.Acs Sys.Topic Sys.TopicTac Sys.TopicFrame Sys.TopicMarks Sys.TopicOwner Sys.TopicAclC07 Sys.TopicCohC08 Sys.TopicCohC08Proofs.
From Tinode Require Sys.TopicCoh.
Import ListNotations.
Open Scope Z_scope.

(* ------------------------------------------------------------------ *)
(* coh is the pointwise form of coherent *)
Lemma coh_agree s c : wf_store s -> coh s c -> cache_agree c (load s).
Proof.
  intros [ND [NZ [A1 [A2 _]]]] [E1 [E2 [E3 [E4 [P O]]]]].
  unfold cache_agree, load. cbn [c_lastid c_delid c_owner c_auth c_anon c_users].
  repeat split; try assumption.
  - symmetry. apply load_owner_wf; assumption.
  - intros u. rewrite P. symmetry. apply load_users_core. exact ND.
Qed.

Lemma coh_load s : wf_store s -> coh s (load s).
Proof.
  intros [ND [NZ [A1 [A2 [o O]]]]]. unfold coh, load. cbn [c_lastid c_delid c_owner c_auth c_anon c_users].
  do 4 (split; [reflexivity|]). split.
  - intros v. apply load_users_core. exact ND.
  - rewrite (load_owner_wf _ _ ND O). exact O.
Qed.

Lemma inv_coherent x : inv x -> coherent x.
Proof.
  unfold inv, coherent. intros [W C]. destruct (ca x); [|exact I]. apply coh_agree; [assumption|apply C].
Qed.

(* what coh says about one user *)
Lemma coh_at s c v :
  coh s c ->
  match alookup v (c_users c) with
  | Some p => exists r, find_sub v (subs s) = Some r /\ s_deleted r = false /\
                        s_want r = p_want p /\ s_given r = p_given p /\ s_read r = p_read p /\ s_recv r = p_recv p /\ s_delid r = p_delid p
  | None => match find_sub v (subs s) with Some r => s_deleted r = true | None => True end
  end.
Proof.
  intros [_ [_ [_ [_ [P _]]]]]. specialize (P v). unfold row_core in P.
  destruct (alookup v (c_users c)) as [p|]; cbn in P.
  - destruct (find_sub v (subs s)) as [r|]; [|discriminate]. destruct (s_deleted r) eqn:D; [discriminate|].
    exists r. unfold core in P. inv P. repeat split; congruence.
  - destruct (find_sub v (subs s)) as [r|]; [|exact I]. destruct (s_deleted r); [reflexivity|discriminate].
Qed.

(* evictUser touches only the online counter, or removes the entry *)
Lemma evict_core c u unsub k c' o :
  evict_user c u unsub k = (c', o) ->
  c_lastid c' = c_lastid c /\ c_delid c' = c_delid c /\ c_owner c' = c_owner c /\ c_auth c' = c_auth c /\ c_anon c' = c_anon c /\
  forall v, option_map core (alookup v (c_users c')) =
            if unsub && N.eqb v u then None else option_map core (alookup v (c_users c)).
Proof.
  unfold evict_user. intros H. inv H. destruct unsub; cbn [andb].
  - cbn. repeat split. intros v. rewrite alookup_aremove_eq. destruct (N.eqb v u); reflexivity.
  - cbn [c_users c_set_sess]. destruct (alookup u (c_users c)) as [p|] eqn:L; cbn; repeat split.
    intros v. rewrite alookup_aset. destruct (N.eqb_spec v u); [|reflexivity]. subst. rewrite L. reflexivity.
Qed.

(* it sends only {ctrl 205 evicted} frames and keeps one entry per user *)
Definition only_evicted (o : out) : Prop := forall e, In e o -> exists b, snd e = Evicted b.
Lemma evict_only c u unsub k c' o : evict_user c u unsub k = (c', o) -> only_evicted o.
Proof.
  unfold evict_user. intros H. inv H. intros e I. apply in_flat_map in I. destruct I as [x [_ I]].
  destruct (N.eqb (fst x) k); [destruct I|]. destruct I as [<-|[]]. eexists. reflexivity.
Qed.
Lemma evict_nodup c u unsub k c' o :
  evict_user c u unsub k = (c', o) -> NoDup (map fst (c_users c)) -> NoDup (map fst (c_users c')).
Proof.
  unfold evict_user. intros H K. inv H. destruct unsub; cbn [c_users c_set_users c_set_sess].
  - apply keys_aremove, K.
  - destruct (alookup u (c_users c)); cbn [c_users c_set_users c_set_sess]; [apply keys_aset|]; exact K.
Qed.

(* ------------------------------------------------------------------ *)
(* coh, per user *)
Definition corerow (r : subrow) : N * N * (Z * Z * Z) := (s_want r, s_given r, (s_read r, s_recv r, s_delid r)).
Definition vrel (o v : N) (cp : option pud) (sr : option subrow) : Prop :=
  match sr with
  | Some r => option_map core cp = (if s_deleted r then None else Some (corerow r)) /\
              (is_owner (s_want r) = true -> s_deleted r = false /\ is_owner (s_given r) = true /\ v = o)
  | None => option_map core cp = None
  end.
Definition oinv (s : store) (o : N) : Prop :=
  o <> 0%N /\ exists r, find_sub o (subs s) = Some r /\ is_owner (s_want r) = true.

Lemma coh_parts s c :
  coh s c <->
  (c_lastid c = t_seqid s /\ c_delid c = t_delid s /\ c_auth c = t_auth s /\ c_anon c = t_anon s) /\
  (forall v, vrel (c_owner c) v (alookup v (c_users c)) (find_sub v (subs s))) /\ oinv s (c_owner c).
Proof.
  unfold coh, owner_row, oinv, vrel, row_core, corerow. split.
  - intros [E1 [E2 [E3 [E4 [P [NZ [EX U]]]]]]]. repeat split; try assumption.
    intros v. specialize (P v). specialize (U v).
    destruct (find_sub v (subs s)) as [r|]; [|exact P]. split; [exact P|]. intros O. apply (U r eq_refl O).
  - intros [[E1 [E2 [E3 E4]]] [P [NZ EX]]].
    do 4 (split; [assumption|]). split; [|split; [exact NZ|split; [exact EX|]]].
    + intros v. specialize (P v). destruct (find_sub v (subs s)) as [r|]; [apply P|exact P].
    + intros v r F O. specialize (P v). rewrite F in P. destruct P as [_ P]. apply (P O).
Qed.

Lemma coh_frame s c s' c' :
  coh s c -> sframe s s' -> cframe c c' ->
  (forall v, vrel (c_owner c') v (alookup v (c_users c')) (find_sub v (subs s'))) -> oinv s' (c_owner c') -> coh s' c'.
Proof.
  intros C [_ [S1 [S2 [S3 [S4 _]]]]] [C1 [C2 [C3 C4]]] P O. apply coh_parts in C. destruct C as [[E1 [E2 [E3 E4]]] _].
  apply coh_parts. split; [repeat split; congruence|]. split; assumption.
Qed.

(* the rest of wf_store *)
Definition shape (s : store) : Prop := NoDup (map s_user (subs s)) /\ ~ In 0%N (map s_user (subs s)).
Lemma wf_parts s :
  wf_store s <-> shape s /\ is_owner (t_auth s) = false /\ (forall u a, alookup u (users s) = Some a -> is_owner a = false) /\ exists o, owner_row s o.
Proof.
  unfold wf_store, shape. split.
  - intros [ND [NZ R]]. repeat split; try tauto. intros Hin. apply in_map_iff in Hin. destruct Hin as [r [E Hr]]. apply (NZ r Hr E).
  - intros [[ND NZ] R]. repeat split; try tauto. intros r Hr E. apply NZ. rewrite <- E. apply in_map. exact Hr.
Qed.

Lemma wf_frame s s' c' :
  wf_store s -> sframe s s' -> shape s' -> coh s' c' -> wf_store s'.
Proof.
  intros W [_ [_ [_ [S3 [_ [_ S6]]]]]] SH C. apply wf_parts in W. destruct W as [_ [A [B _]]].
  apply wf_parts. repeat split; try apply SH.
  - congruence.
  - rewrite S6. exact B.
  - exists (c_owner c'). apply C.
Qed.

Definition good (s : store) (c : cache) : Prop := wf_store s /\ coh s c.

(* shape through the primitives *)
Lemma shape_subs_update s u up : shape s -> shape (ad_subs_update s u up).
Proof. unfold shape. rewrite users_subs_update. tauto. Qed.
Lemma shape_subs_delete s u s' : ad_subs_delete s u = Some s' -> shape s -> shape s'.
Proof. intros H. unfold shape. rewrite (users_subs_delete _ _ _ H). tauto. Qed.
Lemma shape_sub_create s u w g : u <> 0%N -> shape s -> shape (ad_sub_create s u w g).
Proof.
  intros NZ [ND N0]. unfold shape. rewrite users_sub_create. destruct (find_sub u (subs s)) eqn:F; [tauto|].
  split.
  - apply NoDup_app_single; [exact ND|]. apply find_sub_none_notin. exact F.
  - intros Hin. apply in_app_or in Hin. destruct Hin as [Hin|[Hin|[]]]; [tauto|congruence].
Qed.

(* ------------------------------------------------------------------ *)
(* the invariant after a handler, from its parts *)
Lemma vrel_old s c v : coh s c -> vrel (c_owner c) v (alookup v (c_users c)) (find_sub v (subs s)).
Proof. intros C. apply coh_parts in C. apply C. Qed.
Lemma oinv_old s c : coh s c -> oinv s (c_owner c).
Proof. intros C. apply coh_parts in C. apply C. Qed.

Lemma good_build s c s' c' :
  good s c -> sframe s s' -> cframe c c' -> shape s' ->
  (forall v, vrel (c_owner c') v (alookup v (c_users c')) (find_sub v (subs s'))) -> oinv s' (c_owner c') -> good s' c'.
Proof.
  intros [W C] Hs Hc SH P O.
  assert (coh s' c') as C' by (eapply coh_frame; eassumption).
  split; [|exact C']. eapply wf_frame; eassumption.
Qed.

Lemma good_shape s c : good s c -> shape s.
Proof. intros [W _]. apply wf_parts in W. apply W. Qed.


(* the cached record after a store update of the same user *)
Definition core_after (up : subupd) (p : pud) : N * N * (Z * Z * Z) :=
  (match u_want up with Some v => v | None => p_want p end,
   match u_given up with Some v => v | None => p_given p end,
   (match u_read up with Some v => v | None => p_read p end,
    match u_recv up with Some v => v | None => p_recv p end,
    match u_delid up with Some v => v | None => p_delid p end)).

Lemma vrel_update s c u up p p' :
  coh s c -> u <> 0%N -> alookup u (c_users c) = Some p ->
  core p' = core_after up p ->
  (is_owner (p_want p') = true -> is_owner (p_given p') = true /\ u = c_owner c) ->
  forall v, vrel (c_owner c) v (alookup v (aset u p' (c_users c))) (find_sub v (subs (ad_subs_update s u up))).
Proof.
  intros C NZ L E O v. rewrite alookup_aset, find_sub_update, (proj2 (N.eqb_neq _ _) NZ). cbn [orb].
  destruct (N.eqb_spec v u) as [->|NE]; [|apply vrel_old; exact C].
  pose proof (coh_at _ _ u C) as A. rewrite L in A. destruct A as [r [F [D [A1 [A2 [A3 [A4 A5]]]]]]].
  rewrite F. cbn [option_map vrel apply_upd s_deleted s_want s_given]. rewrite D. split.
  - f_equal. rewrite E. unfold core_after, corerow, apply_upd; cbn. rewrite A1, A2, A3, A4, A5. reflexivity.
  - unfold core, core_after in E. inv E.
    replace (match u_want up with Some v => v | None => s_want r end) with (p_want p') by (rewrite A1; congruence).
    replace (match u_given up with Some v => v | None => s_given r end) with (p_given p') by (rewrite A2; congruence).
    intros W. split; [reflexivity|]. apply O. exact W.
Qed.

Lemma oinv_update s o u up :
  oinv s o -> (forall w, u_want up = Some w -> (u = o \/ u = 0%N) -> is_owner w = true) -> oinv (ad_subs_update s u up) o.
Proof.
  intros [NZ [r [F W]]] H. split; [exact NZ|]. rewrite find_sub_update, F.
  destruct ((u =? 0)%N || (o =? u)%N) eqn:E.
  - exists (apply_upd up r). split; [reflexivity|]. cbn. destruct (u_want up) as [w|] eqn:UW; [|exact W].
    apply (H w eq_refl). apply orb_true_iff in E. destruct E as [E|E]; apply N.eqb_eq in E; auto.
  - exists r. split; [reflexivity|exact W].
Qed.

Lemma coh_pud s c u p :
  coh s c -> alookup u (c_users c) = Some p -> is_owner (p_want p) = true -> is_owner (p_given p) = true /\ u = c_owner c.
Proof.
  intros C L W. pose proof (coh_at _ _ u C) as A. rewrite L in A. destruct A as [r [F [D [A1 [A2 _]]]]].
  pose proof (vrel_old _ _ u C) as V. rewrite F in V. destruct V as [_ V]. rewrite A1, A2 in V. destruct (V W) as [_ V']. exact V'.
Qed.
(* the owner is cached, with O in want and given *)
Lemma coh_owner s c :
  coh s c -> exists p, alookup (c_owner c) (c_users c) = Some p /\ is_owner (p_want p) = true /\ is_owner (p_given p) = true.
Proof.
  intros C. destruct (oinv_old _ _ C) as [NZ [r [F W]]].
  pose proof (vrel_old _ _ (c_owner c) C) as V. rewrite F in V. destruct V as [V1 V2]. destruct (V2 W) as [D [G _]].
  rewrite D in V1. destruct (alookup (c_owner c) (c_users c)) as [p|]; [|discriminate].
  exists p. split; [reflexivity|]. cbn in V1. unfold core, corerow in V1. inv V1. split; congruence.
Qed.

(* changes of the session list and of online counters *)
Lemma vrel_online s c u z p :
  coh s c -> alookup u (c_users c) = Some p ->
  forall v, vrel (c_owner c) v (alookup v (aset u (p_set_online z p) (c_users c))) (find_sub v (subs s)).
Proof.
  intros C L v. rewrite alookup_aset. destruct (N.eqb_spec v u) as [->|NE]; [|apply vrel_old; exact C].
  pose proof (vrel_old _ _ u C) as V. rewrite L in V. exact V.
Qed.

Lemma good_sess s c f : good s c -> good s (c_set_sess f c).
Proof. intros [W C]. split; [exact W|]. exact C. Qed.

Lemma good_online s c u z p : good s c -> alookup u (c_users c) = Some p -> good s (c_set_users (aset u (p_set_online z p)) c).
Proof.
  intros G L. eapply good_build; [exact G|apply sframe_refl|apply cframe_users|eapply good_shape; exact G| |apply (oinv_old s c); apply G].
  cbn [c_owner c_users c_set_users]. apply vrel_online; [apply G|exact L].
Qed.

Lemma good_evict s c u k c' o : good s c -> evict_user c u false k = (c', o) -> good s c'.
Proof.
  unfold evict_user. intros G H. inv H. cbn [c_users c_set_sess].
  destruct (alookup u (c_users c)) as [p|] eqn:L.
  - apply (good_online s (c_set_sess _ c) u 0 p); [apply good_sess; exact G|exact L].
  - apply good_sess. exact G.
Qed.


(* ------------------------------------------------------------------ *)
(* attached sessions act for cached users *)

(* sess_ok is TopicCoh.sess_users: its passage through the cache primitives is proved there *)
Lemma sess_ok_users_aset c u p : sess_ok c -> sess_ok (c_set_users (aset u p) c).
Proof. exact (TopicCoh.su_aset c u p). Qed.
Lemma sess_ok_users_map c g : sess_ok c -> sess_ok (c_set_users (map (fun e => (fst e, g (snd e)))) c).
Proof.
  intros S sid su bkg H. cbn [c_sess c_users c_set_users] in *. rewrite alookup_map.
  specialize (S _ _ _ H). destruct (alookup su (c_users c)); [discriminate|congruence].
Qed.
Lemma sess_ok_sess_aremove c sid : sess_ok c -> sess_ok (c_set_sess (aremove sid) c).
Proof. exact (TopicCoh.su_sess_aremove c sid). Qed.
Lemma sess_ok_sess_aset c sid u b : sess_ok c -> alookup u (c_users c) <> None -> sess_ok (c_set_sess (aset sid (u, b)) c).
Proof. intros S L. exact (TopicCoh.su_sess_aset c sid u b L S). Qed.
Lemma sess_ok_evict c u unsub k c' o : sess_ok c -> evict_user c u unsub k = (c', o) -> sess_ok c'.
Proof. intros S E. exact (TopicCoh.su_evict c u unsub k c' o E S). Qed.

(* ------------------------------------------------------------------ *)
(* leave, unsubscribe, eviction by an administrator *)
Definition good3 (s : store) (c : cache) : Prop := good s c /\ sess_ok c.

Lemma leave_good s c sid u : good3 s c -> good3 s (fst (leave c sid u)).
Proof.
  intros [G S]. unfold leave. destruct (alookup sid (c_sess c)) as [[su bkg]|] eqn:L; cbn [fst]; [|split; assumption].
  pose proof (S _ _ _ (alookup_in _ _ _ L)) as Hu.
  cbn [c_users c_set_sess]. destruct (alookup su (c_users c)) as [p|] eqn:Lu; [|congruence].
  destruct bkg.
  - split; [apply good_sess; exact G|apply sess_ok_sess_aremove; exact S].
  - split.
    + apply (good_online s (c_set_sess _ c) su _ p); [apply good_sess; exact G|exact Lu].
    + apply sess_ok_users_aset. apply sess_ok_sess_aremove. exact S.
Qed.

Lemma subs_delete_some s c u p : coh s c -> alookup u (c_users c) = Some p -> exists s', ad_subs_delete s u = Some s'.
Proof.
  intros C L. pose proof (coh_at _ _ u C) as A. rewrite L in A. destruct A as [r [F [D _]]].
  unfold ad_subs_delete, ad_sub_get. rewrite F, D. cbn. eauto.
Qed.

Lemma good_delete s c u k s' c' o :
  good s c -> u <> c_owner c -> ad_subs_delete s u = Some s' -> evict_user c u true k = (c', o) -> good s' c'.
Proof.
  intros G NO HD HE. destruct (evict_core _ _ _ _ _ _ HE) as [E1 [E2 [E3 [E4 [E5 E6]]]]].
  eapply good_build; [exact G|eapply sframe_subs_delete; exact HD|repeat split; assumption
                     |eapply shape_subs_delete; [exact HD|eapply good_shape; exact G]| |].
  - intros v. rewrite E3, (row_subs_delete _ _ _ v HD).
    pose proof (vrel_old _ _ v (proj2 G)) as V. unfold vrel in *. specialize (E6 v). cbn [andb] in E6.
    destruct (N.eqb_spec v u) as [E|NE].
    + rewrite E in *. destruct (find_sub u (subs s)) as [r|]; cbn [option_map]; rewrite E6; [|reflexivity].
      cbn [del_row s_deleted s_want s_given]. split; [reflexivity|].
      intros W. destruct V as [_ V]. destruct (V W) as [_ [_ X]]. contradiction.
    + rewrite E6. exact V.
  - rewrite E3. destruct (oinv_old _ _ (proj2 G)) as [NZ [r [F W]]]. split; [exact NZ|].
    rewrite (row_subs_delete _ _ _ _ HD). destruct (N.eqb_spec (c_owner c) u); [congruence|]. eauto.
Qed.

Lemma leave_unsub_good f s c n sid u :
  good3 s c -> good3 (h_st (leave_unsub f s c n sid u)) (h_ca (leave_unsub f s c n sid u)).
Proof.
  intros [G S]. unfold leave_unsub.
  destruct (N.eqb_spec (c_owner c) u) as [E|NE]; [split; assumption|].
  destruct (call f n) as [ok1 n1]. destruct (negb ok1); [split; assumption|].
  destruct (ad_subs_delete s u) as [s1|] eqn:HD; [|split; assumption].
  destruct (evict_user c u true sid) as [c1 o1] eqn:HE. cbn [h_st h_ca]. split.
  - eapply good_delete; try eassumption. congruence.
  - eapply sess_ok_evict; eassumption.
Qed.

Lemma del_sub_good f s c n sid u target :
  good3 s c -> good3 (h_st (del_sub f s c n sid u target)) (h_ca (del_sub f s c n sid u target)).
Proof.
  intros [G S]. unfold del_sub.
  destruct (negb (is_admin (user_mode c u))); [split; assumption|].
  destruct ((target =? 0)%N || (target =? u)%N); [split; assumption|].
  destruct (alookup target (c_users c)) as [pt|] eqn:L; [|split; assumption].
  destruct (is_owner (pud_mode pt)) eqn:O; [split; assumption|].
  destruct (negb (is_joiner (p_want pt))); [split; assumption|].
  destruct (call f n) as [ok1 n1]. destruct (negb ok1); [split; assumption|].
  destruct (subs_delete_some _ _ _ _ (proj2 G) L) as [s' HD]. rewrite HD.
  destruct (evict_user c target true 0) as [c1 o1] eqn:HE. cbn [h_st h_ca]. split.
  - eapply good_delete; try eassumption. intros E. subst target.
    destruct (coh_owner _ _ (proj2 G)) as [p [Lp [W Gv]]]. rewrite L in Lp. inv Lp.
    unfold pud_mode in O. rewrite is_owner_land, W, Gv in O. discriminate.
  - eapply sess_ok_evict; eassumption.
Qed.

(* ------------------------------------------------------------------ *)
(* generic store+cache updates *)
Lemma good_update s c u up p p' :
  good s c -> u <> 0%N -> alookup u (c_users c) = Some p ->
  core p' = core_after up p ->
  (is_owner (p_want p') = true -> is_owner (p_given p') = true /\ u = c_owner c) ->
  (u = c_owner c -> is_owner (p_want p') = true) ->
  good (ad_subs_update s u up) (c_set_users (aset u p') c).
Proof.
  intros G NZ L E O1 O2.
  eapply good_build; [exact G|apply sframe_subs_update|apply cframe_users|apply shape_subs_update; eapply good_shape; exact G| |].
  - cbn [c_owner c_users c_set_users]. eapply vrel_update; try eassumption. apply G.
  - cbn [c_owner c_set_users]. apply oinv_update; [apply oinv_old; apply G|].
    intros w UW [Eo|E0]; [|contradiction]. specialize (O2 Eo). unfold core, core_after in E. rewrite UW in E. inv E. congruence.
Qed.

Lemma wf_scalar s s' :
  wf_store s -> subs s' = subs s -> t_auth s' = t_auth s -> users s' = users s -> wf_store s'.
Proof.
  unfold wf_store, owner_row. intros W E1 E2 E3. rewrite E1, E2, E3. exact W.
Qed.

(* a change of the message log, the deletion log, seqid or delid that the cache follows *)
Lemma good_scalars s c s' c' :
  good s c -> subs s' = subs s -> t_auth s' = t_auth s -> t_anon s' = t_anon s -> users s' = users s ->
  c_users c' = c_users c -> c_owner c' = c_owner c -> c_auth c' = c_auth c -> c_anon c' = c_anon c ->
  c_lastid c' = t_seqid s' -> c_delid c' = t_delid s' -> good s' c'.
Proof.
  intros [W [_ [_ [E3 [E4 [P O]]]]]] ES EA EN EU CU CO CA CN L D. split; [exact (wf_scalar s s' W ES EA EU)|].
  unfold coh, owner_row, row_core in *. rewrite ES, EA, EN, CU, CO, CA, CN. do 4 (split; [assumption|]). split; [exact P|exact O].
Qed.

(* a store update of [u]'s marks or delid, mirrored in his cached record *)
Lemma good_marks s c u up p p' :
  good s c -> u <> 0%N -> alookup u (c_users c) = Some p -> u_want up = None -> u_given up = None ->
  core p' = core_after up p -> good (ad_subs_update s u up) (c_set_users (aset u p') c).
Proof.
  intros G NZ L UW UG E.
  assert (p_want p' = p_want p /\ p_given p' = p_given p) as [EW EG] by (unfold core, core_after in E; rewrite UW, UG in E; inv E; auto).
  apply (good_update s c u up p p' G NZ L E).
  - rewrite EW, EG. apply (coh_pud _ _ _ _ (proj2 G) L).
  - intros EO. destruct (coh_owner _ _ (proj2 G)) as [po [Lo [Wo _]]]. rewrite <- EO, L in Lo. inv Lo. rewrite EW. exact Wo.
Qed.

(* ------------------------------------------------------------------ *)
(* notes *)
Lemma note_good f s c n sid u what seq :
  good s c -> u <> 0%N -> ~ (what = K_read /\ p_recv (get_pud c u) < seq) ->
  good (h_st (note f s c n sid u what seq)) (h_ca (note f s c n sid u what seq)).
Proof.
  intros G NZ NT. unfold note.
  destruct (c_lastid c <? seq); [exact G|].
  destruct (N.eqb what K_kp); [destruct (negb (is_writer _)); exact G|].
  destruct (N.eqb what K_read || N.eqb what K_recv); [|exact G].
  destruct (negb (is_reader (pud_mode (get_pud c u)))) eqn:RD; [exact G|]. apply negb_false_iff in RD.
  pose proof (get_pud_has _ _ _ RD) as L.
  destruct (N.eqb_spec what K_read) as [E|NE]; cbn [andb negb].
  - destruct (seq <=? p_read _); [exact G|]. destruct (call f n) as [ok1 n1]. destruct (negb ok1); [exact G|]. cbn [h_st h_ca].
    apply (good_marks s c u _ (get_pud c u)); [exact G|exact NZ|exact L|reflexivity|reflexivity|].
    (* the store gets the read mark only: the cached received mark must not move *)
    destruct (p_recv (get_pud c u) <? seq) eqn:LT; [|reflexivity]. exfalso. apply NT. split; [exact E|apply Z.ltb_lt, LT].
  - destruct (seq <=? p_recv _); [exact G|]. destruct (call f n) as [ok1 n1]. destruct (negb ok1); [exact G|]. cbn [h_st h_ca].
    apply (good_marks s c u _ (get_pud c u)); [exact G|exact NZ|exact L|reflexivity|reflexivity|reflexivity].
Qed.

(* ------------------------------------------------------------------ *)
(* publish *)
Definition no_fault_or_first (f : fault) (n : nat) : Prop :=
  (fails f (S n) = false /\ fails f (S (S n)) = false /\ fails f (S (S (S n))) = false) \/ fails f (S n) = true.

Lemma msg_save_fresh s seq u content :
  (forall m, In m (seqs s) -> m < seq) ->
  ad_msg_save s seq u content = Some (st_msgs (fun l => l ++ [mkMsg seq u content 0]) s).
Proof.
  intros H. unfold ad_msg_save.
  destruct (existsb (fun m => m_seq m =? seq) (msgs s)) eqn:E; [|reflexivity].
  apply existsb_exists in E. destruct E as [m [Hm E]]. apply Z.eqb_eq in E.
  assert (In (m_seq m) (seqs s)) as I by (unfold seqs; apply in_map; exact Hm). specialize (H _ I). lia.
Qed.

Lemma publish_good f s c n sid u content noecho :
  good3 s c -> u <> 0%N -> (forall m, In m (seqs s) -> m <= c_lastid c) ->
  (is_writer (user_mode c u) = true -> is_reader (user_mode c u) = true) ->
  no_fault_or_first f n ->
  good3 (h_st (publish f s c n sid u content noecho)) (h_ca (publish f s c n sid u content noecho)).
Proof.
  intros [G S] NZ FR RD NF. unfold publish. fold (user_mode c u).
  destruct (is_writer (user_mode c u)) eqn:W; cbn [negb]; [|split; assumption].
  specialize (RD eq_refl). rewrite RD.
  unfold call. destruct NF as [[N1 [N2 N3]]|NF]; [|rewrite NF; cbn [negb]; split; assumption].
  rewrite N1, N2, ?N3. cbn [negb].
  rewrite msg_save_fresh by (intros m Hm; cbn in Hm; specialize (FR m Hm); lia).
  pose proof (get_pud_has _ _ _ RD) as L. rewrite L. cbn [h_st h_ca andb].
  split; [|apply sess_ok_users_aset, S].
  apply (good_marks _ (c_set_lastid (c_lastid c + 1) c) u _ (get_pud c u)); [|exact NZ|exact L|reflexivity|reflexivity|reflexivity].
  apply (good_scalars s c); try reflexivity; [exact G|apply G].
Qed.

(* ------------------------------------------------------------------ *)
(* delete messages *)
Lemma vrel_delid_all s c d :
  coh s c ->
  forall v, vrel (c_owner c) v (alookup v (map (fun e => (fst e, p_set_delid d (snd e))) (c_users c)))
                 (find_sub v (subs (ad_subs_update s 0%N (mkUpd None None None None (Some d))))).
Proof.
  intros C v. rewrite alookup_map, find_sub_update. cbn [orb N.eqb].
  pose proof (vrel_old _ _ v C) as V. unfold vrel in *.
  destruct (find_sub v (subs s)) as [r|]; cbn [option_map].
  - cbn [apply_upd s_deleted s_want s_given u_want u_given]. destruct V as [V1 V2]. split; [|exact V2].
    destruct (s_deleted r).
    + destruct (alookup v (c_users c)); [discriminate|reflexivity].
    + destruct (alookup v (c_users c)) as [p|]; [|discriminate]. cbn in *. unfold core, corerow in *. cbn. inv V1. reflexivity.
  - destruct (alookup v (c_users c)); [discriminate|reflexivity].
Qed.

Lemma good_delid_all s c d :
  good s c -> good (ad_subs_update s 0%N (mkUpd None None None None (Some d)))
                   (c_set_users (map (fun e => (fst e, p_set_delid d (snd e)))) c).
Proof.
  intros G. eapply good_build; [exact G|apply sframe_subs_update|apply cframe_users|apply shape_subs_update; eapply good_shape; exact G| |].
  - cbn [c_owner c_users c_set_users]. apply vrel_delid_all, G.
  - cbn [c_owner c_set_users]. apply oinv_update; [apply oinv_old, G|cbn; discriminate].
Qed.

Lemma del_msg_good dr f s c n sid u req hard :
  good3 s c -> u <> 0%N -> no_fault_or_first f n ->
  good3 (h_st (del_msg dr f s c n sid u req hard)) (h_ca (del_msg dr f s c n sid u req hard)).
Proof.
  intros [G S] NZ NF. unfold del_msg. cbv zeta.
  destruct (negb (hard && is_deleter (user_mode c u)) && negb (is_reader (user_mode c u))) eqn:M; [split; assumption|].
  destruct (dr (c_lastid c) req) as [ranges|]; [|split; assumption].
  unfold call. destruct NF as [[N1 [N2 N3]]|NF]; [|rewrite NF; cbn [negb]; split; assumption].
  rewrite N1, N2, N3. cbn [negb h_st h_ca].
  assert (alookup u (c_users c) = Some (get_pud c u)) as L.
  { apply andb_false_iff in M. destruct M as [M|M]; apply negb_false_iff in M.
    - apply andb_true_iff in M. destruct M as [_ M]. eapply get_pud_has; exact M.
    - eapply get_pud_has; exact M. }
  assert (forall fu, good (st_delid (c_delid c + 1) (ad_msg_delete_list s (c_delid c + 1) fu ranges)) (c_set_delid (c_delid c + 1) c)) as G1
    by (intros fu; unfold ad_msg_delete_list; destruct (fu =? 0)%N; (apply (good_scalars s c); try reflexivity; [exact G|apply G])).
  destruct (hard && is_deleter (user_mode c u)).
  - split; [apply good_delid_all, G1|apply sess_ok_users_map, S].
  - split; [|apply sess_ok_users_aset, S].
    apply (good_marks _ (c_set_delid (c_delid c + 1) c) u _ (get_pud c u)); [apply G1|exact NZ|exact L|reflexivity|reflexivity|reflexivity].
Qed.

(* ------------------------------------------------------------------ *)
(* invitations *)
Lemma good_create s c t w g :
  good s c -> t <> 0%N -> alookup t (c_users c) = None -> is_owner w = false ->
  good (ad_sub_create s t w g) (c_set_users (aset t (mkPud w g 0 0 0 0)) c).
Proof.
  intros G NZ L W.
  assert (t <> c_owner c) as NO.
  { intros E. destruct (coh_owner _ _ (proj2 G)) as [p [Lp _]]. rewrite <- E in Lp. congruence. }
  eapply good_build; [exact G|apply sframe_sub_create|apply cframe_users|apply shape_sub_create; [exact NZ|eapply good_shape; exact G]| |].
  - cbn [c_owner c_users c_set_users]. intros v. rewrite alookup_aset, find_sub_create.
    destruct (N.eqb_spec v t) as [->|NE]; [|apply vrel_old; apply G].
    cbn. split; [reflexivity|]. rewrite W. discriminate.
  - cbn [c_owner c_set_users]. destruct (oinv_old _ _ (proj2 G)) as [NZo [r [F Wr]]]. split; [exact NZo|].
    rewrite find_sub_create. destruct (N.eqb_spec (c_owner c) t); [congruence|]. eauto.
Qed.

(* a row that is not cached is absent or soft-deleted, and its want has no O *)
Lemma uncached_want s c t r :
  coh s c -> alookup t (c_users c) = None -> ad_sub_get s t true = Some r -> is_owner (s_want r) = false.
Proof.
  intros C L H. unfold ad_sub_get in H. destruct (find_sub t (subs s)) as [r0|] eqn:F; [|discriminate].
  rewrite andb_false_r in H. inv H.
  pose proof (coh_at _ _ t C) as A. rewrite L, F in A.
  pose proof (vrel_old _ _ t C) as V. rewrite F in V. destruct V as [_ V].
  destruct (is_owner (s_want r)) eqn:O; [|reflexivity]. destruct (V eq_refl) as [D _]. congruence.
Qed.

Lemma invite_want f s c target given n1 n2 w :
  good s c -> alookup target (c_users c) = None ->
  match ad_sub_get s target true with
  | Some r => (n1, Some (inr (s_want r)))
  | None => let '(ok2, n2) := call f n1 in
            if negb ok2 then (n2, Some (inl 500)) else
            match alookup target (users s) with
            | Some acc => (n2, Some (inr (N.land acc given)))
            | None => (n2, Some (inl 404))
            end
  end = (n2, Some (@inr Z N w)) -> is_owner w = false.
Proof.
  intros [Wf C] L H. destruct (ad_sub_get s target true) as [r|] eqn:SG.
  - inv H. eapply uncached_want; eassumption.
  - destruct (call f n1) as [ok2 n2']. destruct (negb ok2); [discriminate|].
    destruct (alookup target (users s)) as [acc|] eqn:LU; [|discriminate]. inv H.
    rewrite is_owner_land. destruct Wf as [_ [_ [_ [A _]]]]. rewrite (A _ _ LU). reflexivity.
Qed.

Ltac evict_then :=
  match goal with
  | G3 : good3 _ _, H : evict_user ?C0 _ false _ = (?c0, _) |- good3 ?S' ?c0 =>
    destruct G3 as [G S]; split; [eapply (good_evict S' C0); [|exact H]|eapply sess_ok_evict; [|exact H]]
  | G3 : good3 _ _ |- good3 _ _ => destruct G3 as [G S]; split
  end.

Lemma another_user_sub_good f s c n sid u target mode :
  good3 s c -> target <> 0%N ->
  good3 (h_st (fst (another_user_sub f s c n sid u target mode))) (h_ca (fst (another_user_sub f s c n sid u target mode))).
Proof.
  intros G3 NZ. unfold another_user_sub.
  repeat break_match; cbn [fst h_st h_ca]; try exact G3.
  all: repeat match goal with H : (_, _) = (_, _) |- _ => inv H end.
  all: evict_then.
  all: try exact G; try exact S; try (apply sess_ok_users_aset; exact S).
  (* permission change of a cached target *)
  1-2: (eapply good_update; [exact G|exact NZ|eassumption|reflexivity| |]; cbn [p_want p_given p_set_modes];
        [intros O; destruct (coh_pud _ _ _ _ (proj2 G) ltac:(eassumption) O) as [_ E]; split; [|exact E];
         rewrite E, N.eqb_refl in *; cbn [andb] in *;
         match goal with H : negb (is_owner ?m) || _ = false |- _ => apply orb_false_iff in H; destruct H as [H _]; now apply negb_false_iff in H end
        |intros E; destruct (coh_owner _ _ (proj2 G)) as [po [Lo [Wo _]]]; rewrite <- E in Lo; congruence]).
  (* invitation of a user who is not cached *)
  all: apply good_create; [exact G|exact NZ|assumption|eapply invite_want; eassumption].
Qed.

(* ------------------------------------------------------------------ *)
(* thisUserSub in the named pieces of Sys/TopicAclC07.v (tus_new, tus_chk, tus_w1, tus_exist, tus_finish) *)
Lemma tus_unfold f s c n sid u want nb :
  this_user_sub f s c n sid u want nb =
  let '(mw, okw) := match want with [] => (ModeUnset, true) | _ => unmarshal_text ModeUnset want end in
  if negb okw then (mkH s c n [], SubErr 400) else
  match alookup u (c_users c) with
  | None => tus_new f s c n u mw nb
  | Some p0 => tus_exist f s c n u mw p0 nb
  end.
Proof. reflexivity. Qed.

(* ------------------------------------------------------------------ *)
(* what every outcome of thisUserSub / anotherUserSub about user [t] has in common: only eviction notices
   are sent, the table keeps one entry per user, and on success [t] is cached with the modes that are reported *)
Definition sub_post (c : cache) (t : N) (hr : hres * sub_res) : Prop :=
  only_evicted (h_out (fst hr)) /\
  (NoDup (map fst (c_users c)) -> NoDup (map fst (c_users (h_ca (fst hr))))) /\
  match snd hr with
  | SubErr _ => True
  | SubOk ch => exists p, alookup t (c_users (h_ca (fst hr))) = Some p /\
                          forall w g, ch = Some (w, g) -> p_want p = w /\ p_given p = g
  end.

Lemma post_err c c' t s' n' code :
  (NoDup (map fst (c_users c)) -> NoDup (map fst (c_users c'))) -> sub_post c t (mkH s' c' n' [], SubErr code).
Proof. intros K. split; [intros e []|]. split; [exact K|exact I]. Qed.

(* the common tail: [t] is cached with the new modes, and evicted if he is left without J *)
Lemma post_fin (b : bool) c c0 t p s n ch :
  (NoDup (map fst (c_users c)) -> NoDup (map fst (c_users c0))) -> alookup t (c_users c0) = Some p ->
  (forall w g, ch = Some (w, g) -> p_want p = w /\ p_given p = g) ->
  sub_post c t (if b then let '(c4, o4) := evict_user c0 t false 0%N in (mkH s c4 n o4, SubOk ch) else (mkH s c0 n [], SubOk ch)).
Proof.
  intros K L CH. destruct b; [|split; [intros e []|split; [exact K|exists p; auto]]].
  destruct (evict_user c0 t false 0) as [c4 o4] eqn:HE. split; [exact (evict_only _ _ _ _ _ _ HE)|].
  split; [intros ND; exact (evict_nodup _ _ _ _ _ _ HE (K ND))|]. cbn [fst snd h_ca].
  destruct (evict_core _ _ _ _ _ _ HE) as [_ [_ [_ [_ [_ E]]]]]. specialize (E t). cbn [andb] in E. rewrite L in E.
  destruct (alookup t (c_users c4)) as [p'|]; [|discriminate]. exists p'. split; [reflexivity|].
  unfold core in E. inv E. intros w g H. destruct (CH w g H). split; congruence.
Qed.

Lemma ch_modes (b : bool) (w1 g1 w g : N) : (if b then Some (w1, g1) else None) = Some (w, g) -> w1 = w /\ g1 = g.
Proof. destruct b; intros H; inv H. auto. Qed.

Lemma tus_finish_post c u nb w1 g1 ow og s3 c3 n3 :
  (NoDup (map fst (c_users c)) -> NoDup (map fst (c_users c3))) -> sub_post c u (tus_finish u w1 g1 ow og nb s3 c3 n3).
Proof.
  intros K. unfold tus_finish. cbv beta zeta.
  assert (NoDup (map fst (c_users c)) -> NoDup (map fst (c_users (c_set_users (aset u (p_set_modes w1 g1 (get_pud c3 u))) c3)))) as K4
    by (intros ND; apply keys_aset, K, ND).
  pose proof (fun b => post_fin b c _ u _ s3 n3 _ K4 (alookup_aset_same u (p_set_modes w1 g1 (get_pud c3 u)) (c_users c3))
                              (ch_modes (nb || negb ((w1 =? ow)%N && (g1 =? og)%N)) w1 g1)) as F.
  destruct (negb (is_joiner w1)); [exact (F true)|]. destruct (negb (is_joiner g1)); [apply post_err, K4|exact (F false)].
Qed.

Lemma tus_post f s c n sid u want nb : sub_post c u (this_user_sub f s c n sid u want nb).
Proof.
  rewrite tus_unfold.
  destruct (match want with [] => (ModeUnset, true) | _ => unmarshal_text ModeUnset want end) as [mw okw].
  destruct (negb okw); [apply post_err; auto|].
  destruct (alookup u (c_users c)) as [p0|].
  - unfold tus_exist. cbv beta zeta. destruct (tus_chk c u mw (p_want p0) (p_given p0)) as [[[mw1 g1] oc]|]; [|apply post_err; auto].
    match goal with |- context [if ?b then call f n else (true, n)] => destruct (if b then call f n else (true, n)) as [ok1 n1] end.
    destruct (negb ok1); [apply post_err; auto|].
    destruct oc; [|apply tus_finish_post; auto].
    destruct (call f n1) as [ok2 n2]. destruct (negb ok2); [apply post_err; auto|].
    destruct (call f n2) as [ok3 n3]. destruct (negb ok3); [apply post_err; auto|].
    apply tus_finish_post. cbn [c_users c_set_owner c_set_users]. apply keys_aset.
  - unfold tus_new. cbv beta zeta.
    destruct (max_subs <=? _); [apply post_err; auto|].
    destruct (call f n) as [ok1 n1]. destruct (negb ok1); [apply post_err; auto|].
    destruct (negb (is_joiner _)); [apply post_err; auto|].
    destruct (if match ad_sub_get s u true with Some r => s_deleted r | None => true end then call f n1 else (true, n1)) as [ok2 n2].
    destruct (negb ok2); [apply post_err; auto|].
    eapply post_fin; [apply keys_aset|apply alookup_aset_same|apply ch_modes].
Qed.

Lemma aus_post f s c n sid u t mode : sub_post c t (another_user_sub f s c n sid u t mode).
Proof.
  unfold another_user_sub. cbv beta zeta.
  destruct (alookup u (c_users c)); [|apply post_err; auto].
  destruct (negb (is_sharer _)); [apply post_err; auto|].
  destruct (match mode with [] => (ModeUnset, true) | _ => unmarshal_text ModeUnset mode end) as [mg okg].
  destruct (negb okg); [apply post_err; auto|].
  destruct (negb (mg =? ModeUnset)%N && _); [apply post_err; auto|].
  destruct (is_owner mg && _); [apply post_err; auto|].
  destruct (alookup t (c_users c)) as [pt|] eqn:L.
  - destruct ((mg =? ModeUnset)%N || (mg =? p_given pt)%N); [eapply post_fin; [auto|exact L|discriminate]|].
    destruct (N.eqb (c_owner c) t && _); [apply post_err; auto|].
    destruct (call f n) as [ok1 n1]. destruct (negb ok1); [apply post_err; auto|].
    eapply post_fin; [apply keys_aset|apply alookup_aset_same|intros w g H; inv H; auto].
  - destruct (max_subs <=? _); [apply post_err; auto|].
    destruct (call f n) as [ok1 n1]. destruct (negb ok1); [apply post_err; auto|].
    assert (forall s3 n3 wantm given,
      sub_post c t (if negb (is_joiner given)
                    then let '(c4, o4) := evict_user (c_set_users (aset t (mkPud wantm given 0 0 0 0)) c) t false 0%N in
                         (mkH s3 c4 n3 o4, SubOk (Some (wantm, given)))
                    else (mkH s3 (c_set_users (aset t (mkPud wantm given 0 0 0 0)) c) n3 [], SubOk (Some (wantm, given))))) as NEW
      by (intros; eapply post_fin; [apply keys_aset|apply alookup_aset_same|intros w g H; inv H; auto]).
    destruct (ad_sub_get s t true) as [r|].
    + destruct (negb (is_joiner (s_want r))); [apply post_err; auto|].
      destruct (call f n1) as [ok3 n3]. destruct (negb ok3); [apply post_err; auto|]. apply NEW.
    + destruct (call f n1) as [ok2 n2]. destruct (negb ok2); [apply post_err; auto|].
      destruct (alookup t (users s)) as [acc|]; [|apply post_err; auto].
      destruct (negb (is_joiner _)); [apply post_err; auto|].
      destruct (call f n2) as [ok3 n3]. destruct (negb ok3); [apply post_err; auto|]. apply NEW.
Qed.

Lemma good_auth s c : good s c -> is_owner (c_auth c) = false.
Proof. intros [[_ [_ [A _]]] [_ [_ [E _]]]]. rewrite E. exact A. Qed.

Lemma tus_modes s c u mw p0 mw1 g1 oc :
  good s c -> alookup u (c_users c) = Some p0 -> tus_chk c u mw (p_want p0) (p_given p0) = Some (mw1, g1, oc) ->
  (oc = false -> (is_owner (tus_w1 c u mw1 g1 (p_want p0)) = true -> is_owner g1 = true /\ u = c_owner c) /\
                 (u = c_owner c -> is_owner (tus_w1 c u mw1 g1 (p_want p0)) = true)) /\
  (oc = true -> is_owner (tus_w1 c u mw1 g1 (p_want p0)) = true /\ is_owner g1 = true /\ u <> c_owner c /\
                (tus_w1 c u mw1 g1 (p_want p0) =? p_want p0)%N = false /\ is_owner (p_given p0) = true /\ is_owner (p_want p0) = false).
Proof.
  intros G L CHK.
  pose proof (good_auth _ _ G) as HA.
  pose proof (coh_pud _ _ _ _ (proj2 G) L) as HP.
  assert (u = c_owner c -> is_owner (p_want p0) = true /\ is_owner (p_given p0) = true) as HO.
  { intros E. destruct (coh_owner _ _ (proj2 G)) as [po [Lo [Wo Go]]]. rewrite <- E in Lo. rewrite L in Lo. inv Lo. tauto. }
  unfold tus_chk in CHK. cbv zeta in CHK. unfold tus_w1.
  destruct (mw =? ModeUnset)%N eqn:MU.
  - (* no mode: the want is kept, or rebuilt from the grant *)
    injection CHK as <- <- <-. rewrite MU. split; [intros _|discriminate].
    destruct (negb (is_joiner (p_want p0))); [|split; [exact HP|intros E; apply (HO E)]].
    destruct (N.eqb_spec (c_owner c) u) as [E|NE].
    + rewrite is_owner_lor, HA, orb_false_r. split; [intros W; split; [exact W|exact (eq_sym E)]|intros _; apply (HO (eq_sym E))].
    + rewrite is_owner_ldiff_mO. split; [discriminate|intros E; congruence].
  - destruct (N.eqb (c_owner c) u && (negb (is_owner mw) || negb (is_joiner mw))) eqn:OK; [discriminate|].
    assert (u = c_owner c -> is_owner mw = true) as OWN.
    { intros E. rewrite <- E, N.eqb_refl in OK. cbn [andb] in OK. apply orb_false_iff in OK. destruct OK as [OK _]. now apply negb_false_iff in OK. }
    destruct (is_owner (p_given p0)) eqn:OG.
    + (* O in the grant: the new grant keeps it *)
      assert (is_owner g1 = true /\ mw1 = mw /\ oc = is_owner mw && negb (is_owner (p_want p0))) as [G1 [-> ->]].
      { injection CHK as <- <- <-. split; [|auto]. destruct (is_owner mw && negb (better_equal _ mw)); [rewrite is_owner_lor, OG; reflexivity|exact OG]. }
      rewrite MU. split; intros OC.
      * split; [intros W; split; [exact G1|]|exact OWN].
        rewrite W in OC. cbn [andb] in OC. apply negb_false_iff in OC. apply (HP OC).
      * apply andb_true_iff in OC. destruct OC as [W NW]. apply negb_true_iff in NW.
        split; [exact W|]. split; [exact G1|]. split; [intros E; destruct (HO E); congruence|].
        split; [apply N.eqb_neq; intros E; rewrite E in W; congruence|]. split; [reflexivity|exact NW].
    + (* no O in the grant: none can be asked, and the user is not the owner *)
      destruct (is_owner mw) eqn:OM; [discriminate|].
      assert (mw1 = mw /\ oc = false) as [-> ->] by (destruct (is_admin _ && is_admin mw); injection CHK as <- <- <-; auto).
      rewrite MU, OM. split; [intros _|discriminate]. split; [discriminate|].
      intros E. destruct (HO E). congruence.
Qed.

Lemma tus_finish_good u nb w1 g1 oldw oldg s3 c3 n3 :
  good3 s3 (c_set_users (aset u (p_set_modes w1 g1 (get_pud c3 u))) c3) ->
  good3 (h_st (fst (tus_finish u w1 g1 oldw oldg nb s3 c3 n3))) (h_ca (fst (tus_finish u w1 g1 oldw oldg nb s3 c3 n3))).
Proof.
  intros [G S]. unfold tus_finish. destruct (negb (is_joiner w1)).
  - destruct (evict_user _ u false 0) as [c5 o5] eqn:HE. cbn [fst h_st h_ca]. split.
    + eapply good_evict; [exact G|exact HE].
    + eapply sess_ok_evict; [exact S|exact HE].
  - destruct (negb (is_joiner g1)); cbn [fst h_st h_ca]; split; assumption.
Qed.

(* the ownership transfer: both rows and both entries are written, then topics.owner.  The pointwise
   agreement is checked user by user: the new owner u, the previous owner, everybody else (untouched) *)
Lemma good_transfer s c u p0 w1 g1 :
  good s c -> u <> 0%N -> alookup u (c_users c) = Some p0 -> u <> c_owner c ->
  is_owner w1 = true -> is_owner g1 = true ->
  let prev := c_owner c in
  let pp := get_pud c prev in
  let pw := N.ldiff (p_want pp) mO in let pg := N.ldiff (p_given pp) mO in
  let upd := mkUpd (if (w1 =? p_want p0)%N then None else Some w1) (if (g1 =? p_given p0)%N then None else Some g1) None None None in
  good (st_owner u (ad_subs_update (ad_subs_update s u upd) prev (mkUpd (Some pw) (Some pg) None None None)))
       (c_set_users (aset u (p_set_modes w1 g1 p0)) (c_set_owner u (c_set_users (aset prev (p_set_modes pw pg pp)) c))).
Proof.
  intros G NZ L NO W1 G1 prev pp pw pg upd.
  destruct (coh_owner _ _ (proj2 G)) as [po [Lo [Wo Go]]].
  assert (pp = po) as EP by (unfold pp, get_pud, prev; rewrite Lo; reflexivity).
  destruct (oinv_old _ _ (proj2 G)) as [NZo _]. fold prev in NZo, Lo, NO.
  eapply good_build; [exact G| | | | |].
  - eapply sframe_trans; [|apply sframe_owner]. eapply sframe_trans; [|apply sframe_subs_update]. apply sframe_subs_update.
  - repeat split.
  - unfold shape. cbn [subs st_owner]. apply shape_subs_update, shape_subs_update. eapply good_shape; exact G.
  - cbn [c_owner c_users c_set_users c_set_owner subs st_owner]. intros v.
    rewrite !alookup_aset, !find_sub_update, (proj2 (N.eqb_neq _ _) NZ), (proj2 (N.eqb_neq _ _) NZo). cbn [orb].
    pose proof (vrel_old _ _ v (proj2 G)) as V. fold prev in V.
    destruct (N.eqb_spec v u) as [E|NE].
    + rewrite E in *. destruct (N.eqb_spec u prev); [contradiction|].
      pose proof (coh_at _ _ u (proj2 G)) as A. rewrite L in A. destruct A as [r [F [D [A1 [A2 [A3 [A4 A5]]]]]]].
      rewrite F. cbn [option_map vrel apply_upd s_deleted s_want s_given upd u_want u_given u_read u_recv u_delid]. rewrite D. split.
      * f_equal. unfold core, corerow; cbn. rewrite A1, A2, A3, A4, A5.
        destruct (N.eqb_spec w1 (p_want p0)) as [->|]; destruct (N.eqb_spec g1 (p_given p0)) as [->|]; reflexivity.
      * intros _. split; [reflexivity|]. split; [|reflexivity].
        destruct (N.eqb_spec g1 (p_given p0)) as [E1|]; [rewrite A2, <- E1; exact G1|exact G1].
    + destruct (N.eqb_spec v prev) as [E|NP].
      * rewrite E in *. rewrite EP. 
        pose proof (coh_at _ _ prev (proj2 G)) as A. rewrite Lo in A. destruct A as [r [F [D [A1 [A2 [A3 [A4 A5]]]]]]].
        rewrite F. cbn [option_map vrel apply_upd s_deleted s_want s_given u_want u_given u_read u_recv u_delid]. rewrite D. split.
        -- f_equal. unfold core, corerow; cbn. rewrite A3, A4, A5. unfold pw, pg. rewrite EP. reflexivity.
        -- unfold pw. rewrite is_owner_ldiff_mO. discriminate.
      * unfold vrel in *. destruct (find_sub v (subs s)) as [r|]; [|exact V]. destruct V as [V1 V2]. split; [exact V1|].
        intros W. destruct (V2 W) as [_ [_ X]]. contradiction.
  - cbn [c_owner c_set_users c_set_owner]. split; [exact NZ|].
    cbn [subs st_owner]. rewrite !find_sub_update, (proj2 (N.eqb_neq _ _) NZ), (proj2 (N.eqb_neq _ _) NZo). cbn [orb]. rewrite N.eqb_refl.
    destruct (N.eqb_spec u prev); [contradiction|].
    pose proof (coh_at _ _ u (proj2 G)) as A. rewrite L in A. destruct A as [r [F [D [A1 _]]]].
    rewrite F. eexists. split; [reflexivity|]. cbn.
    destruct (N.eqb_spec w1 (p_want p0)) as [E1|]; [rewrite A1, <- E1; exact W1|exact W1].
Qed.

Lemma good_same s c u p p' :
  good s c -> alookup u (c_users c) = Some p -> core p' = core p -> good s (c_set_users (aset u p') c).
Proof.
  intros G L E.
  eapply good_build; [exact G|apply sframe_refl|apply cframe_users|eapply good_shape; exact G| |apply (oinv_old s c); apply G].
  cbn [c_owner c_users c_set_users]. intros v. rewrite alookup_aset.
  destruct (N.eqb_spec v u) as [->|NE]; [|apply vrel_old; apply G].
  pose proof (vrel_old _ _ u (proj2 G)) as V. rewrite L in V. unfold vrel in *. cbn [option_map] in *. rewrite E. exact V.
Qed.

Lemma tus_existing_good f s c n u mw nb p0 :
  good3 s c -> u <> 0%N -> alookup u (c_users c) = Some p0 ->
  ((forall k, fails f k = false) \/ ~ pending p0) ->
  good3 (h_st (fst (tus_exist f s c n u mw p0 nb))) (h_ca (fst (tus_exist f s c n u mw p0 nb))).
Proof.
  intros G3 NZ L NF. unfold tus_exist. cbv beta zeta.
  destruct (tus_chk c u mw (p_want p0) (p_given p0)) as [[[mw1 g1] oc]|] eqn:CHK; [|exact G3].
  destruct (tus_modes _ _ _ _ _ _ _ _ (proj1 G3) L CHK) as [M0 M1].
  set (w1 := tus_w1 c u mw1 g1 (p_want p0)) in *.
  assert (get_pud c u = p0) as GP by (unfold get_pud; rewrite L; reflexivity).
  destruct oc.
  - (* ownership transfer *)
    destruct (M1 eq_refl) as [W1 [G1 [NO [NE [PG PW]]]]]. clear M0 M1.
    destruct NF as [NF|NF]; [|exfalso; apply NF; split; assumption].
    rewrite NE. cbn [andb negb]. unfold call. rewrite !NF. cbn [negb].
    apply tus_finish_good.
    assert (get_pud (c_set_owner u (c_set_users (aset (c_owner c)
              (p_set_modes (N.ldiff (p_want (get_pud c (c_owner c))) mO) (N.ldiff (p_given (get_pud c (c_owner c))) mO) (get_pud c (c_owner c)))) c)) u = p0) as GP'.
    { unfold get_pud. cbn [c_users c_set_owner c_set_users]. rewrite alookup_aset.
      destruct (N.eqb_spec u (c_owner c)); [contradiction|]. rewrite L. reflexivity. }
    rewrite GP'. destruct G3 as [G S]. split.
    + pose proof (good_transfer s c u p0 w1 g1 G NZ L NO W1 G1) as GT. cbv zeta in GT. rewrite NE in GT. exact GT.
    + apply sess_ok_users_aset. apply (sess_ok_users_aset c (c_owner c)). exact S.
  - (* own modes only *)
    destruct (M0 eq_refl) as [U1 U2]. clear M0 M1.
    destruct (negb ((w1 =? p_want p0)%N && (g1 =? p_given p0)%N)) eqn:NU.
    + destruct (call f n) as [ok1 n1]. destruct (negb ok1); [exact G3|].
      apply tus_finish_good. rewrite GP. destruct G3 as [G S]. split; [|apply sess_ok_users_aset; exact S].
      eapply good_update; [exact G|exact NZ|exact L| |exact U1|exact U2].
      unfold core, core_after; cbn.
      destruct (N.eqb_spec w1 (p_want p0)) as [->|]; destruct (N.eqb_spec g1 (p_given p0)) as [->|]; reflexivity.
    + cbn [negb]. apply tus_finish_good. rewrite GP. destruct G3 as [G S]. split; [|apply sess_ok_users_aset; exact S].
      apply negb_false_iff, andb_true_iff in NU. destruct NU as [E1 E2]. apply N.eqb_eq in E1, E2.
      eapply good_same; [exact G|exact L|]. unfold core; cbn. rewrite E1, E2. reflexivity.
Qed.

Lemma tus_new_good f s c n u mw nb :
  good3 s c -> u <> 0%N -> alookup u (c_users c) = None ->
  good3 (h_st (fst (tus_new f s c n u mw nb))) (h_ca (fst (tus_new f s c n u mw nb))).
Proof.
  intros G3 NZ L. unfold tus_new.
  destruct (max_subs <=? Z.of_nat (length (c_users c))); [exact G3|].
  destruct (call f n) as [ok1 n1]. destruct (negb ok1); [exact G3|].
  set (given := if ((match ad_sub_get s u true with Some r => s_given r | None => ModeUnset end) =? ModeUnset)%N then c_auth c
                else match ad_sub_get s u true with Some r => s_given r | None => ModeUnset end).
  set (wantm := if (mw =? ModeUnset)%N then c_auth c else N.ldiff mw mO).
  destruct (negb (is_joiner given)); [exact G3|].
  assert (is_owner wantm = false) as WO.
  { unfold wantm. destruct (mw =? ModeUnset)%N; [apply (good_auth s c); apply G3|apply is_owner_ldiff_mO]. }
  assert (match ad_sub_get s u true with Some r => s_deleted r | None => true end = true) as NC.
  { unfold ad_sub_get. pose proof (coh_at _ _ u (proj2 (proj1 G3))) as A. rewrite L in A.
    destruct (find_sub u (subs s)) as [r|]; [|reflexivity]. rewrite andb_false_r. exact A. }
  rewrite NC. destruct (call f n1) as [ok2 n2]. destruct (negb ok2); [exact G3|].
  destruct G3 as [G S].
  pose proof (good_create s c u wantm given G NZ L WO) as GC.
  destruct (negb (is_joiner wantm)).
  - destruct (evict_user _ u false 0) as [c3 o3] eqn:HE. cbn [fst h_st h_ca]. split.
    + eapply good_evict; [exact GC|exact HE].
    + eapply sess_ok_evict; [|exact HE]. apply sess_ok_users_aset. exact S.
  - cbn [fst h_st h_ca]. split; [exact GC|apply sess_ok_users_aset; exact S].
Qed.

Lemma this_user_sub_good f s c n sid u want nb :
  good3 s c -> u <> 0%N ->
  ((forall k, fails f k = false) \/ match alookup u (c_users c) with Some p0 => ~ pending p0 | None => True end) ->
  good3 (h_st (fst (this_user_sub f s c n sid u want nb))) (h_ca (fst (this_user_sub f s c n sid u want nb))).
Proof.
  intros G3 NZ NF. rewrite tus_unfold.
  destruct (match want with [] => (ModeUnset, true) | _ => unmarshal_text ModeUnset want end) as [mw okw].
  destruct (negb okw); [exact G3|].
  destruct (alookup u (c_users c)) as [p0|] eqn:L.
  - apply tus_existing_good; assumption.
  - apply tus_new_good; assumption.
Qed.
