(* C10: lemmas about the presence model Sys/Pres.v; also the [c10_*_statement]s that Props/PropC10.v refutes and
   the witness histories of the recorded findings. *)
From Coq Require Import List NArith ZArith Bool.
From Tinode Require Import Sys.Pres.
Import ListNotations.
Open Scope N_scope.

(* ------------------------------------------------------------------ names, association lists *)

Lemma tname_eqb_eq x y : tname_eqb x y = true <-> x = y.
Proof.
  destruct x, y; simpl; try (split; [discriminate | intros H; discriminate H]).
  - rewrite N.eqb_eq. split; [intros ->; reflexivity | intros [= ->]; reflexivity].
  - rewrite andb_true_iff, !N.eqb_eq. split; [intros [-> ->]; reflexivity | intros [= -> ->]; auto].
  - rewrite N.eqb_eq. split; [intros ->; reflexivity | intros [= ->]; reflexivity].
Qed.

Lemma tname_eqb_refl x : tname_eqb x x = true.
Proof. apply tname_eqb_eq. reflexivity. Qed.

Section AssocLemmas.
  Context {K V : Type} (eqb : K -> K -> bool) (eqb_eq : forall a b, eqb a b = true <-> a = b).

  Lemma aget_in k v (l : list (K * V)) : aget eqb k l = Some v -> In (k, v) l.
  Proof.
    induction l as [|[k' v'] r IH]; simpl; [discriminate|].
    destruct (eqb k k') eqn:E.
    - intros [= ->]. apply eqb_eq in E. subst. now left.
    - intros H. right. auto.
  Qed.

  Lemma aget_forall (P : V -> Prop) k v (l : list (K * V)) :
    Forall (fun e => P (snd e)) l -> aget eqb k l = Some v -> P v.
  Proof.
    intros HF HG. apply aget_in in HG. rewrite Forall_forall in HF. apply (HF (k, v) HG).
  Qed.

  Lemma aset_forall (P : V -> Prop) k v (l : list (K * V)) :
    Forall (fun e => P (snd e)) l -> P v -> Forall (fun e => P (snd e)) (aset eqb k v l).
  Proof.
    intros HF HP. induction l as [|[k' v'] r IH]; simpl.
    - constructor; auto.
    - inversion HF; subst. destruct (eqb k k'); constructor; auto.
  Qed.

  Lemma adel_subset k (l : list (K * V)) e : In e (adel eqb k l) -> In e l.
  Proof.
    induction l as [|[k' v'] r IH]; simpl; auto. destruct (eqb k k'); simpl; intros H; auto. destruct H; auto.
  Qed.

  Lemma adel_forall (P : K * V -> Prop) k (l : list (K * V)) :
    Forall P l -> Forall P (adel eqb k l).
  Proof. rewrite !Forall_forall. intros H e He. apply H. eapply adel_subset, He. Qed.

  Lemma aget_aset k k' v (l : list (K * V)) :
    aget eqb k' (aset eqb k v l) = if eqb k' k then Some v else aget eqb k' l.
  Proof.
    induction l as [|[k2 v2] r IH]; simpl; [reflexivity|].
    destruct (eqb k k2) eqn:E; simpl.
    - apply eqb_eq in E. subst k2. now destruct (eqb k' k).
    - rewrite IH. destruct (eqb k' k) eqn:E'; [|reflexivity].
      apply eqb_eq in E'. subst k'. now rewrite E.
  Qed.

  Lemma aget_aset_same k v (l : list (K * V)) : aget eqb k (aset eqb k v l) = Some v.
  Proof. rewrite aget_aset. now rewrite (proj2 (eqb_eq k k) eq_refl). Qed.
End AssocLemmas.

Lemma get_top_set_net f s t : get_top (set_net f s) t = get_top s t.
Proof. reflexivity. Qed.
Lemma get_me_set_net f s u : get_me (set_net f s) u = get_me s u.
Proof. reflexivity. Qed.

Lemma get_top_put_top t x s t' : get_top (put_top t x s) t' = if tname_eqb t' t then Some x else get_top s t'.
Proof. apply (aget_aset tname_eqb tname_eqb_eq). Qed.

(* what a handler that ends in `send ms (put_top t x s)` leaves under t *)
Lemma get_top_sent ms t x s : get_top (send ms (put_top t x s)) t = Some x.
Proof. apply (aget_aset_same tname_eqb tname_eqb_eq). Qed.

Lemma get_me_put_me u m s u' : get_me (put_me u m s) u' = if u' =? u then Some m else get_me s u'.
Proof. apply (aget_aset N.eqb N.eqb_eq). Qed.

Lemma get_pud_set_pud u p x u' : get_pud (set_pud u p x) u' = if u' =? u then p else get_pud x u'.
Proof. unfold get_pud, set_pud. cbn [t_users]. rewrite (aget_aset N.eqb N.eqb_eq). now destruct (u' =? u). Qed.

Lemma cached_set_pud u p x u' :
  cached (set_pud u p x) u' = if u' =? u then negb (p_deleted p) else cached x u'.
Proof. unfold cached, set_pud. cbn [t_users]. rewrite (aget_aset N.eqb N.eqb_eq). now destruct (u' =? u). Qed.

Lemma in_set_pud u p x : In (u, p) (t_users (set_pud u p x)).
Proof. apply (aget_in N.eqb N.eqb_eq), (aget_aset_same N.eqb N.eqb_eq). Qed.

Lemma found_in t x u : found t x u = true -> In (u, get_pud x u) (t_users x).
Proof.
  unfold found, get_pud. destruct (aget N.eqb u (t_users x)) eqn:A; [|discriminate].
  intros _. now apply (aget_in N.eqb N.eqb_eq).
Qed.

Lemma resolve_not_me u r : r <> RMe -> match resolve u r with TMe _ => False | _ => True end.
Proof. destruct r; simpl; try congruence; intros _; [unfold p2p_name; destruct (u <? v)|]; exact I. Qed.

(* ------------------------------------------------------------------ c10_no_leak: the filters *)

Definition exempt (w : what) : bool := what_eqb w WAcs || what_eqb w WGone.

(* passesPresenceFilters lets a non-exempt notification through only with P *)
Lemma passes_filters_presencer mode w f :
  passes_presence_filters mode w f = true -> exempt w = false -> is_presencer mode = true.
Proof.
  unfold passes_presence_filters, exempt. intros H E.
  apply andb_true_iff in H as [H _]. apply andb_true_iff in H as [H _].
  apply orb_false_iff in E as [E1 E2]. rewrite E1, E2 in H.
  now rewrite !orb_false_r in H.
Qed.

(* presOfflineFilter: exemptions are exactly acs, gone, and upd for joiners *)
Lemma offline_filter_presencer mode w pf :
  pres_offline_filter mode w pf = true -> exempt w = false ->
  is_presencer mode = true \/ (w = WUpd /\ is_joiner mode = true).
Proof.
  unfold pres_offline_filter, exempt. intros H E.
  destruct w; simpl in *; try discriminate;
    try (apply andb_true_iff in H as [H _]; now left).
  apply orb_true_iff in H as [H | H]; [right; split; auto | left].
  apply andb_true_iff in H. tauto.
Qed.

(* what the session of a frame is entitled to, in the state `s` in which the delivering topic runs its handler *)
Definition entitled (s : state) (o : out) : Prop :=
  match o with
  | Frame sid user top src w =>
    match top with
    | TMe u => user = u /\ exists m, get_me s u = Some m /\ In sid (me_sess m)
    | t => exists x, get_top s t = Some x /\ In (sid, user) (t_sess x) /\
                     (is_info w = false -> exempt w = false -> is_presencer (p_mode (get_pud x user)) = true)
    end
  | _ => True
  end.

(* a frame which a p2p/group topic makes from a {note} of one of its own sessions: an {info} for an attached
   session of a user whose mode has R *)
Definition entitled_note (s : state) (o : out) : Prop :=
  match o with
  | Frame sid user top src w =>
    is_info w = true /\
    match top with
    | TMe _ => False
    | t => exists x, get_top s t = Some x /\ In (sid, user) (t_sess x) /\ is_reader (p_mode (get_pud x user)) = true
    end
  | _ => True
  end.

Definition no_frames (l : list out) : Prop :=
  Forall (fun o => match o with Frame _ _ _ _ _ => False | _ => True end) l.

Lemma no_frames_entitled s l : no_frames l -> Forall (entitled s) l.
Proof.
  unfold no_frames. rewrite !Forall_forall. intros H o Ho. specialize (H o Ho). destruct o; simpl; auto. contradiction.
Qed.

(* ---- broadcastToSessions: who gets a frame, and what it carries *)

(* peels the guards `if c then [] else ...` off H : In o (if c then [] else ...) *)
Ltac guards H :=
  repeat match type of H with In _ (if ?c then _ else _) => destruct c eqn:?; [destruct H|] end.

Lemma skip_neq (k : option N) sid : (match k with Some k => sid =? k | None => false end) = false -> k <> Some sid.
Proof. intros H E. rewrite E, N.eqb_refl in H. discriminate. Qed.

Lemma in_bcast_me s u m g w o : In o (bcast_me s u m g w) ->
  exists sid, In sid (me_sess m) /\ m_skipsid g <> Some sid /\ o = Frame sid u (TMe u) (m_src g) w.
Proof.
  unfold bcast_me. intros H. apply in_flat_map in H as [sid [Hin H]]. guards H.
  destruct H as [<- | []]. exists sid. auto using skip_neq.
Qed.

(* the {info} branch skips the sessions attached to SkipTopic and, for a key press, the sessions of its author *)
Lemma in_bcast_me_info s u m g o : In o (bcast_me_info s u m g) ->
  exists sid, In sid (me_sess m) /\ m_skipsid g <> Some sid /\
    (forall t, m_skiptopic g = Some t -> sess_on s sid t = false) /\
    (m_what g = WIKp -> m_from g <> Some u) /\
    o = Frame sid u (TMe u) (m_src g) (m_what g).
Proof.
  unfold bcast_me_info. intros H. apply in_flat_map in H as [sid [Hin H]]. guards H.
  destruct H as [<- | []]. exists sid. repeat split; auto using skip_neq.
  - intros t E. now rewrite E in *.
  - intros E F. rewrite E, F, N.eqb_refl in *. discriminate.
Qed.

Lemma in_bcast_top s t x g w o : In o (bcast_top s t x g w) ->
  exists sid uid, In (sid, uid) (t_sess x) /\ m_skipsid g <> Some sid /\
    passes_presence_filters (p_mode (get_pud x uid)) w (m_flt g) = true /\ o = Frame sid uid t (m_src g) w.
Proof.
  unfold bcast_top. intros H. apply in_flat_map in H as [[sid uid] [Hin H]]. guards H.
  destruct H as [<- | []]. exists sid, uid. repeat split; auto using skip_neq. now apply negb_false_iff.
Qed.

Lemma in_bcast_top_info_routed s t x g o : In o (bcast_top_info_routed s t x g) ->
  exists sid uid, In (sid, uid) (t_sess x) /\ m_skipsid g <> Some sid /\ o = Frame sid uid t (m_src g) (m_what g).
Proof.
  unfold bcast_top_info_routed. intros H. apply in_flat_map in H as [[sid uid] [Hin H]]. guards H.
  destruct H as [<- | []]. exists sid, uid. auto using skip_neq.
Qed.

(* the {info} a topic makes from a {note} of its own session: attached sessions of readers, never the author's *)
Lemma in_bcast_top_info t x from sid0 w o : In o (bcast_top_info t x from sid0 w) ->
  exists sid uid, In (sid, uid) (t_sess x) /\ sid <> sid0 /\ is_reader (p_mode (get_pud x uid)) = true /\
    o = Frame sid uid t (original t uid) w.
Proof.
  unfold bcast_top_info. intros H. apply in_flat_map in H as [[sid uid] [Hin H]]. guards H.
  destruct H as [<- | []]. exists sid, uid. repeat split; auto; [now apply N.eqb_neq | now apply negb_false_iff].
Qed.

(* procPresReq hands on the notification it was given, or nothing *)
Lemma proc_what isme self subs from w c wr w' :
  r_what (proc_pres_req isme self subs from w c wr) = Some w' -> w' = w.
Proof.
  unfold proc_pres_req. intros H.
  destruct w; simpl in H; try (injection H as <-; reflexivity);
    (destruct isme; [destruct (aget tname_eqb from subs) as [p|]; destruct c|]); simpl in H;
    repeat match type of H with
           | context[if ?x then _ else _] => destruct x; simpl in H
           end; try discriminate; injection H as <-; reflexivity.
Qed.

(* handleServerMsg on a p2p/group destination: the `t` branch of deliver_msg, for both kinds of name *)
Definition deliver_top (s : state) (g : msg) (t : tname) : state * list out :=
  match get_top s t with
  | None => (s, [])
  | Some x =>
    if negb (t_loaded x) then (s, []) else
    if is_info (m_what g) then (s, bcast_top_info_routed s t x g) else
    let r := proc_pres_req false t [] (m_src g) (m_what g) (m_cmd g) (m_reply g) in
    let s2 := match r_reply r with Some rp => send [mk_reply t (m_src g) rp] s | None => s end in
    (s2, match r_what r with Some w => if m_local g then bcast_top s2 t x g w else [] | None => [] end)
  end.

Lemma deliver_msg_top s g t :
  m_dst g = t -> (match t with TMe _ => False | _ => True end) -> deliver_msg s g = deliver_top s g t.
Proof. intros <- Ht. unfold deliver_msg, deliver_top. destruct (m_dst g); [contradiction|reflexivity..]. Qed.

(* handleServerMsg at the destination: every frame goes to a session attached to the destination that SkipSid does
   not name, and carries the Src and `what` of the routed message; a {pres} frame of a p2p/group topic has passed
   passesPresenceFilters with the recipient's mode *)
Lemma deliver_frame s g sid user top src w :
  In (Frame sid user top src w) (snd (deliver_msg s g)) ->
  top = m_dst g /\ src = m_src g /\ w = m_what g /\ m_skipsid g <> Some sid /\
  match top with
  | TMe u => user = u /\ exists m, get_me s u = Some m /\ In sid (me_sess m) /\
             (is_info w = true -> (forall t, m_skiptopic g = Some t -> sess_on s sid t = false) /\
                                  (w = WIKp -> m_from g <> Some u))
  | t => exists x, get_top s t = Some x /\ In (sid, user) (t_sess x) /\
                   (is_info w = false -> passes_presence_filters (p_mode (get_pud x user)) w (m_flt g) = true)
  end.
Proof.
  assert (TOP : forall t, In (Frame sid user top src w) (snd (deliver_top s g t)) ->
            top = t /\ src = m_src g /\ w = m_what g /\ m_skipsid g <> Some sid /\
            exists x, get_top s t = Some x /\ In (sid, user) (t_sess x) /\
                      (is_info w = false -> passes_presence_filters (p_mode (get_pud x user)) w (m_flt g) = true)).
  { intros t H. unfold deliver_top in H.
    destruct (get_top s t) as [x|]; [|destruct H]. destruct (negb (t_loaded x)); [destruct H|].
    destruct (is_info (m_what g)) eqn:II; cbn [snd] in H.
    - apply in_bcast_top_info_routed in H as (sid' & uid & Hin & K & [= -> -> -> -> ->]).
      repeat split; auto. exists x. repeat split; auto. intros E. rewrite II in E. discriminate.
    - destruct (r_what _) as [w0|] eqn:RW; [|destruct H]. destruct (m_local g); [|destruct H].
      apply proc_what in RW. subst w0.
      apply in_bcast_top in H as (sid' & uid & Hin & K & P & [= -> -> -> -> ->]).
      repeat split; auto. exists x. auto. }
  destruct (m_dst g) as [u|a b|gg] eqn:D.
  - unfold deliver_msg. rewrite D. intros H. destruct (get_me s u) as [m|] eqn:M; [|destruct H].
    destruct (is_info (m_what g)) eqn:II; cbn [snd] in H.
    + apply in_bcast_me_info in H as (sid' & Hin & K & ST & FR & [= -> -> -> -> ->]).
      repeat split; auto. exists m. auto.
    + destruct (r_what _) as [w0|] eqn:RW; [|destruct H]. destruct (m_local g); [|destruct H].
      apply proc_what in RW. subst w0.
      apply in_bcast_me in H as (sid' & Hin & K & [= -> -> -> -> ->]).
      repeat split; auto. exists m. split; [exact M|]. split; [exact Hin|]. intros E. rewrite II in E. discriminate.
  - rewrite (deliver_msg_top s g _ D I). intros H. destruct (TOP _ H) as (-> & R). auto.
  - rewrite (deliver_msg_top s g _ D I). intros H. destruct (TOP _ H) as (-> & R). auto.
Qed.

Lemma deliver_entitled s g : Forall (entitled s) (snd (deliver_msg s g)).
Proof.
  rewrite Forall_forall. intros [sid user top src w| | |] H; try exact I.
  apply deliver_frame in H as (_ & _ & _ & _ & H). unfold entitled.
  destruct top; [destruct H as (-> & m & G & Hin & _); eauto| |];
    destruct H as (x & G & Hin & P); exists x; eauto using passes_filters_presencer.
Qed.

(* the state a delivery leaves: only the contact table of a 'me' destination changes, and the status reply that
   procPresReq asks for may be put in flight *)
Lemma deliver_state s g : exists s1,
  (s1 = s \/ exists u m subs, get_me s u = Some m /\ s1 = put_me u (mkMe (me_marked m) (me_online m) (me_sess m) subs) s) /\
  (fst (deliver_msg s g) = s1 \/
   exists isme self subs rp, r_reply (proc_pres_req isme self subs (m_src g) (m_what g) (m_cmd g) (m_reply g)) = Some rp /\
     fst (deliver_msg s g) = send [mk_reply (m_dst g) (m_src g) rp] s1).
Proof.
  assert (TOP : forall t, fst (deliver_top s g t) = s \/
            exists isme self subs rp, r_reply (proc_pres_req isme self subs (m_src g) (m_what g) (m_cmd g) (m_reply g)) = Some rp /\
              fst (deliver_top s g t) = send [mk_reply t (m_src g) rp] s).
  { intros t. unfold deliver_top. destruct (get_top s t) as [x|]; [|auto].
    destruct (negb (t_loaded x)); [auto|]. destruct (is_info _); [auto|]. cbn [fst].
    destruct (r_reply _) eqn:RR; [right; eauto 6 | auto]. }
  destruct (m_dst g) as [u|a b|gg] eqn:D.
  - unfold deliver_msg. rewrite D. destruct (get_me s u) as [m|] eqn:M; [|eauto]. destruct (is_info _); [eauto|]. cbn [fst].
    eexists. split; [right; eauto|]. destruct (r_reply _) eqn:RR; [right; eauto 6 | auto].
  - exists s. rewrite (deliver_msg_top s g _ D I). auto.
  - exists s. rewrite (deliver_msg_top s g _ D I). auto.
Qed.

(* ---- {note}: either nothing happens, or the note is valid and is relayed *)

Definition note_valid (w : what) (seq : Z) (p : pud) : bool :=
  match w with
  | WIKp => (seq =? 0)%Z && is_writer (p_mode p)
  | WIRead => (0 <? seq)%Z && is_reader (p_mode p) && (p_read p <? seq)%Z
  | WIRecv => (0 <? seq)%Z && is_reader (p_mode p) && (p_recv p <? seq)%Z
  | _ => false
  end.

(* the sender's entry after a valid note *)
Definition note_pud (w : what) (seq : Z) (p : pud) : pud :=
  match w with
  | WIRead => p_set_marks seq (if (p_recv p <? seq)%Z then seq else p_recv p) seq (p_drecv p) p
  | WIRecv => let rc := if (seq <? p_read p)%Z then p_read p else seq in p_set_marks (p_read p) rc (p_dread p) rc p
  | _ => p
  end.
Definition note_top (w : what) (seq : Z) (u : N) (x : topic) : topic :=
  match w with WIKp => x | _ => set_pud u (note_pud w seq (get_pud x u)) x end.

(* presPubMessageCount: the {pres read|recv} for the sender's sessions that are not attached to the topic *)
Definition note_pres (t : tname) (u sid : N) (w : what) (mode : N) : list msg :=
  match w with
  | WIRead => pres_single_offline t u (Some mode) WRead CNo (Some sid) true
  | WIRecv => pres_single_offline t u (Some mode) WRecv CNo (Some sid) true
  | _ => []
  end.

(* what a valid note does with the topic x: the marks move, the {pres} / {info} go out, the attached readers are told *)
Definition note_effect (s : state) (sid u : N) (t : tname) (w : what) (seq : Z) (x : topic) : state * list out :=
  (send (note_pres t u sid w (p_mode (get_pud x u)) ++ info_subs_offline t (note_top w seq u x) u w (Some sid))
        (put_top t (note_top w seq u x) s),
   bcast_top_info t (note_top w seq u x) u sid w).

Lemma note_op_cases s sid u t w seq :
  note_op s sid u t w seq = (s, []) \/ note_op s sid u t w seq = (s, [Skipped]) \/
  exists x, get_top s t = Some x /\
    sess_on s sid t || what_eqb w WIRecv && t_loaded x = true /\
    found t x u = true /\ p_deleted (get_pud x u) = false /\ (seq <=? t_lastid x)%Z = true /\
    note_valid w seq (get_pud x u) = true /\
    note_op s sid u t w seq = note_effect s sid u t w seq x.
Proof.
  remember (note_op s sid u t w seq) as r eqn:E. unfold note_op in E. cbv zeta in E.
  destruct (get_top s t) as [x|].
  2:{ destruct (negb (sess_on s sid t) && negb (what_eqb w WIRecv)); [auto|].
      match type of E with _ = if ?c then _ else _ => destruct c; auto end. }
  destruct (found t x u) eqn:F; [destruct (p_deleted (get_pud x u)) eqn:D|].
  2:{ (* a live entry: the result is the one stated, whatever w; it is set aside while the guards are split *)
    match type of E with context [(send ?ms ?s1, ?fr)] => change (send ms s1, fr) with (note_effect s sid u t w seq x) in E end.
    remember (note_effect s sid u t w seq x) as R eqn:ER.
    destruct (negb (sess_on s sid t) && negb (what_eqb w WIRecv)) eqn:A; [auto|].
    match type of E with _ = if ?c then _ else _ => destruct c eqn:B; [auto|] end.
    destruct (negb (sess_on s sid t) && negb (t_loaded x)) eqn:C; [auto|].
    destruct (t_lastid x <? seq)%Z eqn:L; [auto|].
    match type of E with _ = if ?c then _ else _ => destruct c eqn:M; [auto|] end.
    match type of E with _ = if ?c then _ else _ => destruct c eqn:S; [auto|] end.
    right; right. exists x. split; [reflexivity|].
    split; [clear E ER; destruct (sess_on s sid t), (what_eqb w WIRecv), (t_loaded x); auto|].
    split; [exact F|]. split; [exact D|]. split; [rewrite Z.leb_antisym, L; reflexivity|].
    split; [|congruence].
    destruct w; try discriminate B; apply negb_false_iff in M; cbn [note_valid]; rewrite M.
    - rewrite !Z.ltb_antisym, B, S. reflexivity.
    - rewrite !Z.ltb_antisym, B, S. reflexivity.
    - apply negb_false_iff in B. rewrite B. reflexivity. }
  (* without an entry, or with a deleted one, the mode has no bit and its guard stops the note *)
  all: match type of E with context [(send ?ms ?s1, ?fr)] => set (R := (send ms s1, fr)) in E; clearbody R end.
  all: destruct (negb (sess_on s sid t) && negb (what_eqb w WIRecv)); [auto|].
  all: match type of E with _ = if ?c then _ else _ => destruct c; [auto|] end.
  all: destruct (negb (sess_on s sid t) && negb (t_loaded x)); [auto|].
  all: destruct (t_lastid x <? seq)%Z; [auto|]; destruct w; auto.
Qed.

Lemma note_valid_info w seq p : note_valid w seq p = true -> is_info w = true.
Proof. destruct w; try discriminate; reflexivity. Qed.

Lemma note_top_sess w seq u x : t_sess (note_top w seq u x) = t_sess x.
Proof. destruct w; reflexivity. Qed.

(* a note moves marks, nothing else of any entry *)
Lemma note_top_pud w seq u x u' :
  p_mode (get_pud (note_top w seq u x) u') = p_mode (get_pud x u') /\
  p_online (get_pud (note_top w seq u x) u') = p_online (get_pud x u') /\
  p_deleted (get_pud (note_top w seq u x) u') = p_deleted (get_pud x u').
Proof.
  destruct w; cbn [note_top]; auto; rewrite get_pud_set_pud; destruct (u' =? u) eqn:E; auto;
    apply N.eqb_eq in E; subst u'; auto.
Qed.

(* the frames of a {note}: attached sessions of readers, evaluated in the state right after the note *)
Lemma note_entitled s sid u t w seq :
  (match t with TMe _ => False | _ => True end) ->
  Forall (entitled_note (fst (note_op s sid u t w seq))) (snd (note_op s sid u t w seq)).
Proof.
  intros Ht. destruct (note_op_cases s sid u t w seq) as [-> | [-> | (x & _ & _ & _ & _ & _ & V & ->)]];
    [repeat constructor..|].
  unfold note_effect. cbn [fst snd]. rewrite Forall_forall. intros o Ho.
  apply in_bcast_top_info in Ho as (sid' & uid & Hin & _ & R & ->).
  split; [exact (note_valid_info _ _ _ V)|].
  destruct t; [contradiction| |]; eauto using get_top_sent.
Qed.

(* ---- only Deliver and Note hand frames to sessions *)

(* splits on the tests of a handler, outermost first, until its result is a pair *)
Ltac brk :=
  repeat match goal with
         | |- context [fst (match ?x with _ => _ end)] => destruct x eqn:?
         | |- context [fst (if ?x then _ else _)] => destruct x eqn:?
         | |- context [fst (let '(_, _) := ?x in _)] => destruct x eqn:?
         | |- context [snd (match ?x with _ => _ end)] => destruct x eqn:?
         | |- context [snd (if ?x then _ else _)] => destruct x eqn:?
         end.

Ltac nf := brk; simpl; repeat constructor.

Lemma nf_att_me s sid u b : no_frames (snd (att_me s sid u b)).
Proof. unfold no_frames, att_me. nf. Qed.
Lemma nf_att_p2p s sid u v b : no_frames (snd (att_p2p s sid u v b)).
Proof. unfold no_frames, att_p2p. nf. Qed.
Lemma nf_att_grp s sid u g b : no_frames (snd (att_grp s sid u g b)).
Proof. unfold no_frames, att_grp. nf. Qed.
Lemma nf_want rep s sid u t m : no_frames (snd (want_op_gen rep s sid u t m)).
Proof. unfold no_frames, want_op_gen. nf. Qed.
Lemma nf_given rep s sid u t v m : no_frames (snd (given_op_gen rep s sid u t v m)).
Proof. unfold no_frames, given_op_gen. nf. Qed.
Lemma nf_evict s sid u t v : no_frames (snd (evict_op s sid u t v)).
Proof. unfold no_frames, evict_op. nf. Qed.
Lemma nf_unsub s sid u t : no_frames (snd (unsub_op s sid u t)).
Proof. unfold no_frames, unsub_op. nf. Qed.
Lemma nf_pub s sid u t : no_frames (snd (pub_op s sid u t)).
Proof. unfold no_frames, pub_op. nf. Qed.
Lemma nf_delmsg s sid u t h : no_frames (snd (delmsg_op s sid u t h)).
Proof. unfold no_frames, delmsg_op. nf. Qed.

Lemma p_mode_set_marks a b c d p : p_mode (p_set_marks a b c d p) = p_mode p.
Proof. reflexivity. Qed.

(* the notifications a p2p/group topic addresses to its subscribers' 'me' topics are filtered at the source *)
Lemma pres_subs_offline_shape z t x w c fsrc ftgt sk oo g :
  In g (pres_subs_offline z t x w c fsrc ftgt sk oo) ->
  exists uid p, m_dst g = TMe uid /\ In (uid, p) (t_users x) /\ p_deleted p = false /\ m_what g = w /\
    (exempt w = false -> is_presencer (p_mode p) = true \/ (w = WUpd /\ is_joiner (p_mode p) = true)) /\
    m_src g = original t uid /\ m_sender g = t /\ m_zombie g = z /\ m_skipsid g = sk.
Proof.
  unfold pres_subs_offline. intros H. apply in_flat_map in H as [[uid p] [Hin H]].
  destruct (p_deleted p) eqn:D; simpl in H; [contradiction|].
  destruct (pres_offline_filter (p_mode p) w (Some fsrc)) eqn:F; simpl in H; [|contradiction].
  destruct H as [<- | []]. exists uid, p. simpl. repeat split; auto.
  intros E. eapply offline_filter_presencer; eauto.
Qed.

Lemma pres_single_offline_shape t uid mode w c sk oo g :
  In g (pres_single_offline t uid mode w c sk oo) ->
  exists m, mode = Some m /\ m_dst g = TMe uid /\ m_what g = w /\
    (exempt w = false -> is_presencer m = true \/ (w = WUpd /\ is_joiner m = true)) /\
    m_src g = original t uid /\ m_sender g = t /\ m_zombie g = false /\ m_skipsid g = sk.
Proof.
  unfold pres_single_offline. destruct mode as [m|]; [|intros []].
  destruct (pres_offline_filter m w None) eqn:F; [|intros []].
  intros [<- | []]. exists m. simpl. repeat split; auto. intros E. eapply offline_filter_presencer; eauto.
Qed.

Lemma info_subs_offline_shape t x from w sk g :
  In g (info_subs_offline t x from w sk) ->
  exists uid p, m_dst g = TMe uid /\ In (uid, p) (t_users x) /\ p_deleted p = false /\ m_what g = w /\
    is_presencer (p_mode p) = true /\ is_reader (p_mode p) = true /\
    m_src g = original t uid /\ m_sender g = t /\ m_zombie g = false /\
    m_skipsid g = sk /\ m_from g = Some from /\ m_skiptopic g = Some t.
Proof.
  unfold info_subs_offline. intros H. apply in_flat_map in H as [[uid p] [Hin H]].
  destruct (p_deleted p) eqn:D; simpl in H; [contradiction|].
  destruct (is_presencer (p_mode p)) eqn:P; simpl in H; [|contradiction].
  destruct (is_reader (p_mode p)) eqn:R; simpl in H; [|contradiction].
  destruct H as [<- | []]. exists uid, p. simpl. repeat split; auto.
Qed.

(* on a 'me' topic an on/off of a contact reaches the sessions only through an enabled entry
   ("on+rem", which no code path emits, is the one combination that bypasses the flag) *)
Lemma proc_me_gate self subs from w c wr w' :
  r_what (proc_pres_req true self subs from w c wr) = Some w' ->
  (w = WOn \/ w = WOff) ->
  match aget tname_eqb from subs with
  | Some p => ps_en p = true \/ c = CEn \/ (c = CRem /\ w = WOn)
  | None => c = CEn
  end.
Proof.
  intros H Hw. unfold proc_pres_req in H.
  destruct Hw as [-> | ->]; simpl in H;
    destruct (aget tname_eqb from subs) as [p|] eqn:G; destruct c; simpl in H; auto; try discriminate;
    try (destruct (ps_en p) eqn:E; simpl in H; auto; try discriminate);
    repeat match type of H with context[if ?x then _ else _] => destruct x; simpl in H end; try discriminate; auto.
Qed.

(* ------------------------------------------------------------------ statements *)

Definition fg_count_me (s : state) (m : metop) : Z :=
  Z.of_nat (length (filter (fun sid => negb (sess_bkg s sid)) (me_sess m))).
Definition fg_count_top (s : state) (x : topic) (u : N) : Z :=
  Z.of_nat (length (filter (fun e => (snd e =? u) && negb (sess_bkg s (fst e))) (t_sess x))).

(* online(u, t) = number of attached foreground sessions of u in t (hence >= 0), in 'me', p2p and group topics *)
Definition online_ok (s : state) : Prop :=
  (forall u m, get_me s u = Some m -> me_online m = fg_count_me s m) /\
  (forall t x u, get_top s t = Some x -> p_online (get_pud x u) = fg_count_top s x u).

Definition c10_online_count_statement : Prop := forall s, reach s -> online_ok s.

(* histories without background sessions *)
Definition op_fg (o : op) : Prop :=
  match o with New _ _ _ b => b = false | Att _ _ _ b => b = false | _ => True end.
Definition fg_only (h : list op) : Prop := Forall op_fg h.

(* attached sessions belong to current (non-deleted) subscribers *)
Definition members_ok (s : state) : Prop :=
  forall t x sid uid, get_top s t = Some x -> In (sid, uid) (t_sess x) -> cached x uid = true.

(* quiescence: nothing in flight, no pending fan-out, every idle topic unloaded *)
Definition quiescent (s : state) : Prop :=
  s_net s = [] /\ s_zomb s = [] /\ forall t, idle s t = false.

Definition has_P (s : state) (t : tname) (u : N) : Prop :=
  exists x p, get_top s t = Some x /\ aget N.eqb u (t_users x) = Some p /\ p_deleted p = false /\
              is_presencer (p_mode p) = true.
Definition told_on (m : metop) (c : tname) : bool :=
  match aget tname_eqb c (me_subs m) with Some p => ps_on p | None => false end.
Definition me_fg (s : state) (u : N) : Prop :=
  exists m sid, get_me s u = Some m /\ In sid (me_sess m) /\ sess_bkg s sid = false.
Definition grp_attached (s : state) (g : N) : Prop :=
  exists x e, get_top s (TGrp g) = Some x /\ t_loaded x = true /\ In e (t_sess x).

Definition converged (s : state) : Prop :=
  (forall u v m, u <> v -> has_P s (p2p_name u v) u -> has_P s (p2p_name u v) v -> get_me s v = Some m ->
                 (told_on m (TMe u) = true <-> me_fg s u)) /\
  (forall g u m, has_P s (TGrp g) u -> get_me s u = Some m ->
                 (told_on m (TGrp g) = true <-> grp_attached s g)).

Definition reach_gen (rep : bool) (s : state) : Prop := exists h, s = fst (run_gen rep init h).
Definition converges_statement_gen (rep : bool) : Prop := forall s, reach_gen rep s -> quiescent s -> converged s.
Definition c10_converges_statement : Prop := forall s, reach s -> quiescent s -> converged s.
(* the same statement about the code BEFORE the repair findings/C10_p2p_unmute.diff *)
Definition c10_converges_statement_unrepaired : Prop := converges_statement_gen false.

(* executable quiescence test *)
Definition quiescent_b (s : state) : bool :=
  match s_net s, s_zomb s with
  | [], [] => forallb (fun t => negb (idle s t)) (map (fun e => TMe (fst e)) (s_me s) ++ map fst (s_top s))
  | _, _ => false
  end.

Lemma quiescent_b_sound s : quiescent_b s = true -> quiescent s.
Proof.
  unfold quiescent_b, quiescent. destruct (s_net s); [|discriminate]. destruct (s_zomb s); [|discriminate].
  intros H. repeat split. intros t. destruct (idle s t) eqn:I; [|reflexivity]. exfalso.
  rewrite forallb_forall in H.
  assert (Hin : In t (map (fun e => TMe (fst e)) (s_me s) ++ map fst (s_top s))).
  { apply in_or_app. unfold idle in I. destruct t.
    - left. unfold get_me in I. destruct (aget N.eqb u (s_me s)) eqn:G; [|discriminate].
      apply (aget_in N.eqb N.eqb_eq) in G. apply in_map_iff. exists (u, m). auto.
    - right. unfold get_top in I. destruct (aget tname_eqb (TP2P a b) (s_top s)) eqn:G; [|discriminate].
      apply (aget_in tname_eqb tname_eqb_eq) in G. apply in_map_iff. exists (TP2P a b, t). auto.
    - right. unfold get_top in I. destruct (aget tname_eqb (TGrp g) (s_top s)) eqn:G; [|discriminate].
      apply (aget_in tname_eqb tname_eqb_eq) in G. apply in_map_iff. exists (TGrp g, t). auto. }
  specialize (H t Hin). rewrite I in H. discriminate.
Qed.

(* ------------------------------------------------------------------ refutations (concrete histories) *)

Definition D := Deliver 0.

(* FINDING p2p-unmute: user 1 mutes the p2p topic with user 2 and un-mutes it again; both sides hold P,
   user 2 is online, yet user 1's contact entry for user 2 stays disabled/offline. *)
Definition h_unmute : list op :=
  [Att 1 1 RMe false; Att 2 2 RMe false; Att 1 1 (RP2P 2) false; D; D; D; D;
   Want 1 (RP2P 2) 23; D; Want 1 (RP2P 2) 31].

(* FINDING unload race: the "off" fan-out of an unregistered 'me' instance (handleTopicTimeout after line 495)
   overtakes the "on" of the re-created 'me' topic of the same user. *)
Definition h_race : list op :=
  [Att 1 1 RMe false; Att 2 2 RMe false; Att 1 1 (RP2P 2) false; D; D; D; D;
   Det 2 RMe; UnloadHub (TMe 2); Att 2 2 RMe false; D; D; UnloadOff (TMe 2); D].

(* FINDING background disconnect: cleanUp clears Session.background before unsubAll, so the leave of a
   background session decrements a counter it never incremented. *)
Definition h_bkg : list op := [Att 1 1 RMe false; Att 2 1 RMe true; Disc 2].

Lemma has_P_intro s t u x p :
  get_top s t = Some x -> aget N.eqb u (t_users x) = Some p -> p_deleted p = false ->
  is_presencer (p_mode p) = true -> has_P s t u.
Proof. intros. exists x, p. auto. Qed.

Lemma converges_refuted_by (rep : bool) (h : list op) (u v : N) :
  quiescent_b (fst (run_gen rep init h)) = true ->
  u <> v ->
  (exists x p q m sid,
      get_top (fst (run_gen rep init h)) (p2p_name u v) = Some x /\
      aget N.eqb u (t_users x) = Some p /\ p_deleted p = false /\ is_presencer (p_mode p) = true /\
      aget N.eqb v (t_users x) = Some q /\ p_deleted q = false /\ is_presencer (p_mode q) = true /\
      get_me (fst (run_gen rep init h)) v = Some m /\ told_on m (TMe u) = false /\
      (exists mu, get_me (fst (run_gen rep init h)) u = Some mu /\ In sid (me_sess mu)) /\
      sess_bkg (fst (run_gen rep init h)) sid = false) ->
  ~ converges_statement_gen rep.
Proof.
  intros Q NE (x & p & q & m & sid & Hx & Hp & Dp & Pp & Hq & Dq & Pq & Hm & Told & (mu & Hmu & Hin) & Hb) ST.
  destruct (ST (fst (run_gen rep init h))) as [C _].
  - exists h. reflexivity.
  - now apply quiescent_b_sound.
  - specialize (C u v m NE (has_P_intro _ _ _ _ _ Hx Hp Dp Pp) (has_P_intro _ _ _ _ _ Hx Hq Dq Pq) Hm).
    destruct C as [_ C]. rewrite Told in C. assert (F : false = true) by (apply C; exists mu, sid; auto). discriminate.
Qed.

(* FINDING pres-to-banned-user: an admin removes J (ban) but leaves P in `given`: the user is evicted from the
   topic, yet "msg"/"on"/"off" notifications keep flowing to the user's 'me' sessions: presOfflineFilter looks
   at P only. *)
Definition h_banned : list op :=
  [Att 1 1 RMe false; Att 2 2 RMe false; New 1 1 1 false; D; D; Given 1 (RGrp 1) 2 47; D; D; D; D;
   Given 1 (RGrp 1) 2 46; D; D; Pub 1 (RGrp 1); D; D].

(* the statement for all histories: a frame is entitled in the state in which its topic handled the notification *)
Definition entitled_at (s : state) (o : op) (f : out) : Prop :=
  match o with
  | Deliver i => match take_nth i [] (s_net s) with
                 | Some (g, rest) => entitled (set_net (fun _ => rest) s) f
                 | None => match f with Frame _ _ _ _ _ => False | _ => True end
                 end
  | Note _ _ _ _ _ => entitled_note (fst (step s o)) f
  | _ => match f with Frame _ _ _ _ _ => False | _ => True end
  end.

Lemma no_leak_all s o : Forall (entitled_at s o) (snd (step s o)).
Proof.
  unfold entitled_at, step. destruct o; simpl.
  - nf.
  - destruct (open_sess s sid u bkg) as [[s1 b]|]; [|nf]. destruct r; [apply nf_att_me|apply nf_att_p2p|apply nf_att_grp].
  - nf.
  - destruct (sess_user s sid); [apply nf_unsub|nf].
  - nf.
  - nf.
  - destruct (sess_user s sid); [|nf]. destruct r; [nf|apply nf_want|apply nf_want].
  - destruct (sess_user s sid); [|nf]. destruct r; [nf| |]; (destruct (n =? v); [apply nf_want|apply nf_given]).
  - destruct (sess_user s sid); [|nf]. destruct r; [nf|apply nf_evict|apply nf_evict].
  - destruct (sess_user s sid); [|nf]. destruct r; [nf|apply nf_pub|apply nf_pub].
  - match goal with |- Forall _ (snd (if ?c then _ else _)) => destruct c; [simpl; repeat constructor|] end.
    destruct r; [simpl; repeat constructor| |]; apply note_entitled; apply resolve_not_me; discriminate.
  - destruct (sess_user s sid); [|nf]. destruct r; [nf|apply nf_delmsg|apply nf_delmsg].
  - nf.
  - nf.
  - nf.
  - destruct (take_nth i [] (s_net s)) as [[g rest]|]; [apply deliver_entitled|nf].
Qed.

(* ------------------------------------------------------------------ attached sessions belong to current subscribers *)

Definition mem_ok (x : topic) : Prop := forall e, In e (t_sess x) -> cached x (snd e) = true.
Definition tops_ok (s : state) : Prop := Forall (fun e => mem_ok (snd e)) (s_top s).

Lemma mem_set_pud u p x : mem_ok x -> (cached x u = true -> p_deleted p = false) -> mem_ok (set_pud u p x).
Proof.
  intros H Hp e He. rewrite cached_set_pud. specialize (H e He).
  destruct (snd e =? u) eqn:E; auto. apply N.eqb_eq in E. rewrite E in H. rewrite (Hp H). reflexivity.
Qed.

Lemma mem_set_tsess l x : mem_ok x -> (forall e, In e l -> In e (t_sess x)) -> mem_ok (set_tsess l x).
Proof. intros H Hl e He. apply (H e). apply Hl. exact He. Qed.

Lemma mem_attach sid u x : mem_ok x -> cached x u = true -> mem_ok (set_tsess (t_sess x ++ [(sid, u)]) x).
Proof.
  intros H Hc e He. simpl in He. apply in_app_or in He as [He | [<- | []]]; [apply (H e He) | exact Hc].
Qed.

Lemma mem_set_tmarked b x : mem_ok x -> mem_ok (set_tmarked b x).
Proof. intros H e He. apply (H e He). Qed.

Lemma mem_evict x uid unsub : mem_ok x -> mem_ok (fst (evict_user x uid unsub)).
Proof.
  intros H. unfold evict_user. destruct (cached x uid) eqn:C; simpl; intros e He; simpl in He;
    apply filter_In in He as [He Hne]; apply negb_true_iff in Hne.
  - change (cached (set_pud uid (p_set_deleted 0 unsub (get_pud x uid)) x) (snd e) = true).
    rewrite cached_set_pud, Hne. apply (H e He).
  - apply (H e He).
Qed.

Lemma mem_unload x : mem_ok (unload_top x).
Proof. intros e []. Qed.
Lemma mem_load x : mem_ok (load_top x).
Proof. intros e []. Qed.

Lemma tops_get s t x : tops_ok s -> get_top s t = Some x -> mem_ok x.
Proof. intros H G. exact (aget_forall tname_eqb tname_eqb_eq mem_ok t x _ H G). Qed.

Lemma tops_put s t x : tops_ok s -> mem_ok x -> tops_ok (put_top t x s).
Proof. intros H Hx. unfold tops_ok, put_top. simpl. now apply aset_forall. Qed.

Lemma sub_notif_grp_mem t x u sid : mem_ok x -> mem_ok (fst (sub_notif_grp t x u sid)).
Proof.
  intros H. unfold sub_notif_grp. destruct (negb (t_marked x)); simpl; [now apply mem_set_tmarked|].
  destruct (p_online (get_pud x u) =? 1)%Z; exact H.
Qed.

Lemma cached_get_pud_deleted x u : cached x u = true -> p_deleted (get_pud x u) = false.
Proof.
  unfold cached, get_pud. destruct (aget N.eqb u (t_users x)); [|discriminate]. now intros ->%negb_true_iff.
Qed.

Lemma tops_send ms s : tops_ok s -> tops_ok (send ms s).
Proof. intros H; exact H. Qed.

Lemma notif_pair (b : bool) t x1 u sid x2 (ms : list msg) :
  (if b then (x1, []) else sub_notif_grp t x1 u sid) = (x2, ms) -> mem_ok x1 -> mem_ok x2.
Proof.
  destruct b; intros E H.
  - now inversion E; subst.
  - replace x2 with (fst (sub_notif_grp t x1 u sid)) by now rewrite E. now apply sub_notif_grp_mem.
Qed.

Lemma mem_loaded_or x0 : mem_ok x0 -> mem_ok (if t_loaded x0 then x0 else load_top x0).
Proof. intros H. destruct (t_loaded x0); [exact H | apply mem_load]. Qed.

Lemma mem_attach_set sid u p x :
  mem_ok x -> p_deleted p = false -> mem_ok (set_pud u p (set_tsess (t_sess x ++ [(sid, u)]) x)).
Proof.
  intros H Hp e He. simpl in He.
  change (cached (set_pud u p x) (snd e) = true). rewrite cached_set_pud, Hp. simpl.
  apply in_app_or in He as [He | [<- | []]].
  - destruct (snd e =? u); auto.
  - simpl. now rewrite N.eqb_refl.
Qed.

Lemma tops_att_grp s sid u g b : tops_ok s -> tops_ok (fst (att_grp s sid u g b)).
Proof.
  intros H. unfold att_grp. destruct (get_top s (TGrp g)) as [x0|] eqn:G; [|exact H].
  pose proof (mem_loaded_or x0 (tops_get _ _ _ H G)) as Hx.
  set (x := if t_loaded x0 then x0 else load_top x0) in *. clearbody x.
  brk; simpl; auto; try (apply tops_send); apply tops_put; auto;
    (eapply notif_pair; [eassumption|]); apply mem_attach_set; auto.
  simpl. now apply cached_get_pud_deleted.
Qed.

Lemma tops_att_p2p s sid u v b : tops_ok s -> tops_ok (fst (att_p2p s sid u v b)).
Proof.
  intros H. unfold att_p2p. destruct (u =? v); [exact H|].
  destruct (get_top s (p2p_name u v)) as [x0|] eqn:G.
  - pose proof (mem_loaded_or x0 (tops_get _ _ _ H G)) as Hx.
    set (x := if t_loaded x0 then x0 else load_top x0) in *. clearbody x.
    brk; simpl; auto; try apply tops_send; apply tops_put; auto; apply mem_attach_set; auto.
    simpl. apply cached_get_pud_deleted. now apply negb_false_iff.
  - simpl. apply tops_send, tops_put; auto. intros e [<- | []]. simpl. unfold cached. simpl. now rewrite N.eqb_refl.
Qed.

Lemma tops_att_me s sid u b : tops_ok s -> tops_ok (fst (att_me s sid u b)).
Proof. intros H. unfold att_me. brk; exact H. Qed.

Lemma mem_modes x u w g : mem_ok x -> mem_ok (set_pud u (p_set_modes w g (get_pud x u)) x).
Proof. intros H. apply mem_set_pud; auto. simpl. apply cached_get_pud_deleted. Qed.

Lemma tops_want rep s sid u t m : tops_ok s -> tops_ok (fst (want_op_gen rep s sid u t m)).
Proof.
  intros H. unfold want_op_gen. destruct (get_top s t) as [x|] eqn:G; [|exact H].
  pose proof (tops_get _ _ _ H G) as Hx.
  brk; simpl; auto. apply tops_send, tops_put; auto. now apply mem_modes.
Qed.

Lemma mem_if_evict (c : bool) x v : mem_ok x -> mem_ok (if c then x else fst (evict_user x v false)).
Proof. intros H. destruct c; auto. now apply mem_evict. Qed.

Lemma tops_given rep s sid u t v m : tops_ok s -> tops_ok (fst (given_op_gen rep s sid u t v m)).
Proof.
  intros H. unfold given_op_gen. destruct (get_top s t) as [x|] eqn:G; [|exact H].
  pose proof (tops_get _ _ _ H G) as Hx.
  brk; simpl; auto; apply tops_send, tops_put; auto; apply mem_if_evict.
  - now apply mem_modes.
  - apply mem_set_pud; auto.
Qed.

Lemma tops_evict s sid u t v : tops_ok s -> tops_ok (fst (evict_op s sid u t v)).
Proof.
  intros H. unfold evict_op. destruct (get_top s t) as [x|] eqn:G; [|exact H].
  pose proof (tops_get _ _ _ H G) as Hx.
  brk; simpl; auto. apply tops_send, tops_put; auto. now apply mem_evict.
Qed.

Lemma tops_unsub s sid u t : tops_ok s -> tops_ok (fst (unsub_op s sid u t)).
Proof.
  intros H. unfold unsub_op. destruct (get_top s t) as [x|] eqn:G; [|exact H].
  pose proof (tops_get _ _ _ H G) as Hx.
  brk; simpl; auto; apply tops_send;
    first [apply tops_put; auto; now apply mem_evict | unfold tops_ok; simpl; now apply adel_forall].
Qed.

Lemma mem_set_lastid z x : mem_ok x -> mem_ok (set_lastid z x).
Proof. intros H e He. apply (H e He). Qed.

Lemma mem_marks x u a b c d : mem_ok x -> mem_ok (set_pud u (p_set_marks a b c d (get_pud x u)) x).
Proof. intros H. apply mem_set_pud; auto. simpl. apply cached_get_pud_deleted. Qed.

Lemma tops_pub s sid u t : tops_ok s -> tops_ok (fst (pub_op s sid u t)).
Proof.
  intros H. unfold pub_op. destruct (get_top s t) as [x|] eqn:G; [|exact H].
  pose proof (tops_get _ _ _ H G) as Hx.
  brk; simpl; auto. apply tops_send, tops_put; auto.
  destruct (found t x u); [|now apply mem_set_lastid].
  apply mem_set_pud; [now apply mem_set_lastid|]. intros C.
  destruct (is_reader _); simpl; apply cached_get_pud_deleted; exact C.
Qed.

Lemma tops_note s sid u t w seq : tops_ok s -> tops_ok (fst (note_op s sid u t w seq)).
Proof.
  intros H. destruct (note_op_cases s sid u t w seq) as [-> | [-> | (x & G & _ & _ & _ & _ & _ & ->)]]; auto.
  unfold note_effect. apply tops_send, tops_put; auto. pose proof (tops_get _ _ _ H G) as Hx.
  destruct w; cbn [note_top]; auto; apply mem_set_pud; auto; apply cached_get_pud_deleted.
Qed.

Lemma tops_delmsg s sid u t h : tops_ok s -> tops_ok (fst (delmsg_op s sid u t h)).
Proof.
  intros H. unfold delmsg_op. destruct (get_top s t) as [x|] eqn:G; [|exact H]. brk; simpl; auto.
Qed.

Lemma tops_put_me u m s : tops_ok s -> tops_ok (put_me u m s).
Proof. intros H; exact H. Qed.

Lemma tops_leave s sid u t b : tops_ok s -> tops_ok (leave s sid u t b).
Proof.
  intros H.
  assert (T : forall t, tops_ok (leave_top s sid t b)).
  { intros t'. unfold leave_top. destruct (get_top s t') as [x|] eqn:G; [|exact H].
    destruct (aget N.eqb sid (t_sess x)) as [uid|] eqn:A; [|exact H].
    apply tops_send, tops_put; auto. pose proof (tops_get _ _ _ H G) as Hx.
    apply mem_set_pud.
    + apply mem_set_tsess; auto. intros e. apply adel_subset.
    + intros C. simpl. apply cached_get_pud_deleted. exact C. }
  unfold leave. destruct t; [|apply T..].
  unfold leave_me. destruct (get_me s u); [|exact H]. destruct (negb _); exact H.
Qed.

Lemma tops_fold_leave l s sid u : tops_ok s -> tops_ok (fold_left (fun acc t => leave acc sid u t false) l s).
Proof. revert s. induction l; simpl; intros s H; auto. apply IHl. now apply tops_leave. Qed.

Lemma tops_to_fg s sid u t : tops_ok s -> tops_ok (to_fg s sid u t).
Proof.
  intros H. unfold to_fg. destruct t.
  - destruct (get_me s u); [|exact H]. destruct (sub_notif_me _ _ _). exact H.
  - exact H.
  - destruct (get_top s (TGrp g)) as [x|] eqn:G; [|exact H]. destruct (negb (t_supd x)); [exact H|].
    pose proof (tops_get _ _ _ H G) as Hx.
    destruct (sub_notif_grp _ _ _ _) as [x2 ms] eqn:E.
    apply tops_send, tops_put; auto.
    replace x2 with (fst (sub_notif_grp (TGrp g) (set_pud u (p_set_online (p_online (get_pud x u) + 1) (get_pud x u)) x) u sid))
      by now rewrite E.
    apply sub_notif_grp_mem. apply mem_set_pud; auto. simpl. apply cached_get_pud_deleted.
Qed.

Lemma tops_fold_fg l s sid u : tops_ok s -> tops_ok (fold_left (fun acc t => to_fg acc sid u t) l s).
Proof. revert s. induction l; simpl; intros s H; auto. apply IHl. now apply tops_to_fg. Qed.

Lemma tops_set_sess f s : tops_ok s -> tops_ok (set_sess f s).
Proof. intros H; exact H. Qed.

Lemma tops_open s sid u b s1 b1 : tops_ok s -> open_sess s sid u b = Some (s1, b1) -> tops_ok s1.
Proof.
  intros H. unfold open_sess. destruct (get_sess s sid).
  - destruct (negb _); [discriminate|]. destruct (sess_count_me s sid); intros [= <- <-]; exact H.
  - intros [= <- <-]. exact H.
Qed.

Lemma tops_drop s t : tops_ok s -> tops_ok (drop_topic s t).
Proof.
  intros H. unfold drop_topic. destruct t; [exact H| |];
    (destruct (get_top s _) eqn:G; [apply tops_put; auto; apply mem_unload | exact H]).
Qed.

Lemma tops_deliver s g : tops_ok s -> tops_ok (fst (deliver_msg s g)).
Proof.
  intros H.
  destruct (deliver_state s g) as (s1 & [-> | (u & m & subs & _ & ->)] & [-> | (? & ? & ? & ? & _ & ->)]); exact H.
Qed.

Lemma tops_step rep s o : tops_ok s -> tops_ok (fst (step_gen rep s o)).
Proof.
  intros H. destruct o; simpl.
  - destruct (open_sess s sid u bkg) as [[s1 b]|] eqn:O; [|exact H].
    destruct (get_top s (TGrp g)); [exact H|].
    pose proof (tops_open _ _ _ _ _ _ H O) as H1.
    destruct (if b then _ else _) as [x2 ms] eqn:E. simpl.
    apply tops_send, tops_put; auto. eapply notif_pair; [exact E|].
    intros e [<- | []]. simpl. unfold cached. simpl. now rewrite N.eqb_refl.
  - destruct (open_sess s sid u bkg) as [[s1 b]|] eqn:O; [|exact H].
    pose proof (tops_open _ _ _ _ _ _ H O) as H1.
    destruct r; [now apply tops_att_me | now apply tops_att_p2p | now apply tops_att_grp].
  - destruct (sess_user s sid); [|exact H]. destruct (sess_on s sid _); [|exact H]. simpl. now apply tops_leave.
  - destruct (sess_user s sid); [|exact H]. now apply tops_unsub.
  - destruct (sess_user s sid); [|exact H]. simpl. apply tops_set_sess. now apply tops_fold_leave.
  - destruct (get_sess s sid); [|exact H]. destruct (negb _); [exact H|]. simpl. now apply tops_fold_fg.
  - destruct (sess_user s sid); [|exact H]. destruct r; [exact H| |]; now apply tops_want.
  - destruct (sess_user s sid); [|exact H]. destruct r; [exact H| |];
      (destruct (n =? v); [now apply tops_want | now apply tops_given]).
  - destruct (sess_user s sid); [|exact H]. destruct r; [exact H| |]; now apply tops_evict.
  - destruct (sess_user s sid); [|exact H]. destruct r; [exact H| |]; now apply tops_pub.
  - match goal with |- tops_ok (fst (if ?c then _ else _)) => destruct c; [exact H|] end.
    destruct r; [exact H| |]; now apply tops_note.
  - destruct (sess_user s sid); [|exact H]. destruct r; [exact H| |]; now apply tops_delmsg.
  - destruct (idle s t); [|exact H]. simpl. apply tops_send. now apply tops_drop.
  - destruct (idle s t); [|exact H]. simpl. now apply tops_drop.
  - destruct (aget tname_eqb t (s_zomb s)); exact H.
  - destruct (take_nth i [] (s_net s)) as [[g rest]|]; [|exact H]. now apply tops_deliver.
Qed.

Lemma tops_run rep h : forall s, tops_ok s -> tops_ok (fst (run_gen rep s h)).
Proof.
  induction h as [|o r IH]; simpl; intros s H; auto.
  pose proof (tops_step rep s o H) as H1. destruct (step_gen rep s o) as [s1 o1]. simpl in H1.
  specialize (IH s1 H1). destruct (run_gen rep s1 r) as [s2 o2]. exact IH.
Qed.

Lemma members_ok_reach s : reach s -> members_ok s.
Proof.
  intros [h ->]. assert (T : tops_ok (fst (run init h))) by (apply (tops_run true); constructor).
  intros t x sid uid G Hin. exact (tops_get _ _ _ T G (sid, uid) Hin).
Qed.

