(* C08: a request that is rejected (answered 4xx/5xx) changes neither the store nor the
   cache, in the absence of store faults and except for the banned-subscriber case (finding #4). *)
From Coq Require Import ZArith NArith List Bool Lia.
From Tinode Require Import Base.Util Pure.Acs Sys.Topic Sys.TopicTac Sys.TopicFrame Sys.TopicMarks Sys.TopicNum Sys.TopicNumThm
  Sys.TopicAclC07 Sys.TopicCohC08 Sys.TopicCohC08Proofs Sys.TopicCohC08Step Sys.TopicCohC08Run.
Import ListNotations.
Open Scope Z_scope.

(* no error reply to anybody in this output *)
Definition no_err (o : out) : Prop := forall sid code ps, In (sid, Ctrl code ps) o -> code < 400.

Lemma no_err_nil : no_err []. Proof. intros sid code ps []. Qed.
Lemma no_err_app a b : no_err a -> no_err b -> no_err (a ++ b).
Proof. intros A B sid code ps H. apply in_app_or in H. destruct H; [eapply A|eapply B]; eassumption. Qed.
Lemma no_err_cons sid fr o : (forall code ps, fr = Ctrl code ps -> code < 400) -> no_err o -> no_err ((sid, fr) :: o).
Proof. intros A B s code ps [H|H]; [inv H; eapply A; reflexivity|eapply B; exact H]. Qed.
Lemma no_err_flat {A} (g : A -> out) l : (forall x, no_err (g x)) -> no_err (flat_map g l).
Proof. intros H sid code ps Hin. apply in_flat_map in Hin. destruct Hin as [x [_ Hx]]. eapply H; exact Hx. Qed.

Lemma no_err_fanout_data c skip fr : (forall code ps, fr = Ctrl code ps -> code < 400) -> no_err (fanout_data c skip fr).
Proof.
  intros F. unfold fanout_data. apply no_err_flat. intros [sid [u b]].
  repeat break_match; try apply no_err_nil. apply no_err_cons; [exact F|apply no_err_nil].
Qed.
Lemma no_err_fanout_info c skip what from seq : no_err (fanout_info c skip what from seq).
Proof.
  unfold fanout_info. apply no_err_flat. intros [sid [u b]].
  repeat break_match; try apply no_err_nil. apply no_err_cons; [discriminate|apply no_err_nil].
Qed.
Lemma no_err_push c seq u : no_err (push_out c seq u).
Proof. unfold push_out. break_match; [apply no_err_nil|]. apply no_err_cons; [discriminate|apply no_err_nil]. Qed.
Lemma only_evicted_no_err o : only_evicted o -> no_err o.
Proof. intros OE sid code ps H. destruct (OE _ H) as [b E]. discriminate E. Qed.
Lemma no_err_evict c u unsub k c' o : evict_user c u unsub k = (c', o) -> no_err o.
Proof. intros H. exact (only_evicted_no_err _ (evict_only _ _ _ _ _ _ H)). Qed.
Lemma no_err_map_data sid (ms : list msgrow) : no_err (map (fun m => (sid, Data (m_seq m) (m_from m) (m_content m))) ms).
Proof. intros s code ps H. apply in_map_iff in H. destruct H as [m [E _]]. discriminate. Qed.

Ltac ne_tac :=
  repeat first [ apply no_err_nil | apply no_err_app | apply no_err_fanout_data | apply no_err_fanout_info | apply no_err_push
               | apply no_err_map_data
               | (apply no_err_cons; [intros code ps E; first [discriminate E | inv E; lia]|])
               | (eapply no_err_evict; eassumption) ];
  try (intros code ps E; first [discriminate E | inv E; lia]).

(* a handler result: either nothing changed, or nobody got an error *)
Definition rej (s : store) (c : cache) (h : hres) : Prop := (h_st h = s /\ h_ca h = c) \/ no_err (h_out h).

Lemma publish_rej s c n sid u content noecho :
  (forall m, In m (seqs s) -> m <= c_lastid c) -> rej s c (publish NoFault s c n sid u content noecho).
Proof.
  intros FR. unfold publish, call; cbn [fails negb].
  rewrite msg_save_fresh by (intros m Hm; cbn in Hm; specialize (FR m Hm); lia).
  destruct (negb (is_writer _)); [left; split; reflexivity|]. right.
  destruct (is_reader _); destruct (alookup u (c_users c)); cbn [h_out]; ne_tac.
Qed.

Lemma note_rej s c n sid u what seq : rej s c (note NoFault s c n sid u what seq).
Proof.
  unfold note, call; cbn [fails negb].
  repeat break_match; unfold rej; cbn [h_st h_ca h_out]; try (left; split; reflexivity); right; ne_tac.
Qed.
Lemma get_data_rej s c n sid u a b l : rej s c (get_data NoFault s c n sid u a b l).
Proof. left. apply get_data_same. Qed.
Lemma get_desc_rej s c n sid u : rej s c (get_desc s c n sid u).
Proof. left. apply get_desc_same. Qed.
Lemma get_sub_rej s c n sid u : rej s c (get_sub NoFault s c n sid u).
Proof. left. apply get_sub_same. Qed.
Lemma get_del_rej nr s c n sid u a b l : rej s c (get_del nr NoFault s c n sid u a b l).
Proof. left. apply get_del_same. Qed.
Lemma del_msg_rej dr s c n sid u req hard : rej s c (del_msg dr NoFault s c n sid u req hard).
Proof.
  unfold del_msg, call; cbn [fails negb].
  repeat break_match; unfold rej; cbn [h_st h_ca h_out]; try (left; split; reflexivity); right; ne_tac.
Qed.
Lemma del_sub_rej s c n sid u t : rej s c (del_sub NoFault s c n sid u t).
Proof.
  unfold del_sub, call; cbn [fails negb].
  repeat break_match; unfold rej; cbn [h_st h_ca h_out]; try (left; split; reflexivity); right;
    repeat match goal with H : (_, _) = (_, _) |- _ => inv H end; ne_tac.
  destruct (ad_subs_delete s t); inv Heqp0; ne_tac.
Qed.
Lemma leave_unsub_rej s c n sid u : rej s c (leave_unsub NoFault s c n sid u).
Proof.
  unfold leave_unsub, call; cbn [fails negb].
  repeat break_match; unfold rej; cbn [h_st h_ca h_out]; try (left; split; reflexivity); right; ne_tac.
Qed.

Lemma chk_joiner c u mw p0 mw1 g1 oc :
  tus_chk c u mw (p_want p0) (p_given p0) = Some (mw1, g1, oc) -> is_joiner g1 = false -> is_joiner (p_given p0) = false.
Proof.
  unfold tus_chk. intros H J. repeat break_match_hyp; inv H; try exact J;
    rewrite is_joiner_lor in J; apply orb_false_iff in J; apply J.
Qed.

Lemma tus_finish_rej u nb w1 g1 ow og s3 c3 n3 code :
  snd (tus_finish u w1 g1 ow og nb s3 c3 n3) = SubErr code -> is_joiner g1 = false.
Proof.
  unfold tus_finish. destruct (negb (is_joiner w1)); [destruct (evict_user _ u false 0); discriminate|].
  destruct (negb (is_joiner g1)) eqn:J; [|discriminate]. intros _. now apply negb_true_iff in J.
Qed.

(* thisUserSub without store faults: refused => nothing changed, unless the subscriber is banned *)
Lemma this_user_sub_rej s c n sid u want nb code :
  snd (this_user_sub NoFault s c n sid u want nb) = SubErr code ->
  (h_st (fst (this_user_sub NoFault s c n sid u want nb)) = s /\ h_ca (fst (this_user_sub NoFault s c n sid u want nb)) = c) \/
  (exists p, alookup u (c_users c) = Some p /\ is_joiner (p_given p) = false).
Proof.
  destruct (alookup u (c_users c)) as [p0|] eqn:L.
  2:{ (* no cached subscription: refused, or created *)
      intros R. left. pose proof (tus_shape NoFault s c n sid u want nb) as SP.
      destruct (this_user_sub NoFault s c n sid u want nb) as [h r]. cbn [fst snd] in *. subst r.
      inversion SP as [| | ? ? ? ? ? ? ? ? L0 | ? ? ? ? ? ? ? ? TO | ? ? ? ? ? ? TO];
        [split; reflexivity|congruence|destruct TO; congruence|destruct TO; congruence]. }
  rewrite tus_unfold, L.
  destruct (match want with [] => (ModeUnset, true) | _ => unmarshal_text ModeUnset want end) as [mw okw].
  destruct (negb okw); [left; split; reflexivity|].
  unfold tus_exist. cbv beta zeta. destruct (tus_chk c u mw (p_want p0) (p_given p0)) as [[[mw1 g1] oc]|] eqn:CHK; [|left; split; reflexivity].
  unfold call; cbn [fails negb].
  assert (forall (b : bool) (m : nat), (if b then (true, S m) else (true, m)) = (true, if b then S m else m)) as EB by (intros [] m; reflexivity).
  rewrite EB. cbn [negb]. destruct oc; intros R; right; exists p0; (split; [reflexivity|]);
    (eapply chk_joiner; [exact CHK|]); eapply tus_finish_rej; exact R.
Qed.

(* anotherUserSub: refused => nothing changed *)
Lemma another_user_sub_rej f s c n sid u target mode code :
  snd (another_user_sub f s c n sid u target mode) = SubErr code ->
  h_st (fst (another_user_sub f s c n sid u target mode)) = s /\ h_ca (fst (another_user_sub f s c n sid u target mode)) = c.
Proof.
  pose proof (aus_shape f s c n sid u target mode) as SP. destruct (another_user_sub f s c n sid u target mode) as [h r].
  cbn [fst snd] in *. intros ->. inversion SP. split; reflexivity.
Qed.

Lemma offline_set_sub_rej s sid u target mode :
  o_st (offline_set_sub NoFault s sid u target mode) = s \/ no_err (o_out (offline_set_sub NoFault s sid u target mode)).
Proof.
  unfold offline_set_sub, call; cbn [fails negb].
  repeat break_match; cbn [o_st o_out]; try (left; reflexivity). right. ne_tac.
Qed.

Definition unchanged (x x' : state) : Prop :=
  st x' = st x /\ (ca x' = ca x \/ (ca x = None /\ ca x' = Some (load (st x)))).

Lemma err_no_err o sid : err_reply o sid -> no_err o -> False.
Proof. intros [code [ps [HIn Hc]]] NE. specialize (NE _ _ _ HIn). lia. Qed.

Lemma err_app_inv a sid fr :
  err_reply (a ++ [(sid, fr)]) sid -> no_err a -> exists code ps, fr = Ctrl code ps /\ 400 <= code.
Proof.
  intros [code [ps [HIn Hc]]] NE. apply in_app_or in HIn. destruct HIn as [HIn|[HIn|[]]].
  - specialize (NE _ _ _ HIn). lia.
  - inv HIn. eauto.
Qed.

(* the reply of {sub}: rejected => nothing changed, unless the subscriber is banned *)
Lemma sub_reply_rej s c n sid u want bkg :
  err_reply (h_out (sub_reply NoFault s c n sid u want bkg)) sid ->
  (h_st (sub_reply NoFault s c n sid u want bkg) = s /\ h_ca (sub_reply NoFault s c n sid u want bkg) = c) \/
  (exists p, alookup u (c_users c) = Some p /\ is_joiner (p_given p) = false).
Proof.
  unfold sub_reply.
  pose proof (this_user_sub_rej s c n sid u want (match alookup u (c_users c) with Some _ => false | None => true end)) as R.
  destruct (tus_post NoFault s c n sid u want (match alookup u (c_users c) with Some _ => false | None => true end)) as [OE _].
  destruct (this_user_sub NoFault s c n sid u want _) as [h r]. cbn [fst snd] in *.
  destruct r as [code|ch]; cbn [h_st h_ca h_out]; [intros _; exact (R code eq_refl)|].
  intros ER. exfalso. apply err_app_inv in ER; [|apply only_evicted_no_err, OE]. destruct ER as [code [ps [E Hc]]].
  destruct ch as [[w g]|]; inv E. lia.
Qed.

Lemma set_sub_rej s c n sid u target mode :
  err_reply (h_out (set_sub NoFault s c n sid u target mode)) sid ->
  (h_st (set_sub NoFault s c n sid u target mode) = s /\ h_ca (set_sub NoFault s c n sid u target mode) = c) \/
  (exists p, alookup u (c_users c) = Some p /\ is_joiner (p_given p) = false).
Proof.
  unfold set_sub. destruct ((target =? 0)%N || (target =? u)%N).
  - pose proof (this_user_sub_rej s c n sid u mode false) as R. destruct (tus_post NoFault s c n sid u mode false) as [OE _].
    destruct (this_user_sub NoFault s c n sid u mode false) as [h r]. cbn [fst snd] in *.
    destruct r as [code|ch]; cbn [h_st h_ca h_out]; [intros _; exact (R code eq_refl)|].
    intros ER. exfalso. apply err_app_inv in ER; [|apply only_evicted_no_err, OE]. destruct ER as [code [ps [E Hc]]].
    destruct ch as [[w g]|]; inv E. lia.
  - pose proof (another_user_sub_rej NoFault s c n sid u target mode) as R. destruct (aus_post NoFault s c n sid u target mode) as [OE _].
    destruct (another_user_sub NoFault s c n sid u target mode) as [h r]. cbn [fst snd] in *.
    destruct r as [code|ch]; cbn [h_st h_ca h_out]; [intros _; left; exact (R code eq_refl)|].
    intros ER. exfalso. apply err_app_inv in ER; [|apply only_evicted_no_err, OE]. destruct ER as [code [ps [E Hc]]].
    destruct ch as [[w g]|]; inv E. lia.
Qed.

(* a handler that refuses leaves the loaded topic as it was *)
Lemma rej_unchanged x c h sid :
  ca x = Some c -> rej (st x) c h -> err_reply (h_out h) sid -> unchanged x (mkState (h_st h) (Some (h_ca h)) (h_n h)).
Proof.
  intros CA [[E1 E2]|NE] ER; [|exfalso; exact (err_no_err _ _ ER NE)].
  split; cbn [st ca]; [exact E1|left; rewrite E2, CA; reflexivity].
Qed.
