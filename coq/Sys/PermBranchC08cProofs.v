(* C08: an acknowledged access mode is the stored access mode.
   Every {ctrl 200 params.acs=want/given} a {sub} / {set sub} request produces names exactly the
   want and given of the stored, live subscription row of the user it is about - on every
   branch of thisUserSub / anotherUserSub / replyOfflineTopicSetSub, under every fault plan
   that the coherence theorem admits.  In particular the self-raise branches (an approver or
   owner asking beyond his own grant) write the raised grant. *)
From Coq Require Import ZArith NArith List Bool Lia.
From Tinode Require Import Base.Util Pure.Acs Sys.Topic Sys.TopicTac Sys.TopicFrame Sys.TopicNum Sys.TopicNumThm
  Sys.TopicMarks Sys.TopicAclC07 Sys.TopicCohC08 Sys.TopicCohC08Proofs Sys.TopicCohC08Step Sys.TopicCohC08Run Sys.PermBranchC08c.
Import ListNotations.
Open Scope Z_scope.

(* the user a {ctrl 200 params.acs} reply to request [o] is about: the named user, or the requester *)
Definition acs_subject_c08c (sm : sessmap) (o : op) (named : N) : N :=
  if (named =? 0)%N then sess_uid sm (op_sid o) else named.

Definition cached_acs_c08c (c : cache) (v w g : N) : Prop :=
  exists p, alookup v (c_users c) = Some p /\ p_want p = w /\ p_given p = g.
Definition stored_acs_c08c (s : store) (v w g : N) : Prop :=
  exists r, find_sub v (subs s) = Some r /\ s_deleted r = false /\ s_want r = w /\ s_given r = g.

Lemma coh_cached_stored_c08c s c v w g : coh s c -> cached_acs_c08c c v w g -> stored_acs_c08c s v w g.
Proof.
  intros C [p [L [W G]]]. pose proof (coh_at _ _ v C) as A. rewrite L in A.
  destruct A as [r [F [D [A1 [A2 _]]]]]. exists r. repeat split; congruence.
Qed.

(* ------------------------------------------------------------------ *)
(* the replies of {sub} and {set sub} handled by a loaded topic *)
Lemma in_app_single_c08c (o : out) e x : In e (o ++ [x]) -> In e o \/ e = x.
Proof. intros I. apply in_app_or in I. destruct I as [I|[I|[]]]; auto. Qed.

(* a {ctrl 200 acs} among eviction notices followed by the reply is the reply *)
Lemma acs_in_reply_c08c (o : out) sid fr sid' named w g :
  only_evicted o -> In (sid', CtrlAcs 200 named w g) (o ++ [(sid, fr)]) -> sid' = sid /\ fr = CtrlAcs 200 named w g.
Proof.
  intros OE I. apply in_app_single_c08c in I. destruct I as [I|I]; [destruct (OE _ I) as [b E]; discriminate E|].
  inv I. auto.
Qed.
Lemma acs_in_err_c08c (o : out) sid code sid' named w g :
  only_evicted o -> ~ In (sid', CtrlAcs 200 named w g) (o ++ (if code =? 0 then [] else [(sid, Ctrl code [])])).
Proof.
  intros OE I. apply in_app_or in I. destruct I as [I|I]; [destruct (OE _ I) as [b E]; discriminate E|].
  destruct (code =? 0); [destruct I|]. destruct I as [I|[]]. discriminate I.
Qed.

Lemma sub_reply_ack_c08c f s c n sid u want bkg sid' named w g :
  In (sid', CtrlAcs 200 named w g) (h_out (sub_reply f s c n sid u want bkg)) ->
  named = 0%N /\ sid' = sid /\ cached_acs_c08c (h_ca (sub_reply f s c n sid u want bkg)) u w g.
Proof.
  unfold sub_reply.
  destruct (tus_post f s c n sid u want (match alookup u (c_users c) with Some _ => false | None => true end)) as [OE [_ AK]].
  destruct (this_user_sub f s c n sid u want _) as [h r]. cbn [fst snd] in *.
  destruct r as [code|ch]; cbn [h_out h_ca]; intros I; [destruct (acs_in_err_c08c _ _ _ _ _ _ _ OE I)|].
  destruct (acs_in_reply_c08c _ _ _ _ _ _ _ OE I) as [-> E]. destruct ch as [[w0 g0]|]; [|discriminate E]. inv E.
  split; [reflexivity|]. split; [reflexivity|].
  destruct AK as [p [L CH]]. destruct (CH _ _ eq_refl) as [W G].
  destruct (is_joiner (N.land g w)); [|exists p; auto].
  destruct bkg.
  + exists p. cbn [c_users c_set_sess]. auto.
  + assert (get_pud (c_set_sess (aset sid (u, false)) (h_ca h)) u = p) as GP by (unfold get_pud; cbn [c_users c_set_sess]; rewrite L; reflexivity).
    rewrite GP. eexists. cbn [c_users c_set_users c_set_sess]. rewrite alookup_aset_same. split; [reflexivity|].
    cbn [p_want p_given p_set_online]. auto.
Qed.

Lemma set_sub_ack_c08c f s c n sid u target mode sid' named w g :
  In (sid', CtrlAcs 200 named w g) (h_out (set_sub f s c n sid u target mode)) ->
  sid' = sid /\
  cached_acs_c08c (h_ca (set_sub f s c n sid u target mode)) (if (named =? 0)%N then u else named) w g.
Proof.
  unfold set_sub.
  assert (sub_post c (if (target =? 0)%N || (target =? u)%N then u else target)
            (if (target =? 0)%N || (target =? u)%N then this_user_sub f s c n sid u mode false
             else another_user_sub f s c n sid u target mode)) as [OE [_ AK]]
    by (destruct ((target =? 0)%N || (target =? u)%N); [apply tus_post|apply aus_post]).
  destruct (if (target =? 0)%N || (target =? u)%N then this_user_sub f s c n sid u mode false else _) as [h r]. cbn [fst snd] in *.
  destruct r as [code|ch]; cbn [h_out h_ca]; intros I; [destruct (acs_in_err_c08c _ _ _ _ _ _ _ OE I)|].
  destruct (acs_in_reply_c08c _ _ _ _ _ _ _ OE I) as [-> E]. destruct ch as [[w0 g0]|]; [|discriminate E]. inv E.
  split; [reflexivity|]. destruct AK as [p [L CH]]. destruct (CH _ _ eq_refl) as [W G].
  exists p. split; [|auto]. destruct ((target =? 0)%N || (target =? u)%N) eqn:SELF; [exact L|].
  apply orb_false_iff in SELF. destruct SELF as [-> _]. exact L.
Qed.

(* replyOfflineTopicSetSub: the acknowledged want is written, the acknowledged given is the stored one *)
Lemma offline_set_sub_ack_c08c f s sid u target mode sid' named w g :
  u <> 0%N ->
  In (sid', CtrlAcs 200 named w g) (o_out (offline_set_sub f s sid u target mode)) ->
  named = 0%N /\ sid' = sid /\ stored_acs_c08c (o_st (offline_set_sub f s sid u target mode)) u w g.
Proof.
  intros NZ. unfold offline_set_sub. destruct mode as [|m0 ml]; [intros [I|[]]; discriminate I|].
  destruct (negb (target =? 0)%N && negb (target =? u)%N); [intros [I|[]]; discriminate I|].
  destruct (call f 0) as [ok1 n1]. destruct (negb ok1); [intros [I|[]]; discriminate I|].
  destruct (ad_sub_get s u false) as [r0|] eqn:SG; [|intros [I|[]]; discriminate I].
  destruct (unmarshal_text 0%N (m0 :: ml)) as [mw okw]. destruct (negb okw); [intros [I|[]]; discriminate I|].
  destruct (negb (Bool.eqb (is_owner mw) (is_owner (s_want r0)))); [intros [I|[]]; discriminate I|].
  destruct (mw =? s_want r0)%N; [intros [I|[]]; discriminate I|].
  destruct (call f n1) as [ok2 n2]. destruct (negb ok2); [intros [I|[]]; discriminate I|].
  cbn [o_out o_st]. intros [I|[]]. inv I. split; [reflexivity|]. split; [reflexivity|].
  unfold ad_sub_get in SG. destruct (find_sub u (subs s)) as [r|] eqn:F; [|discriminate].
  destruct (s_deleted r && negb false) eqn:D; [discriminate|]. inv SG.
  rewrite andb_true_r in D.
  unfold stored_acs_c08c. rewrite find_sub_update, (proj2 (N.eqb_neq _ _) NZ), N.eqb_refl, F. cbn [orb option_map].
  eexists. split; [reflexivity|]. cbn. auto.
Qed.

(* ------------------------------------------------------------------ *)
(* ONE STEP: every {ctrl 200 acs} of a {sub} / {set sub} request names the stored modes *)
Section StepAck.
Variable dr : Z -> list (Z * Z) -> option (list (Z * Z)).
Variable nr : list (Z * Z) -> list (Z * Z).
Variable sm : sessmap.

Definition is_perm_req_c08c (o : op) : bool :=
  match o with OSub _ _ _ | OSetSub _ _ _ => true | _ => false end.

Theorem step_acs_ack_stored_c08c f x o sid named w g :
  inv x -> known sm o -> fault_ok sm f x o -> is_perm_req_c08c o = true ->
  In (sid, CtrlAcs 200 named w g) (snd (step dr nr sm f x o)) ->
  sid = op_sid o /\
  stored_acs_c08c (st (fst (step dr nr sm f x o))) (acs_subject_c08c sm o named) w g.
Proof.
  intros IV KN FO PR.
  destruct o as [sd want bkg|sd unsub|sd content noecho|sd what seq|sd a b l|sd|sd|sd a b l|sd req hard|sd target mode|sd target| |];
    try discriminate PR; clear PR; cbn [known op_sid] in KN; cbn [fault_ok] in FO; unfold acs_subject_c08c; cbn [op_sid].
  - (* OSub *)
    unfold step.
    assert (forall c n, good3 (st x) c -> cur_cache x = c ->
              In (sid, CtrlAcs 200 named w g) (h_out (sub_reply f (st x) c n sd (sess_uid sm sd) want bkg)) ->
              sid = sd /\ stored_acs_c08c (h_st (sub_reply f (st x) c n sd (sess_uid sm sd) want bkg))
                                         (if (named =? 0)%N then sess_uid sm sd else named) w g) as SR.
    { intros c n G3 CC I. destruct (sub_reply_ack_c08c _ _ _ _ _ _ _ _ _ _ _ _ I) as [-> [-> CA]].
      split; [reflexivity|]. cbn [N.eqb].
      eapply coh_cached_stored_c08c; [|exact CA].
      apply (sub_reply_good f (st x) c n sd (sess_uid sm sd) want bkg G3 KN).
      rewrite CC in FO. destruct FO as [FO|FO]; [left; apply nofault_all; exact FO|right; exact FO]. }
    destruct (ca x) as [c|] eqn:CA.
    + destruct (attached c sd); cbn [snd fst st]; [intros [I|[]]; discriminate I|].
      apply SR; [apply inv_good; assumption|unfold cur_cache; rewrite CA; reflexivity].
    + destruct (try_load f (st x) 0) as [n1 [c|code]] eqn:TL; cbn [snd fst st]; [|intros [I|[]]; discriminate I].
      assert (c = load (st x)) as -> by (unfold try_load in TL; repeat break_match_hyp; inv TL; reflexivity).
      apply SR; [apply good_load, inv_wf, IV|unfold cur_cache; rewrite CA; reflexivity].
  - (* OSetSub *)
    unfold step.
    assert (forall I0 : In (sid, CtrlAcs 200 named w g) (o_out (offline_set_sub f (st x) sd (sess_uid sm sd) target mode)),
              sid = sd /\ stored_acs_c08c (o_st (offline_set_sub f (st x) sd (sess_uid sm sd) target mode))
                                         (if (named =? 0)%N then sess_uid sm sd else named) w g) as OFF.
    { intros I0. destruct (offline_set_sub_ack_c08c _ _ _ _ _ _ _ _ _ _ KN I0) as [-> [-> ST]]. split; [reflexivity|exact ST]. }
    destruct (ca x) as [c|] eqn:CA; cbn -[set_sub offline_set_sub]; [|exact OFF].
    destruct (attached c sd) eqn:AT; cbn -[set_sub offline_set_sub]; [|exact OFF].
    intros I. destruct (set_sub_ack_c08c _ _ _ _ _ _ _ _ _ _ _ _ I) as [-> CAk]. split; [reflexivity|].
    eapply coh_cached_stored_c08c; [|exact CAk].
    apply (set_sub_good f (st x) c 0 sd (sess_uid sm sd) target mode (inv_good _ _ IV CA) KN).
    unfold cur_cache in FO. rewrite CA in FO.
    destruct FO as [FO|FO]; [left; apply nofault_all; exact FO|right; exact FO].
Qed.
End StepAck.

(* ------------------------------------------------------------------ *)
(* the self-raise branches: an approver / owner who asks beyond his own grant is acknowledged
   with a grant that differs from the old one - and (step_acs_ack_stored_c08c) that grant is stored *)
(* Acs.better_equal compares its arguments after masking them with ModeBitmask (8 bits), so "the
   request asks beyond the grant" carries over to the raw modes only for a mode within 8 bits, which
   every parsed request mode is *)
Definition small_c08c (m : N) : Prop := N.land m 255 = m.

Lemma unmarshal_small_c08c cur b m : unmarshal_text cur b = (m, true) -> m = cur \/ small_c08c m.
Proof.
  unfold unmarshal_text. destruct (parse_acs b) as [m0|]; [|discriminate].
  destruct (m0 =? ModeUnset)%N; intros H; inv H; [left; reflexivity|right].
  unfold small_c08c, ModeBitmask. rewrite <- N.land_assoc. reflexivity.
Qed.

Lemma small_ldiff_c08c m d : small_c08c m -> small_c08c (N.ldiff m d).
Proof.
  unfold small_c08c. intros H. apply N.bits_inj. intros i.
  rewrite N.land_spec, !N.ldiff_spec. rewrite <- H at 2. rewrite N.land_spec.
  destruct (N.testbit m i), (N.testbit 255 i), (N.testbit d i); reflexivity.
Qed.

Lemma lor_same_better_c08c a m : small_c08c m -> N.lor a m = a -> better_equal a m = true.
Proof.
  unfold small_c08c, better_equal, ModeBitmask. intros S H. apply N.eqb_eq. apply N.bits_inj. intros i.
  assert (N.testbit (N.lor a m) i = N.testbit a i) as B by (rewrite H; reflexivity).
  assert (N.testbit (N.land m 255) i = N.testbit m i) as C by (rewrite S; reflexivity).
  rewrite N.lor_spec in B. rewrite N.land_spec in C. rewrite !N.land_spec.
  destruct (N.testbit a i), (N.testbit m i), (N.testbit 255 i); cbn in *; congruence.
Qed.

(* the conditions under which thisUserSub raises the requester's own grant *)
Lemma tus_raise_chk_c08c s c u mode p0 :
  alookup u (c_users c) = Some p0 ->
  is_raise_c08c (tus_branch_c08c s c u mode) = true ->
  exists mw g1 oc,
    (match mode with [] => (ModeUnset, true) | _ => unmarshal_text ModeUnset mode end) = (mw, true) /\
    (mw =? ModeUnset)%N = false /\
    tus_chk c u mw (p_want p0) (p_given p0) = Some (mw, g1, oc) /\ (g1 =? p_given p0)%N = false /\
    (is_joiner mw = true -> is_joiner g1 = true).
Proof.
  intros L. unfold tus_branch_c08c, parse_mode_c08c. rewrite L.
  destruct (match mode with [] => (ModeUnset, true) | _ => unmarshal_text ModeUnset mode end) as [mw okw] eqn:PM.
  destruct okw; cbn [negb]; [|discriminate].
  assert (mw = ModeUnset \/ small_c08c mw) as SM.
  { destruct mode; [inv PM; left; reflexivity|]. eapply unmarshal_small_c08c. exact PM. }
  destruct (mw =? ModeUnset)%N eqn:MU.
  { repeat break_match; discriminate. }
  destruct SM as [SM|SM]; [rewrite SM in MU; discriminate|].
  destruct (N.eqb (c_owner c) u && (negb (is_owner mw) || negb (is_joiner mw))) eqn:OK; [discriminate|].
  destruct (is_owner (p_given p0)) eqn:OG.
  - destruct (is_owner mw && negb (better_equal (p_given p0) mw)) eqn:RS.
    + intros _. exists mw, (N.lor (p_given p0) mw), (is_owner mw && negb (is_owner (p_want p0))).
      split; [reflexivity|]. split; [exact MU|]. split; [unfold tus_chk; rewrite MU, OK, OG, RS; reflexivity|]. split.
      * apply andb_true_iff in RS. destruct RS as [_ RS]. apply negb_true_iff in RS.
        apply N.eqb_neq. intros E. rewrite (lor_same_better_c08c _ _ SM E) in RS. discriminate.
      * intros J. rewrite is_joiner_lor, J. apply orb_true_r.
    + destruct (is_owner mw && negb (is_owner (p_want p0))); [discriminate|].
      repeat break_match; discriminate.
  - destruct (is_owner mw) eqn:OM; [discriminate|].
    destruct (is_admin (p_given p0) && is_admin mw && negb (better_equal (p_given p0) (N.ldiff mw mD))) eqn:RS.
    + intros _. apply andb_true_iff in RS. destruct RS as [RA RS].
      exists mw, (N.lor (p_given p0) (N.ldiff mw mD)), false.
      split; [reflexivity|]. split; [exact MU|]. split; [unfold tus_chk; rewrite MU, OM, OK, OG, RA, RS; reflexivity|]. split.
      * apply negb_true_iff in RS. apply N.eqb_neq. intros E.
        rewrite (lor_same_better_c08c _ _ (small_ldiff_c08c _ mD SM) E) in RS. discriminate.
      * intros J. rewrite is_joiner_lor, is_joiner_ldiff_D, J. apply orb_true_r.
    + repeat break_match; discriminate.
Qed.

Lemma tus_raise_ok_c08c s c n u mode p0 sid nb :
  alookup u (c_users c) = Some p0 ->
  is_raise_c08c (tus_branch_c08c s c u mode) = true ->
  exists w g, snd (this_user_sub NoFault s c n sid u mode nb) = SubOk (Some (w, g)) /\ (g =? p_given p0)%N = false.
Proof.
  intros L R. destruct (tus_raise_chk_c08c s c u mode p0 L R) as [mw [g1 [oc [PM [MU [CHK [NG JG]]]]]]].
  rewrite tus_unfold, PM. cbn [negb]. rewrite L. unfold tus_exist. cbv beta zeta. rewrite CHK.
  unfold tus_w1. rewrite MU. rewrite NG, andb_false_r. cbn [negb]. unfold call. cbn [fails negb].
  assert (forall s3 c3 n3, exists w g,
            snd (tus_finish u mw g1 (p_want p0) (p_given p0) nb s3 c3 n3) = SubOk (Some (w, g)) /\ (g =? p_given p0)%N = false) as FIN.
  { intros s3 c3 n3. unfold tus_finish. rewrite NG, andb_false_r, orb_true_r.
    destruct (is_joiner mw) eqn:J; cbn [negb].
    - rewrite (JG eq_refl). cbn [negb snd]. eauto.
    - destruct (evict_user _ u false 0). cbn [snd]. eauto. }
  destruct oc; apply FIN.
Qed.
