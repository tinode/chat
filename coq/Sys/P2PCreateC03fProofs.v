(* C03 (s03f): lemmas about Sys/P2PCreateC03f.v - the mode granted to the creator of a p2p topic
   follows the peer's defaults for the ACTING level; publishes are accepted iff the acting user is
   a stored writer; the session-level variant is refuted. *)
From Coq Require Import ZArith NArith List Bool Lia.
From Tinode Require Import Base.Util Sys.Topic Sys.TopicOffSetC03Proofs Sys.P2PCreateC03f.
Import ListNotations.
Open Scope Z_scope.

Section P.
Variable ua ub : N.
Hypothesis Hne : ua <> ub.

Lemma neq_ba : (ub =? ua)%N = false.
Proof. apply N.eqb_neq. congruence. Qed.

Lemma party_cases u : party_c03f ua ub u = true -> u = ua \/ u = ub.
Proof.
  unfold party_c03f. intros H. apply orb_true_iff in H. destruct H as [H|H]; apply N.eqb_eq in H; auto.
Qed.

Definition coh_with (s : state_c03f) (c : cache_c03f) : Prop :=
  t_ex s = true /\ s_a s = Some (k_a c) /\ s_b s = Some (k_b c) /\ t_seq s = k_lastid c.

Lemma coh_with_row s c u : coh_with s c -> srow_of ua s u = Some (crow_of ua c u).
Proof. intros (_ & A & B & _). unfold srow_of, crow_of. destruct (u =? ua)%N; assumption. Qed.

Lemma coh_with_set_row s c u r : coh_with s c -> coh_with (set_srow ua s u r) (set_crow ua c u r).
Proof.
  intros (H1 & H2 & H3 & H4). unfold coh_with, set_srow, set_crow.
  destruct (u =? ua)%N; cbn; repeat split; assumption.
Qed.

(* what a load yields, by cases on the topic row and the two stored rows: cache and store in
   agreement, nothing else touched, and the requester's row either the stored one or a new one
   whose given mode is the peer's default for the level [l].  No hypothesis on [u1]: whoever is
   not [ua] is read as [ub] throughout. *)
Lemma init_p2p_spec l s u1 :
  match init_p2p_c03f ua ub l s u1 with
  | IErr _ => True
  | IOk s' c nb =>
    (t_ex s' = true /\ s_a s' = Some (k_a c) /\ s_b s' = Some (k_b c) /\ t_seq s' = k_lastid c /\ k_sess c = [] /\
     s_msgs s' = s_msgs s /\ acc_a s' = acc_a s /\ acc_b s' = acc_b s /\ ca s' = ca s) /\
    match (if t_ex s then srow_of ua s u1 else None) with
    | Some r => nb = false /\ crow_of ua c u1 = r
    | None => nb = true /\
        r_given (crow_of ua c u1) =
          select_mode_c03f l (d_anon (acct_of ua s (peer_c03f ua ub u1))) (d_auth (acct_of ua s (peer_c03f ua ub u1))) ModeCP2P_c03f
    end
  end.
Proof.
  pose proof neq_ba as Hba. destruct s as [aa ab ex sq ra rb ms k].
  unfold init_p2p_c03f, peer_c03f, srow_of, acct_of, crow_of, mk_cache, set_srow; cbn [t_ex s_a s_b t_seq acc_a acc_b s_msgs ca].
  destruct (u1 =? ua)%N; cbv iota; rewrite ?N.eqb_refl, ?Hba;
    destruct ex, ra as [ra|], rb as [rb|]; cbn; repeat split; reflexivity.
Qed.

(* a load leaves cache and store in agreement *)
Lemma init_coh l s u1 s' c nb : party_c03f ua ub u1 = true ->
  init_p2p_c03f ua ub l s u1 = IOk s' c nb ->
  t_ex s' = true /\ s_a s' = Some (k_a c) /\ s_b s' = Some (k_b c) /\ t_seq s' = k_lastid c /\ k_sess c = [] /\
  s_msgs s' = s_msgs s /\ acc_a s' = acc_a s /\ acc_b s' = acc_b s /\ ca s' = ca s.
Proof. intros Hp Hi. pose proof (init_p2p_spec l s u1) as X. rewrite Hi in X. apply X. Qed.

Lemma coh_with_sess s c ks : coh_with s c -> coh_with s (mkCa (k_a c) (k_b c) (k_lastid c) ks).
Proof. exact (fun H => H). Qed.

(* thisUserSub writes the same row to store and cache (the store is skipped when the row is the
   cached one), then only the attachments change *)
Lemma sub_coh l s c sid u nb : coh_with s c -> coh_c03f (fst (sub_c03f ua l s c sid u nb)).
Proof.
  intros C. unfold sub_c03f.
  set (w := if negb (is_joiner (r_want (crow_of ua c u))) then _ else _).
  set (r := mkRow w (r_given (crow_of ua c u))).
  assert (C1 : coh_with (if negb (w =? r_want (crow_of ua c u))%N then set_srow ua s u r else s) (set_crow ua c u r)).
  { destruct (N.eqb_spec w (r_want (crow_of ua c u))) as [E|E]; cbn [negb]; [|apply coh_with_set_row, C].
    replace (set_crow ua c u r) with c; [exact C|].
    subst r. rewrite E. unfold set_crow, crow_of. destruct c as [[] [] ? ?], (u =? ua)%N; reflexivity. }
  clearbody r w. revert C1. generalize (set_crow ua c u r). intros c1 C1.
  destruct (negb (is_joiner w)); [|destruct (negb (is_joiner (r_given (crow_of ua c u))))];
    cbn [fst]; try destruct (if nb || _ then _ else _); exact C1 || apply coh_with_sess, C1.
Qed.

Lemma pub_coh s c u : ca s = Some c -> coh_with s c -> coh_c03f (fst (pub_c03f ua s c u)).
Proof.
  intros Hc C. unfold pub_c03f.
  destruct (negb (is_writer (row_mode_c03f (crow_of ua c u)))); cbn [fst].
  - unfold coh_c03f. rewrite Hc. exact C.
  - destruct C as (H1 & H2 & H3 & _). repeat split; assumption.
Qed.

(* every request keeps cache and store in agreement *)
Lemma step_coh sm s q s' r : coh_c03f s -> step_c03f ua ub sm s q = Some (s', r) -> coh_c03f s'.
Proof.
  intros C. unfold step_c03f, step_gen_c03f.
  destruct (alookup (q_sid q) sm) as [[suid slvl]|]; [|discriminate].
  destruct (dispatch_c03f suid slvl (q_obo q) (q_xl q)) as [u l|code]; [|intros [= <- _]; exact C].
  destruct (party_c03f ua ub u) eqn:Hp; cbn [negb]; [|discriminate].
  unfold coh_c03f in C.
  destruct (q_kind q), (ca s) as [c|] eqn:Hc.
  - pose proof (sub_coh l s c (q_sid q) u false C) as X.
    destruct (attached_c03f c (q_sid q)); intros [= E]; [subst s'; unfold coh_c03f; rewrite Hc; exact C|].
    rewrite E in X. exact X.
  - pose proof (init_p2p_spec l s u) as X.
    destruct (init_p2p_c03f ua ub l s u) as [code|s1 c nb]; intros [= E]; [subst s'; unfold coh_c03f; rewrite Hc; exact I|].
    destruct X as [(A1 & A2 & A3 & A4 & _) _].
    pose proof (sub_coh l s1 c (q_sid q) u nb (conj A1 (conj A2 (conj A3 A4)))) as X. rewrite E in X. exact X.
  - pose proof (pub_coh s c u Hc C) as X.
    destruct (attached_c03f c (q_sid q)); intros [= E]; [|subst s'; unfold coh_c03f; rewrite Hc; exact C].
    rewrite E in X. exact X.
  - intros [= <- _]. unfold coh_c03f. rewrite Hc. exact I.
Qed.

Lemma run_coh sm h : forall s s', coh_c03f s -> run_c03f ua ub sm s h = Some s' -> coh_c03f s'.
Proof.
  induction h as [|q h IH]; intros s s' C; cbn.
  - intros [= <-]; assumption.
  - destruct (step_c03f ua ub sm s q) as [[s1 r]|] eqn:E; [|discriminate]. apply IH. eapply step_coh; eassumption.
Qed.

(* under agreement the cache's decision is the stored rows' *)
Lemma coh_writer s c u : party_c03f ua ub u = true -> ca s = Some c -> coh_c03f s ->
  is_writer (row_mode_c03f (crow_of ua c u)) = stored_writer_c03f ua s u.
Proof.
  intros Hp Hc C. unfold coh_c03f in C. rewrite Hc in C. destruct C as [_ [A [B _]]].
  unfold stored_writer_c03f, srow_of, crow_of, row_mode_c03f. pose proof neq_ba as Hba.
  destruct (party_cases _ Hp) as [E|E]; subst u; rewrite ?N.eqb_refl, ?Hba; rewrite ?A, ?B; rewrite is_writer_land; apply andb_comm.
Qed.

(* the publish decision *)
Lemma pub_iff sm s q suid slvl u l s' code seq : coh_c03f s ->
  alookup (q_sid q) sm = Some (suid, slvl) -> dispatch_c03f suid slvl (q_obo q) (q_xl q) = DRun u l -> q_kind q = KPub ->
  step_c03f ua ub sm s q = Some (s', (code, seq)) ->
  (code = 202 <-> attached_now_c03f s (q_sid q) = true /\ stored_writer_c03f ua s u = true).
Proof.
  intros C Hs Hd Hk. unfold step_c03f, step_gen_c03f. rewrite Hs, Hd, Hk.
  destruct (party_c03f ua ub u) eqn:Hp; cbn [negb]; [|discriminate].
  unfold attached_now_c03f. destruct (ca s) as [c|] eqn:Hc.
  - destruct (attached_c03f c (q_sid q)).
    + rewrite <- (coh_writer s c u Hp Hc C). unfold pub_c03f.
      destruct (is_writer (row_mode_c03f (crow_of ua c u))); cbn [negb]; intros [= _ <- _]; [split; auto|].
      split; [discriminate|intros [_ X]; discriminate].
    + intros [= _ <- _]. split; [discriminate|intros [X _]; discriminate].
  - intros [= _ <- _]. split; [discriminate|intros [X _]; discriminate].
Qed.

End P.

(* the variant that hands the SESSION's level to selectAccessMode: a root session acting for an
   authenticated user A whose peer grants JRPA to authenticated strangers creates A's subscription
   with W (the root default JRWPA), and A's publish is accepted *)
Definition w_sessions_c03f : sessions_c03f := [(0%N, (1%N, LvAuth)); (1%N, (3%N, LvRoot)); (2%N, (2%N, LvAuth))].
Definition w_state_c03f : state_c03f := mkSt (mkAcct 31%N 0%N) (mkAcct 27%N 0%N) false 0 None None [] None.
Definition w_sub_c03f : req_c03f := mkReq 1%N (ObUser 1%N) XAuth KSub.
Definition w_pub_c03f : req_c03f := mkReq 1%N (ObUser 1%N) XAuth KPub.

Lemma sessvar_witness :
  match step_sessvar_c03f 1%N 2%N w_sessions_c03f w_state_c03f w_sub_c03f with
  | Some (s1, _) =>
    option_map r_given (s_a s1) = Some 31%N /\
    match step_sessvar_c03f 1%N 2%N w_sessions_c03f s1 w_pub_c03f with Some (_, (code, _)) => code = 202 | None => False end
  | None => False
  end.
Proof. vm_compute. split; reflexivity. Qed.
