(* Lemmas about Base/Base64.v: the shift/mask/or formulas of the Go encoders in
   arithmetic form, the 3-byte <-> 4-character group laws (and the partial
   groups), the whole-string laws by induction over groups, and the bound that
   makes the callers' fixed length gate reject every text with a character
   outside the alphabet. *)
From Coq Require Import NArith ZArith List Bool Lia Arith.
From Coq Require Import ZifyBool ZifyNat ZifyN.
From Tinode Require Import Base.Util Base.Base64.
Import ListNotations.
Open Scope N_scope.

(* ------------------------------------------------ bit fields, arithmetically *)

(* [x * m + y] with [y < m] is [x] written to the left of the field [y]; every
   group law below is division and remainder of such concatenations.  Where a
   literal has to be read as a product the product is a parameter [k]. *)
Lemma cat_div m x y : y < m -> (x * m + y) / m = x.
Proof. intros H. rewrite N.div_add_l by lia. rewrite N.div_small by exact H. apply N.add_0_r. Qed.

Lemma cat_mod m x y : y < m -> (x * m + y) mod m = y.
Proof. intros H. rewrite N.add_comm, N.mod_add by lia. now apply N.mod_small. Qed.

(* a cut inside the right part *)
Lemma cat_div_lo m n k x y : k = n * m -> m <> 0 -> (x * k + y) / m = x * n + y / m.
Proof. intros -> Hm. now rewrite N.mul_assoc, N.div_add_l. Qed.

Lemma cat_mod_lo m n k x y : k = n * m -> m <> 0 -> (x * k + y) mod m = y mod m.
Proof. intros -> Hm. now rewrite N.mul_assoc, N.add_comm, N.mod_add. Qed.

(* a cut inside the left part *)
Lemma cat_mod_hi n r k x y : k = n * r -> r <> 0 -> y < n -> (x * n + y) mod k = (x mod r) * n + y.
Proof.
  intros -> Hr Hy. rewrite N.mod_mul_r, cat_mod, cat_div by (assumption || lia).
  now rewrite N.add_comm, (N.mul_comm n).
Qed.

(* conversely every number is the concatenation of its parts *)
Lemma div_mod_cat m v : m <> 0 -> v / m * m + v mod m = v.
Proof. intros. now rewrite N.mul_comm, <- N.div_mod'. Qed.

Lemma div_mod_cat2 m n k v : k = m * n -> m <> 0 -> n <> 0 -> v / k * n + v / m mod n = v / m.
Proof. intros -> Hm Hn. rewrite <- N.div_div by assumption. now apply div_mod_cat. Qed.

Lemma div_lt x m n : m <> 0 -> x < m * n -> x / m < n.
Proof. apply N.div_lt_upper_bound. Qed.

Lemma cat_lt n m x y : x < n -> y < m -> x * m + y < n * m.
Proof.
  intros Hx Hy. apply N.lt_le_trans with (x * m + m); [now apply N.add_lt_mono_l|].
  rewrite <- N.mul_succ_l. apply N.mul_le_mono_r. now apply N.le_succ_l.
Qed.

(* ------------------------------------------------ shifts, masks, ors *)

Lemma lor_cat k x y : y < 2^k -> N.lor (N.shiftl x k) y = x * 2^k + y.
Proof.
  intros H. rewrite <- N.shiftl_mul_pow2, <- N.lxor_lor; [symmetry; apply N.add_nocarry_lxor|];
  apply N.bits_inj_0; intros n; rewrite N.land_spec;
  (destruct (N.lt_ge_cases n k) as [L|L];
   [ now rewrite N.shiftl_spec_low
   | rewrite <- (N.mod_small y (2^k) H), N.mod_pow2_bits_high by exact L; apply andb_false_r ]).
Qed.

Lemma shl_mul x k : N.shiftl x k = x * 2^k.
Proof. apply N.shiftl_mul_pow2. Qed.
Lemma shr_div x k : N.shiftr x k = x / 2^k.
Proof. apply N.shiftr_div_pow2. Qed.
Lemma land_mod k x : N.land x (N.ones k) = x mod 2^k.
Proof. apply N.land_ones. Qed.

Lemma byte_mod x : byte x = x mod 256.
Proof. exact (land_mod 8 x). Qed.
Lemma byte_lt x : byte x < 256.
Proof. rewrite byte_mod. apply N.mod_lt. discriminate. Qed.

(* turn every 2^k with literal k into a literal *)
Ltac is_lit k :=
  lazymatch k with N0 => idtac | Npos _ => idtac end;
  let v := eval vm_compute in k in constr_eq v k.
Ltac pow_lit :=
  repeat match goal with
  | |- context [N.pow 2 ?k] =>
      is_lit k; let v := eval vm_compute in (N.pow 2 k) in change (N.pow 2 k) with v
  | H : context [N.pow 2 ?k] |- _ =>
      is_lit k; let v := eval vm_compute in (N.pow 2 k) in change (N.pow 2 k) with v in H
  end.

Lemma sx_arith v k : sx v k = v / 2^k mod 64.
Proof. unfold sx. now rewrite (land_mod 6), shr_div. Qed.
Lemma sx_lt v k : sx v k < 64.
Proof. rewrite sx_arith. apply N.mod_lt. discriminate. Qed.
Lemma q5_arith v k : q5 v k = v / 2^k mod 32.
Proof. unfold q5. now rewrite (land_mod 5), shr_div. Qed.
Lemma q5_lt v k : q5 v k < 32.
Proof. rewrite q5_arith. apply N.mod_lt. discriminate. Qed.

(* the ors of Encode and decodeQuantum, as digits base 256 and base 64 *)
Lemma enc_val_arith a b c : b < 256 -> c < 256 -> enc_val a b c = (a * 256 + b) * 256 + c.
Proof.
  intros. unfold enc_val. change 16 with (8 + 8). rewrite <- N.shiftl_shiftl, <- N.shiftl_lor.
  rewrite !lor_cat by assumption. reflexivity.
Qed.

Lemma dec_val_arith d0 d1 d2 d3 : d1 < 64 -> d2 < 64 -> d3 < 64 ->
  dec_val d0 d1 d2 d3 = ((d0 * 64 + d1) * 64 + d2) * 64 + d3.
Proof.
  intros. unfold dec_val. change 18 with (6 + 6 + 6). change 12 with (6 + 6).
  rewrite <- !N.shiftl_shiftl, <- !N.shiftl_lor. rewrite !lor_cat by assumption. reflexivity.
Qed.

(* ------------------------------------------------ base64 alphabet *)

(* the alphabet is a table of 64 characters, all below 123: both directions by running through it *)
Lemma dec_enc_char v : v < 64 -> dec_char (enc_char v) = Some v.
Proof.
  intros H.
  assert (S : forallb (fun v => match dec_char (enc_char v) with Some w => w =? v | None => false end)
                      (nrange 64) = true) by (vm_compute; reflexivity).
  pose proof (sweep1 _ 64 S v H) as R. cbv beta in R.
  destruct (dec_char (enc_char v)); [|discriminate]. apply N.eqb_eq in R. now subst.
Qed.

Lemma dec_char_some c v : dec_char c = Some v -> v < 64 /\ enc_char v = c.
Proof.
  intros H. destruct (N.lt_ge_cases c 123) as [L|G].
  - assert (S : forallb (fun c => match dec_char c with Some v => (v <? 64) && (enc_char v =? c) | None => true end)
                        (nrange 123) = true) by (vm_compute; reflexivity).
    pose proof (sweep1 _ 123 S c L) as R. cbv beta in R. rewrite H in R.
    apply andb_prop in R. destruct R as [R1 R2]. split; [now apply N.ltb_lt|now apply N.eqb_eq].
  - assert (E : forall k, k < 123 -> (c <=? k) = false /\ (c =? k) = false)
      by (clear -G; intros k Hk; split; [apply N.leb_gt|apply N.eqb_neq]; lia).
    unfold dec_char in H.
    rewrite (proj1 (E 90 eq_refl)), (proj1 (E 122 eq_refl)), (proj1 (E 57 eq_refl)),
      (proj2 (E 45 eq_refl)), (proj2 (E 95 eq_refl)), !andb_false_r in H. discriminate.
Qed.

Lemma enc_char_inj v w : v < 64 -> w < 64 -> enc_char v = enc_char w -> v = w.
Proof.
  intros Hv Hw H. pose proof (dec_enc_char v Hv) as A. rewrite H, (dec_enc_char w Hw) in A.
  now inversion A.
Qed.

Lemma enc_char_not_crlf v : is_crlf (enc_char v) = false.
Proof.
  unfold is_crlf, enc_char.
  repeat match goal with |- context [if ?b then _ else _] => destruct b eqn:? end; lia.
Qed.

(* ------------------------------------------------ base64 groups (arithmetic) *)

(* a full group: the four base-64 digits of a 24-bit value put it together again, and
   the base-256 digits of what three bytes were put together to are the bytes *)
Lemma q4_enc a b c : a < 256 -> b < 256 -> c < 256 ->
  quantum_bytes [sx (enc_val a b c) 18; sx (enc_val a b c) 12; sx (enc_val a b c) 6; sx (enc_val a b c) 0]
  = [a; b; c].
Proof.
  intros Ha Hb Hc. unfold quantum_bytes. rewrite dec_val_arith, !sx_arith, enc_val_arith by (assumption || apply sx_lt).
  pow_lit. assert (B : (a * 256 + b) * 256 + c < 256 * 256 * 256) by now repeat apply cat_lt.
  rewrite N.div_1_r, (N.mod_small (_ / 262144)) by now apply div_lt.
  rewrite (div_mod_cat2 4096 64 262144), (div_mod_cat2 64 64 4096), div_mod_cat by easy.
  rewrite !byte_mod, !shr_div. pow_lit. change 65536 with (256 * 256).
  rewrite <- N.div_div by discriminate. rewrite !cat_div, !cat_mod by assumption. now rewrite N.mod_small.
Qed.

(* ... and the same with the two bases exchanged *)
Lemma q4_dec d0 d1 d2 d3 : d0 < 64 -> d1 < 64 -> d2 < 64 -> d3 < 64 ->
  b64_sextets (quantum_bytes [d0; d1; d2; d3]) = [d0; d1; d2; d3].
Proof.
  intros H0 H1 H2 H3. unfold quantum_bytes. cbn [b64_sextets].
  rewrite enc_val_arith, !byte_mod, !shr_div, dec_val_arith by (assumption || apply byte_lt).
  pow_lit. assert (B : ((d0 * 64 + d1) * 64 + d2) * 64 + d3 < 64 * 64 * 64 * 64) by now repeat apply cat_lt.
  rewrite (N.mod_small (_ / 65536)) by now apply div_lt.
  rewrite (div_mod_cat2 256 256 65536), div_mod_cat by easy.
  rewrite !sx_arith. pow_lit. change 262144 with (64 * 64 * 64). change 4096 with (64 * 64).
  rewrite <- !N.div_div by discriminate. rewrite N.div_1_r, !cat_div, !cat_mod by assumption. now rewrite N.mod_small.
Qed.

(* a partial group is a full group whose missing indices are 0 ... *)
Lemma enc_val_low0 a b : b < 256 -> sx (enc_val a b 0) 0 = 0 /\ (b = 0 -> sx (enc_val a b 0) 6 = 0).
Proof.
  intros Hb. rewrite enc_val_arith, !sx_arith, N.add_0_r by easy. pow_lit. split.
  - change 256 with (4 * 64) at 2. now rewrite N.div_1_r, N.mul_assoc, N.mod_mul.
  - intros ->. rewrite N.add_0_r, <- N.mul_assoc. change (256 * 256) with (16 * 64 * 64).
    now rewrite N.mul_assoc, N.div_mul, N.mul_assoc, N.mod_mul.
Qed.

Lemma q3_enc a b : a < 256 -> b < 256 ->
  quantum_bytes [sx (enc_val a b 0) 18; sx (enc_val a b 0) 12; sx (enc_val a b 0) 6] = [a; b].
Proof.
  intros Ha Hb. pose proof (q4_enc a b 0 Ha Hb eq_refl) as Q.
  rewrite (proj1 (enc_val_low0 a b Hb)) in Q. exact (f_equal (firstn 2) Q).
Qed.

Lemma q2_enc a : a < 256 ->
  quantum_bytes [sx (enc_val a 0 0) 18; sx (enc_val a 0 0) 12] = [a].
Proof.
  intros Ha. pose proof (q4_enc a 0 0 Ha eq_refl eq_refl) as Q.
  destruct (enc_val_low0 a 0 eq_refl) as [Z0 Z6]. rewrite Z0, Z6 in Q by reflexivity.
  exact (f_equal (firstn 1) Q).
Qed.

(* ... and in the other direction: with the last index split into the bits
   that are used and the unused trailing bits [k], the latter do not reach the
   bytes (non-strict decoding) *)
Lemma q4_pad3 d0 d1 q k : d1 < 64 -> q < 16 -> k < 4 ->
  quantum_bytes [d0; d1; 4 * q + k; 0] =
  [((d0 * 64 + d1) * 16 + q) / 256 mod 256; ((d0 * 64 + d1) * 16 + q) mod 256; k * 64].
Proof.
  intros H1 Hq Hk. unfold quantum_bytes. rewrite dec_val_arith by lia.
  replace (_ + 0) with (((d0 * 64 + d1) * 16 + q) * 256 + k * 64) by ring.
  rewrite !byte_mod, !shr_div. pow_lit. change 65536 with (256 * 256).
  rewrite <- N.div_div by discriminate. rewrite !cat_div, cat_mod by lia. reflexivity.
Qed.

Lemma q4_pad2 d0 q k : q < 4 -> k < 16 ->
  quantum_bytes [d0; 16 * q + k; 0; 0] = [(d0 * 4 + q) mod 256; k * 16; 0].
Proof.
  intros Hq Hk. unfold quantum_bytes. rewrite dec_val_arith by lia.
  replace (_ + 0) with (((d0 * 4 + q) * 256 + k * 16) * 256 + 0) by ring.
  rewrite !byte_mod, !shr_div. pow_lit. change 65536 with (256 * 256).
  rewrite <- N.div_div by discriminate. rewrite !cat_div, !cat_mod by lia. reflexivity.
Qed.

Lemma q3_pad d0 d1 q k : d1 < 64 -> q < 16 -> k < 4 ->
  quantum_bytes [d0; d1; 4 * q + k] = [((d0 * 64 + d1) * 16 + q) / 256 mod 256; ((d0 * 64 + d1) * 16 + q) mod 256].
Proof. intros H1 Hq Hk. exact (f_equal (firstn 2) (q4_pad3 d0 d1 q k H1 Hq Hk)). Qed.

Lemma q2_pad d0 q k : q < 4 -> k < 16 -> quantum_bytes [d0; 16 * q + k] = [(d0 * 4 + q) mod 256].
Proof. intros Hq Hk. exact (f_equal (firstn 1) (q4_pad2 d0 q k Hq Hk)). Qed.

Lemma q3_trailing d0 d1 d2 k : d0 < 64 -> d1 < 64 -> d2 < 64 -> d2 mod 4 = 0 -> k < 4 ->
  quantum_bytes [d0; d1; d2 + k] = quantum_bytes [d0; d1; d2].
Proof.
  intros _ H1 H2 Hm Hk. assert (Hq : d2 / 4 < 16) by now apply div_lt.
  rewrite (N.div_mod' d2 4), Hm, (q3_pad d0 d1 (d2 / 4) 0), N.add_0_r by easy. now apply q3_pad.
Qed.

Lemma q2_trailing d0 d1 k : d0 < 64 -> d1 < 64 -> d1 mod 16 = 0 -> k < 16 ->
  quantum_bytes [d0; d1 + k] = quantum_bytes [d0; d1].
Proof.
  intros _ H1 Hm Hk. assert (Hq : d1 / 16 < 4) by now apply div_lt.
  rewrite (N.div_mod' d1 16), Hm, (q2_pad d0 (d1 / 16) 0), N.add_0_r by easy. now apply q2_pad.
Qed.

Lemma q3_dec d0 d1 d2 : d0 < 64 -> d1 < 64 -> d2 < 64 ->
  b64_sextets (quantum_bytes [d0; d1; d2]) = [d0; d1; d2 / 4 * 4].
Proof.
  intros H0 H1 H2. assert (Hq : d2 / 4 < 16) by now apply div_lt.
  pose proof (q4_dec d0 d1 (4 * (d2 / 4) + 0) 0 H0 H1) as Q.
  rewrite q4_pad3, N.add_0_r, (N.mul_comm 4) in Q by easy.
  rewrite (N.div_mod' d2 4) at 1. rewrite q3_pad by (try apply N.mod_lt; easy).
  refine (f_equal (firstn 3) (Q _ eq_refl)).
  apply N.le_lt_trans with d2; [rewrite N.mul_comm; now apply N.mul_div_le | exact H2].
Qed.

Lemma q2_dec d0 d1 : d0 < 64 -> d1 < 64 ->
  b64_sextets (quantum_bytes [d0; d1]) = [d0; d1 / 16 * 16].
Proof.
  intros H0 H1. assert (Hq : d1 / 16 < 4) by now apply div_lt.
  pose proof (q4_dec d0 (16 * (d1 / 16) + 0) 0 0 H0) as Q.
  rewrite q4_pad2, N.add_0_r, (N.mul_comm 16) in Q by easy.
  rewrite (N.div_mod' d1 16) at 1. rewrite q2_pad by (try apply N.mod_lt; easy).
  refine (f_equal (firstn 2) (Q _ eq_refl eq_refl)).
  apply N.le_lt_trans with d1; [rewrite N.mul_comm; now apply N.mul_div_le | exact H1].
Qed.

(* ------------------------------------------------ whole strings (base64) *)

Lemma list_ind4 {A} (P : list A -> Prop) :
  P [] -> (forall a, P [a]) -> (forall a b, P [a; b]) -> (forall a b c, P [a; b; c]) ->
  (forall a b c d l, P l -> P (a :: b :: c :: d :: l)) -> forall l, P l.
Proof.
  intros H0 H1 H2 H3 H4. fix IH 1.
  intros [|a [|b [|c [|d l]]]]; [apply H0|apply H1|apply H2|apply H3|apply H4; apply IH].
Qed.

Lemma list_ind3 {A} (P : list A -> Prop) :
  P [] -> (forall a, P [a]) -> (forall a b, P [a; b]) ->
  (forall a b c l, P l -> P (a :: b :: c :: l)) -> forall l, P l.
Proof.
  intros H0 H1 H2 H3. fix IH 1.
  intros [|a [|b [|c l]]]; [apply H0|apply H1|apply H2|apply H3; apply IH].
Qed.

(* group-wise decoding of a list of 6-bit indices *)
Fixpoint sx_bytes (l : list N) : list N :=
  match l with
  | d0 :: d1 :: d2 :: d3 :: rest => quantum_bytes [d0; d1; d2; d3] ++ sx_bytes rest
  | _ => quantum_bytes l
  end.

(* what re-encoding the decoded bytes gives: the unused trailing bits cleared *)
Fixpoint canon (l : list N) : list N :=
  match l with
  | d0 :: d1 :: d2 :: d3 :: rest => d0 :: d1 :: d2 :: d3 :: canon rest
  | [d0; d1; d2] => [d0; d1; d2 / 4 * 4]
  | [d0; d1] => [d0; d1 / 16 * 16]
  | _ => []
  end.

Definition lt64 (v : N) : Prop := v < 64.
Definition lt256 (v : N) : Prop := v < 256.

Lemma dec_loop_valid d rest q out : d < 64 ->
  b64_dec_loop (enc_char d :: rest) q out =
  if Nat.eqb (length (q ++ [d])) 4 then b64_dec_loop rest [] (out ++ quantum_bytes (q ++ [d]))
  else b64_dec_loop rest (q ++ [d]) out.
Proof. intros H. cbn [b64_dec_loop]. rewrite dec_enc_char by assumption. reflexivity. Qed.

(* decoding a text made of alphabet characters only = group-wise decoding *)
Lemma dec_loop_all_valid l : Forall lt64 l -> forall out,
  fst (b64_dec_loop (map enc_char l) [] out) = out ++ sx_bytes l.
Proof.
  induction l as [| a | a b | a b c | a b c d l IH] using list_ind4; intros HF out.
  - cbn. now rewrite app_nil_r.
  - inversion_clear HF. cbn [map]. rewrite dec_loop_valid by assumption. cbn. now rewrite app_nil_r.
  - rewrite !Forall_cons_iff in HF. destruct HF as (Ha & Hb & _).
    cbn [map]. rewrite !dec_loop_valid by assumption. reflexivity.
  - rewrite !Forall_cons_iff in HF. destruct HF as (Ha & Hb & Hc & _).
    cbn [map]. rewrite !dec_loop_valid by assumption. reflexivity.
  - rewrite !Forall_cons_iff in HF. destruct HF as (Ha & Hb & Hc & Hd & HF).
    cbn [map]. rewrite !dec_loop_valid by assumption. cbn [app length Nat.eqb].
    rewrite IH by assumption. cbn [sx_bytes]. now rewrite app_assoc.
Qed.

Lemma sextets_lt64 bs : Forall lt64 (b64_sextets bs).
Proof.
  induction bs as [| a | a b | a b c l IH] using list_ind3; cbn [b64_sextets];
    repeat constructor; try apply sx_lt. exact IH.
Qed.

(* bytes -> indices -> bytes *)
Lemma sx_bytes_sextets bs : Forall lt256 bs -> sx_bytes (b64_sextets bs) = bs.
Proof.
  induction bs as [| a | a b | a b c l IH] using list_ind3; intros HF.
  - reflexivity.
  - inversion_clear HF. cbn [b64_sextets sx_bytes]. now apply q2_enc.
  - rewrite !Forall_cons_iff in HF. destruct HF as (Ha & Hb & _).
    cbn [b64_sextets sx_bytes]. now apply q3_enc.
  - rewrite !Forall_cons_iff in HF. destruct HF as (Ha & Hb & Hc & HF').
    cbn [b64_sextets sx_bytes]. rewrite q4_enc by assumption. rewrite IH by assumption. reflexivity.
Qed.

(* Decode (Encode bs) = bs: every byte string, every length *)
Theorem b64_decode_encode bs : Forall lt256 bs -> fst (b64_decode (b64_encode bs)) = bs.
Proof.
  intros H. unfold b64_decode, b64_encode.
  rewrite dec_loop_all_valid by apply sextets_lt64. cbn [app]. now apply sx_bytes_sextets.
Qed.

Lemma quantum4_shape a b c d : exists x y z, quantum_bytes [a; b; c; d] = [x; y; z].
Proof. repeat eexists. Qed.

(* indices -> bytes -> indices: the same but for the unused trailing bits *)
Lemma sextets_sx_bytes l : Forall lt64 l -> b64_sextets (sx_bytes l) = canon l.
Proof.
  induction l as [| a | a b | a b c | a b c d l IH] using list_ind4; intros HF.
  - reflexivity.
  - reflexivity.
  - rewrite !Forall_cons_iff in HF. destruct HF as (Ha & Hb & _).
    cbn [sx_bytes canon]. now apply q2_dec.
  - rewrite !Forall_cons_iff in HF. destruct HF as (Ha & Hb & Hc & _).
    cbn [sx_bytes canon]. now apply q3_dec.
  - rewrite !Forall_cons_iff in HF. destruct HF as (Ha & Hb & Hc & Hd & HF).
    cbn [sx_bytes canon]. pose proof (q4_dec a b c d Ha Hb Hc Hd) as Q.
    destruct (quantum4_shape a b c d) as (x & y & z & E). rewrite E in *.
    cbn [app]. cbn [b64_sextets] in Q |- *. inversion Q as [[Q0 Q1 Q2 Q3]].
    rewrite Q0, Q1, Q2, Q3. rewrite IH by assumption. reflexivity.
Qed.

Lemma sx_bytes_lt256 l : Forall lt256 (sx_bytes l).
Proof.
  induction l as [| a | a b | a b c | a b c d l IH] using list_ind4; cbn [sx_bytes quantum_bytes app];
    repeat constructor; try apply byte_lt. exact IH.
Qed.

(* ---- the count of decoded bytes is bounded by the number of alphabet characters *)

Definition valid_char (c : N) : bool := match dec_char c with Some _ => true | None => false end.
Definition dec_or0 (c : N) : N := match dec_char c with Some v => v | None => 0 end.

Lemma dec_loop_count src : forall q out, (length q < 4)%nat ->
  (4 * length (fst (b64_dec_loop src q out)) <= 4 * length out + 3 * (length q + length (filter valid_char src)))%nat.
Proof.
  induction src as [|c rest IH]; intros q out Hq.
  - destruct q as [|a [|b [|d [|e q]]]]; cbn in *; rewrite ?app_length; cbn; lia.
  - cbn [b64_dec_loop filter]. unfold valid_char at 1. destruct (dec_char c) as [v|] eqn:E.
    + destruct q as [|a [|b [|d [|e q]]]]; cbn [app length Nat.eqb] in *; try lia.
      * specialize (IH [v] out). cbn in IH. lia.
      * specialize (IH [a; v] out). cbn in IH. lia.
      * specialize (IH [a; b; v] out). cbn in IH. lia.
      * destruct (quantum4_shape a b d v) as (x & y & z & Q). rewrite Q.
        specialize (IH [] (out ++ [x; y; z])). rewrite app_length in IH. cbn [length] in IH. lia.
    + destruct (is_crlf c).
      * specialize (IH q out Hq). lia.
      * cbn. lia.
Qed.

Lemma filter_length_all {A} (f : A -> bool) l :
  (length l <= length (filter f l))%nat -> forallb f l = true.
Proof.
  induction l as [|x l IH]; cbn; intros H; [reflexivity|].
  assert (L : (length (filter f l) <= length l)%nat).
  { clear. induction l as [|y l IH]; cbn; [lia|]. destruct (f y); cbn; lia. }
  destruct (f x); cbn in *; [apply IH; lia | lia].
Qed.

Lemma all_valid_map s : forallb valid_char s = true ->
  map enc_char (map dec_or0 s) = s /\ Forall lt64 (map dec_or0 s).
Proof.
  induction s as [|c s IH]; cbn; intros H; [split; constructor|].
  apply andb_prop in H. destruct H as [Hc Hs]. destruct (IH Hs) as [E F].
  unfold valid_char, dec_or0 in *. destruct (dec_char c) as [v|] eqn:D; [|discriminate].
  destruct (dec_char_some c v D) as [Hv Ec]. split.
  - now rewrite Ec, E.
  - constructor; assumption.
Qed.

(* a text of n characters from which at least m bytes come out, with
   3 * (n - 1) < 4 * m, consists of alphabet characters only *)
Lemma decode_count_all_valid s m :
  (m <= length (fst (b64_decode s)))%nat -> (3 * length s < 4 * m + 3)%nat ->
  exists l, s = map enc_char l /\ Forall lt64 l /\ fst (b64_decode s) = sx_bytes l.
Proof.
  intros Hm Hn. unfold b64_decode in *.
  pose proof (dec_loop_count s [] [] ltac:(cbn; lia)) as C. cbn [length] in C.
  assert (V : forallb valid_char s = true) by (apply filter_length_all; lia).
  destruct (all_valid_map s V) as [E F]. exists (map dec_or0 s). repeat split; auto.
  rewrite <- E at 1. now rewrite dec_loop_all_valid.
Qed.

(* ------------------------------------------------ base32 (as far as String32 / ParseUid32 need) *)

(* the lower-case alphabet "abcdefghijklmnopqrstuvwxyz234567" *)
Definition enc32l_char (v : N) : N := if v <? 26 then v + 97 else v + 24.

Lemma lower_enc32 v : v < 32 -> lower_ascii (enc32_char v) = enc32l_char v.
Proof.
  intros H. unfold enc32_char, enc32l_char. destruct (v <? 26) eqn:E; unfold lower_ascii;
  match goal with |- context [if ?b then _ else _] => destruct b eqn:? end; lia.
Qed.

Lemma dec32l_enc32l v : v < 32 -> dec32l_char (enc32l_char v) = Some v.
Proof.
  intros H. unfold enc32l_char. destruct (v <? 26) eqn:E; unfold dec32l_char;
  repeat match goal with |- context [if ?b then _ else _] => destruct b eqn:? end;
    try (f_equal; lia); lia.
Qed.

Lemma enc32l_plain v : v < 32 -> (enc32l_char v =? 255) = false /\ is_crlf (enc32l_char v) = false.
Proof.
  intros H. unfold enc32l_char, is_crlf. destruct (v <? 26) eqn:E; split; lia.
Qed.

Lemma b32_loop_valid v rest q out : v < 32 ->
  b32_dec_loop dec32l_char (enc32l_char v :: rest) q out =
  if Nat.eqb (length (q ++ [v])) 8 then b32_dec_loop dec32l_char rest [] (out ++ b32_pack (q ++ [v]))
  else b32_dec_loop dec32l_char rest (q ++ [v]) out.
Proof.
  intros H. cbn [b32_dec_loop]. destruct (enc32l_plain v H) as [E _]. rewrite E. cbn [andb].
  now rewrite dec32l_enc32l.
Qed.

Lemma b32_hi_arith b0 b1 b2 b3 : b1 < 256 -> b2 < 256 -> b3 < 256 ->
  b32_hi b0 b1 b2 b3 = ((b0 * 256 + b1) * 256 + b2) * 256 + b3.
Proof.
  intros. unfold b32_hi. change 24 with (8 + 8 + 8). change 16 with (8 + 8).
  rewrite <- !N.shiftl_shiftl, <- !N.shiftl_lor. rewrite !lor_cat by assumption. reflexivity.
Qed.

Lemma b32_lo_arith b0 b1 b2 b3 b4 : b1 < 256 -> b2 < 256 -> b3 < 256 -> b4 < 256 ->
  b32_lo (((b0 * 256 + b1) * 256 + b2) * 256 + b3) b4 = ((b1 * 256 + b2) * 256 + b3) * 256 + b4.
Proof.
  intros. unfold b32_lo, u32. rewrite (land_mod 32), shl_mul. change (2^32) with (2^24 * 2^8).
  rewrite N.mul_mod_distr_r, <- shl_mul, lor_cat by (assumption || discriminate). f_equal. f_equal.
  pow_lit. replace (_ + b3) with (b0 * 16777216 + ((b1 * 256 + b2) * 256 + b3)) by ring.
  apply cat_mod. lia.
Qed.

(* the 5-bit values Encode takes out of a full group, in terms of the bytes *)
Section Quintets.
  Variables b0 b1 b2 b3 : N.
  Hypothesis (H0 : b0 < 256) (H1 : b1 < 256) (H2 : b2 < 256) (H3 : b3 < 256).
  Let hi := ((b0 * 256 + b1) * 256 + b2) * 256 + b3.

  Lemma g5_q0 : hi / 134217728 mod 32 = b0 / 8.
  Proof.
    unfold hi. change 134217728 with (256 * 256 * 256 * 8). rewrite <- !N.div_div by discriminate.
    rewrite !cat_div by assumption. apply N.mod_small. now apply N.div_lt_upper_bound.
  Qed.
  Lemma g5_q1 : hi / 4194304 mod 32 = (b0 mod 8) * 4 + b1 / 64.
  Proof.
    unfold hi. change 4194304 with (256 * 256 * 64). rewrite <- !N.div_div by discriminate.
    rewrite !cat_div by assumption. rewrite (cat_div_lo 64 4 256), (cat_mod_hi 4 8 32); try easy.
    now apply N.div_lt_upper_bound.
  Qed.
  Lemma g5_q2 : hi / 131072 mod 32 = (b1 / 2) mod 32.
  Proof.
    unfold hi. change 131072 with (256 * 256 * 2). rewrite <- !N.div_div by discriminate.
    rewrite !cat_div by assumption. now rewrite (cat_div_lo 2 128 256), (cat_mod_lo 32 4 128).
  Qed.
  Lemma g5_q3 : hi / 4096 mod 32 = (b1 mod 2) * 16 + b2 / 16.
  Proof.
    unfold hi. change 4096 with (256 * 16). rewrite <- !N.div_div by discriminate.
    rewrite !cat_div by assumption. rewrite (cat_div_lo 16 16 256), (cat_mod_hi 16 2 32), (cat_mod_lo 2 128 256); try easy.
    now apply N.div_lt_upper_bound.
  Qed.
  Lemma g5_q4 : hi / 128 mod 32 = (b2 mod 16) * 2 + b3 / 128.
  Proof.
    unfold hi. rewrite (cat_div_lo 128 2 256), (cat_mod_hi 2 16 32), (cat_mod_lo 16 16 256); try easy.
    now apply N.div_lt_upper_bound.
  Qed.
  Lemma g5_q5 : hi / 4 mod 32 = (b3 / 4) mod 32.
  Proof. unfold hi. now rewrite (cat_div_lo 4 64 256), (cat_mod_lo 32 2 64). Qed.
  Lemma g5_q6 : hi / 32 mod 32 = (b2 mod 4) * 8 + b3 / 32.
  Proof.
    unfold hi. rewrite (cat_div_lo 32 8 256), (cat_mod_hi 8 4 32), (cat_mod_lo 4 64 256); try easy.
    now apply N.div_lt_upper_bound.
  Qed.
  Lemma g5_q7 : hi / 1 mod 32 = b3 mod 32.
  Proof. unfold hi. now rewrite N.div_1_r, (cat_mod_lo 32 8 256). Qed.
End Quintets.

(* decode truncates every shifted byte to a byte: [j] bits of [x] survive *)
Lemma byte_shl j k x : j + k = 8 -> byte (N.shiftl x k) = N.shiftl (x mod 2^j) k.
Proof.
  intros E. rewrite byte_mod, !shl_mul. change 256 with (2^8). rewrite <- E, N.pow_add_r.
  apply N.mul_mod_distr_r; apply N.pow_nonzero; discriminate.
Qed.

Lemma shr_lt x j k : x < 2^(j + k) -> N.shiftr x j < 2^k.
Proof.
  intros H. rewrite shr_div. apply N.div_lt_upper_bound; [apply N.pow_nonzero; discriminate|].
  now rewrite <- N.pow_add_r.
Qed.

(* the bytes decode packs, in arithmetic form (5-bit values) *)
Lemma pack_b0 d0 d1 : d0 < 32 -> d1 < 32 ->
  N.lor (byte (N.shiftl d0 3)) (N.shiftr d1 2) = d0 * 8 + d1 / 4.
Proof.
  intros H0 H1. rewrite (byte_shl 5 3), (N.mod_small d0), lor_cat, shr_div by (easy || now apply (shr_lt d1 2 3)).
  reflexivity.
Qed.
Lemma pack_b1 d1 d2 d3 : d2 < 32 -> d3 < 32 ->
  N.lor (N.lor (byte (N.shiftl d1 6)) (byte (N.shiftl d2 1))) (N.shiftr d3 4) = ((d1 mod 4) * 32 + d2) * 2 + d3 / 16.
Proof.
  intros H2 H3. rewrite (byte_shl 2 6), (byte_shl 7 1), (N.mod_small d2) by (easy || lia).
  change 6 with (5 + 1). rewrite <- N.shiftl_shiftl, <- N.shiftl_lor.
  rewrite !lor_cat, shr_div by (easy || now apply (shr_lt d3 4 1)). reflexivity.
Qed.
Lemma pack_b2 d3 d4 : d4 < 32 ->
  N.lor (byte (N.shiftl d3 4)) (N.shiftr d4 1) = (d3 mod 16) * 16 + d4 / 2.
Proof.
  intros H4. rewrite (byte_shl 4 4), lor_cat, shr_div by (easy || now apply (shr_lt d4 1 4)). reflexivity.
Qed.
Lemma pack_b3 d4 d5 d6 : d5 < 32 -> d6 < 32 ->
  N.lor (N.lor (byte (N.shiftl d4 7)) (byte (N.shiftl d5 2))) (N.shiftr d6 3) = ((d4 mod 2) * 32 + d5) * 4 + d6 / 8.
Proof.
  intros H5 H6. rewrite (byte_shl 1 7), (byte_shl 6 2), (N.mod_small d5) by (easy || lia).
  change 7 with (5 + 2). rewrite <- N.shiftl_shiftl, <- N.shiftl_lor.
  rewrite !lor_cat, shr_div by (easy || now apply (shr_lt d6 3 2)). reflexivity.
Qed.
Lemma pack_b4 d6 d7 : d7 < 32 ->
  N.lor (byte (N.shiftl d6 5)) d7 = (d6 mod 8) * 32 + d7.
Proof. intros H7. now rewrite (byte_shl 3 5), lor_cat. Qed.

(* a full group: 5 bytes -> 8 values -> the same 5 bytes *)
Lemma b32_group5 b0 b1 b2 b3 b4 : b0 < 256 -> b1 < 256 -> b2 < 256 -> b3 < 256 -> b4 < 256 ->
  let hi := b32_hi b0 b1 b2 b3 in
  let lo := b32_lo hi b4 in
  b32_pack [q5 hi 27; q5 hi 22; q5 hi 17; q5 hi 12; q5 hi 7; q5 hi 2; q5 lo 5; q5 lo 0] = [b0; b1; b2; b3; b4].
Proof.
  intros H0 H1 H2 H3 H4 hi lo. cbn [b32_pack].
  rewrite pack_b0, pack_b1, pack_b2, pack_b3, pack_b4 by apply q5_lt.
  subst lo hi. rewrite !q5_arith, b32_hi_arith, b32_lo_arith by assumption. pow_lit.
  rewrite g5_q0, g5_q1, g5_q2, g5_q3, g5_q4, g5_q5, g5_q6, g5_q7 by assumption.
  rewrite !cat_div, !cat_mod by now apply div_lt.
  rewrite (div_mod_cat2 2 32 64 b1), (div_mod_cat2 4 32 128 b3), !div_mod_cat by easy. reflexivity.
Qed.

Lemma b32_tail3 b0 b1 b2 : b32_tail [b0; b1; b2] =
  [q5 (b32_hi b0 b1 b2 0) 27; q5 (b32_hi b0 b1 b2 0) 22; q5 (b32_hi 0 b1 b2 0) 17; q5 (b32_hi 0 b1 b2 0) 12;
   q5 (b32_hi 0 0 b2 0) 7].
Proof.
  cbn [b32_tail]. unfold b32_hi. rewrite !N.shiftl_0_l, !N.lor_0_l, !N.lor_0_r.
  now rewrite (N.lor_comm (N.shiftl b2 8)), (N.lor_comm _ (N.shiftl b0 24)), N.lor_assoc.
Qed.

(* the 3-byte tail: 3 bytes -> 5 values -> the same 3 bytes *)
Lemma b32_group3 b0 b1 b2 : b0 < 256 -> b1 < 256 -> b2 < 256 ->
  b32_pack (b32_tail [b0; b1; b2]) = [b0; b1; b2].
Proof.
  intros H0 H1 H2. rewrite b32_tail3. cbn [b32_pack].
  rewrite pack_b0, pack_b1, pack_b2 by apply q5_lt.
  rewrite !q5_arith, !b32_hi_arith by easy. pow_lit.
  rewrite g5_q0, g5_q1, (g5_q2 0), (g5_q3 0), (g5_q4 0 0) by easy.
  rewrite !cat_div, !cat_mod by now apply div_lt.
  rewrite (div_mod_cat2 2 32 64 b1), !div_mod_cat by easy. reflexivity.
Qed.
