(* Insertion sort, for any function that satisfies the two equations of insertion.  The model has
   several of them (Ranges.insert, Topic.insert_desc, Topic.insert_del, the ring's and the tags'),
   sorting by [fold_right] or
   by [fold_left]; what is proved here is what their proofs use: the result is a permutation, and
   it is ordered by any transitive relation that the comparison decides. *)
From Coq Require Import List Permutation Sorted.
Import ListNotations.

Section Insertion.
Context {A : Type} (before : A -> A -> bool) (ins : A -> list A -> list A).
Hypothesis ins_nil : forall a, ins a [] = [a].
Hypothesis ins_cons : forall a x l, ins a (x :: l) = if before a x then a :: x :: l else x :: ins a l.

Lemma ins_perm a l : Permutation (ins a l) (a :: l).
Proof.
  induction l as [|x l IH]; [now rewrite ins_nil|]. rewrite ins_cons.
  destruct (before a x); [reflexivity|]. rewrite IH. apply perm_swap.
Qed.

Lemma isort_perm l : Permutation (fold_right ins [] l) l.
Proof. induction l as [|a l IH]; cbn [fold_right]; [reflexivity|]. rewrite ins_perm. now constructor. Qed.

Lemma isort_left_perm l : forall acc, Permutation (fold_left (fun acc a => ins a acc) l acc) (l ++ acc).
Proof.
  induction l as [|a l IH]; intros acc; cbn [fold_left app]; [reflexivity|].
  rewrite IH, ins_perm. symmetry. apply Permutation_middle.
Qed.

Variable R : A -> A -> Prop.
Hypothesis R_before : forall a x, before a x = true -> R a x.
Hypothesis R_after : forall a x, before a x = false -> R x a.
Hypothesis R_trans : forall a b c, R a b -> R b c -> R a c.

Lemma ins_sorted a l : StronglySorted R l -> StronglySorted R (ins a l).
Proof.
  induction 1 as [|x l Hs IH Hf]; [rewrite ins_nil; repeat constructor|]. rewrite ins_cons.
  destruct (before a x) eqn:E.
  - constructor; [now constructor|]. constructor; [now apply R_before|].
    eapply Forall_impl; [|exact Hf]. intros z. apply R_trans. now apply R_before.
  - constructor; [exact IH|]. eapply Permutation_Forall; [symmetry; apply ins_perm|].
    constructor; [now apply R_after|exact Hf].
Qed.

Lemma isort_sorted l : StronglySorted R (fold_right ins [] l).
Proof. induction l as [|a l IH]; cbn [fold_right]; [constructor|]. now apply ins_sorted. Qed.
End Insertion.
